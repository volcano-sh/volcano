(* Proofs about the C10 model: the tree invariant is preserved by every
   admitted request, hence by every history. *)
From stdpp Require Import gmap.
From Coq Require Import ZArith Lia.
From V Require Import Base.Res Base.ResLemmas C10.Model C10.Laws.
Open Scope Z_scope.

(* n is a queue of Q whose parent links lead to the root in exactly k links *)
Inductive reach (Q : queues) : positive -> nat -> Prop :=
| reach_top n s : Q !! n = Some s -> is_top (qparent s) = true -> reach Q n 1
| reach_up n s p k : Q !! n = Some s -> qparent s = Some p -> p <> root ->
                     reach Q p k -> reach Q n (S k).

Definition ShapeInv (c : cfg) (Q : queues) : Prop :=
  (exists sr, Q !! root = Some sr /\ qparent sr = None) /\
  forall n s, Q !! n = Some s -> n <> root -> exists k, reach Q n k /\ Z.of_nat k <= max_depth c.

Lemma is_top_some p : is_top (Some p) = true <-> p = root.
Proof. unfold is_top. rewrite bool_decide_eq_true. done. Qed.

Lemma reach_inv Q n s k : reach Q n k -> Q !! n = Some s ->
  (is_top (qparent s) = true /\ k = 1%nat) \/
  exists p k', qparent s = Some p /\ p <> root /\ reach Q p k' /\ k = S k'.
Proof. intros [n' s' Hn Ht|n' s' p k' Hn Hp Hr H] Hs; rewrite Hs in Hn; injection Hn as <-; eauto 8. Qed.

Lemma reach_fun Q n k1 k2 : reach Q n k1 -> reach Q n k2 -> k1 = k2.
Proof.
  intros H. revert k2. induction H as [n s Hn Ht|n s p k Hn Hp Hr H IH]; intros k2 H2;
    destruct (reach_inv _ _ _ _ H2 Hn) as [[Ht2 ->]|(p2 & k' & Hp2 & Hr2 & H' & ->)].
  - done.
  - rewrite Hp2 in Ht. by apply is_top_some in Ht.
  - rewrite Hp in Ht2. by apply is_top_some in Ht2.
  - rewrite Hp in Hp2. injection Hp2 as <-. f_equal. by apply IH.
Qed.

Lemma reach_pos Q n k : reach Q n k -> (1 <= k)%nat.
Proof. destruct 1; lia. Qed.

(* m lies j parent links below n *)
Inductive below (Q : queues) : positive -> nat -> positive -> Prop :=
| below_refl m : below Q m 0 m
| below_step m j c sc n : Q !! c = Some sc -> qparent sc = Some n -> below Q m j c -> below Q m (S j) n.

Lemma below_snoc Q m s p j n :
  Q !! m = Some s -> qparent s = Some p -> below Q p j n -> below Q m (S j) n.
Proof.
  intros Hm Hp H. induction H as [x|x j c sc n Hc Hpc H IH].
  - eapply below_step; [exact Hm|exact Hp|constructor].
  - eapply below_step; [exact Hc|exact Hpc|]. by apply IH.
Qed.

Lemma reach_same_parent Q a o s m k :
  Q !! a = Some o -> qparent s = qparent o -> reach Q m k -> reach (<[a := s]> Q) m k.
Proof.
  intros Ha Hp. induction 1 as [n sn Hn Ht|n sn p k Hn Hpn Hr H IH];
    (destruct (decide (n = a)) as [->|Hne];
      [rewrite Ha in Hn; injection Hn as <-; rewrite <- Hp in *|]).
  - eapply reach_top; [by rewrite lookup_insert|done].
  - eapply reach_top; [by rewrite lookup_insert_ne|done].
  - eapply reach_up; [by rewrite lookup_insert|done..].
  - eapply reach_up; [by rewrite lookup_insert_ne|done..].
Qed.

(* no queue names n as its parent *)
Definition leaf (Q : queues) (n : positive) : Prop := forall m sm, Q !! m = Some sm -> qparent sm <> Some n.

Lemma reach_delete_leaf Q a m k : leaf Q a -> m <> a -> reach Q m k -> reach (delete a Q) m k.
Proof.
  intros Hleaf Hm H. induction H as [n sn Hn Ht|n sn p k Hn Hpn Hr H IH].
  - eapply reach_top; [by rewrite lookup_delete_ne|done].
  - eapply reach_up; [by rewrite lookup_delete_ne|done..|].
    apply IH. intros ->. by apply (Hleaf _ _ Hn).
Qed.

Lemma depth_walk_top rem Q self p : is_top p = true -> depth_walk rem Q self p = inr rem.
Proof. destruct p, rem; simpl; try done; by intros ->. Qed.

(* the depth walk of validateQueueDepth: the chain from p to the root does not pass through [self],
   so it is still there when [self] is replaced *)
Lemma depth_walk_ok rem : forall Q self s2 p rem',
  depth_walk rem Q self (Some p) = inr rem' -> p <> root ->
  exists k, reach (<[self := s2]> Q) p k /\ rem = (rem' + k)%nat.
Proof.
  induction rem as [|r IH]; intros Q self s2 p rem' H Hp; simpl in H;
    rewrite bool_decide_eq_false_2 in H by done; case_bool_decide as Hs; try done.
  destruct (Q !! p) as [ps|] eqn:Hq; [|done].
  assert (<[self := s2]> Q !! p = Some ps) as Hq' by by rewrite lookup_insert_ne.
  destruct (is_top (qparent ps)) eqn:Ht.
  - rewrite depth_walk_top in H by done. injection H as <-.
    exists 1%nat. split; [by eapply reach_top|lia].
  - destruct (qparent ps) as [p2|] eqn:Hp2; [|done]. apply bool_decide_eq_false in Ht.
    destruct (IH _ _ s2 _ _ H Ht) as (k & Hk & ->). exists (S k). split; [by eapply reach_up|lia].
Qed.

Lemma depth_walk_not_allowed rem : forall Q self parent,
  depth_walk rem Q self parent <> inl VAllowed.
Proof.
  induction rem as [|r IH]; intros Q self [p|]; simpl; try done.
  - destruct (bool_decide (p = root)); [done|]. destruct (bool_decide (p = self)); done.
  - destruct (bool_decide (p = root)); [done|]. destruct (bool_decide (p = self)); [done|].
    destruct (Q !! p); [apply IH|done].
Qed.

Lemma foldr_max_ge {A} (f : A -> nat) (l : list A) x :
  x ∈ l -> (f x <= foldr (fun c acc => Nat.max (f c) acc) O l)%nat.
Proof.
  induction l as [|y l IH]; intros Hx; [by apply elem_of_nil in Hx|].
  apply elem_of_cons in Hx as [->|Hx]; simpl; [lia|]. specialize (IH Hx). lia.
Qed.

Lemma elem_children Q p n s :
  (n, s) ∈ children_of Q p <-> Q !! n = Some s /\ qparent s = Some p.
Proof.
  unfold children_of. rewrite elem_of_list_filter, elem_of_map_to_list. simpl. tauto.
Qed.

Lemma children_nil Q p : children_of Q p = [] -> leaf Q p.
Proof.
  intros Hnil x sx Hx Hp. assert ((x, sx) ∈ children_of Q p) as Hin by by apply elem_children.
  rewrite Hnil in Hin. by apply elem_of_nil in Hin.
Qed.

(* the executable form of leaf in term_okb and delete_guardb *)
Lemma leafb_leaf Q n :
  forallb (fun ms => negb (bool_decide (qparent (snd ms) = Some n))) (map_to_list Q) = true <-> leaf Q n.
Proof.
  rewrite forallb_forall. split.
  - intros H m sm Hm. specialize (H (m, sm)). rewrite negb_true_iff, bool_decide_eq_false in H.
    apply H. by apply elem_of_list_In, elem_of_map_to_list.
  - intros H [m sm] Hm%elem_of_list_In%elem_of_map_to_list. rewrite negb_true_iff, bool_decide_eq_false.
    by eapply H.
Qed.

Lemma sub_height_below Q m j n :
  below Q m j n -> forall limit, (Nat.min j limit <= sub_height limit Q n)%nat.
Proof.
  induction 1 as [x|x j c sc n Hc Hpc H IH]; intros limit; [lia|].
  destruct limit as [|l]; [lia|]. simpl.
  assert ((c, sc) ∈ children_of Q n) as Hin by by apply elem_children.
  pose proof (foldr_max_ge (fun c0 : positive * qspec => S (sub_height l Q (fst c0))) _ _ Hin) as Hge.
  simpl in Hge. specialize (IH l). lia.
Qed.

(* what an admitted validateHierarchicalQueue went through: no parent, or a queue other than root
   directly under root, or a parent p below root that is not terminating, with the depth walk from p
   and the height of the subtree of n within the budget *)
Lemma validate_hier_allowed c Q n s :
  validate_hier c Q n s = VAllowed ->
  qparent s = None \/ n <> root /\
    (qparent s = Some root \/
     exists p rem ps, qparent s = Some p /\ p <> root /\ p <> n /\
       depth_walk (Z.to_nat (max_depth c - 1)) Q n (Some p) = inr rem /\
       (sub_height (S rem) Q n <= rem)%nat /\ Q !! p = Some ps /\ qterm ps = false).
Proof.
  unfold validate_hier, validate_hier_with. destruct (qparent s) as [p|]; [right|by left].
  case_bool_decide as Hn; [done|]. split; [done|]. case_bool_decide as Hr; [left; by subst|right].
  case_bool_decide as Hpn; [done|].
  destruct (depth_walk _ Q n (Some p)) as [v|rem] eqn:Hw; [subst; by apply depth_walk_not_allowed in Hw|].
  destruct (rem <? sub_height (S rem) Q n)%nat eqn:Hh; [done|]. apply Nat.ltb_ge in Hh.
  destruct (Q !! p) as [ps|] eqn:Hps; [|done]. destruct (qterm ps) eqn:Ht; [done|]. by exists p, rem, ps.
Qed.

(* hence the new place of n: its depth dn is within the bound, and so is everything below n
   unless n went directly under the root *)
Lemma hier_allowed c Q n s s2 :
  validate_hier c Q n s = VAllowed -> 1 <= max_depth c -> qparent s2 = qparent s ->
  exists dn, reach (<[n := s2]> Q) n dn /\ Z.of_nat dn <= max_depth c /\
    (dn = 1%nat \/ forall m j, below Q m j n -> Z.of_nat (j + dn) <= max_depth c).
Proof.
  intros H Hmax Hp2.
  destruct (validate_hier_allowed c Q n s H) as [Hp|[_ [Hp|(p & rem & ps & Hp & Hr & _ & Hw & Hh & _)]]].
  1,2: exists 1%nat; split; [|split; [lia|by left]];
       eapply reach_top; [by rewrite lookup_insert|by rewrite Hp2, Hp].
  destruct (depth_walk_ok _ _ _ s2 _ _ Hw Hr) as (k & Hk & Hrem).
  exists (S k). split; [|split].
  - eapply reach_up; [by rewrite lookup_insert|by rewrite Hp2|done..].
  - lia.
  - right. intros m j Hb. pose proof (sub_height_below _ _ _ _ Hb (S rem)). lia.
Qed.

(* moving n (with everything below it) to a place of depth dn: a queue m keeps its depth, or it
   lies j links below n, whose depth was kn, and ends at depth j + dn *)
Lemma reach_reparent Q n s' dn m k :
  reach (<[n := s']> Q) n dn -> reach Q m k ->
  reach (<[n := s']> Q) m k \/
  exists j kn, below Q m j n /\ reach Q n kn /\ k = (j + kn)%nat /\ reach (<[n := s']> Q) m (j + dn).
Proof.
  intros Hn H. induction H as [x sx Hx Ht|x sx p k Hx Hp Hr H IH];
    destruct (decide (x = n)) as [->|Hne].
  - right. exists 0%nat, 1%nat. split; [constructor|]. split; [by eapply reach_top|done].
  - left. eapply reach_top; [by rewrite lookup_insert_ne|done].
  - right. exists 0%nat, (S k). split; [constructor|]. split; [by eapply reach_up|done].
  - destruct IH as [IH|(j & kn & Hb & Hkn & -> & IH)].
    + left. eapply reach_up; [by rewrite lookup_insert_ne|done..].
    + right. exists (S j), kn. split; [by eapply below_snoc|]. split; [done|]. split; [done|].
      eapply reach_up; [by rewrite lookup_insert_ne|done..].
Qed.

Lemma first_bad_allowed {A} (g : A -> verdict) l x :
  first_bad (map g l) = VAllowed -> x ∈ l -> g x = VAllowed.
Proof.
  induction l as [|y l IH]; intros H Hx; [by apply elem_of_nil in Hx|].
  simpl in H. destruct (allowed (g y)) eqn:Hy; [|by rewrite H in Hy].
  apply elem_of_cons in Hx as [->|Hx]; [by destruct (g y)|by apply IH].
Qed.

(* the checks run in sequence and the first failing one decides (the model writes this match on
   expressions and on let-bound variables, which elaborate differently) *)
Lemma then_allowed v k :
  match (v : verdict) with VAllowed => k | v' => v' end = VAllowed -> v = VAllowed /\ k = VAllowed.
Proof. by destruct v. Qed.
Lemma then_allowed_var v k : match v with VAllowed => k | _ => v end = VAllowed -> v = VAllowed /\ k = VAllowed.
Proof. by destruct v. Qed.

(* an admitted CREATE / UPDATE: the quantities are valid; validateHierarchicalQueue ran or the parent
   is kept; for a queue other than root the hierarchical resource validation ran, or neither the
   parent nor the resources change *)
Lemma admit_cu_allowed c Q n s :
  admit_cu c Q n s (Q !! n) = VAllowed ->
  spec_ok s = true /\
  (validate_hier c Q n s = VAllowed \/ exists o, Q !! n = Some o /\ qparent o = qparent s) /\
  (n <> root -> validate_resources Q n s = VAllowed \/
     exists o, Q !! n = Some o /\ qparent o = qparent s /\
               qcap o = qcap s /\ qdes o = qdes s /\ qguar o = qguar s).
Proof.
  unfold admit_cu, admit_cu_with. destruct (spec_ok s); simpl; [|done].
  destruct (state_ok _); simpl; [|done]. intros [Hh H]%then_allowed. split; [done|]. split.
  - clear H. destruct (Q !! n) as [o|]; [|by left]. case_bool_decide; [right; by exists o|by left].
  - clear Hh. intros Hn. rewrite (bool_decide_eq_false_2 (n = root)), andb_false_r in H by done. simpl in H.
    destruct (Q !! n) as [o|]; [|by left]. case_bool_decide as Hp; simpl in H; [|by left].
    destruct (same_resources o s) eqn:Hsr; simpl in H; [right|by left].
    unfold same_resources in Hsr. rewrite !andb_true_iff, !bool_decide_eq_true in Hsr. exists o. tauto.
Qed.

Theorem delete_guard c Q n :
  verdict_of c Q (Delete n) = VAllowed ->
  n <> root /\ n <> default_q /\
  exists s, Q !! n = Some s /\ (alloc_check c = true -> qalloc s = 0) /\
            forall m sm, Q !! m = Some sm -> qparent sm <> Some n.
Proof.
  simpl. unfold admit_delete. case_bool_decide as Hd; [done|]. case_bool_decide as Hr; [done|]. simpl.
  destruct (Q !! n) as [s|]; [|done].
  destruct (alloc_check c && negb (bool_decide (qalloc s = 0))) eqn:Ha; [done|].
  destruct (bool_decide (children_of Q n = [])) eqn:Hc; simpl; [|done]. apply bool_decide_eq_true in Hc.
  intros _. split; [done|]. split; [done|]. exists s. split; [done|]. split; [|by apply children_nil].
  intros Hf. rewrite Hf in Ha. by apply negb_false_iff, bool_decide_eq_true in Ha.
Qed.

Lemma allowed_eq v : allowed v = true -> v = VAllowed.
Proof. by destruct v. Qed.

(* a terminating queue (other than root) has no children: a DELETE is only admitted for a queue
   without children, and (fix aa1c1ec) a terminating queue is refused as a new parent *)
Definition TermInv (Q : queues) : Prop :=
  forall n s, Q !! n = Some s -> n <> root -> qterm s = true ->
  forall m sm, Q !! m = Some sm -> qparent sm <> Some n.

(* What an admitted request does to the queue set: nothing; a validated CREATE / UPDATE (the status
   is the stored one, or empty); a change of the status alone, the terminating flag being set only
   on a leaf; the removal of a leaf or of a terminating queue.  Every invariant below is shown to
   survive each of the three kinds of change. *)
Inductive admitted_step (c : cfg) (Q : queues) : queues -> Prop :=
| as_same : admitted_step c Q Q
| as_cu n s a st : admit_cu c Q n s (Q !! n) = VAllowed ->
    admitted_step c Q (<[n := with_status a st (from_option qterm false (Q !! n)) s]> Q)
| as_status n o a st t : Q !! n = Some o -> t = qterm o \/ leaf Q n ->
    admitted_step c Q (<[n := with_status a st t o]> Q)
| as_delete n o : Q !! n = Some o -> n <> root -> n <> default_q -> qterm o = true \/ leaf Q n ->
    admitted_step c Q (delete n Q).

Lemma admitted_cases c Q r : admitted_step c Q (apply_if_admitted c Q r).
Proof.
  unfold apply_if_admitted. destruct (allowed (verdict_of c Q r)) eqn:Hv; [|constructor].
  apply allowed_eq in Hv. destruct r as [n s|n s|n|n|n|n a st]; simpl in *.
  - pose proof (as_cu c Q n s 0 0) as Hs. destruct (Q !! n); [constructor|by apply Hs].
  - pose proof (as_cu c Q n s) as Hs. destruct (Q !! n) as [o|]; [by apply Hs|constructor].
  - apply delete_guard in Hv as (Hr & Hd & s & Hn & _ & Hl). eapply as_delete; eauto.
  - apply delete_guard in Hv as (_ & _ & s & Hn & _ & Hl). rewrite Hn. apply as_status; auto.
  - destruct (Q !! n) as [o|] eqn:Hn; [|constructor]. destruct (qterm o) eqn:Ht; [|constructor].
    case_bool_decide; [constructor|]. case_bool_decide; [constructor|]. eapply as_delete; eauto.
  - destruct (Q !! n) as [o|] eqn:Hn; [|constructor]. apply as_status; auto.
Qed.

Lemma term_leaf Q n o : TermInv Q -> Q !! n = Some o -> n <> root -> qterm o = true \/ leaf Q n -> leaf Q n.
Proof. intros Hterm Hn Hr [Ht|Hl]; [exact (Hterm n o Hn Hr Ht)|done]. Qed.

Lemma shape_same_parent c Q n o s2 :
  ShapeInv c Q -> Q !! n = Some o -> qparent s2 = qparent o -> ShapeInv c (<[n := s2]> Q).
Proof.
  intros [(sr & Hsr & Hpr) Hinv] Hn Hp. split.
  - destruct (decide (n = root)) as [->|Hne]; [|exists sr; by rewrite lookup_insert_ne].
    exists s2. rewrite lookup_insert. split; congruence.
  - intros m sm Hm Hmr. assert (exists so, Q !! m = Some so) as [so Hso].
    { destruct (decide (m = n)) as [->|Hne]; [by exists o|]. rewrite lookup_insert_ne in Hm by done. by exists sm. }
    destruct (Hinv _ _ Hso Hmr) as (k & Hk & Hkle). exists k. split; [by eapply reach_same_parent|done].
Qed.

(* n := s2 at the place validateHierarchicalQueue admitted, n new or moved with all below it *)
Lemma shape_hier c Q n s s2 :
  1 <= max_depth c -> ShapeInv c Q -> validate_hier c Q n s = VAllowed -> qparent s2 = qparent s ->
  ShapeInv c (<[n := s2]> Q).
Proof.
  intros Hmax [(sr & Hsr & Hpr) Hinv] Hh Hp2. split.
  - destruct (decide (n = root)) as [->|Hne]; [|exists sr; by rewrite lookup_insert_ne].
    exists s2. rewrite lookup_insert, Hp2. split; [done|]. by destruct (validate_hier_allowed c Q root s Hh) as [?|[? _]].
  - destruct (hier_allowed c Q n s s2 Hh Hmax Hp2) as (dn & Hdn & Hle & Hcase).
    intros m sm Hm Hmr. destruct (decide (m = n)) as [->|Hne]; [by exists dn|].
    rewrite lookup_insert_ne in Hm by done. destruct (Hinv _ _ Hm Hmr) as (k & Hk & Hkle).
    destruct (reach_reparent _ _ _ _ _ _ Hdn Hk) as [Hk'|(j & kn & Hb & Hkn & -> & Hk')]; [by exists k|].
    exists (j + dn)%nat. split; [done|]. destruct Hcase as [->|Hbelow]; [|exact (Hbelow _ _ Hb)].
    pose proof (reach_pos _ _ _ Hkn). lia.
Qed.

Lemma shape_delete c Q n : ShapeInv c Q -> n <> root -> leaf Q n -> ShapeInv c (delete n Q).
Proof.
  intros [(sr & Hsr & Hpr) Hinv] Hr Hl. split; [exists sr; by rewrite lookup_delete_ne|].
  intros m sm [Hne Hm]%lookup_delete_Some Hmr. destruct (Hinv _ _ Hm Hmr) as (k & Hk & Hkle).
  exists k. split; [by apply reach_delete_leaf|done].
Qed.

Lemma shape_step c Q r :
  1 <= max_depth c -> TermInv Q -> ShapeInv c Q -> ShapeInv c (apply_if_admitted c Q r).
Proof.
  intros Hmax Hterm Hshape.
  destruct (admitted_cases c Q r) as [|n s a st Hadm|n o a st t Hn _|n o Hn Hr _ Hl].
  - done.
  - destruct (admit_cu_allowed c Q n s Hadm) as (_ & [Hh|(o & Hn & Hpo)] & _).
    + by apply (shape_hier c Q n s).
    + by apply (shape_same_parent c Q n o).
  - by eapply shape_same_parent.
  - apply shape_delete; [done..|by eapply term_leaf].
Qed.

Lemma history_inv (P : queues -> Prop) c :
  (forall Q r, P Q -> P (apply_if_admitted c Q r)) ->
  forall rs Q0, P Q0 -> P (run_history c Q0 rs).
Proof.
  intros Hstep rs. unfold run_history. induction rs as [|r rs IH]; intros Q0 H0; simpl; [done|].
  apply IH. by apply Hstep.
Qed.

(* proper ancestors (below root) and acyclicity *)
Inductive anc (Q : queues) : positive -> positive -> Prop :=
| anc_parent m s p : Q !! m = Some s -> qparent s = Some p -> p <> root -> anc Q m p
| anc_trans m a b : anc Q m a -> anc Q a b -> anc Q m b.

Lemma anc_reach Q m a : anc Q m a -> forall k, reach Q m k -> exists k', reach Q a k' /\ (k' < k)%nat.
Proof.
  induction 1 as [m s p Hm Hp Hr|m a b H1 IH1 H2 IH2]; intros k Hk.
  - destruct (reach_inv _ _ _ _ Hk Hm) as [[Ht _]|(p2 & k' & Hp2 & _ & H' & ->)].
    + rewrite Hp in Ht. by apply is_top_some in Ht.
    + rewrite Hp in Hp2. injection Hp2 as <-. exists k'. split; [done|lia].
  - destruct (IH1 _ Hk) as (k1 & Hk1 & Hlt1). destruct (IH2 _ Hk1) as (k2 & Hk2 & Hlt2).
    exists k2. split; [done|lia].
Qed.

Theorem shape_acyclic c Q n s :
  ShapeInv c Q -> Q !! n = Some s -> n <> root -> ~ anc Q n n.
Proof.
  intros [_ Hinv] Hn Hr Hanc. destruct (Hinv _ _ Hn Hr) as (k & Hk & _).
  destruct (anc_reach _ _ _ Hanc _ Hk) as (k' & Hk' & Hlt).
  pose proof (reach_fun _ _ _ _ Hk Hk'). lia.
Qed.

Lemma shape_no_self_parent c Q n s : ShapeInv c Q -> Q !! n = Some s -> n <> root -> qparent s <> Some n.
Proof. intros Hs Hn Hr Hp. apply (shape_acyclic c Q n s); [done..|]. by eapply anc_parent. Qed.

(* every parent named by a non-root queue exists (or is the root) *)
Theorem shape_parent_exists c Q n s :
  ShapeInv c Q -> Q !! n = Some s -> n <> root ->
  is_top (qparent s) = true \/ exists p ps, qparent s = Some p /\ p <> root /\ Q !! p = Some ps.
Proof.
  intros [_ Hinv] Hn Hr. destruct (Hinv _ _ Hn Hr) as (k & Hk & _).
  destruct (reach_inv _ _ _ _ Hk Hn) as [[Ht _]|(p & k' & Hp & Hpr & H' & _)]; [by left|].
  right. inversion H'; subst; eauto 6.
Qed.

(* hence the capacity plugin's hierarchy build does not abort on it *)
Theorem shape_capacity_ready c Q : ShapeInv c Q -> capacity_ready Q = true.
Proof.
  intros Hs. unfold capacity_ready. apply map_allb_spec. intros n s Hn.
  destruct (decide (n = root)) as [->|Hr]; [by rewrite bool_decide_eq_true_2|].
  rewrite (bool_decide_eq_false_2 (n = root)) by done. simpl. apply bool_decide_eq_true.
  destruct (shape_parent_exists c Q n s Hs Hn Hr) as [Ht|(p & ps & Hp & _ & Hq)].
  - destruct Hs as [(sr & Hsr & _) _].
    destruct (qparent s) as [p|]; simpl; [apply is_top_some in Ht; subst|]; rewrite Hsr; eauto.
  - rewrite Hp. simpl. eauto.
Qed.

Definition QueueOk (s : qspec) : Prop :=
  (forall d v, qcap s !! d = Some v -> 0 <= v) /\
  (forall d v, qdes s !! d = Some v -> 0 <= v /\ forall c, qcap s !! d = Some c -> v <= c) /\
  (forall d g, qguar s !! d = Some g -> 0 <= g /\ exists x, qdes s !! d = Some x /\ g <= x).

Definition PerQueueInv (Q : queues) : Prop := forall n s, Q !! n = Some s -> QueueOk s.

Lemma spec_ok_QueueOk s : spec_ok s = true -> QueueOk s.
Proof.
  unfold spec_ok. rewrite !andb_true_iff, !map_allb_spec. intros [[[Hc Hd] Hg] Hdc].
  repeat split.
  - intros d v Hv. specialize (Hc _ _ Hv). unfold qty_ok in Hc.
    apply andb_true_iff in Hc as [Hc _]. by apply bool_decide_eq_true in Hc.
  - specialize (Hd _ _ H). unfold qty_ok in Hd.
    apply andb_true_iff in Hd as [Hd _]. by apply bool_decide_eq_true in Hd.
  - intros cv Hcv. specialize (Hdc _ _ H). rewrite Hcv in Hdc. by apply bool_decide_eq_true in Hdc.
  - specialize (Hg _ _ H). apply andb_true_iff in Hg as [Hg _]. unfold qty_ok in Hg.
    apply andb_true_iff in Hg as [Hg _]. by apply bool_decide_eq_true in Hg.
  - specialize (Hg _ _ H). apply andb_true_iff in Hg as [_ Hg].
    destruct (qdes s !! d) as [x|]; [|done]. apply bool_decide_eq_true in Hg. eauto.
Qed.

Lemma per_queue_step c Q r : PerQueueInv Q -> PerQueueInv (apply_if_admitted c Q r).
Proof.
  intros Hinv. destruct (admitted_cases c Q r) as [|n s a st Hadm|n o a st t Hn _|n o _ _ _ _].
  - done.
  - apply admit_cu_allowed in Hadm as (Hs & _).
    intros m sm [[_ <-]|[_ Hm]]%lookup_insert_Some; [by apply spec_ok_QueueOk|by eapply Hinv].
  - intros m sm [[_ <-]|[_ Hm]]%lookup_insert_Some; [exact (Hinv n o Hn)|by eapply Hinv].
  - intros m sm [_ Hm]%lookup_delete_Some. by eapply Hinv.
Qed.

Lemma QueueOk_nonneg s : QueueOk s ->
  forall d, 0 <= amount (qcap s) d /\ 0 <= amount (qdes s) d /\ 0 <= amount (qguar s) d.
Proof.
  intros (Hc & Hd & Hg) d. unfold amount. repeat split.
  - destruct (qcap s !! d) eqn:E; simpl; [by eapply Hc|lia].
  - destruct (qdes s !! d) eqn:E; simpl; [by destruct (Hd _ _ E)|lia].
  - destruct (qguar s !! d) eqn:E; simpl; [by destruct (Hg _ _ E)|lia].
Qed.

(* limit.LessPartly(total, Zero) = false means total <= limit on every dimension *)
Lemma less_partly_false lim tot d :
  less_partly lim tot DZero = false -> rget tot d <= rget lim d.
Proof.
  unfold less_partly. rewrite !orb_false_iff. intros [[[Hc Hm] Hmiss] Hany].
  unfold lt in Hc, Hm. apply bool_decide_eq_false in Hc, Hm.
  unfold rget. repeat case_bool_decide; [lia|lia|].
  rewrite has_missing_false in Hmiss. unfold any_sc in Hany. rewrite map_anyb_false in Hany.
  unfold sget. destruct (scm tot !! d) as [v|] eqn:Ht; simpl.
  - destruct (Hmiss d (mk_is_Some _ _ Ht)) as [w Hw]. rewrite Hw. simpl.
    specialize (Hany _ _ Hw). unfold cmp_at in Hany. rewrite Ht in Hany.
    unfold lt in Hany. apply bool_decide_eq_false in Hany. lia.
  - destruct (scm lim !! d) as [w|] eqn:Hw; simpl; [|lia].
    specialize (Hany _ _ Hw). unfold cmp_at in Hany. rewrite Ht in Hany.
    unfold lt in Hany. apply bool_decide_eq_false in Hany. lia.
Qed.

Lemma rget_add r x d : rget (add r x) d = rget r d + rget x d.
Proof. unfold rget. repeat case_bool_decide; [done|done|apply add_sget]. Qed.

Lemma rget_empty d : rget empty_res d = 0.
Proof. unfold rget. repeat case_bool_decide; done. Qed.

Lemma sum_check_from_true lim items : forall tot,
  sum_check_from lim tot items = true -> items <> [] ->
  less_partly lim (fold_left add items tot) DZero = false.
Proof.
  induction items as [|x r IH]; intros tot H Hne; [done|]. simpl in H.
  apply andb_true_iff in H as [H1 H2]. apply negb_true_iff in H1.
  destruct r as [|y r]; [done|]. simpl. apply (IH (add tot x)); done.
Qed.

Lemma scalar_filter_lookup (m : rlist) d :
  (filter (fun kv : positive * Z => scalar_dim (fst kv) = true) m) !! d = if scalar_dim d then m !! d else None.
Proof.
  destruct (scalar_dim d) eqn:E.
  - destruct (m !! d) eqn:Hm.
    + by apply map_filter_lookup_Some.
    + apply map_filter_lookup_None. by left.
  - apply map_filter_lookup_None. right. intros x _. simpl. congruence.
Qed.

Lemma scm_new_resource m : scm (new_resource m) = filter (fun kv : positive * Z => scalar_dim (fst kv) = true) m.
Proof. unfold scm, new_resource. simpl. case_bool_decide as E; simpl; [by rewrite E|done]. Qed.

Lemma rget_new_resource m d : rget (new_resource m) d = if vis d then amount m d else 0.
Proof.
  unfold rget, vis. case_bool_decide as H2; [subst; done|]. case_bool_decide as H3; [subst; done|].
  unfold sget. rewrite scm_new_resource, scalar_filter_lookup. unfold scalar_dim.
  rewrite (bool_decide_eq_false_2 (d = cpu_d)), (bool_decide_eq_false_2 (d = mem_d)) by done. simpl.
  case_bool_decide; simpl; done.
Qed.

Definition lsum (f : qspec -> rlist) (l : list qspec) (d : positive) : Z :=
  foldr (fun s acc => amount (f s) d + acc) 0 l.

Lemma rget_fold_specs f l d : vis d = true -> forall tot,
  rget (fold_left add (map (fun x => new_resource (f x)) l) tot) d = rget tot d + lsum f l d.
Proof.
  intros Hv. induction l as [|x l IH]; intros tot; simpl; [lia|].
  rewrite IH, rget_add, rget_new_resource, Hv. lia.
Qed.

Lemma lsum_app f l1 l2 d : lsum f (l1 ++ l2) d = lsum f l1 d + lsum f l2 d.
Proof. induction l1 as [|x l IH]; simpl; [done|]. rewrite IH. lia. Qed.

Lemma lsum_perm f l1 l2 d : l1 ≡ₚ l2 -> lsum f l1 d = lsum f l2 d.
Proof. induction 1; simpl; lia. Qed.

Lemma map_fmap {A B} (g : A -> B) (l : list A) : map g l = g <$> l.
Proof. induction l as [|x l IH]; simpl; [done|]. by rewrite IH. Qed.

Lemma csum_lsum f Q p d : csum f Q p d = lsum f (snd <$> children_of Q p) d.
Proof. unfold csum. induction (children_of Q p) as [|x l IH]; simpl; [done|]. by rewrite IH. Qed.

(* the sum check of the code, on lists of queue specs *)
Lemma sum_check_specs f lim l d :
  sum_check (new_resource (f lim)) (map (fun x => new_resource (f x)) l) = true ->
  l <> [] -> vis d = true -> lsum f l d <= amount (f lim) d.
Proof.
  intros H Hne Hv. apply sum_check_from_true in H; [|by destruct l]. apply (less_partly_false _ _ d) in H.
  rewrite rget_fold_specs, rget_empty, rget_new_resource, Hv in H by done. lia.
Qed.

(* children of p after an insertion *)
Lemma children_insert Q n s p :
  children_of (<[n := s]> Q) p ≡ₚ
  (if bool_decide (qparent s = Some p) then [(n, s)] else []) ++ children_of (delete n Q) p.
Proof.
  unfold children_of. rewrite <- insert_delete_insert.
  rewrite map_to_list_insert by apply lookup_delete.
  rewrite filter_cons. simpl. case_decide as E.
  - rewrite bool_decide_eq_true_2 by done. done.
  - rewrite bool_decide_eq_false_2 by done. done.
Qed.

Definition contrib (f : qspec -> rlist) (s : qspec) (p d : positive) : Z :=
  if bool_decide (qparent s = Some p) then amount (f s) d else 0.

Lemma csum_insert f Q n s p d :
  csum f (<[n := s]> Q) p d = contrib f s p d + csum f (delete n Q) p d.
Proof.
  rewrite !csum_lsum. rewrite (lsum_perm _ _ _ _ (fmap_Permutation snd _ _ (children_insert Q n s p))).
  rewrite fmap_app, lsum_app. unfold contrib. case_bool_decide; simpl; lia.
Qed.

Lemma csum_member f Q n o p d :
  Q !! n = Some o -> csum f Q p d = contrib f o p d + csum f (delete n Q) p d.
Proof. intros Hn. by rewrite <- csum_insert, insert_id. Qed.

Lemma children_delete_self Q n p :
  filter (fun c : positive * qspec => fst c <> n) (children_of Q p) ≡ₚ children_of (delete n Q) p.
Proof.
  apply NoDup_Permutation.
  - apply NoDup_filter, NoDup_filter, NoDup_map_to_list.
  - apply NoDup_filter, NoDup_map_to_list.
  - intros [m sm]. rewrite elem_of_list_filter, !elem_children, lookup_delete_Some. simpl. naive_solver.
Qed.

Definition SumF (f : qspec -> rlist) (Q : queues) : Prop :=
  forall p sp, Q !! p = Some sp -> p <> root -> forall d, vis d = true ->
    csum f Q p d <= amount (f sp) d.

(* the children's guarantees and deserved amounts sum to at most their (non-root) parent's *)
Definition SumInv (Q : queues) : Prop := SumF qguar Q /\ SumF qdes Q.

Lemma csum_delete_le f Q n q d :
  (forall m sm d, Q !! m = Some sm -> 0 <= amount (f sm) d) -> csum f (delete n Q) q d <= csum f Q q d.
Proof.
  intros Hnn. destruct (Q !! n) as [o|] eqn:Hn; [|by rewrite delete_notin].
  rewrite (csum_member f Q n o q d Hn). pose proof (Hnn _ _ d Hn). unfold contrib. case_bool_decide; lia.
Qed.

(* s has the parent and the amounts of the queue it replaces: no sum changes *)
Lemma sumF_agree f Q n o s :
  SumF f Q -> Q !! n = Some o -> qparent o = qparent s -> f o = f s -> SumF f (<[n := s]> Q).
Proof.
  intros Hinv Hn Hpo Hfo p sp Hp Hpr d Hv.
  assert (csum f (<[n := s]> Q) p d = csum f Q p d) as ->.
  { rewrite csum_insert, (csum_member f Q n o p d Hn). unfold contrib. by rewrite Hpo, Hfo. }
  destruct (decide (p = n)) as [->|Hne].
  - rewrite lookup_insert in Hp. injection Hp as <-. rewrite <- Hfo. by apply (Hinv n o).
  - rewrite lookup_insert_ne in Hp by done. by apply (Hinv p sp).
Qed.

(* n := s keeps the sums if s fits between its children and its parent's other children *)
Lemma sumF_insert c f Q n s :
  SumF f Q ->
  (forall m sm d, Q !! m = Some sm -> 0 <= amount (f sm) d) ->
  ShapeInv c Q -> ShapeInv c (<[n := s]> Q) ->
  (n <> root -> forall d, vis d = true -> csum f Q n d <= amount (f s) d) ->
  (forall p ps d, qparent s = Some p -> p <> root -> p <> n -> Q !! p = Some ps -> vis d = true ->
     amount (f s) d + csum f (delete n Q) p d <= amount (f ps) d) ->
  SumF f (<[n := s]> Q).
Proof.
  intros Hinv Hnn Hsh Hsh' Hkids Hsibs p sp Hp Hpr d Hv. rewrite csum_insert.
  destruct (decide (p = n)) as [->|Hne].
  - (* n is not its own child, before or after *)
    rewrite lookup_insert in Hp. injection Hp as <-.
    assert (csum f (delete n Q) n d = csum f Q n d) as Hn_kids.
    { destruct (Q !! n) as [o|] eqn:Hn; [|by rewrite delete_notin].
      rewrite (csum_member f Q n o n d Hn). unfold contrib.
      rewrite bool_decide_eq_false_2 by by apply (shape_no_self_parent c Q). lia. }
    unfold contrib. rewrite Hn_kids, bool_decide_eq_false_2
      by (apply (shape_no_self_parent c (<[n := s]> Q)); [done|apply lookup_insert|done]).
    by apply Hkids.
  - rewrite lookup_insert_ne in Hp by done. unfold contrib. case_bool_decide as Hps; [by eapply Hsibs|].
    pose proof (Hinv p sp Hp Hpr d Hv). pose proof (csum_delete_le f Q n p d Hnn). lia.
Qed.

Lemma sumF_delete f Q n :
  SumF f Q -> (forall m sm d, Q !! m = Some sm -> 0 <= amount (f sm) d) -> SumF f (delete n Q).
Proof.
  intros Hinv Hnn p sp [_ Hp]%lookup_delete_Some Hpr d Hv.
  pose proof (Hinv p sp Hp Hpr d Hv). pose proof (csum_delete_le f Q n p d Hnn). lia.
Qed.

Lemma siblings_sum_allowed f Q n s ps p d :
  f = qguar \/ f = qdes -> siblings_sum Q n s ps p = VAllowed -> vis d = true ->
  amount (f s) d + csum f (delete n Q) p d <= amount (f ps) d.
Proof.
  unfold siblings_sum. intros Hf H Hv.
  destruct (sum_check _ _ && sum_check _ _) eqn:E; [|done]. apply andb_true_iff in E as [Eg Ed].
  set (sibs := map snd (filter (fun c : positive * qspec => fst c <> n) (children_of Q p))) in *.
  assert (lsum f (sibs ++ [s]) d = amount (f s) d + csum f (delete n Q) p d) as <-.
  { rewrite lsum_app. simpl. subst sibs. rewrite map_fmap, csum_lsum.
    rewrite (lsum_perm f _ _ d (fmap_Permutation snd _ _ (children_delete_self Q n p))). lia. }
  destruct Hf as [-> | ->]; apply sum_check_specs; try done; by destruct sibs.
Qed.

Lemma children_sum_allowed f Q s kids d :
  f = qguar \/ f = qdes -> children_constraints Q s kids = VAllowed -> kids <> [] -> vis d = true ->
  lsum f (snd <$> kids) d <= amount (f s) d.
Proof.
  unfold children_constraints. intros Hf [_ H]%then_allowed Hne Hv.
  destruct (sum_check _ _ && sum_check _ _) eqn:E; [|done]. apply andb_true_iff in E as [Eg Ed].
  rewrite <- (map_map snd (fun x => new_resource (qguar x))) in Eg.
  rewrite <- (map_map snd (fun x => new_resource (qdes x))) in Ed.
  rewrite <- map_fmap. destruct Hf as [-> | ->]; apply sum_check_specs; try done; by destruct kids.
Qed.

Lemma validate_resources_allowed Q n s :
  validate_resources Q n s = VAllowed ->
  (forall p, qparent s = Some p -> p <> root ->
     exists ps, Q !! p = Some ps /\ child_vs_ancestor Q n s = VAllowed /\ siblings_sum Q n s ps p = VAllowed) /\
  (children_of Q n = [] \/
   (children_of Q n <> [] /\ children_constraints Q s (children_of Q n) = VAllowed)).
Proof.
  unfold validate_resources, validate_resources_with. intros [H Hkids]%then_allowed_var. split.
  - intros p Hp Hr. rewrite Hp in H. rewrite bool_decide_eq_false_2 in H by done.
    destruct (Q !! p) as [ps|]; [|done]. exists ps. split; [done|]. by apply then_allowed_var in H.
  - destruct (children_of Q n) eqn:E; [by left|right; by split].
Qed.

Lemma field_nonneg f Q : f = qguar \/ f = qdes -> PerQueueInv Q ->
  forall m sm d, Q !! m = Some sm -> 0 <= amount (f sm) d.
Proof.
  intros Hf Hper m sm d Hm. destruct (QueueOk_nonneg sm (Hper _ _ Hm) d) as (_ & ? & ?).
  by destruct Hf as [-> | ->].
Qed.

(* CREATE / UPDATE: n := s2 where s2 carries the parent and resources of the admitted s *)
Lemma sumF_cu f c Q n s s2 :
  f = qguar \/ f = qdes -> admit_cu c Q n s (Q !! n) = VAllowed -> qparent s2 = qparent s -> f s2 = f s ->
  ShapeInv c Q -> ShapeInv c (<[n := s2]> Q) -> PerQueueInv Q -> SumF f Q -> SumF f (<[n := s2]> Q).
Proof.
  intros Hf Hadm Hp2 Hf2 Hshape Hsh' Hper HF.
  destruct (decide (n = root)) as [->|Hr].
  { apply (sumF_insert c); [done|by apply field_nonneg|done..|].
    intros p ps d Hp. destruct Hsh' as [(sr & Hsr & Hpr) _]. rewrite lookup_insert in Hsr. congruence. }
  destruct (admit_cu_allowed c Q n s Hadm) as (Hspec & _ & Hres).
  destruct (Hres Hr) as [Hval|(o & Ho & Hpo & _ & Hdo & Hgo)].
  - apply validate_resources_allowed in Hval as [Hpar Hkids].
    apply (sumF_insert c); [done|by apply field_nonneg|done..| |]; rewrite Hf2.
    + intros _ d Hv. destruct Hkids as [Hnil|[Hne Hkids]].
      * unfold csum. rewrite Hnil.
        destruct (QueueOk_nonneg s (spec_ok_QueueOk s Hspec) d) as (_ & ? & ?). by destruct Hf as [-> | ->].
      * rewrite csum_lsum. by apply (children_sum_allowed f Q).
    + intros p ps d Hp Hpr Hpn Hps Hv. rewrite Hp2 in Hp.
      destruct (Hpar p Hp Hpr) as (ps' & Hps' & _ & Hsib). rewrite Hps in Hps'. injection Hps' as <-.
      by apply (siblings_sum_allowed f Q n s ps p).
  - apply (sumF_agree f Q n o); [done..|congruence|]. rewrite Hf2. by destruct Hf as [-> | ->].
Qed.

Lemma sum_fields Q : SumInv Q <-> forall f, f = qguar \/ f = qdes -> SumF f Q.
Proof. split; [by intros [? ?] f [-> | ->]|intros H; split; apply H; auto]. Qed.

Lemma sum_step c Q r :
  1 <= max_depth c -> TermInv Q -> ShapeInv c Q -> PerQueueInv Q -> SumInv Q ->
  SumInv (apply_if_admitted c Q r).
Proof.
  intros Hmax Hterm Hshape Hper Hsum.
  apply sum_fields. intros f Hf. apply sum_fields with (f := f) in Hsum; [|done].
  pose proof (field_nonneg f Q Hf Hper) as Hnn. generalize (shape_step c Q r Hmax Hterm Hshape).
  destruct (admitted_cases c Q r) as [|n s a st Hadm|n o a st t Hn _|n o _ _ _ _]; intros Hshape'.
  - done.
  - apply (sumF_cu f c Q n s); try done. by destruct Hf as [-> | ->].
  - apply (sumF_agree f Q n o); [done..|by destruct Hf as [-> | ->]].
  - by apply sumF_delete.
Qed.

(* the executable delete guard of law 105 means the clause *)
Lemma delete_guardb_sound c Q n :
  delete_guardb c Q (Delete n) = true ->
  n <> root /\ n <> default_q /\
  exists s, Q !! n = Some s /\ (alloc_check c = true -> qalloc s = 0) /\ leaf Q n.
Proof.
  unfold delete_guardb. rewrite !andb_true_iff, !negb_true_iff, !bool_decide_eq_false.
  intros [[Hr Hd] H]. split; [done|]. split; [done|].
  destruct (Q !! n) as [s|]; [|done]. apply andb_true_iff in H as [Ha Hk].
  exists s. split; [done|]. split; [|by apply leafb_leaf].
  intros Hf. rewrite Hf in Ha. by apply bool_decide_eq_true in Ha.
Qed.

Lemma reach_in_sound k : forall Q n s,
  Q !! n = Some s -> reach_in k Q (qparent s) = true -> exists j, reach Q n j /\ (j <= k)%nat.
Proof.
  induction k as [|k IH]; intros Q n s Hn H; simpl in H; [done|].
  destruct (qparent s) as [p|] eqn:Hp.
  - case_bool_decide as Hr.
    + exists 1%nat. split; [|lia]. eapply reach_top; [done|]. rewrite Hp. by apply is_top_some.
    + destruct (Q !! p) as [ps|] eqn:Hq; [|done].
      destruct (IH _ _ _ Hq H) as (j & Hj & Hle). exists (S j). split; [|lia]. eapply reach_up; eauto.
  - exists 1%nat. split; [|lia]. eapply reach_top; [done|]. by rewrite Hp.
Qed.

Lemma shape_okb_sound c Q : shape_okb c Q = true -> ShapeInv c Q.
Proof.
  unfold shape_okb, root_okb. rewrite andb_true_iff, map_allb_spec. intros [Hr H].
  split; [destruct (Q !! root) as [sr|]; [|done]; apply bool_decide_eq_true in Hr; eauto|]. intros n s Hn Hnr. specialize (H _ _ Hn).
  rewrite (bool_decide_eq_false_2 (n = root)) in H by done. simpl in H.
  destruct (reach_in_sound _ _ _ _ Hn H) as (j & Hj & Hle). exists j. split; [done|].
  destruct (decide (0 <= max_depth c)); [|rewrite Z2Nat.nonpos in Hle by lia; pose proof (reach_pos _ _ _ Hj); lia].
  lia.
Qed.

Lemma per_okb_sound Q : per_okb Q = true -> PerQueueInv Q.
Proof.
  unfold per_okb. rewrite map_allb_spec. intros H n s Hn. specialize (H _ _ Hn).
  unfold queue_okb, nonneg_l in H. rewrite !andb_true_iff, !map_allb_spec in H.
  destruct H as [[[[Hc Hd] Hg] Hgd] Hdc]. repeat split.
  - intros d v Hv. specialize (Hc _ _ Hv). by apply bool_decide_eq_true in Hc.
  - specialize (Hd _ _ H). by apply bool_decide_eq_true in Hd.
  - intros cv Hcv. specialize (Hdc _ _ H). rewrite Hcv in Hdc. by apply bool_decide_eq_true in Hdc.
  - specialize (Hg _ _ H). by apply bool_decide_eq_true in Hg.
  - specialize (Hgd _ _ H). destruct (qdes s !! d) as [x|]; [|done].
    apply bool_decide_eq_true in Hgd. eauto.
Qed.

Lemma amount_not_dim (f : qspec -> rlist) Q n s d :
  (f = qcap \/ f = qdes \/ f = qguar) -> Q !! n = Some s -> d ∉ dims_of Q -> amount (f s) d = 0.
Proof.
  intros Hf Hn Hd. unfold amount. destruct (f s !! d) as [v|] eqn:E; [|done]. exfalso. apply Hd.
  unfold dims_of. apply elem_of_list_In, in_flat_map. exists (n, s). split.
  - apply elem_of_list_In. by apply elem_of_map_to_list.
  - apply elem_of_list_In. simpl. unfold keys_l. rewrite !elem_of_app.
    assert (d ∈ map fst (map_to_list (f s))) as Hin.
    { apply elem_of_list_In, in_map_iff. exists (d, v). split; [done|].
      apply elem_of_list_In. by apply elem_of_map_to_list. }
    destruct Hf as [->|[->| ->]]; auto.
Qed.

Lemma csum_not_dim (f : qspec -> rlist) Q p d :
  (f = qcap \/ f = qdes \/ f = qguar) -> d ∉ dims_of Q -> csum f Q p d = 0.
Proof.
  intros Hf Hd. unfold csum.
  assert (Forall (fun ns : positive * qspec => Q !! fst ns = Some (snd ns)) (children_of Q p)) as Hall.
  { apply Forall_forall. intros [m sm] Hin. apply elem_children in Hin as [? _]. done. }
  induction Hall as [|[m sm] l Hm Hl IH]; simpl; [done|].
  rewrite IH. simpl in Hm. rewrite (amount_not_dim f Q m sm d Hf Hm Hd). done.
Qed.

Lemma sums_okb_sound Q : sums_okb Q = true -> SumInv Q.
Proof.
  unfold sums_okb. rewrite map_allb_spec. intros H.
  assert (forall p sp d, Q !! p = Some sp -> p <> root -> vis d = true ->
            csum qguar Q p d <= amount (qguar sp) d /\ csum qdes Q p d <= amount (qdes sp) d) as Hboth.
  { intros p sp d Hp Hr Hv. specialize (H _ _ Hp).
    rewrite (bool_decide_eq_false_2 (p = root)) in H by done. simpl in H.
    destruct (decide (d ∈ dims_of Q)) as [Hin|Hnin].
    - rewrite forallb_forall in H. specialize (H d (proj1 (elem_of_list_In _ _) Hin)).
      rewrite Hv in H. simpl in H. apply andb_true_iff in H as [H1 H2].
      apply bool_decide_eq_true in H1, H2. done.
    - rewrite !csum_not_dim, !(amount_not_dim _ Q p sp d) by auto. done. }
  split; intros p sp Hp Hr d Hv; by destruct (Hboth p sp d Hp Hr Hv).
Qed.

Definition capd (s : qspec) (d : positive) : Z := amount (qcap s) d.

(* the capability (dimension d) of the nearest proper ancestor below root that sets it *)
Inductive nearest (Q : queues) (d : positive) : option positive -> Z -> Prop :=
| nearest_here p ps : p <> root -> Q !! p = Some ps -> 0 < capd ps d -> nearest Q d (Some p) (capd ps d)
| nearest_up p ps v : p <> root -> Q !! p = Some ps -> ~ 0 < capd ps d ->
                      nearest Q d (qparent ps) v -> nearest Q d (Some p) v.

Definition CapInv (Q : queues) : Prop :=
  forall n s d v, Q !! n = Some s -> n <> root -> vis d = true -> 0 < capd s d ->
    nearest Q d (qparent s) v -> capd s d <= v.

Lemma rget_cap s d : vis d = true -> rget (new_resource (qcap s)) d = capd s d.
Proof. intros Hv. by rewrite rget_new_resource, Hv. Qed.

Lemma nearest_cap_sound Q d : vis d = true -> forall par v, nearest Q d par v ->
  forall fuel r, nearest_cap fuel Q par d = Some r -> r = Some v.
Proof.
  intros Hv par v H. induction H as [p ps Hr Hp Hpos|p ps v Hr Hp Hpos H IH]; intros fuel r Hf;
    (destruct fuel; simpl in Hf; rewrite bool_decide_eq_false_2 in Hf by done; [done|]);
    rewrite Hp, rget_cap in Hf by done.
  - rewrite bool_decide_eq_true_2 in Hf by done. congruence.
  - rewrite bool_decide_eq_false_2 in Hf by done. by eapply IH.
Qed.

Lemma res_names_in m d : vis d = true -> 0 < amount m d -> d ∈ res_names (new_resource m).
Proof.
  intros Hv Hpos. unfold res_names, names_of.
  destruct (decide (d = cpu_d)) as [->|H2].
  { simpl. rewrite bool_decide_eq_true_2 by lia. apply elem_of_app. left. apply elem_of_list_singleton. done. }
  destruct (decide (d = mem_d)) as [->|H3].
  { simpl. apply elem_of_app. right. apply elem_of_app. left.
    rewrite bool_decide_eq_true_2 by lia. apply elem_of_list_singleton. done. }
  apply elem_of_app. right. apply elem_of_app. right.
  apply elem_of_keys_where. unfold amount in Hpos.
  destruct (m !! d) as [v|] eqn:Hm; simpl in Hpos; [|lia].
  exists v. split; [|apply bool_decide_eq_true; lia].
  rewrite scm_new_resource, scalar_filter_lookup. unfold scalar_dim.
  rewrite (bool_decide_eq_false_2 (d = cpu_d)), (bool_decide_eq_false_2 (d = mem_d)) by done.
  unfold vis in Hv. apply negb_true_iff in Hv. rewrite Hv. done.
Qed.

Lemma child_own_allowed Q s d v :
  child_vs_ancestor_own Q s = VAllowed -> vis d = true -> 0 < capd s d ->
  nearest Q d (qparent s) v -> capd s d <= v.
Proof.
  unfold child_vs_ancestor_own. intros H Hv Hpos Hn.
  pose proof (first_bad_allowed _ _ d H (res_names_in (qcap s) d Hv Hpos)) as Hg. cbv beta in Hg.
  destruct (nearest_cap (fuel_of Q) Q (qparent s) d) as [r|] eqn:Hnc; [|done].
  rewrite (nearest_cap_sound Q d Hv _ _ Hn _ _ Hnc) in Hg.
  case_bool_decide as Hlt; [done|]. rewrite rget_cap in Hlt by done. lia.
Qed.

(* the folds over the children in subtree_max and desc_names give None only if a child's recursion does *)
Lemma foldr_opt_some {A B} (g : A -> option B) (h : A -> B -> B -> B) (z : B) (l : list A) :
  (forall x, x ∈ l -> g x <> None) ->
  foldr (fun c acc => match g c, acc with Some a, Some b => Some (h c a b) | _, _ => None end) (Some z) l <> None.
Proof.
  induction l as [|a l IH]; intros H; simpl; [done|].
  destruct (g a) eqn:Ha; [|by exfalso; apply (H a); [left|]].
  destruct (foldr _ _ l) eqn:Hf; [done|]. exfalso. apply IH; [|done]. intros x Hx. apply H. by right.
Qed.

(* otherwise every child's result is accounted for in the total r, in the sense of R: R holds of
   a result against the total it has just been combined into, and survives further combining *)
Lemma foldr_opt_spec {A B} (g : A -> option B) (h : A -> B -> B -> B) (R : A -> B -> B -> Prop) z l r :
  (forall c a b, R c a (h c a b)) -> (forall c a b c' a', R c a b -> R c a (h c' a' b)) ->
  foldr (fun c acc => match g c, acc with Some a, Some b => Some (h c a b) | _, _ => None end) (Some z) l = Some r ->
  forall x, x ∈ l -> exists a, g x = Some a /\ R x a r.
Proof.
  intros Hnew Hkeep. revert r. induction l as [|c l IH]; intros r H x Hx; [by apply elem_of_nil in Hx|].
  simpl in H. destruct (g c) as [a|] eqn:Hg; [|done]. destruct (foldr _ _ l) as [b|] eqn:Hb; [|done].
  injection H as <-. apply elem_of_cons in Hx as [->|Hx]; [by exists a|].
  destruct (IH b eq_refl x Hx) as (a' & Ha' & HR). exists a'. split; [done|by apply Hkeep].
Qed.

Lemma foldr_opt_max_ge {A} (g : A -> option Z) (l : list A) m :
  foldr (fun c acc => opt_max (g c) acc) (Some 0) l = Some m ->
  forall x, x ∈ l -> exists m', g x = Some m' /\ m' <= m.
Proof. apply (foldr_opt_spec g (fun _ => Z.max) (fun _ a r => a <= r)); intros; lia. Qed.

(* x is a first queue with a positive capability d on a downward path from c *)
Inductive firstpos (Q : queues) (d : positive) : positive -> positive * qspec -> Prop :=
| fp_self c sc : Q !! c = Some sc -> 0 < capd sc d -> firstpos Q d c (c, sc)
| fp_down c sc c' sc' x : Q !! c = Some sc -> ~ 0 < capd sc d -> Q !! c' = Some sc' ->
                          qparent sc' = Some c -> firstpos Q d c' x -> firstpos Q d c x.

Lemma subtree_max_ge Q d : vis d = true -> forall c x, firstpos Q d c x ->
  forall fuel sc m, Q !! c = Some sc -> subtree_max fuel Q c sc d = Some m -> capd (snd x) d <= m.
Proof.
  intros Hv c x H. induction H as [c sc Hc Hpos|c sc c' sc' x Hc Hpos Hc' Hp H IH]; intros fuel sc0 m Hc0 Hm.
  - rewrite Hc in Hc0. inversion Hc0; subst sc0. destruct fuel; simpl in Hm; [done|].
    rewrite rget_cap in Hm by done. rewrite bool_decide_eq_true_2 in Hm by done. inversion Hm; subst. simpl. lia.
  - rewrite Hc in Hc0. inversion Hc0; subst sc0. destruct fuel; simpl in Hm; [done|].
    rewrite rget_cap in Hm by done. rewrite bool_decide_eq_false_2 in Hm by done.
    pose proof (foldr_opt_max_ge (fun c0 : positive * qspec => subtree_max fuel Q (fst c0) (snd c0) d) _ _ Hm) as Hall.
    destruct (Hall (c', sc')) as (m' & Hm' & Hle); [by apply elem_children|].
    simpl in Hm'. specialize (IH _ _ _ Hc' Hm'). lia.
Qed.

(* the chain of parent links from par reaches n through queues (other than n) that do not set d *)
Inductive path_nocap (Q : queues) (d : positive) (n : positive) : option positive -> Prop :=
| pn_here : path_nocap Q d n (Some n)
| pn_up p ps : p <> n -> p <> root -> Q !! p = Some ps -> ~ 0 < capd ps d ->
               path_nocap Q d n (qparent ps) -> path_nocap Q d n (Some p).

Lemma pn_firstpos Q d n x : forall par, path_nocap Q d n par ->
  forall y sy, Q !! y = Some sy -> qparent sy = par -> firstpos Q d y x ->
  exists c sc, Q !! c = Some sc /\ qparent sc = Some n /\ firstpos Q d c x.
Proof.
  intros par H. induction H as [|p ps Hpn Hpr Hp Hpos H IH]; intros y sy Hy Hpy Hf.
  - eauto.
  - apply (IH p ps Hp eq_refl). eapply fp_down; eauto.
Qed.

Lemma pn_nearest Q d n o : Q !! n = Some o -> n <> root -> forall par, path_nocap Q d n par ->
  (0 < capd o d -> nearest Q d par (capd o d)) /\
  (~ 0 < capd o d -> forall v, nearest Q d (qparent o) v -> nearest Q d par v).
Proof.
  intros Hn Hr par H. induction H as [|p ps Hpn Hpr Hp Hpos H IH].
  - split; [intros; by apply nearest_here|intros; by eapply nearest_up].
  - destruct IH as [IH1 IH2]. split.
    + intros Ho. eapply nearest_up; eauto.
    + intros Ho v Hv. eapply nearest_up; eauto.
Qed.

Lemma pn_end_exists c Q d n : ShapeInv c Q -> n <> root -> forall par, path_nocap Q d n par ->
  forall y sy, Q !! y = Some sy -> y <> root -> qparent sy = par -> is_Some (Q !! n).
Proof.
  intros Hs Hnr par H. induction H as [|p ps Hpn Hpr Hp Hpos H IH]; intros y sy Hy Hyr Hpy.
  - destruct (shape_parent_exists c Q y sy Hs Hy Hyr) as [Ht|(p & ps & Hp & _ & Hq)].
    + rewrite Hpy in Ht. by apply is_top_some in Ht.
    + rewrite Hpy in Hp. inversion Hp; subst. eauto.
  - by apply (IH p ps).
Qed.

Lemma cap_chain Q n s2 d : forall par v, nearest (<[n := s2]> Q) d par v ->
  nearest Q d par v \/
  (path_nocap Q d n par /\
   ((0 < capd s2 d /\ v = capd s2 d) \/ (~ 0 < capd s2 d /\ nearest (<[n := s2]> Q) d (qparent s2) v))).
Proof.
  intros par v H. induction H as [p ps Hr Hp Hpos|p ps v Hr Hp Hpos H IH].
  - destruct (decide (p = n)) as [->|Hne].
    + rewrite lookup_insert in Hp. inversion Hp; subst ps. right. split; [constructor|by left].
    + rewrite lookup_insert_ne in Hp by done. left. by apply nearest_here.
  - destruct (decide (p = n)) as [->|Hne].
    + rewrite lookup_insert in Hp. inversion Hp; subst ps. right. split; [constructor|by right].
    + rewrite lookup_insert_ne in Hp by done. destruct IH as [IH|[Hpath Hcase]].
      * left. by eapply nearest_up.
      * right. split; [by eapply pn_up|done].
Qed.

(* a chain of parent links that comes back to n makes n its own ancestor *)
Lemma pn_anc Q n s2 d : n <> root -> forall par, path_nocap Q d n par ->
  forall y sy, <[n := s2]> Q !! y = Some sy -> qparent sy = par -> anc (<[n := s2]> Q) y n.
Proof.
  intros Hr par H. induction H as [|p ps Hpn Hpr Hp Hpos H IH]; intros y sy Hy Hpy.
  - by eapply anc_parent.
  - eapply anc_trans; [by eapply anc_parent|]. apply (IH p ps); [by rewrite lookup_insert_ne|done].
Qed.

(* so above n nothing changed *)
Lemma nearest_above_n c Q n s2 d v :
  ShapeInv c (<[n := s2]> Q) -> n <> root ->
  nearest (<[n := s2]> Q) d (qparent s2) v -> nearest Q d (qparent s2) v.
Proof.
  intros Hs Hr H. destruct (cap_chain _ _ _ _ _ _ H) as [HQ|[Hpath _]]; [done|].
  destruct (shape_acyclic c _ n s2 Hs (lookup_insert _ _ _) Hr).
  apply (pn_anc Q n s2 d Hr _ Hpath n s2); [apply lookup_insert|done].
Qed.

(* nearest only looks at the parent link and capability d of the queues along the chain *)
Lemma nearest_mono Q Q' d :
  (forall p ps, p <> root -> Q !! p = Some ps ->
     exists ps', Q' !! p = Some ps' /\ qparent ps' = qparent ps /\ capd ps' d = capd ps d) ->
  forall par v, nearest Q d par v -> nearest Q' d par v.
Proof.
  intros Hsame par v. induction 1 as [p ps Hr Hp Hpos|p ps v Hr Hp Hpos H IH];
    destruct (Hsame _ _ Hr Hp) as (ps' & Hp' & Hpar & Hcap); rewrite <- ?Hcap in *.
  - by apply nearest_here.
  - eapply nearest_up; [done..|by rewrite Hpar].
Qed.

Lemma cap_agree Q n o s2 : Q !! n = Some o -> qparent s2 = qparent o -> qcap s2 = qcap o ->
  CapInv Q -> CapInv (<[n := s2]> Q).
Proof.
  intros Hn Hp Hc Hinv x sx d v Hx Hxr Hv Hpos Hnear.
  assert (nearest Q d (qparent sx) v) as Hnear'.
  { revert Hnear. apply nearest_mono. intros p ps _ Hps. destruct (decide (p = n)) as [->|Hne].
    - rewrite lookup_insert in Hps. injection Hps as <-. exists o. unfold capd. by rewrite Hc.
    - rewrite lookup_insert_ne in Hps by done. by exists ps. }
  destruct (decide (x = n)) as [->|Hne].
  - rewrite lookup_insert in Hx. injection Hx as <-. unfold capd in *. rewrite Hc in *. rewrite Hp in Hnear'.
    by apply (Hinv n o d v).
  - rewrite lookup_insert_ne in Hx by done. by apply (Hinv x sx d v).
Qed.

Lemma path_has_child Q d n : forall par, path_nocap Q d n par ->
  forall y sy, Q !! y = Some sy -> qparent sy = par ->
  exists c sc, Q !! c = Some sc /\ qparent sc = Some n.
Proof.
  intros par H. induction H as [|p ps Hpn Hpr Hp Hpos H IH]; intros y sy Hy Hpy; [eauto|].
  by apply (IH p ps).
Qed.

Lemma children_cap_allowed Q s kids d x k sk :
  children_constraints Q s kids = VAllowed -> vis d = true -> 0 < capd s d ->
  (k, sk) ∈ kids -> Q !! k = Some sk -> firstpos Q d k x -> capd (snd x) d <= capd s d.
Proof.
  unfold children_constraints. intros [Hfb _]%then_allowed Hv Hpos Hin Hk Hf.
  pose proof (first_bad_allowed _ _ d Hfb (res_names_in (qcap s) d Hv Hpos)) as Hg. cbv beta in Hg.
  destruct (foldr _ _ kids) as [cm|] eqn:Hcm; [|done].
  case_bool_decide as Hlt; [done|]. rewrite rget_cap in Hlt by done.
  pose proof (foldr_opt_max_ge (fun c0 : positive * qspec => subtree_max (fuel_of Q) Q (fst c0) (snd c0) d) _ _ Hcm) as Hge.
  destruct (Hge (k, sk) Hin) as (m' & Hm' & Hle). cbn [fst snd] in Hm'.
  pose proof (subtree_max_ge Q d Hv k x Hf _ _ _ Hk Hm'). lia.
Qed.

Lemma foldr_names_spec (g : positive * qspec -> option (list positive)) (h : positive * qspec -> list positive)
      (kids : list (positive * qspec)) l :
  foldr (fun c acc => match g c, acc with
                      | Some a, Some b => Some (h c ++ a ++ b)
                      | _, _ => None
                      end) (Some []) kids = Some l ->
  forall c, c ∈ kids -> exists a, g c = Some a /\ (forall d, d ∈ h c \/ d ∈ a -> d ∈ l).
Proof.
  apply (foldr_opt_spec g (fun c a b => h c ++ a ++ b) (fun c a r => forall d, d ∈ h c \/ d ∈ a -> d ∈ r)).
  - intros c a b d [Hd|Hd]; rewrite !elem_of_app; auto.
  - intros c a b c' a' H d Hd. rewrite !elem_of_app. auto.
Qed.

(* every name with a first positive capability below k is collected *)
Lemma desc_names_in Q d : vis d = true -> forall k x, firstpos Q d k x ->
  forall fuel n sk l, Q !! k = Some sk -> qparent sk = Some n ->
  desc_names fuel Q n = Some l -> d ∈ l.
Proof.
  intros Hv k x H. induction H as [c sc Hc Hpos|c sc c' sc' x Hc Hpos Hc' Hp H IH]; intros fuel n sk l Hk Hpk Hl;
    rewrite Hc in Hk; injection Hk as <-; (destruct fuel; simpl in Hl; [done|]);
    destruct (foldr_names_spec (fun c0 => desc_names fuel Q (fst c0))
                (fun c0 => res_names (new_resource (qcap (snd c0)))) _ _ Hl (c, sc)) as (a & Ha & Hin);
    [by apply elem_children| |by apply elem_children|]; apply Hin.
  - left. simpl. by apply res_names_in.
  - right. simpl in Ha. by apply (IH fuel c sc' a).
Qed.

Lemma child_desc_allowed Q n s d x v k sk :
  child_vs_ancestor_desc Q n s = VAllowed -> vis d = true -> ~ 0 < capd s d ->
  Q !! k = Some sk -> qparent sk = Some n -> firstpos Q d k x ->
  nearest Q d (qparent s) v -> capd (snd x) d <= v.
Proof.
  unfold child_vs_ancestor_desc. intros H Hv Hnpos Hk Hpk Hf Hn.
  destruct (desc_names (fuel_of Q) Q n) as [names|] eqn:Hnames; [|done].
  pose proof (desc_names_in Q d Hv k x Hf _ _ _ _ Hk Hpk Hnames) as Hd.
  pose proof (first_bad_allowed _ _ d H Hd) as Hg. cbv beta in Hg.
  destruct (subtree_max (fuel_of Q) Q n s d) as [my|] eqn:Hmy; [|done].
  destruct (nearest_cap (fuel_of Q) Q (qparent s) d) as [r|] eqn:Hnc; [|done].
  rewrite (nearest_cap_sound Q d Hv _ _ Hn _ _ Hnc) in Hg.
  case_bool_decide as Hlt; [done|].
  unfold fuel_of in Hmy. simpl in Hmy. rewrite rget_cap in Hmy by done.
  rewrite bool_decide_eq_false_2 in Hmy by done.
  pose proof (foldr_opt_max_ge (fun c0 : positive * qspec => subtree_max (size Q) Q (fst c0) (snd c0) d) _ _ Hmy) as Hge.
  destruct (Hge (k, sk)) as (m' & Hm' & Hle); [by apply elem_children|]. cbn [fst snd] in Hm'.
  pose proof (subtree_max_ge Q d Hv k x Hf _ _ _ Hk Hm'). lia.
Qed.

Lemma nearest_top_none Q d par v : is_top par = true -> ~ nearest Q d par v.
Proof.
  intros Ht H. inversion H; subst; apply is_top_some in Ht; done.
Qed.

(* n := s2 after the hierarchical resource validation: n is checked against its new ancestors, which
   are as in Q; a queue x below n with nothing between them setting d is bounded by n's own
   capability (validateChildrenConstraints) or, if n sets none, by the ancestor's (second loop of
   validateChildAgainstAncestor); every other queue sees what it saw in Q *)
Lemma cu_cap c Q n s s2 :
  admit_cu c Q n s (Q !! n) = VAllowed -> qparent s2 = qparent s -> qcap s2 = qcap s ->
  ShapeInv c (<[n := s2]> Q) -> CapInv Q -> CapInv (<[n := s2]> Q).
Proof.
  intros Hadm Hp2 Hc2 Hsh' Hinv.
  destruct (decide (n = root)) as [->|Hnr].
  { intros x sx d v Hx Hxr Hv Hpos Hnear. rewrite lookup_insert_ne in Hx by done.
    apply (Hinv x sx d v); [done..|]. revert Hnear. apply nearest_mono.
    intros p ps Hpr Hps. rewrite lookup_insert_ne in Hps by done. by exists ps. }
  destruct (admit_cu_allowed c Q n s Hadm) as (_ & _ & Hres).
  destruct (Hres Hnr) as [Hval|(o & Ho & Hpo & Hco & _)].
  2:{ apply (cap_agree Q n o); [done|congruence..|done]. }
  apply validate_resources_allowed in Hval as [Hpar Hkids].
  assert (forall d v, nearest Q d (qparent s) v -> child_vs_ancestor Q n s = VAllowed) as Hcva.
  { intros d v Hnear. destruct (qparent s) as [p|] eqn:Hp; [|by apply nearest_top_none in Hnear].
    destruct (decide (p = root)) as [->|Hpr]; [apply nearest_top_none in Hnear; [done|by apply is_top_some]|].
    by destruct (Hpar p eq_refl Hpr) as (ps & _ & H & _). }
  assert (forall d, capd s2 d = capd s d) as Hcd by (intros d; unfold capd; by rewrite Hc2).
  intros x sx d v Hx Hxr Hv Hpos Hnear. destruct (decide (x = n)) as [->|Hne].
  { rewrite lookup_insert in Hx. injection Hx as <-. apply (nearest_above_n c) in Hnear; [|done..].
    rewrite Hcd in *. rewrite Hp2 in Hnear. destruct (then_allowed _ _ (Hcva d v Hnear)) as [Hown _].
    by apply (child_own_allowed Q s d v). }
  rewrite lookup_insert_ne in Hx by done.
  destruct (cap_chain _ _ _ _ _ _ Hnear) as [Hq|[Hpath Hcase]]; [by apply (Hinv x sx d v)|].
  destruct (pn_firstpos Q d n (x, sx) _ Hpath x sx Hx eq_refl (fp_self _ _ _ _ Hx Hpos))
    as (k & sk & Hk & Hpk & Hf).
  rewrite Hcd in Hcase. destruct Hcase as [[Hpos2 ->]|[Hnpos2 Hnear2]].
  - assert ((k, sk) ∈ children_of Q n) as Hin by by apply elem_children.
    destruct Hkids as [Hnil|[_ Hkids]]; [rewrite Hnil in Hin; by apply elem_of_nil in Hin|].
    by apply (children_cap_allowed Q s _ d (x, sx) k sk Hkids).
  - apply (nearest_above_n c) in Hnear2; [|done..]. rewrite Hp2 in Hnear2.
    destruct (then_allowed _ _ (Hcva d v Hnear2)) as [_ Hdesc].
    by apply (child_desc_allowed Q n s d (x, sx) v k sk).
Qed.

Lemma cap_delete Q n : CapInv Q -> CapInv (delete n Q).
Proof.
  intros Hinv x sx d v [_ Hx]%lookup_delete_Some Hxr Hv Hpos Hnear.
  apply (Hinv x sx d v); [done..|]. revert Hnear. apply nearest_mono.
  intros p ps _ [_ Hps]%lookup_delete_Some. by exists ps.
Qed.

Theorem cap_step c Q r :
  1 <= max_depth c -> TermInv Q -> ShapeInv c Q -> CapInv Q -> CapInv (apply_if_admitted c Q r).
Proof.
  intros Hmax Hterm Hshape Hinv. generalize (shape_step c Q r Hmax Hterm Hshape).
  destruct (admitted_cases c Q r) as [|n s a st Hadm|n o a st t Hn _|n o _ _ _ _]; intros Hshape'.
  - done.
  - by apply (cu_cap c Q n s).
  - by apply (cap_agree Q n o).
  - by apply cap_delete.
Qed.

Lemma nearest_anc_sound Q d : forall par v, nearest Q d par v ->
  forall fuel r, nearest_anc fuel Q par d = Some r -> r = Some v.
Proof.
  intros par v H. induction H as [p ps Hr Hp Hpos|p ps v Hr Hp Hpos H IH]; intros fuel r Hf;
    (destruct fuel; simpl in Hf; [done|]); rewrite bool_decide_eq_false_2 in Hf by done;
    rewrite Hp in Hf; fold (capd ps d) in Hf.
  - rewrite bool_decide_eq_true_2 in Hf by done. congruence.
  - rewrite bool_decide_eq_false_2 in Hf by done. by eapply IH.
Qed.

Lemma caps_okb_sound Q : caps_okb Q = true -> CapInv Q.
Proof.
  unfold caps_okb. rewrite map_allb_spec. intros H n s d v Hn Hr Hv Hpos Hnear.
  specialize (H _ _ Hn). apply orb_true_iff in H as [H|H]; [by apply bool_decide_eq_true in H|].
  rewrite map_allb_spec in H. unfold capd, amount in Hpos |- *.
  destruct (qcap s !! d) as [cv|] eqn:Hc; [|by cbn in Hpos].
  change (0 < cv) in Hpos. change (cv <= v).
  specialize (H _ _ Hc). apply orb_true_iff in H as [H|H].
  { apply orb_true_iff in H as [H|H]; [by rewrite Hv in H|].
    apply negb_true_iff, bool_decide_eq_false in H. done. }
  destruct (nearest_anc (S (S (size Q))) Q (qparent s) d) as [r|] eqn:Hu; [|done].
  rewrite (nearest_anc_sound Q d _ _ Hnear _ _ Hu) in H. by apply bool_decide_eq_true in H.
Qed.

(* VFuel is the model's answer where the Go code would not return.  On a queue set satisfying
   ShapeInv it never occurs: fuel_of Q = S (size Q) exceeds every chain of parent links. *)

(* the queues of depth at most k are at least k: one more with every link of the chain *)
Lemma reach_size Q n k : reach Q n k -> (k <= size Q)%nat.
Proof.
  intros H. rewrite <- (size_dom (D := gset positive) Q).
  assert (forall X : gset positive, (forall x j, reach Q x j -> (j <= k)%nat -> x ∈ X) -> (k <= size X)%nat) as Hgen.
  { induction H as [n s Hn Ht|n s p k Hn Hp Hr H IH]; intros X HX.
    - assert (n ∈ X) as Hin by (apply (HX n 1%nat); [by eapply reach_top|lia]).
      apply elem_of_subseteq_singleton, subseteq_size in Hin. by rewrite size_singleton in Hin.
    - assert (reach Q n (S k)) as Hn' by by eapply reach_up.
      assert (n ∈ X) as Hin by by apply (HX n (S k)).
      rewrite (union_difference_singleton_L n X Hin), size_union, size_singleton by set_solver.
      apply le_n_S, IH. intros x j Hx Hj. apply elem_of_difference. split; [apply (HX x j); [done|lia]|].
      intros ->%elem_of_singleton. pose proof (reach_fun _ _ _ _ Hx Hn'). lia. }
  apply Hgen. intros x j Hx _. apply elem_of_dom. inversion Hx; eauto.
Qed.

Lemma nearest_cap_some Q d p k : reach Q p k -> p <> root ->
  forall fuel, (k <= fuel)%nat -> nearest_cap fuel Q (Some p) d <> None.
Proof.
  induction 1 as [n s Hn Ht|n s p2 k Hn Hp Hr H IH]; intros Hnr fuel Hle.
  - destruct fuel; [lia|]. simpl. rewrite bool_decide_eq_false_2 by done. rewrite Hn.
    case_bool_decide; [done|]. destruct (qparent s) as [p2|]; [|by destruct fuel].
    apply is_top_some in Ht as ->. by destruct fuel.
  - destruct fuel; [lia|]. simpl. rewrite bool_decide_eq_false_2 by done. rewrite Hn.
    case_bool_decide; [done|]. rewrite Hp. apply IH; [done|lia].
Qed.

Lemma first_bad_no_fuel {A} (f : A -> verdict) (l : list A) :
  (forall x, f x <> VFuel) -> first_bad (map f l) <> VFuel.
Proof. intros H. induction l as [|x l IH]; simpl; [done|]. destruct (allowed (f x)); [done|apply H]. Qed.

Lemma then_no_fuel v k :
  v <> VFuel -> k <> VFuel -> match (v : verdict) with VAllowed => k | v' => v' end <> VFuel.
Proof. by destruct v. Qed.
Lemma then_no_fuel_var v k : v <> VFuel -> k <> VFuel -> match v with VAllowed => k | _ => v end <> VFuel.
Proof. by destruct v. Qed.

Section Fuel.
Context (c : cfg) (Q : queues) (Hshape : ShapeInv c Q).

(* the depth of x, or 0 for a name that is not a queue (a CREATE is validated before the queue exists) *)
Definition depth0 (x : positive) (k : nat) : Prop := reach Q x k \/ (Q !! x = None /\ k = 0%nat).

Lemma depth0_ex x : x <> root -> exists k, depth0 x k.
Proof.
  intros Hr. destruct (Q !! x) as [s|] eqn:Hx; [|exists 0%nat; by right].
  destruct Hshape as [_ Hall]. destruct (Hall _ _ Hx Hr) as (k & Hk & _). exists k. by left.
Qed.

Lemma kid_depth x k cn sc : depth0 x k -> x <> root -> (cn, sc) ∈ children_of Q x ->
  cn <> root /\ depth0 cn (S k).
Proof.
  intros Hx Hxr [Hc Hp]%elem_children.
  assert (cn <> root) as Hcr. { destruct Hshape as [(sr & Hsr & Hpr) _]. intros ->. congruence. }
  split; [done|]. left. destruct Hx as [Hx|[Hx _]]; [by eapply reach_up|].
  destruct (shape_parent_exists c Q cn sc Hshape Hc Hcr) as [Ht|(p & ps & Hp' & _ & Hq)].
  - rewrite Hp in Ht. by apply is_top_some in Ht.
  - congruence.
Qed.

Lemma depth0_fuel x k fuel : depth0 x k -> (size Q < fuel + k)%nat -> (0 < fuel)%nat.
Proof. intros [Hx%reach_size|[_ ->]]; lia. Qed.

Lemma subtree_max_some d : forall fuel x k s, depth0 x k -> x <> root -> (size Q < fuel + k)%nat ->
  subtree_max fuel Q x s d <> None.
Proof.
  induction fuel as [|f IH]; intros x k s Hx Hxr Hlt; [pose proof (depth0_fuel _ _ _ Hx Hlt); lia|].
  simpl. case_bool_decide; [done|]. apply (foldr_opt_some _ (fun _ => Z.max)). intros [cn sc] Hin. simpl.
  destruct (kid_depth _ _ _ _ Hx Hxr Hin) as [Hcr Hck]. apply (IH cn (S k)); [done..|lia].
Qed.

Lemma desc_names_some : forall fuel x k, depth0 x k -> x <> root -> (size Q < fuel + k)%nat ->
  desc_names fuel Q x <> None.
Proof.
  induction fuel as [|f IH]; intros x k Hx Hxr Hlt; [pose proof (depth0_fuel _ _ _ Hx Hlt); lia|].
  simpl. apply (foldr_opt_some (fun c0 => desc_names f Q (fst c0)) (fun c0 a b => _ ++ a ++ b)). intros [cn sc] Hin. simpl.
  destruct (kid_depth _ _ _ _ Hx Hxr Hin) as [Hcr Hck]. apply (IH cn (S k)); [done..|lia].
Qed.

Lemma subtree_max_top n s d : n <> root -> subtree_max (fuel_of Q) Q n s d <> None.
Proof.
  intros Hnr. destruct (depth0_ex n Hnr) as [k Hk]. apply (subtree_max_some d _ n k); [done..|].
  unfold fuel_of. lia.
Qed.

Lemma desc_names_top n : n <> root -> desc_names (fuel_of Q) Q n <> None.
Proof.
  intros Hnr. destruct (depth0_ex n Hnr) as [k Hk]. apply (desc_names_some _ n k); [done..|].
  unfold fuel_of. lia.
Qed.

Lemma nearest_cap_top p ps d : p <> root -> Q !! p = Some ps -> nearest_cap (fuel_of Q) Q (Some p) d <> None.
Proof.
  intros Hpr Hp. destruct Hshape as [_ Hall]. destruct (Hall _ _ Hp Hpr) as (k & Hk & _).
  apply (nearest_cap_some _ _ _ k); [done..|]. pose proof (reach_size _ _ _ Hk). unfold fuel_of. lia.
Qed.

Lemma validate_resources_no_fuel n s : n <> root -> validate_resources Q n s <> VFuel.
Proof.
  intros Hnr. unfold validate_resources, validate_resources_with. apply then_no_fuel_var.
  - destruct (qparent s) as [p|] eqn:Hp; [|done]. case_bool_decide as Hpr; [done|].
    destruct (Q !! p) as [ps|] eqn:Hps; [|done].
    apply then_no_fuel_var; [|unfold siblings_sum; by destruct (_ && _)].
    assert (forall d, nearest_cap (fuel_of Q) Q (qparent s) d <> None) as Hup.
    { intros d. rewrite Hp. by eapply nearest_cap_top. }
    unfold child_vs_ancestor. apply then_no_fuel.
    + apply first_bad_no_fuel. intros d. specialize (Hup d).
      destruct (nearest_cap _ Q _ d) as [[up|]|]; [by case_bool_decide|done..].
    + unfold child_vs_ancestor_desc. pose proof (desc_names_top n Hnr).
      destruct (desc_names _ Q n) as [names|]; [|done]. apply first_bad_no_fuel. intros d.
      specialize (Hup d). pose proof (subtree_max_top n s d Hnr).
      destruct (subtree_max _ Q n s d); [|done].
      destruct (nearest_cap _ Q _ d) as [[up|]|]; [by case_bool_decide|done..].
  - destruct (children_of Q n) as [|kid kids] eqn:E; [done|]. rewrite <- E.
    unfold children_constraints. apply then_no_fuel; [|by destruct (_ && _)].
    apply first_bad_no_fuel. intros d.
    destruct (foldr _ _ (children_of Q n)) eqn:Hf; [by case_bool_decide|]. exfalso. revert Hf.
    apply (foldr_opt_some (fun c0 : positive * qspec => subtree_max (fuel_of Q) Q (fst c0) (snd c0) d) (fun _ => Z.max)).
    intros [cn sc] Hin. destruct (depth0_ex n Hnr) as [k Hk].
    apply subtree_max_top. by destruct (kid_depth _ _ _ _ Hk Hnr Hin).
Qed.

Lemma depth_walk_no_fuel rem : forall self parent, depth_walk rem Q self parent <> inl VFuel.
Proof.
  induction rem as [|r IH]; intros self [p|]; simpl; try done.
  - case_bool_decide; [done|]. by case_bool_decide.
  - case_bool_decide; [done|]. case_bool_decide; [done|]. destruct (Q !! p); [apply IH|done].
Qed.

Lemma validate_hier_no_fuel n s : validate_hier c Q n s <> VFuel.
Proof.
  unfold validate_hier, validate_hier_with. destruct (qparent s) as [p|]; [|done].
  case_bool_decide; [done|]. case_bool_decide; [done|]. case_bool_decide; [done|].
  pose proof (depth_walk_no_fuel (Z.to_nat (max_depth c - 1)) n (Some p)).
  destruct (depth_walk _ Q n (Some p)) as [v|rem]; [by intros ->|].
  destruct (_ <? _)%nat; [done|]. destruct (Q !! p) as [ps|]; [|done].
  destruct (true && qterm ps); [done|]. by destruct (_ && _).
Qed.

End Fuel.

Lemma hier_parent_not_term c Q n s p :
  validate_hier c Q n s = VAllowed -> qparent s = Some p -> p <> root ->
  p <> n /\ exists ps, Q !! p = Some ps /\ qterm ps = false.
Proof.
  intros [E|[_ [E|(p' & rem & ps & E & _ & Hpn & _ & _ & Hps & Ht)]]]%validate_hier_allowed Hp Hpr;
    rewrite Hp in E; [done|congruence|injection E as <-]. eauto.
Qed.

Lemma term_insert Q n s2 :
  TermInv Q ->
  (forall t st, Q !! t = Some st -> t <> root -> qterm st = true -> t <> n -> qparent s2 <> Some t) ->
  (qterm s2 = true -> n <> root ->
     qparent s2 <> Some n /\ forall m sm, Q !! m = Some sm -> m <> n -> qparent sm <> Some n) ->
  TermInv (<[n := s2]> Q).
Proof.
  intros Hinv Hnew Hself t st Ht Htr Htt m sm Hm.
  destruct (decide (t = n)) as [->|Htn].
  - rewrite lookup_insert in Ht. inversion Ht; subst st. destruct (Hself Htt Htr) as [Hs Hk].
    destruct (decide (m = n)) as [->|Hmn].
    + rewrite lookup_insert in Hm. by inversion Hm; subst.
    + rewrite lookup_insert_ne in Hm by done. by apply (Hk m sm).
  - rewrite lookup_insert_ne in Ht by done.
    destruct (decide (m = n)) as [->|Hmn].
    + rewrite lookup_insert in Hm. inversion Hm; subst sm. by apply (Hnew t st).
    + rewrite lookup_insert_ne in Hm by done. by apply (Hinv t st Ht Htr Htt m sm).
Qed.

(* the parent is kept; the flag is kept, or n has no children *)
Lemma term_same_parent Q n o s2 :
  TermInv Q -> Q !! n = Some o -> qparent s2 = qparent o -> qterm s2 = qterm o \/ leaf Q n ->
  TermInv (<[n := s2]> Q).
Proof.
  intros Hinv Hn Hp Ht. apply term_insert; [done| |]; rewrite Hp.
  - intros t st Hst Htr Htt _. exact (Hinv t st Hst Htr Htt n o Hn).
  - intros Htt Hnr. assert (leaf Q n) as Hl.
    { destruct Ht as [Ht|Hl]; [rewrite Ht in Htt; exact (Hinv n o Hn Hnr Htt)|done]. }
    split; [exact (Hl n o Hn)|]. intros m sm Hm _. exact (Hl m sm Hm).
Qed.

(* a new parent is not terminating and is not n; the flag is the stored one, a new object has none *)
Lemma term_hier c Q n s s2 :
  TermInv Q -> validate_hier c Q n s = VAllowed -> qparent s2 = qparent s ->
  qterm s2 = from_option qterm false (Q !! n) -> TermInv (<[n := s2]> Q).
Proof.
  intros Hinv Hh Hp Ht. apply term_insert; [done| |]; rewrite Hp.
  - intros t st Hst Htr Htt _ Hpt.
    destruct (hier_parent_not_term c Q n s t Hh Hpt Htr) as (_ & ps & Hps & Hf). congruence.
  - intros Htt Hnr. split.
    + intros Hpn. by destruct (hier_parent_not_term c Q n s n Hh Hpn Hnr) as (? & _).
    + rewrite Ht in Htt. destruct (Q !! n) as [o|] eqn:Hn; [|done].
      intros m sm Hm _. exact (Hinv n o Hn Hnr Htt m sm Hm).
Qed.

Lemma term_delete Q n : TermInv Q -> TermInv (delete n Q).
Proof.
  intros Hinv t st Ht Htr Htt m sm Hm. apply lookup_delete_Some in Ht as [_ Ht], Hm as [_ Hm].
  by apply (Hinv t st Ht Htr Htt m sm).
Qed.

Lemma term_step c Q r : TermInv Q -> TermInv (apply_if_admitted c Q r).
Proof.
  intros Hinv. destruct (admitted_cases c Q r) as [|n s a st Hadm|n o a st t Hn Ht|n o _ _ _ _].
  - done.
  - destruct (admit_cu_allowed c Q n s Hadm) as (_ & [Hh|(o & Hn & Hpo)] & _).
    + by apply (term_hier c Q n s).
    + rewrite Hn. apply (term_same_parent Q n o); auto.
  - apply (term_same_parent Q n o); auto.
  - by apply term_delete.
Qed.

Definition TreeInv (c : cfg) (Q : queues) : Prop :=
  ShapeInv c Q /\ PerQueueInv Q /\ SumInv Q /\ CapInv Q /\ TermInv Q.

Lemma tree_step c Q r :
  1 <= max_depth c -> TreeInv c Q -> TreeInv c (apply_if_admitted c Q r).
Proof.
  intros Hmax (Hs & Hp & Hsum & Hcap & Hterm). split; [|split; [|split; [|split]]].
  - by apply shape_step.
  - by apply per_queue_step.
  - by apply sum_step.
  - by apply cap_step.
  - by apply term_step.
Qed.

Lemma term_okb_sound Q : term_okb Q = true -> TermInv Q.
Proof.
  unfold term_okb. rewrite map_allb_spec. intros H n s Hn Hr Ht. specialize (H _ _ Hn).
  rewrite (bool_decide_eq_false_2 (n = root)), Ht in H by done. by apply leafb_leaf.
Qed.

Lemma tree_okb_sound c Q : tree_okb c Q = true -> TreeInv c Q.
Proof.
  unfold tree_okb. rewrite !andb_true_iff. intros [[[[Hs Hp] Hsum] Hcap] Hterm].
  split; [by apply shape_okb_sound|]. split; [by apply per_okb_sound|].
  split; [by apply sums_okb_sound|]. split; [by apply caps_okb_sound|by apply term_okb_sound].
Qed.

Definition cpu_l (v : Z) : list (positive * Z) := [(cpu_d, v)].
Definition q_ (p : option positive) (c d g : list (positive * Z)) : qspec :=
  mkQ p 0 0 false (list_to_map c) (list_to_map d) (list_to_map g).

(* root <- 3 (cpu cap 8000, deserved 6000, guarantee 4000) <- 4 <- 5 ; default *)
Definition ex_cfg : cfg := mkCfg 5 true true.
Definition ex_Q : queues :=
  list_to_map [(1, q_ None [] [] []); (2, q_ (Some 1) [] [] []);
               (3, q_ (Some 1) (cpu_l 8000%Z) (cpu_l 6000%Z) (cpu_l 4000%Z));
               (4, q_ (Some 3) (cpu_l 4000%Z) (cpu_l 3000%Z) (cpu_l 2000%Z));
               (5, q_ (Some 4) [] (cpu_l 1000%Z) (cpu_l 1000%Z))]%positive.

Example ex_tree_inv : TreeInv ex_cfg ex_Q.
Proof. apply tree_okb_sound. by vm_compute. Qed.

(* a history over it in which creates, updates, re-parentings, status updates and deletes are admitted
   and others are refused (no DeleteFin / EnvGone: those are in term_history below) *)
Definition ex_history : list req :=
  [Create 6 (q_ (Some 3) (cpu_l 2000%Z) (cpu_l 2000%Z) (cpu_l 2000%Z));     (* fits exactly next to 4 *)
   EnvStatus 4 (-1)%Z 2%Z;                                           (* the queue controller closes 4 *)
   Create 7 (q_ (Some 3) [] (cpu_l 1000%Z) (cpu_l 1000%Z));              (* refused: guarantee sum 5000 > 4000, closed or not *)
   EnvStatus 4 (-1)%Z 3%Z;                                           (* ... 4 is Closing *)
   Update 4 (q_ (Some 3) (cpu_l 4000%Z) (cpu_l 3000%Z) (cpu_l 1000%Z));    (* refused: the object carries state Closing *)
   EnvStatus 4 (-1)%Z 1%Z;                                           (* open again *)
   Update 5 (q_ (Some 6) [] (cpu_l 1000%Z) (cpu_l 1000%Z));              (* re-parent the leaf 5 under 6 *)
   Update 3 (q_ (Some 5) (cpu_l 8000%Z) (cpu_l 6000%Z) (cpu_l 4000%Z));     (* refused: under its own descendant *)
   Update 1 (q_ (Some 3) [] [] []);                                 (* refused: root cannot have a parent *)
   Create 8 (q_ (Some 2) [] [] []);                                 (* a queue without capability under default *)
   Create 9 (q_ (Some 8) (cpu_l 3000%Z) [] []);                        (* ... with a child of capability 3000 *)
   Update 8 (q_ (Some 6) [] [] []);                                 (* refused: 9 would end under 6 (2000) *)
   Delete 4;                                                        (* 4 has no children any more *)
   Delete 3]%positive.                                              (* refused: 3 has children *)

Example ex_history_verdicts :
  verdicts ex_cfg ex_Q ex_history =
  [VAllowed; VAllowed; VSiblingSum; VAllowed; VSpec; VAllowed; VAllowed; VCycle; VRootParent; VAllowed; VAllowed;
   VCapAncestor; VAllowed; VDelChildren].
Proof. by vm_compute. Qed.

(* the DEFAULT configuration: EnableQueueAllocatedPodsCheck = false (options.go) *)
Definition default_cfg : cfg := mkCfg 5 false true.

(* the deletion clause "a queue that has allocated pods is not deleted": with the flag on, queue 5 of
   ex_Q with 3 allocated pods is refused (in the default configuration it is deleted: known finding
   C10-delete-allocated-pods-flag-off, Props C10_delete_allocated_without_flag_refuted) *)
Example delete_allocated_with_flag_refused :
  verdict_of ex_cfg (apply_req ex_Q (EnvStatus 5%positive 3 (-1))) (Delete 5%positive) = VDelAllocated.
Proof. by vm_compute. Qed.

(* the bootstrap queue set {root, default} of a fresh cluster satisfies the invariant *)
Example bootstrap_tree_inv :
  TreeInv default_cfg (list_to_map [(root, q_ None [] [] []); (default_q, q_ (Some root) [] [] [])]) /\
  TreeInv default_cfg (list_to_map [(root, q_ None [] [] []); (default_q, q_ None [] [] [])]).
Proof. split; apply tree_okb_sound; by vm_compute. Qed.

(* the root queue is carved out of the sums and of the capability bound BY THE CODE
   (validateHierarchicalQueueResources skips a parent named root; findNearestAncestorCapability
   stops below root; root's own updates are never validated against its children): with explicit
   amounts on root, top-level queues may exceed them.  (The scheduler overwrites root's guarantee
   and deserved with the sums of its children and treats an unset root capability as infinite,
   capacity.go 1331-1348, 1528-1530.) *)
Definition rootx_Q : queues :=
  list_to_map [(root, q_ None (cpu_l 1000) (cpu_l 1000) (cpu_l 1000)); (default_q, q_ (Some root) [] [] [])].

(* Serialised admission is a hypothesis of every history theorem: [run_history] validates each
   request against the set produced by the previous ones.  Two requests validated against the SAME
   set (concurrent admissions / a lister that lags) are both admitted and break the invariant:
   a cycle, an over-subscribed parent, a dangling parent. *)
Definition conc_Q : queues :=
  list_to_map [(1, q_ None [] [] []); (3, q_ (Some 1) [] [] []); (4, q_ (Some 1) [] [] []);
               (7, q_ (Some 1) [] (cpu_l 10000%Z) (cpu_l 10000%Z))]%positive.

Lemma conc_tree_inv : TreeInv default_cfg conc_Q.
Proof. apply tree_okb_sound. by vm_compute. Qed.

(* A CREATE under a queue whose DELETE was admitted and whose finalizer is pending, then the removal
   of the finalizer (fix aa1c1ec: a terminating queue takes no new children; what the validation
   did before it is Props C10_terminating_parent_dangling_refuted, on term_Q) *)
Definition term_Q : queues :=
  list_to_map [(1, q_ None [] [] []); (3, with_status 0 0 true (q_ (Some 1) [] [] []))]%positive.
Definition term_history : list req :=
  [DeleteFin 3; Create 4 (q_ (Some 3) [] [] []); EnvGone 3]%positive.

(* the current code refuses the CREATE, and the whole history keeps the tree *)
Example postfix_terminating_parent_refused :
  verdicts default_cfg (list_to_map [(1, q_ None [] [] []); (3, q_ (Some 1) [] [] [])])%positive term_history
  = [VAllowed; VParentTerminating; VAllowed].
Proof. by vm_compute. Qed.

(* F3, first half (fix 16eeba9): a.parent := c on root <- a <- b <- c is refused as a cycle (before the
   fix it was admitted: Props C10_prefix_cycle_refuted) *)
Definition f3_Q : queues :=
  list_to_map [(1, q_ None [] [] []); (3, q_ (Some 1) [] [] []); (4, q_ (Some 3) [] [] []);
               (5, q_ (Some 4) [] [] [])]%positive.

Example postfix_cycle_rejected :
  validate_hier ex_cfg f3_Q 3%positive (q_ (Some 5%positive) [] [] []) = VCycle.
Proof. by vm_compute. Qed.

(* F3, second half (fix 16eeba9): the depth of a moved subtree is checked: max depth 3,
   root <- 3 <- 4 <- 5 and root <- 6 <- 7; 3.parent := 7 would put 5 at depth 5 (before the fix it
   was admitted: Props C10_prefix_depth_refuted) *)
Definition f3b_cfg : cfg := mkCfg 3 false false.
Definition f3b_Q : queues :=
  list_to_map [(1, q_ None [] [] []); (3, q_ None [] [] []); (4, q_ (Some 3) [] [] []);
               (5, q_ (Some 4) [] [] []); (6, q_ (Some 1) [] [] []); (7, q_ (Some 6) [] [] [])]%positive.

Example postfix_depth_rejected :
  validate_hier f3b_cfg f3b_Q 3%positive (q_ (Some 7%positive) [] [] []) = VSubtreeDepth.
Proof. by vm_compute. Qed.

(* fix 02b9100: a re-parenting that puts a descendant under an ancestor with a smaller capability is
   refused (validateChildAgainstAncestor with its first loop only admitted it: Props
   C10_precap_reparent_refuted) *)
Definition capx_Q : queues :=
  list_to_map [(1, q_ None [] [] []); (3, q_ (Some 1) (cpu_l 100000%Z) [] []); (4, q_ (Some 3) [] [] []);
               (5, q_ (Some 4) (cpu_l 50000%Z) [] []); (6, q_ (Some 1) (cpu_l 10000%Z) [] [])]%positive.

Example postfix_capability_rejected :
  admit_cu ex_cfg capx_Q 4%positive (q_ (Some 6%positive) [] [] []) (Some (q_ (Some 3%positive) [] [] [])) = VCapAncestor.
Proof. by vm_compute. Qed.

(* fix e160f0e: the root queue cannot be given a parent *)
Example root_parent_rejected :
  validate_hier ex_cfg ex_Q root (q_ (Some 3%positive) [] [] []) = VRootParent.
Proof. by vm_compute. Qed.
