(* C06: lemmas behind Props/C06.v and its worked examples.  The pod set: syncJob on the world (sync_job of
   C05/Model.v) reduced to one pass of sync_pods, whose theorems are in C05/SyncLemmas.v.  The PodGroup:
   tm_get over pg_create / pg_update; minResources counted (first_count, own_mins, fill_up sum exactly
   minAvailable replicas) and as amounts (the [greedy] hand-out); what laws 206 / 212 accept.  createJobPod:
   [is_pod_of], a reading of the pod object that does not mention make_pod. *)
From Coq Require Import ZArith List Bool Lia Permutation.
From V Require Import C05.Model C05.JobCodec C05.Laws C05.Lemmas C05.SyncLemmas C06.Model C06.Laws.
Import ListNotations.
Open Scope Z_scope.

(* ---------- no pod is created (or deleted) while the PodGroup is not admitted ---------- *)
Theorem sync_creates_none_while_pg_pending : forall w u F w' e wr,
  sync_job w u F = (w', e, wr) -> pg_admitted (v_pg w) = false -> w_pods w' = w_pods w.
Proof.
  intros w u F w' e wr H Hpg.
  destruct (sync_job_cases _ _ _ _ _ _ _ _ H) as [(-> & _)|(w2 & b & refused & Eb & _ & Hend)]; [reflexivity|].
  unfold sync_base in Eb. rewrite Hpg in Eb. injection Eb as <- _ _.
  destruct (sync_w1_proj w) as (_ & _ & _ & _ & W5 & _).
  destruct Hend as [(-> & _)|[(-> & _)|(-> & _)]]; exact W5.
Qed.

Lemma execute_creates_none : forall w a r F w' e wr,
  execute w a r F = (w', e, wr) -> fst (exec (st_phase (v_st w)) a) = KSync ->
  pg_admitted (v_pg w) = false -> w_pods w' = w_pods w.
Proof.
  intros w a r F w' e wr H Hk Hpg. unfold execute in H.
  destruct (exec (st_phase (v_st w)) a) as [k u]. cbn in Hk. subst k.
  exact (sync_creates_none_while_pg_pending _ _ _ _ _ _ H Hpg).
Qed.

(* ---------- the PodGroup mirrors the spec ---------- *)
Lemma tm_get_set_same : forall k v m, tm_get k (tm_set k v m) = Some v.
Proof.
  induction m as [|[k' v'] m IH]; cbn.
  - rewrite Pos.eqb_refl. reflexivity.
  - destruct (Pos.eqb k k') eqn:E; cbn; rewrite E; auto.
Qed.
Lemma tm_get_set_other : forall k k' v m, k <> k' -> tm_get k (tm_set k' v m) = tm_get k m.
Proof.
  induction m as [|[k2 v2] m IH]; intros Hne; cbn.
  - destruct (Pos.eqb k k') eqn:E; auto. apply Pos.eqb_eq in E. contradiction.
  - destruct (Pos.eqb k' k2) eqn:E; cbn.
    + apply Pos.eqb_eq in E. subst k2. destruct (Pos.eqb k k') eqn:E2; auto.
      apply Pos.eqb_eq in E2. contradiction.
    + destruct (Pos.eqb k k2); auto.
Qed.

Lemma fold_set_other : forall k ts m,
  ~ In k (map t_name ts) ->
  tm_get k (fold_left (fun m t => tm_set (t_name t) (min_task_member t) m) ts m) = tm_get k m.
Proof.
  induction ts as [|t ts IH]; intros m Hn; cbn; auto.
  rewrite IH; [|intro; apply Hn; right; assumption].
  apply tm_get_set_other. intro; apply Hn; left; congruence.
Qed.

Lemma fold_set_in : forall ts m t,
  NoDup (map t_name ts) -> In t ts ->
  tm_get (t_name t) (fold_left (fun m t => tm_set (t_name t) (min_task_member t) m) ts m) = Some (min_task_member t).
Proof.
  induction ts as [|t0 ts IH]; intros m t Hnd Hin; [destruct Hin|].
  cbn in Hnd. inversion Hnd as [|? ? Hnot Hnd']; subst. cbn [fold_left].
  destruct Hin as [<-|Hin].
  - rewrite fold_set_other; auto. apply tm_get_set_same.
  - apply IH; auto.
Qed.

Lemma tm_get_map : forall ts t,
  NoDup (map t_name ts) -> In t ts ->
  tm_get (t_name t) (map (fun t => (t_name t, min_task_member t)) ts) = Some (min_task_member t).
Proof.
  induction ts as [|t0 ts IH]; intros t Hnd Hin; [destruct Hin|].
  cbn in Hnd. inversion Hnd as [|? ? Hnot Hnd']; subst. cbn.
  destruct Hin as [<-|Hin].
  - rewrite Pos.eqb_refl. reflexivity.
  - destruct (Pos.eqb (t_name t) (t_name t0)) eqn:E.
    + apply Pos.eqb_eq in E. exfalso. apply Hnot. rewrite <- E. apply in_map. exact Hin.
    + apply IH; auto.
Qed.

(* both after a create and after any update (scale up / down), for every spec
   with unique task names: MinMember, every task's MinTaskMember, the priority
   class and MinResources are the spec's *)
Theorem podgroup_mirrors_spec : forall sp xs jp,
  NoDup (map t_name (s_tasks sp)) ->
  (let g := pg_create sp xs jp in
   g_minmember g = s_min sp /\ g_prio g = jp /\ g_res g = calc_min_resources sp xs /\
   forall t, In t (s_tasks sp) -> tm_get (t_name t) (g_taskmin g) = Some (min_task_member t)) /\
  (forall g0, let g := pg_update g0 sp xs jp in
   g_minmember g = s_min sp /\ g_prio g = jp /\ g_res g = calc_min_resources sp xs /\
   forall t, In t (s_tasks sp) -> tm_get (t_name t) (g_taskmin g) = Some (min_task_member t)).
Proof.
  intros sp xs jp Hnd. split.
  - cbn. repeat split; auto. intros t Hin. apply tm_get_map; auto.
  - intros g0. cbn. repeat split; auto. intros t Hin. apply fold_set_in; auto.
Qed.

Theorem min_task_member_spec : forall t,
  min_task_member t = match t_min t with Some m => m | None => t_replicas t end.
Proof. reflexivity. Qed.

Definition sum_replicas (l : list ptask) : Z := fold_right (fun t acc => pt_replicas t + acc) 0 l.

Lemma rtimes_pods : forall n t, 0 <= n -> r_pods (rtimes n t) = n.
Proof. intros n t Hn. unfold rtimes. destruct (n <=? 0) eqn:E; cbn; auto. apply Z.leb_le in E. lia. Qed.

(* each task's own minimum first: loop 1 never takes more than jobmin and takes
   every task minimum while there is room *)
Lemma own_mins_count : forall l jobmin cnt x c,
  Forall (fun t => match pt_min t with Some m => 0 <= m | None => True end) l ->
  cnt <= jobmin -> own_mins jobmin cnt l = (x, c) ->
  cnt <= c <= jobmin /\ r_pods x = c - cnt.
Proof.
  induction l as [|t l IH]; intros jobmin cnt x c Hf Hle H; cbn in H.
  - inversion H; subst. cbn. lia.
  - inversion Hf as [|? ? Ht Hf']; subst.
    destruct (pt_min t) as [m|] eqn:Em.
    + cbn in Ht. destruct (jobmin - cnt <? m) eqn:E1.
      * apply Z.ltb_lt in E1.
        assert (E2 : (jobmin <=? cnt + (jobmin - cnt)) = true) by (apply Z.leb_le; lia).
        rewrite E2 in H. inversion H; subst. rewrite rtimes_pods by lia. lia.
      * apply Z.ltb_ge in E1.
        destruct (jobmin <=? cnt + m) eqn:E2.
        -- inversion H; subst. rewrite rtimes_pods by lia. apply Z.leb_le in E2. lia.
        -- apply Z.leb_gt in E2. destruct (own_mins jobmin (cnt + m) l) as [x1 c1] eqn:Eo.
           assert (Hc' : cnt + m <= jobmin) by lia.
           destruct (IH _ _ _ _ Hf' Hc' Eo) as [A B].
           inversion H; subst. cbn [radd r_pods]. rewrite rtimes_pods by lia. lia.
    + apply (IH _ _ _ _ Hf' Hle H).
Qed.

(* the model's sort is a permutation sorted by descending priority (ties keep their order) *)
Lemma ins_prio_perm : forall x l, Permutation (ins_prio x l) (x :: l).
Proof.
  induction l as [|y l IH]; cbn; auto.
  destruct (pt_prio y <? pt_prio x); auto.
  eapply perm_trans; [apply perm_skip, IH|apply perm_swap].
Qed.
Lemma desc_prio_cons2 : forall a b r, desc_prio (a :: b :: r) = (pt_prio b <=? pt_prio a) && desc_prio (b :: r).
Proof. reflexivity. Qed.
Lemma ins_prio_desc : forall x l, desc_prio l = true -> desc_prio (ins_prio x l) = true.
Proof.
  induction l as [|y l IH]; intros H; [reflexivity|].
  cbn [ins_prio]. destruct (pt_prio y <? pt_prio x) eqn:E.
  - rewrite desc_prio_cons2, H. apply Z.ltb_lt in E.
    assert (E' : (pt_prio y <=? pt_prio x) = true) by (apply Z.leb_le; lia). rewrite E'. reflexivity.
  - apply Z.ltb_ge in E. destruct l as [|z l'].
    + cbn [ins_prio]. rewrite desc_prio_cons2.
      assert (E' : (pt_prio x <=? pt_prio y) = true) by (apply Z.leb_le; lia). rewrite E'. reflexivity.
    + rewrite desc_prio_cons2 in H. apply andb_true_iff in H. destruct H as [H1 H2].
      specialize (IH H2). cbn [ins_prio] in IH |- *.
      destruct (pt_prio z <? pt_prio x) eqn:E2.
      * rewrite desc_prio_cons2, IH.
        assert (E' : (pt_prio x <=? pt_prio y) = true) by (apply Z.leb_le; lia). rewrite E'. reflexivity.
      * rewrite desc_prio_cons2, IH, H1. reflexivity.
Qed.

Example pg_example :
  let sp := mkSpec [mkTask 1 3 (Some 1) [] None; mkTask 2 2 None [] None] 4 None 3 [] in
  let xs := [mkExtra 100 64 1; mkExtra 250 0 2] in
  NoDup (map t_name (s_tasks sp)) /\
  calc_min_resources sp xs = mkR 4 (2 * 250 + 2 * 100) (2 * 64) /\
  law_pg sp xs 2 true (pg_create sp xs 2) = true.
Proof. cbn. split; [repeat constructor; cbn; intuition congruence|split; vm_compute; reflexivity]. Qed.

(* ---------- syncJob on the world: the API server's pods after an admitted sync ---------- *)
Lemma sync_job_pods : forall w u F w' e wr,
  sync_job w u F = (w', e, wr) -> c_vdel (v_ctl w) = false -> c_queue (v_ctl w) = true ->
  pg_admitted (v_pg w) = true -> st_phase (v_st w) <> PhNone ->
  w_pods w' = a_pods (sync_pods (v_spec w) (v_pods w) (w_pods w) F) /\
  (F = [] -> e = a_err (sync_pods (v_spec w) (v_pods w) (w_pods w) [])).
Proof.
  intros w u F w' e wr H Hdel Hq Hpg Hph.
  assert (Ei : phase_beq (st_phase (v_st w)) PhNone = false).
  { destruct (phase_beq _ _) eqn:Ei; [apply phase_beq_true in Ei; contradiction|reflexivity]. }
  destruct (sync_job_cases _ _ _ _ _ _ _ _ H) as [(_ & _ & _ & [E|[E|[E _]]])|(w2 & b & refused & Eb & _ & Hend)];
    try congruence.
  unfold sync_base in Eb. destruct (sync_w1_proj w) as (_ & _ & _ & W4 & _). cbv zeta in W4.
  rewrite Hpg, W4, Ei in Eb. injection Eb as <- _ <-. cbv zeta in Hend. rewrite Ei in Hend.
  destruct Hend as [(-> & _ & [[-> Er]|(-> & Er & _)])|[(-> & _ & _ & _ & Ef)|(-> & -> & _ & Er & _)]];
    (split; [reflexivity|intros ->; auto]).
  cbn in Ef. discriminate.
Qed.

(* non-vacuity of the pod-set theorems: scale 3 -> 2 with a missing replica, a
   surplus pod, an out-of-sync pod and a dependent task *)
Definition ex_spec : spec :=
  mkSpec [mkTask 1 2 (Some 1) [] None; mkTask 2 1 None [] (Some (false, [1%positive]))] 2 None 3 [].
Definition ex_pods : list pod :=
  [mkPod 1 1 PRunning false true; mkPod 1 2 PRunning false false].
Example pod_set_example :
  NoDup (map t_name (s_tasks ex_spec)) /\ NoDup (pod_ids ex_pods) /\
  pass true ex_spec ex_pods =
    [mkPod 1 0 PPending false false; mkPod 1 1 PRunning true true; mkPod 1 2 PRunning true false;
     mkPod 2 0 PPending false false] /\
  pass true ex_spec (pass true ex_spec ex_pods) = pass true ex_spec ex_pods /\
  pass true ex_spec (a_pods (sync_pods ex_spec ex_pods ex_pods [FCreate 1 0; FDelete 1 2])) = pass true ex_spec ex_pods.
Proof.
  split; [repeat constructor; cbn; intuition congruence|].
  split; [repeat constructor; cbn; intuition congruence|].
  vm_compute. repeat split.
Qed.

(* ---------- minResources: exactly minAvailable replicas are summed ---------- *)
Definition spare (t : ptask) : Z :=
  match pt_min t with Some m => if m =? pt_replicas t then 0 else pt_replicas t - m | None => pt_replicas t end.
Definition sum_spare (l : list ptask) : Z := fold_right (fun t acc => spare t + acc) 0 l.
Definition sum_mins (l : list ptask) : Z :=
  fold_right (fun t acc => (match pt_min t with Some m => m | None => 0 end) + acc) 0 l.
Definition ptask_ok (t : ptask) : Prop :=
  0 <= pt_replicas t /\ match pt_min t with Some m => 0 <= m <= pt_replicas t | None => True end.

Lemma spare_nonneg : forall t, ptask_ok t -> 0 <= spare t.
Proof. intros t [H1 H2]. unfold spare. destruct (pt_min t) as [m|]; auto. destruct (m =? pt_replicas t); lia. Qed.

(* [spare] is what loop 2 lets a task still take; a task it skips can take nothing *)
Lemma spare_left : forall t,
  spare t = match (match pt_min t with
                   | Some m => if m =? pt_replicas t then None else Some (pt_replicas t - m)
                   | None => Some (pt_replicas t) end) with Some lf => lf | None => 0 end.
Proof. intros t. unfold spare. destruct (pt_min t) as [m|]; [destruct (m =? pt_replicas t)|]; reflexivity. Qed.

(* loop 2 (fill up in priority order) *)
Theorem fill_up_exact : forall l leftcnt,
  Forall ptask_ok l -> 0 < leftcnt <= sum_spare l -> r_pods (fill_up leftcnt l) = leftcnt.
Proof.
  induction l as [|t l IH]; intros leftcnt Hf Hc.
  - cbn in Hc. lia.
  - change (sum_spare (t :: l)) with (spare t + sum_spare l) in Hc.
    inversion Hf as [|? ? Ht Hf']; subst. pose proof (spare_nonneg t Ht) as Hs.
    cbn [fill_up]. rewrite spare_left in *. destruct (match pt_min t with Some _ => _ | None => _ end) as [lf|].
    + destruct (lf <=? leftcnt) eqn:E1; [|apply rtimes_pods; lia].
      apply Z.leb_le in E1. destruct (leftcnt - lf <=? 0) eqn:E2.
      * apply Z.leb_le in E2. rewrite rtimes_pods by lia. lia.
      * apply Z.leb_gt in E2. cbn [radd r_pods]. rewrite rtimes_pods by lia. rewrite IH; auto; lia.
    + apply IH; auto; lia.
Qed.

(* loop 1 stops early only when minAvailable is reached; otherwise it took every task minimum *)
Lemma own_mins_all : forall l jobmin cnt x c,
  Forall ptask_ok l -> own_mins jobmin cnt l = (x, c) -> c < jobmin -> c = cnt + sum_mins l.
Proof.
  induction l as [|t l IH]; intros jobmin cnt x c Hf H Hlt; cbn in H.
  - inversion H; subst. cbn. lia.
  - inversion Hf as [|? ? Ht Hf']; subst. change (sum_mins (t :: l)) with ((match pt_min t with Some m => m | None => 0 end) + sum_mins l).
    destruct Ht as [Hr Hm]. destruct (pt_min t) as [m|].
    + destruct (jobmin - cnt <? m) eqn:E1.
      * assert (E2 : (jobmin <=? cnt + (jobmin - cnt)) = true) by (apply Z.leb_le; lia).
        rewrite E2 in H. inversion H; subst. lia.
      * destruct (jobmin <=? cnt + m) eqn:E2.
        -- inversion H; subst. apply Z.leb_le in E2. lia.
        -- destruct (own_mins jobmin (cnt + m) l) as [x1 c1] eqn:Eo. inversion H; subst.
           rewrite (IH _ _ _ _ Hf' Eo Hlt). lia.
    + rewrite (IH _ _ _ _ Hf' H Hlt). lia.
Qed.

Lemma sum_split : forall l, Forall ptask_ok l -> sum_replicas l = sum_mins l + sum_spare l.
Proof.
  induction l as [|t l IH]; intros Hf; [reflexivity|]. inversion Hf as [|? ? [Hr Hm] Hf']; subst.
  specialize (IH Hf').
  change (sum_replicas (t :: l)) with (pt_replicas t + sum_replicas l).
  change (sum_mins (t :: l)) with ((match pt_min t with Some m => m | None => 0 end) + sum_mins l).
  change (sum_spare (t :: l)) with (spare t + sum_spare l). unfold spare.
  destruct (pt_min t) as [m|]; [|lia]. destruct (m =? pt_replicas t) eqn:E; [apply Z.eqb_eq in E|]; lia.
Qed.

Example minres_example :
  let l := [mkPT (mkTask 1 3 (Some 1) [] None) 100 64 10; mkPT (mkTask 2 2 None [] None) 250 0 20] in
  Forall ptask_ok l /\ 0 <= 4 <= sum_replicas l /\
  calc_min_resources_sorted 4 l (total_min l) = mkR 4 (3 * 100 + 250) (3 * 64).
Proof.
  cbv zeta. split; [repeat constructor; cbn; lia|]. split; [cbn; lia|]. vm_compute. reflexivity.
Qed.

(* ---------- createOrUpdatePodGroup: "returned OK" for every fault position ---------- *)
Definition pg_mirrors (g : podgroup) (sp : spec) (xs : list task_extra) (jp : Z) : Prop :=
  g_minmember g = s_min sp /\ g_prio g = jp /\ g_res g = calc_min_resources sp xs /\
  forall t, In t (s_tasks sp) -> tm_get (t_name t) (g_taskmin g) = Some (min_task_member t).

(* ---------- controller restart: the informers may deliver pods, job and PodGroup in any order ---------- *)
Definition delivery_orders : list (list op) :=
  [[OSyncJob; OSyncPods; OSyncPg]; [OSyncJob; OSyncPg; OSyncPods]; [OSyncPods; OSyncJob; OSyncPg];
   [OSyncPods; OSyncPg; OSyncJob]; [OSyncPg; OSyncJob; OSyncPods]; [OSyncPg; OSyncPods; OSyncJob]].

Definition synced (w : world) : world :=
  mkWorld (w_spec w) (w_spec w) (w_st w) (w_st w) (w_pods w) (w_pods w) (w_pg w) (w_pg w)
          (mkCtl true false (c_wdel (v_ctl w)) (c_wdel (v_ctl w)) (c_queue (v_ctl w)) (drop_delays (c_delay (v_ctl w)))
                 (no_rq (q_max (c_rq (v_ctl w))))).

(* what syncJob leaves alone on the way (PodGroup known to the lister) *)
Lemma sync_job_keeps : forall w u F w1 e wr,
  sync_job w u F = (w1, e, wr) -> v_pg w <> None ->
  c_wdel (v_ctl w1) = c_wdel (v_ctl w) /\ c_queue (v_ctl w1) = c_queue (v_ctl w) /\ w_pg w1 = w_pg w.
Proof.
  intros w u F w1 e wr H Hpg.
  destruct (sync_job_cases _ _ _ _ _ _ _ _ H) as [(-> & _)|(w2 & b & refused & Eb & _ & Hend)]; [auto|].
  assert (K : c_wdel (v_ctl w2) = c_wdel (v_ctl w) /\ c_queue (v_ctl w2) = c_queue (v_ctl w) /\ w_pg w2 = w_pg w).
  { unfold sync_base, sync_w1 in Eb. Transparent ensure_pg. unfold ensure_pg in Eb. Opaque ensure_pg.
    destruct (phase_beq _ _); cbn [write v_pg] in Eb; destruct (v_pg w); try contradiction;
      destruct (pg_admitted _); injection Eb as <- _ _; auto. }
  destruct Hend as [(-> & _)|[(-> & _)|(-> & _)]]; exact K.
Qed.

(* non-vacuity: an interrupted sync, restart with the pods delivered before the job *)
Example crash_restart_world_example :
  let w := init_world ex_spec (mkStatus PhRunning 0 0 2 c0 0 [] false false) ex_pods (Some PgRunning) in
  exists w1, sync_job w URunningSync [FCreate 1 0; FDelete 1 2] = (w1, true, false) /\
    let w2 := run w1 [ORestart; OSyncPods; OSyncJob; OSyncPg] in
    c_job (v_ctl w2) = true /\ v_pods w2 = w_pods w1 /\
    pass true (v_spec w2) (v_pods w2) = pass true ex_spec ex_pods.
Proof. eexists. split; [vm_compute; reflexivity|]. vm_compute. repeat split. Qed.

Example podgroup_ok_example :
  let sp := mkSpec [mkTask 1 3 (Some 1) [] None; mkTask 2 2 None [] None] 4 None 3 [] in
  let xs := [mkExtra 100 64 1; mkExtra 250 0 2] in
  let g0 := pg_create (mkSpec [mkTask 1 2 (Some 1) [] None; mkTask 2 2 None [] None] 3 None 3 []) xs 0 in
  create_or_update_pg (Some g0) (Some g0) sp xs 2 false = (Some (pg_update g0 sp xs 2), false) /\
  create_or_update_pg (Some g0) (Some g0) sp xs 2 true = (Some g0, true) /\
  pg_update g0 sp xs 2 <> g0.
Proof. vm_compute. repeat split; discriminate. Qed.

(* ---------- createJobPod: a pod's derived fields are those of its own (task, index) ---------- *)
Theorem create_job_pod_own_fields : forall ver retry t x i,
  let p := create_job_pod ver retry t x i in
  pf_task p = t_name t /\ pf_lbl_task p = t_name t /\ pf_idx p = i /\ pf_lbl_idx p = i /\
  pf_version p = ver /\ pf_retry p = retry.
Proof. intros. repeat split. Qed.

(* building all missing replicas of a task in one pass: the k-th pod is the one of the k-th
   index, whatever was built before or after it; distinct indices give distinct index markers *)
Theorem create_task_pods_pointwise : forall ver retry t x idxs k i,
  nth_error idxs k = Some i ->
  nth_error (create_task_pods ver retry t x idxs) k = Some (create_job_pod ver retry t x i).
Proof. intros. unfold create_task_pods. rewrite nth_error_map, H. reflexivity. Qed.

Theorem create_task_pods_distinct : forall ver retry t x idxs,
  NoDup idxs -> NoDup (map pf_idx (create_task_pods ver retry t x idxs)) /\
                map pf_lbl_idx (create_task_pods ver retry t x idxs) = idxs.
Proof.
  intros. unfold create_task_pods. rewrite !map_map. cbn. rewrite map_id. auto.
Qed.

Theorem law_created_pods_accepts_model : forall ver retry t x idxs,
  law_created_pods ver retry t x idxs (create_task_pods ver retry t x idxs) = true.
Proof.
  induction idxs as [|i idxs IH]; [reflexivity|].
  unfold create_task_pods in *. cbn [map law_created_pods create_job_pod pf_task pf_idx pf_lbl_task pf_lbl_idx
                                     pf_version pf_retry pf_user_lbl pf_user_ann].
  rewrite Pos.eqb_refl, !Z.eqb_refl. cbn [andb]. exact IH.
Qed.

(* ================= createJobPod against an independent specification ================= *)
(* "the pod of (job, task, index)", written without the constructor: name, namespace, controller
   owner reference, every derived annotation and label, the scheduler's job id, and the template's
   own entries untouched *)
Definition ann_keys := [K_TASK_INDEX; K_TASK_SPEC; K_GROUP; K_JOB_NAME; K_QUEUE; K_JOB_VERSION; K_TEMPLATE; K_RETRY].
Definition lbl_keys := [K_TASK_INDEX; K_JOB_NAME; K_TASK_SPEC; K_NAMESPACE; K_QUEUE].

Record is_pod_of (j : jobid) (t : positive) (i : Z) (ta tl : kmap) (p : pod_obj) : Prop := {
  ip_name : po_name p = (j_name j, t, i);
  ip_ns : po_ns p = j_ns j;
  ip_owner : po_owner p = Some (j_name j, j_uid j);
  ip_index_ann : kget K_TASK_INDEX (po_ann p) = Some (VNum i);
  ip_index_lbl : kget K_TASK_INDEX (po_lbl p) = Some (VNum i);
  ip_task_ann : kget K_TASK_SPEC (po_ann p) = Some (VTask t);
  ip_task_lbl : kget K_TASK_SPEC (po_lbl p) = Some (VTask t);
  ip_group : kget K_GROUP (po_ann p) = Some (VGroup (j_name j) (j_uid j));
  ip_jobname_ann : kget K_JOB_NAME (po_ann p) = Some (VNum (j_name j));
  ip_jobname_lbl : kget K_JOB_NAME (po_lbl p) = Some (VNum (j_name j));
  ip_queue_ann : kget K_QUEUE (po_ann p) = Some (VNum (j_queue j));
  ip_queue_lbl : kget K_QUEUE (po_lbl p) = Some (VNum (j_queue j));
  ip_version : kget K_JOB_VERSION (po_ann p) = Some (VNum (j_version j));
  ip_retry : kget K_RETRY (po_ann p) = Some (VNum (j_retry j));
  ip_template : kget K_TEMPLATE (po_ann p) = Some (VTmpl (j_name j) t);
  ip_namespace_lbl : kget K_NAMESPACE (po_lbl p) = Some (VNum (j_ns j));
  ip_sched_job : sched_job_id p = Some (j_ns j, j_name j, j_uid j);     (* = namespace / PodGroup name *)
  ip_user_ann : forall k, ~ In k ann_keys -> kget k (po_ann p) = kget k ta;
  ip_user_lbl : forall k, ~ In k lbl_keys -> kget k (po_lbl p) = kget k tl
}.

Lemma kget_kset_same : forall k v m, kget k (kset k v m) = Some v.
Proof.
  induction m as [|[k' v'] m IH]; cbn; [rewrite Z.eqb_refl; reflexivity|].
  destruct (k =? k') eqn:E; cbn; rewrite E; auto.
Qed.
Lemma kget_kset_other : forall k k' v m, k <> k' -> kget k (kset k' v m) = kget k m.
Proof.
  induction m as [|[k2 v2] m IH]; intros Hne; cbn.
  - destruct (k =? k') eqn:E; auto. apply Z.eqb_eq in E. contradiction.
  - destruct (k' =? k2) eqn:E; cbn.
    + apply Z.eqb_eq in E. subst k2. destruct (k =? k') eqn:E2; auto. apply Z.eqb_eq in E2. contradiction.
    + destruct (k =? k2); auto.
Qed.
Lemma kget_ksets_other : forall k kvs m, ~ In k (map fst kvs) -> kget k (ksets kvs m) = kget k m.
Proof.
  unfold ksets. induction kvs as [|[k' v] kvs IH]; intros m Hn; cbn [fold_left]; auto.
  rewrite IH by (intro; apply Hn; right; assumption). cbn [fst snd].
  apply kget_kset_other. intro; apply Hn; left; cbn; congruence.
Qed.
Lemma kget_ksets_in : forall k v kvs m, NoDup (map fst kvs) -> In (k, v) kvs -> kget k (ksets kvs m) = Some v.
Proof.
  unfold ksets. induction kvs as [|[k' v'] kvs IH]; intros m Hnd Hin; [destruct Hin|].
  cbn in Hnd. inversion Hnd as [|? ? Hnot Hnd']; subst. cbn [fold_left fst snd]. destruct Hin as [E|Hin].
  - inversion E; subst. fold (ksets kvs (kset k v m)). rewrite kget_ksets_other by exact Hnot. apply kget_kset_same.
  - apply IH; auto.
Qed.

Lemma ann_writes_keys : forall j t i, map fst (ann_writes j t i) = ann_keys.
Proof. reflexivity. Qed.
Lemma lbl_writes_keys : forall j t i, map fst (lbl_writes j t i) = lbl_keys.
Proof. reflexivity. Qed.
Lemma ann_keys_nodup : NoDup ann_keys.
Proof. unfold ann_keys. repeat constructor; cbn; intuition discriminate. Qed.
Lemma lbl_keys_nodup : NoDup lbl_keys.
Proof. unfold lbl_keys. repeat constructor; cbn; intuition discriminate. Qed.

(* createJobPod writing into maps of its own (a copy of the template's) yields the pod of (job, task, index) *)
Theorem make_pod_is_pod_of : forall j t i ta tl, is_pod_of j t i ta tl (make_pod j t i ta tl).
Proof.
  intros j t i ta tl.
  assert (A : forall k v, In (k, v) (ann_writes j t i) -> kget k (ksets (ann_writes j t i) ta) = Some v).
  { intros. apply kget_ksets_in; auto. rewrite ann_writes_keys. apply ann_keys_nodup. }
  assert (L : forall k v, In (k, v) (lbl_writes j t i) -> kget k (ksets (lbl_writes j t i) tl) = Some v).
  { intros. apply kget_ksets_in; auto. rewrite lbl_writes_keys. apply lbl_keys_nodup. }
  constructor; unfold make_pod; cbn [po_name po_ns po_owner po_ann po_lbl]; try reflexivity;
    try (apply A; cbn; tauto); try (apply L; cbn; tauto).
  - unfold sched_job_id. cbn [po_ann po_ns]. rewrite (A K_GROUP (VGroup (j_name j) (j_uid j))) by (cbn; tauto). reflexivity.
  - intros k Hk. apply kget_ksets_other. rewrite ann_writes_keys. exact Hk.
  - intros k Hk. apply kget_ksets_other. rewrite lbl_writes_keys. exact Hk.
Qed.

(* the numeric record compared with the Go pods (selector 6) reads the same object *)
Theorem create_job_pod_reads_object : forall j (tk : task) x i ta tl,
  let p := make_pod j (t_name tk) i ta tl in
  let f := create_job_pod (j_version j) (j_retry j) tk x i in
  kget K_TASK_INDEX (po_ann p) = Some (VNum (pf_idx f)) /\ kget K_TASK_INDEX (po_lbl p) = Some (VNum (pf_lbl_idx f)) /\
  kget K_TASK_SPEC (po_ann p) = Some (VTask (pf_task f)) /\ kget K_TASK_SPEC (po_lbl p) = Some (VTask (pf_lbl_task f)) /\
  kget K_JOB_VERSION (po_ann p) = Some (VNum (pf_version f)) /\ kget K_RETRY (po_ann p) = Some (VNum (pf_retry f)).
Proof.
  intros j tk x i ta tl p f. destruct (make_pod_is_pod_of j (t_name tk) i ta tl) as [].
  subst p f. cbn [create_job_pod pf_idx pf_lbl_idx pf_task pf_lbl_task pf_version pf_retry]. auto 10.
Qed.

(* ================= minResources: WHICH requests are summed (independent specification) ================= *)
(* hand out n units to a list of capacities, in order, as much as each can take *)
Fixpoint greedy (caps : list Z) (n : Z) : list Z :=
  match caps with
  | [] => []
  | c :: r => let k := Z.max 0 (Z.min c n) in k :: greedy r (n - k)
  end.
Definition zsum (l : list Z) : Z := fold_right Z.add 0 l.
(* Σ_t k_t × (the request of one pod of t) *)
Fixpoint rsum (ks : list Z) (l : list ptask) : res3 :=
  match ks, l with
  | k :: ks', t :: l' => radd (rtimes k t) (rsum ks' l')
  | _, _ => r0
  end.
Definition own_min (t : ptask) : Z := match pt_min t with Some m => m | None => 0 end.

Lemma radd_r0_r : forall x, radd x r0 = x.
Proof. intros [a b c]. unfold radd, r0; cbn. f_equal; lia. Qed.
Lemma radd_r0_l : forall x, radd r0 x = x.
Proof. intros [a b c]. reflexivity. Qed.
Lemma rtimes_0 : forall t, rtimes 0 t = r0.
Proof. reflexivity. Qed.

Lemma rsum_greedy_0 : forall l caps, rsum (greedy caps 0) l = r0.
Proof.
  induction l as [|t l IH]; intros [|c caps]; cbn [greedy rsum]; auto.
  assert (E : Z.max 0 (Z.min c 0) = 0) by lia. rewrite E, Z.sub_0_r, rtimes_0, IH. reflexivity.
Qed.

Lemma zsum_greedy_0 : forall caps, zsum (greedy caps 0) = 0.
Proof.
  induction caps as [|c0 caps IHc]; [reflexivity|]. cbn [greedy zsum fold_right].
  assert (E : Z.max 0 (Z.min c0 0) = 0) by lia. rewrite E, Z.sub_0_r. fold (zsum (greedy caps 0)). lia.
Qed.

(* one step of the hand-out: a capacity that covers what is left takes it and ends the hand-out;
   a smaller one is filled *)
Lemma greedy_last : forall c r n, 0 <= n <= c -> greedy (c :: r) n = n :: greedy r 0.
Proof. intros c r n H. cbn [greedy]. replace (Z.max 0 (Z.min c n)) with n by lia. rewrite Z.sub_diag. reflexivity. Qed.
Lemma greedy_full : forall c r n, 0 <= c <= n -> greedy (c :: r) n = c :: greedy r (n - c).
Proof. intros c r n H. cbn [greedy]. replace (Z.max 0 (Z.min c n)) with c by lia. reflexivity. Qed.
Lemma rsum_last : forall n caps t l, rsum (n :: greedy caps 0) (t :: l) = rtimes n t.
Proof. intros. cbn [rsum]. rewrite rsum_greedy_0. apply radd_r0_r. Qed.

(* minAvailable below the sum of the task minimums: the first minAvailable replicas in visiting order *)
Theorem first_count_amount : forall l count,
  Forall ptask_ok l -> 0 <= count ->
  first_count count l = rsum (greedy (map pt_replicas l) count) l.
Proof.
  induction l as [|t l IH]; intros count Hf Hc; [reflexivity|].
  inversion Hf as [|? ? [Hr _] Hf']; subst. cbn [first_count map].
  destruct (count <=? pt_replicas t) eqn:E.
  - apply Z.leb_le in E. rewrite greedy_last, rsum_last by lia. reflexivity.
  - apply Z.leb_gt in E. rewrite greedy_full by lia. cbn [rsum]. rewrite IH; auto; lia.
Qed.

(* loop 1: every task's own minimum, in visiting order, as long as something is left *)
Theorem own_mins_amount : forall l jobmin cnt x c,
  Forall ptask_ok l -> cnt <= jobmin -> own_mins jobmin cnt l = (x, c) ->
  x = rsum (greedy (map own_min l) (jobmin - cnt)) l /\ c = cnt + zsum (greedy (map own_min l) (jobmin - cnt)).
Proof.
  induction l as [|t l IH]; intros jobmin cnt x c Hf Hle H; cbn [own_mins] in H.
  - inversion H; subst. cbn. split; [reflexivity|lia].
  - inversion Hf as [|? ? [Hr Hm] Hf']; subst. cbn [map]. unfold own_min at 1 3.
    destruct (pt_min t) as [m|].
    + destruct (jobmin - cnt <? m) eqn:E1.
      * (* the task minimum is cut to what is left *)
        apply Z.ltb_lt in E1.
        assert (E2 : (jobmin <=? cnt + (jobmin - cnt)) = true) by (apply Z.leb_le; lia).
        rewrite E2 in H. inversion H; subst. rewrite greedy_last, rsum_last by lia.
        change (zsum (?k :: ?r)) with (k + zsum r). rewrite zsum_greedy_0. split; [reflexivity|lia].
      * apply Z.ltb_ge in E1. rewrite greedy_full by lia. cbn [rsum]. change (zsum (?k :: ?r)) with (k + zsum r).
        replace (jobmin - cnt - m) with (jobmin - (cnt + m)) by lia.
        destruct (jobmin <=? cnt + m) eqn:E2.
        -- apply Z.leb_le in E2. inversion H; subst. replace (jobmin - (cnt + m)) with 0 by lia.
           rewrite rsum_greedy_0, radd_r0_r, zsum_greedy_0. split; [reflexivity|lia].
        -- apply Z.leb_gt in E2. destruct (own_mins jobmin (cnt + m) l) as [x1 c1] eqn:Eo1. inversion H; subst.
           destruct (IH jobmin (cnt + m) x1 c Hf' ltac:(lia) Eo1) as [A B]. rewrite <- A. split; [reflexivity|lia].
    + rewrite greedy_full, Z.sub_0_r by lia. cbn [rsum]. change (zsum (?k :: ?r)) with (k + zsum r).
      rewrite rtimes_0, radd_r0_l. destruct (IH jobmin cnt x c Hf' Hle H) as [A B]. split; [exact A|lia].
Qed.

(* loop 2: the replicas beyond the task minimum, in visiting order *)
Theorem fill_up_amount : forall l leftcnt,
  Forall ptask_ok l -> 0 < leftcnt -> fill_up leftcnt l = rsum (greedy (map spare l) leftcnt) l.
Proof.
  induction l as [|t l IH]; intros leftcnt Hf Hc; [reflexivity|].
  inversion Hf as [|? ? Ht Hf']; subst. pose proof (spare_nonneg t Ht) as Hs. cbn [fill_up map].
  rewrite spare_left in *. destruct (match pt_min t with Some _ => _ | None => _ end) as [lf|].
  - destruct (lf <=? leftcnt) eqn:E1.
    + apply Z.leb_le in E1. rewrite greedy_full by lia. cbn [rsum].
      destruct (leftcnt - lf <=? 0) eqn:E2.
      * apply Z.leb_le in E2. replace (leftcnt - lf) with 0 by lia. rewrite rsum_greedy_0, radd_r0_r. reflexivity.
      * apply Z.leb_gt in E2. rewrite IH; auto.
    + apply Z.leb_gt in E1. rewrite greedy_last, rsum_last by lia. reflexivity.
  - rewrite greedy_full, Z.sub_0_r by lia. cbn [rsum]. rewrite rtimes_0, radd_r0_l. apply IH; auto.
Qed.

(* ================= what the executable laws MEAN (soundness: law = true -> the clause as a Prop) ================= *)
Lemma inserts_perm : forall (A : Type) (x : A) l o, In o (inserts x l) -> Permutation o (x :: l).
Proof.
  induction l as [|y r IH]; intros o H; cbn [inserts] in H.
  - destruct H as [<-|[]]. apply Permutation_refl.
  - destruct H as [<-|H]; [apply Permutation_refl|].
    apply in_map_iff in H. destruct H as [o' [<- H]]. apply IH in H.
    eapply Permutation_trans; [apply perm_skip; exact H|apply perm_swap].
Qed.

Lemma perms_sound : forall (A : Type) (l o : list A), In o (perms l) -> Permutation o l.
Proof.
  induction l as [|x r IH]; intros o H; cbn [perms] in H.
  - destruct H as [<-|[]]. constructor.
  - apply in_flat_map in H. destruct H as [o' [H1 H2]]. apply inserts_perm in H2.
    eapply Permutation_trans; [exact H2|apply perm_skip, IH, H1].
Qed.

Lemma res_eqb_eq : forall a b, res_eqb a b = true -> a = b.
Proof.
  intros [a1 a2 a3] [b1 b2 b3] H. unfold res_eqb in H. cbn in H.
  apply andb_true_iff in H. destruct H as [H H3]. apply andb_true_iff in H. destruct H as [H1 H2].
  apply Z.eqb_eq in H1, H2, H3. congruence.
Qed.

(* law 206 accepts a minResources value only if it is the value calcPGMinResources computes for SOME
   visiting order of the job's tasks that is a permutation of them in descending priority (for the amount
   that is, see C06_law_minres_amount in Props/C06.v) *)
Theorem law_minres_sound : forall sp xs got,
  law_minres sp xs got = true ->
  exists o, Permutation o (ptasks sp xs) /\ desc_prio o = true /\
            got = calc_min_resources_sorted (s_min sp) o (total_min (ptasks sp xs)).
Proof.
  intros sp xs got H. unfold law_minres in H. cbv zeta in H. apply andb_true_iff in H. destruct H as [H _].
  apply existsb_exists in H. destruct H as [o [Ho He]]. apply filter_In in Ho. destruct Ho as [Ho Hd].
  exists o. split; [apply perms_sound; exact Ho|]. split; [exact Hd|apply res_eqb_eq; exact He].
Qed.

(* the amount specification on a concrete job: tasks a (3 replicas, min 1, 100m/64Mi) and b (2 replicas,
   250m), minAvailable 4: a's own minimum (1), then 3 more in order: 2 of a, 1 of b *)
Example minres_amount_example :
  let l := [mkPT (mkTask 1 3 (Some 1) [] None) 100 64 10; mkPT (mkTask 2 2 None [] None) 250 0 20] in
  Forall ptask_ok l /\ greedy (map own_min l) 4 = [1; 0] /\ greedy (map spare l) (4 - 1) = [2; 1] /\
  calc_min_resources_sorted 4 l (total_min l) = radd (rsum [1; 0] l) (rsum [2; 1] l) /\
  radd (rsum [1; 0] l) (rsum [2; 1] l) = mkR 4 (3 * 100 + 1 * 250) (3 * 64).
Proof.
  cbv zeta. split; [repeat constructor; cbn; lia|]. vm_compute. auto.
Qed.

(* selector 6 compares the Go pods with the fields READ from the model's pod objects; those are the
   numeric record create_job_pod *)
Theorem read_fields_make_pod : forall ver retry (tk : task) x i,
  read_fields (make_pod (mkJob 1 1 1 1 ver retry) (t_name tk) i (tmpl (x_mem x)) (tmpl (x_cpu x))) =
  create_job_pod ver retry tk x i.
Proof.
  intros ver retry tk x i. unfold create_job_pod, tmpl.
  destruct (0 <? x_mem x) eqn:Em; destruct (0 <? x_cpu x) eqn:Ec;
    [apply Z.ltb_lt in Em, Ec|apply Z.ltb_lt in Em; apply Z.ltb_ge in Ec|apply Z.ltb_ge in Em; apply Z.ltb_lt in Ec|
     apply Z.ltb_ge in Em, Ec];
    cbv -[Z.max x_cpu x_mem t_name]; f_equal; lia.
Qed.

Theorem task_pod_objs_fields : forall ver retry tk x idxs,
  map read_fields (task_pod_objs ver retry tk x idxs) = create_task_pods ver retry tk x idxs.
Proof.
  intros. unfold task_pod_objs, build_pods, create_task_pods. rewrite map_map.
  apply map_ext. intros i. apply read_fields_make_pod.
Qed.

(* non-vacuity of C06_crash_restart_retry, and why it needs the API server's PodGroup: the same crash with a
   lister PodGroup (Running) that is ahead of the API server's (Pending): after the restart the retried
   sync succeeds and creates / deletes nothing (so the pass-level theorem is not a statement about the
   retry) *)
Example crash_restart_retry_example :
  let st := mkStatus PhRunning 0 0 2 c0 0 [] false false in
  let w := init_world ex_spec st ex_pods (Some PgRunning) in
  let wbad := mkWorld ex_spec ex_spec st st ex_pods ex_pods (Some PgPending) (Some PgRunning) (init_ctl true) in
  (exists w1 w3 wr3, sync_job w URunningSync [FCreate 1 0; FDelete 1 2] = (w1, true, false) /\
     st_phase (w_st w1) <> PhNone /\
     sync_job (run w1 [ORestart; OSyncPods; OSyncJob; OSyncPg]) URunningSync [] = (w3, false, wr3) /\
     w_pods w3 = pass true ex_spec ex_pods) /\
  (exists w1 w3 wr3, sync_job wbad URunningSync [FCreate 1 0; FDelete 1 2] = (w1, true, false) /\
     sync_job (run w1 [ORestart; OSyncPods; OSyncJob; OSyncPg]) URunningSync [] = (w3, false, wr3) /\
     w_pods w3 = w_pods w1 /\ w_pods w3 <> pass true ex_spec ex_pods).
Proof.
  cbv zeta. split.
  - do 3 eexists. split; [vm_compute; reflexivity|]. split; [vm_compute; discriminate|].
    split; vm_compute; reflexivity.
  - do 3 eexists. split; [vm_compute; reflexivity|]. split; [vm_compute; reflexivity|].
    split; [vm_compute; reflexivity|vm_compute; discriminate].
Qed.

(* the executable guard of law 206 gives the hypothesis of the amount theorems *)
Lemma well_formed_ptask_ok : forall sp xs, well_formed sp = true -> Forall ptask_ok (ptasks sp xs).
Proof.
  intros sp xs H. unfold well_formed in H. apply andb_true_iff in H. destruct H as [H _].
  apply andb_true_iff in H. destruct H as [H _]. rewrite forallb_forall in H.
  unfold ptasks. apply Forall_forall. intros p Hp. apply in_map_iff in Hp. destruct Hp as ([t x] & <- & Hin).
  apply in_combine_l in Hin. specialize (H t Hin). apply andb_true_iff in H. destruct H as [H1 H2].
  unfold ptask_ok, pt_replicas, pt_min. cbn. apply Z.leb_le in H1. split; [exact H1|].
  destruct (t_min t); [|exact I]. apply andb_true_iff in H2. destruct H2 as [A B].
  apply Z.leb_le in A, B. lia.
Qed.

(* ---------- ties are visited in spec order (a TasksPriority.Less that breaks ties by name would not) ---------- *)
Definition same_prio (p : Z) (t : ptask) : bool := pt_prio t =? p.

Lemma desc_prio_head : forall y r, desc_prio (y :: r) = true -> Forall (fun t => pt_prio t <= pt_prio y) r.
Proof.
  intros y r. revert y. induction r as [|z r IH]; intros y H; [constructor|].
  rewrite desc_prio_cons2 in H. apply andb_true_iff in H. destruct H as [H1 H2]. apply Z.leb_le in H1.
  constructor; [exact H1|]. eapply Forall_impl; [|apply IH; exact H2]. cbn. intros; lia.
Qed.

Lemma desc_prio_tail : forall y r, desc_prio (y :: r) = true -> desc_prio r = true.
Proof. intros y [|z r] H; [reflexivity|]. rewrite desc_prio_cons2 in H. apply andb_true_iff in H. tauto. Qed.

(* insertion puts a task AFTER every task of the same priority already there *)
Lemma ins_prio_stable : forall p x l, desc_prio l = true ->
  filter (same_prio p) (ins_prio x l) = filter (same_prio p) l ++ (if same_prio p x then [x] else []).
Proof.
  intros p x. induction l as [|y r IH]; intros Hd; [cbn; destruct (same_prio p x); reflexivity|].
  cbn [ins_prio]. destruct (pt_prio y <? pt_prio x) eqn:E.
  - apply Z.ltb_lt in E.
    assert (C : filter (same_prio p) (x :: y :: r) =
                if same_prio p x then x :: filter (same_prio p) (y :: r) else filter (same_prio p) (y :: r)) by reflexivity.
    rewrite C. clear C. destruct (same_prio p x) eqn:Ex; [|rewrite app_nil_r; reflexivity].
    unfold same_prio in Ex. apply Z.eqb_eq in Ex.
    assert (N : filter (same_prio p) (y :: r) = []).
    { pose proof (desc_prio_head _ _ Hd) as Hh.
      assert (A : Forall (fun t => pt_prio t <= pt_prio y) (y :: r)) by (constructor; [lia|exact Hh]).
      clear - A E Ex. induction A as [|z l Hz _ IHl]; [reflexivity|].
      cbn [filter]. unfold same_prio at 1. replace (pt_prio z =? p) with false by (symmetry; apply Z.eqb_neq; lia).
      exact IHl. }
    rewrite N. reflexivity.
  - cbn [filter]. rewrite (IH (desc_prio_tail _ _ Hd)). destruct (same_prio p y); reflexivity.
Qed.

(* non-vacuity / the seeded mutant: tasks [worker(name 2); master(name 1)] of equal priority, different
   requests, minAvailable 1 below the sum of the minimums: spec order takes worker's request; an order
   by name would take master's, which the any-order law accepts and law 212 refuses *)
Example minres_stable_example :
  let sp := mkSpec [mkTask 2 2 None [] None; mkTask 1 2 None [] None] 1 None 3 [] in
  let xs := [mkExtra 100 64 1; mkExtra 250 0 1] in
  calc_min_resources sp xs = mkR 1 100 64 /\
  law_minres_stable sp xs (mkR 1 100 64) = true /\
  law_minres sp xs (mkR 1 250 0) = true /\ law_minres_stable sp xs (mkR 1 250 0) = false.
Proof. vm_compute. auto. Qed.

(* ---------- the resync worker (syncTask after a failed pod delete) ---------- *)
(* whatever the API server holds, with or without the pod disappearing between the worker's GET and its
   cache.UpdatePod: syncTask never ADDS a pod to the job cache (UpdatePod refuses a pod the cache does not
   hold), the job status and the API server's other pods are untouched.  STEP-LEVEL facts read off the
   definition of the op; the history-level consequence
   (after a raced resync and the following syncs the pod set is the spec's) is shown on one world only
   (resync_example) and checked on the real controller by laws 201 / 221 in the resync family *)
Theorem resync_adds_no_pod : forall w t i race w' e wr,
  step w (OResyncPod t i race) = (w', e, wr) ->
  incl (pod_ids (v_pods w')) (pod_ids (v_pods w)) /\ incl (pod_ids (w_pods w')) (pod_ids (w_pods w)) /\
  w_st w' = w_st w /\ v_st w' = v_st w /\ e = false /\ wr = false /\
  (find_pod t i (w_pods w') = None -> find_pod t i (w_pods w) = None \/ race = true).
Proof.
  intros w t i race w' e wr H. cbn [step] in H.
  destruct (find_pod t i (w_pods w)) eqn:E; [destruct race|]; inversion H; subst; clear H; cbn [v_pods w_pods w_st v_st];
    repeat split; auto using incl_refl, pod_ids_remove.
  - unfold find_pod in E. apply find_some in E. destruct E as [_ E].
    assert (U : pod_ids (update_pod t i (fun _ => p) (v_pods w)) = pod_ids (v_pods w)).
    { unfold pod_ids, update_pod. rewrite map_map. apply map_ext_in. intros q _.
      destruct (same_id t i q) eqn:Q; [|reflexivity].
      unfold same_id in *. apply andb_true_iff in E, Q. destruct E as [E1 E2], Q as [Q1 Q2].
      apply Pos.eqb_eq in E1, Q1. apply Z.eqb_eq in E2, Q2. congruence. }
    rewrite U. apply incl_refl.
  - intros X. rewrite E in X. discriminate.
Qed.

Example resync_example :
  let st := mkStatus PhRunning 0 0 2 (mkC 0 2 0 0 0) 0 [] false false in
  let sp := mkSpec [mkTask 1 2 None [] None] 2 None 3 [] in
  let w := init_world sp st [mkPod 1 0 PRunning false false; mkPod 1 1 PRunning false true] (Some PgRunning) in
  (* the out-of-sync pod's DELETE is refused; the resync is raced by the pod's disappearance; after the
     deliveries the next sync re-creates index 1: one pod per replica index *)
  w_pods (run w [OReq (mkReq EOutOfSync None None None 0 0 1) [FDelete 1 1]; OResyncPod 1 1 true;
                 OSyncPods; OSyncPg; OSyncJob; OReq (mkReq EOutOfSync None None None 0 0 1) []]) =
  [mkPod 1 0 PRunning false false; mkPod 1 1 PPending false false].
Proof. vm_compute. reflexivity. Qed.

