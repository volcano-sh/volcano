(* Lemmas about SatModel.v: wrap64 by uniqueness, clamp64 as max/min, and the two specifications
   sat_add = clamp64 of the sum, sat_mul = clamp64 of the product, for all int64 operands. *)
From Coq Require Import ZArith Bool Lia List.
From V Require Import C16.SatModel.
Import ListNotations.
Open Scope Z_scope.

Ltac unfold_consts := unfold in64, max64, min64, two64, two63 in *.

(* wrap64 x is the one int64 congruent to x modulo 2^64 *)
Lemma wrap64_unique x y k : in64 y -> y = x + k * two64 -> wrap64 x = y.
Proof.
  intros Hy ->. unfold wrap64.
  replace (x + two63) with (x + k * two64 + two63 + - k * two64) by ring.
  rewrite Z.mod_add by discriminate. rewrite Z.mod_small; unfold_consts; lia.
Qed.

Lemma wrap64_small x : in64 x -> wrap64 x = x.
Proof. intros H. apply (wrap64_unique x x 0); [exact H|ring]. Qed.

Lemma wrap64_range x : in64 (wrap64 x).
Proof.
  unfold wrap64. pose proof (Z.mod_pos_bound (x + two63) two64 eq_refl). unfold_consts. lia.
Qed.

Lemma wrap64_cong x : exists k, wrap64 x = x - k * two64.
Proof.
  unfold wrap64. exists ((x + two63) / two64).
  pose proof (Z.div_mod (x + two63) two64 ltac:(discriminate)). lia.
Qed.

Lemma clamp64_max_min x : clamp64 x = Z.max min64 (Z.min max64 x).
Proof.
  unfold clamp64. destruct (Z.gtb_spec x max64), (Z.ltb_spec x min64); unfold_consts; lia.
Qed.

Lemma clamp64_range x : in64 (clamp64 x).
Proof. rewrite clamp64_max_min. unfold_consts. lia. Qed.

Lemma clamp64_pos x : 0 < x -> 0 < clamp64 x.
Proof. rewrite clamp64_max_min. unfold_consts. lia. Qed.

Lemma clamp64_mono x y : x <= y -> clamp64 x <= clamp64 y.
Proof. rewrite !clamp64_max_min. lia. Qed.

Lemma clamp64_nonneg_min x : 0 <= x -> clamp64 x = Z.min max64 x.
Proof. rewrite clamp64_max_min. unfold_consts. lia. Qed.

Lemma in64_min_max64 x : 0 <= x -> in64 (Z.min max64 x).
Proof. unfold_consts. lia. Qed.

(* what the two tests of SaturatingAdd ask *)
Lemma sat_add_test_pos a b s : (a >? 0) && (b >? 0) && (s <? 0) = true <-> 0 < a /\ 0 < b /\ s < 0.
Proof. rewrite !andb_true_iff, !Z.gtb_lt, Z.ltb_lt. tauto. Qed.

Lemma sat_add_test_neg a b s : (a <? 0) && (b <? 0) && (s >=? 0) = true <-> a < 0 /\ b < 0 /\ 0 <= s.
Proof. rewrite !andb_true_iff, !Z.ltb_lt, Z.geb_le. tauto. Qed.

(* the sum of two int64 lies within one period of the range, so it wraps by -2^64, 0 or 2^64, and the sign
   tests tell which *)
Lemma sat_add_spec a b : in64 a -> in64 b -> sat_add a b = clamp64 (a + b).
Proof.
  intros Ha Hb. unfold sat_add, clamp64. cbv zeta.
  destruct (Z.gtb_spec (a + b) max64) as [Hov|Hnov]; [|destruct (Z.ltb_spec (a + b) min64) as [Hun|Hnun]].
  - rewrite (wrap64_unique (a + b) (a + b - two64) (-1)) by (unfold_consts; lia).
    rewrite (proj2 (sat_add_test_pos _ _ _)) by (unfold_consts; lia). reflexivity.
  - rewrite (wrap64_unique (a + b) (a + b + two64) 1) by (unfold_consts; lia).
    destruct (_ && _ && (_ <? 0)) eqn:T1; [apply sat_add_test_pos in T1; unfold_consts; lia|].
    rewrite (proj2 (sat_add_test_neg _ _ _)) by (unfold_consts; lia). reflexivity.
  - rewrite (wrap64_small (a + b)) by (unfold_consts; lia).
    destruct (_ && _ && (_ <? 0)) eqn:T1; [apply sat_add_test_pos in T1; lia|].
    destruct (_ && _ && (_ >=? 0)) eqn:T2; [apply sat_add_test_neg in T2; lia|]. reflexivity.
Qed.

(* truncated division does not leave int64, except MinInt64 / -1 *)
Lemma quot_in64 s b : in64 s -> b <> 0 -> s <> min64 \/ b <> -1 -> in64 (Z.quot s b).
Proof.
  intros Hs Hb0 Hex.
  assert (H : Z.abs b * Z.abs (Z.quot s b) <= Z.abs s).
  { rewrite <- Z.quot_abs by exact Hb0. apply Z.mul_quot_le; lia. }
  destruct (Z.eq_dec b 1) as [->|Hb1]; [rewrite Z.quot_1_r; exact Hs|].
  destruct (Z.eq_dec b (-1)) as [->|Hb2].
  - change (-1) with (- (1)). rewrite Z.quot_opp_r, Z.quot_1_r by discriminate. unfold_consts. lia.
  - assert (2 * Z.abs (Z.quot s b) <= Z.abs b * Z.abs (Z.quot s b)) by (apply Z.mul_le_mono_nonneg_r; lia).
    unfold_consts. lia.
Qed.

Lemma sign_mul a b : a <> 0 -> b <> 0 -> Bool.eqb (a >? 0) (b >? 0) = (a * b >? 0).
Proof.
  intros Ha Hb. destruct (Z.gtb_spec a 0), (Z.gtb_spec b 0), (Z.gtb_spec (a * b) 0); cbn; try reflexivity; nia.
Qed.

(* s = a*b - k*2^64 is an int64.  If k = 0 the division test passes and s is the product.  Otherwise the
   product is outside int64 and the test must fail: were s ÷ b = a, the remainder s - a*b = -k*2^64 would be
   smaller in magnitude than b, which is an int64. *)
Lemma sat_mul_spec a b : in64 a -> in64 b -> sat_mul a b = clamp64 (a * b).
Proof.
  intros Ha Hb. unfold sat_mul.
  destruct (Z.eqb_spec a 0) as [->|Ha0]; [reflexivity|].
  destruct (Z.eqb_spec b 0) as [->|Hb0]; [rewrite Z.mul_0_r; reflexivity|]. cbn [orb].
  destruct ((a =? min64) && (b =? -1)) eqn:Esp.
  { apply andb_true_iff in Esp as [->%Z.eqb_eq ->%Z.eqb_eq]. reflexivity. }
  rewrite andb_false_iff, !Z.eqb_neq in Esp. cbv zeta.
  pose proof (wrap64_range (a * b)) as Hs. destruct (wrap64_cong (a * b)) as [k Hk].
  revert Hs Hk. generalize (wrap64 (a * b)). intros s Hs Hk.
  destruct (Z.eq_dec k 0) as [->|Hk0].
  - assert (s = a * b) as -> by lia.
    rewrite Z.quot_mul, wrap64_small, Z.eqb_refl by assumption. cbn [negb].
    rewrite clamp64_max_min. unfold in64 in Hs. lia.
  - replace (wrap64 (Z.quot s b) =? a) with false; cbn [negb].
    + rewrite sign_mul by assumption. unfold clamp64.
      destruct (Z.gtb_spec (a * b) max64) as [Hhi|Hhi].
      * rewrite (proj2 (Z.gtb_lt _ _)) by (unfold_consts; lia). reflexivity.
      * destruct (Z.ltb_spec (a * b) min64) as [Hlo|Hlo]; [|exfalso; unfold_consts; lia].
        destruct (Z.gtb_spec (a * b) 0); [unfold_consts; lia|reflexivity].
    + symmetry. apply Z.eqb_neq. intros Heq.
      pose proof (Z.quot_rem' s b) as Hqr. pose proof (Z.rem_bound_abs s b Hb0) as Hr.
      destruct (Z.eq_dec s min64) as [->|Hsm]; [destruct (Z.eq_dec b (-1)) as [->|Hb1]|].
      1: { change (wrap64 (Z.quot min64 (-1))) with min64 in Heq. destruct Esp; congruence. }
      all: rewrite wrap64_small in Heq by (apply quot_in64; auto); rewrite Heq in Hqr; unfold_consts; lia.
Qed.

Lemma sat_add_range a b : in64 a -> in64 b -> in64 (sat_add a b).
Proof. intros; rewrite sat_add_spec by assumption; apply clamp64_range. Qed.

Lemma sat_mul_range a b : in64 a -> in64 b -> in64 (sat_mul a b).
Proof. intros; rewrite sat_mul_spec by assumption; apply clamp64_range. Qed.

(* on non-negative operands saturation is min(MaxInt64, exact result) *)
Lemma sat_add_min a b : in64 a -> in64 b -> 0 <= a -> 0 <= b -> sat_add a b = Z.min max64 (a + b).
Proof. intros. rewrite sat_add_spec by assumption. apply clamp64_nonneg_min. lia. Qed.

Lemma sat_mul_min a b : in64 a -> in64 b -> 0 <= a -> 0 <= b -> sat_mul a b = Z.min max64 (a * b).
Proof. intros. rewrite sat_mul_spec by assumption. apply clamp64_nonneg_min. nia. Qed.

(* the running total of GetMinDRAResources: fold of acc := acc (+) count (x) times *)
Definition dra_total (l : list (Z * Z)) : Z :=
  fold_left (fun acc ct => dra_accumulate acc (fst ct) (snd ct)) l 0.
