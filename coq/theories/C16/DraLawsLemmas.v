(* Helper lemmas for the accepts-model and soundness theorems of Props/C16.v about the executable laws of
   Laws.v / DraLaws.v: which capacity dimensions an accumulation has, the conversions seen through the
   laws' tests, the key lists the laws range over, and what law 118 (clone independence) means. *)
From stdpp Require Import gmap.
From Coq Require Import ZArith List Lia.
From V Require Import Base.Codec Base.Res C16.SatModel C16.SatLemmas C16.DraModel C16.DraLemmas
  C16.QuantModel C16.QuantLemmas C16.Laws C16.LawsLemmas C16.DraLaws C16.OrderLemmas.
From V Require Import Base.ResLemmas.
Import ListNotations.
Open Scope Z_scope.

Lemma is_some_true {A} (o : option A) : is_some o = true <-> is_Some o.
Proof. rewrite is_Some_alt. destruct o; cbn; intuition discriminate. Qed.

Lemma eqb_iff (a b : bool) : (a = true <-> b = true) -> Bool.eqb a b = true.
Proof. destruct a, b; cbn; intros [H1 H2]; auto; try (symmetry; auto). Qed.

Definition cap_present (o : option dres) (dim : positive) : Prop :=
  match o with Some d => is_Some (d_caps d !! dim) | None => False end.

Lemma is_Some_union_plus (a b : option Z) :
  is_Some (union_with (fun x y => Some (x + y)) a b) <-> is_Some a \/ is_Some b.
Proof.
  destruct a, b; cbn; split; intros H; eauto; destruct H as [H|H]; eauto; destruct H; discriminate.
Qed.

Lemma cap_present_default cur dim :
  is_Some (d_caps (default (mkD 0 ∅) cur) !! dim) <-> cap_present cur dim.
Proof.
  destruct cur as [d|]; cbn [default d_caps cap_present]; [reflexivity|].
  rewrite lookup_empty. split; [intros [? H]; discriminate|contradiction].
Qed.

Lemma cap_present_add_class t cur rq dim :
  cap_present (add_class t cur rq) dim <->
  cap_present cur dim \/ exists q, rq = Some q /\ is_Some (d_caps q !! dim).
Proof.
  destruct rq as [q|]; cbn [add_class].
  - unfold cap_add. cbn [cap_present d_caps].
    rewrite lookup_union_with, is_Some_union_plus, lookup_fmap, fmap_is_Some, cap_present_default.
    split; intros [H|H]; auto.
    + right. exists q. auto.
    + destruct H as (q' & Hq & H). inversion Hq; subst. auto.
  - split; [auto|intros [H|(q & Hq & _)]; [exact H|discriminate]].
Qed.

Lemma cap_present_accumulate cs : forall acc c dim,
  cap_present (accumulate cs acc !! c) dim <-> cap_present (acc !! c) dim \/ cap_terms c dim cs <> [].
Proof.
  induction cs as [|[rq t] cs IH]; intros acc c dim; cbn [accumulate fold_left cap_terms flat_map fst snd].
  - split; [auto|intros [H|H]; [exact H|congruence]].
  - fold (accumulate cs (add_resource acc rq t)). fold (cap_terms c dim cs).
    rewrite IH, lookup_add_resource, cap_present_add_class.
    destruct (rq !! c) as [q|] eqn:Eq.
    + destruct (d_caps q !! dim) as [v|] eqn:Ev.
      * split; [intros _; right; discriminate|intros _; left; right; exists q; rewrite Ev; eauto].
      * cbn [app]. split; [intros [[H|(q' & Hq & [? H])]|H]; auto|intros [H|H]; auto].
        inversion Hq; subst. rewrite Ev in H. discriminate.
    + cbn [app]. split; [intros [[H|(q' & Hq & _)]|H]; auto; discriminate|intros [H|H]; auto].
Qed.

Lemma existsb_Exists {A} (f : A -> bool) (P : A -> Prop) l :
  (forall x, f x = true <-> P x) -> existsb f l = true <-> List.Exists P l.
Proof.
  intros H. rewrite existsb_exists, List.Exists_exists. split; intros (x & Hx & Hf); exists x; split; auto; apply H; auto.
Qed.

Lemma sc_new_resource_z_not_empty rl : sc (fst (new_resource_z rl)) <> Some ∅.
Proof.
  unfold new_resource_z. cbn [fst sc].
  destruct (bool_decide (map_imap scalar_of rl = ∅)) eqn:E; [discriminate|].
  apply bool_decide_eq_false in E. intros H. inversion H. contradiction.
Qed.

Lemma sc_map_res_not_empty F r : sc r <> Some ∅ -> sc (map_res F r) <> Some ∅.
Proof.
  unfold map_res. cbn [sc]. destruct (sc r) as [m|]; [|discriminate].
  intros H H'. apply H. injection H' as H0. apply fmap_empty_inv in H0. rewrite H0. reflexivity.
Qed.

Lemma res_exact_amounts r : res_exact r = true ->
  f64 (cpu r) = cpu r /\ f64 (mem r) = mem r /\ forall k v, scm r !! k = Some v -> f64 v = v.
Proof.
  unfold res_exact. rewrite !andb_true_iff, bool_decide_eq_true. intros [[H1 H2] H3].
  apply amount_ok_spec in H1, H2. repeat split; try tauto. intros k v E. apply amount_ok_spec, (H3 k v E).
Qed.

Lemma whole_up_qvalue m : whole_up m (1000 * qvalue m) = true.
Proof.
  unfold whole_up. apply andb_true_iff. split.
  - apply zeqb_true. rewrite Z.mul_comm. apply Z.mod_mul. lia.
  - destruct (qvalue_bounds m) as [H1 H2].
    destruct (bool_decide (0 <= m)) eqn:E.
    + apply bool_decide_eq_true in E. specialize (H1 E).
      apply andb_true_iff. split; apply bool_decide_eq_true; lia.
    + apply bool_decide_eq_false in E. specialize (H2 ltac:(lia)).
      apply andb_true_iff. split; apply bool_decide_eq_true; lia.
Qed.

Lemma scm_new_resource rl k : scm (fst (new_resource rl)) !! k = f64 <$> (rl !! k ≫= scalar_of k).
Proof.
  unfold new_resource. pose proof (scm_new_resource_z rl k) as H.
  destruct (new_resource_z rl) as [rz mt]. cbn [fst] in *. rewrite scm_map_res, H. reflexivity.
Qed.

Lemma dom_imap_total {A B} (f : positive -> A -> option B) (m : gmap positive A) :
  (forall k v, is_Some (f k v)) -> dom (map_imap f m) = dom m.
Proof.
  intros Hf. apply set_eq. intros k. rewrite !elem_of_dom, map_lookup_imap.
  destruct (m !! k) as [v|]; cbn; [split; intros _; [eauto|apply Hf]|rewrite !is_Some_alt; reflexivity].
Qed.

Lemma In_keys_list {A} (m : gmap positive A) k : In k (keys_list m) -> is_Some (m !! k).
Proof.
  unfold keys_list. intros H. apply in_map_iff in H as ([k' v] & <- & H). cbn.
  apply elem_of_list_In, elem_of_map_to_list in H. eauto.
Qed.

Lemma trunc_of_quot g x : 0 < g -> trunc_of g x (Z.quot x g) = true.
Proof.
  intros Hg. unfold trunc_of.
  pose proof (float_quantity_float_bounds_z g true x Hg) as [H1 H2]. cbn zeta in *.
  rewrite (float_quantity_float_z g true x Hg) in *.
  destruct (bool_decide (0 <= x)) eqn:E.
  - apply bool_decide_eq_true in E. specialize (H1 E). apply andb_true_iff. split; apply bool_decide_eq_true; lia.
  - apply bool_decide_eq_false in E. specialize (H2 ltac:(lia)). apply andb_true_iff. split; apply bool_decide_eq_true; lia.
Qed.

(* law 118 means: the source is unchanged by mutating its clones; a value-semantics model meets it trivially
   (that is why the clause is a law on the real objects and not a theorem about the model) *)
Lemma dres_eqb_spec a b : dres_eqb a b = true <-> d_count a = d_count b /\ d_caps a = d_caps b.
Proof. unfold dres_eqb. rewrite andb_true_iff, zeqb_true, bool_decide_eq_true. reflexivity. Qed.

Theorem law_clone_independent_spec d before a1 a2 a3 :
  law_clone_independent d before a1 a2 a3 = true <->
  (d_count before = d_count d /\ d_caps before = d_caps d) /\
  (d_count a1 = d_count before /\ d_caps a1 = d_caps before) /\
  (d_count a2 = d_count before /\ d_caps a2 = d_caps before) /\
  (d_count a3 = d_count before /\ d_caps a3 = d_caps before).
Proof. unfold law_clone_independent. rewrite !andb_true_iff, !dres_eqb_spec. tauto. Qed.

Theorem law_clone_independent_model d : law_clone_independent d d d d d = true.
Proof. apply law_clone_independent_spec. tauto. Qed.

(* a law checked on the keys of the operands leaves out only keys that none of them has *)
Lemma forallb_keys_of (P : positive -> bool) l k :
  forallb P (keys_of l) = true -> P k = true \/ forall r, In r l -> scm r !! k = None.
Proof.
  intros H. rewrite forallb_forall in H.
  destruct (foldr (fun r acc => scm r ∪ acc) (∅ : smap) l !! k) as [w|] eqn:E.
  - left. apply H, in_map_iff. exists (k, w). split; [reflexivity|]. apply elem_of_list_In, elem_of_map_to_list, E.
  - right. clear H. induction l as [|y l IH]; intros r Hin; [contradiction|].
    cbn [foldr] in E. apply lookup_union_None in E as [E1 E2]. destruct Hin as [->|Hin]; auto.
Qed.

(* law 118: a true answer means the later observations ARE the first one, as records *)
Lemma dres_eqb_eq a b : dres_eqb a b = true <-> a = b.
Proof.
  rewrite dres_eqb_spec. split.
  - destruct a, b; cbn. intros [-> ->]. reflexivity.
  - intros ->. split; reflexivity.
Qed.

