(* The asserting form of Resource.Sub and the guard under which adding then subtracting passes the assertion;
   the theorems about them are in Props/C16.v. *)
From stdpp Require Import gmap.
From Coq Require Import ZArith.
From V Require Import Base.Res.
Open Scope Z_scope.

Section WithEps.
Variable eps : Z.

(* Resource.Sub with its assertion (resource_info.go 301-306):
   assert.Assertf(rr.LessEqual(r, Zero), ...) panics (panicOnError) when violated *)
Inductive sub_result := SubPanic | SubOk (r : res).

Definition sub_assert (r rr : res) : sub_result :=
  if less_equal eps rr r DZero then SubOk (sub r rr) else SubPanic.

(* a vector without negative amounts *)
Definition nonneg_res (r : res) : Prop :=
  0 <= cpu r /\ 0 <= mem r /\ forall k v, scm r !! k = Some v -> 0 <= v.

End WithEps.
