(* Proofs about the DRA accounting model (DraModel.v): the per-device-class count returned by
   GetMinDRAResources is min(MaxInt64, exact sum of exact products) — the saturation specification over
   unbounded integers — for every job, every number of contributions; hence never negative and
   monotone; capacities are the exact sums. *)
From stdpp Require Import gmap.
From Coq Require Import ZArith List Lia.
From V Require Import C16.SatModel C16.SatLemmas C16.DraModel.
Import ListNotations.
Open Scope Z_scope.

(* SatLemmas.dra_total from a given starting total (fold_terms_dra_total) *)
Definition fold_terms (l : list (Z * Z)) (acc : Z) : Z :=
  fold_left (fun a ct => dra_accumulate a (fst ct) (snd ct)) l acc.

Lemma fold_terms_dra_total l : fold_terms l 0 = dra_total l.
Proof. reflexivity. Qed.

Lemma exact_sum_cons c t l : exact_sum ((c, t) :: l) = c * t + exact_sum l.
Proof. reflexivity. Qed.
Lemma exact_sum_nil : exact_sum [] = 0.
Proof. reflexivity. Qed.

Lemma exact_sum_nonneg l : terms_ok l -> 0 <= exact_sum l.
Proof.
  induction 1 as [|[c t] l (_ & _ & Hc & Ht) _ IH]; [reflexivity|]. rewrite exact_sum_cons. cbn [fst snd] in *. nia.
Qed.

(* the running total is carried as min(MaxInt64, S) for the exact total S so far *)
Lemma sat_add_min_l S c : 0 <= S -> in64 c -> 0 <= c -> sat_add (Z.min max64 S) c = Z.min max64 (S + c).
Proof.
  intros HS Hc Hc0. rewrite sat_add_min; [unfold max64; lia|apply in64_min_max64; exact HS|exact Hc|unfold max64; lia|exact Hc0].
Qed.

Lemma accumulate_step S c t :
  0 <= S -> in64 c -> in64 t -> 0 <= c -> 0 <= t ->
  dra_accumulate (Z.min max64 S) c t = Z.min max64 (S + c * t).
Proof.
  intros HS Hc Ht Hc0 Ht0. unfold dra_accumulate.
  assert (Hp : 0 <= c * t) by nia.
  rewrite sat_mul_min by assumption.
  rewrite sat_add_min_l; [unfold max64; lia|exact HS|apply in64_min_max64; exact Hp|unfold max64; lia].
Qed.

Lemma fold_terms_spec_gen l : forall S, terms_ok l -> 0 <= S ->
  fold_terms l (Z.min max64 S) = Z.min max64 (S + exact_sum l).
Proof.
  induction l as [|[c t] l IH]; intros S Hok HS; cbn [fold_terms fold_left fst snd].
  - rewrite exact_sum_nil, Z.add_0_r. reflexivity.
  - inversion Hok as [|x xs (Hc & Ht & Hc0 & Ht0) Hxs]; subst. cbn [fst snd] in *.
    rewrite accumulate_step by assumption. fold (fold_terms l (Z.min max64 (S + c * t))).
    rewrite IH by (assumption || nia). rewrite exact_sum_cons, Z.add_assoc. reflexivity.
Qed.

(* the saturation specification: for every list of non-negative int64 (count, times) pairs *)
Lemma fold_terms_spec l : terms_ok l -> fold_terms l 0 = Z.min max64 (exact_sum l).
Proof.
  intros H. exact (fold_terms_spec_gen l 0 H (Z.le_refl 0)).
Qed.

Lemma fold_terms_nonneg l : terms_ok l -> 0 <= fold_terms l 0.
Proof.
  intros H. rewrite fold_terms_spec by exact H. pose proof (exact_sum_nonneg l H). unfold max64. lia.
Qed.

Definition terms_le (l l' : list (Z * Z)) : Prop :=
  Forall2 (fun a b => fst a <= fst b /\ snd a <= snd b) l l'.

Lemma exact_sum_mono l l' : terms_ok l -> terms_le l l' -> exact_sum l <= exact_sum l'.
Proof.
  intros Hok Hle. induction Hle as [|[c t] [c' t'] l l' [H1 H2] Hle IH]; cbn [fst snd] in *.
  - lia.
  - inversion Hok as [|x xs Hx Hxs]; subst. cbn [fst snd] in Hx. destruct Hx as (_ & _ & Hc0 & Ht0).
    specialize (IH Hxs). rewrite !exact_sum_cons. nia.
Qed.

Lemma exact_sum_app l1 l2 : exact_sum (l1 ++ l2) = exact_sum l1 + exact_sum l2.
Proof. induction l1 as [|[c t] l1 IH]; cbn [app]; [rewrite exact_sum_nil; lia|]. rewrite !exact_sum_cons. lia. Qed.

(* the totals depend on the calls only through the exact sum, hence not on their order (Go ranges over maps
   in unspecified order) *)
Lemma exact_sum_perm l1 l2 : Permutation l1 l2 -> exact_sum l1 = exact_sum l2.
Proof.
  induction 1 as [|[c t] l l' _ IH|[c t] [c' t'] l|l l' l'' _ IH1 _ IH2]; rewrite ?exact_sum_cons; lia.
Qed.

Lemma lookup_add_resource result rq t c :
  add_resource result rq t !! c = add_class t (result !! c) (rq !! c).
Proof. unfold add_resource. rewrite lookup_merge. destruct (result !! c), (rq !! c); reflexivity. Qed.

Lemma count_add_class t cur rq :
  count_of (add_class t cur rq) =
  match rq with Some q => dra_accumulate (count_of cur) (d_count q) t | None => count_of cur end.
Proof. destruct rq as [q|]; [|reflexivity]. destruct cur; reflexivity. Qed.

Lemma count_accumulate cs : forall acc c,
  count_of (accumulate cs acc !! c) = fold_terms (class_terms c cs) (count_of (acc !! c)).
Proof.
  induction cs as [|[rq t] cs IH]; intros acc c; cbn [accumulate fold_left class_terms flat_map fst snd].
  - reflexivity.
  - fold (accumulate cs (add_resource acc rq t)). rewrite IH.
    rewrite lookup_add_resource, count_add_class.
    fold (class_terms c cs). unfold fold_terms. rewrite fold_left_app.
    destruct (rq !! c); reflexivity.
Qed.

Lemma default_union_plus (a b : option Z) :
  default 0 (union_with (fun x y => Some (x + y)) a b) = default 0 a + default 0 b.
Proof. destruct a, b; cbn; lia. Qed.

Lemma cap_add_class t cur rq dim :
  cap_of (add_class t cur rq) dim =
  cap_of cur dim + match rq with
                   | Some q => match d_caps q !! dim with Some v => v * t | None => 0 end
                   | None => 0
                   end.
Proof.
  destruct rq as [q|]; [|cbn; lia].
  unfold add_class, cap_of, cap_add. cbn [d_caps].
  rewrite lookup_union_with, default_union_plus, lookup_fmap.
  f_equal.
  - destruct cur as [d|]; cbn [default d_caps]; [reflexivity|]. rewrite lookup_empty. reflexivity.
  - destruct (d_caps q !! dim); reflexivity.
Qed.

Lemma cap_accumulate cs : forall acc c dim,
  cap_of (accumulate cs acc !! c) dim = cap_of (acc !! c) dim + exact_sum (cap_terms c dim cs).
Proof.
  induction cs as [|[rq t] cs IH]; intros acc c dim; cbn [accumulate fold_left cap_terms flat_map fst snd].
  - cbn. lia.
  - fold (accumulate cs (add_resource acc rq t)). rewrite IH.
    rewrite lookup_add_resource, cap_add_class.
    fold (cap_terms c dim cs). rewrite exact_sum_app.
    destruct (rq !! c) as [q|]; [destruct (d_caps q !! dim)|]; rewrite ?exact_sum_cons, ?exact_sum_nil; lia.
Qed.

Lemma In_ins_task t x l : In x (ins_task t l) -> x = t \/ In x l.
Proof.
  induction l as [|y l IH]; cbn [ins_task]; intros H.
  - destruct H as [H|[]]; auto.
  - destruct (task_lt y t).
    + destruct H as [H|H]; [right; left; exact H|]. destruct (IH H); [auto|right; right; assumption].
    + destruct H as [H|H]; [left; auto|right; exact H].
Qed.

Lemma In_sort_tasks x l : In x (sort_tasks l) -> In x l.
Proof.
  induction l as [|y l IH]; cbn [sort_tasks fold_right]; intros H; [exact H|].
  apply In_ins_task in H as [H|H]; [left; auto|right; apply IH; exact H].
Qed.

Lemma In_take_z {A} (x : A) l : forall n, In x (take_z n l) -> In x l.
Proof.
  induction l as [|y l IH]; intros n; cbn [take_z]; intros H; [contradiction|].
  destruct (n <=? 0); [contradiction|].
  destruct H as [H|H]; [left; exact H|right; eapply IH; exact H].
Qed.

(* a call (request, times) stems from a task of the job that carries this request, and times is 1
   (fallback path) or a positive TaskMinAvailable entry *)
Definition call_from (j : djob) (ct : dmap * Z) : Prop :=
  (exists t, In t (j_tasks j) /\ t_req t = Some (fst ct)) /\
  (snd ct = 1 \/ (0 < snd ct /\ exists r, j_tma j !! r = Some (snd ct))).

Lemma role_contribs_from j ts : forall seen,
  (forall t, In t ts -> In t (j_tasks j)) ->
  Forall (call_from j) (role_contribs (j_tma j) seen ts).
Proof.
  induction ts as [|t ts IH]; intros seen Hsub; cbn [role_contribs]; [constructor|].
  assert (Hsub' : forall t0, In t0 ts -> In t0 (j_tasks j)) by (intros; apply Hsub; right; assumption).
  destruct (t_req t) as [rq|] eqn:Erq; [|apply IH; exact Hsub'].
  destruct (j_tma j !! t_role t) as [n|] eqn:En; [|apply IH; exact Hsub'].
  destruct ((0 <? n) && negb (bool_decide (t_role t ∈ seen))) eqn:Ec; [|apply IH; exact Hsub'].
  constructor; [|apply IH; exact Hsub'].
  apply andb_true_iff in Ec as [Ec _]. apply Z.ltb_lt in Ec.
  split; cbn [fst snd].
  - exists t. split; [apply Hsub; left; reflexivity|exact Erq].
  - right. split; [exact Ec|exists (t_role t); exact En].
Qed.

Lemma fallback_contribs_from j : Forall (call_from j) (fallback_contribs j).
Proof.
  unfold fallback_contribs. destruct (j_min j <=? 0); [constructor|].
  apply List.Forall_forall. intros ct Hin.
  apply in_map_iff in Hin as (t & <- & Hin).
  assert (Ht : In t (with_req (j_tasks j))).
  { apply In_sort_tasks. eapply In_take_z. exact Hin. }
  unfold with_req in Ht. apply filter_In in Ht as [Ht1 Ht2].
  destruct (t_req t) as [rq|] eqn:E; [|discriminate].
  split; cbn [fst snd default]; [exists t; split; [exact Ht1|exact E]|left; reflexivity].
Qed.

Lemma contribs_from j : Forall (call_from j) (contribs j).
Proof.
  unfold contribs. destruct (bool_decide (j_tma j = ∅)).
  - apply fallback_contribs_from.
  - apply role_contribs_from. auto.
Qed.

Lemma contribs_no_tasks j : j_tasks j = [] -> contribs j = [].
Proof.
  intros H. unfold contribs, fallback_contribs, with_req. rewrite H. cbn.
  destruct (bool_decide (j_tma j = ∅)); [|reflexivity].
  destruct (j_min j <=? 0); reflexivity.
Qed.

(* the counts of every request and the TaskMinAvailable entries are int64, the counts not negative *)
Definition job_ok (j : djob) : Prop :=
  (forall t rq c q, In t (j_tasks j) -> t_req t = Some rq -> rq !! c = Some q ->
                    in64 (d_count q) /\ 0 <= d_count q) /\
  (forall r n, j_tma j !! r = Some n -> in64 n).

Lemma contribs_terms_ok j c : job_ok j -> terms_ok (class_terms c (contribs j)).
Proof.
  intros [Hc Hn]. pose proof (contribs_from j) as Hfrom.
  unfold terms_ok, class_terms. induction Hfrom as [|[rq n] cs Hx _ IH]; cbn [flat_map]; [constructor|].
  apply Forall_app. split; [|exact IH]. cbn [fst snd].
  destruct (rq !! c) as [q|] eqn:Eq; [|constructor].
  constructor; [|constructor]. cbn [fst snd].
  destruct Hx as [(t & Hin & Hrq) Htimes]. cbn [fst snd] in *.
  destruct (Hc t rq c q Hin Hrq Eq) as [H1 H2].
  split; [exact H1|]. split; [|split; [exact H2|]].
  - destruct Htimes as [->|[_ [r Hr]]]; [unfold in64, min64, max64; lia|eapply Hn; exact Hr].
  - destruct Htimes as [->|[H _]]; lia.
Qed.

Lemma result_at_get_min_dra j c :
  result_at (get_min_dra j) c = accumulate (contribs j) ∅ !! c.
Proof.
  unfold get_min_dra. destruct (j_tasks j) as [|t ts] eqn:Et.
  - rewrite (contribs_no_tasks j Et). cbn. rewrite lookup_empty. reflexivity.
  - destruct (bool_decide (accumulate (contribs j) ∅ = ∅)) eqn:E; cbn [result_at]; [|reflexivity].
    apply bool_decide_eq_true in E. rewrite E, lookup_empty. reflexivity.
Qed.

(* a device class is in the result exactly when some call mentions it *)
Lemma accumulate_dom cs : forall acc c,
  is_Some (accumulate cs acc !! c) <-> is_Some (acc !! c) \/ Exists (fun ct => is_Some (fst ct !! c)) cs.
Proof.
  induction cs as [|[rq t] cs IH]; intros acc c; cbn [accumulate fold_left fst snd].
  - split; [auto|intros [H|H]; [exact H|inversion H]].
  - fold (accumulate cs (add_resource acc rq t)). rewrite IH, lookup_add_resource.
    rewrite Exists_cons. cbn [fst].
    destruct (rq !! c) as [q|] eqn:Eq; cbn [add_class].
    + split; [intros _; right; left; eauto|intros _; left; eauto].
    + split; [intros [H|H]; auto|intros [H|[H|H]]; auto]. destruct H; discriminate.
Qed.

(* monotone: calls with pointwise larger counts and multiplicities give larger totals *)
Definition call_le (a b : dmap * Z) : Prop :=
  snd a <= snd b /\
  forall c, match fst a !! c, fst b !! c with
            | Some q, Some q' => d_count q <= d_count q'
            | None, None => True
            | _, _ => False
            end.

Lemma class_terms_le cs cs' c : Forall2 call_le cs cs' -> terms_le (class_terms c cs) (class_terms c cs').
Proof.
  induction 1 as [|[rq t] [rq' t'] cs cs' [H1 H2] _ IH]; cbn [class_terms flat_map fst snd]; [constructor|].
  cbn [fst snd] in *. specialize (H2 c).
  destruct (rq !! c), (rq' !! c); try contradiction; cbn [app]; [|exact IH].
  constructor; [cbn; lia|exact IH].
Qed.

Lemma dra_add_count d o :
  in64 (d_count d) -> in64 (d_count o) ->
  d_count (dra_add d (Some o)) = clamp64 (d_count d + d_count o).
Proof. intros H1 H2. cbn. apply sat_add_spec; assumption. Qed.

Lemma dra_add_cap d o dim :
  default 0 (d_caps (dra_add d (Some o)) !! dim) = default 0 (d_caps d !! dim) + default 0 (d_caps o !! dim).
Proof.
  cbn. unfold cap_add. rewrite lookup_union_with.
  destruct (d_caps d !! dim), (d_caps o !! dim); cbn; lia.
Qed.

(* a fallback-path job of two tasks requesting MaxInt64-7 devices each; job_ok holds of it
   (C16_dra_nonvacuous_job_ok) *)
Definition example_job : djob :=
  let rq := ({[1%positive := mkD 9223372036854775800 ∅]} : dmap) in
  mkJ 2 ∅ [mkT 0 1 1 1%positive (Some rq); mkT 0 2 2 1%positive (Some rq)].

(* ---- addDRAResource / buildTaskDRAInfo: the constructor of TaskInfo.DRAResreq ---- *)

Definition dmap_ok (m : dmap) : Prop :=
  forall c d, m !! c = Some d -> in64 (d_count d) /\ 0 <= d_count d.
Definition ereq_ok (rq : ereq) : Prop := in64 (e_count rq) /\ 0 <= e_count rq.
(* what the apiserver guarantees for one DeviceRequest: an int64 count that is not negative *)
Definition raw_ok (w : rawreq) : Prop := in64 (w_count w) /\ 0 <= w_count w.

Lemma count_add_dra_map dst rq c :
  count_of (add_dra_map dst rq !! c) =
  if bool_decide (e_class rq = c) then sat_add (count_of (dst !! c)) (e_count rq) else count_of (dst !! c).
Proof.
  unfold add_dra_map. destruct (bool_decide (e_class rq = c)) eqn:E.
  - apply bool_decide_eq_true in E. subst c. rewrite lookup_insert. cbn [count_of d_count].
    destruct (dst !! e_class rq); reflexivity.
  - apply bool_decide_eq_false in E. rewrite lookup_insert_ne by exact E. reflexivity.
Qed.

Lemma sum_list_app l1 l2 : sum_list (l1 ++ l2) = sum_list l1 + sum_list l2.
Proof. unfold sum_list. induction l1 as [|x l1 IH]; cbn [app fold_right]; lia. Qed.

Lemma class_counts_nonneg c rqs : Forall ereq_ok rqs -> 0 <= sum_list (class_counts c rqs).
Proof.
  induction 1 as [|rq rqs [_ H0] _ IH]; [reflexivity|]. cbn [class_counts flat_map]. fold (class_counts c rqs).
  rewrite sum_list_app. destruct (bool_decide (e_class rq = c)); cbn; lia.
Qed.

(* the saturation specification for the accumulation that builds a task's request *)
Theorem add_map_all_count_spec rqs : forall dst c S,
  Forall ereq_ok rqs -> 0 <= S -> count_of (dst !! c) = Z.min max64 S ->
  count_of (add_map_all dst rqs !! c) = Z.min max64 (S + sum_list (class_counts c rqs)).
Proof.
  induction rqs as [|rq rqs IH]; intros dst c S Hok HS Hdst; cbn [add_map_all fold_left class_counts flat_map].
  - cbn. rewrite Z.add_0_r. exact Hdst.
  - fold (add_map_all (add_dra_map dst rq) rqs). fold (class_counts c rqs).
    inversion Hok as [|x xs [Hx1 Hx2] Hxs]; subst.
    rewrite sum_list_app, Z.add_assoc. apply (IH _ _ _ Hxs).
    + destruct (bool_decide (e_class rq = c)); cbn; lia.
    + rewrite count_add_dra_map, Hdst. destruct (bool_decide (e_class rq = c)); cbn; rewrite Z.add_0_r; [|reflexivity].
      apply sat_add_min_l; assumption.
Qed.

Lemma add_dra_map_ok dst rq : dmap_ok dst -> ereq_ok rq -> dmap_ok (add_dra_map dst rq).
Proof.
  intros Hd [H1 H2] c d Hc. unfold add_dra_map in Hc.
  destruct (decide (e_class rq = c)) as [<-|Hne].
  - rewrite lookup_insert in Hc. inversion Hc; subst; clear Hc. cbn [d_count].
    assert (Hcur : in64 (d_count (default (mkD 0 ∅) (dst !! e_class rq))) /\ 0 <= d_count (default (mkD 0 ∅) (dst !! e_class rq))).
    { destruct (dst !! e_class rq) as [d0|] eqn:E; cbn [default]; [eapply Hd; exact E|].
      cbn. unfold in64, min64, max64. lia. }
    destruct Hcur as [Hc1 Hc2]. rewrite sat_add_min by assumption.
    split; [apply in64_min_max64|unfold max64]; lia.
  - rewrite lookup_insert_ne in Hc by exact Hne. eapply Hd. exact Hc.
Qed.

Lemma add_all_None rqs : add_all None rqs = None.
Proof. induction rqs as [|rq rqs IH]; [reflexivity|exact IH]. Qed.

(* as long as it does not panic, addDRAResource is its map part *)
Lemma add_all_map rqs : forall st st',
  add_all (Some st) rqs = Some st' -> s_map st' = add_map_all (s_map st) rqs.
Proof.
  induction rqs as [|rq rqs IH]; intros st st' H; cbn [add_all fold_left] in H.
  - inversion H; subst. reflexivity.
  - fold (add_all (add_dra_resource st rq) rqs) in H. unfold add_dra_resource in H.
    destruct (negb _ && _); [rewrite add_all_None in H; discriminate|].
    rewrite (IH _ _ H). reflexivity.
Qed.

Lemma add_map_all_ok rqs : forall dst, Forall ereq_ok rqs -> dmap_ok dst -> dmap_ok (add_map_all dst rqs).
Proof.
  induction rqs as [|rq rqs IH]; intros dst Hok Hdst; [exact Hdst|].
  inversion Hok; subst. apply IH; [|apply add_dra_map_ok]; assumption.
Qed.

Lemma add_all_ok rqs st st' :
  Forall ereq_ok rqs -> dmap_ok (s_map st) -> add_all (Some st) rqs = Some st' -> dmap_ok (s_map st').
Proof. intros Hok Hst H. rewrite (add_all_map rqs st st' H). apply add_map_all_ok; assumption. Qed.

Lemma effective_ok ws : Forall raw_ok ws -> Forall ereq_ok (effective_all ws).
Proof.
  intros H. unfold effective_all. induction H as [|w ws [H1 H2] _ IH]; cbn [flat_map]; [constructor|].
  apply Forall_app. split; [|exact IH]. unfold effective.
  destruct (w_kind w =? 0); [|constructor]. constructor; [|constructor].
  unfold ereq_ok. cbn [e_count]. destruct (w_count w =? 0); [unfold in64, min64, max64; lia|split; assumption].
Qed.

Definition claims_ok (claims : gmap positive (list rawreq)) : Prop :=
  forall c ws, claims !! c = Some ws -> Forall raw_ok ws.

(* reachable-state invariant: whatever buildTaskDRAInfo returns for a pod whose DeviceRequests each
   carry a non-negative int64 count has non-negative int64 counts per device class — in the aggregated
   request (TaskInfo.DRAResreq) and in every per-claim request *)
Lemma build_loop_ok claims refs : forall result per r per',
  claims_ok claims -> dmap_ok (s_map result) -> (forall c m, per !! c = Some m -> dmap_ok m) ->
  build_loop claims refs result per = BuildOk (Some (r, per')) ->
  dmap_ok r /\ forall c m, per' !! c = Some m -> dmap_ok m.
Proof.
  induction refs as [|c refs IH]; intros result per r per' Hcl Hres Hper H; cbn [build_loop] in H.
  - destruct (bool_decide (per = ∅)); [discriminate|]. inversion H; subst. split; assumption.
  - destruct (bool_decide (is_Some (per !! c))); [eapply IH; eassumption|].
    destruct (claims !! c) as [ws|] eqn:Ec; [|discriminate].
    pose proof (effective_ok ws (Hcl c ws Ec)) as Heff.
    destruct (add_all (Some (mkS ∅ ∅)) (effective_all ws)) as [pc|] eqn:E1; [|discriminate].
    destruct (add_all (Some result) (effective_all ws)) as [result'|] eqn:E2; [|discriminate].
    eapply IH; [exact Hcl| | |exact H].
    + eapply add_all_ok; [exact Heff|exact Hres|exact E2].
    + intros c0 m Hm. destruct (bool_decide (s_map pc = ∅)); [eapply Hper; exact Hm|].
      destruct (decide (c = c0)) as [<-|Hne].
      * rewrite lookup_insert in Hm. inversion Hm; subst.
        eapply add_all_ok; [exact Heff| |exact E1]. intros ? ? Hx. cbn in Hx. rewrite lookup_empty in Hx. discriminate.
      * rewrite lookup_insert_ne in Hm by exact Hne. eapply Hper. exact Hm.
Qed.

(* ... which is what job_ok asks of the tasks *)
Theorem job_ok_of_dmap_ok j :
  (forall t rq, In t (j_tasks j) -> t_req t = Some rq -> dmap_ok rq) ->
  (forall r n, j_tma j !! r = Some n -> in64 n) -> job_ok j.
Proof. intros H1 H2. split; [|exact H2]. intros t rq c q Hin Hrq Hq. exact (H1 t rq Hin Hrq c q Hq). Qed.

(* the task's request is what buildTaskDRAInfo returned for a pod whose DeviceRequests each have a
   non-negative int64 count; C16_min_dra_from_cache composes the two results for jobs of such tasks *)
Definition task_from_cache (t : dtask) : Prop :=
  forall rq, t_req t = Some rq ->
  exists claims refs per, claims_ok claims /\ build_task_dra claims refs = BuildOk (Some (rq, per)).

(* non-vacuity: one claim with two requests of 2^62 devices of one class is claims_ok, builds, and the
   count saturates at MaxInt64 *)
Example build_task_dra_nonvacuous :
  let claims := ({[1%positive := [mkRaw 0 1%positive (2 ^ 62) ∅; mkRaw 0 1%positive (2 ^ 62) ∅]]}
                 : gmap positive (list rawreq)) in
  claims_ok claims /\
  exists r per, build_task_dra claims [1%positive] = BuildOk (Some (r, per)) /\
                count_of (r !! 1%positive) = max64.
Proof.
  cbn zeta. split.
  - intros c ws H. destruct (decide (c = 1%positive)) as [->|Hne].
    + rewrite lookup_singleton in H. inversion H; subst.
      repeat constructor; unfold in64, min64, max64; cbn; lia.
    + rewrite lookup_singleton_ne in H by congruence. discriminate.
  - (* r and per are left to unification: a map written out by hand differs from the computed one in
       its well-formedness proofs *)
    eexists _, _. split; [reflexivity|vm_compute; reflexivity].
Qed.
