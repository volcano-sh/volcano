(* A float64-faithful mini-model for INTEGER-valued amounts, without primitive floats (so that the
   theorems stay closed under the global context): binary64 values that are integers, +-Inf and NaN;
   addition and subtraction are the exact integer operation followed by round-to-nearest-even to 53
   significant bits, overflow to infinity at 2^1024.  (Amounts on a 1/2^k grid reduce to this by scaling:
   multiplying by a power of two commutes with binary rounding.)
   Purpose: the guard under which the exact-arithmetic laws of Base/ResLemmas.v carry over to float64,
   and the refutation of those laws outside the guard (2^53 scale, the MaxFloat64 sentinel). *)
From Coq Require Import ZArith Bool Lia.
Open Scope Z_scope.

Inductive fl := Fin (z : Z) | PInf | NInf | FNaN.

Definition two53 : Z := 2 ^ 53.
Definition max_float64 : Z := (2 ^ 53 - 1) * 2 ^ 971.      (* math.MaxFloat64 *)

(* round-to-nearest-even of a non-negative integer to 53 significant bits *)
Definition round_pos (a : Z) : Z :=
  if a <? two53 then a
  else let e := Z.log2 a - 52 in
       let q := a / 2 ^ e in let r := a mod 2 ^ e in let half := 2 ^ (e - 1) in
       let q' := if r <? half then q else if half <? r then q + 1 else if Z.even q then q else q + 1 in
       q' * 2 ^ e.

Definition round (x : Z) : fl :=
  let y := if 0 <=? x then round_pos x else - round_pos (- x) in
  if 2 ^ 1024 <=? y then PInf else if y <=? - 2 ^ 1024 then NInf else Fin y.

Definition fadd (a b : fl) : fl :=
  match a, b with
  | Fin x, Fin y => round (x + y)
  | FNaN, _ | _, FNaN => FNaN
  | PInf, NInf | NInf, PInf => FNaN
  | PInf, _ | _, PInf => PInf
  | NInf, _ | _, NInf => NInf
  end.
Definition fneg (a : fl) : fl :=
  match a with Fin x => Fin (- x) | PInf => NInf | NInf => PInf | FNaN => FNaN end.
Definition fsub (a b : fl) : fl := fadd a (fneg b).

Definition flt (a b : fl) : bool :=
  match a, b with
  | Fin x, Fin y => x <? y
  | FNaN, _ | _, FNaN => false
  | NInf, NInf | PInf, PInf => false
  | NInf, _ | _, PInf => true
  | _, _ => false
  end.
Definition fabs (a : fl) : fl := match a with Fin x => Fin (Z.abs x) | NInf => PInf | x => x end.

(* lessEqualFunc of LessEqual with tolerance eps (an integer >= 1 on the scaled grid) *)
Definition fle (eps : Z) (l r : fl) : bool := flt l r || flt (fabs (fsub l r)) (Fin eps).

(* ---- the guard: below 2^53 nothing rounds ---- *)
Definition exact (x : Z) : Prop := Z.abs x <= two53.

Lemma round_pos_exact a : a <= two53 -> round_pos a = a.
Proof.
  intros H. unfold round_pos. destruct (Z.ltb_spec a two53); [reflexivity|].
  replace a with two53 by lia. vm_compute. reflexivity.
Qed.

(* a rounded magnitude below 2^1024 is finite *)
(* [B] stays a variable so that [lia] never sees the numeral 2^1024 *)
Lemma within_bound B y : Z.abs y < B -> (B <=? y) = false /\ (y <=? - B) = false.
Proof. intros H. split; apply Z.leb_gt; lia. Qed.

Lemma round_finite x y :
  (if 0 <=? x then round_pos x else - round_pos (- x)) = y -> Z.abs y < 2 ^ 1024 -> round x = Fin y.
Proof. intros <- H. unfold round. cbv zeta. destruct (within_bound _ _ H) as [-> ->]. reflexivity. Qed.

Lemma round_exact x : exact x -> round x = Fin x.
Proof.
  unfold exact. intros H. assert (H1024 : two53 < 2 ^ 1024) by reflexivity.
  apply round_finite.
  - destruct (Z.leb_spec 0 x); rewrite round_pos_exact by lia; lia.
  - generalize dependent (2 ^ 1024). intros B HB. lia.
Qed.

(* inside the guard float addition / subtraction ARE the exact operations, so add-then-sub returns the
   original and reflexivity holds: the Z theorems transfer *)
Theorem fadd_exact x y : exact (x + y) -> fadd (Fin x) (Fin y) = Fin (x + y).
Proof. intros H. cbn. apply round_exact. exact H. Qed.

Theorem add_sub_float_guarded x y : exact (x + y) -> exact x ->
  fsub (fadd (Fin x) (Fin y)) (Fin y) = Fin x.
Proof.
  intros H1 H2. rewrite fadd_exact by exact H1. cbn. replace (x + y + - y) with x by lia.
  apply round_exact. exact H2.
Qed.

Theorem fle_refl_finite eps x : 0 < eps -> fle eps (Fin x) (Fin x) = true.
Proof.
  intros He. unfold fle, fsub. cbn [fneg fadd]. replace (x + - x) with 0 by lia.
  rewrite round_exact by (unfold exact, two53; cbn; lia). cbn. rewrite Z.ltb_irrefl. cbn.
  apply Z.ltb_lt. exact He.
Qed.

(* ---- outside the guard the laws are FALSE on float64 ---- *)
(* (1 + 2^53) - 2^53 = 0, not 1 *)
Theorem add_sub_refuted_two53 :
  exists x y, fsub (fadd (Fin x) (Fin y)) (Fin y) <> Fin x /\ exact x /\ exact y.
Proof. exists 1, two53. split; [vm_compute; discriminate|]. unfold exact, two53. cbn. lia. Qed.

(* (5 + MaxFloat64) - MaxFloat64 = 0, not 5: InfiniteResource-scale operands *)
Theorem add_sub_refuted_sentinel :
  fsub (fadd (Fin 5) (Fin max_float64)) (Fin max_float64) = Fin 0.
Proof. vm_compute. reflexivity. Qed.

(* MaxFloat64 + MaxFloat64 = +Inf, and LessEqual(r, r) is false there *)
Theorem refl_refuted_two_sentinels :
  let s := fadd (Fin max_float64) (Fin max_float64) in s = PInf /\ fle 1 s s = false.
Proof. vm_compute. split; reflexivity. Qed.
