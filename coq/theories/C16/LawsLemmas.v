(* zeqb, the integer test of the executable laws, read as equality *)
From stdpp Require Import gmap.
From Coq Require Import ZArith List Lia.
From V Require Import Base.Codec Base.Res Base.ResLemmas C16.SatModel C16.SatLemmas C16.Laws.
Import ListNotations.
Open Scope Z_scope.

Lemma zeqb_true a b : zeqb a b = true <-> a = b.
Proof. unfold zeqb. apply bool_decide_eq_true. Qed.

