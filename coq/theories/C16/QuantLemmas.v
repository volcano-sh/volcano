(* Lemmas about QuantModel.v.  On the idealised conversions (_z): the lookup of ConvertRes2ResList by name
   class, Resource -> ResourceList -> Resource pointwise and as identity, ResourceList -> Resource ->
   ResourceList per name class for any map applied to the amounts on the way.  Then the float64 / int64
   effects (amount_ok, res_exact) that tie convert / new_resource to the _z forms, and the two converters
   ResFloat642Quantity / ResQuantity2Float64.  The property theorems over them are in Props/C16.v. *)
From stdpp Require Import gmap.
From Coq Require Import ZArith Lia.
From V Require Import Base.Res C16.SatModel C16.FloatMini C16.QuantModel.
Open Scope Z_scope.

Lemma qvalue_units v : qvalue (1000 * v) = v.
Proof.
  unfold qvalue. destruct (0 <=? 1000 * v) eqn:E.
  - apply Z.leb_le in E. symmetry. apply Z.div_unique with (r := 999); lia.
  - apply Z.leb_gt in E.
    assert (H : (- (1000 * v) + 999) / 1000 = - v) by (symmetry; apply Z.div_unique with (r := 999); lia).
    rewrite H. lia.
Qed.

Lemma qvalue_whole m : (1000 | m) -> 1000 * qvalue m = m.
Proof. intros [k ->]. replace (k * 1000) with (1000 * k) by lia. rewrite qvalue_units. reflexivity. Qed.

(* Value() never loses magnitude: it rounds away from zero by less than one unit *)
Lemma qvalue_bounds m :
  (0 <= m -> m <= 1000 * qvalue m < m + 1000) /\ (m <= 0 -> m - 1000 < 1000 * qvalue m <= m).
Proof.
  unfold qvalue.
  pose proof (Z.div_mod (m + 999) 1000 ltac:(lia)). pose proof (Z.mod_pos_bound (m + 999) 1000 ltac:(lia)).
  pose proof (Z.div_mod (- m + 999) 1000 ltac:(lia)). pose proof (Z.mod_pos_bound (- m + 999) 1000 ltac:(lia)).
  destruct (0 <=? m) eqn:E; [apply Z.leb_le in E|apply Z.leb_gt in E]; split; intros Hm; lia.
Qed.

Lemma name_class_cpu k : name_class k = CCpu <-> k = cpu_name.
Proof. unfold name_class. repeat case_decide; subst; split; intros; try discriminate; try reflexivity; try congruence. Qed.
Lemma name_class_mem k : name_class k = CMem <-> k = mem_name.
Proof. unfold name_class. repeat case_decide; subst; split; intros; try discriminate; try reflexivity; try congruence. Qed.
Lemma name_class_pods k : name_class k = CPods <-> k = pods_name.
Proof. unfold name_class. repeat case_decide; subst; split; intros; try discriminate; try reflexivity; try congruence. Qed.

Lemma map_res_id F r :
  F (cpu r) = cpu r -> F (mem r) = mem r -> (forall k v, scm r !! k = Some v -> F v = v) -> map_res F r = r.
Proof.
  destruct r as [c m [s|]]; cbn; intros H1 H2 H3; unfold map_res; cbn; rewrite H1, H2; [|reflexivity].
  f_equal. f_equal. apply map_eq. intros k. rewrite lookup_fmap.
  destruct (s !! k) as [v|] eqn:E; cbn; [|reflexivity]. f_equal. apply (H3 k v). exact E.
Qed.

Lemma map_res_compose F G r : map_res G (map_res F r) = map_res (fun x => G (F x)) r.
Proof. unfold map_res. cbn [Res.cpu Res.mem sc]. destruct (sc r); [rewrite <- map_fmap_compose|]; reflexivity. Qed.

Lemma scm_map_res F r k : scm (map_res F r) !! k = F <$> scm r !! k.
Proof.
  unfold scm, map_res. cbn [sc]. destruct (sc r); cbn [default]; [apply lookup_fmap|].
  rewrite lookup_empty. reflexivity.
Qed.

Lemma lookup_convert_z r k :
  convert_z r !! k =
  match scm r !! k, name_class k with
  | Some v, CPods => Some (1000 * v)
  | Some v, _ => Some v
  | None, CCpu => Some (cpu r)
  | None, CMem => Some (1000 * mem r)
  | None, _ => None
  end.
Proof.
  unfold convert_z.
  destruct (scm r !! k) as [v|] eqn:E.
  - rewrite (lookup_union_Some_l _ _ k (quantity_of k v)) by (rewrite map_lookup_imap, E; reflexivity).
    unfold quantity_of. destruct (decide (k = pods_name)) as [->|Hp]; [reflexivity|].
    destruct (name_class k) eqn:Ec; try reflexivity. apply name_class_pods in Ec. contradiction.
  - rewrite lookup_union_r by (rewrite map_lookup_imap, E; reflexivity).
    destruct (decide (k = cpu_name)) as [->|Hc]; [apply lookup_union_Some_l, lookup_singleton|].
    rewrite lookup_union_r by (apply lookup_singleton_ne; congruence).
    destruct (decide (k = mem_name)) as [->|Hm]; [apply lookup_singleton|].
    rewrite lookup_singleton_ne by congruence.
    destruct (name_class k) eqn:Ec; try reflexivity; [apply name_class_cpu in Ec|apply name_class_mem in Ec]; contradiction.
Qed.

Lemma scm_lazy c m (s : smap) : scm (mkRes c m (if bool_decide (s = ∅) then None else Some s)) = s.
Proof.
  unfold scm; cbn [sc]. destruct (bool_decide (s = ∅)) eqn:E; cbn; [apply bool_decide_eq_true in E; subst|]; reflexivity.
Qed.

Lemma scm_new_resource_z rl k : scm (fst (new_resource_z rl)) !! k = rl !! k ≫= scalar_of k.
Proof.
  unfold new_resource_z. cbn [fst]. rewrite scm_lazy. apply map_lookup_imap.
Qed.

(* Resource -> ResourceList -> Resource *)
Definition names_kept (r : res) : Prop := forall k v, scm r !! k = Some v -> kept_scalar k = true.

(* without the guards: what is lost — nothing on cpu / memory / kept scalars *)
Lemma new_resource_convert_pointwise_z r :
  scm r !! cpu_name = None -> scm r !! mem_name = None ->
  let r' := fst (new_resource_z (convert_z r)) in
  cpu r' = cpu r /\ mem r' = mem r /\
  forall k, scm r' !! k = if kept_scalar k then scm r !! k else None.
Proof.
  intros Hcpu Hmem. cbn zeta. split; [|split]; [| |intros k; rewrite scm_new_resource_z]; cbn [new_resource_z fst Res.cpu Res.mem].
  - rewrite lookup_convert_z, Hcpu. reflexivity.
  - rewrite lookup_convert_z, Hmem. apply qvalue_units.
  - rewrite lookup_convert_z. unfold scalar_of, kept_scalar.
    destruct (scm r !! k), (name_class k); cbn; rewrite ?qvalue_units; reflexivity.
Qed.

Lemma maxtask_convert_z r : snd (new_resource_z (convert_z r)) = sget r pods_name.
Proof.
  cbn [new_resource_z snd]. rewrite lookup_convert_z. unfold sget.
  destruct (scm r !! pods_name); [apply qvalue_units|reflexivity].
Qed.

(* ... and nothing at all when every scalar name is kept and the scalar map is nil or non-empty *)
Lemma new_resource_convert_gen_z r :
  names_kept r -> sc r <> Some ∅ ->
  new_resource_z (convert_z r) = (r, sget r pods_name).
Proof.
  intros Hk Hne.
  assert (Hdrop : forall k, kept_scalar k = false -> scm r !! k = None).
  { intros k E. destruct (scm r !! k) eqn:El; [|reflexivity]. apply Hk in El. congruence. }
  destruct (new_resource_convert_pointwise_z r) as (Hc & Hm & Hs); [apply Hdrop; reflexivity..|]. cbn zeta in *.
  rewrite (surjective_pairing (new_resource_z (convert_z r))), maxtask_convert_z. f_equal.
  assert (Hscm : map_imap scalar_of (convert_z r) = scm r).
  { apply map_eq. intros k. rewrite map_lookup_imap, <- scm_new_resource_z, Hs.
    destruct (kept_scalar k) eqn:E; [reflexivity|]. symmetry. apply Hdrop. exact E. }
  destruct r as [c m s]. cbn [new_resource_z fst Res.cpu Res.mem] in *. rewrite Hc, Hm, Hscm. f_equal.
  destruct s as [s|]; cbn [scm sc default].
  - unfold id. rewrite bool_decide_eq_false_2 by (intros ->; apply Hne; reflexivity). reflexivity.
  - rewrite bool_decide_eq_true_2 by reflexivity. reflexivity.
Qed.

(* ResourceList -> Resource -> ResourceList, every amount passing through [c] on the way *)
Lemma convert_z_new_resource_z c rl k :
  let rl' := convert_z (map_res c (fst (new_resource_z rl))) in
  match name_class k with
  | CCpu => rl' !! k = Some (c (default 0 (rl !! k)))
  | CMem => rl' !! k = Some (1000 * c (qvalue (default 0 (rl !! k))))
  | CPods => rl' !! k = (fun m => 1000 * c (qvalue m)) <$> rl !! k
  | CEph | CScalar => rl' !! k = c <$> rl !! k
  | CCountQuota | CIgnoredDev | CDropped => rl' !! k = None
  end.
Proof.
  cbn zeta. rewrite lookup_convert_z, scm_map_res, scm_new_resource_z.
  unfold scalar_of. cbn [new_resource_z fst map_res Res.cpu Res.mem].
  destruct (name_class k) eqn:E;
    [apply name_class_cpu in E as ->|apply name_class_mem in E as ->|..]; destruct (rl !! _); reflexivity.
Qed.

Theorem convert_new_resource_z rl k :
  let rl' := convert_z (fst (new_resource_z rl)) in
  match name_class k with
  | CCpu => rl' !! k = Some (default 0 (rl !! k))
  | CMem => rl' !! k = Some (1000 * qvalue (default 0 (rl !! k)))
  | CPods => rl' !! k = (fun m => 1000 * qvalue m) <$> rl !! k
  | CEph | CScalar => rl' !! k = rl !! k
  | CCountQuota | CIgnoredDev | CDropped => rl' !! k = None
  end.
Proof.
  pose proof (convert_z_new_resource_z id rl k) as H. cbn zeta in *.
  rewrite map_res_id in H by reflexivity.
  destruct (name_class k); rewrite H; try reflexivity; apply option_fmap_id.
Qed.

(* ---- ResFloat642Quantity / ResQuantity2Float64 ---- *)

(* float -> Quantity -> float: the amount truncated toward zero to a whole number of units *)
Theorem float_quantity_float_z g c x : 0 < g ->
  quantity_to_float_z g c (float_to_quantity_z g c x) = g * Z.quot x g.
Proof.
  intros Hg. unfold quantity_to_float_z, float_to_quantity_z. destruct c; [lia|].
  rewrite qvalue_units. lia.
Qed.

(* off the integral amounts: a truncation toward zero by less than one unit *)
Theorem float_quantity_float_bounds_z g c x : 0 < g ->
  let y := quantity_to_float_z g c (float_to_quantity_z g c x) in
  (0 <= x -> y <= x < y + g) /\ (x <= 0 -> y - g < x <= y).
Proof.
  intros Hg. cbn zeta. rewrite float_quantity_float_z by exact Hg.
  pose proof (Z.quot_rem' x g) as Hqr.
  split; intros Hx.
  - pose proof (Z.rem_bound_pos x g Hx Hg). lia.
  - destruct (Z.eq_dec x 0) as [->|Hne].
    + rewrite Z.quot_0_l by lia. lia.
    + pose proof (Z.rem_bound_pos (- x) g ltac:(lia) Hg) as Hb. rewrite Z.rem_opp_l' in Hb. lia.
Qed.

(* Quantity -> float -> Quantity: cpu keeps every milli amount; other names keep whole units and round
   fractional units away from zero (Value()) *)
Theorem quantity_float_quantity_z g c m : 0 < g ->
  float_to_quantity_z g c (quantity_to_float_z g c m) = if c then m else 1000 * qvalue m.
Proof.
  intros Hg. unfold quantity_to_float_z, float_to_quantity_z. destruct c; rewrite Z.quot_mul by lia; reflexivity.
Qed.

Corollary quantity_float_quantity_id_z g c m : 0 < g -> (c = true \/ (1000 | m)) ->
  float_to_quantity_z g c (quantity_to_float_z g c m) = m.
Proof.
  intros Hg H. rewrite quantity_float_quantity_z by exact Hg. destruct c; [reflexivity|].
  destruct H as [H|H]; [discriminate|]. apply qvalue_whole. exact H.
Qed.

(* ---- magnitudes up to 2^63: float64 / int64 effects ---- *)
Lemma amount_ok_spec x : amount_ok x = true -> f64 x = x /\ i64 x = x.
Proof.
  unfold amount_ok, fexact, i64, min64, max64. rewrite andb_true_iff, Z.eqb_eq, bool_decide_eq_true.
  change (2 ^ 63) with 9223372036854775808. intros [H1 H2]. split; [exact H1|].
  replace (-9223372036854775808 <=? x) with true by (symmetry; apply Z.leb_le; lia).
  replace (x <=? 9223372036854775807) with true by (symmetry; apply Z.leb_le; lia). reflexivity.
Qed.

Lemma res_exact_spec r : res_exact r = true -> map_res i64 r = r /\ map_res f64 r = r.
Proof.
  unfold res_exact. rewrite !andb_true_iff, bool_decide_eq_true. intros [[H1 H2] H3].
  apply amount_ok_spec in H1, H2.
  split; apply map_res_id; try tauto; intros k v E; apply amount_ok_spec, (H3 k v E).
Qed.

(* ResourceList -> Resource -> ResourceList on rl_exact: as on small amounts *)
Theorem convert_new_resource_exact_range rl : rl_exact rl = true ->
  convert (fst (new_resource rl)) = convert_z (fst (new_resource_z rl)).
Proof.
  unfold rl_exact, new_resource, convert. destruct (new_resource_z rl) as [r mt]. cbn [fst]. intros H.
  destruct (res_exact_spec r H) as [E1 E2]. rewrite E2, E1. reflexivity.
Qed.

(* what the unchanged code does with the infinite sentinel (amd64): a NEGATIVE quantity, -2^63 *)
Example convert_sentinel :
  let inf := (2 ^ 53 - 1) * 2 ^ 971 in
  convert (mkRes inf inf None) !! cpu_name = Some min64 /\ amount_ok inf = false /\
  fst (new_resource (convert (mkRes inf inf None))) = mkRes min64 min64 None.
Proof.
  (* the sentinel fails amount_ok by its magnitude alone: its rounding need not be computed *)
  cbv zeta. split; [|split; [apply andb_false_intro2|]]; vm_compute; reflexivity.
Qed.

(* non-vacuity above 2^53: 1 Ei of memory, 3*2^60 milli-bytes of ephemeral-storage, 2^63 - 1024 milli-cpu,
   2^53 + 2 pods *)
Definition large_res : res :=
  mkRes (2 ^ 63 - 1024) (2 ^ 60) (Some {[1%positive := 2 ^ 53 + 2; 7%positive := 3 * 2 ^ 60]}).
Example roundtrip_large_nonvacuous :
  rt_domain large_res = true /\
  bool_decide (new_resource (convert large_res) = (large_res, 2 ^ 53 + 2)) = true /\
  amount_ok (2 ^ 53 + 1) = false /\ f64 (2 ^ 53 + 1) = 2 ^ 53 /\ f64 (2 ^ 53 + 3) = 2 ^ 53 + 4.
Proof. vm_compute. repeat split; reflexivity. Qed.

(* ---- ResFloat642Quantity / ResQuantity2Float64 with their int64 / float64 effects ---- *)
Lemma conv_domain_spec g x : conv_domain g x = true ->
  0 < g /\ f64 (Z.quot x g) = Z.quot x g /\ i64 (Z.quot x g) = Z.quot x g.
Proof.
  unfold conv_domain. rewrite !andb_true_iff, bool_decide_eq_true. intros [[[Hg _] _] H].
  apply amount_ok_spec in H. tauto.
Qed.

Lemma conv_bridge g c x : conv_domain g x = true ->
  quantity_to_float g c (float_to_quantity g c x) = quantity_to_float_z g c (float_to_quantity_z g c x).
Proof.
  intros H. destruct (conv_domain_spec g x H) as (Hg & F & I).
  unfold quantity_to_float, float_to_quantity, quantity_to_float_z, float_to_quantity_z.
  rewrite I. destruct c; [rewrite F; reflexivity|]. rewrite qvalue_units, F. reflexivity.
Qed.

Example conv_nonvacuous :
  conv_domain 1 4007 = true /\ quantity_to_float 1 true (float_to_quantity 1 true 4007) = 4007 /\
  conv_domain 16 (16 * 4007 + 9) = true /\ float_to_quantity 16 true (16 * 4007 + 9) = 4007 /\
  conv_domain 1 (3 * 2 ^ 60) = true /\ qty_domain false 2500 = true /\ quantity_to_float 1 false 2500 = 3 /\
  qty_domain true (2 ^ 63 - 1024) = true /\
  float_to_quantity 1 true (quantity_to_float 1 true (2 ^ 63 - 1024)) = 2 ^ 63 - 1024 /\
  conv_domain 3 10 = false.
Proof. vm_compute. repeat split; reflexivity. Qed.
