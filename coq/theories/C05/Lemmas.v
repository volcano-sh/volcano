(* The reconciliation of C05/Model.v seen through one record: [outcome] says what executing an action can do
   to the cached and the API server's job status.  killPods, syncJob, processNextReq and an expiring timer
   each get one lemma saying how they end; the lifecycle clauses (transitions, Aborted, retry count,
   maxRetry, versions, final phases, the API server's phase sequence) are read off [outcome], for one step
   and over histories.  The counters are in C05/Partition.v, the pod set in C05/SyncLemmas.v. *)
From Coq Require Import ZArith List Bool Lia.
From V Require Import C05.Model C05.Laws C05.SyncLemmas.
Import ListNotations.
Open Scope Z_scope.

(* ---------- finite domains ---------- *)
Lemma all_phases_complete : forall p, In p all_phases.
Proof. destruct p; simpl; tauto. Qed.
Lemma all_actions_complete : forall a, In a all_actions.
Proof. destruct a; simpl; tauto. Qed.

Lemma phase_beq_true : forall p q, phase_beq p q = true <-> p = q.
Proof. split; [apply internal_phase_dec_bl | apply internal_phase_dec_lb]. Qed.
Lemma phase_in_In : forall p l, phase_in p l = true <-> In p l.
Proof.
  unfold phase_in; intros; rewrite existsb_exists; split.
  - intros (x & Hx & E). apply phase_beq_true in E; subst; auto.
  - intros H; exists p; split; auto. apply phase_beq_true; auto.
Qed.

(* every property of the (phase, action) table is decided by enumeration *)
Lemma table_forall (P : phase -> action -> bool) :
  forallb (fun p => forallb (P p) all_actions) all_phases = true -> forall p a, P p a = true.
Proof.
  intros H p a. rewrite forallb_forall in H. specialize (H p (all_phases_complete p)).
  rewrite forallb_forall in H. apply H, all_actions_complete.
Qed.

(* ---------- status updates ---------- *)
Definition upd_targets (u : updfn) : list phase :=
  match u with
  | UNil => []
  | URestart => [PhRestarting]
  | UTo p => [p]
  | UPendingSync => [PhRunning]
  | URunningSync => [PhCompleted; PhFailed; PhPending]
  | URestarting => [PhFailed; PhPending]
  | UAlive p => [p]
  end.

Definition is_restart (u : updfn) : bool := match u with URestart => true | _ => false end.

Lemma running_sync_shape : forall sp s,
  running_sync sp s = s \/ exists p, In p [PhCompleted; PhFailed; PhPending] /\ running_sync sp s = set_phase s p.
Proof.
  intros sp s. unfold running_sync.
  repeat match goal with |- context [if ?c then _ else _] => destruct c end;
    auto; right; eexists; (split; [|reflexivity]); simpl; tauto.
Qed.

(* a status update touches only phase and retry count *)
Lemma apply_upd_shape : forall u sp s,
  apply_upd u sp s = s \/
  exists p, In p (upd_targets u) /\
            apply_upd u sp s = set_phase_retry s p (if is_restart u then st_retry s + 1 else st_retry s).
Proof.
  intros u sp s. destruct u; simpl.
  - left; reflexivity.
  - right. exists PhRestarting. split; [simpl; auto|reflexivity].
  - right. exists p. split; [simpl; auto|]. destruct s; reflexivity.
  - destruct (_ <=? _); [|left; reflexivity]. right. exists PhRunning. split; [simpl; auto|]. destruct s; reflexivity.
  - destruct (running_sync_shape sp s) as [E | (p & Hp & E)]; [left; exact E|].
    right. exists p. split; [exact Hp|exact E].
  - destruct (_ <=? _); [right; exists PhFailed; split; [simpl; auto| destruct s; reflexivity]|].
    destruct (_ <=? _); [|left; reflexivity]. right; exists PhPending; split; [simpl; auto| destruct s; reflexivity].
  - destruct (alive s); [left; reflexivity|]. right; exists p; split; [simpl; auto| destruct s; reflexivity].
Qed.

Lemma apply_upd_version : forall u sp s, st_version (apply_upd u sp s) = st_version s.
Proof. intros. destruct (apply_upd_shape u sp s) as [E | (p & _ & E)]; rewrite E; destruct s; reflexivity. Qed.
Lemma apply_upd_cnt : forall u sp s, st_cnt (apply_upd u sp s) = st_cnt s.
Proof. intros. destruct (apply_upd_shape u sp s) as [E | (p & _ & E)]; rewrite E; destruct s; reflexivity. Qed.
Lemma apply_upd_term : forall u sp s, st_term (apply_upd u sp s) = st_term s.
Proof. intros. destruct (apply_upd_shape u sp s) as [E | (p & _ & E)]; rewrite E; destruct s; reflexivity. Qed.
Lemma apply_upd_tsc : forall u sp s, st_tsc (apply_upd u sp s) = st_tsc s.
Proof. intros. destruct (apply_upd_shape u sp s) as [E | (p & _ & E)]; rewrite E; destruct s; reflexivity. Qed.

(* ---------- what one processed request can do to the job status ---------- *)

Definition start_phase (p : phase) : phase := match p with PhNone => PhPending | _ => p end.

(* [moved sp u s s']: s' carries the phase / retry count of the update function
   applied to a status with the phase and retry count of s (Pending for a job
   that had no phase yet) *)
Definition moved (sp : spec) (u : updfn) (s s' : status) : Prop :=
  exists b, st_retry b = st_retry s /\ (st_phase b = st_phase s \/ st_phase b = start_phase (st_phase s)) /\
            st_phase s' = st_phase (apply_upd u sp b) /\ st_retry s' = st_retry (apply_upd u sp b).

Definition kept_core (s s' : status) : Prop :=
  st_retry s' = st_retry s /\ (st_phase s' = st_phase s \/ st_phase s' = start_phase (st_phase s)).

Definition is_job_kill (k : kind) : bool := match k with KKill _ => true | _ => false end.

Record outcome (sp : spec) (k : kind) (u : updfn) (w w' : world) (e wr : bool) : Prop := {
  oc_version : st_version (v_st w') = st_version (v_st w) \/
               (is_job_kill k = true /\ st_version (v_st w') = st_version (v_st w) + 1);
  oc_core : kept_core (v_st w) (v_st w') \/ moved sp u (v_st w) (v_st w');
  oc_written : wr = true -> e = false -> moved sp u (v_st w) (v_st w') /\ w_st w' = v_st w';
  oc_api : w_st w' = w_st w \/ w_st w' = v_st w' \/
           (st_phase (v_st w) = PhNone /\ w_st w' = init_status sp (v_st w));
  oc_fault : e = true -> w_st w' = w_st w \/ (st_phase (v_st w) = PhNone /\ w_st w' = init_status sp (v_st w));
  oc_silent : wr = false -> w_st w' = w_st w;
  oc_spec : w_spec w' = w_spec w;
  (* the API server's phase follows the cache's (no status reaches the cache without reaching the API server) *)
  oc_agree : st_phase (w_st w) = st_phase (v_st w) -> st_phase (w_st w') = st_phase (v_st w')
}.

Lemma kept_core_refl : forall s, kept_core s s.
Proof. intros; split; auto. Qed.

Lemma outcome_noop : forall sp k u w, outcome sp k u w w false false.
Proof. intros. constructor; auto using kept_core_refl; try discriminate. Qed.

(* ---------- how killPods ends ---------- *)
(* the cached status after the version bump of a job-level kill *)
Definition kill_vst (w : world) (tg : option target) : status :=
  match tg with None => set_version (v_st w) (st_version (v_st w) + 1) | Some _ => v_st w end.

(* the status the update function is applied to: that one with the counters of this kill *)
Definition kill_base (fixed : bool) (w : world) (tg : option target) (kill : list pod) (term0 : Z) : status :=
  let vst := kill_vst w tg in
  let rest := filter (fun p => negb (in_kill kill p)) (v_pods w) in
  mkStatus (st_phase vst) (st_retry vst) (st_version vst) (st_min vst)
           (if fixed then fst (tally rest) else c0)
           (if fixed then Z.of_nat (length kill) + snd (tally rest) else term0 + Z.of_nat (length kill))
           (if fixed then tsc_of_pods rest else []) false (st_rundur vst).

(* skipped (job being deleted, partition target); failed before anything is written (a refused pod call,
   or the status update itself refused); or written, to the API server and the cache alike *)
Lemma kill_pods_cases : forall fixed w rt tg u F w' e wr,
  kill_pods_gen fixed w rt tg u F = (w', e, wr) ->
  (w' = w /\ e = false /\ wr = false) \/
  exists kill term0,
    kill_select (v_spec w) (v_st w) (v_pods w) rt tg = (kill, term0) /\
    w_pods w' = kill_effects F kill (w_pods w) /\ w_spec w' = w_spec w /\
    ((e = true /\ wr = false /\ (any_fault F kill = true \/ fails_status F 0 = true) /\
      w_st w' = w_st w /\ v_st w' = kill_vst w tg /\ v_spec w' = v_spec w) \/
     (e = false /\ wr = true /\ any_fault F kill = false /\ fails_status F 0 = false /\ v_st w' = w_st w' /\
      let s := apply_upd u (v_spec w) (kill_base fixed w tg kill term0) in
      w_st w' = mkStatus (st_phase s) (st_retry s) (st_version s) (st_min s) (st_cnt s) (st_term s)
                         (st_tsc s) (st_tsc_nil s) true)).
Proof.
  intros fixed w rt tg u F w' e wr H. unfold kill_pods_gen in H.
  destruct (c_vdel (v_ctl w)); [inversion H; auto|].
  destruct tg as [[t|t p|]|]; [| |inversion H; auto|].
  all: right; destruct (kill_select _ _ _ _ _) as [kill term0]; exists kill, term0; split; [reflexivity|].
  all: destruct (any_fault F kill) eqn:Ea;
    [injection H as <- <- <-; split; [reflexivity|]; split; [reflexivity|]; left; repeat split; auto|].
  all: destruct (fails_status F 0) eqn:Es;
    [injection H as <- <- <-; split; [reflexivity|]; split; [reflexivity|]; left; repeat split; auto|].
  all: try destruct (v_pg w); (injection H as <- <- <-; split; [reflexivity|]; split; [reflexivity|]; right; repeat split).
Qed.

Lemma kill_vst_core : forall w tg,
  st_phase (kill_vst w tg) = st_phase (v_st w) /\ st_retry (kill_vst w tg) = st_retry (v_st w).
Proof. intros w [?|]; split; reflexivity. Qed.

Lemma kill_pods_outcome : forall fixed w rt tg u F w' e wr,
  kill_pods_gen fixed w rt tg u F = (w', e, wr) ->
  outcome (v_spec w) (match tg with None => KKill rt | Some _ => KTarget end) u w w' e wr.
Proof.
  intros fixed w rt tg u F w' e wr H.
  destruct (kill_pods_cases _ _ _ _ _ _ _ _ _ H)
    as [(-> & -> & ->)|(kill & term0 & _ & _ & Hsp & [(-> & -> & _ & Ew & Ev & _)|(-> & -> & _ & _ & Evw & Ew)])].
  - apply outcome_noop.
  - destruct (kill_vst_core w tg) as [Kp Kr]. rewrite <- Ev in Kp, Kr.
    constructor; auto; try discriminate.
    + rewrite Ev. destruct tg; cbn; auto.
    + left; split; auto.
    + rewrite Ew, Kp. auto.
  - destruct (kill_vst_core w tg) as [Kp Kr]. cbv zeta in Ew.
    assert (M : moved (v_spec w) u (v_st w) (v_st w')).
    { exists (kill_base fixed w tg kill term0). rewrite Evw, Ew. repeat split; auto. }
    constructor; auto; try discriminate.
    + rewrite Evw, Ew. cbn. rewrite apply_upd_version. destruct tg; cbn; auto.
    + intros _. rewrite Evw. reflexivity.
Qed.

(* projections of the world constructors *)
Lemma pj_ensure_pg : forall w,
  v_st (ensure_pg w) = v_st w /\ w_st (ensure_pg w) = w_st w /\ v_spec (ensure_pg w) = v_spec w /\
  w_spec (ensure_pg w) = w_spec w /\ w_pods (ensure_pg w) = w_pods w /\ v_pods (ensure_pg w) = v_pods w /\
  v_pg (ensure_pg w) = v_pg w.
Proof. intros w. unfold ensure_pg. destruct (v_pg w) eqn:E1, (w_pg w) eqn:E2; cbn; rewrite ?E1; repeat split; reflexivity. Qed.
Lemma pj1 w : v_st (ensure_pg w) = v_st w. Proof. apply pj_ensure_pg. Qed.
Lemma pj2 w : w_st (ensure_pg w) = w_st w. Proof. apply pj_ensure_pg. Qed.
Lemma pj3 w : v_spec (ensure_pg w) = v_spec w. Proof. apply pj_ensure_pg. Qed.
Lemma pj4 w : w_spec (ensure_pg w) = w_spec w. Proof. apply pj_ensure_pg. Qed.
Lemma pj5 w : w_pods (ensure_pg w) = w_pods w. Proof. apply pj_ensure_pg. Qed.
Lemma pj6 w : v_pods (ensure_pg w) = v_pods w. Proof. apply pj_ensure_pg. Qed.
Lemma pj7 w : v_pg (ensure_pg w) = v_pg w. Proof. apply pj_ensure_pg. Qed.
Global Hint Rewrite pj1 pj2 pj3 pj4 pj5 pj6 pj7 : proj.
Global Opaque ensure_pg.

(* ---------- how syncJob ends ---------- *)
(* the status it starts from: the cached one; for a job without a phase, the initial status it writes first *)
Definition sync_js (w : world) : status :=
  if phase_beq (st_phase (v_st w)) PhNone then init_status (v_spec w) (v_st w) else v_st w.
(* the world after initJobStatus and createOrUpdatePodGroup *)
Definition sync_w1 (w : world) : world :=
  ensure_pg (if phase_beq (st_phase (v_st w)) PhNone then write w (sync_js w) else w).
(* the world after the pod calls, the status the update function is applied to, and whether a pod call was
   refused; while the PodGroup is not admitted no pod call is made *)
Definition sync_base (pgfix : bool) (w : world) (F : list fault) : world * status * bool :=
  let js := sync_js w in
  let w1 := sync_w1 w in
  if pg_admitted (v_pg w) then
    let a := sync_pods (v_spec w1) (v_pods w) (w_pods w) F in
    (set_wpods w1 (a_pods a),
     mkStatus (st_phase js) (st_retry js) (st_version js) (s_min (v_spec w1)) (a_cnt a) (a_term a) (a_tsc a) false false,
     a_err a)
  else (w1, if pgfix then recount js (v_pods w) else js, false).

(* nothing is done (job being deleted, unknown queue, refused initial status); or the sync ends after the pod
   calls: with the status as it was (or a pod call refused), with the status update refused, or written *)
Lemma sync_job_cases : forall fixed pgfix w u F w' e wr,
  sync_job_gen fixed pgfix w u F = (w', e, wr) ->
  let init := phase_beq (st_phase (v_st w)) PhNone in
  (w' = w /\ wr = false /\ e = negb (c_vdel (v_ctl w)) /\
   (c_vdel (v_ctl w) = true \/ c_queue (v_ctl w) = false \/ init = true /\ fails_status F 0 = true)) \/
  exists w2 b refused, sync_base pgfix w F = (w2, b, refused) /\ (fails_status F 0 = true -> init = false) /\
    let s' := apply_upd u (v_spec w) b in
    let n := if init then 1 else 0 in
    (w' = w2 /\ wr = init /\
     (e = true /\ refused = true \/
      e = false /\ refused = false /\ (set_tscnil s' (st_tsc_nil (sync_js w)) = sync_js w \/ sync_js w = s'))) \/
    (w' = leak fixed w2 init s' /\ e = true /\ wr = init /\ refused = false /\ fails_status F n = true) \/
    (w' = write w2 s' /\ e = false /\ wr = true /\ refused = false /\ fails_status F n = false).
Proof.
  intros fixed pgfix w u F w' e wr H init. unfold sync_job_gen in H.
  destruct (c_vdel (v_ctl w)); [inversion H; subst; left; auto 6|].
  destruct (c_queue (v_ctl w)); cbn [negb] in H; [|inversion H; subst; left; auto 6].
  fold init in H. unfold sync_base, sync_w1, sync_js. fold init.
  destruct init eqn:Ei; cbn [andb negb] in H;
    [destruct (fails_status F 0) eqn:E0; [inversion H; subst; left; auto 8|]|].
  all: right; rewrite pj7, ?pj6, ?pj5, ?pj3 in H; cbn [write v_pg v_pods w_pods v_spec] in H.
  all: rewrite ?pj3; cbn [write v_spec]; destruct (pg_admitted (v_pg w)); cbn [negb] in H.
  all: do 3 eexists; (split; [reflexivity|]); (split; [congruence|]); cbv zeta.
  all: repeat match type of H with context [if ?c then _ else _] => destruct c eqn:? end.
  all: injection H as <- <- <-.
  all: first [ left; repeat split; auto; fail | right; left; repeat split; auto; fail
             | right; right; repeat split; auto; fail | idtac ].
Qed.

Lemma sync_js_core : forall w, kept_core (v_st w) (sync_js w) /\ st_version (sync_js w) = st_version (v_st w).
Proof.
  intros w. unfold sync_js. destruct (phase_beq _ _) eqn:E; [|repeat split; auto].
  apply phase_beq_true in E. repeat split; auto. right. rewrite E. reflexivity.
Qed.

Lemma sync_w1_proj : forall w,
  let init := phase_beq (st_phase (v_st w)) PhNone in
  v_st (sync_w1 w) = sync_js w /\ w_st (sync_w1 w) = (if init then sync_js w else w_st w) /\
  w_spec (sync_w1 w) = w_spec w /\ v_spec (sync_w1 w) = (if init then w_spec w else v_spec w) /\
  w_pods (sync_w1 w) = w_pods w /\ v_pods (sync_w1 w) = v_pods w.
Proof. intros w. unfold sync_w1, sync_js. autorewrite with proj. destruct (phase_beq _ _); repeat split. Qed.

Lemma sync_base_proj : forall pgfix w F w2 b refused,
  sync_base pgfix w F = (w2, b, refused) ->
  let init := phase_beq (st_phase (v_st w)) PhNone in
  v_st w2 = sync_js w /\ w_st w2 = (if init then sync_js w else w_st w) /\ w_spec w2 = w_spec w /\
  v_spec w2 = (if init then w_spec w else v_spec w) /\
  st_phase b = st_phase (sync_js w) /\ st_retry b = st_retry (sync_js w) /\ st_version b = st_version (sync_js w).
Proof.
  intros pgfix w F w2 b refused H. destruct (sync_w1_proj w) as (W1 & W2 & W3 & W4 & _).
  cbv zeta in *. unfold sync_base in H.
  destruct (pg_admitted (v_pg w)); [|destruct pgfix]; inversion H; subst; repeat split; assumption.
Qed.

Lemma sync_same_core : forall s' js,
  set_tscnil s' (st_tsc_nil js) = js \/ js = s' ->
  st_phase s' = st_phase js /\ st_retry s' = st_retry js /\ st_cnt s' = st_cnt js /\ st_term s' = st_term js.
Proof.
  intros s' js [E|E]; [|subst; auto].
  exact (conj (f_equal st_phase E) (conj (f_equal st_retry E) (conj (f_equal st_cnt E) (f_equal st_term E)))).
Qed.

Lemma sync_job_outcome : forall w u F w' e wr,
  sync_job w u F = (w', e, wr) -> outcome (v_spec w) KSync u w w' e wr.
Proof.
  intros w u F w' e wr H.
  destruct (sync_job_cases _ _ _ _ _ _ _ _ H) as [(-> & -> & _)|(w2 & b & refused & Eb & _ & Hend)].
  { constructor; auto using kept_core_refl; discriminate. }
  destruct (sync_base_proj _ _ _ _ _ _ Eb) as (B1 & B2 & B3 & _ & Bp & Br & Bv). cbv zeta in B2.
  destruct (sync_js_core w) as [[Jr Jp] Jv]. clear Eb H.
  assert (M : moved (v_spec w) u (v_st w) (apply_upd u (v_spec w) b)).
  { exists b. rewrite Bp, Br. auto. }
  cbv zeta in Hend. set (s' := apply_upd u (v_spec w) b) in *.
  (* with the initJobStatus copy fix a refused update leaves the world of the pod calls *)
  assert (Hend' : w' = w2 /\ wr = phase_beq (st_phase (v_st w)) PhNone /\
                  (e = false -> st_phase s' = st_phase (sync_js w) /\ st_retry s' = st_retry (sync_js w)) \/
                  w' = write w2 s' /\ e = false /\ wr = true).
  { destruct Hend as [(-> & -> & Hs)|[(-> & -> & -> & _)|(-> & -> & -> & _)]]; auto.
    - left. split; [reflexivity|]. split; [reflexivity|]. intros ->.
      destruct Hs as [[? _]|(_ & _ & Hs)]; [discriminate|]. destruct (sync_same_core _ _ Hs) as (A & B & _). auto.
    - left. split; [reflexivity|]. split; [reflexivity|]. discriminate. }
  clear Hend. destruct Hend' as [(-> & -> & Hs)|(-> & -> & ->)].
  - destruct (phase_beq (st_phase (v_st w)) PhNone) eqn:Ei.
    + (* first reconciliation of a job without a phase: the initial status is on both sides *)
      assert (Hj : sync_js w = init_status (v_spec w) (v_st w)) by (unfold sync_js; rewrite Ei; reflexivity).
      apply phase_beq_true in Ei.
      constructor; rewrite ?B1, ?B2, ?B3; auto; try discriminate.
      * left; split; auto.
      * intros _ He. destruct (Hs He) as [A B]. split; [|reflexivity].
        exists b. rewrite Bp, Br. auto.
    + (* the job already has a phase *)
      assert (Hj : sync_js w = v_st w) by (unfold sync_js; rewrite Ei; reflexivity).
      constructor; rewrite ?B1, ?B2, ?B3, ?Hj; auto using kept_core_refl; try discriminate.
  - constructor; cbn [write v_st w_st w_spec]; auto; try discriminate.
    left. unfold s'. rewrite apply_upd_version. congruence.
Qed.

(* [acted w a w' e wr]: w' results from executing action a (state.NewState(job).Execute) on w,
   or from doing nothing; everything below follows from this alone *)
Definition acted (w : world) (a : action) (w' : world) (e wr : bool) : Prop :=
  outcome (v_spec w) (fst (exec (st_phase (v_st w)) a)) (snd (exec (st_phase (v_st w)) a)) w w' e wr.

Lemma execute_outcome : forall w a r F w' e wr, execute w a r F = (w', e, wr) -> acted w a w' e wr.
Proof.
  intros w a r F w' e wr H. unfold execute in H. unfold acted.
  destruct (exec (st_phase (v_st w)) a) as [k u]. cbn [fst snd].
  destruct k.
  - apply (sync_job_outcome w u F); exact H.
  - apply (kill_pods_outcome true w r0 None u F); exact H.
  - apply (kill_pods_outcome true w RNone (Some (target_of a r)) u F); exact H.
Qed.

(* the delayed-action bookkeeping is invisible to the job status *)
Lemma outcome_delays : forall sp k u w w' e wr d d',
  outcome sp k u w w' e wr -> outcome sp k u (with_delays w d) (with_delays w' d') e wr.
Proof. intros sp k u w w' e wr d d' O. destruct O. constructor; cbn; assumption. Qed.
Lemma outcome_delays_l : forall sp k u w w' e wr d,
  outcome sp k u (with_delays w d) w' e wr -> outcome sp k u w w' e wr.
Proof. intros sp k u w w' e wr d O. destruct O. constructor; cbn in *; assumption. Qed.
Lemma outcome_delays_r : forall sp k u w w' e wr d,
  outcome sp k u w w' e wr -> outcome sp k u w (with_delays w' d) e wr.
Proof. intros sp k u w w' e wr d O. destruct O. constructor; cbn in *; assumption. Qed.
Lemma outcome_noop_d : forall sp k u w d, outcome sp k u w (with_delays w d) false false.
Proof. intros. apply outcome_delays_r. apply outcome_noop. Qed.

Lemma with_delays_same : forall w, with_delays w (c_delay (v_ctl w)) = w.
Proof. intros [? ? ? ? ? ? ? ? []]. reflexivity. Qed.

(* processNextReq: the request is dropped or only arms a timer, or the action applyPolicies chose is
   executed; the delayed-action table aside, the result is then that of [execute] *)
Lemma step_req_cases : forall w r F w' e wr,
  step_req w r F = (w', e, wr) ->
  (exists d, w' = with_delays w d /\ e = false /\ wr = false) \/
  exists w1,
    execute (with_delays w (clean_pod_delay (c_delay (v_ctl w)) r)) (apply_policies (v_spec w) (v_st w) r) r F = (w1, e, wr) /\
    (e = true -> w' = w1) /\ exists d, w' = with_delays w1 d.
Proof.
  intros w r F w' e wr H. unfold step_req in H. unfold apply_policies.
  set (w0 := with_delays w (clean_pod_delay (c_delay (v_ctl w)) r)) in *.
  change (v_spec w0) with (v_spec w) in H. change (v_st w0) with (v_st w) in H.
  destruct (c_job (v_ctl w0)); cbn [negb] in H; [|inversion H; subst; left; eexists; split; [reflexivity|auto]].
  destruct (apply_policies_d (v_spec w) (v_st w) r) as [a delayed]. cbn [fst].
  destruct delayed; [inversion H; subst; left; eexists; split; [reflexivity|auto]|].
  destruct (execute w0 a r F) as [[w1 e1] wr1]. right. exists w1.
  destruct (negb e1 && negb (is_internal_action a)) eqn:E; inversion H; subst.
  - split; [reflexivity|]. split; [intros ->; discriminate|eauto].
  - split; [reflexivity|]. split; [reflexivity|]. exists (c_delay (v_ctl w')). symmetry. apply with_delays_same.
Qed.

Lemma step_req_outcome : forall w r F w' e wr,
  step_req w r F = (w', e, wr) -> acted w (apply_policies (v_spec w) (v_st w) r) w' e wr.
Proof.
  intros w r F w' e wr H.
  destruct (step_req_cases _ _ _ _ _ _ H) as [(d & -> & -> & ->)|(w1 & Hx & _ & d & ->)]; [apply outcome_noop_d|].
  apply outcome_delays_r. exact (outcome_delays_l _ _ _ _ _ _ _ _ (execute_outcome _ _ _ _ _ _ _ Hx)).
Qed.

(* the oldest timer: nothing happens to the job (no timer, a cancelled one, no job in the cache), or its
   action is executed like a request's, against the state as it is now *)
Lemma fire_cases : forall w w' e wr,
  fire w = (w', e, wr) ->
  (exists d, w' = with_delays w d /\ wr = false) \/
  exists t rest w1 e1 d,
    d_queue (c_delay (v_ctl w)) = (t, false) :: rest /\
    execute (with_delays w (mkDelays (d_map (c_delay (v_ctl w))) rest (d_next (c_delay (v_ctl w)))))
            (dt_action t) (mkReq (dt_event t) None (dt_task t) (dt_pod t) 0 0 1) [] = (w1, e1, wr) /\
    w' = with_delays w1 d.
Proof.
  intros w w' e wr H. unfold fire in H.
  destruct (d_queue (c_delay (v_ctl w))) as [|[t cancelled] rest].
  - inversion H; subst. left. exists (c_delay (v_ctl w')). split; [symmetry; apply with_delays_same|reflexivity].
  - set (w0 := with_delays w _) in *.
    destruct cancelled; [inversion H; subst; left; eexists; split; reflexivity|].
    destruct (c_job (v_ctl w0)); cbn [negb] in H; [|inversion H; subst; left; eexists; split; reflexivity].
    destruct (execute w0 (dt_action t) _ []) as [[w1 e1] wr1] eqn:Hx. inversion H; subst.
    right. exists t, rest, w1, e1. eauto.
Qed.

Lemma fire_outcome : forall w w' e wr,
  fire w = (w', e, wr) -> exists a e0, acted w a w' e0 wr.
Proof.
  intros w w' e wr H.
  destruct (fire_cases _ _ _ _ H) as [(d & -> & ->)|(t & rest & w1 & e1 & d & _ & Hx & ->)].
  - exists ASync, false. apply outcome_noop_d.
  - exists (dt_action t), e1. apply outcome_delays_r.
    exact (outcome_delays_l _ _ _ _ _ _ _ _ (execute_outcome _ _ _ _ _ _ _ Hx)).
Qed.

(* ---------- facts about the (phase, action) table, by enumeration ---------- *)
Definition tbl_targets_allowed (p : phase) (a : action) : bool :=
  forallb (fun q => phase_in q (allowed p)) (upd_targets (snd (exec p a))) &&
  phase_in p (allowed p) && phase_in (start_phase p) (allowed p) &&
  forallb (fun q => phase_in q (allowed p)) (upd_targets (snd (exec (start_phase p) a))).
Lemma tbl_targets_allowed_ok : forall p a, tbl_targets_allowed p a = true.
Proof. apply table_forall. vm_compute. reflexivity. Qed.

Lemma exec_start : forall p a, exec (start_phase p) a = exec p a.
Proof. destruct p; reflexivity. Qed.

(* an update function is applied to a status in the phase the table was indexed with *)
Lemma moved_phase : forall sp u s s',
  moved sp u s s' ->
  st_phase s' = st_phase s \/ st_phase s' = start_phase (st_phase s) \/ In (st_phase s') (upd_targets u).
Proof.
  intros sp u s s' (b & Hr & Hp & Hp' & Hr').
  destruct (apply_upd_shape u sp b) as [E | (p & Hin & E)]; rewrite E in Hp'.
  - destruct Hp as [Hp|Hp]; rewrite Hp in Hp'; auto.
  - right; right. rewrite Hp'. destruct b; cbn. exact Hin.
Qed.

Lemma moved_retry : forall sp u s s',
  moved sp u s s' ->
  st_retry s' = st_retry s \/ (u = URestart /\ st_retry s' = st_retry s + 1 /\ st_phase s' = PhRestarting).
Proof.
  intros sp u s s' (b & Hr & Hp & Hp' & Hr').
  destruct (apply_upd_shape u sp b) as [E | (p & Hin & E)]; rewrite E in Hp', Hr'.
  - left; congruence.
  - destruct u; cbn in *; try (left; destruct b; cbn in *; congruence).
    right. destruct Hin as [<-|[]]. destruct b; cbn in *. repeat split; congruence.
Qed.

(* ---------- the requeue budget (handleJobError): what a processed request is, error path included ---------- *)
(* a kill that fails has written nothing; the cache keeps phase, retry count and spec *)
Lemma kill_pods_err : forall fixed w rt tg u F w' wr,
  kill_pods_gen fixed w rt tg u F = (w', true, wr) ->
  wr = false /\ st_phase (v_st w') = st_phase (v_st w) /\ st_retry (v_st w') = st_retry (v_st w) /\ v_spec w' = v_spec w.
Proof.
  intros fixed w rt tg u F w' wr H.
  destruct (kill_pods_cases _ _ _ _ _ _ _ _ _ H)
    as [(_ & E & _)|(kill & term0 & _ & _ & _ & [(_ & -> & _ & _ & Ev & Es)|(E & _)])]; try discriminate.
  rewrite Ev. destruct (kill_vst_core w tg). auto.
Qed.

(* a sync fails either without any write, or -- first sync of a job without a phase -- after initJobStatus
   wrote the initial status, which the cache holds as well *)
Lemma sync_job_err : forall w u F w' wr,
  sync_job w u F = (w', true, wr) ->
  if wr then st_phase (v_st w) = PhNone /\ w_st w' = init_status (v_spec w) (v_st w) /\ v_st w' = w_st w'
  else st_phase (v_st w') = st_phase (v_st w) /\ st_retry (v_st w') = st_retry (v_st w) /\ v_spec w' = v_spec w.
Proof.
  intros w u F w' wr H.
  destruct (sync_job_cases _ _ _ _ _ _ _ _ H) as [(-> & -> & _)|(w2 & b & refused & Eb & _ & Hend)]; [auto|].
  destruct (sync_base_proj _ _ _ _ _ _ Eb) as (B1 & B2 & _ & B4 & _). cbv zeta in Hend, B2, B4.
  assert (E : w' = w2 /\ wr = phase_beq (st_phase (v_st w)) PhNone)
    by (destruct Hend as [(-> & -> & _)|[(-> & _ & -> & _)|(_ & ? & _)]]; [auto|auto|discriminate]).
  destruct E as [-> ->]. rewrite B1, B2, B4. unfold sync_js.
  destruct (phase_beq (st_phase (v_st w)) PhNone) eqn:Ei; [apply phase_beq_true in Ei|]; auto.
Qed.

Lemma execute_err : forall w a r F w' wr,
  execute w a r F = (w', true, wr) ->
  if wr then st_phase (v_st w) = PhNone /\ w_st w' = init_status (v_spec w) (v_st w) /\ v_st w' = w_st w'
  else st_phase (v_st w') = st_phase (v_st w) /\ st_retry (v_st w') = st_retry (v_st w) /\ v_spec w' = v_spec w.
Proof.
  intros w a r F w' wr H. unfold execute in H.
  destruct (exec (st_phase (v_st w)) a) as [[|rt|] u]; [exact (sync_job_err _ _ _ _ _ H)| |];
    destruct (kill_pods_err _ _ _ _ _ _ _ _ H) as (-> & K); exact K.
Qed.

(* TerminateJob is a kill in every state, and a kill that wrote its status did not fail *)
Lemma exec_terminate_kill : forall p, exists rt u, exec p ATerminate = (KKill rt, u).
Proof. destruct p; cbn; eauto. Qed.

Lemma execute_terminate_wrote : forall w r F w' e,
  execute w ATerminate r F = (w', e, true) -> e = false.
Proof.
  intros w r F w' e H. unfold execute in H.
  destruct (exec_terminate_kill (st_phase (v_st w))) as (rt & u & E). rewrite E in H.
  destruct e; [|reflexivity]. destruct (kill_pods_err _ _ _ _ _ _ _ _ H) as [X _]. discriminate.
Qed.

Lemma step_req_failed : forall w r F w1 wr,
  step_req w r F = (w1, true, wr) ->
  execute (with_delays w (clean_pod_delay (c_delay (v_ctl w)) r)) (apply_policies (v_spec w) (v_st w) r) r F = (w1, true, wr).
Proof.
  intros w r F w1 wr H.
  destruct (step_req_cases _ _ _ _ _ _ H) as [(_ & _ & E & _)|(w1' & Hx & Hw & _)]; [discriminate|].
  rewrite (Hw eq_refl). exact Hx.
Qed.

Lemma step_req_err_wrote : forall w r F w1,
  step_req w r F = (w1, true, true) ->
  st_phase (v_st w) = PhNone /\ w_st w1 = init_status (v_spec w) (v_st w) /\ v_st w1 = w_st w1.
Proof. intros w r F w1 H. exact (execute_err _ _ _ _ _ _ (step_req_failed _ _ _ _ _ H)). Qed.

(* a processed request: either processNextReq without a give-up (the requeue counters aside), or a
   failed Execute followed by TerminateJob executed by the state object built before it *)
Inductive reqb_result (w : world) (r : req) (F : list fault) (w' : world) (e wr : bool) : Prop :=
| RB_plain : forall w1 q,
    step_req w r F = (w1, e, wr) -> w' = set_rq w1 q -> reqb_result w r F w' e wr
| RB_giveup : forall w1 wr1 w2 e2 wr2 q,
    step_req w r F = (w1, true, wr1) ->
    execute (giveup_world w w1 wr1 (apply_policies (v_spec w) (v_st w) r) r F) ATerminate r (giveup_faults F) = (w2, e2, wr2) ->
    w' = set_rq (with_vpods (if wr1 && negb wr2 then keep_view w1 w2 else w2) (v_pods w1)) q ->
    e = true -> wr = wr1 || wr2 -> reqb_result w r F w' e wr.

Lemma step_reqb_cases : forall w r F w' e wr,
  step_reqb w r F = (w', e, wr) -> reqb_result w r F w' e wr.
Proof.
  intros w r F w' e wr H. unfold step_reqb in H.
  destruct (step_req w r F) as [[w1 e1] wr1] eqn:Hs.
  destruct e1; cbn [negb] in H.
  - destruct ((q_max (c_rq (v_ctl w)) =? -1) || (rq_get r (q_cnt (c_rq (v_ctl w))) <? q_max (c_rq (v_ctl w)))).
    + inversion H; subst. eapply RB_plain; [exact Hs|reflexivity].
    + unfold give_up in H.
      destruct (execute _ ATerminate r (giveup_faults F)) as [[w2 e2] wr2] eqn:Hx.
      inversion H; subst. eapply RB_giveup; eauto.
  - inversion H; subst. eapply RB_plain; [exact Hs|reflexivity].
Qed.

(* the bookkeeping worlds differ from the plain ones only in what the status theorems never read *)
Lemma outcome_set_rq : forall sp k u w w' e wr q,
  outcome sp k u w w' e wr -> outcome sp k u w (set_rq w' q) e wr.
Proof. intros sp k u w w' e wr q O. destruct O. constructor; cbn in *; assumption. Qed.
Lemma outcome_vpods_l : forall sp k u w w' e wr l,
  outcome sp k u (with_vpods w l) w' e wr -> outcome sp k u w w' e wr.
Proof. intros sp k u w w' e wr l O. destruct O. constructor; cbn in *; assumption. Qed.

(* ---------- the phase moves only along the transition relation ---------- *)
Lemma phase_transition_allowed_gen : forall w a w' e wr,
  acted w a w' e wr -> In (st_phase (v_st w')) (allowed (st_phase (v_st w))).
Proof.
  intros w a w' e wr O. unfold acted in O.
  set (p := st_phase (v_st w)) in *.
  pose proof (tbl_targets_allowed_ok p a) as T. unfold tbl_targets_allowed in T.
  repeat rewrite andb_true_iff in T. destruct T as (((T1 & T2) & T3) & T4).
  rewrite forallb_forall in T1.
  assert (Hk : forall s', kept_core (v_st w) s' -> In (st_phase s') (allowed p)).
  { intros s' (_ & [E|E]); rewrite E; apply phase_in_In; assumption. }
  destruct (oc_core _ _ _ _ _ _ _ O) as [K|M]; [apply Hk; exact K|].
  destruct (moved_phase _ _ _ _ M) as [E|[E|E]].
  - rewrite E. apply phase_in_In; exact T2.
  - rewrite E. apply phase_in_In; exact T3.
  - apply phase_in_In. apply T1. exact E.
Qed.

(* ---------- Aborted is left only by a resume ---------- *)
Definition tbl_aborted (p : phase) (a : action) : bool :=
  match p with
  | PhAborted => if action_beq a AResume then true
                 else match upd_targets (snd (exec p a)) with [] => true | _ => false end
  | _ => true
  end.
Lemma tbl_aborted_ok : forall p a, tbl_aborted p a = true.
Proof. apply table_forall. vm_compute. reflexivity. Qed.

Lemma aborted_left_only_by_resume_gen : forall w a w' e wr,
  acted w a w' e wr ->
  st_phase (v_st w) = PhAborted -> st_phase (v_st w') <> PhAborted ->
  a = AResume /\ st_phase (v_st w') = PhRestarting.
Proof.
  intros w a w' e wr O Hab Hne. unfold acted in O.
  rewrite Hab in O.
  pose proof (tbl_aborted_ok PhAborted a) as T. cbn [tbl_aborted] in T.
  destruct (action_beq a AResume) eqn:Ea.
  - apply internal_action_dec_bl in Ea. split; auto. rewrite Ea in O. cbn in O.
    destruct (oc_core _ _ _ _ _ _ _ O) as [(_ & [E|E])|M]; try (rewrite Hab in E; cbn in E; congruence).
    destruct (moved_phase _ _ _ _ M) as [E|[E|E]]; try (rewrite Hab in E; cbn in E; congruence).
    cbn in E. destruct E as [E|[]]. auto.
  - exfalso. destruct (upd_targets (snd (exec PhAborted a))) eqn:Et; [|discriminate].
    destruct (oc_core _ _ _ _ _ _ _ O) as [(_ & [E|E])|M]; try (rewrite Hab in E; cbn in E; congruence).
    destruct (moved_phase _ _ _ _ M) as [E|[E|E]]; try (rewrite Hab in E; cbn in E; congruence).
    rewrite Et in E. destruct E.
Qed.

(* ---------- the retry count moves by +1, exactly when entering Restarting ---------- *)
Definition tbl_restart (p : phase) (a : action) : bool :=
  let u := snd (exec p a) in
  (* only URestart leads into Restarting from another phase, and it is never used in Restarting *)
  (if phase_in PhRestarting (upd_targets u) then is_restart u || phase_beq p PhRestarting else true) &&
  (if is_restart u then negb (phase_beq p PhRestarting) else true).
Lemma tbl_restart_ok : forall p a, tbl_restart p a = true.
Proof. apply table_forall. vm_compute. reflexivity. Qed.

Lemma retry_increments_once_gen : forall w a w' e wr,
  acted w a w' e wr ->
  let s := v_st w in let s' := v_st w' in
  (st_retry s' = st_retry s \/
   (st_retry s' = st_retry s + 1 /\ st_phase s' = PhRestarting /\ st_phase s <> PhRestarting)) /\
  (st_phase s <> PhRestarting -> st_phase s' = PhRestarting -> st_retry s' = st_retry s + 1).
Proof.
  intros w a w' e wr O s s'. subst s s'. unfold acted in O.
  pose proof (tbl_restart_ok (st_phase (v_st w)) a) as T. unfold tbl_restart in T.
  apply andb_true_iff in T. destruct T as [T1 T2].
  set (u := snd (exec (st_phase (v_st w)) a)) in *.
  destruct (oc_core _ _ _ _ _ _ _ O) as [(Kr & Kp)|M].
  - split; [left; exact Kr|]. intros Hne Hre. exfalso.
    destruct Kp as [E|E]; rewrite Hre in E.
    + congruence.
    + destruct (st_phase (v_st w)); cbn in E; congruence.
  - split.
    + destruct (moved_retry _ _ _ _ M) as [E|(Eu & Er & Ep)]; [left; exact E|].
      right. repeat split; auto. rewrite Eu in T2. cbn in T2.
      intro Hc. rewrite Hc in T2. discriminate.
    + intros Hne Hre. destruct (moved_retry _ _ _ _ M) as [E|(Eu & Er & Ep)]; [|exact Er].
      exfalso. destruct (moved_phase _ _ _ _ M) as [Ep|[Ep|Ep]].
      * congruence.
      * rewrite Hre in Ep. destruct (st_phase (v_st w)); cbn in Ep; congruence.
      * rewrite Hre in Ep. apply phase_in_In in Ep. rewrite Ep in T1.
        apply orb_true_iff in T1. destruct T1 as [T1|T1].
        -- destruct M as (b & Hr & Hp & Hp' & Hr').
           destruct u; try discriminate. cbn in Hr'. lia.
        -- apply phase_beq_true in T1. congruence.
Qed.

(* ---------- maxRetry reached => Failed, never restarted again ---------- *)
Lemma exec_restarting : forall a, snd (exec PhRestarting a) = URestarting.
Proof. destruct a; reflexivity. Qed.

Lemma maxretry_fails_gen : forall w a w' e wr,
  acted w a w' e wr ->
  st_phase (v_st w) = PhRestarting -> s_maxretry (v_spec w) <= st_retry (v_st w) ->
  (st_phase (v_st w') = PhRestarting \/ st_phase (v_st w') = PhFailed) /\
  (wr = true -> e = false -> st_phase (v_st w') = PhFailed /\ st_phase (w_st w') = PhFailed).
Proof.
  intros w a w' e wr O Hre Hmax. unfold acted in O.
  rewrite Hre, exec_restarting in O.
  assert (HM : forall s', moved (v_spec w) URestarting (v_st w) s' -> st_phase s' = PhFailed).
  { intros s' (b & Hr & Hp & Hp' & Hr'). rewrite Hp'. cbn.
    assert (E : (s_maxretry (v_spec w) <=? st_retry b) = true) by (apply Z.leb_le; lia).
    rewrite E. destruct b; reflexivity. }
  split.
  - destruct (oc_core _ _ _ _ _ _ _ O) as [(_ & [E|E])|M].
    + left; congruence.
    + left. rewrite E, Hre. reflexivity.
    + right. apply HM; exact M.
  - intros Hw He. destruct (oc_written _ _ _ _ _ _ _ O Hw He) as [M Eq].
    split; [apply HM; exact M|]. rewrite Eq. apply HM; exact M.
Qed.

(* ---------- the same facts for a processed request and for an expiring delayed action ---------- *)
Theorem phase_transition_allowed : forall w r F w' e wr,
  step_req w r F = (w', e, wr) -> In (st_phase (v_st w')) (allowed (st_phase (v_st w))).
Proof. intros. eapply phase_transition_allowed_gen. eapply step_req_outcome; eauto. Qed.

Theorem aborted_left_only_by_resume : forall w r F w' e wr,
  step_req w r F = (w', e, wr) ->
  st_phase (v_st w) = PhAborted -> st_phase (v_st w') <> PhAborted ->
  apply_policies (v_spec w) (v_st w) r = AResume /\ st_phase (v_st w') = PhRestarting.
Proof. intros. eapply aborted_left_only_by_resume_gen; eauto. eapply step_req_outcome; eauto. Qed.

Theorem retry_increments_once : forall w r F w' e wr,
  step_req w r F = (w', e, wr) ->
  let s := v_st w in let s' := v_st w' in
  (st_retry s' = st_retry s \/
   (st_retry s' = st_retry s + 1 /\ st_phase s' = PhRestarting /\ st_phase s <> PhRestarting)) /\
  (st_phase s <> PhRestarting -> st_phase s' = PhRestarting -> st_retry s' = st_retry s + 1).
Proof. intros w r F w' e wr H. eapply retry_increments_once_gen. eapply step_req_outcome; eauto. Qed.

Theorem maxretry_fails : forall w r F w' e wr,
  step_req w r F = (w', e, wr) ->
  st_phase (v_st w) = PhRestarting -> s_maxretry (v_spec w) <= st_retry (v_st w) ->
  (st_phase (v_st w') = PhRestarting \/ st_phase (v_st w') = PhFailed) /\
  (wr = true -> e = false -> st_phase (v_st w') = PhFailed /\ st_phase (w_st w') = PhFailed).
Proof. intros. eapply maxretry_fails_gen; eauto. eapply step_req_outcome; eauto. Qed.

(* ---------- a request of an older job version is answered by a sync ---------- *)
Theorem stale_request_syncs : forall sp st r,
  r_action r = None -> r_version r < st_version st -> apply_policies sp st r = ASync.
Proof.
  intros sp st r Ha Hv. unfold apply_policies, apply_policies_d. rewrite Ha.
  destruct (is_internal_event (r_event r)); auto. destruct (r_uid r =? 0); auto.
  assert (E : (r_version r <? st_version st) = true) by (apply Z.ltb_lt; exact Hv). rewrite E. reflexivity.
Qed.

Theorem explicit_action_wins : forall sp st r a, r_action r = Some a -> apply_policies sp st r = a.
Proof. intros. unfold apply_policies, apply_policies_d. rewrite H. reflexivity. Qed.

(* ---------- a failed reconciliation leaves no partial status on the API server ---------- *)
Theorem api_fault_no_partial_status : forall w r F w' wr,
  step_req w r F = (w', true, wr) ->
  w_st w' = w_st w \/ (st_phase (v_st w) = PhNone /\ w_st w' = init_status (v_spec w) (v_st w)).
Proof.
  intros w r F w' wr H. pose proof (step_req_outcome _ _ _ _ _ _ H) as O. unfold acted in O.
  apply (oc_fault _ _ _ _ _ _ _ O). reflexivity.
Qed.

(* ---------- versions ---------- *)
Lemma version_step_gen : forall w a w' e wr,
  acted w a w' e wr -> st_version (v_st w) <= st_version (v_st w') <= st_version (v_st w) + 1.
Proof.
  intros w a w' e wr O. unfold acted in O.
  destruct (oc_version _ _ _ _ _ _ _ O) as [E|[_ E]]; rewrite E; lia.
Qed.

(* ---------- pods are never created by a kill ---------- *)
Lemma pod_ids_api_delete : forall t i l, pod_ids (api_delete t i l) = pod_ids l.
Proof. intros. apply pod_ids_update_pod. intros p; split; reflexivity. Qed.
Lemma pod_ids_api_patch : forall t i l, pod_ids (api_patch_oos t i l) = pod_ids l.
Proof. intros. apply pod_ids_update_pod. intros p; split; reflexivity. Qed.

Lemma kill_effects_ids : forall F kill api, pod_ids (kill_effects F kill api) = pod_ids api.
Proof.
  intros F kill. unfold kill_effects. induction kill as [|p kill IH]; intros api; cbn [fold_left]; auto.
  rewrite IH. destruct (fails_patch F (p_task p) (p_idx p)); auto.
  destruct (p_del p || fails_delete F (p_task p) (p_idx p)).
  - apply pod_ids_api_patch.
  - rewrite pod_ids_api_delete. apply pod_ids_api_patch.
Qed.

Lemma kill_pods_ids : forall fixed w rt tg u F w' e wr,
  kill_pods_gen fixed w rt tg u F = (w', e, wr) -> pod_ids (w_pods w') = pod_ids (w_pods w).
Proof.
  intros fixed w rt tg u F w' e wr H.
  destruct (kill_pods_cases _ _ _ _ _ _ _ _ _ H) as [(-> & _)|(kill & term0 & _ & -> & _)]; [reflexivity|].
  apply kill_effects_ids.
Qed.

(* ---------- final phases are absorbing, over every history ---------- *)
Definition final_inv (w : world) : Prop :=
  is_final (st_phase (v_st w)) = true /\ st_phase (w_st w) = st_phase (v_st w).

Lemma exec_final : forall p a, is_final p = true -> exec p a = (KKill RSoft, UNil).
Proof. destruct p; cbn; intros; try discriminate; reflexivity. Qed.

(* a job deleted and re-created under the same name is a new job *)
Definition same_job (o : op) : Prop := match o with OReplaceJob _ => False | _ => True end.

Lemma execute_final_ids : forall w a r F w' e wr,
  is_final (st_phase (v_st w)) = true -> execute w a r F = (w', e, wr) -> pod_ids (w_pods w') = pod_ids (w_pods w).
Proof.
  intros w a r F w' e wr Hf H. unfold execute in H. rewrite (exec_final _ _ Hf) in H.
  apply (kill_pods_ids true _ _ _ _ _ _ _ _ H).
Qed.

Lemma step_req_final_ids : forall w r F w' e wr,
  is_final (st_phase (v_st w)) = true -> step_req w r F = (w', e, wr) -> pod_ids (w_pods w') = pod_ids (w_pods w).
Proof.
  intros w r F w' e wr Hf H.
  destruct (step_req_cases _ _ _ _ _ _ H) as [(d & -> & _)|(w1 & Hx & _ & d & ->)]; [reflexivity|].
  exact (execute_final_ids (with_delays w _) _ _ _ _ _ _ Hf Hx).
Qed.

Lemma fire_final_ids : forall w w' e wr,
  is_final (st_phase (v_st w)) = true -> fire w = (w', e, wr) -> pod_ids (w_pods w') = pod_ids (w_pods w).
Proof.
  intros w w' e wr Hf H.
  destruct (fire_cases _ _ _ _ H) as [(d & -> & _)|(t & rest & w1 & e1 & d & _ & Hx & ->)]; [reflexivity|].
  exact (execute_final_ids (with_delays w _) _ _ _ _ _ _ Hf Hx).
Qed.

Lemma pod_ids_remove : forall t i l, incl (pod_ids (remove_pod t i l)) (pod_ids l).
Proof.
  intros t i l x Hx. unfold pod_ids, remove_pod in *. apply in_map_iff in Hx. destruct Hx as (p & <- & Hp).
  apply filter_In in Hp. apply in_map_iff. exists p. tauto.
Qed.

(* a step of a history is a processed request, an expiring timer, or the environment moving: pod and
   PodGroup events, deliveries, spec updates, restarts, the resync worker.  The environment writes no job
   status; only the delivery of the job changes the cached one, to what the API server holds; it creates
   no pod *)
Lemma step_kinds : forall w o w' e wr,
  step w o = (w', e, wr) -> same_job o ->
  match o with
  | OReq r F => step_reqb w r F = (w', e, wr)
  | OFire => fire w = (w', e, wr)
  | _ => w_st w' = w_st w /\ (v_st w' = v_st w \/ v_st w' = w_st w) /\
         incl (pod_ids (w_pods w')) (pod_ids (w_pods w))
  end.
Proof.
  intros w o w' e wr H Hsj. destruct o; cbn in H; try exact H; try destruct Hsj.
  all: try (inversion H; subst; clear H; cbn; auto using incl_refl, pod_ids_remove; fail).
  - inversion H; subst. cbn. rewrite pod_ids_update_pod; [auto using incl_refl|intros p; split; reflexivity].
  - inversion H; subst. cbn. rewrite pod_ids_api_delete. auto using incl_refl.
  - inversion H; subst. destruct (w_pg w); cbn; auto using incl_refl.
  - destruct (c_job (v_ctl w) && negb (c_dirty (v_ctl w))); inversion H; subst; cbn; auto using incl_refl.
  - destruct (find_pod t i (w_pods w)); [destruct race|]; inversion H; subst; cbn;
      auto using incl_refl, pod_ids_remove.
Qed.

(* an action executed in a final phase keeps the phase, on both sides *)
Lemma acted_final : forall w a w' e wr,
  final_inv w -> acted w a w' e wr -> final_inv w' /\ st_phase (v_st w') = st_phase (v_st w).
Proof.
  intros w a w' e wr [Hf He] O. unfold acted in O. rewrite (exec_final _ a Hf) in O. cbn [fst snd] in O.
  assert (Hp : st_phase (v_st w') = st_phase (v_st w)).
  { assert (Hs : start_phase (st_phase (v_st w)) = st_phase (v_st w))
      by (destruct (st_phase (v_st w)); try discriminate; reflexivity).
    destruct (oc_core _ _ _ _ _ _ _ O) as [(_ & [E|E])|(b & _ & Hb & Hb' & _)]; try congruence.
    cbn in Hb'. destruct Hb; congruence. }
  split; auto. split; [congruence|].
  destruct (oc_api _ _ _ _ _ _ _ O) as [E|[E|[E _]]]; try congruence.
  rewrite E in Hf. discriminate.
Qed.

Lemma final_step : forall w o w' e wr,
  final_inv w -> same_job o -> step w o = (w', e, wr) ->
  final_inv w' /\ st_phase (v_st w') = st_phase (v_st w) /\
  incl (pod_ids (w_pods w')) (pod_ids (w_pods w)).
Proof.
  intros w o w' e wr Hinv Hsj H. pose proof Hinv as [Hf He]. pose proof (step_kinds _ _ _ _ _ H Hsj) as C.
  destruct o;
    try (destruct C as (Ew & Ev & Ei); unfold final_inv; rewrite Ew; destruct Ev as [->| ->]; rewrite ?He; auto).
  - (* a request, with its error path *)
    destruct (step_reqb_cases _ _ _ _ _ _ C) as [w1 q Hs ->|w1 wr1 w2 e2 wr2 q Hs Hx -> _ _].
    + destruct (acted_final _ _ _ _ _ Hinv (step_req_outcome _ _ _ _ _ _ Hs)) as [A B].
      unfold final_inv in *. cbn [set_rq v_st w_st w_pods].
      repeat split; try apply A; auto. rewrite (step_req_final_ids _ _ _ _ _ _ Hf Hs). apply incl_refl.
    + (* the controller gives up: TerminateJob through the state of the final phase changes nothing *)
      destruct wr1.
      { destruct (step_req_err_wrote _ _ _ _ Hs) as [Hn _]. rewrite Hn in Hf. discriminate. }
      destruct (acted_final _ _ _ _ _ Hinv (step_req_outcome _ _ _ _ _ _ Hs)) as [A B].
      pose proof (execute_outcome _ _ _ _ _ _ _ Hx) as O2.
      destruct (acted_final (giveup_world w w1 false _ _ _) _ _ _ _ A O2) as [A2 B2].
      pose proof (execute_final_ids (giveup_world w w1 false _ _ _) _ _ _ _ _ _ (proj1 A) Hx) as I2.
      cbn [andb]. unfold final_inv in *. cbn [set_rq with_vpods v_st w_st w_pods].
      cbn [giveup_world with_vpods v_st w_st w_pods] in B2, I2.
      repeat split; try apply A2; try congruence.
      rewrite I2, (step_req_final_ids _ _ _ _ _ _ Hf Hs). apply incl_refl.
  - (* a delayed action expires *)
    destruct (fire_outcome _ _ _ _ C) as (a & e0 & O).
    destruct (acted_final _ _ _ _ _ Hinv O) as [A B].
    repeat split; try apply A; auto. rewrite (fire_final_ids _ _ _ _ Hf C). apply incl_refl.
Qed.

Lemma run_cons : forall w o ops, run w (o :: ops) = run (fst (fst (step w o))) ops.
Proof. reflexivity. Qed.

Theorem final_phases_absorbing : forall ops w,
  Forall same_job ops ->
  is_final (st_phase (v_st w)) = true -> st_phase (w_st w) = st_phase (v_st w) ->
  let w' := run w ops in
  st_phase (v_st w') = st_phase (v_st w) /\ st_phase (w_st w') = st_phase (v_st w) /\
  incl (pod_ids (w_pods w')) (pod_ids (w_pods w)).
Proof.
  induction ops as [|o ops IH]; intros w Hsj Hf He.
  - cbn. repeat split; auto using incl_refl.
  - inversion Hsj as [|? ? Ho Hsj']; subst.
    cbv zeta. rewrite run_cons. destruct (step w o) as [[w1 e] wr] eqn:Hs. cbn [fst].
    destruct (final_step w o w1 e wr (conj Hf He) Ho Hs) as ([Hf1 He1] & Hp & Hi).
    destruct (IH w1 Hsj' Hf1 He1) as (A & B & C). repeat split; try congruence.
    eapply incl_tran; eauto.
Qed.

(* ---------- the version on the API server never goes back, over every history ---------- *)
Definition ver_inv (w : world) : Prop := st_version (w_st w) <= st_version (v_st w).

Lemma acted_ver : forall w a w' e wr,
  st_version (w_st w) <= st_version (v_st w) -> acted w a w' e wr ->
  st_version (w_st w') <= st_version (v_st w') /\ st_version (w_st w) <= st_version (w_st w').
Proof.
  intros w a w' e wr Hi O. pose proof (version_step_gen _ _ _ _ _ O) as V. unfold acted in O.
  destruct (oc_api _ _ _ _ _ _ _ O) as [E|[E|[_ E]]]; rewrite E; cbn; lia.
Qed.

Lemma ver_step : forall w o w' e wr,
  ver_inv w -> same_job o -> step w o = (w', e, wr) -> ver_inv w' /\ st_version (w_st w) <= st_version (w_st w').
Proof.
  intros w o w' e wr Hi Hsj H. unfold ver_inv in *. pose proof (step_kinds _ _ _ _ _ H Hsj) as C.
  destruct o; try (destruct C as (Ew & Ev & _); rewrite Ew; destruct Ev as [->| ->]; lia).
  - destruct (step_reqb_cases _ _ _ _ _ _ C) as [w1 q Hs ->|w1 wr1 w2 e2 wr2 q Hs Hx -> _ _].
    + exact (acted_ver _ _ _ _ _ Hi (step_req_outcome _ _ _ _ _ _ Hs)).
    + (* the controller gives up *)
      destruct (acted_ver _ _ _ _ _ Hi (step_req_outcome _ _ _ _ _ _ Hs)) as [A B].
      pose proof (execute_outcome _ _ _ _ _ _ _ Hx) as O2.
      destruct wr1.
      * destruct (step_req_err_wrote _ _ _ _ Hs) as (Hn & Hw & Hv).
        assert (Hg : st_version (init_status (v_spec w) (v_st w)) <= st_version (v_st w)) by (cbn; lia).
        rewrite <- Hw in Hg. destruct (acted_ver (giveup_world w w1 true _ _ _) _ _ _ _ Hg O2) as [A2 B2].
        cbn [giveup_world with_vpods stale_view v_st w_st] in B2.
        destruct wr2; cbn [andb negb set_rq with_vpods keep_view v_st w_st].
        -- split; [exact A2|]. rewrite Hw in B2. cbn in B2. lia.
        -- unfold acted in O2. rewrite (oc_silent _ _ _ _ _ _ _ O2 eq_refl).
           cbn [giveup_world with_vpods stale_view v_st w_st]. split; lia.
      * destruct (acted_ver (giveup_world w w1 false _ _ _) _ _ _ _ A O2) as [A2 B2].
        cbn [andb set_rq with_vpods v_st w_st]. cbn [giveup_world with_vpods v_st w_st] in B2. split; [exact A2|lia].
  - destruct (fire_outcome _ _ _ _ C) as (a & e0 & O). exact (acted_ver _ _ _ _ _ Hi O).
Qed.

Theorem version_monotone : forall ops w,
  Forall same_job ops ->
  st_version (w_st w) <= st_version (v_st w) ->
  st_version (w_st w) <= st_version (w_st (run w ops)) /\
  st_version (w_st (run w ops)) <= st_version (v_st (run w ops)).
Proof.
  induction ops as [|o ops IH]; intros w Hsj Hi.
  - cbn. split; [lia|exact Hi].
  - inversion Hsj as [|? ? Ho Hsj']; subst.
    rewrite run_cons. destruct (step w o) as [[w1 e] wr] eqn:Hs. cbn [fst].
    destruct (ver_step w o w1 e wr Hi Ho Hs) as [Hi1 Hle].
    destruct (IH w1 Hsj' Hi1) as [A B]. split; [lia|exact B].
Qed.

(* ---------- counters partition: the worlds on which the code before each fix failed.  Here the fixed
   functions satisfy the law on them; Props/C05.v refutes the earlier ones ---------- *)
Definition fresh_world (w : world) : Prop :=
  v_pods w = w_pods w /\ v_st w = w_st w /\ v_spec w = w_spec w /\ v_pg w = w_pg w.

(* the counters clause with the per-task table included ([partition_ok]); stated, not proved: the
   counters theorems (C05/Partition.v) are about st_cnt and st_term *)
Definition counters_partition_statement : Prop :=
  forall w r w' wr, fresh_world w -> step_req w r [] = (w', false, wr) -> wr = true ->
    partition_ok (w_st w') (w_pods w') = true.

Definition one_task_spec : spec := mkSpec [mkTask 1 1 (Some 1) [] None] 1 None 3 [].
Definition sync_req : req := mkReq EOutOfSync None None None 0 0 1.

(* F2: a Completed job with its retained Succeeded pod; the next sync request
   makes finishedState kill the job and write succeeded = 0 *)
Definition f2_world : world :=
  init_world one_task_spec
    (mkStatus PhCompleted 0 0 1 (mkC 0 0 1 0 0) 0 [(1%positive, mkC 0 0 1 0 0)] false false)
    [mkPod 1 0 PSucceeded false false] (Some PgRunning).

(* the PRE-FIX syncJob (before "fix: syncJob recounts the pods while the PodGroup is not admitted")
   wrote a phase change on top of stale counters: Restarting, retryCount >= maxRetry, terminating = 1
   left by the kill, no pod exists any more => Failed written with terminating = 1.
   The fixed function writes terminating = 0 on the same input. *)
Definition pgpending_world : world :=
  init_world one_task_spec
    (mkStatus PhRestarting 3 1 1 c0 1 [] false true) [] None.
Example pgpending_counters_fixed_on_witness :
  exists w', step_req pgpending_world sync_req [] = (w', false, true) /\
             partition_ok (w_st w') (w_pods w') = true /\ st_phase (w_st w') = PhFailed /\ st_term (w_st w') = 0.
Proof. eexists. split; [vm_compute; reflexivity|]. repeat split. Qed.

Example killpods_counters_fixed_on_witness :
  exists w', step_req f2_world sync_req [] = (w', false, true) /\
             partition_ok (w_st w') (w_pods w') = true /\ st_cnt (w_st w') = mkC 0 0 1 0 0.
Proof. eexists. split; [vm_compute; reflexivity|]. split; reflexivity. Qed.

(* the PRE-FIX syncJob counted a live out-of-sync pod by its phase AND as terminating *)
Definition oos_world : world :=
  init_world one_task_spec
    (mkStatus PhRunning 0 0 1 (mkC 0 1 0 0 0) 0 [(1%positive, mkC 0 1 0 0 0)] false false)
    [mkPod 1 0 PRunning false true] (Some PgRunning).
Example sync_counters_fixed_on_witness :
  exists w', step_req oos_world sync_req [] = (w', false, true) /\ partition_ok (w_st w') (w_pods w') = true.
Proof. eexists. split; vm_compute; reflexivity. Qed.

(* the PRE-FIX syncJob (before "fix: initJobStatus returns a copy ...") kept the
   unwritten status in the job cache when the final UpdateStatus of a first sync
   failed; the next sync saw no change and never corrected the API server *)
Definition leak_world : world :=
  init_world one_task_spec (mkStatus PhNone 0 0 0 c0 0 [] true false)
    [mkPod 1 0 PRunning false false] (Some PgRunning).
Example cache_status_leak_fixed_on_witness :
  exists w1 w2,
    sync_job leak_world UPendingSync [FStatus 1] = (w1, true, true) /\ v_st w1 = w_st w1 /\
    step_req w1 sync_req [] = (w2, false, true) /\ partition_ok (w_st w2) (w_pods w2) = true.
Proof.
  eexists. eexists. split; [vm_compute; reflexivity|]. split; [reflexivity|].
  split; vm_compute; reflexivity.
Qed.

(* ---------- non-vacuity ---------- *)
Example final_inv_nonvacuous :
  final_inv f2_world /\
  st_phase (v_st (run f2_world [OReq sync_req []; OSyncPods; OReq sync_req [FStatus 0]])) = PhCompleted.
Proof. split; [split; reflexivity|vm_compute; reflexivity]. Qed.

Example maxretry_nonvacuous :
  let w := init_world one_task_spec (mkStatus PhRestarting 3 1 1 c0 1 [] false true) [] None in
  st_phase (v_st w) = PhRestarting /\ s_maxretry (v_spec w) <= st_retry (v_st w) /\
  exists w', step_req w sync_req [] = (w', false, true) /\ st_phase (w_st w') = PhFailed.
Proof.
  cbv zeta. split; [reflexivity|]. split; [cbn; lia|].
  eexists. split; [vm_compute; reflexivity|reflexivity].
Qed.

Example aborted_nonvacuous :
  let w := init_world one_task_spec (mkStatus PhAborted 0 1 1 c0 0 [] false true) [] None in
  let r := mkReq ECommandIssued (Some AResume) None None 0 0 1 in
  exists w', step_req w r [] = (w', false, true) /\ st_phase (v_st w') = PhRestarting /\ st_retry (v_st w') = 1.
Proof. eexists. split; [vm_compute; reflexivity|]. split; reflexivity. Qed.

Example fault_nonvacuous :
  let w := init_world one_task_spec (mkStatus PhNone 0 0 0 c0 0 [] true false) [] (Some PgRunning) in
  exists w', step_req w sync_req [FCreate 1 0] = (w', true, true) /\
             w_st w' = init_status one_task_spec (v_st w) /\ w_pods w' = [].
Proof. eexists. split; [vm_compute; reflexivity|]. split; reflexivity. Qed.

(* non-vacuity of the delayed-action theorems: PodPending -> RestartJob after a timeout; the pod
   succeeds and the job completes; then the timer expires: the job stays Completed *)
Definition delayed_spec : spec :=
  mkSpec [mkTask 1 1 (Some 1) [] None] 1 None 3 [mkPolicy [EPodPending] ARestartJob None 2].
Example delayed_action_example :
  let w := init_world delayed_spec (mkStatus PhRunning 0 0 1 (mkC 1 0 0 0 0) 0 [(1%positive, mkC 1 0 0 0 0)] false false)
                      [mkPod 1 0 PPending false false] (Some PgRunning) in
  let pending := mkReq EPodPending None (Some 1%positive) (Some (1%positive, 0)) 0 0 2 in
  let w1 := run w [OReq pending []] in
  length (d_queue (c_delay (v_ctl w1))) = 1%nat /\ st_phase (v_st w1) = PhRunning /\
  let w2 := run w1 [OPodPhase 1 0 PSucceeded; OSyncPods; OReq sync_req []] in
  st_phase (v_st w2) = PhCompleted /\
  let w3 := run w2 [OFire] in
  st_phase (v_st w3) = PhCompleted /\ st_retry (v_st w3) = 0 /\ d_queue (c_delay (v_ctl w3)) = [] /\
  (* the same timer on a job that is still Running restarts it *)
  st_phase (v_st (run w1 [OFire])) = PhRestarting /\ st_retry (v_st (run w1 [OFire])) = 1.
Proof. vm_compute. repeat split. Qed.

(* observation (no law of C05 is involved): a timer that expires while the job cache has no Job
   returns without cleaning its map entry; once the job is known again (re-created under the same
   name) the same policy for the same pod is "already armed" and no timer is started any more *)
Example stale_delay_entry_blocks_rearming :
  let w := init_world delayed_spec (mkStatus PhRunning 0 0 1 (mkC 1 0 0 0 0) 0 [(1%positive, mkC 1 0 0 0 0)] false false)
                      [mkPod 1 0 PPending false false] (Some PgRunning) in
  let pending := mkReq EPodPending None (Some 1%positive) (Some (1%positive, 0)) 0 0 2 in
  let w1 := run w [OReq pending []; OReplaceJob delayed_spec; OFire; OSyncJob; OReq pending []] in
  length (d_map (c_delay (v_ctl w1))) = 1%nat /\ d_queue (c_delay (v_ctl w1)) = [] /\
  (* whereas a timer armed for the OLD incarnation that expires after the re-creation acts on the NEW job *)
  let w2 := run w [OReq pending []; OReplaceJob delayed_spec; OSyncJob; OReq sync_req []; OFire] in
  st_phase (v_st w2) = PhRestarting /\ st_retry (v_st w2) = 1.
Proof. vm_compute. repeat split. Qed.

(* ---------- the Running-state decision: the model's closure IS the stated verdict ---------- *)
Lemma task_short_some : forall sp s, existsb (task_short s) (s_tasks sp) = some_task_short sp (st_tsc s).
Proof.
  intros. unfold some_task_short. apply existsb_ext'. intros t. unfold task_short.
  destruct (t_min t); auto.
Qed.

Theorem running_sync_verdict : forall sp s,
  running_sync sp s = match running_verdict sp (st_cnt s) (st_tsc s) with Some p => set_phase s p | None => s end.
Proof.
  intros sp s. unfold running_sync, running_verdict, minsucc_reached. rewrite task_short_some.
  destruct (total_replicas sp =? 0); auto.
  destruct (s_minsucc sp) as [m|].
  - destruct (m <=? cS (st_cnt s)) eqn:E1; auto.
    destruct (cS (st_cnt s) + cF (st_cnt s) =? total_replicas sp); [|destruct (_ <? _); reflexivity].
    destruct (_ && _); auto.
    assert (E2 : (cS (st_cnt s) <? m) = true) by (apply Z.ltb_lt; apply Z.leb_gt in E1; exact E1).
    rewrite E2. reflexivity.
  - destruct (cS (st_cnt s) + cF (st_cnt s) =? total_replicas sp); [|destruct (_ <? _); reflexivity].
    destruct (_ && _); auto. destruct (_ <=? _); reflexivity.
Qed.

(* non-vacuity: tasks a, b with 2 replicas and minAvailable 1, job minAvailable 2 = the sum; both pods
   of a succeeded, both of b failed: Failed, although the job-wide succeeded count reaches minAvailable *)
Example running_boundary_example :
  let sp := mkSpec [mkTask 1 2 (Some 1) [] None; mkTask 2 2 (Some 1) [] None] 2 None 3 [] in
  let s := mkStatus PhRunning 0 0 2 (mkC 0 0 2 2 0) 0 [(1%positive, mkC 0 0 2 0 0); (2%positive, mkC 0 0 0 2 0)] false false in
  total_task_min sp = s_min sp /\ st_phase (running_sync sp s) = PhFailed /\
  st_phase (running_sync (mkSpec (s_tasks sp) 1 None 3 []) s) = PhCompleted.
Proof. vm_compute. repeat split. Qed.

(* ---------- the phase sequence the API SERVER shows, over every history ---------- *)
Definition phase_agree (w : world) : Prop := st_phase (w_st w) = st_phase (v_st w).

Lemma acted_api_phase : forall w a w' e wr,
  phase_agree w -> acted w a w' e wr ->
  phase_agree w' /\ In (st_phase (w_st w')) (allowed (st_phase (w_st w))).
Proof.
  intros w a w' e wr Hag O. pose proof (phase_transition_allowed_gen _ _ _ _ _ O) as Hal.
  unfold acted in O. pose proof (oc_agree _ _ _ _ _ _ _ O Hag) as Hag'. split; [exact Hag'|].
  unfold phase_agree in *. rewrite Hag', Hag. exact Hal.
Qed.

Lemma allowed_refl : forall p, In p (allowed p).
Proof. destruct p; cbn; tauto. Qed.

Lemma step_api_phase : forall w o w' e wr,
  phase_agree w -> same_job o -> step w o = (w', e, wr) ->
  phase_agree w' /\ In (st_phase (w_st w')) (allowed (st_phase (w_st w))).
Proof.
  intros w o w' e wr Hag Hsj H. pose proof (step_kinds _ _ _ _ _ H Hsj) as C.
  destruct o;
    try (destruct C as (Ew & Ev & _); unfold phase_agree in *; rewrite Ew; destruct Ev as [->| ->];
         split; auto using allowed_refl).
  - destruct (step_reqb_cases _ _ _ _ _ _ C) as [w1 q Hs ->|w1 wr1 w2 e2 wr2 q Hs Hx -> _ _].
    + exact (acted_api_phase _ _ _ _ _ Hag (step_req_outcome _ _ _ _ _ _ Hs)).
    + (* the controller gives up: TerminateJob through the state object built before the failed Execute *)
      pose proof (step_req_outcome _ _ _ _ _ _ Hs) as O1.
      destruct (acted_api_phase _ _ _ _ _ Hag O1) as [A1 B1].
      pose proof (execute_outcome _ _ _ _ _ _ _ Hx) as O2.
      destruct wr1.
      * destruct (step_req_err_wrote _ _ _ _ Hs) as (Hn & Hw & Hv).
        assert (Hn' : st_phase (w_st w) = PhNone) by (unfold phase_agree in Hag; congruence).
        destruct wr2; cbn [andb negb]; unfold phase_agree; cbn [set_rq with_vpods keep_view v_st w_st].
        -- pose proof (execute_terminate_wrote _ _ _ _ _ Hx) as He2. subst e2.
           pose proof (phase_transition_allowed_gen _ _ _ _ _ O2) as T.
           cbn [giveup_world with_vpods stale_view v_st] in T. rewrite Hn in T.
           unfold acted in O2. destruct (oc_written _ _ _ _ _ _ _ O2 eq_refl eq_refl) as [_ E].
           rewrite E, Hn'. split; [reflexivity|exact T].
        -- unfold acted in O2. rewrite (oc_silent _ _ _ _ _ _ _ O2 eq_refl).
           cbn [giveup_world with_vpods stale_view v_st w_st]. split; [congruence|].
           rewrite Hw, Hn'. cbn. tauto.
      * destruct (acted_api_phase (giveup_world w w1 false _ _ _) _ _ _ _ A1 O2) as [A2 B2].
        cbn [giveup_world with_vpods w_st] in B2.
        unfold acted in O1. rewrite (oc_silent _ _ _ _ _ _ _ O1 eq_refl) in B2.
        cbn [andb]. split; [exact A2|exact B2].
  - destruct (fire_outcome _ _ _ _ C) as (a & e0 & O). exact (acted_api_phase _ _ _ _ _ Hag O).
Qed.

(* every consecutive pair of a phase sequence is a transition of the relation *)
Fixpoint phase_chain (p : phase) (l : list phase) : Prop :=
  match l with [] => True | q :: r => In q (allowed p) /\ phase_chain q r end.

Definition api_phases (w : world) (ops : list op) : list phase :=
  map (fun x => st_phase (w_st (fst (fst x)))) (trace w ops).

Example api_phase_history_nonvacuous :
  phase_agree f2_world /\
  api_phases f2_world [OReq sync_req []; OFire; ORestart; OSyncJob] = [PhCompleted; PhCompleted; PhCompleted; PhCompleted] /\
  let w := init_world one_task_spec (mkStatus PhNone 0 0 0 c0 0 [] true false) [] None in
  api_phases w [OReq sync_req []; OPgPhase PgRunning; OSyncPg; OReq sync_req []; OPodPhase 1 0 PSucceeded; OSyncPods;
                OReq sync_req []; OReq sync_req []] =
  [PhPending; PhPending; PhPending; PhPending; PhPending; PhPending; PhRunning; PhCompleted].
Proof. split; [reflexivity|]. split; vm_compute; reflexivity. Qed.

(* ---------- the give-up step of handleJobError, per processed request ---------- *)
(* where the give-up execution starts and where the step ends: the state object holds the phase, the retry
   count and the spec the cache showed before the failed Execute; the cache ends with what TerminateJob
   left, or -- first sync of a job, initJobStatus written, give-up failed too -- with the Pending status *)
Lemma giveup_shape : forall w r F w1 wr1 w2 e2 wr2,
  step_req w r F = (w1, true, wr1) ->
  let wg := giveup_world w w1 wr1 (apply_policies (v_spec w) (v_st w) r) r F in
  execute wg ATerminate r (giveup_faults F) = (w2, e2, wr2) ->
  let w3 := if wr1 && negb wr2 then keep_view w1 w2 else w2 in
  st_phase (v_st wg) = st_phase (v_st w) /\ st_retry (v_st wg) = st_retry (v_st w) /\ v_spec wg = v_spec w /\
  acted wg ATerminate w2 e2 wr2 /\
  (v_st w3 = v_st w2 \/
   (st_phase (v_st w) = PhNone /\ st_phase (v_st w3) = PhPending /\ st_retry (v_st w3) = st_retry (v_st w))).
Proof.
  intros w r F w1 wr1 w2 e2 wr2 Hs wg Hx w3. subst wg w3.
  pose proof (execute_outcome _ _ _ _ _ _ _ Hx) as O2.
  destruct wr1.
  - destruct (step_req_err_wrote _ _ _ _ Hs) as (Hn & Hw & Hv).
    cbn [giveup_world with_vpods stale_view v_st v_spec].
    split; [reflexivity|]. split; [reflexivity|]. split; [reflexivity|]. split; [exact O2|].
    destruct wr2; [left; reflexivity|right].
    change (v_st (if true && negb false then keep_view w1 w2 else w2)) with (v_st w1).
    rewrite Hv, Hw. cbn. auto.
  - apply step_req_failed in Hs. apply execute_err in Hs. cbn in Hs. destruct Hs as (A & B & C).
    cbn [giveup_world with_vpods v_st v_spec andb].
    split; [exact A|]. split; [exact B|]. split; [exact C|]. split; [exact O2|]. left; reflexivity.
Qed.

(* non-vacuity: maxRequeueNum = 0, a Completed job that still owns a Running pod whose deletion is
   refused: the controller gives up at once, TerminateJob through finishedState kills the pod (the
   give-up execution meets no fault) and the job stays Completed; the same for an Aborted job *)
Example giveup_example :
  let sp := mkSpec [mkTask 1 1 (Some 1) [] None] 1 None 3 [] in
  let st ph := mkStatus ph 0 0 1 (mkC 0 1 0 0 0) 0 [(1%positive, mkC 0 1 0 0 0)] false false in
  let w ph := init_world_m 0 true sp (st ph) [mkPod 1 0 PRunning false false] (Some PgRunning) in
  let r := mkReq EOutOfSync None None None 0 0 1 in
  forall ph, In ph [PhCompleted; PhAborted] ->
  exists w', step_reqb (w ph) r [FDelete 1 0] = (w', true, true) /\ q_gave (c_rq (v_ctl w')) = true /\
             st_phase (w_st w') = ph /\ st_phase (v_st w') = ph /\
             w_pods w' = [mkPod 1 0 PRunning true true].
Proof.
  cbv zeta. intros ph [<-|[<-|[]]]; eexists; (split; [vm_compute; reflexivity|]); vm_compute; auto.
Qed.

(* OBSERVATION (real controller, corpus/C05/regress-seeded-r5.jsonl "regress-giveup-consumed-view"): giving up
   on a SYNC.  A Running job with two Running pods, fresh views, maxRequeueNum = 0, the sync's status
   update refused: TerminateJob runs on the JobInfo clone the failed syncJob emptied, so it deletes no
   pod, deletes the PodGroup and writes phase Terminating with every counter 0 *)
Example giveup_consumed_view_example :
  let sp := mkSpec [mkTask 1 2 (Some 2) [] None] 2 None 3 [] in
  let pods := [mkPod 1 0 PRunning false false; mkPod 1 1 PRunning false false] in
  let w := init_world_m 0 true sp (mkStatus PhRunning 0 0 2 (mkC 0 1 0 0 0) 0 [] false false) pods (Some PgRunning) in
  exists w', step_reqb w (mkReq EOutOfSync None None None 0 0 1) [FStatus 0] = (w', true, true) /\
             q_gave (c_rq (v_ctl w')) = true /\ st_phase (w_st w') = PhTerminating /\
             st_cnt (w_st w') = c0 /\ st_term (w_st w') = 0 /\ w_pods w' = pods /\ w_pg w' = None.
Proof. cbv zeta. eexists. split; [vm_compute; reflexivity|]. vm_compute. auto 10. Qed.

(* ---------- [allowed] against the only DOCUMENTED transition table of the repository ----------
   docs/design/job-api.md 171-177 gives a table over the five stable phases of the original API (Pending,
   Aborted, Running, Completed, Terminated) and calls Restarting / Aborting / Terminating temporary.
   [sreach]: the stable phases reachable from a stable phase through temporary ones along [allowed];
   [beyond]: those of them the documented table leaves empty.  The code (and therefore [allowed]) goes
   beyond the table exactly by: Failed (added later, with maxRetry), Pending -> Completed / Terminated
   (CompleteJob / TerminateJob on a pending job) and Running -> Pending (restart, or fewer running pods) *)
Definition temporary (p : phase) : bool :=
  match p with PhRestarting | PhAborting | PhCompleting | PhTerminating => true | _ => false end.
Fixpoint sreach (fuel : nat) (p : phase) : list phase :=
  flat_map (fun q => if temporary q then match fuel with S f => sreach f q | O => [] end else [q]) (allowed p).
Definition doc_table (p : phase) : list phase :=
  match p with
  | PhPending => [PhPending; PhAborted; PhRunning]
  | PhAborted => [PhPending; PhAborted]
  | PhRunning => [PhAborted; PhRunning; PhCompleted; PhTerminated]
  | PhCompleted => [PhCompleted]
  | PhTerminated => [PhTerminated]
  | _ => []
  end.
Definition beyond (p : phase) : list phase :=
  nodup phase_eq_dec (filter (fun q => negb (phase_in q (doc_table p))) (sreach 4 p)).
Example allowed_vs_documented_table :
  map (fun p => (p, beyond p)) [PhPending; PhAborted; PhRunning; PhCompleted; PhTerminated] =
  [(PhPending, [PhFailed; PhCompleted; PhTerminated]); (PhAborted, [PhFailed]); (PhRunning, [PhPending; PhFailed]);
   (PhCompleted, []); (PhTerminated, [])].
Proof. vm_compute. reflexivity. Qed.

(* ---------- non-vacuity of the version theorems: a Running job whose only pod fails under a
   PodFailed -> RestartJob policy: the kill bumps the version 0 -> 1 on the API server and in the cache;
   the same event carried by a request of version 0 is now answered by a sync, one of version 1 restarts ---------- *)
Definition ver_spec : spec := mkSpec [mkTask 1 1 (Some 1) [] None] 1 None 3 [mkPolicy [EPodFailed] ARestartJob None 0].
Definition ver_world : world :=
  init_world ver_spec (mkStatus PhRunning 0 0 1 (mkC 0 1 0 0 0) 0 [(1%positive, mkC 0 1 0 0 0)] false false)
    [mkPod 1 0 PRunning false false] (Some PgRunning).
Definition ver_req (v : Z) : req := mkReq EPodFailed None (Some 1%positive) (Some (1%positive, 0)) 0 v 2.
Example version_example :
  let w1 := run ver_world [OReq (ver_req 0) []] in
  Forall same_job [OReq (ver_req 0) []] /\ st_version (w_st ver_world) <= st_version (v_st ver_world) /\
  st_version (w_st ver_world) = 0 /\ st_version (w_st w1) = 1 /\ st_version (v_st w1) = 1 /\
  st_phase (w_st w1) = PhRestarting /\ st_retry (w_st w1) = 1 /\
  r_action (ver_req 0) = None /\ r_version (ver_req 0) < st_version (v_st w1) /\
  apply_policies ver_spec (v_st w1) (ver_req 0) = ASync /\
  apply_policies ver_spec (v_st w1) (ver_req 1) = ARestartJob.
Proof. cbv zeta. split; [repeat constructor|]. vm_compute. repeat split; congruence. Qed.
