(* C05, the counters: a status written on a fresh view carries counters that partition exactly the pods on
   the API server (terminating = being deleted, the others by phase).  First the three passes of syncJob
   as sums over the pods ([sync_counters_partition], for the code after "fix: syncJob counts an out-of-sync
   pod once"), then killPods as a map over the pods ([kill_counters_partition]), then every executed action
   and every processed request ([counters_partition]) under the premise [fresh_all]. *)
From Coq Require Import ZArith List Bool Lia Permutation.
From V Require Import C05.Model C05.SyncLemmas C05.Lemmas.
Import ListNotations.
Open Scope Z_scope.

(* ---------- sums of (phase counters, terminating) ---------- *)
Definition T := (counts * Z)%type.
Definition tz : T := (c0, 0).
Definition tadd (x y : T) : T := (cadd (fst x) (fst y), snd x + snd y).
Definition one_term : T := (c0, 1).

Lemma tadd_comm : forall x y, tadd x y = tadd y x.
Proof. intros [[a b c d e] z] [[a' b' c' d' e'] z']. unfold tadd, cadd; cbn. f_equal; [f_equal|]; lia. Qed.
Lemma tadd_assoc : forall x y z, tadd x (tadd y z) = tadd (tadd x y) z.
Proof. intros [[a b c d e] z] [[a' b' c' d' e'] z'] [[a2 b2 c2 d2 e2] z2]. unfold tadd, cadd; cbn. f_equal; [f_equal|]; lia. Qed.
Lemma tadd_z_l : forall x, tadd tz x = x.
Proof. intros [[a b c d e] z]. reflexivity. Qed.
Lemma tadd_z_r : forall x, tadd x tz = x.
Proof. intros. rewrite tadd_comm. apply tadd_z_l. Qed.

Lemma T_ext : forall (a b c d e z a' b' c' d' e' z' : Z),
  a = a' -> b = b' -> c = c' -> d = d' -> e = e' -> z = z' -> (mkC a b c d e, z) = (mkC a' b' c' d' e', z').
Proof. intros; subst; reflexivity. Qed.

Fixpoint tsum {A} (h : A -> T) (l : list A) : T :=
  match l with [] => tz | x :: r => tadd (h x) (tsum h r) end.

Lemma tally_tsum : forall l, tally l = tsum classify l.
Proof.
  induction l as [|p l IH]; [reflexivity|]. cbn [tsum]. rewrite <- IH. reflexivity.
Qed.

Lemma tsum_app : forall {A} (h : A -> T) l1 l2, tsum h (l1 ++ l2) = tadd (tsum h l1) (tsum h l2).
Proof.
  induction l1 as [|x l1 IH]; intros; cbn.
  - rewrite tadd_z_l. reflexivity.
  - rewrite IH, tadd_assoc. reflexivity.
Qed.
Lemma tsum_perm : forall {A} (h : A -> T) l1 l2, Permutation l1 l2 -> tsum h l1 = tsum h l2.
Proof.
  induction 1; cbn; auto.
  - rewrite IHPermutation. reflexivity.
  - rewrite !tadd_assoc, (tadd_comm (h y) (h x)). reflexivity.
  - congruence.
Qed.
Lemma tsum_map : forall {A B} (h : B -> T) (f : A -> B) l, tsum h (map f l) = tsum (fun x => h (f x)) l.
Proof. induction l; cbn; congruence. Qed.
Lemma tsum_ext_in : forall {A} (h g : A -> T) l, (forall x, In x l -> h x = g x) -> tsum h l = tsum g l.
Proof.
  induction l as [|x l IH]; intros H; cbn; auto. rewrite H by (left; reflexivity).
  rewrite IH; auto. intros; apply H; right; assumption.
Qed.
Lemma tsum_filter : forall {A} (h : A -> T) f l, tsum h (filter f l) = tsum (fun x => if f x then h x else tz) l.
Proof.
  induction l as [|x l IH]; cbn; auto. destruct (f x); cbn; rewrite IH; auto. rewrite tadd_z_l. reflexivity.
Qed.
Lemma tsum_flat_map : forall {A B} (h : B -> T) (F : A -> list B) l,
  tsum h (flat_map F l) = tsum (fun k => tsum h (F k)) l.
Proof. induction l as [|k l IH]; cbn; auto. rewrite tsum_app, IH. reflexivity. Qed.
Lemma tsum_tadd : forall {A} (h g : A -> T) l, tsum (fun x => tadd (h x) (g x)) l = tadd (tsum h l) (tsum g l).
Proof.
  induction l as [|x l IH]; cbn.
  - rewrite tadd_z_l. reflexivity.
  - rewrite IH. rewrite !tadd_assoc. f_equal. rewrite <- !tadd_assoc. f_equal. apply tadd_comm.
Qed.
Lemma tsum_const_len : forall {A} (l : list A), tsum (fun _ => one_term) l = (c0, Z.of_nat (length l)).
Proof.
  induction l as [|x l IH]; cbn [tsum length]; auto.
  rewrite IH. unfold tadd, one_term, cadd, c0. cbn [fst snd cP cR cS cF cU].
  f_equal. lia.
Qed.

(* ---------- the three passes, on the accumulator's counters ---------- *)
Definition acc_t (a : acc) : T := (a_cnt a, a_term a).

(* what pass 1 adds for a kept pod (fixed code) *)
Definition c1 (p : pod) : T :=
  if p_del p then one_term else if p_oos p then tz else (cone (p_phase p), 0).

Lemma count_kept_t : forall a p, acc_t (count_kept_gen true a p) = tadd (acc_t a) (c1 p).
Proof.
  intros a p. unfold count_kept_gen, c1, acc_t. destruct (p_del p); cbn.
  - unfold tadd, one_term. cbn. f_equal. destruct (a_cnt a); unfold cadd, c0; cbn. f_equal; lia.
  - destruct (p_oos p); cbn.
    + rewrite tadd_z_r. reflexivity.
    + unfold tadd. cbn. f_equal. lia.
Qed.

Lemma fold_count_kept_t : forall l a, acc_t (fold_left (count_kept_gen true) l a) = tadd (acc_t a) (tsum c1 l).
Proof.
  induction l as [|p l IH]; intros a; cbn [fold_left tsum].
  - rewrite tadd_z_r. reflexivity.
  - rewrite IH, count_kept_t. rewrite tadd_assoc. reflexivity.
Qed.

Lemma pass1_t : forall view ts a,
  acc_t (fold_left (fun a t => fold_left (count_kept_gen true) (kept t view) a) ts a) =
  tadd (acc_t a) (tsum (fun k => tsum c1 (kept k view)) ts).
Proof.
  induction ts as [|k ts IH]; intros a; cbn [fold_left tsum].
  - rewrite tadd_z_r. reflexivity.
  - rewrite IH, fold_count_kept_t. rewrite tadd_assoc. reflexivity.
Qed.

(* pass 2 without faults: the new pods N, all Pending, none of them named like a pod of P *)
Definition created_ok (P : list pod) (N : list pod) : Prop :=
  Forall (fun p => ~ In (p_task p, p_idx p) (pod_ids P) /\ classify p = (cone PPending, 0)) N.

Lemma insert_pod_perm : forall p l, Permutation (insert_pod p l) (p :: l).
Proof.
  induction l as [|q l IH]; cbn; auto. destruct (id_lt (p_task p) (p_idx p) q); auto.
  eapply perm_trans; [apply perm_skip, IH|apply perm_swap].
Qed.

Lemma perm_pod_ids : forall l1 l2, Permutation l1 l2 -> Permutation (pod_ids l1) (pod_ids l2).
Proof. intros. unfold pod_ids. apply Permutation_map. assumption. Qed.


(* ---------- pass 2 ---------- *)
Lemma create_one_inv : forall P base n a j N,
  Permutation (a_pods a) (N ++ P) -> created_ok P N -> acc_t a = tadd base (tsum classify N) ->
  exists N', Permutation (a_pods (create_one [] n a j)) (N' ++ P) /\ created_ok P N' /\
             acc_t (create_one [] n a j) = tadd base (tsum classify N').
Proof.
  intros P base n a j N Hperm Hok Hacc. unfold create_one. cbn [fails_create existsb].
  unfold api_create. destruct (has_pod n j (a_pods a)) eqn:Eh.
  - exists N. auto.
  - exists (mkPod n j PPending false false :: N). cbn [a_pods]. repeat split.
    + eapply perm_trans; [apply insert_pod_perm|]. cbn. apply perm_skip. exact Hperm.
    + constructor; auto. cbn. split; [|reflexivity].
      intros Hin. apply has_pod_false_notin in Eh. apply Eh.
      apply (Permutation_in _ (Permutation_sym (perm_pod_ids _ _ Hperm))).
      unfold pod_ids. rewrite map_app. apply in_or_app. right. exact Hin.
    + unfold acc_t in *. cbn [a_cnt a_term tsum]. injection Hacc as Hc Ht.
      rewrite Hc, Ht. cbn [classify p_del p_phase]. unfold tadd. cbn [fst snd].
      destruct base as [[a0 b0 c0' d0 e0] z0]. destruct (tsum classify N) as [[a1 b1 c1' d1 e1] z1].
      unfold cadd, cone; cbn [fst snd cP cR cS cF cU]. apply T_ext; lia.
Qed.

Lemma pass2_inv : forall sp view P base ts a N,
  Permutation (a_pods a) (N ++ P) -> created_ok P N -> acc_t a = tadd base (tsum classify N) ->
  exists N', let a' := fold_left (fun a k => if deps_met sp view k
                                             then fold_left (create_one [] (t_name k)) (missing k view) a else a) ts a in
             Permutation (a_pods a') (N' ++ P) /\ created_ok P N' /\ acc_t a' = tadd base (tsum classify N').
Proof.
  intros sp view P base.
  assert (C : forall n L a N, Permutation (a_pods a) (N ++ P) -> created_ok P N -> acc_t a = tadd base (tsum classify N) ->
          exists N', Permutation (a_pods (fold_left (create_one [] n) L a)) (N' ++ P) /\ created_ok P N' /\
                     acc_t (fold_left (create_one [] n) L a) = tadd base (tsum classify N')).
  { induction L as [|j L IH]; intros a N H1 H2 H3; cbn [fold_left]; [exists N; auto|].
    destruct (create_one_inv P base n a j N H1 H2 H3) as (N1 & A & B & C0). apply (IH _ N1); auto. }
  induction ts as [|k ts IH]; intros a N H1 H2 H3; cbn [fold_left]; [exists N; auto|].
  destruct (deps_met sp view k).
  - destruct (C (t_name k) (missing k view) a N H1 H2 H3) as (N1 & A & B & C0). apply (IH _ N1); auto.
  - apply (IH a N); auto.
Qed.

(* ---------- pass 3 ---------- *)
Definition mD (D : list pod) (q : pod) : pod :=
  if existsb (same_id (p_task q) (p_idx q)) D then mark q else q.

Lemma same_id_sym : forall p q, same_id (p_task p) (p_idx p) q = same_id (p_task q) (p_idx q) p.
Proof. intros. unfold same_id. rewrite Pos.eqb_sym, Z.eqb_sym. reflexivity. Qed.

Lemma pass3_map : forall D a,
  a_pods (fold_left (delete_one []) D a) = map (mD D) (a_pods a) /\
  acc_t (fold_left (delete_one []) D a) = tadd (acc_t a) (tsum (fun _ => one_term) D).
Proof.
  induction D as [|d D IH]; intros a; cbn [fold_left tsum].
  - split; [|rewrite tadd_z_r; reflexivity]. unfold mD. cbn. rewrite map_id. reflexivity.
  - destruct (IH (delete_one [] a d)) as [A B]. rewrite A, B. unfold delete_one. cbn [fails_delete existsb a_pods].
    split.
    + unfold api_delete, update_pod. rewrite map_map. apply map_ext. intros q. unfold mD. cbn [existsb].
      rewrite (same_id_sym q d). destruct (same_id (p_task d) (p_idx d) q); cbn [orb p_task p_idx mark].
      * destruct (existsb _ D); reflexivity.
      * reflexivity.
    + unfold acc_t. cbn [a_cnt a_term]. unfold tadd, one_term. cbn [fst snd].
      destruct (tsum (fun _ : pod => (c0, 1)) D) as [[a1 b1 c1' d1 e1] z1]. destruct (a_cnt a) as [a0 b0 c0' d0 e0].
      unfold cadd, c0; cbn [fst snd cP cR cS cF cU]. apply T_ext; lia.
Qed.

(* ---------- per task ---------- *)
Definition hk (k : task) (p : pod) : T :=
  if in_range k p then (if p_del p then one_term else if p_oos p then one_term else (cone (p_phase p), 0))
  else one_term.

Lemma per_task : forall k P,
  tadd (tsum c1 (kept k P))
       (tsum (fun _ => one_term) (filter (fun p => negb (p_del p) && p_oos p) (kept k P) ++ surplus k P)) =
  tsum (hk k) (task_pods k P).
Proof.
  intros k P. unfold kept, surplus. set (L := task_pods k P).
  rewrite tsum_app, !tsum_filter, <- !tsum_tadd. apply tsum_ext_in. intros p _.
  unfold hk, c1. destruct (in_range k p); cbn [negb].
  - destruct (p_del p); cbn [negb andb].
    + rewrite !tadd_z_r. reflexivity.
    + destruct (p_oos p); rewrite ?tadd_z_r, ?tadd_z_l; reflexivity.
  - rewrite !tadd_z_l. reflexivity.
Qed.

(* ---------- every pod belongs to exactly one task ---------- *)
Lemma tsum_tz : forall {A} (l : list A), tsum (fun _ => tz) l = tz.
Proof. induction l; cbn; auto. rewrite IHl. reflexivity. Qed.

Lemma tsum_unique : forall (H : task -> T) ts k0 t,
  NoDup (map t_name ts) -> In k0 ts -> t_name k0 = t ->
  tsum (fun k => if Pos.eqb t (t_name k) then H k else tz) ts = H k0.
Proof.
  induction ts as [|x ts IH]; intros k0 t Hnd Hin Hn; [destruct Hin|].
  cbn in Hnd. inversion Hnd as [|? ? Hnot Hnd']; subst. cbn [tsum]. destruct Hin as [->|Hin].
  - rewrite Pos.eqb_refl.
    rewrite (tsum_ext_in _ (fun _ => tz)); [rewrite tsum_tz, tadd_z_r; reflexivity|].
    intros k Hk. destruct (Pos.eqb (t_name k0) (t_name k)) eqn:E; auto.
    apply Pos.eqb_eq in E. exfalso. apply Hnot. rewrite E. apply in_map. exact Hk.
  - destruct (Pos.eqb (t_name k0) (t_name x)) eqn:E.
    + apply Pos.eqb_eq in E. exfalso. apply Hnot. rewrite <- E. apply in_map. exact Hin.
    + rewrite tadd_z_l. apply IH; auto.
Qed.

Lemma tsum_partition : forall (H : task -> pod -> T) (g : pod -> T) ts P,
  NoDup (map t_name ts) ->
  (forall p, In p P -> exists k, In k ts /\ t_name k = p_task p) ->
  (forall k p, In k ts -> In p P -> t_name k = p_task p -> H k p = g p) ->
  tsum (fun k => tsum (H k) (task_pods k P)) ts = tsum g P.
Proof.
  intros H g ts P Hnd. induction P as [|p P IH]; intros Hex Hg.
  - cbn. apply tsum_tz.
  - cbn [tsum]. rewrite <- IH; [|intros; apply Hex; right; assumption|intros; apply Hg; auto; right; assumption].
    destruct (Hex p (or_introl eq_refl)) as (k0 & Hk0 & Hn0).
    rewrite <- (Hg k0 p Hk0 (or_introl eq_refl) Hn0).
    rewrite <- (tsum_unique (fun k => H k p) ts k0 (p_task p) Hnd Hk0 Hn0).
    rewrite <- tsum_tadd. apply tsum_ext_in. intros k _. unfold task_pods. cbn [filter].
    destruct (Pos.eqb (p_task p) (t_name k)); cbn [tsum]; [reflexivity|rewrite tadd_z_l; reflexivity].
Qed.

Lemma doomed_unique : forall sp p k,
  NoDup (map t_name (s_tasks sp)) -> In k (s_tasks sp) -> t_name k = p_task p ->
  doomed sp p = negb (in_range k p) || (negb (p_del p) && p_oos p).
Proof.
  intros sp p k. unfold doomed. induction (s_tasks sp) as [|x ts IH]; intros Hnd Hin Hn; [destruct Hin|].
  cbn in Hnd. inversion Hnd as [|? ? Hnot Hnd']; subst. cbn [existsb]. destruct Hin as [->|Hin].
  - rewrite Hn, Pos.eqb_refl. cbn [andb].
    assert (E : existsb (fun k0 => Pos.eqb (p_task p) (t_name k0) && (negb (in_range k0 p) || negb (p_del p) && p_oos p)) ts = false).
    { destruct (existsb _ ts) eqn:E; auto. exfalso. apply existsb_exists in E. destruct E as (k' & Hk' & Hc).
      apply andb_true_iff in Hc. destruct Hc as [Hc _]. apply Pos.eqb_eq in Hc. apply Hnot.
      rewrite Hn, Hc. apply in_map. exact Hk'. }
    rewrite E, orb_false_r. reflexivity.
  - destruct (Pos.eqb (p_task p) (t_name x)) eqn:E.
    + apply Pos.eqb_eq in E. exfalso. apply Hnot. rewrite <- E, <- Hn. apply in_map. exact Hin.
    + cbn [andb orb]. apply IH; auto.
Qed.

Theorem sync_counters_partition : forall sp P,
  NoDup (map t_name (s_tasks sp)) -> NoDup (pod_ids P) ->
  (forall p, In p P -> exists k, In k (s_tasks sp) /\ t_name k = p_task p) ->
  let a := sync_pods sp P P [] in
  a_err a = false /\ (a_cnt a, a_term a) = tally (a_pods a).
Proof.
  intros sp P Hts Hnd Hown a.
  assert (Herr : a_err a = false) by (apply (sync_exact_pods true sp P Hnd)).
  split; auto. revert Herr. unfold a, sync_pods, sync_pods_gen.
  set (a1 := fold_left (fun a t => fold_left (count_kept_gen true) (kept t P) a) (s_tasks sp) (mkAcc P c0 0 [] false)).
  destruct (pass1_pods true P (s_tasks sp) (mkAcc P c0 0 [] false)) as [Hp1 He1]. fold a1 in Hp1, He1. cbn in Hp1, He1.
  pose proof (pass1_t P (s_tasks sp) (mkAcc P c0 0 [] false)) as Ht1. fold a1 in Ht1.
  change (acc_t (mkAcc P c0 0 [] false)) with tz in Ht1. rewrite tadd_z_l in Ht1.
  set (base := tsum (fun k => tsum c1 (kept k P)) (s_tasks sp)) in *.
  destruct (pass2_inv sp P P base (s_tasks sp) a1 []) as (N & Hperm & Hok & Hacc2).
  { rewrite Hp1. cbn. apply Permutation_refl. }
  { constructor. }
  { rewrite Ht1. cbn. rewrite tadd_z_r. reflexivity. }
  cbv zeta in Hperm, Hacc2.
  set (a2 := fold_left (fun a k => if deps_met sp P k then fold_left (create_one [] (t_name k)) (missing k P) a else a)
                       (s_tasks sp) a1) in *.
  assert (Ee : a_err a2 = false) by (unfold a2; rewrite pass2_err_nofault; exact He1).
  rewrite Ee. intros _.
  destruct (pass3_map (to_delete sp P) a2) as [Hp3 Ht3].
  change (a_cnt ?x, a_term ?x) with (acc_t x). rewrite Ht3, Hp3, Hacc2.
  rewrite tally_tsum, tsum_map, (tsum_perm _ _ _ Hperm), tsum_app.
  (* the new pods are not touched by the deletions *)
  assert (HN : tsum (fun x => classify (mD (to_delete sp P) x)) N = tsum classify N).
  { apply tsum_ext_in. intros p Hp. unfold mD.
    destruct (existsb (same_id (p_task p) (p_idx p)) (to_delete sp P)) eqn:E; auto. exfalso.
    apply existsb_exists in E. destruct E as (d & Hd & Hs). apply in_to_delete in Hd. destruct Hd as [Hd _].
    apply same_id_true in Hs. destruct Hs as [A B].
    unfold created_ok in Hok. rewrite Forall_forall in Hok. destruct (Hok p Hp) as [Hnot _]. apply Hnot.
    unfold pod_ids. apply in_map_iff. exists d. split; auto. congruence. }
  rewrite HN.
  (* the pods that existed *)
  assert (HP : tadd base (tsum (fun _ => one_term) (to_delete sp P)) =
               tsum (fun x => classify (mD (to_delete sp P) x)) P).
  { unfold base, to_delete. rewrite tsum_flat_map, <- tsum_tadd.
    rewrite (tsum_ext_in _ (fun k => tsum (hk k) (task_pods k P))) by (intros k _; apply per_task).
    apply tsum_partition; auto. intros k p Hk Hp Hn.
    unfold mD. fold (to_delete sp P). rewrite (targeted_doomed sp P _ _ Hnd), (find_unique P p Hnd Hp).
    rewrite (doomed_unique sp p k Hts Hk Hn). unfold hk, classify.
    destruct (in_range k p); cbn [negb orb].
    - destruct (p_del p) eqn:Ed; cbn [negb andb]; [rewrite Ed; reflexivity|].
      destruct (p_oos p); cbn [mark p_del]; [reflexivity|rewrite Ed; reflexivity].
    - reflexivity. }
  rewrite <- HP. rewrite (tadd_comm base (tsum classify N)), <- tadd_assoc. reflexivity.
Qed.

(* ---------- on the world: a successful syncJob with an admitted PodGroup and a fresh pod view ---------- *)
Example counters_partition_sync_nonvacuous :
  let sp := mkSpec [mkTask 1 2 (Some 1) [] None; mkTask 2 1 None [] None] 2 None 3 [] in
  let pods := [mkPod 1 0 PSucceeded false false; mkPod 1 1 PRunning false true; mkPod 1 2 PRunning false false;
               mkPod 2 0 PFailed true false] in
  let w := init_world sp (mkStatus PhRunning 0 0 2 c0 0 [] false false) pods (Some PgRunning) in
  NoDup (map t_name (s_tasks sp)) /\ NoDup (pod_ids pods) /\
  (forall p, In p pods -> exists k, In k (s_tasks sp) /\ t_name k = p_task p) /\
  exists w', sync_job w URunningSync [] = (w', false, true) /\
             st_cnt (w_st w') = mkC 0 0 1 0 0 /\ st_term (w_st w') = 3 /\ length (w_pods w') = 4%nat.
Proof.
  cbv zeta. split; [repeat constructor; cbn; intuition congruence|].
  split; [repeat constructor; cbn; intuition congruence|].
  split.
  - intros p Hp. cbn in Hp.
    repeat (destruct Hp as [<-|Hp]; [cbn; eauto 6|]). destruct Hp.
  - eexists. split; [vm_compute; reflexivity|]. repeat split.
Qed.

(* ---------- the (fixed) killPods path ---------- *)
(* what the patch-then-delete of pod p does to an element q of the API server's list *)
Definition hkill (p q : pod) : pod :=
  let q1 := if same_id (p_task p) (p_idx p) q then mkPod (p_task q) (p_idx q) (p_phase q) (p_del q) true else q in
  if p_del p then q1
  else if same_id (p_task p) (p_idx p) q1 then mkPod (p_task q1) (p_idx q1) (p_phase q1) true (p_oos q1) else q1.
Definition kfun (kill : list pod) (q : pod) : pod := fold_left (fun q p => hkill p q) kill q.

Lemma kill_effects_map : forall kill api, kill_effects [] kill api = map (kfun kill) api.
Proof.
  unfold kill_effects. induction kill as [|p kill IH]; intros api; cbn [fold_left].
  - unfold kfun. cbn. rewrite map_id. reflexivity.
  - rewrite IH. cbn [fails_patch fails_delete existsb]. rewrite orb_false_r.
    unfold kfun at 2. cbn [fold_left]. fold (kfun kill).
    destruct (p_del p) eqn:Ed.
    + unfold api_patch_oos, update_pod. rewrite map_map. apply map_ext. intros q. unfold hkill. rewrite Ed. reflexivity.
    + unfold api_delete, api_patch_oos, update_pod. rewrite !map_map. apply map_ext. intros q. unfold hkill. rewrite Ed. reflexivity.
Qed.

Lemma hkill_id : forall p q, p_task (hkill p q) = p_task q /\ p_idx (hkill p q) = p_idx q.
Proof.
  intros. unfold hkill. destruct (same_id (p_task p) (p_idx p) q); destruct (p_del p); cbn;
    try (split; reflexivity); match goal with |- context [if ?c then _ else _] => destruct c end; split; reflexivity.
Qed.
Lemma hkill_del_mono : forall p q, p_del q = true -> p_del (hkill p q) = true.
Proof.
  intros p q H. unfold hkill. destruct (same_id (p_task p) (p_idx p) q); destruct (p_del p); cbn; auto;
    match goal with |- context [if ?c then _ else _] => destruct c end; cbn; auto.
Qed.
Lemma hkill_other : forall p q, same_id (p_task p) (p_idx p) q = false -> hkill p q = q.
Proof. intros p q H. unfold hkill. rewrite H. destruct (p_del p); auto. rewrite H. reflexivity. Qed.
Lemma hkill_self : forall p q, same_id (p_task p) (p_idx p) q = true -> (p_del p = true -> p_del q = true) ->
  p_del (hkill p q) = true.
Proof.
  intros p q H E. destruct (p_del p) eqn:Ed.
  - apply hkill_del_mono. auto.
  - unfold hkill. rewrite H, Ed. unfold same_id in *. cbn. rewrite H. reflexivity.
Qed.

Lemma kfun_id : forall kill q, p_task (kfun kill q) = p_task q /\ p_idx (kfun kill q) = p_idx q.
Proof.
  unfold kfun. induction kill as [|p kill IH]; intros q; cbn [fold_left]; auto.
  destruct (IH (hkill p q)) as [A B]. destruct (hkill_id p q) as [C D]. split; congruence.
Qed.
Lemma kfun_del_mono : forall kill q, p_del q = true -> p_del (kfun kill q) = true.
Proof.
  unfold kfun. induction kill as [|p kill IH]; intros q H; cbn [fold_left]; auto. apply IH, hkill_del_mono, H.
Qed.
Lemma kfun_other : forall kill q, in_kill kill q = false -> kfun kill q = q.
Proof.
  unfold kfun, in_kill. induction kill as [|p kill IH]; intros q H; cbn [fold_left]; auto.
  cbn [existsb] in H. apply orb_false_iff in H. destruct H as [H1 H2].
  rewrite hkill_other by (rewrite same_id_sym; exact H1). apply IH; exact H2.
Qed.
Lemma kfun_member_gen : forall kill q q',
  In q kill -> p_task q' = p_task q -> p_idx q' = p_idx q -> (p_del q = true -> p_del q' = true) ->
  p_del (kfun kill q') = true.
Proof.
  unfold kfun. induction kill as [|p kill IH]; intros q q' Hin Ht Hi Hd; [destruct Hin|]. cbn [fold_left].
  destruct Hin as [->|Hin].
  - apply kfun_del_mono. apply hkill_self; auto.
    unfold same_id. rewrite Ht, Hi, Pos.eqb_refl, Z.eqb_refl. reflexivity.
  - destruct (hkill_id p q') as [A B]. apply (IH q); auto; try congruence.
    intros E. apply hkill_del_mono. auto.
Qed.
Lemma kfun_member : forall kill q, In q kill -> p_del (kfun kill q) = true.
Proof. intros. apply (kfun_member_gen kill q q); auto. Qed.

Lemma filter_false : forall {A} (l : list A), filter (fun _ => false) l = [].
Proof. induction l; cbn; auto. Qed.

Lemma kill_select_filter : forall sp st view rt tg,
  exists g, fst (kill_select sp st view rt tg) = filter g view.
Proof.
  intros sp st view rt tg. unfold kill_select.
  destruct tg as [[[t|]|[t|] [[t' i]|]|]|]; cbn [fst];
    try (exists (fun _ => false); rewrite filter_false; reflexivity);
    try (eexists; reflexivity).
  destruct (Pos.eqb t t'); cbn [fst]; [eexists; reflexivity|exists (fun _ => false); rewrite filter_false; reflexivity].
Qed.

Lemma any_fault_nil : forall kill, any_fault [] kill = false.
Proof. unfold any_fault. induction kill as [|p kill IH]; cbn; auto. rewrite andb_false_r. exact IH. Qed.

Lemma in_kill_filter : forall g P q, NoDup (pod_ids P) -> In q P -> in_kill (filter g P) q = g q.
Proof.
  intros g P q Hnd Hin. unfold in_kill. destruct (g q) eqn:Eg.
  - apply existsb_exists. exists q. split; [apply filter_In; auto|].
    unfold same_id. rewrite Pos.eqb_refl, Z.eqb_refl. reflexivity.
  - destruct (existsb _ (filter g P)) eqn:E; auto. exfalso.
    apply existsb_exists in E. destruct E as (p & Hp & Hs). apply filter_In in Hp. destruct Hp as [Hp Hg].
    apply same_id_true in Hs. destruct Hs as [A B].
    pose proof (find_unique P p Hnd Hp) as F1. pose proof (find_unique P q Hnd Hin) as F2.
    rewrite A, B in F1. rewrite F1 in F2. inversion F2; subst. congruence.
Qed.

Lemma tsum_split : forall {A} (h : A -> T) (g : A -> bool) l,
  tsum (fun x => if g x then one_term else h x) l =
  tadd (tsum (fun _ => one_term) (filter g l)) (tsum h (filter (fun x => negb (g x)) l)).
Proof.
  intros. rewrite !tsum_filter, <- tsum_tadd. apply tsum_ext_in. intros x _.
  destruct (g x); cbn [negb]; [rewrite tadd_z_r|rewrite tadd_z_l]; reflexivity.
Qed.

(* every successful kill (job, task or pod target; any retain rule; any update
   function) with a fresh pod view: the written counters partition the pods *)
Theorem kill_counters_partition : forall w rt tg u w',
  kill_pods w rt tg u [] = (w', false, true) ->
  v_pods w = w_pods w -> NoDup (pod_ids (w_pods w)) ->
  (st_cnt (w_st w'), st_term (w_st w')) = tally (w_pods w').
Proof.
  intros w rt tg u w' H Hfresh Hnd.
  destruct (kill_pods_cases _ _ _ _ _ _ _ _ _ H)
    as [(_ & _ & E)|(kill & term0 & Hsel & Hp & _ & [(E & _)|(_ & _ & _ & _ & _ & Ew)])]; try discriminate.
  destruct (kill_select_filter (v_spec w) (v_st w) (v_pods w) rt tg) as [g Hg]. rewrite Hsel in Hg. cbn [fst] in Hg.
  rewrite Ew, Hp. cbn [st_cnt st_term]. rewrite apply_upd_cnt, apply_upd_term. cbn [kill_base st_cnt st_term].
  rewrite Hfresh in *. set (P := w_pods w) in *.
  rewrite kill_effects_map, (tally_tsum (map (kfun kill) P)), tsum_map.
  rewrite (tsum_ext_in _ (fun q => if g q then one_term else classify q)).
  - rewrite tsum_split, tsum_const_len, <- Hg.
    assert (Er : filter (fun p => negb (in_kill kill p)) P = filter (fun x => negb (g x)) P).
    { apply filter_ext_in. intros q Hq. rewrite Hg, (in_kill_filter g P q Hnd Hq). reflexivity. }
    rewrite Er, <- tally_tsum. destruct (tally (filter (fun x => negb (g x)) P)) as [[a b c d e] z].
    unfold tadd, cadd, c0. cbn [fst snd cP cR cS cF cU]. apply T_ext; lia.
  - intros q Hq. pose proof (in_kill_filter g P q Hnd Hq) as Ek. rewrite <- Hg in Ek.
    destruct (g q) eqn:Eg.
    + unfold classify. rewrite kfun_member; auto. rewrite Hg. apply filter_In. auto.
    + rewrite kfun_other by exact Ek. reflexivity.
Qed.

(* ---------- FULL strength: every path, every written status ---------- *)
Definition owned (sp : spec) (P : list pod) : Prop :=
  forall p, In p P -> exists k, In k (s_tasks sp) /\ t_name k = p_task p.

Lemma sync_pods_nofault_noerr : forall fixed sp view api, a_err (sync_pods_gen fixed sp view api []) = false.
Proof.
  intros. unfold sync_pods_gen.
  destruct (pass1_pods fixed view (s_tasks sp) (mkAcc api c0 0 [] false)) as [_ He1]. cbn in He1.
  match goal with |- context [if a_err ?x then _ else _] => set (a2 := x) end.
  assert (Ee : a_err a2 = false) by (unfold a2; rewrite pass2_err_nofault; exact He1).
  rewrite Ee. rewrite delete_fold_err_nofault. exact Ee.
Qed.

(* what the update function of a sync is applied to carries counters that partition the pods the pod
   calls leave: the recount of the view while the PodGroup is not admitted, else the three passes' count *)
Lemma sync_base_partition : forall w w2 b refused,
  sync_base true w [] = (w2, b, refused) ->
  v_pods w = w_pods w -> (st_phase (v_st w) = PhNone -> v_spec w = w_spec w) ->
  NoDup (map t_name (s_tasks (v_spec w))) -> NoDup (pod_ids (w_pods w)) -> owned (v_spec w) (w_pods w) ->
  refused = false /\ (st_cnt b, st_term b) = tally (w_pods w2).
Proof.
  intros w w2 b refused H Hfresh Hspec Hts Hnd Hown. unfold sync_base in H.
  destruct (sync_w1_proj w) as (_ & _ & _ & W4 & W5 & _). cbv zeta in W4.
  assert (Esp : v_spec (sync_w1 w) = v_spec w).
  { rewrite W4. destruct (phase_beq _ _) eqn:Ei; [|reflexivity]. symmetry. apply Hspec, phase_beq_true, Ei. }
  destruct (pg_admitted (v_pg w)); inversion H; subst; clear H.
  - rewrite Esp, Hfresh. exact (sync_counters_partition (v_spec w) (w_pods w) Hts Hnd Hown).
  - split; [reflexivity|]. rewrite W5, Hfresh. cbn. destruct (tally (w_pods w)); reflexivity.
Qed.

(* a sync that ends without error on a fresh view, whichever way it ends; when it writes nothing the API
   server's status has to be the cached one (the cached version is ahead after a failed job-level kill,
   and no delivery repairs that) *)
Theorem sync_job_noerr_partition : forall w u w' wr,
  sync_job w u [] = (w', false, wr) ->
  wr = true \/ c_vdel (v_ctl w) = false /\ v_st w = w_st w ->
  v_pods w = w_pods w -> (st_phase (v_st w) = PhNone -> v_spec w = w_spec w) ->
  NoDup (map t_name (s_tasks (v_spec w))) -> NoDup (pod_ids (w_pods w)) -> owned (v_spec w) (w_pods w) ->
  (st_cnt (w_st w'), st_term (w_st w')) = tally (w_pods w').
Proof.
  intros w u w' wr H Hwr Hfresh Hspec Hts Hnd Hown.
  destruct (sync_job_cases _ _ _ _ _ _ _ _ H) as [(-> & -> & E & _)|(w2 & b & refused & Eb & _ & Hend)].
  { destruct Hwr as [?|[Hd _]]; [discriminate|]. rewrite Hd in E. discriminate. }
  destruct (sync_base_partition _ _ _ _ Eb Hfresh Hspec Hts Hnd Hown) as [-> Hp].
  destruct (sync_base_proj _ _ _ _ _ _ Eb) as (_ & B2 & _). cbv zeta in Hend, B2.
  destruct Hend as [(-> & -> & [[? _]|(_ & _ & Hs)])|[(_ & ? & _)|(-> & _)]]; try discriminate.
  - (* the status stays as it is: it agrees with the one computed *)
    destruct (sync_same_core _ _ Hs) as (_ & _ & Hc & Ht). rewrite apply_upd_cnt in Hc. rewrite apply_upd_term in Ht.
    rewrite B2, <- Hp, Hc, Ht. unfold sync_js. destruct (phase_beq (st_phase (v_st w)) PhNone); [reflexivity|].
    destruct Hwr as [?|[_ <-]]; [discriminate|reflexivity].
  - cbn [write w_st w_pods]. rewrite apply_upd_cnt, apply_upd_term. exact Hp.
Qed.

(* the premise of the counters theorems.  The cached STATUS need not equal the API server's (it cannot, after a
   failed job-level kill: the cached version is ahead until the next successful write) *)
Definition fresh_all (w : world) : Prop :=
  v_pods w = w_pods w /\ v_spec w = w_spec w /\
  NoDup (map t_name (s_tasks (v_spec w))) /\ NoDup (pod_ids (w_pods w)) /\ owned (v_spec w) (w_pods w).

(* without injected faults an executed action fails only before anything is written *)
Lemma execute_nofault : forall w a r w' e wr, execute w a r [] = (w', e, wr) -> wr = true -> e = false.
Proof.
  intros w a r w' e wr H ->. destruct e; [exfalso|reflexivity]. unfold execute in H.
  destruct (exec (st_phase (v_st w)) a) as [[|rt|] u];
    [|destruct (kill_pods_err _ _ _ _ _ _ _ _ H); discriminate..].
  destruct (sync_job_cases _ _ _ _ _ _ _ _ H)
    as [(_ & ? & _)|(w2 & b & refused & Eb & _ & [(_ & _ & [(_ & Er)|(? & _)])|[(_ & _ & _ & _ & ?)|(_ & ? & _)]])];
    try discriminate.
  unfold sync_base in Eb. rewrite Er in Eb. destruct (pg_admitted (v_pg w)); injection Eb as _ _ E; [|discriminate].
  unfold sync_pods in E. rewrite sync_pods_nofault_noerr in E. discriminate.
Qed.

(* every action the controller executes on a fresh view, whatever the phase and the action:
   if a status was written it partitions the pods *)
Theorem execute_counters_partition : forall w a r w' e wr,
  execute w a r [] = (w', e, wr) -> wr = true -> fresh_all w ->
  (st_cnt (w_st w'), st_term (w_st w')) = tally (w_pods w').
Proof.
  intros w a r w' e wr H Hwr (Hfresh & Hspec & Hts & Hnd & Hown).
  pose proof (execute_nofault _ _ _ _ _ _ H Hwr) as He. subst e wr. unfold execute in H.
  destruct (exec (st_phase (v_st w)) a) as [[|rt|] u].
  - apply (sync_job_noerr_partition w u w' true H); auto.
  - apply (kill_counters_partition w rt None u w' H Hfresh Hnd).
  - apply (kill_counters_partition w RNone _ u w' H Hfresh Hnd).
Qed.

(* after every processed request that wrote a status *)
Theorem counters_partition : forall w r w' e wr,
  step_req w r [] = (w', e, wr) -> wr = true -> fresh_all w ->
  (st_cnt (w_st w'), st_term (w_st w')) = tally (w_pods w').
Proof.
  intros w r w' e wr H Hwr Hf.
  destruct (step_req_cases _ _ _ _ _ _ H) as [(d & _ & _ & ->)|(w1 & Hx & _ & d & ->)]; [discriminate|].
  exact (execute_counters_partition (with_delays w _) _ _ _ _ _ Hx Hwr Hf).
Qed.

Example counters_partition_nonvacuous :
  fresh_all f2_world /\ fresh_all pgpending_world /\
  (exists w', step_req f2_world sync_req [] = (w', false, true)) /\
  (exists w', step_req pgpending_world sync_req [] = (w', false, true)).
Proof.
  assert (F : forall sp st pods pg, NoDup (map t_name (s_tasks sp)) -> NoDup (pod_ids pods) -> owned sp pods ->
              fresh_all (init_world sp st pods pg)) by (intros; repeat split; auto).
  split; [apply F; [repeat constructor; cbn; tauto|repeat constructor; cbn; tauto|]|].
  - intros p [<-|[]]. exists (mkTask 1 1 (Some 1) [] None). split; [left; reflexivity|reflexivity].
  - split; [apply F; [repeat constructor; cbn; tauto|constructor|intros p []]|].
    split; eexists; vm_compute; reflexivity.
Qed.

(* non-vacuity: a Running job with a Running pod; a RestartJob command and a plain sync that has a
   status to write, each with its status update refused: the pods are touched (the kill deletes the
   pod), the API server's status is not *)
Example refused_status_writer_example :
  let sp := mkSpec [mkTask 1 1 (Some 1) [] None] 1 None 3 [] in
  let w := init_world sp (mkStatus PhRunning 0 0 1 c0 0 [] false false) [mkPod 1 0 PRunning false false] (Some PgRunning) in
  fails_status [FStatus 0] 0 = true /\
  (exists w', step_req w (mkReq ECommandIssued (Some ARestartJob) None None 0 0 1) [FStatus 0] = (w', true, false) /\
              w_st w' = w_st w /\ w_pods w' = [mkPod 1 0 PRunning true true]) /\
  (exists w', step_req w (mkReq EOutOfSync None None None 0 0 1) [FStatus 0] = (w', true, false) /\ w_st w' = w_st w) /\
  (exists w', step_req w (mkReq EOutOfSync None None None 0 0 1) [] = (w', false, true) /\ w_st w' <> w_st w).
Proof.
  cbv zeta. split; [reflexivity|]. split; [eexists; split; [vm_compute; reflexivity|split; reflexivity]|].
  split; [eexists; split; [vm_compute; reflexivity|reflexivity]|].
  eexists; split; [vm_compute; reflexivity|]. vm_compute. discriminate.
Qed.

(* a RestartJob whose pod deletion is refused leaves the cached version ahead of the
   API server's; after the deliveries the cached status still differs, yet the premise holds and the
   retried restart partitions *)
Example fresh_all_version_ahead :
  let sp := mkSpec [mkTask 1 2 (Some 2) [] None] 2 None 3 [] in
  let w := init_world sp (mkStatus PhRunning 0 0 2 (mkC 0 2 0 0 0) 0 [] false false)
             [mkPod 1 0 PRunning false false; mkPod 1 1 PRunning false false] (Some PgRunning) in
  let rq := mkReq ECommandIssued (Some ARestartJob) None None 0 0 1 in
  let w1 := run w [OReq rq [FDelete 1 0]; OSyncJob; OSyncPods; OSyncPg] in
  v_st w1 <> w_st w1 /\ fresh_all w1 /\
  exists w2, step_req w1 rq [] = (w2, false, true) /\ (st_cnt (w_st w2), st_term (w_st w2)) = tally (w_pods w2).
Proof.
  cbv zeta. split; [vm_compute; discriminate|]. split.
  - unfold fresh_all. vm_compute. repeat split; auto; try (repeat constructor; cbn; intuition discriminate).
    intros p [<-|[<-|[]]]; eexists; (split; [left; reflexivity|reflexivity]).
  - eexists. split; vm_compute; reflexivity.
Qed.
