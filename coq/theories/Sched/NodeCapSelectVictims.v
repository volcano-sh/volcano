(* Property C02: topology-aware preemption's dry run.

   preempt.go SelectVictimsOnNode (on a CLONE of the node): potential victims are removed in the
   victims queue's pop order until the preemptor fits FutureIdle; if it then fits, the potential
   victims are put back one by one (latest popped first: "reprieve"), each one staying if the
   preemptor still fits and being removed again -- a final victim -- otherwise.
   topologyAwarePreempt then evicts exactly the final victims on the real node (prepareCandidate)
   and pipelines the preemptor WITHOUT any further test.

   Theorem: whatever the pop order and whatever the other votes (SimulateAllocatableFn /
   SimulatePredicateFn: an arbitrary boolean function of the dry-run node), the real node is
   within capacity after the evictions and the pipeline.  The dry run removes victims (Idle grows)
   where the real statement evicts them (Releasing grows): FutureIdle is the same function of the
   victim set in both, which is why the fit tests must look at FutureIdle -- with Idle instead
   (seeded mutant C02-r5-1) the statement is refuted. *)
From stdpp Require Import gmap.
From Coq Require Import ZArith Lia.
From V Require Import Sched.LedgerLemmasA Sched.LedgerLemmasNode Base.Res Base.ResLemmas Sched.LedgerModel Sched.StmtModel Sched.GangModel Sched.CycleModel
                      Sched.LedgerInvP Sched.NodeCapLemmas Sched.NodeCapLemmasCycle Sched.NodeCapLemmasEvict.
Open Scope Z_scope.

Section Select.
Variable eps : Z.
Hypothesis eps_pos : 0 < eps.
Variable extra : node -> bool.          (* queue allocatable and predicates on the dry-run node *)
Variable fit_on : node -> res.          (* what the fit test compares with: future_idle in the code *)

Definition pfits (p : task) (dry : node) : bool := extra dry && less_equal eps (t_init p) (fit_on dry) DZero.

Fixpoint remove_until (p : task) (dry : node) (q acc : list positive) : node * list positive :=
  match q with
  | [] => (dry, acc)
  | v :: q' =>
    let dry' := node_remove dry v in
    if pfits p dry' then (dry', v :: acc) else remove_until p dry' q' (v :: acc)
  end.

Fixpoint reprieve (p : task) (n0 dry : node) (pots victims : list positive) : option (node * list positive) :=
  match pots with
  | [] => Some (dry, victims)
  | v :: r =>
    match n_tasks n0 !! v with
    | None => None
    | Some c =>
      match node_add eps dry c with
      | inr _ => None
      | inl (dry1, _) =>
        if pfits p dry1 then reprieve p n0 dry1 r victims
        else reprieve p n0 (node_remove dry1 v) r (victims ++ [v])
      end
    end
  end.

Definition select_victims (p : task) (n : node) (q : list positive) : option (list positive) :=
  let '(dry, pots) := remove_until p n q [] in
  match pots with
  | [] => None
  | _ => if pfits p dry then match reprieve p n dry pots [] with Some (_, vs) => Some vs | None => None end else None
  end.

(* the real node: evict the victims, pipeline the preemptor (no test) *)
Definition preempt_on (p : task) (n : node) (vs : list positive) : (node * task) + add_err :=
  node_add eps (fold_left (nevict eps) vs n) (set_status p Pipelined).

End Select.

Section Safe.
Variable eps : Z.
Hypothesis eps_pos : 0 < eps.
Variable extra : node -> bool.
Variable n : node.
Hypothesis Hbase : nbase eps n.

Definition req_of (v : positive) : res := match n_tasks n !! v with Some c => t_req c | None => empty_res end.
Definition rsum (R : list positive) (d : dim) : Z := foldr (fun v acc => amt (req_of v) d + acc) 0 R.

Lemma rsum_app A B d : rsum (A ++ B) d = rsum A d + rsum B d.
Proof. induction A; simpl; lia. Qed.

Lemma rsum_nonneg R d : 0 <= rsum R d.
Proof.
  destruct Hbase as [_ [_ Hnn] _ _]. induction R as [|v R IH]; simpl; [lia|].
  unfold req_of. destruct (n_tasks n !! v) as [c|] eqn:E; [pose proof (Hnn _ _ E d); lia|]. rewrite amt_empty_res. lia.
Qed.

(* the dry-run node with the copies in R removed: what the fit tests read of it *)
Record dry_inv (dry : node) (R : list positive) : Prop := {
  di_sc : sc (n_idle dry) <> None;
  di_has : n_has_node dry = true;
  di_id : n_id dry = n_id n;
  di_tasks : forall v, v ∉ R -> n_tasks dry !! v = n_tasks n !! v;
  di_fut : forall d, fut_amt dry d = fut_amt n d + rsum R d;
  di_nodup : NoDup R }.

Definition cand_ok (v : positive) : Prop := exists c, n_tasks n !! v = Some c /\ plain (t_status c).

Lemma dry_inv_init : dry_inv n [].
Proof.
  destruct Hbase as [Hh [[Hs _] _] _ _]. constructor; try reflexivity; try assumption; [intros d; simpl; lia|constructor].
Qed.

Lemma dry_remove dry A B v :
  dry_inv dry (A ++ B) -> v ∉ A ++ B -> cand_ok v -> dry_inv (node_remove dry v) (A ++ v :: B).
Proof.
  intros H Hnin (c & Hl & P1 & P2 & _).
  assert (Hld : n_tasks dry !! v = Some c) by (rewrite (di_tasks _ _ H v Hnin); exact Hl).
  destruct (node_remove_fields dry v) as (Rid & Rh & _ & Rt).
  pose proof (node_remove_ledger dry v c Hld) as LR. rewrite (di_has _ _ H) in LR. destruct LR as (Ei & _ & Er & Ep).
  rewrite bool_decide_eq_false_2 in Ei, Er, Ep by assumption.
  constructor.
  - rewrite Ei. apply add_sc_some, (di_sc _ _ H).
  - rewrite Rh. apply (di_has _ _ H).
  - rewrite Rid. apply (di_id _ _ H).
  - intros w Hw. rewrite elem_of_app, elem_of_cons in Hw. rewrite Rt, lookup_delete_ne by (intros ->; tauto).
    apply (di_tasks _ _ H). rewrite elem_of_app. tauto.
  - intros d. pose proof (di_fut _ _ H d) as F. unfold fut_amt in *. rewrite Ei, Er, Ep, amt_add. rewrite !rsum_app in *.
    simpl. unfold req_of at 1. rewrite Hl. lia.
  - pose proof (di_nodup _ _ H) as Hnd. apply NoDup_app in Hnd as (H1 & H2 & H3). apply NoDup_app. split; [exact H1|]. split.
    + intros x Hx Hc. apply elem_of_cons in Hc as [->|Hc]; [apply Hnin, elem_of_app; left; exact Hx|apply (H2 x Hx Hc)].
    + constructor; [intros Hc; apply Hnin, elem_of_app; right; exact Hc|exact H3].
Qed.

Lemma dry_add dry A B v c dry1 t1 :
  dry_inv dry (A ++ v :: B) -> n_tasks n !! v = Some c -> plain (t_status c) ->
  node_add eps dry c = inl (dry1, t1) -> dry_inv dry1 (A ++ B).
Proof.
  intros H Hl (P1 & P2 & _) Ha. destruct Hbase as [_ _ _ [_ Hkey]]. destruct (Hkey _ _ Hl) as [Hcid Hcn].
  destruct (node_add_spec eps dry c dry1 t1 Ha) as (_ & _ & At & Aid & Ah & _).
  destruct (node_add_amounts eps dry c dry1 t1 Ha (di_has _ _ H) (di_sc _ _ H)) as [Hs1 Hamt].
  constructor.
  - exact Hs1.
  - rewrite Ah. apply (di_has _ _ H).
  - rewrite Aid. apply (di_id _ _ H).
  - intros w Hw. rewrite elem_of_app in Hw. rewrite At, Hcid. destruct (Pos.eq_dec w v) as [->|Hne].
    + (* the copy comes back as the node held it *)
      rewrite lookup_insert, Hl, (di_id _ _ H). f_equal. destruct c; simpl in *; subst; reflexivity.
    + rewrite lookup_insert_ne by congruence. apply (di_tasks _ _ H). rewrite elem_of_app, elem_of_cons. tauto.
  - intros d. pose proof (di_fut _ _ H d) as F. destruct (Hamt d) as (E1 & E2 & E3). unfold fut_amt in *. rewrite E1, E2, E3.
    unfold used_amt, rel_amt, pip_amt. rewrite !bool_decide_eq_false_2 by assumption.
    rewrite !rsum_app in *. simpl in F. unfold req_of at 1 in F. rewrite Hl in F. lia.
  - pose proof (di_nodup _ _ H) as Hnd. apply NoDup_app in Hnd as (N1 & N2 & N3). apply NoDup_cons in N3 as [_ N3].
    apply NoDup_app. split; [exact N1|]. split; [|exact N3]. intros x Hx Hc. apply (N2 x Hx). right. exact Hc.
Qed.


Variable p : task.
Hypothesis p_nonneg : nonneg (t_req p).
Hypothesis p_dom : forall d, amt (t_req p) d <= amt (t_init p) d.

(* "the preemptor fits what will be free with the copies in R gone": a function of the amounts only *)
Definition rfits (R : list positive) : Prop := fits eps (t_req p) (fun d => fut_amt n d + rsum R d).

Lemma pfits_rfits dry R : dry_inv dry R -> pfits eps extra future_idle p dry = true -> rfits R.
Proof.
  intros H Hf. unfold pfits in Hf. apply andb_true_iff in Hf as [_ Hle].
  destruct Hbase as [_ [Hc _] _ _].
  assert (Hfut : forall d, amt (future_idle dry) d = fut_amt n d + rsum R d).
  { intros d. rewrite future_idle_amt by apply (di_sc _ _ H). apply (di_fut _ _ H). }
  intros d Hd. rewrite <- Hfut.
  apply (less_equal_fits eps eps_pos (t_init p) (t_req p) (future_idle dry) Hle p_dom); [|exact Hd].
  intros d' Hd'. rewrite Hfut. destruct (nwc_elim eps n d' Hc Hd') as [_ H2]. pose proof (rsum_nonneg R d'). lia.
Qed.

Lemma rfits_perm R R' : (forall d, rsum R d = rsum R' d) -> rfits R -> rfits R'.
Proof. intros He H d Hd. rewrite <- He. apply (H d Hd). Qed.

Lemma remove_until_inv q : forall dry acc dry' pots,
  dry_inv dry acc -> Forall cand_ok acc -> Forall cand_ok q -> NoDup q -> (forall v, v ∈ q -> v ∉ acc) ->
  remove_until eps extra future_idle p dry q acc = (dry', pots) ->
  dry_inv dry' pots /\ Forall cand_ok pots.
Proof.
  induction q as [|v q IH]; intros dry acc dry' pots Hd Hacc Hq Hnd Hdis; simpl.
  - intros Hr; inversion Hr; subst. split; assumption.
  - inversion Hq as [|? ? Hv Hq']; subst. inversion Hnd as [|? ? Hvq Hnd']; subst.
    assert (Hd1 : dry_inv (node_remove dry v) (v :: acc)).
    { apply (dry_remove dry [] acc v); [exact Hd|apply Hdis; left|exact Hv]. }
    assert (Hacc1 : Forall cand_ok (v :: acc)) by (constructor; assumption).
    destruct (pfits eps extra future_idle p (node_remove dry v)).
    + intros Hr; inversion Hr; subst. split; assumption.
    + apply IH; try assumption. intros w Hw Hc. apply elem_of_cons in Hc as [->|Hc]; [exact (Hvq Hw)|].
      apply (Hdis w); [right; exact Hw|exact Hc].
Qed.

Lemma reprieve_inv pots : forall dry victims dry' vs,
  dry_inv dry (victims ++ pots) -> Forall cand_ok victims -> Forall cand_ok pots -> rfits (victims ++ pots) ->
  reprieve eps extra future_idle p n dry pots victims = Some (dry', vs) ->
  dry_inv dry' vs /\ Forall cand_ok vs /\ rfits vs.
Proof.
  induction pots as [|v r IH]; intros dry victims dry' vs Hd Hvic Hpots Hf; simpl.
  - intros Hr; inversion Hr; subst. rewrite app_nil_r in *. split; [exact Hd|split; [exact Hvic|exact Hf]].
  - inversion Hpots as [|? ? Hv Hr']; subst. destruct Hv as (c & Hl & Hp). rewrite Hl.
    destruct (node_add eps dry c) as [[dry1 t1]|e] eqn:Ea; [|discriminate].
    pose proof (dry_add dry victims r v c dry1 t1 Hd Hl Hp Ea) as Hd1.
    destruct (pfits eps extra future_idle p dry1) eqn:Ef.
    + apply IH; try assumption. apply (pfits_rfits dry1); assumption.
    + assert (Hnin : v ∉ victims ++ r).
      { pose proof (di_nodup _ _ Hd) as Hnd. apply NoDup_app in Hnd as (N1 & N2 & N3). apply NoDup_cons in N3 as [N3 _].
        intros Hc. apply elem_of_app in Hc as [Hc|Hc]; [apply (N2 v Hc); left|exact (N3 Hc)]. }
      pose proof (dry_remove dry1 victims r v Hd1 Hnin (ex_intro _ c (conj Hl Hp))) as Hd2.
      replace (victims ++ v :: r) with ((victims ++ [v]) ++ r) in Hd2, Hf by (rewrite <- app_assoc; reflexivity).
      apply IH; try assumption. apply Forall_app. split; [exact Hvic|]. constructor; [exists c; split; assumption|constructor].
Qed.

Lemma nevict_tasks_ne m v w : node_keyed (n_id m) m -> w <> v -> n_tasks (nevict eps m v) !! w = n_tasks m !! w.
Proof.
  intros [_ Hkey] Hne. unfold nevict. destruct (n_tasks m !! v) as [c|] eqn:E; [|reflexivity].
  destruct (Hkey _ _ E) as [Hcid _].
  destruct (plain_b (t_status c)); [|reflexivity].
  destruct (node_update eps m (set_status c Releasing)) as [[m' t']|e] eqn:Eu.
  - unfold node_update in Eu. destruct (node_add_spec eps _ _ _ _ Eu) as (_ & _ & -> & _).
    destruct (node_remove_fields m (t_id (set_status c Releasing))) as (_ & _ & _ & ->). simpl. rewrite Hcid.
    rewrite lookup_insert_ne by congruence. apply lookup_delete_ne. congruence.
  - destruct (node_remove_fields m v) as (_ & _ & _ & ->). apply lookup_delete_ne. congruence.
Qed.

(* the real node after evicting the victims: FutureIdle is what the dry run computed *)
Lemma evict_all vs : forall m st,
  stackP eps m st -> NoDup vs -> Forall cand_ok vs -> (forall v, v ∈ vs -> n_tasks m !! v = n_tasks n !! v) ->
  exists st', stackP eps (fold_left (nevict eps) vs m) st' /\
              forall d, fut_amt (fold_left (nevict eps) vs m) d = fut_amt m d + rsum vs d.
Proof.
  induction vs as [|v vs IH]; intros m st Hst Hnd Hc Hsame; simpl; [exists st; split; [exact Hst|intros d; lia]|].
  inversion Hnd as [|? ? Hnin Hnd']; subst. inversion Hc as [|? ? (c & Hl & Hp) Hc']; subst.
  assert (Hlm : n_tasks m !! v = Some c) by (rewrite Hsame by left; exact Hl).
  destruct (stack_evict eps m st v c Hst Hlm Hp) as (Hst1 & Hfut1).
  destruct (IH (nevict eps m v) _ Hst1 Hnd' Hc') as (st' & Hst' & Hfut').
  - intros w Hw. rewrite nevict_tasks_ne; [apply Hsame; right; exact Hw|apply Hst|intros ->; exact (Hnin Hw)].
  - exists st'. split; [exact Hst'|]. intros d. rewrite (Hfut' d), (Hfut1 d).
    assert (Hrq : req_of v = t_req c) by (unfold req_of; rewrite Hl; reflexivity). rewrite Hrq. lia.
Qed.

(* main theorem: whatever the pop order q of the candidates (distinct copies of the node with a
   plain status, cand_ok; the code's candidates are Running / Bound) of the
   node) and whatever the other votes, evicting exactly the victims SelectVictimsOnNode returns and
   pipelining the preemptor leaves the node within capacity *)
Theorem select_victims_safe q vs n' t' :
  NoDup q -> Forall cand_ok q ->
  select_victims eps extra future_idle p n q = Some vs ->
  preempt_on eps p n vs = inl (n', t') ->
  node_within_capacity eps n'.
Proof.
  intros Hnd Hq Hsel Hpre. unfold select_victims in Hsel.
  destruct (remove_until eps extra future_idle p n q []) as [dry pots] eqn:Er.
  destruct (remove_until_inv q n [] dry pots dry_inv_init) as [Hd Hpots]; try assumption; [constructor|intros v _ Hc; inversion Hc|].
  destruct pots as [|v0 pots0]; [discriminate|].
  destruct (pfits eps extra future_idle p dry) eqn:Ef; [|discriminate].
  destruct (reprieve eps extra future_idle p n dry (v0 :: pots0) []) as [[dry' vs']|] eqn:Erp; [|discriminate].
  inversion Hsel; subst vs'. clear Hsel.
  destruct (reprieve_inv (v0 :: pots0) dry [] dry' vs) as (Hd' & Hvs & Hfit); try assumption; [constructor|apply (pfits_rfits dry); assumption|].
  destruct (evict_all vs n [] (stackP_nil eps n Hbase) (di_nodup _ _ Hd') Hvs) as (st' & Hst' & Hfut'); [intros; reflexivity|].
  unfold preempt_on in Hpre.
  apply (node_add_guarded_keeps_capacity eps eps_pos (fold_left (nevict eps) vs n) (set_status p Pipelined) n' t'
           (proj1 (stackP_safe eps _ _ Hst')) p_nonneg); [|exact Hpre].
  unfold add_guard. simpl. intros d Hdd. rewrite (Hfut' d). apply (Hfit d Hdd).
Qed.

End Safe.
