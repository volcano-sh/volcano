(* Property C02: what the statement operations and the action skeleton do to the nodes
   map -- always a sequence of guarded AddTask / RemoveTask calls ([nsteps]) -- and the main
   theorem: no choice list makes any node leave "within capacity", at any prefix. *)
From stdpp Require Import gmap.
From Coq Require Import ZArith Lia.
From V Require Import Sched.LedgerLemmasA Sched.LedgerLemmasNode Base.Res Base.ResLemmas Sched.LedgerModel Sched.StmtModel Sched.GangModel Sched.CycleModel
                      Sched.LedgerInvP Sched.NodeCapLemmas.
Open Scope Z_scope.

Definition node_safe (eps : Z) (n : node) : Prop :=
  node_within_capacity eps n /\ forall i c, n_tasks n !! i = Some c -> nonneg (t_req c).
Definition nodes_safe (eps : Z) (ns : gmap positive node) : Prop :=
  forall i n, ns !! i = Some n -> node_safe eps n.

(* a sequence of RemoveTask / guarded AddTask calls on the nodes of a map *)
Inductive nsteps (eps : Z) : gmap positive node -> gmap positive node -> Prop :=
| ns_refl ns : nsteps eps ns ns
| ns_remove ns nid n tid ns' :
    ns !! nid = Some n -> nsteps eps (<[nid := node_remove n tid]> ns) ns' -> nsteps eps ns ns'
| ns_add ns nid n t n' t' ns' :
    ns !! nid = Some n -> nonneg (t_req t) -> add_guard eps n t -> node_add eps n t = inl (n', t') ->
    nsteps eps (<[nid := n']> ns) ns' -> nsteps eps ns ns'.

Lemma nsteps_trans eps a b c : nsteps eps a b -> nsteps eps b c -> nsteps eps a c.
Proof.
  induction 1; intros Hc; [exact Hc| |].
  - eapply ns_remove; eauto.
  - eapply ns_add; eauto.
Qed.

Lemma nsteps_eq eps a b : a = b -> nsteps eps a b.
Proof. intros ->. apply ns_refl. Qed.

Section Cycle.
Variable eps : Z.
Hypothesis eps_pos : 0 < eps.

Lemma node_remove_safe n tid : node_safe eps n -> node_safe eps (node_remove n tid).
Proof.
  intros [Hc Hnn]. split.
  - apply node_remove_keeps_capacity; [exact Hc|]. intros c Hl. eapply Hnn; exact Hl.
  - intros i c. destruct (node_remove_fields n tid) as (_ & _ & _ & ->).
    intros Hl. apply lookup_delete_Some in Hl as [_ Hl]. eapply Hnn; exact Hl.
Qed.

Lemma node_add_safe n t n' t' :
  node_safe eps n -> nonneg (t_req t) -> add_guard eps n t -> node_add eps n t = inl (n', t') -> node_safe eps n'.
Proof.
  intros [Hc Hnn] Ht Hg Ha. split.
  - eapply node_add_guarded_keeps_capacity; eauto.
  - intros i c. destruct (node_add_spec eps n t n' t' Ha) as (_ & _ & -> & _). intros Hl.
    apply lookup_insert_Some in Hl as [[_ <-]|[_ Hl]]; [exact Ht|eapply Hnn; exact Hl].
Qed.

(* whatever RemoveTask and guarded AddTask keep of a node, such a sequence keeps of every node *)
Lemma nsteps_keeps (P : node -> Prop) :
  (forall n tid, P n -> P (node_remove n tid)) ->
  (forall n t n' t', P n -> nonneg (t_req t) -> add_guard eps n t -> node_add eps n t = inl (n', t') -> P n') ->
  forall a b, nsteps eps a b -> (forall i n, a !! i = Some n -> P n) -> forall i n, b !! i = Some n -> P n.
Proof.
  intros Hrem Hadd a b.
  assert (Hins : forall (ns : gmap positive node) nid n,
            (forall i m, ns !! i = Some m -> P m) -> P n -> forall i m, <[nid := n]> ns !! i = Some m -> P m).
  { intros ns nid n Hns Hn i m Hl. apply lookup_insert_Some in Hl as [[_ <-]|[_ Hl]]; [exact Hn|eapply Hns; exact Hl]. }
  induction 1 as [|ns nid n tid ns' Hl _ IH|ns nid n t n' t' ns' Hl Hnn Hg Ha _ IH]; intros Hs; [exact Hs| |].
  - apply IH, Hins; [exact Hs|]. apply Hrem, (Hs _ _ Hl).
  - apply IH, Hins; [exact Hs|]. apply (Hadd n t n' t'); [apply (Hs _ _ Hl)|assumption..].
Qed.

(* such a sequence keeps every node safe *)
Theorem nsteps_safe a b : nsteps eps a b -> nodes_safe eps a -> nodes_safe eps b.
Proof. exact (nsteps_keeps (node_safe eps) node_remove_safe node_add_safe a b). Qed.

(* what the theorem asks of a task: non-negative granular request, Resreq <= InitResreq (the
   guards look at InitResreq, the ledger moves Resreq), and BestEffort only if InitResreq.IsEmpty() *)
Definition task_ok (t : task) : Prop :=
  nonneg (t_req t) /\ granular eps (t_req t) /\ (forall d, amt (t_req t) d <= amt (t_init t) d) /\
  (t_best_effort t = true -> is_empty eps (t_init t) = true).

(* backfill's missing resource test is harmless: an empty request is zero wherever the guard looks *)
Lemma best_effort_zero t d :
  task_ok t -> t_best_effort t = true -> guarded_dim d -> amt (t_req t) d = 0.
Proof.
  intros (Hnn & Hgr & Hdom & Hbe) Hb Hd. specialize (Hbe Hb).
  unfold is_empty in Hbe. rewrite !andb_true_iff, !lt_spec, map_allb_spec in Hbe.
  destruct Hbe as [[Hc Hm] Hs].
  assert (Hlt : amt (t_init t) d < eps).
  { destruct d as [| |k]; simpl; [exact Hc|exact Hm|].
    unfold sget. destruct (scm (t_init t) !! k) as [v|] eqn:E; simpl; [|exact eps_pos].
    specialize (Hs k v E). apply orb_true_iff in Hs as [Hi|Hv].
    - unfold ignored in Hi. apply bool_decide_eq_true in Hi. subst k. exfalso. apply Hd. reflexivity.
    - apply lt_spec in Hv. exact Hv. }
  specialize (Hdom d). destruct (Hgr d) as [Hz|Hge]; [exact Hz|lia].
Qed.

Definition ptask_ok (s : sess) (t : task) : Prop := task_ok t /\ is_Some (jobs s !! t_job t).

Definition no_evict (l : list oprec) : Prop := Forall (fun o => op_kind o <> KEvict) l.

Definition sess_okp (h : gmap positive task) (js : gmap positive job) (st : gmap positive (list oprec)) : Prop :=
  (forall i t, h !! i = Some t -> task_ok t /\ is_Some (js !! t_job t)) /\
  (forall sid l, st !! sid = Some l -> no_evict l).
Definition sess_ok (s : sess) : Prop := sess_okp (heap s) (jobs s) (stmts s).

Lemma sess_ok_frame s s' :
  heap s' = heap s -> jobs s' = jobs s -> stmts s' = stmts s -> sess_ok s -> sess_ok s'.
Proof. unfold sess_ok. intros -> -> ->. auto. Qed.

Lemma sess_ok_heap s i t : sess_ok s -> heap s !! i = Some t -> ptask_ok s t.
Proof. intros [H _] Hl. apply (H i t Hl). Qed.

Lemma sess_ok_put s t : sess_ok s -> ptask_ok s t -> sess_ok (put_task s t).
Proof.
  intros [Hh Hst] Hp. split; [|exact Hst]. simpl. intros i u Hl.
  apply lookup_insert_Some in Hl as [[_ <-]|[_ Hl]]; [exact Hp|apply (Hh i u Hl)].
Qed.

Lemma ptask_ok_status s t st : ptask_ok s t -> ptask_ok s (set_status t st).
Proof. intros H. exact H. Qed.
Lemma ptask_ok_node s t n : ptask_ok s t -> ptask_ok s (set_node t n).
Proof. intros H. exact H. Qed.

(* [moves s s']: s' still satisfies the session hypotheses and its nodes come from those of s by
   RemoveTask / guarded AddTask calls; what every operation of the skeleton is shown to do *)
Definition moves (s s' : sess) : Prop := sess_ok s' /\ nsteps eps (nodes s) (nodes s').

Lemma moves_same s s' : sess_ok s' -> nodes s' = nodes s -> moves s s'.
Proof. intros Hs Hn. split; [exact Hs|apply nsteps_eq; symmetry; exact Hn]. Qed.

Lemma moves_trans a b c : moves a b -> moves b c -> moves a c.
Proof. intros [_ H1] [H2 H3]. split; [exact H2|eapply nsteps_trans; eassumption]. Qed.

Lemma ssn_update_status_spec s p st :
  sess_ok s -> ptask_ok s p ->
  exists s1, ssn_update_status s p st = (true, s1, set_status p st) /\
    nodes s1 = nodes s /\ sess_ok s1 /\ ptask_ok s1 (set_status p st).
Proof.
  intros [Hh Hst] [Hok [j Hj]]. unfold ssn_update_status. rewrite Hj. unfold job_update. cbv zeta.
  eexists. split; [reflexivity|]. split; [reflexivity|]. split.
  - split; [|exact Hst]. simpl. intros i u Hl.
    apply lookup_insert_Some in Hl as [[_ <-]|[_ Hl]].
    + split; [exact Hok|]. simpl. rewrite lookup_insert. eauto.
    + destruct (Hh i u Hl) as [H1 H2]. split; [exact H1|].
      destruct (Pos.eq_dec (t_job p) (t_job u)) as [->|Hne]; [rewrite lookup_insert; eauto|].
      rewrite lookup_insert_ne by exact Hne. exact H2.
  - split; [exact Hok|]. simpl. rewrite lookup_insert. eauto.
Qed.

Lemma ssn_node_remove_spec s p :
  heap (ssn_node_remove s p) = heap s /\ jobs (ssn_node_remove s p) = jobs s /\
  stmts (ssn_node_remove s p) = stmts s /\ nsteps eps (nodes s) (nodes (ssn_node_remove s p)).
Proof.
  unfold ssn_node_remove. destruct (t_node p) as [nid|]; [|repeat split; apply ns_refl].
  destruct (nodes s !! nid) as [n|] eqn:E; [|repeat split; apply ns_refl].
  repeat split. simpl. eapply ns_remove; [exact E|apply ns_refl].
Qed.

Lemma unallocate_with_ok s p : sess_ok s -> ptask_ok s p -> moves s (unallocate_with s p).
Proof.
  intros Hs Hp. destruct (ssn_update_status_spec s p Pending Hs Hp) as (s1 & E & Hn & Hs1 & Hp1).
  unfold unallocate_with. rewrite E.
  destruct (ssn_node_remove_spec s1 (set_status p Pending)) as (Hh & Hj & Hst & Hns).
  split.
  - apply sess_ok_put.
    + apply (sess_ok_frame s1); [exact Hh|exact Hj|exact Hst|exact Hs1].
    + destruct Hp1 as [H1 H2]. split; [exact H1|]. simpl. rewrite Hj. exact H2.
  - simpl. rewrite <- Hn. exact Hns.
Qed.

Lemma push_op_ok s sid k tid prev : sess_ok s -> k <> KEvict -> sess_ok (push_op s sid k tid prev).
Proof.
  intros [Hh Hst] Hk. split; [exact Hh|]. simpl. intros sid' l Hl.
  apply lookup_insert_Some in Hl as [[_ <-]|[_ Hl]]; [|apply (Hst sid' l Hl)].
  apply Forall_app. split.
  - destruct (stmts s !! sid) as [l0|] eqn:E; simpl; [apply (Hst sid l0 E)|constructor].
  - constructor; [exact Hk|constructor].
Qed.

Definition place_guard (k : opkind) (n : node) (r : res) : Prop :=
  match k with
  | KAllocate => fits eps r (amt (n_idle n)) /\ fits eps r (fut_amt n)
  | _ => fits eps r (fut_amt n)
  end.

Definition placed_status (k : opkind) : status := match k with KAllocate => Allocated | _ => Pipelined end.

(* the part shared by Statement.Allocate / Pipeline and Session.Allocate / Pipeline: the task is
   re-filed with its new status and node name, then added to the node under the guard *)
Lemma placing s k p nid :
  sess_ok s -> ptask_ok s p -> (forall n, nodes s !! nid = Some n -> place_guard k n (t_req p)) ->
  exists s1, ssn_update_status s p (placed_status k) = (true, s1, set_status p (placed_status k)) /\ nodes s1 = nodes s /\
    let p2 := set_node (set_status p (placed_status k)) (Some nid) in
    ptask_ok (put_task s1 p2) p2 /\ moves s (put_task s1 p2) /\
    forall n n' p', nodes s !! nid = Some n -> node_add eps n p2 = inl (n', p') ->
      let s3 := put_task (upd_nodes (put_task s1 p2) (<[nid := n']> (nodes s))) p' in
      ptask_ok s3 p' /\ moves s s3.
Proof.
  intros Hs Hp Hg. destruct (ssn_update_status_spec s p (placed_status k) Hs Hp) as (s1 & E & Hn & Hs1 & Hp1).
  exists s1. split; [exact E|]. split; [exact Hn|]. intros p2.
  assert (Hp2 : ptask_ok (put_task s1 p2) p2) by exact Hp1.
  assert (Hs2 : sess_ok (put_task s1 p2)) by (apply sess_ok_put; assumption).
  split; [exact Hp2|]. split; [apply moves_same; [exact Hs2|exact Hn]|].
  intros n n' p' En Ea s3. destruct (node_add_spec eps n p2 n' p' Ea) as (-> & _).
  assert (Hp3 : ptask_ok s3 (set_node p2 (Some (n_id n)))) by exact Hp1.
  split; [exact Hp3|]. split; [apply sess_ok_put; [exact Hs2|exact Hp3]|].
  simpl. eapply (ns_add eps _ nid n p2); [exact En|exact (proj1 (proj1 Hp))| |exact Ea|apply ns_refl].
  specialize (Hg n En). unfold add_guard, place_guard in *. destruct k; simpl; auto.
Qed.

Lemma place_with_ok s sid k p nid :
  k <> KEvict -> sess_ok s -> ptask_ok s p ->
  (forall n, nodes s !! nid = Some n -> place_guard k n (t_req p)) ->
  moves s (fst (place_with eps s sid k p nid)).
Proof.
  intros Hk Hs Hp Hg. destruct (placing s k p nid Hs Hp Hg) as (s1 & E & Hn & H). cbv zeta in H.
  unfold place_with. fold (placed_status k). rewrite E.
  set (p2 := set_node (set_status p (placed_status k)) (Some nid)) in *. destruct H as (Hp2 & H12 & Hadd).
  (* a placement that fails is rolled back by unallocate *)
  assert (Htail : forall s3 p3, moves s s3 -> ptask_ok s3 p3 -> moves s (unallocate_with (snd (h_alloc s3 p3)) p3)).
  { intros s3 p3 H3 Hp3. apply (moves_trans _ s3); [exact H3|].
    exact (unallocate_with_ok (snd (h_alloc s3 p3)) p3 (proj1 H3) Hp3). }
  change (nodes (put_task s1 p2)) with (nodes s1). rewrite Hn.
  destruct (nodes s !! nid) as [n|] eqn:En.
  - destruct (node_add eps n p2) as [[n' p']|e] eqn:Ea.
    + destruct (Hadd n n' p' eq_refl Ea) as [Hp3 H13].
      unfold h_alloc. cbv beta zeta iota.
      match goal with |- context [negb (bool_decide ?P)] => destruct (negb (bool_decide P)) end; cbn [andb fst].
      * split; [apply push_op_ok; [exact (proj1 H13)|exact Hk]|exact (proj2 H13)].
      * exact (Htail _ p' H13 Hp3).
    + unfold h_alloc. cbv beta zeta iota. cbn [andb fst]. exact (Htail _ p2 H12 Hp2).
  - unfold h_alloc. cbv beta zeta iota. cbn [andb fst]. exact (Htail _ p2 H12 Hp2).
Qed.

Lemma fold_ops_ok (f : sess -> oprec -> sess) :
  (forall s o, op_kind o <> KEvict -> sess_ok s -> moves s (f s o)) ->
  forall l s, no_evict l -> sess_ok s -> moves s (fold_left f l s).
Proof.
  intros Hf l. induction l as [|o l IH]; intros s Hl Hs; simpl; [apply moves_same; [exact Hs|reflexivity]|].
  inversion Hl as [|? ? Ho Hl']; subst.
  pose proof (Hf s o Ho Hs) as H1. eapply moves_trans; [exact H1|]. apply IH; [exact Hl'|exact (proj1 H1)].
Qed.

Lemma undo_op_ok s o : op_kind o <> KEvict -> sess_ok s -> moves s (undo_op eps s o).
Proof.
  intros Hk Hs. unfold undo_op. destruct (heap s !! op_task o) as [p|] eqn:E; [|apply moves_same; [exact Hs|reflexivity]].
  pose proof (sess_ok_heap s _ p Hs E) as Hp.
  destruct (op_kind o); [congruence| |]; apply unallocate_with_ok; assumption.
Qed.

Lemma commit_op_ok s o : op_kind o <> KEvict -> sess_ok s -> moves s (commit_op eps s o).
Proof.
  intros Hk Hs. unfold commit_op. destruct (heap s !! op_task o) as [p|] eqn:E; [|apply moves_same; [exact Hs|reflexivity]].
  pose proof (sess_ok_heap s _ p Hs E) as Hp.
  destruct (op_kind o); [congruence|apply moves_same; [exact Hs|reflexivity]|].
  case_bool_decide; [apply unallocate_with_ok; assumption|]. cbv zeta.
  set (s1 := upd_logs s ((t_id p, t_node p) :: binds s) (evicts s)).
  assert (Hs1 : sess_ok s1) by exact Hs. assert (Hp1 : ptask_ok s1 p) by exact Hp.
  destruct (ssn_update_status_spec s1 p Binding Hs1 Hp1) as (s2 & E2 & Hn & Hs2 & _).
  rewrite E2. apply moves_same; [exact Hs2|exact Hn].
Qed.

Lemma clear_stmt_ok s sid : sess_ok s -> sess_ok (upd_stmts s (<[sid := []]> (stmts s))).
Proof.
  intros [Hh Hst]. split; [exact Hh|]. simpl. intros sid' l Hl.
  apply lookup_insert_Some in Hl as [[_ <-]|[_ Hl]]; [constructor|apply (Hst sid' l Hl)].
Qed.

Lemma stmt_ops_no_evict s sid : sess_ok s -> no_evict (default [] (stmts s !! sid)).
Proof. intros [_ Hst]. destruct (stmts s !! sid) as [l|] eqn:E; simpl; [apply (Hst sid l E)|constructor]. Qed.

Theorem stmt_commit_ok s sid : sess_ok s -> moves s (stmt_commit eps s sid).
Proof.
  intros Hs. unfold stmt_commit. cbv zeta.
  destruct (fold_ops_ok (commit_op eps) commit_op_ok (default [] (stmts s !! sid)) s (stmt_ops_no_evict s sid Hs) Hs) as [H1 H2].
  split; [apply clear_stmt_ok; exact H1|exact H2].
Qed.

Theorem stmt_discard_ok s sid : sess_ok s -> moves s (stmt_discard eps s sid).
Proof.
  intros Hs. unfold stmt_discard. cbv zeta.
  assert (Hrev : no_evict (rev (default [] (stmts s !! sid)))) by (apply Forall_rev, stmt_ops_no_evict; exact Hs).
  destruct (fold_ops_ok (undo_op eps) undo_op_ok _ s Hrev Hs) as [H1 H2].
  split; [apply clear_stmt_ok; exact H1|exact H2].
Qed.

Lemma dispatch_ok s tid : sess_ok s -> sess_ok (fst (dispatch s tid)) /\ nodes (fst (dispatch s tid)) = nodes s.
Proof.
  intros Hs. unfold dispatch. destruct (heap s !! tid) as [p|] eqn:E; [|split; [exact Hs|reflexivity]].
  case_bool_decide; [split; [exact Hs|reflexivity]|]. cbv zeta.
  set (s1 := upd_logs s ((tid, t_node p) :: binds s) (evicts s)).
  assert (Hs1 : sess_ok s1) by exact Hs. assert (Hp1 : ptask_ok s1 p) by exact (sess_ok_heap s _ p Hs E).
  destruct (ssn_update_status_spec s1 p Binding Hs1 Hp1) as (s2 & E2 & Hn & Hs2 & _).
  rewrite E2. simpl. split; [exact Hs2|exact Hn].
Qed.

(* a task whose dispatch fails is unallocated (Session.undoAllocation): a RemoveTask step *)
Lemma dispatch_all_ok l : forall s, sess_ok s -> moves s (fst (dispatch_all s l)).
Proof.
  induction l as [|t l IH]; intros s Hs; simpl; [apply moves_same; [exact Hs|reflexivity]|].
  destruct (dispatch_ok s t Hs) as [H1 H2]. destruct (dispatch s t) as [s1 ok]. simpl in H1, H2.
  apply (moves_trans _ s1); [apply moves_same; assumption|].
  destruct ok; [apply IH; exact H1|]. simpl.
  destruct (heap s1 !! t) as [p|] eqn:Ep; [|apply moves_same; [exact H1|reflexivity]].
  apply unallocate_with_ok; [exact H1|exact (sess_ok_heap s1 _ p H1 Ep)].
Qed.

Theorem ssn_place_with_ok jr s k tid nid :
  sess_ok s ->
  (forall p n, heap s !! tid = Some p -> nodes s !! nid = Some n -> place_guard k n (t_req p)) ->
  moves s (fst (ssn_place_with eps jr s k tid nid)).
Proof.
  intros Hs Hg. unfold ssn_place_with.
  destruct (heap s !! tid) as [p|] eqn:Eh; [|apply moves_same; [exact Hs|reflexivity]].
  pose proof (sess_ok_heap s _ p Hs Eh) as Hp.
  destruct (placing s k p nid Hs Hp (fun n En => Hg p n eq_refl En)) as (s1 & E & Hn & H). cbv zeta in H.
  fold (placed_status k). rewrite E. simpl negb. cbv iota.
  set (p2 := set_node (set_status p (placed_status k)) (Some nid)) in *. destruct H as (Hp2 & H12 & Hadd).
  (* revertPlacement touches jobs and heap only *)
  destruct (ssn_update_status_spec (put_task s1 p2) p2 Pending (proj1 H12) Hp2) as (sr & Er & Hnr & Hsr & Hpr).
  cbv zeta. rewrite Er.
  assert (Hrev : moves s (put_task sr (set_node (set_status p2 Pending) None))).
  { apply moves_same; [apply sess_ok_put; [exact Hsr|exact Hpr]|]. simpl. rewrite Hnr. exact Hn. }
  change (nodes (put_task s1 p2)) with (nodes s1). rewrite Hn.
  destruct (nodes s !! nid) as [n|] eqn:En; [|exact Hrev].
  destruct (node_add eps n p2) as [[n' p3]|e] eqn:Ea; [|exact Hrev].
  destruct (Hadd n n' p3 eq_refl Ea) as [_ H13].
  unfold h_alloc. cbv beta zeta iota.
  match goal with |- context [(?S, ROk)] => set (s4 := S) end.
  assert (H14 : moves s s4) by exact H13.
  destruct k; try exact H14.
  destruct (jobs s4 !! t_job p) as [j|]; [|exact H14].
  destruct (jr s4 j); [|exact H14].
  pose proof (dispatch_all_ok (elements (default ∅ (j_index j !! skey Allocated))) s4 (proj1 H14)) as H45.
  destruct (dispatch_all s4 _) as [s5 ok]. exact (moves_trans _ _ _ H14 H45).
Qed.

Definition cap_inv (s : sess) : Prop := sess_ok s /\ nodes_safe eps (nodes s).

Lemma cap_inv_step s s' : cap_inv s -> moves s s' -> cap_inv s'.
Proof. intros [_ Hn] [Hs' Hst]. split; [exact Hs'|]. eapply nsteps_safe; eassumption. Qed.

Theorem try_place_ok s sid tid nid : cap_inv s -> moves s (fst (try_place eps s sid tid nid)).
Proof.
  intros [Hs Hsafe]. pose proof (moves_same s s Hs eq_refl) as Hstay. unfold try_place.
  destruct (heap s !! tid) as [p|] eqn:Eh; [|exact Hstay].
  destruct (nodes s !! nid) as [n|] eqn:En; [|exact Hstay].
  pose proof (sess_ok_heap s _ p Hs Eh) as Hp. destruct (Hsafe nid n En) as [Hc _].
  pose proof Hp as [(_ & _ & Hdom & _) _].
  destruct (less_equal_names eps (t_init p) (future_idle n) DZero) eqn:Hfn; simpl negb; cbv iota; [|exact Hstay].
  rewrite (less_equal_names_zero eps) in Hfn.
  pose proof (fits_fut eps eps_pos n (t_init p) (t_req p) Hc Hfn Hdom) as Hff.
  assert (Hplace : forall k, k <> KEvict -> place_guard k n (t_req p) ->
            moves s (fst (with_task s tid (fun p => place_with eps s sid k p nid)))).
  { intros k Hk Hg. unfold with_task. rewrite Eh. apply place_with_ok; [exact Hk|exact Hs|exact Hp|].
    intros n0 En0. rewrite En in En0. inversion En0; subst. exact Hg. }
  destruct (less_equal eps (t_init p) (n_idle n) DZero) eqn:Hi.
  - specialize (Hplace KAllocate ltac:(discriminate) (conj (fits_idle eps eps_pos n (t_init p) (t_req p) Hc Hi Hdom) Hff)).
    unfold stmt_allocate. destruct (with_task s tid _) as [s' r]. exact Hplace.
  - rewrite Hfn. specialize (Hplace KPipeline ltac:(discriminate) Hff).
    unfold stmt_pipeline. destruct (with_task s tid _) as [s' r]. exact Hplace.
Qed.

Lemma do_places_ok w sid jid l : forall s, cap_inv s -> moves s (fst (do_places eps w s sid jid l)).
Proof.
  induction l as [|[tid nid] l IH]; intros s Hinv; pose proof (moves_same s s (proj1 Hinv) eq_refl) as Hstay; simpl; [exact Hstay|].
  destruct (heap s !! tid) as [p|]; [|exact Hstay].
  destruct (negb _); [exact Hstay|]. destruct (negb _); [exact Hstay|].
  pose proof (try_place_ok s sid tid nid Hinv) as H1.
  destruct (try_place eps s sid tid nid) as [s' r]. simpl in H1.
  exact (moves_trans _ _ _ H1 (IH s' (cap_inv_step s s' Hinv H1))).
Qed.

(* one step of the skeleton: the nodes move by guarded AddTask / RemoveTask calls only *)
Theorem step_ok w o : cap_inv (w_sess w) -> moves (w_sess w) (w_sess (fst (step eps w o))).
Proof.
  intros Hinv. pose proof (moves_same _ _ (proj1 Hinv) eq_refl) as Hstay. destruct o as [jid places|tid nid]; simpl.
  - pose proof (do_places_ok w (w_next_stmt w) jid places (w_sess w) Hinv) as H1.
    destruct (do_places eps w (w_sess w) (w_next_stmt w) jid places) as [s1 v]. simpl in H1. simpl.
    destruct (decide s1 jid); [|exact H1|]; apply (moves_trans _ s1); try exact H1;
      [apply stmt_commit_ok|apply stmt_discard_ok]; exact (proj1 H1).
  - destruct (heap (w_sess w) !! tid) as [p|] eqn:Eh; [|exact Hstay].
    destruct (negb (bool_decide (t_status p = Pending))); [exact Hstay|].
    destruct (t_best_effort p) eqn:Hbe; simpl negb; cbv iota; [|exact Hstay].
    destruct Hinv as [Hs Hsafe].
    pose proof (ssn_place_with_ok (fun s j => gang_job_ready (heap s) j) (w_sess w) KAllocate tid nid Hs) as H1.
    destruct (ssn_place_with eps _ (w_sess w) KAllocate tid nid) as [s1 r]. apply H1.
    intros p0 n Ep En. rewrite Eh in Ep. inversion Ep; subst p0.
    destruct (sess_ok_heap _ _ p Hs Eh) as [Hok _]. destruct (Hsafe nid n En) as [Hc _].
    split; apply fits_zero; try (intros d Hd; apply (best_effort_zero p d Hok Hbe Hd));
      intros d Hd; apply (nwc_elim eps n d Hc Hd).
Qed.

Definition world_ok (w : world) : Prop := cap_inv (w_sess w).

Corollary step_nodes w o :
  world_ok w -> nsteps eps (nodes (w_sess w)) (nodes (w_sess (fst (step eps w o)))).
Proof. intros Hw. exact (proj2 (step_ok w o Hw)). Qed.

Lemma step_world_ok w o : world_ok w -> world_ok (fst (step eps w o)).
Proof. intros H. exact (cap_inv_step _ _ H (step_ok w o H)). Qed.

Lemma run_world_ok ops : forall w, world_ok w -> world_ok (run eps w ops).
Proof.
  induction ops as [|o ops IH]; intros w H; [exact H|]. simpl. apply IH. apply step_world_ok. exact H.
Qed.

(* main theorem: whatever the actions try -- any jobs, any (task, node) pairs, any number of
   attempts, any backfill placements -- every node stays within capacity, at every prefix *)
Theorem cycle_no_overcommit w ops k i n :
  world_ok w ->
  nodes (w_sess (run eps w (take k ops))) !! i = Some n -> node_within_capacity eps n.
Proof. intros Hw Hl. destruct (run_world_ok (take k ops) w Hw) as [_ Hsafe]. apply (Hsafe i n Hl). Qed.

Corollary cycle_no_overcommit_final w ops i n :
  world_ok w -> nodes (w_sess (run eps w ops)) !! i = Some n -> node_within_capacity eps n.
Proof. intros Hw. rewrite <- (firstn_all ops) at 1. apply cycle_no_overcommit. exact Hw. Qed.

(* the tolerance does not accumulate.  The bound after any number of steps is the -eps of
   a single comparison, because "above -eps" is the invariant itself, not a sum of per-step errors *)
Theorem tolerance_bounded w ops k i n d :
  world_ok w -> nodes (w_sess (run eps w (take k ops))) !! i = Some n -> guarded_dim d ->
  - eps < amt (n_idle n) d /\ - eps < amt (n_idle n) d + amt (n_releasing n) d - amt (n_pipelined n) d.
Proof. intros Hw Hl Hd. apply (cycle_no_overcommit w ops k i n Hw Hl). exact Hd. Qed.

End Cycle.

(* When every amount is a multiple of a grid step g >= eps (Kubernetes quantities: 1 milli-unit =
   16 model units, eps = 2), "above -eps" is "non-negative" (above_minus_eps_nonneg); with the ledger
   identities that gives the property's wording, the summed requests of the tasks a node holds never
   exceed its allocatable amount: NodeSumLemmas.sums_grid.  [on_grid] is the grid hypothesis over
   the list of copies (the vocabulary of node_inv, C07); NodeSumLemmas.node_on_grid is the same over
   the task map. *)
Section Grid.
Variables eps g : Z.
Hypothesis eps_pos : 0 < eps.
Hypothesis eps_le_g : eps <= g.

Lemma above_minus_eps_nonneg x : (g | x) -> - eps < x -> 0 <= x.
Proof.
  intros [q ->] H. destruct (Z_lt_le_dec q 0) as [Hq|Hq]; [|nia].
  assert (q * g <= - g) by nia. lia.
Qed.

Definition on_grid (n : node) (d : dim) : Prop :=
  (g | amt (n_alloc n) d) /\ Forall (fun c => (g | amt (t_req c) d)) (copies n).

End Grid.
