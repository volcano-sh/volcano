(* C03: events_balance and queue_cap_invariant, by induction over the micro-step
   decomposition of QueueLemmasReach.v. *)
From stdpp Require Import gmap.
From Coq Require Import ZArith Lia.
From V Require Import Base.Res Base.ResLemmas Sched.LedgerModel Sched.StmtModel Sched.GangModel
                      Sched.CycleModel Sched.LedgerInvP Sched.LedgerLemmasA Sched.QueueLemmasBase Sched.QueueLemmasReach.
Open Scope Z_scope.

(* ---------- static well-formedness ---------- *)

(* a best-effort task requests nothing (outside the pod count) *)
Definition be_empty (h : gmap positive task) : Prop :=
  forall i t, h !! i = Some t -> t_best_effort t = true ->
  forall d, d <> DSc pods_name -> amt (t_req t) d = 0.

Definition stat_ok (s : sess) : Prop :=
  forall i r j b, tstat s i = Some (r, j, b) ->
    nonneg r /\ (b = true -> forall d, d <> DSc pods_name -> amt r d = 0).

Definition world_ok (w : world) : Prop :=
  heap_ok (heap (w_sess w)) /\ be_empty (heap (w_sess w)) /\ no_evict (w_sess w).

Lemma world_ok_ids w : world_ok w -> heap_ids (w_sess w).
Proof. intros (Hh & _ & _) i t Hl. apply (Hh i t Hl). Qed.
Lemma world_ok_stat w : world_ok w -> stat_ok (w_sess w).
Proof.
  intros (Hh & Hb & _) i r j b. unfold tstat. destruct (heap (w_sess w) !! i) as [t|] eqn:E; simpl; [|discriminate].
  unfold stat_of. intros H. inversion H; subst. split; [apply (Hh i t E)|]. intros Hbe. exact (Hb i t E Hbe).
Qed.
Lemma stat_ok_move s s' : stat_eq s s' -> stat_ok s -> stat_ok s'.
Proof. intros He Hs i r j b. rewrite (se_t _ _ He). apply Hs. Qed.

(* ---------- effect of the two handlers on a queue's share ---------- *)

Definition qterm (s : sess) (p : task) (q : positive) (d : dim) : Z :=
  if bool_decide (jq s (t_job p) = Some q) then amt (t_req p) d else 0.

Lemma share_alloc s p q d :
  amt (share_of (snd (h_alloc s p)) q) d = amt (share_of s q) d + qterm s p q d.
Proof.
  rewrite !share_of_amt. unfold h_alloc. simpl. rewrite msum_insert.
  unfold qterm. change (jq (upd_handlers s _ _)) with (jq s).
  destruct (bool_decide (jq s (t_job p) = Some q)); [rewrite amt_add|]; lia.
Qed.

Lemma share_dealloc s p q d :
  0 <= amt (t_req p) d ->
  amt (share_of s q) d - qterm s p q d <= amt (share_of (h_dealloc s p) q) d <= amt (share_of s q) d /\
  (d = DCpu \/ d = DMem -> amt (share_of (h_dealloc s p) q) d = amt (share_of s q) d - qterm s p q d).
Proof.
  intros Hn. rewrite !share_of_amt. unfold h_dealloc. simpl. rewrite msum_insert.
  unfold qterm. change (jq (upd_handlers s _ _)) with (jq s).
  destruct (bool_decide (jq s (t_job p) = Some q)).
  - pose proof (amt_sub_bounds (default empty_res (hshare s !! t_job p)) (t_req p) d Hn).
    split; [lia|]. intros Hd. rewrite amt_sub_exact by tauto. lia.
  - split; [lia|]. intros _. lia.
Qed.

(* ---------- events_balance ---------- *)

(* the request behind a handler event, counted for queue q in dimension d *)
Definition ev_amt (s : sess) (q : positive) (d : dim) (e : hev) : Z :=
  match tstat s (he_task e) with
  | Some (r, j, _) => if bool_decide (jq s j = Some q) then amt r d else 0
  | None => 0
  end.
Definition ev_signed s q d e : Z := if he_alloc e then ev_amt s q d e else - ev_amt s q d e.
Definition ev_pos s q d e : Z := if he_alloc e then ev_amt s q d e else 0.

(* s' is s after the handler calls evs (newest first): per queue and dimension the share moved
   by the signed sum of the requests -- exactly in cpu and memory; for scalars from below, and
   from above by the allocate events alone (Resource.sub drops the scalars of the subtrahend when
   the ledger entry has no scalar map, so a deallocate may subtract less than the request) *)
Definition balanced (s s' : sess) (evs : list hev) : Prop :=
  hlog s' = evs ++ hlog s /\
  forall q d,
    zsum (ev_signed s q d) evs <= amt (share_of s' q) d - amt (share_of s q) d <= zsum (ev_pos s q d) evs /\
    (d = DCpu \/ d = DMem -> amt (share_of s' q) d - amt (share_of s q) d = zsum (ev_signed s q d) evs).

Lemma ev_amt_move s s' q d e : stat_eq s s' -> ev_amt s' q d e = ev_amt s q d e.
Proof.
  intros He. unfold ev_amt. rewrite (se_t _ _ He). destruct (tstat s (he_task e)) as [[[r j] b]|]; [|reflexivity].
  rewrite (se_j _ _ He). reflexivity.
Qed.

Lemma ev_amt_hp s p q d e : hp s p -> he_task e = t_id p -> ev_amt s q d e = qterm s p q d.
Proof. intros Hp He. unfold ev_amt, qterm. rewrite He, Hp. reflexivity. Qed.

Lemma hp_nonneg s p : stat_ok s -> hp s p -> nonneg (t_req p).
Proof. intros Hs Hp. exact (proj1 (Hs _ _ _ _ Hp)). Qed.

Section WithQ.
Variable Q : gmap positive qattr.

Lemma mstep_balanced s s' : stat_ok s -> mstep Q s s' -> exists evs, balanced s s' evs.
Proof.
  intros Hok Hm. revert Hok. destruct Hm as [s1 s2 Hs|s1 p Hp|s1 p Hp Hg]; intros Hok.
  - exists []. split; [apply (sil_log _ _ Hs)|]. intros q d. rewrite (share_amt_silent _ _ _ _ Hs). simpl. lia.
  - set (e0 := mkHev false (t_id p) (t_status p) (t_node p)).
    exists [e0]. split; [reflexivity|]. intros q d.
    pose proof (hp_nonneg _ _ Hok Hp d) as Hn.
    destruct (share_dealloc s1 p q d Hn) as [Hb He].
    pose proof (ev_amt_hp s1 p q d e0 Hp eq_refl) as Hev.
    unfold zsum, ev_signed, ev_pos. cbn [foldr he_alloc e0]. rewrite Hev.
    split; [lia|]. intros Hd. rewrite (He Hd). lia.
  - set (e0 := mkHev true (t_id p) (t_status p) (t_node p)).
    exists [e0]. split; [reflexivity|]. intros q d.
    pose proof (ev_amt_hp s1 p q d e0 Hp eq_refl) as Hev.
    rewrite share_alloc. unfold zsum, ev_signed, ev_pos. cbn [foldr he_alloc e0]. rewrite Hev. lia.
Qed.

Lemma balanced_trans s1 s2 s3 e1 e2 :
  stat_eq s1 s2 -> balanced s1 s2 e1 -> balanced s2 s3 e2 -> balanced s1 s3 (e2 ++ e1).
Proof.
  intros He [Hl1 Hb1] [Hl2 Hb2]. split; [rewrite Hl2, Hl1, app_assoc; reflexivity|].
  intros q d. rewrite !zsum_app.
  rewrite (zsum_ext (ev_signed s1 q d) (ev_signed s2 q d) e2), (zsum_ext (ev_pos s1 q d) (ev_pos s2 q d) e2).
  - destruct (Hb1 q d) as [B1 X1], (Hb2 q d) as [B2 X2]. split; [lia|]. intros Hd. rewrite <- (X1 Hd), <- (X2 Hd). lia.
  - intros e. unfold ev_pos. rewrite (ev_amt_move _ _ _ _ _ He). reflexivity.
  - intros e. unfold ev_signed. rewrite (ev_amt_move _ _ _ _ _ He). reflexivity.
Qed.

Lemma reach_balanced s s' : reach Q s s' -> stat_ok s -> exists evs, balanced s s' evs.
Proof.
  induction 1 as [s|s1 s2 s3 Hm Hr IH]; intros Hok.
  - exists []. split; [reflexivity|]. intros q d. simpl. lia.
  - destruct (mstep_balanced _ _ Hok Hm) as [e1 H1].
    pose proof (mstep_stat_eq _ _ _ Hm) as He.
    destruct (IH (stat_ok_move _ _ He Hok)) as [e2 H2].
    exists (e2 ++ e1). eapply balanced_trans; eassumption.
Qed.

(* ---------- the capability invariant ---------- *)

Definition touched (s : sess) (evs : list hev) (q : positive) (d : dim) : Prop :=
  exists e r j b, e ∈ evs /\ he_alloc e = true /\ tstat s (he_task e) = Some (r, j, b) /\
                  jq s j = Some q /\ requested r d.

Definition cap_ok (s : sess) (evs : list hev) : Prop :=
  (forall q qa d, Q !! q = Some qa -> q_has_plugin qa = true -> touched s evs q d ->
     amt (share_of s q) d <= amt (q_limit qa) d) /\
  (forall e r j q qa, e ∈ evs -> he_alloc e = true -> tstat s (he_task e) = Some (r, j, false) ->
     jq s j = Some q -> Q !! q = Some qa -> q_has_plugin qa = true -> q_open qa = true).

Lemma touched_move s s' evs q d : stat_eq s s' -> touched s' evs q d -> touched s evs q d.
Proof.
  intros He (e & r & j & b & H1 & H2 & H3 & H4 & H5). exists e, r, j, b.
  rewrite (se_t _ _ He) in H3. rewrite (se_j _ _ He) in H4. auto.
Qed.

Lemma cap_ok_mono s s' evs :
  stat_eq s s' -> (forall q d, amt (share_of s' q) d <= amt (share_of s q) d) -> cap_ok s evs -> cap_ok s' evs.
Proof.
  intros He Hsh [Hc Ho]. split.
  - intros q qa d HQ Hpl Ht. specialize (Hsh q d).
    pose proof (Hc q qa d HQ Hpl (touched_move _ _ _ _ _ He Ht)). lia.
  - intros e r j q qa Hin Ha Hst Hj. rewrite (se_t _ _ He) in Hst. rewrite (se_j _ _ He) in Hj. eapply Ho; eassumption.
Qed.

Lemma cap_ok_move s s' evs : stat_eq s s' -> (forall q d, amt (share_of s' q) d = amt (share_of s q) d) -> cap_ok s evs -> cap_ok s' evs.
Proof. intros He Hsh. apply cap_ok_mono; [exact He|]. intros q d. rewrite Hsh. lia. Qed.

(* a deallocate event constrains nothing *)
Lemma cap_ok_dealloc_event s e evs : he_alloc e = false -> cap_ok s evs -> cap_ok s (e :: evs).
Proof.
  intros Hf [Hc Ho]. split.
  - intros q qa d HQ Hpl (e' & r & j & b & Hin & Ha & H). apply (Hc q qa d HQ Hpl). exists e', r, j, b.
    apply elem_of_cons in Hin as [->|Hin]; [congruence|auto].
  - intros e' r j q qa Hin Ha. apply elem_of_cons in Hin as [->|Hin]; [congruence|eauto].
Qed.

(* an allocate callback moves q's share in d only if p belongs to q and requests d *)
Lemma qterm_cases s p q d :
  nonneg (t_req p) -> d <> DSc pods_name ->
  jq s (t_job p) = Some q /\ requested (t_req p) d /\ qterm s p q d = amt (t_req p) d \/
  ~ (jq s (t_job p) = Some q /\ requested (t_req p) d) /\ qterm s p q d = 0.
Proof.
  intros Hn Hd. unfold qterm. case_bool_decide as Hj; [|right; tauto].
  rewrite requested_amt. specialize (Hn d).
  destruct (Z_lt_dec 0 (amt (t_req p) d)); [left; tauto|right; split; [tauto|lia]].
Qed.

Lemma mstep_cap s s' evs :
  stat_ok s -> mstep Q s s' -> cap_ok s evs ->
  exists e1, hlog s' = e1 ++ hlog s /\ cap_ok s' (e1 ++ evs).
Proof.
  intros Hok Hm Hc. pose proof (mstep_stat_eq _ _ _ Hm) as He.
  revert Hok Hc He. destruct Hm as [s1 s2 Hs|s1 p Hp|s1 p Hp Hg]; intros Hok Hc He.
  - exists []. split; [apply (sil_log _ _ Hs)|]. apply (cap_ok_move s1); [exact He| |exact Hc].
    intros q d. apply share_amt_silent, Hs.
  - exists [mkHev false (t_id p) (t_status p) (t_node p)]. split; [reflexivity|].
    apply (cap_ok_mono s1); [exact He| |apply cap_ok_dealloc_event; [reflexivity|exact Hc]].
    intros q d. apply (share_dealloc s1 p q d (hp_nonneg _ _ Hok Hp d)).
  - set (e0 := mkHev true (t_id p) (t_status p) (t_node p)). destruct Hc as [Hcap Hopen].
    assert (Hnew : forall r j b, tstat s1 (he_task e0) = Some (r, j, b) -> r = t_req p /\ j = t_job p /\ b = t_best_effort p).
    { intros r j b Hst. simpl in Hst. rewrite Hp in Hst. inversion Hst. auto. }
    exists [e0]. split; [reflexivity|]. split.
    + intros q qa d HQ Hpl Ht. apply (touched_move _ _ _ _ _ He) in Ht. rewrite share_alloc.
      destruct Ht as (e & r & j & b & Hin & Ha & Hst & Hj & Hr).
      destruct (qterm_cases s1 p q d (hp_nonneg _ _ Hok Hp) (proj1 (proj1 (requested_amt _ _) Hr))) as [(Hjq & Hrq & ->)|[Hno ->]].
      * destruct Hg as [Hg|Hbe]; [apply (Hg q qa Hjq HQ Hpl), Hrq|exfalso].
        destruct (proj1 (requested_amt _ _) Hrq) as [Hd Hpos]. pose proof (proj2 (Hok _ _ _ _ Hp) Hbe d Hd). lia.
      * (* the share of q stands still in d: the touching event is an older one *)
        rewrite Z.add_0_r. apply (Hcap q qa d HQ Hpl). exists e, r, j, b.
        apply elem_of_cons in Hin as [->|Hin]; [|auto].
        destruct (Hnew r j b Hst) as (-> & -> & _). tauto.
    + intros e r j q qa Hin Ha Hst Hj HQ Hpl. rewrite (se_t _ _ He) in Hst. rewrite (se_j _ _ He) in Hj.
      apply elem_of_cons in Hin as [->|Hin]; [|eapply Hopen; eassumption].
      destruct (Hnew r j false Hst) as (_ & -> & Hbe).
      destruct Hg as [Hg|Hbe']; [exact (proj1 (Hg q qa Hj HQ Hpl))|congruence].
Qed.

Lemma reach_cap s s' : reach Q s s' -> forall evs,
  stat_ok s -> cap_ok s evs -> exists e1, hlog s' = e1 ++ hlog s /\ cap_ok s' (e1 ++ evs).
Proof.
  induction 1 as [s|s1 s2 s3 Hm Hr IH]; intros evs Hok Hc.
  - exists []. split; [reflexivity|exact Hc].
  - destruct (mstep_cap _ _ _ Hok Hm Hc) as (e1 & Hl1 & Hc1).
    pose proof (mstep_stat_eq _ _ _ Hm) as He.
    destruct (IH _ (stat_ok_move _ _ He Hok) Hc1) as (e2 & Hl2 & Hc2).
    exists (e2 ++ e1). split; [rewrite Hl2, Hl1, app_assoc; reflexivity|]. rewrite <- app_assoc. exact Hc2.
Qed.

Lemma cap_ok_nil s : cap_ok s [].
Proof.
  split.
  - intros q qa d _ _ (e & r & j & b & Hin & _). inversion Hin.
  - intros e r j q qa Hin. inversion Hin.
Qed.

End WithQ.

(* ---------- the theorems over the skeleton ---------- *)

Lemma queue_of_jq s t : queue_of s t = jq s (t_job t).
Proof. unfold queue_of, jq. destruct (jobs s !! t_job t); reflexivity. Qed.

Theorem events_balance eps (w : world) (o : cop) :
  world_ok w ->
  exists evs, balanced (w_sess w) (w_sess (fst (CycleModel.step eps w o))) evs.
Proof.
  intros Hw. destruct (step_reach eps (w_queues w) w o eq_refl (world_ok_ids _ Hw) (proj2 (proj2 Hw))) as [Hr _].
  exact (reach_balanced _ _ _ Hr (world_ok_stat _ Hw)).
Qed.

(* the run keeps the well-formedness, so the per-step theorem applies after any prefix *)
Lemma reach_world_ok Q s s' : reach Q s s' -> heap_ids s -> stat_ok s -> no_evict s ->
  heap_ids s' /\ stat_ok s' /\ no_evict s'.
Proof.
  intros Hr Hi Hs Hn. pose proof (reach_stat_eq _ _ _ Hr) as He.
  split; [apply (se_ids _ _ He Hi)|]. split; [eapply stat_ok_move; eassumption|apply (se_ne _ _ He Hn)].
Qed.

Theorem queue_cap_invariant eps (w : world) (ops : list cop) :
  world_ok w ->
  let s' := w_sess (CycleModel.run eps w ops) in
  forall evs, hlog s' = evs ++ hlog (w_sess w) ->
  forall e t q qa,
    e ∈ evs -> he_alloc e = true -> heap s' !! he_task e = Some t -> queue_of s' t = Some q ->
    w_queues w !! q = Some qa -> q_has_plugin qa = true ->
    (t_best_effort t = false -> q_open qa = true) /\
    forall d, requested (t_req t) d -> amt (share_of s' q) d <= amt (q_limit qa) d.
Proof.
  intros Hw s' evs Hlog e t q qa Hin Ha Hh Hq HQ Hpl.
  destruct (run_reach eps (w_queues w) ops w eq_refl (world_ok_ids _ Hw) (proj2 (proj2 Hw))) as [Hr _].
  destruct (reach_cap _ _ _ Hr [] (world_ok_stat _ Hw) (cap_ok_nil _ _)) as (e1 & Hl1 & [Hc Ho]).
  fold s' in Hl1, Hc, Ho. rewrite app_nil_r in Hc, Ho.
  assert (e1 = evs) by (rewrite Hlog in Hl1; eapply app_inv_tail; symmetry; exact Hl1). subst e1.
  rewrite queue_of_jq in Hq.
  assert (Hst : tstat s' (he_task e) = Some (t_req t, t_job t, t_best_effort t)) by (unfold tstat; rewrite Hh; reflexivity).
  split.
  - intros Hbe. rewrite Hbe in Hst. eapply Ho; eassumption.
  - intros d Hd. apply (Hc q qa d HQ Hpl). exists e, (t_req t), (t_job t), (t_best_effort t). auto.
Qed.

(* "after every step": every prefix of the choice list is a choice list *)
Corollary queue_cap_invariant_every_step eps (w : world) (ops : list cop) (n : nat) :
  world_ok w ->
  let s' := w_sess (CycleModel.run eps w (take n ops)) in
  forall evs, hlog s' = evs ++ hlog (w_sess w) ->
  forall e t q qa,
    e ∈ evs -> he_alloc e = true -> heap s' !! he_task e = Some t -> queue_of s' t = Some q ->
    w_queues w !! q = Some qa -> q_has_plugin qa = true ->
    (t_best_effort t = false -> q_open qa = true) /\
    forall d, requested (t_req t) d -> amt (share_of s' q) d <= amt (q_limit qa) d.
Proof. apply queue_cap_invariant. Qed.

(* the verdicts a run reports *)
Fixpoint verdicts (eps : Z) (w : world) (ops : list cop) : list verdict :=
  match ops with
  | [] => []
  | o :: r => snd (CycleModel.step eps w o) :: verdicts eps (fst (CycleModel.step eps w o)) r
  end.

(* restricted to the runs the code could have produced (no verdict other than VOk).  The
   hypothesis is not needed: a refused or malformed choice places nothing. *)
Corollary queue_cap_invariant_ok_runs eps (w : world) (ops : list cop) :
  world_ok w -> Forall (fun v => v = VOk) (verdicts eps w ops) ->
  let s' := w_sess (CycleModel.run eps w ops) in
  forall evs, hlog s' = evs ++ hlog (w_sess w) ->
  forall e t q qa,
    e ∈ evs -> he_alloc e = true -> heap s' !! he_task e = Some t -> queue_of s' t = Some q ->
    w_queues w !! q = Some qa -> q_has_plugin qa = true ->
    (t_best_effort t = false -> q_open qa = true) /\
    forall d, requested (t_req t) d -> amt (share_of s' q) d <= amt (q_limit qa) d.
Proof. intros Hw _. apply queue_cap_invariant, Hw. Qed.

(* with limit <= capability (C12: deserved <= max(guarantee, realCapability), realCapability <=
   capability) the share stays under the capability *)
Corollary queue_cap_under_capability eps (w : world) (ops : list cop) (capability : positive -> res) :
  world_ok w ->
  (forall q qa d, w_queues w !! q = Some qa -> amt (q_limit qa) d <= amt (capability q) d) ->
  let s' := w_sess (CycleModel.run eps w ops) in
  forall evs, hlog s' = evs ++ hlog (w_sess w) ->
  forall e t q qa,
    e ∈ evs -> he_alloc e = true -> heap s' !! he_task e = Some t -> queue_of s' t = Some q ->
    w_queues w !! q = Some qa -> q_has_plugin qa = true ->
    forall d, requested (t_req t) d -> amt (share_of s' q) d <= amt (capability q) d.
Proof.
  intros Hw Hcap s' evs Hl e t q qa Hin Ha Hh Hq HQ Hpl d Hd.
  destruct (queue_cap_invariant eps w ops Hw evs Hl e t q qa Hin Ha Hh Hq HQ Hpl) as [_ Hb].
  specialize (Hb d Hd). specialize (Hcap q qa d HQ). fold s' in Hb. lia.
Qed.

(* the two definitions the statements are phrased with, spelled out *)
Lemma balanced_unfold s s' evs :
  balanced s s' evs <->
  hlog s' = evs ++ hlog s /\
  forall q d,
    zsum (ev_signed s q d) evs <= amt (share_of s' q) d - amt (share_of s q) d <= zsum (ev_pos s q d) evs /\
    (d = DCpu \/ d = DMem -> amt (share_of s' q) d - amt (share_of s q) d = zsum (ev_signed s q d) evs).
Proof. reflexivity. Qed.

Lemma world_ok_unfold w :
  world_ok w <-> heap_ok (heap (w_sess w)) /\ be_empty (heap (w_sess w)) /\ no_evict (w_sess w).
Proof. reflexivity. Qed.
