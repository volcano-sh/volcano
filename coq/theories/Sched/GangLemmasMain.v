(* C01: the property theorems, their executable guards, the refutation of the unguarded
   statement (finding F10) and the non-vacuity examples. *)
From stdpp Require Import gmap.
From Coq Require Import ZArith.
From V Require Import Base.Res Sched.LedgerModel Sched.StmtModel Sched.GangModel Sched.CycleModel Sched.LedgerInvP
                      Sched.GangLemmas Sched.GangLemmasInv Sched.GangLemmasStmt Sched.GangLemmasCycle
                      Sched.LedgerCodec Sched.CycleCodec.
Open Scope Z_scope.

Definition binds_ok (s0 s' : sess) : Prop :=
  exists nb, binds s' = nb ++ binds s0 /\
    forall b, b ∈ nb ->
      exists t j, heap s' !! b.1 = Some t /\ t_status t = Binding /\ jobs s' !! t_job t = Some j /\ gang_ok (heap s') j.

Theorem bind_only_when_gang_ok_core eps w ops :
  gang_inv (w_sess w) -> refuse_bind (w_sess w) = ∅ -> stmts (w_sess w) = ∅ ->
  guarded eps w ops ->
  binds_ok (w_sess w) (w_sess (run eps w ops)) /\ gang_inv (w_sess (run eps w ops)).
Proof.
  intros Hinv Href Hst Hg.
  destruct (run_spec eps ops w (winv_intro w Hinv Href Hst) Hg) as [(Hinv' & _) (_ & Hsent)]. by split.
Qed.

Theorem bind_only_when_gang_ok eps w ops :
  ledger_inv (w_sess w) -> heap_members (w_sess w) ->
  refuse_bind (w_sess w) = ∅ -> stmts (w_sess w) = ∅ ->
  guarded eps w ops ->
  binds_ok (w_sess w) (w_sess (run eps w ops)).
Proof.
  intros Hl Hm Href Hst Hg.
  exact (proj1 (bind_only_when_gang_ok_core eps w ops (ledger_inv_gang_inv _ Hl Hm) Href Hst Hg)).
Qed.

(* what the next snapshot shows of a task: a bind that went out makes the pod Bound (later
   Running / Succeeded); the session's tentative statuses vanish with the session *)
Definition feed_status (s : status) : status :=
  match s with Binding => Bound | Allocated | Pipelined => Pending | s => s end.
Definition next_heap (h : gmap positive task) : gmap positive task :=
  (fun t => set_status t (feed_status (t_status t))) <$> h.

Lemma next_heap_fresh h i t : next_heap h !! i = Some t ->
  t_status t <> Allocated /\ t_status t <> Pipelined /\ t_status t <> Binding.
Proof.
  unfold next_heap. rewrite lookup_fmap. destruct (h !! i) as [u|]; [|done].
  simpl. intros [= <-]. simpl. destruct (t_status u); done.
Qed.

Theorem cycles_compose h j :
  (forall i t, next_heap h !! i = Some t ->
     t_status t <> Allocated /\ t_status t <> Pipelined /\ t_status t <> Binding) /\
  (gang_ok h j -> gang_ok (next_heap h) j).
Proof.
  split; [apply next_heap_fresh|].
  intros Hok. apply gang_ok_cond. apply gang_ok_cond in Hok.
  eapply gang_cond_mono; [exact Hok|apply jstatic_refl|].
  intros i t _ Et Hc. exists (set_status t (feed_status (t_status t))).
  unfold next_heap. rewrite lookup_fmap, Et. split; [done|]. split; [done|].
  unfold cluster_ready in *. simpl. destruct (t_status t); done.
Qed.

Definition no_kept_allocb (s : sess) (jid : positive) : bool :=
  forallb (fun it : positive * task =>
     negb (bool_decide (t_job it.2 = jid) && bool_decide (t_status it.2 = Allocated)) || t_best_effort it.2)
    (map_to_list (heap s)).
Definition places_non_beb (s : sess) (places : list (positive * positive)) : bool :=
  forallb (fun pr : positive * positive =>
     match heap s !! pr.1 with Some t => negb (t_best_effort t) | None => true end) places.
Definition cop_guardb (w : world) (o : cop) : bool :=
  match o with
  | CAttempt jid places => no_kept_allocb (w_sess w) jid && places_non_beb (w_sess w) places
  | CBackfill _ _ => true
  end.
Fixpoint guardedb (eps : Z) (w : world) (ops : list cop) : bool :=
  match ops with
  | [] => true
  | o :: r => cop_guardb w o && guardedb eps (fst (step eps w o)) r
  end.

(* a check over the entries of a map holds of every entry *)
Lemma forallb_map_to_list {A} (f : positive * A -> bool) (m : gmap positive A) i x :
  forallb f (map_to_list m) = true -> m !! i = Some x -> f (i, x) = true.
Proof. intros H E. apply (proj1 (forallb_forall _ _) H). by apply elem_of_list_In, elem_of_map_to_list. Qed.

Lemma places_non_beb_sound s places : places_non_beb s places = true -> places_non_be s places.
Proof.
  intros H tid nid t Hin Et. apply elem_of_list_In in Hin.
  pose proof (proj1 (forallb_forall _ _) H _ Hin) as H'. simpl in H'. rewrite Et in H'. by destruct (t_best_effort t).
Qed.

Lemma cop_guardb_sound w o : cop_guardb w o = true -> cop_guard w o.
Proof.
  destruct o as [jid places|]; [|done]. simpl. intros [H1 H2]%andb_true_iff. split; [|by apply places_non_beb_sound].
  intros i t Et Hj Hal. pose proof (forallb_map_to_list _ _ _ _ H1 Et) as H. simpl in H.
  by rewrite !bool_decide_true in H.
Qed.

Lemma guardedb_sound eps ops : forall w, guardedb eps w ops = true -> guarded eps w ops.
Proof.
  induction ops as [|o ops IH]; intros w; [done|]. simpl. intros [H1 H2]%andb_true_iff.
  split; [by apply cop_guardb_sound|by apply IH].
Qed.

(* ---------- executable form of the light invariant ---------- *)

Definition all_status : list status :=
  [Pending; Allocated; Pipelined; Binding; Bound; Running; Releasing; Succeeded; Failed; Unknown].
Definition status_at (h : gmap positive task) (i : positive) : option status := t_status <$> h !! i.
Lemma all_status_complete st : In st all_status.
Proof. destruct st; simpl; tauto. Qed.
Lemma status_at_Some h i st : status_at h i = Some st <-> exists t, h !! i = Some t /\ t_status t = st.
Proof. unfold status_at. destruct (h !! i) as [t|]; simpl; naive_solver. Qed.

Definition ginvb (h : gmap positive task) (js : gmap positive job) : bool :=
  forallb (fun it : positive * task =>
     bool_decide (t_id it.2 = it.1) &&
     match js !! t_job it.2 with Some j => bool_decide (it.1 ∈ j_tasks j) | None => true end) (map_to_list h) &&
  forallb (fun jj : positive * job =>
     forallb (fun i => match h !! i with Some t => bool_decide (t_job t = jj.1) | None => false end)
             (elements (j_tasks jj.2)) &&
     forallb (fun st => bool_decide (idx_set (j_index jj.2) st =
                                     filter (fun i => status_at h i = Some st) (j_tasks jj.2))) all_status)
    (map_to_list js).

Lemma ginvb_sound h js : ginvb h js = true -> ginv h js.
Proof.
  intros [H1 H2]%andb_true_iff. split; [|split].
  - intros i t Et. pose proof (forallb_map_to_list _ _ _ _ H1 Et) as [Ha _]%andb_true_iff. by apply bool_decide_eq_true in Ha.
  - intros jid j Ej. pose proof (forallb_map_to_list _ _ _ _ H2 Ej) as [Hts Hix]%andb_true_iff. cbn [fst snd] in *.
    rewrite forallb_forall in Hts, Hix. split.
    + intros i Hi. apply elem_of_elements, elem_of_list_In in Hi. specialize (Hts _ Hi). simpl in Hts.
      destruct (h !! i) as [t|]; [|done]. apply bool_decide_eq_true in Hts. eauto.
    + intros st i. specialize (Hix _ (all_status_complete st)). apply bool_decide_eq_true in Hix.
      rewrite Hix, elem_of_filter, status_at_Some. tauto.
  - intros i t j Et Ej. pose proof (forallb_map_to_list _ _ _ _ H1 Et) as [_ Hc]%andb_true_iff. simpl in Hc.
    rewrite Ej in Hc. by apply bool_decide_eq_true in Hc.
Qed.

(* ---------- F10: the guard cannot be dropped ---------- *)

Definition eps0 : Z := 2.
Definition mkT (i j r : positive) (prio cpu : Z) (s : status) (n : option positive) : task_spec :=
  mkTaskSpec i j r prio cpu 0 0 s n false.

(* node 1: 4000m cpu, a Releasing pod of 2000m.  Gang 2: minMember 3 < sum of role minimums 4;
   t2, t3, t4 role 1 (1000m, 2000m, 500m), t5 role 2 (9000m), t6 role 2 best effort. *)
Definition f10_case (cops : list cop) : cycle_case :=
  mkCycle eps0
    [mkNodeSpec 1 true 4000 (64 * 1048576) 16 0]
    [mkQSpec 1 true 1 0 0]
    [mkJobSpec 1 1 1 []; mkJobSpec 2 1 3 [(1%positive, 2); (2%positive, 2)]]
    [mkT 1 1 1 0 2000 Releasing (Some 1%positive); mkT 2 2 1 9 1000 Pending None; mkT 3 2 1 8 2000 Pending None;
     mkT 4 2 1 1 500 Pending None; mkT 5 2 2 5 9000 Pending None; mkT 6 2 2 0 0 Pending None]
    false [1; 1] [] cops.

(* first allocate: t2 Allocated, t3 Pipelined, kept; second allocate: t4 alone, committed *)
Definition f10_cops : list cop :=
  [CAttempt 2 [(2, 1); (3, 1)]; CAttempt 2 [(4, 1)]]%positive.
Definition f10_world : world := world_of (f10_case f10_cops).

Definition partial_bind_b (s' : sess) (b : positive * option positive) (jid : positive) : bool :=
  match jobs s' !! jid, heap s' !! b.1 with
  | Some j, Some t =>
    bool_decide (t_job t = jid) && bool_decide (b ∈ binds s') &&
    negb (bool_decide (j_min j <= count_tasks cluster_ready (tasks_in (heap s') (j_tasks j))))
  | _, _ => false
  end.

Lemma partial_bind_b_sound s' b jid : partial_bind_b s' b jid = true ->
  exists j, b ∈ binds s' /\ (exists t, heap s' !! b.1 = Some t /\ jobs s' !! t_job t = Some j) /\ ~ gang_ok (heap s') j.
Proof.
  unfold partial_bind_b. destruct (jobs s' !! jid) as [j|] eqn:Ej; [|done].
  destruct (heap s' !! b.1) as [t|] eqn:Et; [|done].
  intros [[H1%bool_decide_eq_true H2%bool_decide_eq_true]%andb_true_iff H3%negb_true_iff]%andb_true_iff.
  apply bool_decide_eq_false in H3.
  exists j. split; [done|]. split; [exists t; by rewrite H1|]. by intros [Hmin _].
Qed.

Definition fresh_statuses_b (s : sess) : bool :=
  forallb (fun it : positive * task =>
     negb (bool_decide (t_status it.2 = Allocated)) && negb (bool_decide (t_status it.2 = Binding)) &&
     negb (bool_decide (t_status it.2 = Pipelined))) (map_to_list (heap s)).
Lemma fresh_statuses_b_sound s : fresh_statuses_b s = true ->
  forall i t, heap s !! i = Some t -> t_status t <> Allocated /\ t_status t <> Binding /\ t_status t <> Pipelined.
Proof.
  intros H i t Et.
  pose proof (forallb_map_to_list _ _ _ _ H Et) as [[H1%negb_true_iff H2%negb_true_iff]%andb_true_iff H3%negb_true_iff]%andb_true_iff.
  apply bool_decide_eq_false in H1, H2, H3. done.
Qed.

Definition f10_check : bool :=
  let w := f10_world in
  ginvb (heap (w_sess w)) (jobs (w_sess w)) && bool_decide (refuse_bind (w_sess w) = ∅) &&
  bool_decide (stmts (w_sess w) = ∅) && fresh_statuses_b (w_sess w) &&
  negb (guardedb eps0 w f10_cops) &&
  partial_bind_b (w_sess (run eps0 w f10_cops)) (4%positive, Some 1%positive) 2.
Lemma f10_check_true : f10_check = true.
Proof. vm_compute. reflexivity. Qed.

(* a 2-role gang (minMember 3, minTaskMember r1:2 r2:1), committed in one attempt *)
Definition ex_case (cops : list cop) (cpu : Z) : cycle_case :=
  mkCycle eps0
    [mkNodeSpec 1 true cpu (64 * 1048576) 16 0]
    [mkQSpec 1 true 1 0 0]
    [mkJobSpec 1 1 1 []; mkJobSpec 2 1 3 [(1%positive, 2); (2%positive, 1)]]
    [mkT 1 1 1 0 2000 Releasing (Some 1%positive); mkT 2 2 1 9 1000 Pending None; mkT 3 2 1 8 1000 Pending None;
     mkT 4 2 2 1 1000 Pending None]
    false [1] [] cops.
Definition ex_cops : list cop := [CAttempt 2 [(2, 1); (3, 1); (4, 1)]]%positive.

Definition binds_of (c : cycle_case) : list (positive * option positive) :=
  binds (w_sess (run (cc_eps c) (world_of c) (cc_cops c))).
Definition status_after (c : cycle_case) (i : positive) : option status :=
  status_at (heap (w_sess (run (cc_eps c) (world_of c) (cc_cops c)))) i.

Definition hyps_okb (c : cycle_case) : bool :=
  let w := world_of c in
  ginvb (heap (w_sess w)) (jobs (w_sess w)) &&
  bool_decide (refuse_bind (w_sess w) = ∅) && bool_decide (stmts (w_sess w) = ∅) &&
  guardedb (cc_eps c) w (cc_cops c).

Lemma hyps_okb_sound c : hyps_okb c = true ->
  let w := world_of c in
  gang_inv (w_sess w) /\ refuse_bind (w_sess w) = ∅ /\ stmts (w_sess w) = ∅ /\ guarded (cc_eps c) w (cc_cops c).
Proof.
  unfold hyps_okb. intros [[[H1 H2]%andb_true_iff H3]%andb_true_iff H4]%andb_true_iff.
  split; [by apply ginvb_sound|]. split; [by apply bool_decide_eq_true in H2|].
  split; [by apply bool_decide_eq_true in H3|]. by apply guardedb_sound.
Qed.

(* enough room (idle 5000m): all three Allocated, JobReady, committed: three binds *)
Example ex_committed :
  hyps_okb (ex_case ex_cops 7000) = true /\
  binds_of (ex_case ex_cops 7000) = [(4, Some 1); (3, Some 1); (2, Some 1)]%positive /\
  status_after (ex_case ex_cops 7000) 2 = Some Binding.
Proof. vm_compute. repeat split. Qed.

(* idle 2000m + 2000m releasing: t2, t3 Allocated, t4 Pipelined: pipelined only, statement kept, no bind *)
Example ex_kept :
  hyps_okb (ex_case ex_cops 4000) = true /\
  binds_of (ex_case ex_cops 4000) = [] /\
  status_after (ex_case ex_cops 4000) 2 = Some Allocated /\ status_after (ex_case ex_cops 4000) 4 = Some Pipelined.
Proof. vm_compute. repeat split. Qed.

(* idle 500m + 2000m releasing: t2, t3 Pipelined, t4 fits nowhere: neither ready nor pipelined:
   discarded, everything Pending again, no bind *)
Example ex_discarded :
  hyps_okb (ex_case ex_cops 2500) = true /\
  binds_of (ex_case ex_cops 2500) = [] /\
  status_after (ex_case ex_cops 2500) 2 = Some Pending /\ status_after (ex_case ex_cops 2500) 3 = Some Pending.
Proof. vm_compute. repeat split. Qed.

(* the theorem's hypotheses hold on the committed example, and its conclusion speaks about three binds *)
Example ex_theorem_applies :
  let c := ex_case ex_cops 7000 in
  binds_ok (w_sess (world_of c)) (w_sess (run (cc_eps c) (world_of c) (cc_cops c))) /\ length (binds_of c) = 3%nat.
Proof.
  intros c. assert (Hc : hyps_okb c = true) by (vm_compute; reflexivity).
  destruct (hyps_okb_sound c Hc) as (H1 & H2 & H3 & H4).
  split; [exact (proj1 (bind_only_when_gang_ok_core _ _ _ H1 H2 H3 H4))|vm_compute; reflexivity].
Qed.
