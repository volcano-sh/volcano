(* C03: the handler ledger the queue vote reads COVERS the requests of
   the queue's placed pods, as an invariant of the action skeleton.

     held s q d  = sum, over the tasks of the heap whose job belongs to queue q and whose status is
                   Allocated / Pipelined / Binding / Bound / Running, of the request in dimension d
     phi s q d   = amt (share_of s q) d - held s q d          (what the ledger has in excess)

   Every function of the skeleton that works on one task p is shown to satisfy
     eff p c s s' :  nothing but p's heap entry changes, and  phi s + c * request_p <= phi s'
   with an integer balance c that is composed along the function body: a status change of p
   from Y to X contributes [Y holds] - [X holds], an allocate callback +1, a deallocate callback
   -1 (Resource.sub may subtract LESS on a nil scalar map, never more).  At the end of every
   statement operation the balance is >= 0, so  0 <= phi  is an invariant:  held <= share_of.
   With queue_cap_invariant (share_of <= limit on the requested dimensions) this gives the
   property in its own words: the requests of the queue's PLACED pods stay within the limit. *)
From stdpp Require Import gmap.
From Coq Require Import ZArith Lia.
From V Require Import Base.Res Base.ResLemmas Sched.LedgerModel Sched.StmtModel Sched.GangModel
                      Sched.CycleModel Sched.LedgerInvP Sched.LedgerLemmasSess
                      Sched.QueueLemmasBase Sched.QueueLemmasReach Sched.QueueLemmas.
Open Scope Z_scope.

(* the statuses in which a pod holds queue quota: api.AllocatedStatus plus Pipelined (the queue
   plugins add a pipelined task to `allocated` through the same AllocateFunc) *)
Definition holds (st : status) : bool :=
  match st with Allocated | Pipelined | Binding | Bound | Running => true | _ => false end.
Definition hol (st : status) : Z := if holds st then 1 else 0.

Definition hterm (f : positive -> option positive) (q : positive) (d : dim) (kv : positive * task) : Z :=
  if bool_decide (f (t_job (snd kv)) = Some q) then hol (t_status (snd kv)) * amt (t_req (snd kv)) d else 0.
Definition held (s : sess) (q : positive) (d : dim) : Z := zsum (hterm (jq s) q d) (map_to_list (heap s)).
Definition phi (s : sess) (q : positive) (d : dim) : Z := amt (share_of s q) d - held s q d.

Lemma hol_01 st : hol st = 0 \/ hol st = 1.
Proof. unfold hol. destruct (holds st); auto. Qed.

Lemma hterm_qterm s q d i t : hterm (jq s) q d (i, t) = hol (t_status t) * qterm s t q d.
Proof. unfold hterm, qterm. simpl. destruct (bool_decide _); lia. Qed.

Lemma held_insert s s' i t t' q d :
  heap s !! i = Some t -> heap s' = <[i:=t']> (heap s) -> (forall j, jq s' j = jq s j) ->
  held s' q d = held s q d + hol (t_status t') * qterm s t' q d - hol (t_status t) * qterm s t q d.
Proof.
  intros Hl Hh Hj. unfold held. rewrite Hh.
  rewrite (zsum_ext (hterm (jq s') q d) (hterm (jq s) q d)).
  - rewrite zsum_map_insert, Hl, !hterm_qterm. reflexivity.
  - intros [k v]. unfold hterm. simpl. rewrite Hj. reflexivity.
Qed.

Lemma held_same s s' q d : heap s' = heap s -> (forall j, jq s' j = jq s j) -> held s' q d = held s q d.
Proof.
  intros Hh Hj. unfold held. rewrite Hh. apply zsum_ext. intros [k v]. unfold hterm. simpl. rewrite Hj. reflexivity.
Qed.

Lemma qterm_tsame s p p' q d : tsame p p' -> qterm s p' q d = qterm s p q d.
Proof. intros Ht. destruct (tsame_req _ _ Ht) as (Hr & Hj & _). unfold qterm. rewrite Hr, Hj. reflexivity. Qed.

Lemma qterm_nonneg s p q d : nonneg (t_req p) -> 0 <= qterm s p q d.
Proof. intros Hn. unfold qterm. destruct (bool_decide _); [apply Hn|lia]. Qed.

Lemma qterm_none s p q d : jq s (t_job p) = None -> qterm s p q d = 0.
Proof. intros H. unfold qterm. rewrite H. rewrite bool_decide_eq_false_2 by discriminate. reflexivity. Qed.

Lemma qterm_move s s' p q d : stat_eq s s' -> qterm s' p q d = qterm s p q d.
Proof. intros He. unfold qterm. rewrite (se_j _ _ He). reflexivity. Qed.

(* ---------- the effect of a function that works on task p ---------- *)

Record eff (p : task) (c : Z) (s s' : sess) : Prop := mkEff {
  ef_se : stat_eq s s';
  ef_oth : forall i, i <> t_id p -> heap s' !! i = heap s !! i;
  ef_phi : forall q d, phi s q d + c * qterm s p q d <= phi s' q d }.

Lemma eff_refl p s : eff p 0 s s.
Proof. split; [apply stat_eq_refl|auto|intros; lia]. Qed.

Lemma eff_trans p c1 c2 s s1 s2 : eff p c1 s s1 -> eff p c2 s1 s2 -> eff p (c1 + c2) s s2.
Proof.
  intros [a b c] [a' b' c']. split.
  - eapply stat_eq_trans; eassumption.
  - intros i Hi. rewrite b' by exact Hi. apply b, Hi.
  - intros q d. specialize (c q d). specialize (c' q d). rewrite (qterm_move _ _ _ _ _ a) in c'.
    rewrite Z.mul_add_distr_r. lia.
Qed.

Lemma eff_weaken p c c' s s' : nonneg (t_req p) -> c' <= c -> eff p c s s' -> eff p c' s s'.
Proof.
  intros Hn Hc [a b e]. split; [exact a|exact b|]. intros q d. specialize (e q d).
  pose proof (qterm_nonneg s p q d Hn). nia.
Qed.

Lemma eff_any p c c' s s' : jq s (t_job p) = None -> eff p c s s' -> eff p c' s s'.
Proof.
  intros Hj [a b e]. split; [exact a|exact b|]. intros q d. specialize (e q d).
  rewrite (qterm_none s p q d Hj) in *. lia.
Qed.

Lemma eff_retarget p p' c s s' : tsame p p' -> eff p' c s s' -> eff p c s s'.
Proof.
  intros Ht [a b e]. destruct Ht as [Hid Hst]. split; [exact a| |].
  - intros i Hi. apply b. congruence.
  - intros q d. rewrite <- (qterm_tsame s p p' q d (conj Hid Hst)). apply e.
Qed.

(* a step that leaves the heap, the jobs' queues and the ledger alone *)
Lemma eff_quiet p s s' : silent s s' -> heap s' = heap s -> eff p 0 s s'.
Proof.
  intros Hs Hh. split; [apply (sil_se _ _ Hs)|intros; rewrite Hh; reflexivity|].
  intros q d. unfold phi. rewrite (share_amt_silent _ _ _ _ Hs), (held_same _ _ _ _ Hh (se_j _ _ (sil_se _ _ Hs))). lia.
Qed.

(* a silent step on p: the ledger stands still, p's term of [held] follows p's status *)
Lemma eff_tmove s p s' p' :
  stored s p -> tmove s p s' p' -> eff p (hol (t_status p) - hol (t_status p')) s s'.
Proof.
  intros Hp [Hs Ht Hh _]. split; [apply (sil_se _ _ Hs)| |].
  - intros i Hi. rewrite Hh. apply lookup_insert_ne. congruence.
  - intros q d. unfold phi. rewrite (share_amt_silent _ _ _ _ Hs).
    rewrite (held_insert s s' (t_id p) p p' q d Hp Hh (se_j _ _ (sil_se _ _ Hs))), (qterm_tsame _ _ _ _ _ Ht). lia.
Qed.

Lemma eff_alloc s p : eff p 1 s (snd (h_alloc s p)).
Proof.
  split; [apply stat_eq_handlers|reflexivity|].
  intros q d. unfold phi. rewrite share_alloc.
  rewrite (held_same s (snd (h_alloc s p)) q d eq_refl (fun j => eq_refl)). lia.
Qed.

Lemma eff_dealloc s p : nonneg (t_req p) -> eff p (-1) s (h_dealloc s p).
Proof.
  intros Hn. split; [apply stat_eq_handlers|reflexivity|].
  intros q d. unfold phi. destruct (share_dealloc s p q d (Hn d)) as [Hb _].
  rewrite (held_same s (h_dealloc s p) q d eq_refl (fun j => eq_refl)). lia.
Qed.

Lemma tsame_nonneg p p' : tsame p p' -> nonneg (t_req p) -> nonneg (t_req p').
Proof. intros Ht. destruct (tsame_req _ _ Ht) as (-> & _). auto. Qed.

(* ---------- unallocate / unPipeline ---------- *)

(* balance: the status falls to Pending (no job: the task counts for no queue), one deallocate *)
Lemma eff_unallocate s p :
  stored s p -> nonneg (t_req p) ->
  eff p (hol (t_status p) - 1) s (unallocate_with s p) /\ stmts (unallocate_with s p) = stmts s.
Proof.
  intros Hp Hn. unfold unallocate_with.
  destruct (ssn_update_status s p Pending) as [[f s1] p1] eqn:E1.
  destruct (tmove_update _ _ _ _ _ _ Hp E1) as (T1 & Hs1 & Hf1).
  pose proof (tmove_trans _ _ _ _ _ _ T1 (tmove_node_remove s1 p1 p1 (tm_stored _ _ _ _ T1))) as T2.
  set (s2 := ssn_node_remove s1 p1) in *. pose proof (tm_stored _ _ _ _ T2) as Hp2.
  pose proof (tmove_put (h_dealloc s2 p1) p1 _ Hp2 (tsame_set_node p1 None)) as T4.
  split; [|rewrite (tm_stmts _ _ _ _ T4); exact (tm_stmts _ _ _ _ T2)].
  pose proof (eff_trans _ _ _ _ _ _ (eff_tmove _ _ _ _ Hp T2)
                (eff_retarget _ _ _ _ _ (tm_same _ _ _ _ T2)
                   (eff_trans _ _ _ _ _ _ (eff_dealloc s2 p1 (tsame_nonneg _ _ (tm_same _ _ _ _ T2) Hn))
                                          (eff_tmove (h_dealloc s2 p1) _ _ _ Hp2 T4)))) as He.
  cbn [set_node t_status] in He. destruct f.
  - rewrite Hs1 in He. eapply eff_weaken; [exact Hn| |exact He]. change (hol Pending) with 0. lia.
  - eapply eff_any; [apply Hf1; reflexivity|exact He].
Qed.

(* ---------- Statement.Allocate / Pipeline ---------- *)

(* either nothing is recorded (rolled back), or the operation is recorded and p holds quota.
   Balance up to the allocate callback: hol Y - hol X + 1 (Y the status p had, X the one it has
   now); recorded: X holds; rolled back: unallocate adds hol X - 1 *)
Lemma eff_place eps s sid k p nid :
  stored s p -> nonneg (t_req p) -> k <> KEvict ->
  let r := place_with eps s sid k p nid in
  eff p 0 s (fst r) /\
  (stmts (fst r) = stmts s \/
   stmts (fst r) = <[sid := default [] (stmts s !! sid) ++ [mkOp k (t_id p) Pending]]> (stmts s) /\
   exists p', heap (fst r) !! t_id p = Some p' /\ holds (t_status p') = true).
Proof.
  intros Hp Hn Hk. unfold place_with.
  set (st := match k with KAllocate => Allocated | _ => Pipelined end).
  assert (Hst : holds st = true) by (destruct k; [contradiction|reflexivity..]).
  destruct (ssn_update_status s p st) as [[f s1] p1] eqn:E1.
  destruct (tmove_update_put _ _ _ (Some nid) _ _ _ Hp E1) as (T2 & Hs1 & _).
  destruct (tmove_node_step eps _ _ nid (tm_stored _ _ _ _ T2)) as (s3 & p3 & ok & -> & T3 & Hs3).
  apply (tmove_trans _ _ _ _ _ _ T2) in T3. cbn [set_node t_status] in Hs3.
  pose proof (tm_same _ _ _ _ T3) as Ht3. pose proof (tm_stored _ _ _ _ T3) as Hp3.
  pose proof (eff_trans _ _ _ _ _ _ (eff_tmove _ _ _ _ Hp T3) (eff_retarget _ _ _ _ _ Ht3 (eff_alloc s3 p3))) as He4.
  assert (Hp4 : stored (snd (h_alloc s3 p3)) p3) by exact Hp3.
  assert (Hstm4 : stmts (snd (h_alloc s3 p3)) = stmts s) by exact (tm_stmts _ _ _ _ T3).
  destruct (h_alloc s3 p3) as [he s4]. simpl in He4, Hp4, Hstm4.
  destruct (f && ok && negb he) eqn:Eok; simpl.
  - apply andb_prop in Eok as [Eok _]. apply andb_prop in Eok as [-> _].
    assert (Hh3 : holds (t_status p3) = true) by (rewrite Hs3, Hs1; exact Hst). split.
    + apply (eff_weaken p (hol (t_status p) - hol (t_status p3) + 1 + 0) 0 _ _ Hn).
      * unfold hol at 2. rewrite Hh3. destruct (hol_01 (t_status p)); lia.
      * eapply eff_trans; [exact He4|]. apply eff_quiet; [apply silent_push_op, Hk|reflexivity].
    + right. split; [simpl; rewrite Hstm4; reflexivity|].
      exists p3. split; [|exact Hh3]. destruct Ht3 as [<- _]. exact Hp4.
  - destruct (eff_unallocate s4 p3 Hp4 (tsame_nonneg _ _ Ht3 Hn)) as [He5 Hstm5].
    split; [|left; congruence].
    apply (eff_weaken p (hol (t_status p) - hol (t_status p3) + 1 + (hol (t_status p3) - 1)) 0 _ _ Hn).
    + destruct (hol_01 (t_status p)); lia.
    + eapply eff_trans; [exact He4|exact (eff_retarget _ _ _ _ _ Ht3 He5)].
Qed.

(* ---------- the invariant ---------- *)

(* the ledger covers the placed pods *)
Definition cover (s : sess) : Prop := forall q d, 0 <= phi s q d.

Lemma cover_eff p s s' : eff p 0 s s' -> cover s -> cover s'.
Proof. intros He Hc q d. pose proof (ef_phi _ _ _ _ He q d). specialize (Hc q d). lia. Qed.

Definition op_ok (s : sess) (o : oprec) : Prop :=
  op_kind o <> KEvict /\ exists t, heap s !! op_task o = Some t /\ holds (t_status t) = true.

(* the statement of the running attempt: Allocate / Pipeline operations of distinct tasks, each
   still in the status the operation gave it *)
Definition attempt_ok (s : sess) (sid : positive) : Prop :=
  NoDup (op_task <$> default [] (stmts s !! sid)) /\ Forall (op_ok s) (default [] (stmts s !! sid)).

Definition base_ok (s : sess) : Prop := heap_ids s /\ stat_ok s.

Lemma base_ok_move s s' : stat_eq s s' -> base_ok s -> base_ok s'.
Proof. intros He [Hi Hs]. split; [apply (se_ids _ _ He Hi)|eapply stat_ok_move; eassumption]. Qed.

Lemma base_stored s i p : base_ok s -> heap s !! i = Some p -> t_id p = i /\ stored s p /\ nonneg (t_req p).
Proof.
  intros [Hi Hs] Hl. split; [apply (Hi _ _ Hl)|]. split; [eapply stored_lookup; eassumption|].
  apply (proj1 (Hs i (t_req p) (t_job p) (t_best_effort p) ltac:(unfold tstat; rewrite Hl; reflexivity))).
Qed.

Lemma op_ok_other p c s s' o : eff p c s s' -> op_task o <> t_id p -> op_ok s o -> op_ok s' o.
Proof. intros He Hne [Hk (t & Ht & Hh)]. split; [exact Hk|]. exists t. rewrite (ef_oth _ _ _ _ He _ Hne). auto. Qed.

(* what the running attempt needs of its session, and what it leaves alone *)
Definition att (sid : positive) (s : sess) : Prop := base_ok s /\ cover s /\ attempt_ok s sid.
Definition frame (sid : positive) (s s' : sess) : Prop :=
  stat_eq s s' /\ forall sid', sid' <> sid -> stmts s' !! sid' = stmts s !! sid'.

Lemma frame_refl sid s : frame sid s s.
Proof. split; [apply stat_eq_refl|auto]. Qed.
Lemma frame_trans sid s1 s2 s3 : frame sid s1 s2 -> frame sid s2 s3 -> frame sid s1 s3.
Proof.
  intros [a b] [a' b']. split; [eapply stat_eq_trans; eassumption|].
  intros sid' Hne. rewrite b' by exact Hne. apply b, Hne.
Qed.

(* a step that records nothing in any statement *)
Definition unrecorded (s s' : sess) : Prop := stat_eq s s' /\ stmts s' = stmts s.

Lemma unrecorded_refl s : unrecorded s s.
Proof. split; [apply stat_eq_refl|reflexivity]. Qed.
Lemma unrecorded_trans s1 s2 s3 : unrecorded s1 s2 -> unrecorded s2 s3 -> unrecorded s1 s3.
Proof. intros [a b] [a' b']. split; [eapply stat_eq_trans; eassumption|congruence]. Qed.
Lemma unrecorded_eff p c s s' : eff p c s s' -> stmts s' = stmts s -> unrecorded s s'.
Proof. intros He Hst. exact (conj (ef_se _ _ _ _ He) Hst). Qed.
Lemma unrecorded_tmove s p s' p' : tmove s p s' p' -> unrecorded s s'.
Proof. intros T. exact (conj (sil_se _ _ (tm_sil _ _ _ _ T)) (tm_stmts _ _ _ _ T)). Qed.

(* ---------- one placement attempt on a node ---------- *)

(* a task that holds no quota yet is not among the statement's operations; its placement adds
   an operation or changes nothing *)
Lemma place_held eps s sid k p nid :
  att sid s -> stored s p -> holds (t_status p) = false -> k <> KEvict ->
  let s' := fst (place_with eps s sid k p nid) in att sid s' /\ frame sid s s'.
Proof.
  intros (Hb & Hc & Hnd & Hfa) Hp Hpend Hk.
  destruct (base_stored _ _ _ Hb Hp) as (_ & _ & Hn).
  destruct (eff_place eps s sid k p nid Hp Hn Hk) as [He Hres]. cbv zeta in *.
  set (s' := fst (place_with eps s sid k p nid)) in *.
  assert (Hnotin : t_id p ∉ op_task <$> default [] (stmts s !! sid)).
  { intros Hin. apply elem_of_list_fmap in Hin as (o & Ho & Hin).
    rewrite Forall_forall in Hfa. destruct (Hfa o Hin) as [_ (t & Ht & Hh)].
    rewrite <- Ho, Hp in Ht. inversion Ht; subst t. congruence. }
  assert (Hold : Forall (op_ok s') (default [] (stmts s !! sid))).
  { rewrite Forall_forall in *. intros o Ho. eapply op_ok_other; [exact He| |apply Hfa, Ho].
    intros Heq. apply Hnotin. rewrite <- Heq. apply elem_of_list_fmap. eauto. }
  split; [split; [exact (base_ok_move _ _ (ef_se _ _ _ _ He) Hb)|split; [exact (cover_eff _ _ _ He Hc)|]]|split; [apply (ef_se _ _ _ _ He)|]];
    unfold attempt_ok; destruct Hres as [Hst|(Hst & p' & Hl & Hh)]; rewrite Hst.
  - split; assumption.
  - rewrite lookup_insert. simpl. split.
    + rewrite fmap_app. simpl. apply NoDup_app. split; [exact Hnd|]. split; [|apply NoDup_singleton].
      intros x Hx Hx2. apply elem_of_list_singleton in Hx2. subst x. contradiction.
    + apply Forall_app. split; [exact Hold|]. apply Forall_singleton. split; [exact Hk|]. simpl. eauto.
  - auto.
  - intros sid' Hne. apply lookup_insert_ne. congruence.
Qed.

Lemma try_place_held eps s sid tid nid :
  att sid s -> (forall p, heap s !! tid = Some p -> holds (t_status p) = false) ->
  let s' := fst (try_place eps s sid tid nid) in att sid s' /\ frame sid s s'.
Proof.
  intros Ha Hpend. cbv zeta.
  destruct (try_place_cases eps s sid tid nid) as [->|(k & p & Hk & Hl & ->)]; [exact (conj Ha (frame_refl sid s))|].
  destruct (base_stored _ _ _ (proj1 Ha) Hl) as (_ & Hp & _).
  exact (place_held eps s sid k p nid Ha Hp (Hpend p Hl) Hk).
Qed.

Lemma do_places_held eps (w : world) sid jid l : forall s,
  att sid s -> let s' := fst (do_places eps w s sid jid l) in att sid s' /\ frame sid s s'.
Proof.
  induction l as [|[tid nid] l IH]; intros s Ha; simpl; pose proof (conj Ha (frame_refl sid s)) as Hsame; [exact Hsame|].
  destruct (heap s !! tid) as [p|] eqn:Eh; [|exact Hsame].
  destruct (negb (bool_decide (t_status p = Pending) && bool_decide (t_job p = jid))) eqn:Ec; [exact Hsame|].
  apply negb_false_iff, andb_true_iff in Ec as [Ep _]. apply bool_decide_eq_true in Ep.
  destruct (negb _); [exact Hsame|].
  destruct (try_place_held eps s sid tid nid Ha) as [Ha1 Hf1].
  { intros p0 H0. rewrite Eh in H0. inversion H0; subst. rewrite Ep. reflexivity. }
  destruct (try_place eps s sid tid nid) as [s1 pl]. simpl in *.
  destruct (IH s1 Ha1) as [Ha2 Hf2]. split; [exact Ha2|eapply frame_trans; eassumption].
Qed.

(* ---------- Discard and Commit of the attempt's statement ---------- *)

(* taking back a placement that holds quota *)
Lemma eff_unallocate_held s p :
  stored s p -> nonneg (t_req p) -> holds (t_status p) = true ->
  eff p 0 s (unallocate_with s p) /\ stmts (unallocate_with s p) = stmts s.
Proof.
  intros Hp Hn Hh. destruct (eff_unallocate s p Hp Hn) as [He Hst]. split; [|exact Hst].
  unfold hol in He. rewrite Hh in He. exact He.
Qed.

(* f takes back or confirms one recorded operation: a balanced step on the operation's task *)
Definition op_held (f : sess -> oprec -> sess) : Prop :=
  forall s o, base_ok s -> op_ok s o ->
    exists p, op_task o = t_id p /\ eff p 0 s (f s o) /\ stmts (f s o) = stmts s.

(* binding a task that holds quota: it keeps holding, the balance is 0 *)
Lemma eff_bind s p b e f s2 p2 :
  stored s p -> holds (t_status p) = true -> ssn_update_status (upd_logs s b e) p Binding = (f, s2, p2) ->
  tmove s p s2 p2 /\ holds (t_status p2) = true /\ eff p 0 s s2.
Proof.
  intros Hp Hh E. destruct (tmove_logs_update _ _ _ _ _ _ _ _ Hp E) as [T Hs].
  assert (Hh2 : holds (t_status p2) = true) by (rewrite Hs; destruct f; [reflexivity|exact Hh]).
  split; [exact T|split; [exact Hh2|]].
  replace 0 with (hol (t_status p) - hol (t_status p2)) by (unfold hol; rewrite Hh, Hh2; reflexivity).
  exact (eff_tmove _ _ _ _ Hp T).
Qed.

Lemma fold_ops_held (f : sess -> oprec -> sess) :
  op_held f ->
  forall l s, base_ok s -> cover s -> NoDup (op_task <$> l) -> Forall (op_ok s) l ->
  cover (fold_left f l s) /\ unrecorded s (fold_left f l s).
Proof.
  intros Hf. induction l as [|o l IH]; intros s Hb Hc Hnd Hfa; simpl.
  - split; [exact Hc|apply unrecorded_refl].
  - apply Forall_cons in Hfa as [Ho Hfa]. rewrite fmap_cons in Hnd. apply NoDup_cons in Hnd as [Hnin Hnd].
    destruct (Hf s o Hb Ho) as (p & Hid & He & Hst).
    assert (Hfa' : Forall (op_ok (f s o)) l).
    { rewrite Forall_forall in *. intros o' Ho'. eapply op_ok_other; [exact He| |apply Hfa, Ho'].
      intros Heq. apply Hnin. rewrite Hid, <- Heq. apply elem_of_list_fmap. eauto. }
    destruct (IH (f s o) (base_ok_move _ _ (ef_se _ _ _ _ He) Hb) (cover_eff _ _ _ He Hc) Hnd Hfa') as [Hc2 Hu2].
    split; [exact Hc2|exact (unrecorded_trans _ _ _ (unrecorded_eff _ _ _ _ He Hst) Hu2)].
Qed.

Lemma undo_op_held eps : op_held (undo_op eps).
Proof.
  intros s o Hb [Hk (t & Ht & Hh)]. destruct (base_stored _ _ _ Hb Ht) as (Hid & Hp & Hn).
  exists t. split; [symmetry; exact Hid|]. unfold undo_op. rewrite Ht.
  destruct (op_kind o); [contradiction|..]; apply eff_unallocate_held; assumption.
Qed.

Lemma commit_op_held eps : op_held (commit_op eps).
Proof.
  intros s o Hb [Hk (t & Ht & Hh)]. destruct (base_stored _ _ _ Hb Ht) as (Hid & Hp & Hn).
  exists t. split; [symmetry; exact Hid|]. unfold commit_op. rewrite Ht.
  destruct (op_kind o); [contradiction|split; [apply eff_refl|reflexivity]|].
  case_bool_decide; [apply eff_unallocate_held; assumption|].
  destruct (ssn_update_status _ t Binding) as [[f s2] p2] eqn:E2.
  destruct (eff_bind _ _ _ _ _ _ _ Hp Hh E2) as (T2 & Hh2 & He02).
  destruct f; [split; [exact He02|exact (tm_stmts _ _ _ _ T2)]|].
  destruct (eff_unallocate_held s2 p2 (tm_stored _ _ _ _ T2) (tsame_nonneg _ _ (tm_same _ _ _ _ T2) Hn) Hh2) as [He3 Hst3].
  split; [|rewrite Hst3; exact (tm_stmts _ _ _ _ T2)].
  exact (eff_trans _ 0 0 _ _ _ He02 (eff_retarget _ _ _ _ _ (tm_same _ _ _ _ T2) He3)).
Qed.

Lemma phi_quiet s s' q d : silent s s' -> heap s' = heap s -> phi s' q d = phi s q d.
Proof.
  intros Hs Hh. unfold phi.
  rewrite (share_amt_silent _ _ _ _ Hs), (held_same _ _ _ _ Hh (se_j _ _ (sil_se _ _ Hs))). reflexivity.
Qed.

Lemma rev_perm {A} (l : list A) : rev l ≡ₚ l.
Proof. symmetry. apply Permutation.Permutation_rev. Qed.

Lemma stmt_end_held eps s sid (commit : bool) :
  att sid s ->
  let s' := if commit then stmt_commit eps s sid else stmt_discard eps s sid in
  cover s' /\ frame sid s s'.
Proof.
  intros (Hb & Hc & Hnd & Hfa).
  assert (H : forall f l, op_held f ->
              l ≡ₚ default [] (stmts s !! sid) ->
              let s2 := fold_left f l s in let s' := upd_stmts s2 (<[sid := []]> (stmts s2)) in
              cover s' /\ frame sid s s').
  { intros f l Hf Hl.
    destruct (fold_ops_held f Hf l s Hb Hc) as (Hc2 & He2 & Hst2); [rewrite Hl; exact Hnd|rewrite Hl; exact Hfa|].
    cbv zeta. set (s2 := fold_left f l s) in *. pose proof (silent_clear_stmt s2 sid) as Hs3.
    split; [intros q d; rewrite (phi_quiet _ _ q d Hs3 eq_refl); apply Hc2|].
    split; [eapply stat_eq_trans; [exact He2|apply (sil_se _ _ Hs3)]|].
    intros sid' Hne. simpl. rewrite lookup_insert_ne by congruence. rewrite Hst2. reflexivity. }
  destruct commit; [exact (H _ _ (commit_op_held eps) (reflexivity _))|exact (H _ _ (undo_op_held eps) (rev_perm _))].
Qed.

(* ---------- backfill: Session.Allocate and its dispatch ---------- *)

(* no heap entry appears, none leaves a holding status *)
Definition keeps_holding (s s' : sess) : Prop :=
  forall i t, heap s' !! i = Some t ->
    exists t0, heap s !! i = Some t0 /\ (holds (t_status t0) = true -> holds (t_status t) = true).

(* binding a task that holds quota *)
Lemma dispatch_held s tid :
  base_ok s -> cover s -> (forall t, heap s !! tid = Some t -> holds (t_status t) = true) ->
  let s' := fst (dispatch s tid) in
  cover s' /\ unrecorded s s' /\ keeps_holding s s'.
Proof.
  intros Hb Hc Hh. cbv zeta.
  assert (Hsame : cover s /\ unrecorded s s /\ keeps_holding s s)
    by (split; [exact Hc|split; [apply unrecorded_refl|intros i t; eauto]]).
  unfold dispatch. destruct (heap s !! tid) as [p|] eqn:Eh; [|exact Hsame].
  case_bool_decide; [exact Hsame|].
  destruct (base_stored _ _ _ Hb Eh) as (Hid & Hp & Hn). specialize (Hh p eq_refl).
  destruct (ssn_update_status _ p Binding) as [[f s2] p2] eqn:E2. simpl.
  destruct (eff_bind _ _ _ _ _ _ _ Hp Hh E2) as (T2 & Hh2 & He).
  split; [exact (cover_eff _ _ _ He Hc)|split; [exact (unrecorded_tmove _ _ _ _ T2)|]].
  intros i t. rewrite (tm_heap _ _ _ _ T2). destruct (stdpp.base.decide (i = t_id p)) as [->|Hne].
  - rewrite lookup_insert. intros [= <-]. exists p. split; [exact Hp|auto].
  - rewrite lookup_insert_ne by congruence. eauto.
Qed.

Lemma dispatch_all_held l : forall s,
  base_ok s -> cover s -> (forall i t, i ∈ l -> heap s !! i = Some t -> holds (t_status t) = true) ->
  cover (fst (dispatch_all s l)) /\ unrecorded s (fst (dispatch_all s l)).
Proof.
  induction l as [|t l IH]; intros s Hb Hc Hh; simpl.
  - split; [exact Hc|apply unrecorded_refl].
  - destruct (dispatch_held s t Hb Hc (fun x Hx => Hh t x ltac:(left) Hx)) as (Hc1 & Hu1 & Hmon).
    destruct (dispatch s t) as [s1 ok]. simpl in *.
    pose proof (base_ok_move _ _ (proj1 Hu1) Hb) as Hb1.
    assert (Hh1 : forall i x, i ∈ t :: l -> heap s1 !! i = Some x -> holds (t_status x) = true).
    { intros i x Hi Hx. destruct (Hmon i x Hx) as (x0 & Hx0 & Himp). apply Himp. eapply Hh; eassumption. }
    destruct ok.
    + destruct (IH s1 Hb1 Hc1 (fun i x Hi => Hh1 i x ltac:(right; exact Hi))) as [Hc2 Hu2].
      split; [exact Hc2|eapply unrecorded_trans; eassumption].
    + simpl. destruct (heap s1 !! t) as [x|] eqn:Ex; [|split; assumption].
      destruct (base_stored _ _ _ Hb1 Ex) as (_ & Hpx & Hnx).
      destruct (eff_unallocate_held s1 x Hpx Hnx (Hh1 t x ltac:(left) Ex)) as [Heu Hstu].
      split; [exact (cover_eff _ _ _ Heu Hc1)|exact (unrecorded_trans _ _ _ Hu1 (unrecorded_eff _ _ _ _ Heu Hstu))].
Qed.

Section Backfill.
Variable eps : Z.
(* the task table (id -> job, request) that C07's invariant [good] of LedgerLemmasSess.v is stated over *)
Variable T : gmap positive (positive * res).

Lemma backfill_held (jr : sess -> job -> bool) s tid nid :
  good T s -> base_ok s -> cover s ->
  (forall p, heap s !! tid = Some p -> t_status p = Pending) ->
  let s' := fst (ssn_place_with eps jr s KAllocate tid nid) in
  cover s' /\ unrecorded s s'.
Proof.
  intros Hg Hb Hc Hpend. cbv zeta.
  destruct (ssn_place_with_cases eps jr s KAllocate tid nid) as [->|(p & s1 & p1 & Eh & E1 & H)];
    [exact (conj Hc (unrecorded_refl s))|].
  destruct (base_stored _ _ _ Hb Eh) as (_ & Hp & Hn). specialize (Hpend p Eh). cbv zeta in H.
  destruct (tmove_update_put _ _ _ (Some nid) _ _ _ Hp E1) as (T2 & Hs1 & _).
  destruct (good_update T _ _ _ _ _ _ Hg (good_heap_pok T _ _ _ Hg Eh) E1) as (Hctx1 & _).
  apply (ctx_put T _ _ (Some nid)) in Hctx1.
  set (p2 := set_node p1 (Some nid)) in *. set (s2 := put_task s1 p2) in *.
  pose proof (tm_stored _ _ _ _ T2) as Hp2.
  destruct H as [->|(n & n' & p3 & En & Ea & H)].
  - (* revertPlacement: Pending -> Allocated -> Pending (or the job has gone: p counts for no queue) *)
    destruct (ssn_update_status s2 p2 Pending) as [[fr sr] pr] eqn:Er.
    destruct (tmove_update_put _ _ _ None _ _ _ Hp2 Er) as (Tr & Hsr & Hfr).
    apply (tmove_trans _ _ _ _ _ _ T2) in Tr. pose proof (eff_tmove _ _ _ _ Hp Tr) as He.
    split; [|exact (unrecorded_tmove _ _ _ _ Tr)].
    apply (cover_eff p s); [|exact Hc]. cbn [set_node t_status] in He. rewrite Hsr, Hpend in He. destruct fr; [exact He|].
    eapply eff_any; [|exact He]. rewrite <- (se_j _ _ (sil_se _ _ (tm_sil _ _ _ _ T2))).
    destruct (tsame_req _ _ (tm_same _ _ _ _ T2)) as (_ & <- & _). apply Hfr. reflexivity.
  - pose proof (ctx_node_add eps T _ _ _ _ _ _ Hctx1 En Ea) as Hctx3.
    destruct (tmove_node_add eps _ _ nid _ _ _ Hp2 Ea) as [T3 Hs3].
    apply (tmove_trans _ _ _ _ _ _ T2) in T3. set (s3 := put_task _ p3) in *.
    (* Pending -> Allocated, one allocate callback: balance 0 - 1 + 1 *)
    assert (He04 : eff p 0 s (snd (h_alloc s3 p3))).
    { replace 0 with (hol (t_status p) - hol (t_status p3) + 1) by (rewrite Hs3; unfold p2; simpl; rewrite Hs1, Hpend; reflexivity).
      exact (eff_trans _ _ _ _ _ _ (eff_tmove _ _ _ _ Hp T3) (eff_retarget _ _ _ _ _ (tm_same _ _ _ _ T3) (eff_alloc s3 p3))). }
    pose proof (ctx_h_alloc T _ _ _ _ _ Hctx3 (surjective_pairing (h_alloc s3 p3))) as Hctx4.
    set (s4 := snd (h_alloc s3 p3)) in *.
    pose proof (conj (cover_eff _ _ _ He04 Hc) (unrecorded_eff _ _ _ _ He04 (tm_stmts _ _ _ _ T3 : stmts s4 = stmts s))) as R4.
    destruct H as [->|(j & _ & Ej & ->)]; [exact R4|].
    (* the tasks of the job's Allocated index are Allocated: the ledger invariant at s4 *)
    assert (Hidx : forall i t, i ∈ elements (default ∅ (j_index j !! skey Allocated)) -> heap s4 !! i = Some t ->
                   holds (t_status t) = true).
    { intros i t Hi Ht. apply elem_of_elements in Hi.
      destruct Hctx4 as [(Hli & _) _]. destruct Hli as (_ & Hjobs & _).
      destruct (Hjobs _ _ Ej) as [_ (_ & [Hix _] & _)].
      apply (Hix Allocated i) in Hi as [_ (t' & Ht' & Hst')]. rewrite Ht in Ht'. inversion Ht'; subst t'.
      rewrite Hst'. reflexivity. }
    destruct (dispatch_all_held _ s4 (base_ok_move _ _ (ef_se _ _ _ _ He04) Hb) (proj1 R4) Hidx) as [Hc5 Hu5].
    split; [exact Hc5|exact (unrecorded_trans _ _ _ (proj2 R4) Hu5)].
Qed.

(* C07's standing invariant along the skeleton *)
Lemma good_try_place s sid tid nid : good T s -> good T (fst (try_place eps s sid tid nid)).
Proof.
  intros Hg. destruct (try_place_cases eps s sid tid nid) as [->|(k & p & _ & Hl & ->)]; [exact Hg|].
  exact (good_place eps T s sid k p nid Hg (good_heap_pok T _ _ _ Hg Hl)).
Qed.

Lemma good_do_places (w : world) sid jid l : forall s, good T s -> good T (fst (do_places eps w s sid jid l)).
Proof.
  induction l as [|[tid nid] l IH]; intros s Hg; simpl; [exact Hg|].
  destruct (heap s !! tid) as [p|]; [|exact Hg]. destruct (negb _); [exact Hg|]. destruct (negb _); [exact Hg|].
  pose proof (good_try_place s sid tid nid Hg) as H1. destruct (try_place eps s sid tid nid) as [s1 pl]. apply IH, H1.
Qed.

Lemma good_cycle_step (w : world) o : good T (w_sess w) -> good T (w_sess (fst (CycleModel.step eps w o))).
Proof.
  intros Hg. destruct o as [jid places|tid nid]; simpl.
  - pose proof (good_do_places w (w_next_stmt w) jid places _ Hg) as H1.
    destruct (do_places eps w (w_sess w) (w_next_stmt w) jid places) as [s1 v]. simpl in *.
    destruct (CycleModel.decide s1 jid); [apply good_commit|exact H1|apply good_discard]; exact H1.
  - destruct (heap (w_sess w) !! tid) as [p|]; [|exact Hg].
    destruct (negb _); [exact Hg|]. destruct (negb _); [exact Hg|].
    pose proof (good_ssn_place eps T (fun s j => gang_job_ready (heap s) j) (w_sess w) KAllocate tid nid Hg) as H1.
    destruct (ssn_place_with _ _ _ _ _ _) as [s1 r]. exact H1.
Qed.

(* ---------- the skeleton ---------- *)

(* statements are created fresh: nothing is recorded under the ids still to be handed out *)
Definition fresh (w : world) : Prop :=
  forall sid, (w_next_stmt w <= sid)%positive -> stmts (w_sess w) !! sid = None.

Definition run_inv (w : world) : Prop :=
  good T (w_sess w) /\ base_ok (w_sess w) /\ fresh w /\ cover (w_sess w).

Theorem step_held (w : world) (o : cop) : run_inv w -> run_inv (fst (CycleModel.step eps w o)).
Proof.
  intros (Hg & Hb & Hf & Hc). split; [apply good_cycle_step, Hg|].
  destruct o as [jid places|tid nid]; simpl.
  - assert (Ha : att (w_next_stmt w) (w_sess w)).
    { split; [exact Hb|split; [exact Hc|]]. unfold attempt_ok. rewrite (Hf (w_next_stmt w)) by lia. simpl.
      split; [apply NoDup_nil_2|apply Forall_nil_2]. }
    destruct (do_places_held eps w (w_next_stmt w) jid places _ Ha) as [Ha1 [He1 Hst1]].
    destruct (do_places eps w (w_sess w) (w_next_stmt w) jid places) as [s1 v]. simpl in *.
    assert (Hfr1 : forall sid, (Pos.succ (w_next_stmt w) <= sid)%positive -> stmts s1 !! sid = None).
    { intros sid Hle. rewrite Hst1 by lia. apply Hf. lia. }
    assert (Hend : forall commit : bool, let s2 := if commit then stmt_commit eps s1 (w_next_stmt w) else stmt_discard eps s1 (w_next_stmt w) in
              base_ok s2 /\ (forall sid, (Pos.succ (w_next_stmt w) <= sid)%positive -> stmts s2 !! sid = None) /\ cover s2).
    { intros commit. destruct (stmt_end_held eps s1 (w_next_stmt w) commit Ha1) as (Hc2 & He2 & Hst2).
      split; [exact (base_ok_move _ _ He2 (proj1 Ha1))|]. split; [|exact Hc2].
      intros sid Hle. rewrite Hst2 by lia. apply Hfr1, Hle. }
    destruct (CycleModel.decide s1 jid); [exact (Hend true)| |exact (Hend false)].
    split; [apply Ha1|]. split; [exact Hfr1|apply Ha1].
  - pose proof (conj Hb (conj Hf Hc)) as Hsame.
    destruct (heap (w_sess w) !! tid) as [p|] eqn:Eh; [|exact Hsame].
    destruct (negb (bool_decide (t_status p = Pending))) eqn:Ep; [exact Hsame|].
    apply negb_false_iff, bool_decide_eq_true in Ep.
    destruct (negb (t_best_effort p)); [exact Hsame|].
    destruct (backfill_held (fun s j => gang_job_ready (heap s) j) (w_sess w) tid nid Hg Hb Hc) as (Hc1 & He1 & Hst1).
    { intros p0 H0. rewrite Eh in H0. inversion H0; subst. exact Ep. }
    destruct (ssn_place_with _ _ _ _ _ _) as [s1 r]. simpl in *.
    split; [eapply base_ok_move; eassumption|]. split; [|exact Hc1].
    intros sid Hle. simpl in *. rewrite Hst1. apply Hf, Hle.
Qed.

Theorem run_held (ops : list cop) : forall w, run_inv w -> run_inv (CycleModel.run eps w ops).
Proof.
  induction ops as [|o ops IH]; intros w Hw; simpl; [exact Hw|]. apply IH, step_held, Hw.
Qed.

End Backfill.

(* ---------- the property in its own words ---------- *)

(* well-formedness of the session a cycle starts from: the bookkeeping invariant of LedgerInvP.v
   (with C07's two side conditions), statements handed out fresh, and the handler ledger covering
   the pods that hold quota when the session opens (OnSessionOpen sums exactly those) *)
Definition world_ok_held (w : world) : Prop :=
  world_ok w /\ ledger_inv (w_sess w) /\ sess_wf (w_sess w) /\ saved_ok (w_sess w) /\ fresh w /\ cover (w_sess w).

Lemma world_ok_held_inv w : world_ok_held w -> run_inv (table_of (heap (w_sess w))) w.
Proof.
  intros (Hw & Hl & Hwf & Hs & Hf & Hc). split; [apply good_init; assumption|].
  split; [split; [apply world_ok_ids, Hw|apply world_ok_stat, Hw]|]. split; assumption.
Qed.

(* held <= share_of after every run *)
Theorem ledger_covers_placed eps (w : world) (ops : list cop) :
  world_ok_held w -> forall q d, held (w_sess (CycleModel.run eps w ops)) q d <= amt (share_of (w_sess (CycleModel.run eps w ops)) q) d.
Proof.
  intros Hw q d. destruct (run_held eps _ ops w (world_ok_held_inv w Hw)) as (_ & _ & _ & Hc).
  specialize (Hc q d). unfold phi in Hc. lia.
Qed.

(* MAIN (C03, allocate / backfill skeleton): after every run, for every task placed in this cycle
   for a queue with a plugin, in every dimension the task requests, the requests of the queue's
   PLACED pods (Allocated, Pipelined, Binding, Bound, Running) are within the queue's limit *)
Theorem placed_pods_within_limit eps (w : world) (ops : list cop) :
  world_ok_held w ->
  let s' := w_sess (CycleModel.run eps w ops) in
  forall evs, hlog s' = evs ++ hlog (w_sess w) ->
  forall e t q qa,
    e ∈ evs -> he_alloc e = true -> heap s' !! he_task e = Some t -> queue_of s' t = Some q ->
    w_queues w !! q = Some qa -> q_has_plugin qa = true ->
    (t_best_effort t = false -> q_open qa = true) /\
    forall d, requested (t_req t) d -> held s' q d <= amt (q_limit qa) d.
Proof.
  intros Hw s' evs Hl e t q qa Hin Ha Hh Hq HQ Hpl.
  destruct (queue_cap_invariant eps w ops (proj1 Hw) evs Hl e t q qa Hin Ha Hh Hq HQ Hpl) as [Ho Hb].
  split; [exact Ho|]. intros d Hd. specialize (Hb d Hd).
  pose proof (ledger_covers_placed eps w ops Hw q d). fold s' in H, Hb. lia.
Qed.

Lemma zsum_zero {A} (g : A -> Z) l : (forall x, x ∈ l -> g x = 0) -> zsum g l = 0.
Proof.
  induction l as [|x l IH]; intros H; simpl; [reflexivity|].
  rewrite (H x) by left. rewrite IH; [reflexivity|]. intros y Hy. apply H. right. exact Hy.
Qed.

(* sessions without a pod in a holding status and with an empty ledger are covered *)
Lemma cover_no_holding s :
  hshare s = ∅ -> (forall i t, heap s !! i = Some t -> holds (t_status t) = false) -> cover s.
Proof.
  intros He Hn q d. unfold phi. rewrite share_of_amt, He. unfold msum. rewrite map_to_list_empty. simpl.
  unfold held. rewrite zsum_zero; [lia|]. intros [i t] Hin. apply elem_of_map_to_list in Hin.
  unfold hterm. simpl. unfold hol. rewrite (Hn i t Hin). destruct (bool_decide _); lia.
Qed.
