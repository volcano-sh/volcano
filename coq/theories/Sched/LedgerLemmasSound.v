(* Soundness of the executable bookkeeping checker (Sched/LedgerInv.v, ledger_okb) with
   respect to the Prop-level invariant (Sched/LedgerInvP.v, ledger_inv).

   ledger_okb does not test that requests are non-negative, so the two clauses of
   ledger_inv that speak about [nonneg] (heap_ok: nonneg (t_req t); node_inv: nonneg
   (t_req c) of the node-held copy) are obtained from the explicit hypothesis
   [heap_nonneg].  EVERY OTHER clause of ledger_inv is implied by ledger_okb alone.  (job_inv does not mention nonneg at all, so
   job_okb_sound_strong needs no hypothesis; job_okb_sound carries the unused
   heap_nonneg premise only to keep the signature uniform with node_okb_sound.)

   An executable test of heap_nonneg (heap_nonnegb, sound and complete) is given at
   the end together with the corollary ledger_okb_sound_b. *)
From stdpp Require Import gmap.
From Coq Require Import ZArith Lia.
From V Require Import Base.Res Base.ResLemmas Sched.LedgerModel Sched.StmtModel
  Sched.GangModel Sched.LedgerInvP Sched.LedgerInv Sched.LedgerLemmasA.
Open Scope Z_scope.

Definition heap_nonneg (h : gmap positive task) : Prop :=
  forall i t, h !! i = Some t -> nonneg (t_req t).

Lemma gmap_allb_spec {A} (p : positive -> A -> bool) (m : gmap positive A) :
  gmap_allb p m = true <-> forall k v, m !! k = Some v -> p k v = true.
Proof. unfold gmap_allb. rewrite bool_decide_eq_true. apply map_Forall_lookup. Qed.

Lemma gset_allb_spec (p : positive -> bool) (x : gset positive) :
  gset_allb p x = true <-> forall k, k ∈ x -> p k = true.
Proof. unfold gset_allb. rewrite bool_decide_eq_true. reflexivity. Qed.

Lemma elem_of_gset_filterb (p : positive -> bool) (x : gset positive) i :
  i ∈ gset_filterb p x <-> p i = true /\ i ∈ x.
Proof. unfold gset_filterb. rewrite elem_of_filter. reflexivity. Qed.

Lemma tasks_of_tasks_in h ids : tasks_of h ids = tasks_in h ids.
Proof. reflexivity. Qed.

Lemma skey_inj s1 s2 : skey s1 = skey s2 -> s1 = s2.
Proof. apply LedgerLemmasA.skey_inj. Qed.

Lemma all_statuses_complete s : In s all_statuses.
Proof. destruct s; simpl; tauto. Qed.

Lemma amt_empty d : amt empty_res d = 0.
Proof.
  destruct d; [reflexivity|reflexivity|]. cbn [amt].
  apply sget_none. unfold scm. simpl. apply lookup_empty.
Qed.

Lemma elem_of_res_keys2 r s k :
  is_Some (scm r !! k) \/ is_Some (scm s !! k) -> In k (res_keys [r; s]).
Proof.
  intros H. apply elem_of_list_In. unfold res_keys. cbn [foldr].
  assert (is_Some ((scm r ∪ (scm s ∪ ∅)) !! k)) as [v Hv].
  { destruct (scm r !! k) as [v|] eqn:Er.
    - exists v. apply lookup_union_Some_l. exact Er.
    - destruct H as [[? ?]|[w Hw]]; [discriminate|]. exists w.
      rewrite lookup_union_r by exact Er. apply lookup_union_Some_l. exact Hw. }
  apply elem_of_list_fmap. exists (k, v). split; [reflexivity|].
  apply elem_of_map_to_list. exact Hv.
Qed.

Lemma res_eqvb_sound r s : res_eqvb r s = true -> forall d, amt r d = amt s d.
Proof.
  unfold res_eqvb. rewrite !andb_true_iff, !bool_decide_eq_true, forallb_forall.
  intros [[Hc Hm] Hk] d. destruct d as [| |k]; cbn [amt]; [exact Hc|exact Hm|].
  destruct (scm r !! k) as [v|] eqn:Er; [|destruct (scm s !! k) as [w|] eqn:Es].
  - specialize (Hk k (elem_of_res_keys2 r s k (or_introl (ex_intro _ v Er)))).
    apply bool_decide_eq_true in Hk. exact Hk.
  - specialize (Hk k (elem_of_res_keys2 r s k (or_intror (ex_intro _ w Es)))).
    apply bool_decide_eq_true in Hk. exact Hk.
  - rewrite (sget_none _ _ Er), (sget_none _ _ Es). reflexivity.
Qed.

Lemma res_eqvb_res_eqv r s : res_eqvb r s = true -> res_eqv r s.
Proof. intros H. apply res_eqv_amt, res_eqvb_sound, H. Qed.

Lemma sum_req_cons t l : sum_req (t :: l) = add (sum_req l) (t_req t).
Proof. reflexivity. Qed.

Lemma amt_sum_req d l : amt (sum_req l) d = sum_amt (req_amt d) l.
Proof.
  induction l as [|t l IH]; [apply amt_empty|].
  rewrite sum_req_cons, sum_amt_cons, amt_add, IH. unfold req_amt. lia.
Qed.

(* sum over a (std++) filter *)
Lemma amt_sum_req_filter (P : task -> Prop) `{!forall t, Decision (P t)} d l :
  amt (sum_req (filter P l)) d =
  sum_amt (fun t => if decide (P t) then amt (t_req t) d else 0) l.
Proof.
  induction l as [|t l IH]; [apply amt_empty|].
  rewrite filter_cons, sum_amt_cons. destruct (decide (P t)) as [Hp|Hp].
  - rewrite sum_req_cons, amt_add, IH. lia.
  - rewrite IH. lia.
Qed.

Lemma amt_sum_req_alloc d l :
  amt (sum_req (filter (fun t => allocated_status (t_status t) = true) l)) d =
  sum_amt (alloc_amt d) l.
Proof.
  rewrite amt_sum_req_filter. apply sum_amt_ext. intros t _. unfold alloc_amt.
  destruct (decide (allocated_status (t_status t) = true)) as [E|E];
    destruct (allocated_status (t_status t)); congruence.
Qed.

Lemma amt_sum_req_used d l :
  amt (sum_req (filter (fun c => t_status c <> Pipelined) l)) d = sum_amt (used_amt d) l.
Proof.
  rewrite amt_sum_req_filter. apply sum_amt_ext. intros c _. unfold used_amt.
  destruct (decide (t_status c <> Pipelined)); case_bool_decide; first [reflexivity|tauto].
Qed.

Lemma amt_sum_req_rel d l :
  amt (sum_req (filter (fun c => t_status c = Releasing) l)) d = sum_amt (rel_amt d) l.
Proof.
  rewrite amt_sum_req_filter. apply sum_amt_ext. intros c _. unfold rel_amt.
  destruct (decide (t_status c = Releasing)); case_bool_decide; first [reflexivity|tauto].
Qed.

Lemma amt_sum_req_pip d l :
  amt (sum_req (filter (fun c => t_status c = Pipelined) l)) d = sum_amt (pip_amt d) l.
Proof.
  rewrite amt_sum_req_filter. apply sum_amt_ext. intros c _. unfold pip_amt.
  destruct (decide (t_status c = Pipelined)); case_bool_decide; first [reflexivity|tauto].
Qed.

Lemma index_okb_sound h ids ix : index_okb h ids ix = true -> index_ok h ids ix.
Proof.
  unfold index_okb. rewrite andb_true_iff, gmap_allb_spec, forallb_forall.
  intros [Hs Hk]. split.
  - intros s i. specialize (Hs s (all_statuses_complete s)). cbv beta zeta in Hs.
    unfold idx_set.
    assert (default ∅ (ix !! skey s) = gset_filterb (has_status h s) ids) as ->.
    { destruct (ix !! skey s) as [got|]; simpl.
      - apply andb_true_iff in Hs as [Hs _]. apply bool_decide_eq_true in Hs. exact Hs.
      - apply bool_decide_eq_true in Hs. symmetry. exact Hs. }
    rewrite elem_of_gset_filterb. unfold has_status. split.
    + intros [Hp Hin]. split; [exact Hin|].
      destruct (h !! i) as [t|]; [|discriminate]. exists t. split; [reflexivity|].
      apply bool_decide_eq_true in Hp. exact Hp.
    + intros [Hin (t & Ht & Hst)]. split; [|exact Hin]. rewrite Ht.
      apply bool_decide_eq_true. exact Hst.
  - intros k x Hx. specialize (Hk k x Hx). cbv beta in Hk.
    apply bool_decide_eq_true in Hk. split; [|exact Hk].
    destruct Hk as [s Hsk]. apply status_key_inv in Hsk. subst k.
    specialize (Hs s (all_statuses_complete s)). cbv beta zeta in Hs.
    rewrite Hx in Hs. apply andb_true_iff in Hs as [_ Hs].
    apply negb_true_iff, bool_decide_eq_false in Hs. exact Hs.
Qed.

Lemma sub_okb_sound h j : sub_okb h j = true -> sub_inv h j.
Proof.
  unfold sub_okb. rewrite !andb_true_iff, !gmap_allb_spec, bool_decide_eq_true.
  intros [[Hd Hsubs] Hts].
  assert (Hsub : forall sid sj, j_subs j !! sid = Some sj ->
            (forall i, i ∈ sj_tasks sj <-> j_task_sub j !! i = Some sid) /\
            index_ok h (sj_tasks sj) (sj_index sj)).
  { intros sid sj Hsj. specialize (Hsubs sid sj Hsj). cbv beta in Hsubs.
    apply andb_true_iff in Hsubs as [He Hix]. apply bool_decide_eq_true in He.
    split; [|apply index_okb_sound; exact Hix].
    intros i. rewrite He, elem_of_gset_filterb, bool_decide_eq_true.
    split; [tauto|]. intros Hi. split; [exact Hi|].
    rewrite <- Hd. apply elem_of_dom. eauto. }
  split; [exact Hd|]. split; [|exact Hsub].
  intros i sid Hi. specialize (Hts i sid Hi). cbv beta in Hts.
  apply bool_decide_eq_true in Hts as [sj Hsj].
  exists sj. split; [exact Hsj|]. apply (Hsub sid sj Hsj). exact Hi.
Qed.

Lemma job_okb_sound_strong h j : job_okb h j = true -> job_inv h j.
Proof.
  unfold job_okb. cbv zeta. rewrite !andb_true_iff, gset_allb_spec.
  intros [[[[Ht Htot] Hal] Hix] Hsub].
  split; [|split; [|split; [|split]]].
  - intros i Hi. specialize (Ht i Hi). cbv beta in Ht.
    destruct (h !! i) as [t|]; [|discriminate].
    apply andb_true_iff in Ht as [Hj _]. apply bool_decide_eq_true in Hj. eauto.
  - apply index_okb_sound. exact Hix.
  - intros d. rewrite (res_eqvb_sound _ _ Htot d). apply amt_sum_req.
  - intros d. rewrite (res_eqvb_sound _ _ Hal d). apply amt_sum_req_alloc.
  - apply sub_okb_sound. exact Hsub.
Qed.

(* the checker also certifies that every task of the job is filed under its own id *)
Lemma job_okb_ids h j i :
  job_okb h j = true -> i ∈ j_tasks j -> exists t, h !! i = Some t /\ t_id t = i /\ t_job t = j_id j.
Proof.
  unfold job_okb. cbv zeta. rewrite !andb_true_iff, gset_allb_spec.
  intros [[[[Ht _] _] _] _] Hi. specialize (Ht i Hi). cbv beta in Ht.
  destruct (h !! i) as [t|]; [|discriminate].
  apply andb_true_iff in Ht as [Hj Hid]. apply bool_decide_eq_true in Hj, Hid. eauto.
Qed.

Lemma job_okb_sound h j : job_okb h j = true -> heap_nonneg h -> job_inv h j.
Proof. intros H _. apply job_okb_sound_strong. exact H. Qed.

Lemma node_okb_sound h n : node_okb h n = true -> heap_nonneg h -> node_inv h n.
Proof.
  unfold node_okb. cbv zeta. rewrite andb_true_iff, gmap_allb_spec.
  intros [Hc Hs] Hnn. split.
  - intros i c Hic. specialize (Hc i c Hic). cbv beta in Hc.
    apply andb_true_iff in Hc as [Hc Hh]. apply andb_true_iff in Hc as [Hid Hnode].
    apply bool_decide_eq_true in Hid, Hnode.
    destruct (h !! i) as [t|] eqn:Ht; [|discriminate].
    apply andb_true_iff in Hh as [Hr Hj]. apply bool_decide_eq_true in Hr, Hj.
    split; [exact Hid|]. split; [exact Hnode|]. split.
    + rewrite <- Hr. exact (Hnn i t Ht).
    + exists t. split; [reflexivity|]. split; [exact Hr|exact Hj].
  - intros Hn. rewrite Hn in Hs. rewrite !andb_true_iff in Hs.
    destruct Hs as [[[Hu Hr] Hp] Hi]. unfold copies.
    split; [|split; [|split]]; intros d.
    + rewrite (res_eqvb_sound _ _ Hu d). apply amt_sum_req_used.
    + rewrite (res_eqvb_sound _ _ Hr d). apply amt_sum_req_rel.
    + rewrite (res_eqvb_sound _ _ Hp d). apply amt_sum_req_pip.
    + rewrite <- (res_eqvb_sound _ _ Hi d). rewrite amt_add. reflexivity.
Qed.

Theorem ledger_okb_sound (s : sess) :
  heap_nonneg (heap s) -> ledger_okb (heap s) (jobs s) (nodes s) = true -> ledger_inv s.
Proof.
  intros Hnn. unfold ledger_okb. rewrite !andb_true_iff, !gmap_allb_spec.
  intros [[Hh Hj] Hn]. split; [|split].
  - intros i t Ht. split; [|exact (Hnn i t Ht)].
    specialize (Hh i t Ht). apply bool_decide_eq_true in Hh. exact Hh.
  - intros i j Hij. specialize (Hj i j Hij). cbv beta in Hj.
    apply andb_true_iff in Hj as [Hid Hok]. apply bool_decide_eq_true in Hid.
    split; [exact Hid|]. apply job_okb_sound_strong. exact Hok.
  - intros i n Hin. specialize (Hn i n Hin). cbv beta in Hn.
    apply andb_true_iff in Hn as [Hid Hok]. apply bool_decide_eq_true in Hid.
    split; [exact Hid|]. apply node_okb_sound; [exact Hok|exact Hnn].
Qed.

Definition res_nonnegb (r : res) : bool :=
  bool_decide (0 <= cpu r) && bool_decide (0 <= mem r) &&
  gmap_allb (fun _ v => bool_decide (0 <= v)) (scm r).

Definition heap_nonnegb (h : gmap positive task) : bool :=
  gmap_allb (fun _ t => res_nonnegb (t_req t)) h.

Lemma res_nonnegb_spec r : res_nonnegb r = true <-> nonneg r.
Proof.
  unfold res_nonnegb. rewrite !andb_true_iff, !bool_decide_eq_true, gmap_allb_spec. split.
  - intros [[Hc Hm] Hk] d. destruct d as [| |k]; cbn [amt]; [exact Hc|exact Hm|].
    unfold sget. destruct (scm r !! k) as [v|] eqn:E; simpl; [|lia].
    specialize (Hk k v E). apply bool_decide_eq_true in Hk. exact Hk.
  - intros H. split; [split; [exact (H DCpu)|exact (H DMem)]|].
    intros k v E. apply bool_decide_eq_true. specialize (H (DSc k)). cbn [amt] in H.
    rewrite (sget_lookup _ _ _ E) in H. exact H.
Qed.

Lemma heap_nonnegb_spec h : heap_nonnegb h = true <-> heap_nonneg h.
Proof.
  unfold heap_nonnegb, heap_nonneg. rewrite gmap_allb_spec.
  split; intros H i t Ht; apply res_nonnegb_spec; exact (H i t Ht).
Qed.

Corollary ledger_okb_sound_b (s : sess) :
  heap_nonnegb (heap s) && ledger_okb (heap s) (jobs s) (nodes s) = true -> ledger_inv s.
Proof.
  rewrite andb_true_iff, heap_nonnegb_spec. intros [H1 H2]. apply ledger_okb_sound; assumption.
Qed.

Print Assumptions ledger_okb_sound.
