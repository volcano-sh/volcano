(* Property C02: what NodeInfo.AddTask / RemoveTask do to "the node is within capacity".

   Only inequalities are used about Resource.sub (whatever the nil-map exception does,
   r - x <= sub r x <= r for x >= 0); the idle vector always has a scalar map
   (sc (n_idle n) <> None is part of node_within_capacity), so Idle.sub is exact.  All for every
   eps > 0. *)
From stdpp Require Import gmap.
From Coq Require Import ZArith Lia.
From V Require Import Sched.LedgerLemmasA Sched.LedgerLemmasNode Base.Res Base.ResLemmas Sched.LedgerModel Sched.LedgerInvP.
Open Scope Z_scope.

(* the two inequalities that hold whether or not the receiver has a scalar map *)
Lemma amt_sub_bounds r x d : 0 <= amt x d -> amt r d - amt x d <= amt (sub r x) d <= amt r d.
Proof.
  intros Hx. destruct (sc r) as [m|] eqn:Hm.
  - rewrite amt_sub_some by congruence. lia.
  - destruct d; simpl in *; try lia.
    rewrite (sget_nil (sub r x)) by (apply sub_nil_drops_scalars; exact Hm).
    rewrite (sget_nil r) by exact Hm. lia.
Qed.

Lemma amt_empty_res d : amt empty_res d = 0.
Proof. destruct d; reflexivity. Qed.

Lemma amt_add_sub x r d : amt (sub (add x r) r) d = amt x d.
Proof. exact (proj1 (res_eqv_amt _ _) (add_sub_eqv x r) d). Qed.

(* what the node will have free once the releasing tasks are gone and the pipelined ones arrived *)
Definition fut_amt (n : node) (d : dim) : Z :=
  amt (n_idle n) d + amt (n_releasing n) d - amt (n_pipelined n) d.

Definition idle_ok (eps : Z) (n : node) : Prop :=
  sc (n_idle n) <> None /\ forall d, guarded_dim d -> - eps < amt (n_idle n) d.
Definition future_ok (eps : Z) (n : node) : Prop :=
  forall d, guarded_dim d -> - eps < fut_amt n d.

Lemma nwc_split eps n : node_within_capacity eps n <-> idle_ok eps n /\ future_ok eps n.
Proof.
  unfold node_within_capacity, idle_ok, future_ok, fut_amt. split.
  - intros [Hs H]. repeat split; try exact Hs; intros d Hd; apply (H d Hd).
  - intros [[Hs Hi] Hf]. split; [exact Hs|]. intros d Hd. split; [apply Hi|apply Hf]; exact Hd.
Qed.

Lemma nwc_elim eps n d :
  node_within_capacity eps n -> guarded_dim d -> - eps < amt (n_idle n) d /\ - eps < fut_amt n d.
Proof. intros [_ H] Hd. apply (H d Hd). Qed.

(* FutureIdle() is exactly idle + releasing - pipelined when Idle has a scalar map *)
Lemma future_idle_amt n d : sc (n_idle n) <> None -> amt (future_idle n) d = fut_amt n d.
Proof.
  intros H. unfold future_idle, fut_amt.
  rewrite amt_sub_some by (apply add_sc_some; exact H). rewrite amt_add. reflexivity.
Qed.

(* ---------- "the request fits": the pointwise content of the guards ---------- *)

Definition fits (eps : Z) (r : res) (avail : dim -> Z) : Prop :=
  forall d, guarded_dim d -> amt r d < avail d + eps.

Lemma fits_zero eps r avail :
  (forall d, guarded_dim d -> amt r d = 0) -> (forall d, guarded_dim d -> - eps < avail d) -> fits eps r avail.
Proof. intros Hz Ha d Hd. rewrite (Hz d Hd). specialize (Ha d Hd). lia. Qed.

Section Guards.
Variable eps : Z.
Hypothesis eps_pos : 0 < eps.

(* dimensions the request lacks are simply not touched *)
Lemma less_equal_pointwise r x d :
  less_equal eps r x DZero = true -> amt r d = 0 \/ amt r d < amt x d + eps.
Proof.
  intros Hle. apply (less_equal_zero_spec eps eps_pos) in Hle as (Hc & Hm & Hs).
  destruct d as [| |k]; simpl; [right; lia|right; lia|].
  destruct (scm r !! k) as [v|] eqn:E.
  - right. rewrite (sget_lookup _ _ _ E). apply Hs. exact E.
  - left. apply sget_none. exact E.
Qed.

(* LessEqual(., Zero) on a vector r0 that dominates the request r (r0 = InitResreq, r = Resreq;
   r0 = r for the Binding re-check) *)
Lemma less_equal_fits r0 r x :
  less_equal eps r0 x DZero = true ->
  (forall d, amt r d <= amt r0 d) ->
  (forall d, guarded_dim d -> - eps < amt x d) ->
  fits eps r (amt x).
Proof.
  intros Hle Hdom Hx d Hd. specialize (Hdom d). specialize (Hx d Hd).
  destruct (less_equal_pointwise r0 x d Hle); lia.
Qed.

(* the two tests of the actions, on a node that is within capacity *)
Lemma fits_idle n r0 r :
  node_within_capacity eps n -> less_equal eps r0 (n_idle n) DZero = true ->
  (forall d, amt r d <= amt r0 d) -> fits eps r (amt (n_idle n)).
Proof. intros Hn Hle Hdom. apply (less_equal_fits r0); [exact Hle|exact Hdom|]. intros d Hd. apply (nwc_elim eps n d Hn Hd). Qed.

Lemma fits_fut n r0 r :
  node_within_capacity eps n -> less_equal eps r0 (future_idle n) DZero = true ->
  (forall d, amt r d <= amt r0 d) -> fits eps r (fut_amt n).
Proof.
  intros Hn Hle Hdom d Hd. rewrite <- future_idle_amt by apply Hn. revert d Hd.
  apply (less_equal_fits r0); [exact Hle|exact Hdom|].
  intros d Hd. rewrite future_idle_amt by apply Hn. apply (nwc_elim eps n d Hn Hd).
Qed.

(* ---------- what AddTask / RemoveTask do to the four ledgers ----------
   written with the tests of used_amt / rel_amt / pip_amt (LedgerInvP); who is filed where is
   LedgerLemmasNode.node_add_spec / node_remove_fields *)

Lemma node_add_ledger n t n' t' :
  node_add eps n t = inl (n', t') ->
  if n_has_node n then
    n_idle n' = (if bool_decide (t_status t = Pipelined) then n_idle n else sub (n_idle n) (t_req t)) /\
    n_used n' = (if bool_decide (t_status t = Pipelined) then n_used n else add (n_used n) (t_req t)) /\
    n_releasing n' = (if bool_decide (t_status t = Releasing) then add (n_releasing n) (t_req t) else n_releasing n) /\
    n_pipelined n' = (if bool_decide (t_status t = Pipelined) then add (n_pipelined n) (t_req t) else n_pipelined n) /\
    (t_status t = Binding -> less_equal_names eps (t_req t) (n_idle n) DZero = true)
  else n_idle n' = n_idle n /\ n_used n' = n_used n /\ n_releasing n' = n_releasing n /\ n_pipelined n' = n_pipelined n.
Proof.
  unfold node_add. destruct (bool_decide _); [discriminate|]. destruct (bool_decide _); [discriminate|].
  destruct (n_has_node n); simpl; [|intros [= <- _]; repeat split; reflexivity].
  destruct (t_status t); try destruct (less_equal_names eps _ _ _); try discriminate;
    intros [= <- _]; repeat split; try reflexivity; discriminate.
Qed.

Lemma node_add_amounts n t n' t' :
  node_add eps n t = inl (n', t') -> n_has_node n = true -> sc (n_idle n) <> None ->
  sc (n_idle n') <> None /\
  forall d, amt (n_idle n') d = amt (n_idle n) d - used_amt d t /\
            amt (n_releasing n') d = amt (n_releasing n) d + rel_amt d t /\
            amt (n_pipelined n') d = amt (n_pipelined n) d + pip_amt d t.
Proof.
  intros Ha Hh Hs. pose proof (node_add_ledger n t n' t' Ha) as Hl. rewrite Hh in Hl.
  destruct Hl as (-> & _ & -> & -> & _). unfold used_amt, rel_amt, pip_amt. split.
  - case_bool_decide; [exact Hs|apply sub_sc_some, Hs].
  - intros d. repeat case_bool_decide; rewrite ?amt_add, ?amt_sub_some by exact Hs; lia.
Qed.

Lemma node_remove_ledger n tid c :
  n_tasks n !! tid = Some c ->
  if n_has_node n then
    n_idle (node_remove n tid) = (if bool_decide (t_status c = Pipelined) then n_idle n else add (n_idle n) (t_req c)) /\
    n_used (node_remove n tid) = (if bool_decide (t_status c = Pipelined) then n_used n else sub (n_used n) (t_req c)) /\
    n_releasing (node_remove n tid) =
      (if bool_decide (t_status c = Releasing) then sub (n_releasing n) (t_req c) else n_releasing n) /\
    n_pipelined (node_remove n tid) =
      (if bool_decide (t_status c = Pipelined) then sub (n_pipelined n) (t_req c) else n_pipelined n)
  else n_idle (node_remove n tid) = n_idle n /\ n_used (node_remove n tid) = n_used n /\
       n_releasing (node_remove n tid) = n_releasing n /\ n_pipelined (node_remove n tid) = n_pipelined n.
Proof.
  intros Hl. unfold node_remove. rewrite Hl. destruct (n_has_node n); simpl; [|repeat split; reflexivity].
  destruct (t_status c); repeat split; reflexivity.
Qed.

Lemma node_remove_amounts n tid c :
  n_tasks n !! tid = Some c -> n_has_node n = true -> nonneg (t_req c) ->
  (sc (n_idle n) <> None -> sc (n_idle (node_remove n tid)) <> None) /\
  forall d, amt (n_idle (node_remove n tid)) d = amt (n_idle n) d + used_amt d c /\
            amt (n_releasing n) d - rel_amt d c <= amt (n_releasing (node_remove n tid)) d <= amt (n_releasing n) d /\
            amt (n_pipelined n) d - pip_amt d c <= amt (n_pipelined (node_remove n tid)) d <= amt (n_pipelined n) d.
Proof.
  intros Hl Hh Hnn. pose proof (node_remove_ledger n tid c Hl) as HL. rewrite Hh in HL.
  destruct HL as (-> & _ & -> & ->). unfold used_amt, rel_amt, pip_amt. split.
  - intros Hs. case_bool_decide; [exact Hs|apply add_sc_some, Hs].
  - intros d. pose proof (amt_sub_bounds (n_releasing n) (t_req c) d (Hnn d)).
    pose proof (amt_sub_bounds (n_pipelined n) (t_req c) d (Hnn d)).
    repeat case_bool_decide; rewrite ?amt_add; lia.
Qed.

(* the guard under which an AddTask keeps the node within capacity, by status of the added
   task: Binding is re-checked against Idle by AddTask itself, so only the future half is asked *)
Definition add_guard (n : node) (t : task) : Prop :=
  match t_status t with
  | Pipelined => fits eps (t_req t) (fut_amt n)
  | Binding => fits eps (t_req t) (fut_amt n)
  | Releasing => fits eps (t_req t) (amt (n_idle n))
  | _ => fits eps (t_req t) (amt (n_idle n)) /\ fits eps (t_req t) (fut_amt n)
  end.

(* the guarded AddTask keeps the node within capacity (the sign condition is not needed) *)
Theorem node_add_guarded_keeps_capacity n t n' t' :
  node_within_capacity eps n -> nonneg (t_req t) -> add_guard n t ->
  node_add eps n t = inl (n', t') -> node_within_capacity eps n'.
Proof.
  intros Hn _ Hg Ha. pose proof (node_add_ledger n t n' t' Ha) as Hl.
  destruct (n_has_node n) eqn:Hh.
  2:{ destruct Hl as (Ei & _ & Er & Ep). unfold node_within_capacity. rewrite Ei, Er, Ep. exact Hn. }
  (* Idle is charged unless the task is Pipelined, FutureIdle unless it is Releasing (Idle and
     Releasing move together): the guard, or AddTask's own re-check, covers what is charged *)
  assert (Hfit : (t_status t <> Pipelined -> fits eps (t_req t) (amt (n_idle n))) /\
                 (t_status t <> Releasing -> fits eps (t_req t) (fut_amt n))).
  { destruct Hl as (_ & _ & _ & _ & Hchk). unfold add_guard in Hg.
    destruct (t_status t); split; intros Hne; try congruence; try apply Hg.
    apply (fits_idle n (t_req t)); [exact Hn|rewrite <- less_equal_names_zero; apply Hchk; reflexivity|intros; lia]. }
  destruct Hfit as [Fi Ff]. destruct (node_add_amounts n t n' t' Ha Hh (proj1 Hn)) as [Hs' Hamt].
  split; [exact Hs'|]. intros d Hd. destruct (Hamt d) as (-> & -> & ->). destruct (nwc_elim eps n d Hn Hd) as [H1 H2].
  unfold fut_amt, fits, used_amt, rel_amt, pip_amt in *.
  repeat case_bool_decide; try congruence; try specialize (Fi ltac:(assumption) d Hd); try specialize (Ff ltac:(assumption) d Hd); lia.
Qed.

(* the Binding re-check alone keeps Idle above -eps for ANY request (no sign condition), over
   whatever set G of dimensions: the re-check is LessEqualWithResourcesName over every key of the
   request *)
Lemma binding_keeps_idle_on (G : dim -> Prop) n t n' t' :
  sc (n_idle n) <> None -> (forall d, G d -> - eps < amt (n_idle n) d) -> t_status t = Binding ->
  node_add eps n t = inl (n', t') ->
  sc (n_idle n') <> None /\ forall d, G d -> - eps < amt (n_idle n') d.
Proof.
  intros Hs Hi Est Ha. pose proof (node_add_ledger n t n' t' Ha) as Hl.
  destruct (n_has_node n) eqn:Hh; [|destruct Hl as (-> & _); split; assumption].
  destruct Hl as (_ & _ & _ & _ & Hle). specialize (Hle Est). rewrite (less_equal_names_zero eps) in Hle.
  destruct (node_add_amounts n t n' t' Ha Hh Hs) as [Hs' Hamt]. split; [exact Hs'|].
  intros d Hd. destruct (Hamt d) as (-> & _). unfold used_amt. rewrite Est. simpl. specialize (Hi d Hd).
  destruct (less_equal_pointwise (t_req t) (n_idle n) d Hle); lia.
Qed.

Theorem node_add_binding_keeps_idle n t n' t' :
  idle_ok eps n -> t_status t = Binding ->
  node_add eps n t = inl (n', t') -> idle_ok eps n'.
Proof. intros [Hs Hi]. apply (binding_keeps_idle_on guarded_dim); assumption. Qed.

(* On the bind path NO dimension is exempt: the re-check is LessEqualWithResourcesName over every key
   of the request, 'pods' included.  The same statement over ALL dimensions: *)
Definition idle_all_ok (n : node) : Prop := sc (n_idle n) <> None /\ forall d, - eps < amt (n_idle n) d.

Theorem node_add_binding_keeps_idle_all n t n' t' :
  idle_all_ok n -> t_status t = Binding ->
  node_add eps n t = inl (n', t') -> idle_all_ok n'.
Proof.
  intros [Hs Hi] Est Ha.
  destruct (binding_keeps_idle_on (fun _ => True) n t n' t' Hs (fun d _ => Hi d) Est Ha) as [Hs' Hi'].
  split; [exact Hs'|]. intros d. apply Hi'. exact I.
Qed.

(* ... and the whole of it when nothing is pipelined beyond what is being released (true of every
   node of the scheduler cache, where no task is ever Pipelined) *)
Definition pip_le_rel (n : node) : Prop := forall d, amt (n_pipelined n) d <= amt (n_releasing n) d.

Theorem node_add_binding_keeps_capacity n t n' t' :
  node_within_capacity eps n -> pip_le_rel n -> t_status t = Binding ->
  node_add eps n t = inl (n', t') -> node_within_capacity eps n' /\ pip_le_rel n'.
Proof.
  intros Hn Hp Est Ha. apply nwc_split in Hn as [Hi Hf].
  pose proof (node_add_binding_keeps_idle n t n' t' Hi Est Ha) as Hi'.
  assert (Hp' : pip_le_rel n').
  { pose proof (node_add_ledger n t n' t' Ha) as Hl. intros d.
    destruct (n_has_node n); [destruct Hl as (_ & _ & -> & -> & _); rewrite Est|destruct Hl as (_ & _ & -> & ->)]; apply Hp. }
  split; [|exact Hp']. apply nwc_split. split; [exact Hi'|].
  intros d Hd. unfold fut_amt. destruct Hi' as [_ Hi']. specialize (Hi' d Hd). specialize (Hp' d). lia.
Qed.

Theorem node_remove_keeps_capacity n tid :
  node_within_capacity eps n ->
  (forall c, n_tasks n !! tid = Some c -> nonneg (t_req c)) ->
  node_within_capacity eps (node_remove n tid).
Proof.
  intros Hn Hnn. destruct (n_tasks n !! tid) as [c|] eqn:E; [|rewrite node_remove_none by exact E; exact Hn].
  specialize (Hnn c eq_refl). pose proof (node_remove_ledger n tid c E) as Hl. destruct (n_has_node n) eqn:Hh.
  2:{ destruct Hl as (Ei & _ & Er & Ep). unfold node_within_capacity. rewrite Ei, Er, Ep. exact Hn. }
  destruct (node_remove_amounts n tid c E Hh Hnn) as [Hs Hamt].
  split; [apply Hs, Hn|]. intros d Hd. destruct (Hamt d) as (-> & Er & Ep). destruct (nwc_elim eps n d Hn Hd) as [H1 H2].
  specialize (Hnn d). unfold fut_amt, used_amt, rel_amt, pip_amt in *. repeat case_bool_decide; try congruence; lia.
Qed.

Theorem node_remove_keeps_idle n tid :
  idle_ok eps n ->
  (forall c, n_tasks n !! tid = Some c -> nonneg (t_req c)) ->
  idle_ok eps (node_remove n tid).
Proof.
  intros [Hs Hi] Hnn. destruct (n_tasks n !! tid) as [c|] eqn:E; [|rewrite node_remove_none by exact E; split; assumption].
  specialize (Hnn c eq_refl). pose proof (node_remove_ledger n tid c E) as Hl. destruct (n_has_node n) eqn:Hh.
  2:{ destruct Hl as (Ei & _). unfold idle_ok. rewrite Ei. split; assumption. }
  destruct (node_remove_amounts n tid c E Hh Hnn) as [Hs' Hamt].
  split; [apply Hs', Hs|]. intros d Hd. destruct (Hamt d) as (-> & _). specialize (Hi d Hd). specialize (Hnn d).
  unfold used_amt. case_bool_decide; lia.
Qed.

End Guards.

(* The Binding re-check looks at Idle only: on a node that holds a pipelined task it can push
   FutureIdle below -eps.  (Session nodes never receive a Binding AddTask -- commit only changes
   the job-side status -- and cache nodes never hold Pipelined tasks; the theorem for the bind
   path therefore carries pip_le_rel.) *)
Definition refute_node : node :=
  mkNode 1 true (mkRes 10 0 (Some ∅)) (mkRes 0 0 (Some ∅)) (mkRes 0 0 (Some ∅)) (mkRes 10 0 (Some ∅))
         (mkRes 10 0 (Some ∅)) ∅.
Definition refute_task : task :=
  mkTask 7 1 1 1 0 (mkRes 10 0 None) (mkRes 10 0 None) false false Binding None.

Theorem binding_recheck_ignores_future_refuted :
  exists n t n' t',
    node_within_capacity 2 n /\ nonneg (t_req t) /\ granular 2 (t_req t) /\ t_status t = Binding /\
    node_add 2 n t = inl (n', t') /\ ~ node_within_capacity 2 n'.
Proof.
  assert (Hg : guarded_dim DCpu) by discriminate.
  (* afterwards: Idle 10 - 10, Releasing 0, Pipelined 10 *)
  exists refute_node, refute_task,
    (node_with refute_node (sub (n_idle refute_node) (t_req refute_task)) (add (n_used refute_node) (t_req refute_task))
               (n_releasing refute_node) (n_pipelined refute_node) {[7%positive := set_node refute_task (Some 1%positive)]}),
    (set_node refute_task (Some 1%positive)).
  split; [|split; [|split; [|split; [reflexivity|split; [vm_compute; reflexivity|]]]]].
  - split; [discriminate|]. intros d _. destruct d; vm_compute; split; reflexivity.
  - intros d. destruct d; vm_compute; discriminate.
  - intros d. destruct d; vm_compute; [right; discriminate|left; reflexivity|left; reflexivity].
  - intros [_ H]. destruct (H DCpu Hg) as [_ H']. simpl in H'. lia.
Qed.
