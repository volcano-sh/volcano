(* C01: what the executable laws mean.  Prop-level readings of law 101
   (CycleLaws.law_gang) and law 105 (SubGroupLaw.law_gang_sub): if the law answers true then the
   property clauses hold of the data it was given (the binder log and the final statuses). *)
From stdpp Require Import gmap.
From Coq Require Import ZArith List Lia.
From V Require Import Base.Codec Base.Res Sched.LedgerModel Sched.StmtModel Sched.LedgerCodec Sched.DumpCodec
                      Sched.CycleModel Sched.CycleCodec Sched.CycleLaws Sched.LedgerInvP Sched.SubGroupModel Sched.SubGroupLaw.
Import ListNotations.
Open Scope Z_scope.

Lemma in_list_In i l : in_list i l = true <-> In i l.
Proof.
  unfold in_list. rewrite existsb_exists. split.
  - intros (x & Hx & E). apply Pos.eqb_eq in E. by subst.
  - intros H. exists i. split; [done|apply Pos.eqb_refl].
Qed.

(* ---------- law 105 ---------- *)

Definition job_tasks (jobs : list mjob) (ts : list mtask) (j : mjob) : list mtask :=
  filter (fun t => Pos.eqb (mt_job t) (mj_id j)) (map (norm_task jobs) ts).

Definition role_clause_P (j : mjob) (ts : list mtask) : Prop :=
  fold_left (fun acc kv => acc + snd kv) (mj_roles j) 0 <= mj_min j ->
  forall r m, In (r, m) (mj_roles j) -> m <= mcount (fun t => mvisible t && Pos.eqb (mt_role t) r) ts.

(* policy number k (1-based) with MinSubGroups <> 0 has that many complete sub-groups *)
Definition sub_clause_P (j : mjob) (ts : list mtask) : Prop :=
  forall k p, nth_error (mj_pols j) k = Some p -> default 0 (pol_min_groups p) <> 0 ->
    default 0 (pol_min_groups p) <= complete_groups (Z.of_nat k + 1) (default 1 (pol_size p)) ts.

Lemma sub_clause_from_spec pols ts : forall k0,
  sub_clause_from k0 pols ts = true ->
  forall k p, nth_error pols k = Some p -> default 0 (pol_min_groups p) <> 0 ->
    default 0 (pol_min_groups p) <= complete_groups (Z.of_nat k + k0) (default 1 (pol_size p)) ts.
Proof.
  induction pols as [|q pols IH]; intros k0 H k p Hn Hm; [by destruct k|].
  simpl in H. apply andb_true_iff in H as [H1 H2]. destruct k as [|k]; simpl in Hn.
  - injection Hn as <-. apply orb_true_iff in H1 as [H1%Z.eqb_eq|H1%Z.leb_le]; [done|]. simpl. exact H1.
  - specialize (IH (k0 + 1) H2 k p Hn Hm). replace (Z.of_nat (S k) + k0) with (Z.of_nat k + (k0 + 1)) by lia. exact IH.
Qed.

Theorem law_gang_sub_sound jobs ts bound : law_gang_sub jobs ts bound = true ->
  (forall j, In j jobs ->
     let tj := job_tasks jobs ts j in
     (exists t, In t tj /\ In (mt_id t) bound) ->
     mj_min j <= mcount mvisible tj /\ role_clause_P j tj /\ sub_clause_P j tj) /\
  (forall t, In t (map (norm_task jobs) ts) -> In (mt_id t) bound -> mt_final t = Binding).
Proof.
  unfold law_gang_sub. intros [H1 H2]%andb_true_iff. rewrite forallb_forall in H1. rewrite forallb_forall in H2. split.
  - intros j Hj. cbv zeta. intros (t & Ht & Hb). specialize (H1 j Hj). fold (job_tasks jobs ts j) in H1.
    set (tj := job_tasks jobs ts j) in *.
    assert (Hex : existsb (fun t => in_list (mt_id t) bound) tj = true).
    { apply existsb_exists. exists t. split; [done|by apply in_list_In]. }
    rewrite Hex in H1. simpl in H1. apply andb_true_iff in H1 as [[Hmin Hrole]%andb_true_iff Hsub].
    split; [by apply Z.leb_le in Hmin|]. split.
    + intros Htot r m Hrm. unfold role_clause in Hrole.
      destruct (Z.ltb_spec (mj_min j) (fold_left (fun acc kv => acc + snd kv) (mj_roles j) 0)) as [Hlt|_]; [lia|].
      rewrite forallb_forall in Hrole. specialize (Hrole _ Hrm). simpl in Hrole. by apply Z.leb_le in Hrole.
    + intros k p Hn Hm. pose proof (sub_clause_from_spec _ _ 1 Hsub k p Hn Hm) as H. exact H.
  - intros t Ht Hb. specialize (H2 t Ht). apply in_list_In in Hb. rewrite Hb in H2. simpl in H2.
    by destruct (mt_final t).
Qed.

(* ---------- law 101 ---------- *)

Section Law101.
Variable c : cycle_case.
Variable d : dump.
Variable bound : list positive.

Definition job_spec_tasks (j : job_spec) : list task :=
  filter (fun t => bool_decide (t_job t = js_id j)) (spec_tasks c).

(* the law's visibility is LedgerInvP.cluster_ready of the task with its final status *)
Lemma visible_ready_cluster_ready t :
  visible_ready d t = cluster_ready (set_status t (final_status d t)).
Proof. reflexivity. Qed.

Theorem law_gang_sound : law_gang c d bound = true ->
  (forall j, In j (cc_jobs c) ->
     (exists t, In t (spec_tasks c) /\ t_job t = js_id j /\ t_id t ∈ bound) ->
     js_min j <= CycleLaws.count_tasks (visible_ready d) (job_spec_tasks j) /\
     (fold_left (fun acc kv => acc + snd kv) (js_role_min j) 0 <= js_min j ->
      forall r m, In (r, m) (js_role_min j) ->
        m <= CycleLaws.count_tasks (fun t => visible_ready d t && bool_decide (t_role t = r)) (job_spec_tasks j))) /\
  (forall t, In t (spec_tasks c) -> t_id t ∈ bound -> final_status d t = Binding).
Proof.
  unfold law_gang. intros [H1 H2]%andb_true_iff. rewrite forallb_forall in H1. rewrite forallb_forall in H2. split.
  - intros j Hj (t & Ht & Hjob & Hb). specialize (H1 j Hj).
    assert (Hex : existsb (fun t => bool_decide (t_job t = js_id j) && bool_decide (t_id t ∈ bound)) (spec_tasks c) = true).
    { apply existsb_exists. exists t. split; [done|]. by rewrite !bool_decide_true. }
    rewrite Hex in H1. simpl in H1. unfold CycleLaws.gang_ok in H1. fold (job_spec_tasks j) in H1.
    apply andb_true_iff in H1 as [Hmin Hrole]. split; [by apply bool_decide_eq_true in Hmin|].
    intros Htot r m Hrm. rewrite bool_decide_false in Hrole by lia.
    rewrite forallb_forall in Hrole. specialize (Hrole _ Hrm). simpl in Hrole. by apply bool_decide_eq_true in Hrole.
  - intros t Ht Hb. specialize (H2 t Ht). rewrite bool_decide_true in H2 by done. simpl in H2.
    by apply bool_decide_eq_true in H2.
Qed.
End Law101.
