(* C01: the light session invariant the gang proofs need (a consequence of
   LedgerInvP.ledger_inv plus "every task object of an existing job is one of its tasks"), that
   UpdateTaskStatus and put_task keep it, and the two shapes in which the later files describe a
   change of session: one task object replaced (touched), many (evolve). *)
From stdpp Require Import gmap.
From Coq Require Import ZArith.
From V Require Import Base.Res Sched.LedgerModel Sched.StmtModel Sched.GangModel Sched.LedgerInvP Sched.GangLemmas.
Open Scope Z_scope.

Lemma skey_inj s s' : skey s = skey s' -> s = s'.
Proof. destruct s, s'; simpl; intros H; try done; discriminate H. Qed.

Lemma elem_idx_add ix s t s' i :
  i ∈ idx_set (idx_add ix s t) s' <-> (s' = s /\ i = t) \/ i ∈ idx_set ix s'.
Proof.
  unfold idx_set, idx_add. destruct (decide (s' = s)) as [->|Hne].
  - rewrite lookup_insert. simpl. set_solver.
  - rewrite lookup_insert_ne by (intros H%skey_inj; done). naive_solver.
Qed.

Lemma elem_idx_del ix s t s' i :
  i ∈ idx_set (idx_del ix s t) s' <-> i ∈ idx_set ix s' /\ ~ (s' = s /\ i = t).
Proof.
  unfold idx_set, idx_del. destruct (ix !! skey s) as [ts|] eqn:E.
  - case_bool_decide as He.
    + destruct (decide (s' = s)) as [->|Hne].
      * rewrite lookup_delete, E. simpl. set_solver.
      * rewrite lookup_delete_ne by (intros H%skey_inj; done). naive_solver.
    + destruct (decide (s' = s)) as [->|Hne].
      * rewrite lookup_insert, E. simpl. set_solver.
      * rewrite lookup_insert_ne by (intros H%skey_inj; done). naive_solver.
  - destruct (decide (s' = s)) as [->|Hne]; [rewrite E; simpl; set_solver|naive_solver].
Qed.

(* ---------- what never changes in a task / a job ---------- *)

Definition same_meta (t t' : task) : Prop :=
  t_id t' = t_id t /\ t_job t' = t_job t /\ t_role t' = t_role t /\ t_best_effort t' = t_best_effort t.
Lemma same_meta_refl t : same_meta t t. Proof. by repeat split. Qed.
Lemma same_meta_trans a b c : same_meta a b -> same_meta b c -> same_meta a c.
Proof. unfold same_meta. intros (?&?&?&?) (?&?&?&?). repeat split; congruence. Qed.
Lemma same_meta_set_status t s : same_meta t (set_status t s). Proof. by repeat split. Qed.
Lemma same_meta_set_node t n : same_meta t (set_node t n). Proof. by repeat split. Qed.

Definition jstatic (j j' : job) : Prop :=
  j_min j' = j_min j /\ j_role_min j' = j_role_min j /\ j_role_total j' = j_role_total j /\ j_tasks j' = j_tasks j.
Lemma jstatic_refl j : jstatic j j. Proof. by repeat split. Qed.
Lemma jstatic_trans a b c : jstatic a b -> jstatic b c -> jstatic a c.
Proof. unfold jstatic. intros (?&?&?&?) (?&?&?&?). repeat split; congruence. Qed.

Definition jobs_static (js js' : gmap positive job) : Prop :=
  forall jid, option_Forall2 jstatic (js !! jid) (js' !! jid).
Lemma jobs_static_refl js : jobs_static js js.
Proof. intros jid. destruct (js !! jid); constructor. apply jstatic_refl. Qed.
Lemma jobs_static_trans a b c : jobs_static a b -> jobs_static b c -> jobs_static a c.
Proof.
  intros H1 H2 jid. specialize (H1 jid). specialize (H2 jid).
  destruct H1; inversion H2; subst; constructor. eapply jstatic_trans; eauto.
Qed.
Lemma jobs_static_some js js' jid j : jobs_static js js' -> js !! jid = Some j ->
  exists j', js' !! jid = Some j' /\ jstatic j j'.
Proof. intros H E. specialize (H jid). rewrite E in H. inversion H; subst. eauto. Qed.
Lemma jobs_static_some_r js js' jid j' : jobs_static js js' -> js' !! jid = Some j' ->
  exists j, js !! jid = Some j /\ jstatic j j'.
Proof. intros H E. specialize (H jid). rewrite E in H. inversion H; subst. eauto. Qed.
Lemma jobs_static_none js js' jid : jobs_static js js' -> js !! jid = None -> js' !! jid = None.
Proof. intros H E. specialize (H jid). rewrite E in H. by inversion H. Qed.

(* what the invariant below says of one job (its second clause) *)
Definition job_clause (h : gmap positive task) (jid : positive) (ids : gset positive) ix : Prop :=
  (forall k, k ∈ ids -> exists u, h !! k = Some u /\ t_job u = jid) /\ idx_ok h ids ix.

(* it survives the replacement of a task object by one of the same job, if the status stays or the
   task is not the job's *)
Lemma job_clause_insert h i t t' jid ids ix :
  h !! i = Some t -> t_job t' = t_job t -> t_status t' = t_status t \/ i ∉ ids ->
  job_clause h jid ids ix -> job_clause (<[i := t']> h) jid ids ix.
Proof.
  intros Ht Hjob Hc [Hts Hix]. split.
  - intros k Hk. destruct (Hts k Hk) as (u & Eu & Hu). destruct (decide (k = i)) as [->|Hne].
    + exists t'. rewrite lookup_insert. split; [done|]. rewrite Ht in Eu. injection Eu as <-. congruence.
    + exists u. by rewrite lookup_insert_ne.
  - intros s k. rewrite (Hix s k). destruct (decide (k = i)) as [->|Hne]; [|by rewrite lookup_insert_ne].
    rewrite lookup_insert, Ht. destruct Hc as [Hst|Hni]; [|split; intros [Hk _]; done].
    split; intros [Hk (u & Eu & Hu)]; injection Eu as <-; (split; [done|]); eexists; split; try done; congruence.
Qed.

Definition ginv (h : gmap positive task) (js : gmap positive job) : Prop :=
  (forall i t, h !! i = Some t -> t_id t = i) /\
  (forall jid j, js !! jid = Some j ->
     (forall i, i ∈ j_tasks j -> exists t, h !! i = Some t /\ t_job t = jid) /\
     idx_ok h (j_tasks j) (j_index j)) /\
  (forall i t j, h !! i = Some t -> js !! t_job t = Some j -> i ∈ j_tasks j).
Definition gang_inv (s : sess) : Prop := ginv (heap s) (jobs s).

(* every task object of an existing job is one of the job's tasks (true of a snapshot: the task
   objects ARE the values of JobInfo.Tasks) *)
Definition heap_members (s : sess) : Prop :=
  forall i t j, heap s !! i = Some t -> jobs s !! t_job t = Some j -> i ∈ j_tasks j.

Lemma ledger_inv_gang_inv s : ledger_inv s -> heap_members s -> gang_inv s.
Proof.
  intros (Hh & Hj & _) Hm. split; [|split].
  - intros i t Ht. by destruct (Hh i t Ht).
  - intros jid j Ej. destruct (Hj jid j Ej) as [Hid (Ht & Hix & _)]. split.
    + intros i Hi. destruct (Ht i Hi) as (t & E & Hjob). exists t. split; [done|congruence].
    + by apply index_ok_idx_ok.
  - exact Hm.
Qed.

(* replacing a task object by one with the same identity and status *)
Lemma ginv_put h js i t t' :
  ginv h js -> h !! i = Some t -> same_meta t t' -> t_status t' = t_status t -> ginv (<[i := t']> h) js.
Proof.
  intros (Ha & Hb & Hc) Ht (Hid & Hjob & _) Hst. split; [|split].
  - intros k u [[<- <-]|[Hne E]]%lookup_insert_Some; [rewrite Hid; by apply Ha|by apply Ha].
  - intros jid j Ej. by apply (job_clause_insert h i t t' jid _ _ Ht Hjob (or_introl Hst)), Hb.
  - intros k u j [[<- <-]|[Hne E]]%lookup_insert_Some Ej.
    + rewrite Hjob in Ej. by eapply Hc.
    + by eapply Hc.
Qed.

(* JobInfo.UpdateTaskStatus on the canonical object *)
Lemma ginv_update h js p j st :
  ginv h js -> h !! t_id p = Some p -> js !! t_job p = Some j ->
  let p' := set_status p st in
  let j' := job_add (job_del j p) p' in
  ginv (<[t_id p := p']> h) (<[t_job p := j']> js) /\ jstatic j j'.
Proof.
  intros (Ha & Hb & Hc) Hp Ej p' j'.
  assert (Hmem : t_id p ∈ j_tasks j) by (by eapply Hc).
  assert (Htasks : j_tasks j' = j_tasks j).
  { simpl. apply set_eq. intros k. rewrite elem_of_union, elem_of_difference, !elem_of_singleton.
    destruct (decide (k = t_id p)) as [->|]; tauto. }
  split; [|by repeat split].
  assert (Hother : forall jid j2, jid <> t_job p -> js !! jid = Some j2 -> t_id p ∉ j_tasks j2).
  { intros jid j2 Hne E2 Hin. destruct (Hb jid j2 E2) as [Hts _].
    destruct (Hts _ Hin) as (u & Eu & Hu). rewrite Hp in Eu. injection Eu as <-. done. }
  split; [|split].
  - intros k u [[<- <-]|[Hne E]]%lookup_insert_Some; [done|by apply Ha].
  - intros jid j2 [[<- <-]|[Hne E2]]%lookup_insert_Some.
    + destruct (Hb _ j Ej) as [Hts Hix]. split.
      * intros k Hk. rewrite Htasks in Hk. destruct (decide (k = t_id p)) as [->|Hne].
        -- exists p'. by rewrite lookup_insert.
        -- rewrite lookup_insert_ne by done. by apply Hts.
      * intros s k. rewrite Htasks. simpl.
        rewrite elem_idx_add, elem_idx_del, (Hix s k). simpl.
        destruct (decide (k = t_id p)) as [->|Hne].
        -- rewrite lookup_insert, Hp. split.
           ++ intros [[-> _]|[[_ (u & Eu & Hu)] Hn]].
              ** split; [done|]. by exists p'.
              ** injection Eu as <-. exfalso. apply Hn. by split.
           ++ intros [_ (u & Eu & Hu)]. injection Eu as <-. left. by split.
        -- rewrite lookup_insert_ne by done. split.
           ++ intros [[_ ->]|[H _]]; [done|exact H].
           ++ intros H. right. split; [exact H|]. intros [_ ->]. done.
    + by apply (job_clause_insert h (t_id p) p p' jid _ _ Hp eq_refl (or_intror (Hother jid j2 (not_eq_sym Hne) E2))), Hb.
  - intros k u j2 [[<- <-]|[Hne E]]%lookup_insert_Some E2.
    + simpl in E2. rewrite lookup_insert in E2. injection E2 as <-. by rewrite Htasks.
    + apply lookup_insert_Some in E2 as [[Hjk <-]|[Hnj E2]].
      * rewrite Htasks. eapply Hc; [exact E|]. by rewrite <- Hjk.
      * by eapply Hc.
Qed.

(* sessions that agree on what the gang proofs look at *)
Definition core_eq (s s' : sess) : Prop :=
  heap s' = heap s /\ jobs s' = jobs s /\ stmts s' = stmts s /\ binds s' = binds s /\ refuse_bind s' = refuse_bind s.

(* one task object replaced: the shape of every primitive's effect *)
Record touched (s s' : sess) (i : positive) (p p' : task) : Prop := {
  tc_old : heap s !! i = Some p;
  tc_heap : heap s' = <[i := p']> (heap s);
  tc_meta : same_meta p p';
  tc_jobs : jobs_static (jobs s) (jobs s');
  tc_refuse : refuse_bind s' = refuse_bind s;
  tc_inv : gang_inv s';
}.

Lemma touched_trans s1 s2 s3 i a b c :
  touched s1 s2 i a b -> touched s2 s3 i b c -> touched s1 s3 i a c.
Proof.
  intros [] []. split; try done.
  - rewrite tc_heap1, tc_heap0. by rewrite insert_insert.
  - by eapply same_meta_trans.
  - by eapply jobs_static_trans.
  - congruence.
Qed.

Lemma touched_new s s' i p p' : touched s s' i p p' -> heap s' !! i = Some p'.
Proof. intros []. by rewrite tc_heap0, lookup_insert. Qed.

Lemma touched_id s s' i p p' : gang_inv s -> touched s s' i p p' -> t_id p = i /\ t_id p' = i.
Proof.
  intros (Ha & _) [Ho _ (Hid & _) _ _ _]. pose proof (Ha _ _ Ho). split; congruence.
Qed.

Lemma touched_same s s' s'' i p p' : touched s s' i p p' ->
  heap s'' = heap s' -> jobs s'' = jobs s' -> refuse_bind s'' = refuse_bind s' -> touched s s'' i p p'.
Proof.
  intros [H1 H2 H3 H4 H5 H6] Hh Hj Hr. split; unfold gang_inv in *; by rewrite ?Hh, ?Hj, ?Hr.
Qed.

Lemma touched_core s s' s'' i p p' : touched s s' i p p' -> core_eq s' s'' -> touched s s'' i p p'.
Proof. intros Ht (Hh & Hj & _ & _ & Hr). by eapply touched_same. Qed.

(* JobInfo.UpdateTaskStatus through the session *)
Lemma touched_update s p st : gang_inv s -> heap s !! t_id p = Some p ->
  exists found s' p', ssn_update_status s p st = (found, s', p') /\
    (found = true <-> is_Some (jobs s !! t_job p)) /\
    (if found then t_status p' = st else p' = p) /\
    touched s s' (t_id p) p p'.
Proof.
  intros Hinv Hp. unfold ssn_update_status. destruct (jobs s !! t_job p) as [j|] eqn:Ej.
  - assert (Hmem : t_id p ∈ j_tasks j) by (destruct Hinv as (_ & _ & Hc); by eapply Hc).
    unfold job_update. rewrite bool_decide_true by done. rewrite Hp.
    destruct (ginv_update (heap s) (jobs s) p j st Hinv Hp Ej) as [Hg Hs].
    eexists true, _, (set_status p st). split; [reflexivity|]. split; [split; [eauto|done]|]. split; [done|].
    split; [done|done|apply same_meta_set_status| |done|exact Hg].
    simpl. intros jid. destruct (decide (jid = t_job p)) as [->|Hne].
    + rewrite lookup_insert, Ej. by constructor.
    + rewrite lookup_insert_ne by done. apply jobs_static_refl.
  - exists false, s, p. split; [done|]. split; [split; [done|intros [? ?]; done]|]. split; [done|].
    split; [done|by rewrite insert_id|apply same_meta_refl|apply jobs_static_refl|done|done].
Qed.

(* a put_task that keeps identity and status *)
Lemma touched_put s s' i p p' :
  gang_inv s -> heap s !! i = Some p -> same_meta p p' -> t_status p' = t_status p ->
  heap s' = <[i := p']> (heap s) -> jobs s' = jobs s -> refuse_bind s' = refuse_bind s ->
  touched s s' i p p'.
Proof.
  intros Hinv Hp Hm Hst Hh Hj Hr. split; try done.
  - rewrite Hj. apply jobs_static_refl.
  - unfold gang_inv. rewrite Hh, Hj. by eapply ginv_put.
Qed.

(* the object a step has produced gets its node name set and is stored again *)
Lemma touched_set_node s s1 s2 i p p1 n : touched s s1 i p p1 ->
  heap s2 = heap s1 -> jobs s2 = jobs s1 -> refuse_bind s2 = refuse_bind s1 ->
  touched s (put_task s2 (set_node p1 n)) i p (set_node p1 n).
Proof.
  intros Ht Hh Hj Hr. eapply touched_trans; [exact Ht|].
  pose proof (touched_new _ _ _ _ _ Ht) as Hp1. destruct (tc_inv _ _ _ _ _ Ht) as (Ha & Hb & Hc).
  apply touched_put; [by split|done|apply same_meta_set_node|done| |done|done].
  simpl. by rewrite Hh, (Ha _ _ Hp1).
Qed.

Lemma node_add_task eps n t n' t' : node_add eps n t = inl (n', t') -> t' = set_node t (Some (n_id n)).
Proof.
  unfold node_add. intros H.
  repeat (case_bool_decide || case_match); simplify_eq; done.
Qed.

(* s' is s with task objects replaced by objects of the same identity, old and new related by R:
   the shape of the effect of every loop over the primitives *)
Record evolve (R : positive -> task -> task -> Prop) (s s' : sess) : Prop := {
  ev_inv : gang_inv s';
  ev_jobs : jobs_static (jobs s) (jobs s');
  ev_refuse : refuse_bind s' = refuse_bind s;
  ev_heap : forall i, option_Forall2 (fun t t' => same_meta t t' /\ R i t t') (heap s !! i) (heap s' !! i);
}.

Lemma evolve_refl (R : positive -> task -> task -> Prop) s :
  gang_inv s -> (forall i t, R i t t) -> evolve R s s.
Proof.
  intros Hinv HR. split; [done|apply jobs_static_refl|done|].
  intros i. destruct (heap s !! i); constructor. split; [apply same_meta_refl|apply HR].
Qed.

Lemma evolve_fwd R s s' i t : evolve R s s' -> heap s !! i = Some t ->
  exists t', heap s' !! i = Some t' /\ same_meta t t' /\ R i t t'.
Proof. intros H E. pose proof (ev_heap _ _ _ H i) as Hi. rewrite E in Hi. inversion Hi; subst. eauto. Qed.

Lemma evolve_bwd R s s' i t' : evolve R s s' -> heap s' !! i = Some t' ->
  exists t, heap s !! i = Some t /\ same_meta t t' /\ R i t t'.
Proof. intros H E. pose proof (ev_heap _ _ _ H i) as Hi. rewrite E in Hi. inversion Hi; subst. eauto. Qed.

Lemma evolve_none R s s' i : evolve R s s' -> heap s !! i = None -> heap s' !! i = None.
Proof. intros H E. pose proof (ev_heap _ _ _ H i) as Hi. rewrite E in Hi. by inversion Hi. Qed.

Lemma evolve_trans (R1 R2 R3 : positive -> task -> task -> Prop) a b c :
  evolve R1 a b -> evolve R2 b c ->
  (forall i t u v, heap a !! i = Some t -> same_meta t u -> R1 i t u -> R2 i u v -> R3 i t v) ->
  evolve R3 a c.
Proof.
  intros H1 H2 HR. split.
  - exact (ev_inv _ _ _ H2).
  - eapply jobs_static_trans; [exact (ev_jobs _ _ _ H1)|exact (ev_jobs _ _ _ H2)].
  - by rewrite (ev_refuse _ _ _ H2), (ev_refuse _ _ _ H1).
  - intros i. destruct (heap a !! i) as [t|] eqn:Ea.
    + destruct (evolve_fwd _ _ _ _ _ H1 Ea) as (u & Eb & M1 & HR1).
      destruct (evolve_fwd _ _ _ _ _ H2 Eb) as (v & -> & M2 & HR2).
      constructor. split; [by eapply same_meta_trans|by eapply HR].
    + rewrite (evolve_none _ _ _ _ H2 (evolve_none _ _ _ _ H1 Ea)). constructor.
Qed.

Lemma evolve_mono (R R' : positive -> task -> task -> Prop) s s' :
  evolve R s s' -> (forall i t t', heap s !! i = Some t -> same_meta t t' -> R i t t' -> R' i t t') -> evolve R' s s'.
Proof.
  intros H HR. eapply (evolve_trans R (fun _ t t' => t' = t)); [exact H|apply evolve_refl; [exact (ev_inv _ _ _ H)|done]|].
  intros i t u v E M HRu ->. by apply HR.
Qed.

Lemma evolve_same R s s' s'' : evolve R s s' ->
  heap s'' = heap s' -> jobs s'' = jobs s' -> refuse_bind s'' = refuse_bind s' -> evolve R s s''.
Proof.
  intros [H1 H2 H3 H4] Hh Hj Hr. split; unfold gang_inv in *; by rewrite ?Hh, ?Hj, ?Hr.
Qed.

Lemma touched_evolve s s' i p p' : touched s s' i p p' ->
  evolve (fun j t t' => j <> i /\ t' = t \/ j = i /\ t = p /\ t' = p') s s'.
Proof.
  intros [H1 H2 H3 H4 H5 H6]. split; try done. intros j. rewrite H2. destruct (decide (j = i)) as [->|Hne].
  - rewrite lookup_insert, H1. constructor. split; [done|right; done].
  - rewrite lookup_insert_ne by done. destruct (heap s !! j); constructor. split; [apply same_meta_refl|left; done].
Qed.

(* an evolution continued by one more replacement *)
Lemma evolve_touched (R R' : positive -> task -> task -> Prop) s s1 s2 i p p' :
  evolve R s s1 -> touched s1 s2 i p p' ->
  (forall j t u, j <> i -> heap s !! j = Some t -> same_meta t u -> R j t u -> R' j t u) ->
  (forall t, heap s !! i = Some t -> same_meta t p -> R i t p -> R' i t p') ->
  evolve R' s s2.
Proof.
  intros H Ht Hmono Hnew. eapply evolve_trans; [exact H|exact (touched_evolve _ _ _ _ _ Ht)|].
  intros j t u v E M HRu [[Hne ->]|(-> & -> & ->)]; [by eapply Hmono|by apply Hnew].
Qed.
