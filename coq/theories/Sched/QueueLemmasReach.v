(* C03: every step of the action skeleton is a sequence of micro-steps, each of which is
   either invisible to the queue ledger ("silent"), a deallocate callback for a task of the heap,
   or an allocate callback for a task of the heap that is either best-effort (backfill) or was
   admitted by the queue's Allocatable vote evaluated on the ledger as it is at that moment.
   Both events_balance and queue_cap_invariant are inductions over this decomposition. *)
From stdpp Require Import gmap.
From Coq Require Import ZArith Lia.
From V Require Import Base.Res Base.ResLemmas Sched.LedgerModel Sched.StmtModel Sched.GangModel
                      Sched.CycleModel Sched.LedgerInvP Sched.QueueLemmasBase.
Open Scope Z_scope.

(* ---------- what never changes: request, job and best-effort flag of a task; queue of a job ---------- *)

Definition stat_of (t : task) : res * positive * bool := (t_req t, t_job t, t_best_effort t).
Definition tstat (s : sess) (i : positive) : option (res * positive * bool) := stat_of <$> (heap s !! i).
(* p is (a copy of) the heap's task with p's id *)
Definition hp (s : sess) (p : task) : Prop := tstat s (t_id p) = Some (stat_of p).
Definition tsame (p p' : task) : Prop := t_id p' = t_id p /\ stat_of p' = stat_of p.
Definition heap_ids (s : sess) : Prop := forall i t, heap s !! i = Some t -> t_id t = i.
Definition no_evict (s : sess) : Prop :=
  forall sid l o, stmts s !! sid = Some l -> o ∈ l -> op_kind o <> KEvict.

Record stat_eq (s s' : sess) : Prop := mkSE {
  se_t : forall i, tstat s' i = tstat s i;
  se_j : forall i, jq s' i = jq s i;
  se_ids : heap_ids s -> heap_ids s';
  se_ne : no_evict s -> no_evict s' }.

Record silent (s s' : sess) : Prop := mkSil {
  sil_se : stat_eq s s'; sil_share : hshare s' = hshare s; sil_log : hlog s' = hlog s }.

Lemma stat_eq_refl s : stat_eq s s.
Proof. split; auto. Qed.
Lemma stat_eq_trans s1 s2 s3 : stat_eq s1 s2 -> stat_eq s2 s3 -> stat_eq s1 s3.
Proof.
  intros [a b c d] [a' b' c' d']. split; auto.
  - intros i. rewrite a'. apply a.
  - intros i. rewrite b'. apply b.
Qed.
Lemma silent_refl s : silent s s.
Proof. split; auto using stat_eq_refl. Qed.
Lemma silent_trans s1 s2 s3 : silent s1 s2 -> silent s2 s3 -> silent s1 s3.
Proof.
  intros [a b c] [a' b' c']. split; [eapply stat_eq_trans; eauto|congruence|congruence].
Qed.

Lemma tsame_refl p : tsame p p.
Proof. split; reflexivity. Qed.
Lemma tsame_trans p1 p2 p3 : tsame p1 p2 -> tsame p2 p3 -> tsame p1 p3.
Proof. intros [a b] [a' b']. split; congruence. Qed.
Lemma tsame_set_status p st : tsame p (set_status p st).
Proof. split; reflexivity. Qed.
Lemma tsame_set_node p n : tsame p (set_node p n).
Proof. split; reflexivity. Qed.
Lemma tsame_req p p' : tsame p p' -> t_req p' = t_req p /\ t_job p' = t_job p /\ t_best_effort p' = t_best_effort p.
Proof. intros [_ H]. unfold stat_of in H. inversion H. auto. Qed.

Lemma hp_move s s' p p' : stat_eq s s' -> hp s p -> tsame p p' -> hp s' p'.
Proof. intros Hs Hp [Hid Hst]. unfold hp. rewrite Hid, Hst, (se_t _ _ Hs). exact Hp. Qed.
Lemma hp_heap s p : hp s p -> exists t, heap s !! t_id p = Some t /\ stat_of t = stat_of p.
Proof.
  unfold hp, tstat. destruct (heap s !! t_id p) as [t|]; simpl; [|discriminate].
  intros H. exists t. split; [reflexivity|congruence].
Qed.

(* p is the heap's own object: every task the skeleton works on was looked up in the heap *)
Definition stored (s : sess) (p : task) : Prop := heap s !! t_id p = Some p.

Lemma stored_hp s p : stored s p -> hp s p.
Proof. unfold stored, hp, tstat. intros ->. reflexivity. Qed.
Lemma stored_lookup s i p : heap_ids s -> heap s !! i = Some p -> stored s p.
Proof. intros Hi Hl. unfold stored. rewrite (Hi i p Hl). exact Hl. Qed.

(* ---------- the primitives that do not touch the handler ledger ---------- *)

Lemma silent_put_task s t : hp s t -> silent s (put_task s t).
Proof.
  intros Hp. split; [split|reflexivity|reflexivity]; simpl.
  - intros i. unfold tstat. simpl. destruct (stdpp.base.decide (i = t_id t)) as [->|Hn].
    + rewrite lookup_insert. simpl. symmetry. exact Hp.
    + rewrite lookup_insert_ne by congruence. reflexivity.
  - reflexivity.
  - intros Hi i t0. simpl. destruct (stdpp.base.decide (i = t_id t)) as [->|Hn].
    + rewrite lookup_insert. congruence.
    + rewrite lookup_insert_ne by congruence. apply Hi.
  - auto.
Qed.

Lemma silent_upd_jobs s i j j' :
  jobs s !! i = Some j -> j_queue j' = j_queue j -> silent s (upd_jobs s (<[i := j']> (jobs s))).
Proof.
  intros Hl Hq. split; [split|reflexivity|reflexivity]; simpl; auto.
  intros k. unfold jq. simpl. destruct (stdpp.base.decide (k = i)) as [->|Hn].
  - rewrite lookup_insert, Hl. simpl. congruence.
  - rewrite lookup_insert_ne by congruence. reflexivity.
Qed.

Lemma silent_upd_nodes s n : silent s (upd_nodes s n).
Proof. split; [split|reflexivity|reflexivity]; simpl; auto. Qed.
Lemma silent_upd_logs s b e : silent s (upd_logs s b e).
Proof. split; [split|reflexivity|reflexivity]; simpl; auto. Qed.

Lemma silent_push_op s sid k tid prev : k <> KEvict -> silent s (push_op s sid k tid prev).
Proof.
  intros Hk. split; [split|reflexivity|reflexivity]; simpl; auto.
  intros Hne sid' l o. simpl. destruct (stdpp.base.decide (sid' = sid)) as [->|Hn].
  - rewrite lookup_insert. intros H Ho. inversion H; subst. apply elem_of_app in Ho as [Ho|Ho].
    + destruct (stmts s !! sid) as [l0|] eqn:E; simpl in Ho; [eapply Hne; eauto|inversion Ho].
    + apply elem_of_list_singleton in Ho. subst. exact Hk.
  - rewrite lookup_insert_ne by congruence. apply Hne.
Qed.

Lemma silent_clear_stmt s sid : silent s (upd_stmts s (<[sid := []]> (stmts s))).
Proof.
  split; [split|reflexivity|reflexivity]; simpl; auto.
  intros Hne sid' l o. simpl. destruct (stdpp.base.decide (sid' = sid)) as [->|Hn].
  - rewrite lookup_insert. intros H Ho. inversion H; subst. inversion Ho.
  - rewrite lookup_insert_ne by congruence. apply Hne.
Qed.

Lemma stat_eq_handlers s sh l : stat_eq s (upd_handlers s sh l).
Proof. split; simpl; auto. Qed.

(* ---------- silent steps on one task ---------- *)

(* a silent step that rewrites at most the heap entry of the stored task p, to p', and records
   nothing in a statement.  Between two handler callbacks every function of the skeleton that
   works on a task is such a step; both walks over the skeleton (the decomposition into
   micro-steps below, the balance of QueueLemmasHeld.v) compose these. *)
Record tmove (s : sess) (p : task) (s' : sess) (p' : task) : Prop := mkTM {
  tm_sil : silent s s';
  tm_same : tsame p p';
  tm_heap : heap s' = <[t_id p := p']> (heap s);
  tm_stmts : stmts s' = stmts s }.

Lemma tm_stored s p s' p' : tmove s p s' p' -> stored s' p'.
Proof. intros [_ [Hid _] Hh _]. unfold stored. rewrite Hh, Hid. apply lookup_insert. Qed.

Lemma tmove_trans s p s1 p1 s2 p2 : tmove s p s1 p1 -> tmove s1 p1 s2 p2 -> tmove s p s2 p2.
Proof.
  intros [a b c d] [a' b' c' d']. split; [eapply silent_trans; eassumption|eapply tsame_trans; eassumption| |congruence].
  rewrite c', c. destruct b as [-> _]. apply insert_insert.
Qed.

Lemma tmove_quiet s s' p :
  stored s p -> silent s s' -> heap s' = heap s -> stmts s' = stmts s -> tmove s p s' p.
Proof.
  intros Hp Hs Hh Hst. split; [exact Hs|apply tsame_refl| |exact Hst].
  rewrite Hh. symmetry. apply insert_id, Hp.
Qed.

Lemma tmove_put s p x : stored s p -> tsame p x -> tmove s p (put_task s x) x.
Proof.
  intros Hp Ht. split; [|exact Ht| |reflexivity].
  - apply silent_put_task. eapply hp_move; [apply stat_eq_refl|apply stored_hp, Hp|exact Ht].
  - simpl. destruct Ht as [-> _]. reflexivity.
Qed.

(* JobInfo.UpdateTaskStatus on the stored object: the status is [st] when the job is known *)
Lemma tmove_update s p st f s1 p1 :
  stored s p -> ssn_update_status s p st = (f, s1, p1) ->
  tmove s p s1 p1 /\ t_status p1 = (if f then st else t_status p) /\ (f = false -> jq s (t_job p) = None).
Proof.
  intros Hp. unfold ssn_update_status, jq. destruct (jobs s !! t_job p) as [j|] eqn:Ej.
  - unfold job_update. set (j' := job_add _ _). intros [= <- <- <-].
    split; [|split; [reflexivity|discriminate]].
    apply (tmove_trans _ _ (upd_jobs s (<[t_job p := j']> (jobs s))) p).
    + apply tmove_quiet; [exact Hp| |reflexivity|reflexivity].
      apply (silent_upd_jobs s _ j j' Ej). unfold j'. simpl. case_bool_decide; [|reflexivity].
      destruct (heap s !! t_id p); reflexivity.
    + apply tmove_put; [exact Hp|apply tsame_set_status].
  - intros [= <- <- <-]. split; [|split; reflexivity].
    apply tmove_quiet; [exact Hp|apply silent_refl|reflexivity|reflexivity].
Qed.

Lemma tmove_node_remove s p x : stored s p -> tmove s p (ssn_node_remove s x) p.
Proof.
  intros Hp. unfold ssn_node_remove. destruct (t_node x) as [nid|]; [destruct (nodes s !! nid)|];
    apply tmove_quiet; auto using silent_refl, silent_upd_nodes.
Qed.

(* an entry in the bind log, then the status update: Statement.Commit's and Session.dispatch's bind *)
Lemma tmove_logs_update s p b e st f s2 p2 :
  stored s p -> ssn_update_status (upd_logs s b e) p st = (f, s2, p2) ->
  tmove s p s2 p2 /\ t_status p2 = (if f then st else t_status p).
Proof.
  intros Hp E. assert (T : tmove s p (upd_logs s b e) p) by (apply tmove_quiet; auto using silent_upd_logs).
  destruct (tmove_update _ _ _ _ _ _ (tm_stored _ _ _ _ T) E) as (T2 & Hs & _).
  split; [exact (tmove_trans _ _ _ _ _ _ T T2)|exact Hs].
Qed.

Lemma node_add_inl eps n t n' t' : node_add eps n t = inl (n', t') -> t' = set_node t (Some (n_id n)).
Proof.
  unfold node_add. intros H.
  repeat match type of H with
  | (if ?b then _ else _) = _ => destruct b
  | match ?x with _ => _ end = _ => destruct x
  end; try discriminate; inversion H; reflexivity.
Qed.

(* node.AddTask and storing the object it hands back *)
Lemma tmove_node_add eps s p nid n n' p' :
  stored s p -> node_add eps n p = inl (n', p') ->
  tmove s p (put_task (upd_nodes s (<[nid := n']> (nodes s))) p') p' /\ t_status p' = t_status p.
Proof.
  intros Hp Ea. apply node_add_inl in Ea. subst p'. split; [|reflexivity].
  apply (tmove_trans _ _ (upd_nodes s (<[nid := n']> (nodes s))) p).
  - apply tmove_quiet; auto using silent_upd_nodes.
  - apply tmove_put; [exact Hp|apply tsame_set_node].
Qed.

(* the node step of Statement.Allocate / Pipeline *)
Lemma tmove_node_step eps s p nid :
  stored s p ->
  exists s3 p3 ok,
    match nodes s !! nid with
    | Some n => match node_add eps n p with
                | inl (n', p') => (put_task (upd_nodes s (<[nid := n']> (nodes s))) p', p', true)
                | inr _ => (s, p, false)
                end
    | None => (s, p, false)
    end = (s3, p3, ok) /\ tmove s p s3 p3 /\ t_status p3 = t_status p.
Proof.
  intros Hp.
  assert (Hsame : tmove s p s p /\ t_status p = t_status p)
    by (split; [apply tmove_quiet; auto using silent_refl|reflexivity]).
  destruct (nodes s !! nid) as [n|]; [|eauto 6].
  destruct (node_add eps n p) as [[n' p']|e] eqn:Ea; [|eauto 6].
  do 3 eexists. split; [reflexivity|]. exact (tmove_node_add eps s p nid n n' p' Hp Ea).
Qed.

(* a status update followed by storing the object with another node name: the start of a
   placement, and Session.revertPlacement *)
Lemma tmove_update_put s p st nd f s1 p1 :
  stored s p -> ssn_update_status s p st = (f, s1, p1) ->
  tmove s p (put_task s1 (set_node p1 nd)) (set_node p1 nd) /\
  t_status p1 = (if f then st else t_status p) /\ (f = false -> jq s (t_job p) = None).
Proof.
  intros Hp E. destruct (tmove_update _ _ _ _ _ _ Hp E) as (T1 & H).
  split; [|exact H]. eapply tmove_trans; [exact T1|]. apply tmove_put; [apply (tm_stored _ _ _ _ T1)|apply tsame_set_node].
Qed.

(* ---------- micro-steps ---------- *)

Section Reach.
Variable eps : Z.
Variable Q : gmap positive qattr.

(* what a positive Allocatable vote of p's queue, taken on the ledger of s, guarantees *)
Definition guardP (s : sess) (p : task) : Prop :=
  forall q qa, jq s (t_job p) = Some q -> Q !! q = Some qa -> q_has_plugin qa = true ->
    q_open qa = true /\
    forall d, requested (t_req p) d -> amt (share_of s q) d + amt (t_req p) d <= amt (q_limit qa) d.

Lemma share_amt_silent s s' q d : silent s s' -> amt (share_of s' q) d = amt (share_of s q) d.
Proof.
  intros Hs. rewrite !share_of_amt, (sil_share _ _ Hs).
  apply msum_ext. apply (se_j _ _ (sil_se _ _ Hs)).
Qed.

Lemma guardP_move s s' p p' : silent s s' -> tsame p p' -> guardP s p -> guardP s' p'.
Proof.
  intros Hs Ht Hg q qa Hq HQ Hpl. destruct (tsame_req _ _ Ht) as (Hr & Hj & _).
  rewrite Hj, (se_j _ _ (sil_se _ _ Hs)) in Hq. destruct (Hg q qa Hq HQ Hpl) as [Ho Hb].
  split; [exact Ho|]. intros d Hd. rewrite Hr in *. rewrite (share_amt_silent _ _ _ _ Hs). auto.
Qed.

Inductive mstep : sess -> sess -> Prop :=
| ms_silent s s' : silent s s' -> mstep s s'
| ms_dealloc s p : hp s p -> mstep s (h_dealloc s p)
| ms_alloc s p : hp s p -> (guardP s p \/ t_best_effort p = true) -> mstep s (snd (h_alloc s p)).

Definition reach : sess -> sess -> Prop := rtc mstep.

Lemma mstep_stat_eq s s' : mstep s s' -> stat_eq s s'.
Proof. destruct 1; [apply sil_se; assumption|apply stat_eq_handlers|apply stat_eq_handlers]. Qed.
Lemma reach_stat_eq s s' : reach s s' -> stat_eq s s'.
Proof.
  induction 1; [apply stat_eq_refl|]. eapply stat_eq_trans; [eapply mstep_stat_eq; eassumption|assumption].
Qed.
Lemma reach_silent s s' : silent s s' -> reach s s'.
Proof. intros. apply rtc_once, ms_silent. assumption. Qed.
Lemma reach_tmove s p s' p' : tmove s p s' p' -> reach s s'.
Proof. intros T. apply reach_silent, (tm_sil _ _ _ _ T). Qed.
Lemma reach_trans s1 s2 s3 : reach s1 s2 -> reach s2 s3 -> reach s1 s3.
Proof. apply rtc_transitive. Qed.
Lemma reach_ids s s' : reach s s' -> heap_ids s -> heap_ids s'.
Proof. intros H. apply (se_ids _ _ (reach_stat_eq _ _ H)). Qed.
Lemma reach_ne s s' : reach s s' -> no_evict s -> no_evict s'.
Proof. intros H. apply (se_ne _ _ (reach_stat_eq _ _ H)). Qed.

(* ---------- the statement primitives ---------- *)

Lemma unallocate_with_reach s p : stored s p -> reach s (unallocate_with s p).
Proof.
  intros Hp. unfold unallocate_with.
  destruct (ssn_update_status s p Pending) as [[f s1] p1] eqn:E1.
  destruct (tmove_update _ _ _ _ _ _ Hp E1) as [T1 _].
  pose proof (tmove_trans _ _ _ _ _ _ T1 (tmove_node_remove s1 p1 p1 (tm_stored _ _ _ _ T1))) as T2.
  pose proof (tm_stored _ _ _ _ T2) as Hp2.
  eapply reach_trans; [exact (reach_tmove _ _ _ _ T2)|]. eapply rtc_l; [apply ms_dealloc, stored_hp, Hp2|].
  exact (reach_tmove _ _ _ _ (tmove_put (h_dealloc _ p1) p1 _ Hp2 (tsame_set_node _ _))).
Qed.

Lemma place_with_reach s sid k p nid :
  stored s p -> k <> KEvict -> (guardP s p \/ t_best_effort p = true) ->
  reach s (fst (place_with eps s sid k p nid)).
Proof.
  intros Hp Hk Hg. unfold place_with.
  destruct (ssn_update_status s p _) as [[f s1] p1] eqn:E1.
  destruct (tmove_update_put _ _ _ (Some nid) _ _ _ Hp E1) as [T2 _].
  destruct (tmove_node_step eps _ _ nid (tm_stored _ _ _ _ T2)) as (s3 & p3 & ok & -> & T3 & _).
  apply (tmove_trans _ _ _ _ _ _ T2) in T3. pose proof (tm_stored _ _ _ _ T3) as Hp3.
  assert (Hg3 : guardP s3 p3 \/ t_best_effort p3 = true).
  { destruct Hg as [Hg|Hg]; [left; exact (guardP_move _ _ _ _ (tm_sil _ _ _ _ T3) (tm_same _ _ _ _ T3) Hg)|right].
    destruct (tsame_req _ _ (tm_same _ _ _ _ T3)) as (_ & _ & ->). exact Hg. }
  pose proof (ms_alloc s3 p3 (stored_hp _ _ Hp3) Hg3) as Ha.
  assert (Hp4 : stored (snd (h_alloc s3 p3)) p3) by exact Hp3.
  destruct (h_alloc s3 p3) as [he s4]. simpl in Ha, Hp4.
  eapply reach_trans; [exact (reach_tmove _ _ _ _ T3)|]. eapply rtc_l; [exact Ha|].
  destruct (f && ok && negb he); simpl.
  - apply reach_silent, silent_push_op, Hk.
  - apply unallocate_with_reach, Hp4.
Qed.

(* an attempt on a node changes nothing, or is Statement.Allocate / Pipeline of the stored task *)
Lemma try_place_cases s sid tid nid :
  fst (try_place eps s sid tid nid) = s \/
  exists k p, k <> KEvict /\ heap s !! tid = Some p /\
              fst (try_place eps s sid tid nid) = fst (place_with eps s sid k p nid).
Proof.
  unfold try_place, stmt_allocate, stmt_pipeline, with_task.
  destruct (heap s !! tid) as [p|] eqn:Eh; [|left; reflexivity].
  destruct (nodes s !! nid) as [n|]; [|left; reflexivity].
  destruct (negb _); [left; reflexivity|].
  destruct (less_equal eps (t_init p) (n_idle n) DZero).
  - right. exists KAllocate, p. destruct (place_with _ _ _ _ _ _). repeat split. discriminate.
  - destruct (less_equal eps (t_init p) (future_idle n) DZero); [|left; reflexivity].
    right. exists KPipeline, p. destruct (place_with _ _ _ _ _ _). repeat split. discriminate.
Qed.

Lemma try_place_reach s sid tid nid :
  heap_ids s ->
  (forall p, heap s !! tid = Some p -> guardP s p \/ t_best_effort p = true) ->
  reach s (fst (try_place eps s sid tid nid)).
Proof.
  intros Hi Hg. destruct (try_place_cases s sid tid nid) as [->|(k & p & Hk & Hl & ->)]; [apply rtc_refl|].
  exact (place_with_reach s sid k p nid (stored_lookup _ _ _ Hi Hl) Hk (Hg p Hl)).
Qed.

(* Discard and Commit fold one operation after the other over the statement *)
Lemma fold_reach (f : sess -> oprec -> sess) :
  (forall s o, heap_ids s -> op_kind o <> KEvict -> reach s (f s o)) ->
  forall l s, heap_ids s -> (forall o, o ∈ l -> op_kind o <> KEvict) -> reach s (fold_left f l s).
Proof.
  intros Hf. induction l as [|o l IH]; intros s Hi Hk; simpl; [apply rtc_refl|].
  pose proof (Hf s o Hi (Hk o ltac:(left))) as H1.
  eapply reach_trans; [exact H1|]. apply IH; [eapply reach_ids; eassumption|].
  intros o' Ho'. apply Hk. right. exact Ho'.
Qed.

Lemma undo_op_reach s o : heap_ids s -> op_kind o <> KEvict -> reach s (undo_op eps s o).
Proof.
  intros Hi Hk. unfold undo_op. destruct (heap s !! op_task o) as [p|] eqn:Eh; [|apply rtc_refl].
  destruct (op_kind o); [contradiction|..]; apply unallocate_with_reach, (stored_lookup _ _ _ Hi Eh).
Qed.

Lemma commit_op_reach s o : heap_ids s -> op_kind o <> KEvict -> reach s (commit_op eps s o).
Proof.
  intros Hi Hk. unfold commit_op. destruct (heap s !! op_task o) as [p|] eqn:Eh; [|apply rtc_refl].
  pose proof (stored_lookup _ _ _ Hi Eh) as Hp.
  destruct (op_kind o); [contradiction|apply rtc_refl|].
  case_bool_decide; [apply unallocate_with_reach, Hp|].
  destruct (ssn_update_status _ p Binding) as [[f s2] p2] eqn:E2.
  destruct (tmove_logs_update _ _ _ _ _ _ _ _ Hp E2) as [T2 _].
  eapply reach_trans; [exact (reach_tmove _ _ _ _ T2)|].
  destruct f; [apply rtc_refl|apply unallocate_with_reach, (tm_stored _ _ _ _ T2)].
Qed.

Lemma stmt_ops_no_evict s sid : no_evict s -> forall o, o ∈ default [] (stmts s !! sid) -> op_kind o <> KEvict.
Proof.
  intros Hne o Ho. destruct (stmts s !! sid) as [l|] eqn:E; simpl in Ho; [eapply Hne; eauto|inversion Ho].
Qed.

Lemma stmt_discard_reach s sid : heap_ids s -> no_evict s -> reach s (stmt_discard eps s sid).
Proof.
  intros Hi Hne. unfold stmt_discard.
  eapply reach_trans; [apply (fold_reach _ undo_op_reach); [exact Hi|]|apply reach_silent, silent_clear_stmt].
  intros o Ho. apply elem_of_list_In, in_rev, elem_of_list_In in Ho. eapply stmt_ops_no_evict; eassumption.
Qed.

Lemma stmt_commit_reach s sid : heap_ids s -> no_evict s -> reach s (stmt_commit eps s sid).
Proof.
  intros Hi Hne. unfold stmt_commit.
  eapply reach_trans; [apply (fold_reach _ commit_op_reach); [exact Hi|]|apply reach_silent, silent_clear_stmt].
  apply stmt_ops_no_evict, Hne.
Qed.

(* ---------- Session.Allocate of backfill ---------- *)

Lemma dispatch_silent s tid : heap_ids s -> silent s (fst (dispatch s tid)).
Proof.
  intros Hi. unfold dispatch. destruct (heap s !! tid) as [p|] eqn:Eh; [|apply silent_refl].
  case_bool_decide; [apply silent_refl|].
  destruct (ssn_update_status _ p Binding) as [[f s2] p2] eqn:E2. simpl.
  exact (tm_sil _ _ _ _ (proj1 (tmove_logs_update _ _ _ _ _ _ _ _ (stored_lookup _ _ _ Hi Eh) E2))).
Qed.

(* a task whose dispatch fails is unallocated (Session.undoAllocation): a deallocate step *)
Lemma dispatch_all_reach l : forall s, heap_ids s -> reach s (fst (dispatch_all s l)).
Proof.
  induction l as [|t l IH]; intros s Hi; simpl; [apply rtc_refl|].
  pose proof (dispatch_silent s t Hi) as H1. destruct (dispatch s t) as [s1 ok]. simpl in H1.
  assert (Hi1 : heap_ids s1) by (apply (se_ids _ _ (sil_se _ _ H1)), Hi).
  eapply reach_trans; [apply reach_silent, H1|].
  destruct ok; [apply IH, Hi1|]. simpl.
  destruct (heap s1 !! t) as [p|] eqn:Ep; [|apply rtc_refl].
  apply unallocate_with_reach. eapply stored_lookup; eauto.
Qed.

(* Session.Allocate / Pipeline taken apart: nothing happens (no such task, job unknown); the status
   update goes through and the placement is reverted (no node, node refuses); or the task is put on
   the node, the allocate callback follows, and -- Allocate of a ready job -- the dispatch loop *)
Lemma ssn_place_with_cases jr s k tid nid :
  let r := fst (ssn_place_with eps jr s k tid nid) in
  r = s \/
  exists p s1 p1, heap s !! tid = Some p /\
    ssn_update_status s p (match k with KAllocate => Allocated | _ => Pipelined end) = (true, s1, p1) /\
    let p2 := set_node p1 (Some nid) in let s2 := put_task s1 p2 in
    (r = (let '(_, sr, pr) := ssn_update_status s2 p2 Pending in put_task sr (set_node pr None)) \/
     exists n n' p3, nodes s2 !! nid = Some n /\ node_add eps n p2 = inl (n', p3) /\
       let s4 := snd (h_alloc (put_task (upd_nodes s2 (<[nid := n']> (nodes s2))) p3) p3) in
       (r = s4 \/ exists j, k = KAllocate /\ jobs s4 !! t_job p = Some j /\
                   r = fst (dispatch_all s4 (elements (default ∅ (j_index j !! skey Allocated)))))).
Proof.
  unfold ssn_place_with. cbv zeta. destruct (heap s !! tid) as [p|] eqn:Eh; [|left; reflexivity].
  destruct (ssn_update_status s p _) as [[f s1] p1] eqn:E1. destruct f; cbn [negb]; [|left; reflexivity].
  right. exists p, s1, p1. split; [reflexivity|]. split; [exact E1|].
  destruct (nodes _ !! nid) as [n|] eqn:En; [|left; reflexivity].
  destruct (node_add eps n _) as [[n' p3]|] eqn:Ea; [|left; reflexivity].
  right. exists n, n', p3. split; [reflexivity|]. split; [exact Ea|].
  destruct (h_alloc _ p3) as [he s4]. cbn [fst snd].
  destruct k; try (left; reflexivity).
  destruct (jobs s4 !! t_job p) as [j|]; [|left; reflexivity]. destruct (jr s4 j); [|left; reflexivity].
  right. exists j. destruct (dispatch_all s4 _). auto.
Qed.

Lemma ssn_place_with_reach jr s k tid nid :
  heap_ids s -> (forall p, heap s !! tid = Some p -> t_best_effort p = true) ->
  reach s (fst (ssn_place_with eps jr s k tid nid)).
Proof.
  intros Hi Hbe.
  destruct (ssn_place_with_cases jr s k tid nid) as [->|(p & s1 & p1 & Eh & E1 & H)]; [apply rtc_refl|].
  pose proof (stored_lookup _ _ _ Hi Eh) as Hp. specialize (Hbe p Eh). cbv zeta in H.
  destruct (tmove_update_put _ _ _ (Some nid) _ _ _ Hp E1) as [T2 _]. pose proof (tm_stored _ _ _ _ T2) as Hp2.
  destruct H as [->|(n & n' & p3 & _ & Ea & H)].
  - destruct (ssn_update_status _ _ Pending) as [[fr sr] pr] eqn:Er.
    destruct (tmove_update_put _ _ _ None _ _ _ Hp2 Er) as [Tr _].
    exact (reach_tmove _ _ _ _ (tmove_trans _ _ _ _ _ _ T2 Tr)).
  - destruct (tmove_node_add eps _ _ nid _ _ _ Hp2 Ea) as [T3 _].
    apply (tmove_trans _ _ _ _ _ _ T2) in T3. set (s3 := put_task _ p3) in *.
    assert (Hg3 : guardP s3 p3 \/ t_best_effort p3 = true).
    { right. destruct (tsame_req _ _ (tm_same _ _ _ _ T3)) as (_ & _ & ->). exact Hbe. }
    assert (H04 : reach s (snd (h_alloc s3 p3))).
    { eapply reach_trans; [exact (reach_tmove _ _ _ _ T3)|]. apply rtc_once, (ms_alloc s3 p3 (stored_hp _ _ (tm_stored _ _ _ _ T3)) Hg3). }
    destruct H as [->|(j & _ & _ & ->)]; [exact H04|].
    exact (reach_trans _ _ _ H04 (dispatch_all_reach _ _ (reach_ids _ _ H04 Hi))).
Qed.

(* ---------- the skeleton ---------- *)

Lemma qok_guardP (w : world) s jid p :
  w_queues w = Q -> t_job p = jid ->
  match jobs s !! jid with
  | Some j => match w_queues w !! j_queue j with
              | Some q => queue_allocatable w (share_of s (j_queue j)) q p
              | None => true end
  | None => true end = true ->
  guardP s p.
Proof.
  intros HQ Hj Hok q qa Hq Hl Hpl. rewrite Hj in Hq. unfold jq in Hq.
  destruct (jobs s !! jid) as [j|]; simpl in Hq; [|discriminate].
  inversion Hq; subst q. rewrite HQ, Hl in Hok.
  exact (queue_allocatable_bound w _ qa p Hpl Hok).
Qed.

Lemma do_places_reach (w : world) sid jid l : forall s,
  w_queues w = Q -> heap_ids s -> reach s (fst (do_places eps w s sid jid l)).
Proof.
  induction l as [|[tid nid] l IH]; intros s HQ Hi; simpl; [apply rtc_refl|].
  destruct (heap s !! tid) as [p|] eqn:Eh; [|apply rtc_refl].
  destruct (negb (bool_decide (t_status p = Pending) && bool_decide (t_job p = jid))) eqn:Ec; [apply rtc_refl|].
  apply negb_false_iff, andb_true_iff in Ec as [_ Ej]. apply bool_decide_eq_true in Ej.
  destruct (negb _) eqn:Eq; [apply rtc_refl|]. apply negb_false_iff in Eq.
  pose proof (qok_guardP w s jid p HQ Ej Eq) as Hg.
  assert (H1 : reach s (fst (try_place eps s sid tid nid))).
  { apply try_place_reach; [exact Hi|]. intros p' Hp'. rewrite Eh in Hp'. inversion Hp'; subst. left. exact Hg. }
  destruct (try_place eps s sid tid nid) as [s' pl]. simpl in H1.
  eapply reach_trans; [exact H1|]. apply IH; [exact HQ|eapply reach_ids; eassumption].
Qed.

Theorem step_reach (w : world) (o : cop) :
  w_queues w = Q -> heap_ids (w_sess w) -> no_evict (w_sess w) ->
  reach (w_sess w) (w_sess (fst (CycleModel.step eps w o))) /\ w_queues (fst (CycleModel.step eps w o)) = Q.
Proof.
  intros HQ Hi Hne. destruct o as [jid places|tid nid]; simpl.
  - pose proof (do_places_reach w (w_next_stmt w) jid places (w_sess w) HQ Hi) as H1.
    destruct (do_places eps w (w_sess w) (w_next_stmt w) jid places) as [s1 v]. simpl in *.
    split; [|exact HQ].
    destruct (CycleModel.decide s1 jid).
    + eapply reach_trans; [exact H1|]. apply stmt_commit_reach; [eapply reach_ids|eapply reach_ne]; eassumption.
    + exact H1.
    + eapply reach_trans; [exact H1|]. apply stmt_discard_reach; [eapply reach_ids|eapply reach_ne]; eassumption.
  - destruct (heap (w_sess w) !! tid) as [p|] eqn:Eh; [|split; [apply rtc_refl|exact HQ]].
    destruct (negb (bool_decide (t_status p = Pending))); [split; [apply rtc_refl|exact HQ]|].
    destruct (negb (t_best_effort p)) eqn:Eb; [split; [apply rtc_refl|exact HQ]|].
    apply negb_false_iff in Eb.
    pose proof (ssn_place_with_reach (fun s j => gang_job_ready (heap s) j) (w_sess w) KAllocate tid nid Hi) as H1.
    destruct (ssn_place_with _ _ _ _ _ _) as [s1 r]. simpl in *. split; [|exact HQ].
    apply H1. intros p' Hp'. rewrite Eh in Hp'. inversion Hp'; subst. exact Eb.
Qed.

Theorem run_reach (ops : list cop) : forall w,
  w_queues w = Q -> heap_ids (w_sess w) -> no_evict (w_sess w) ->
  reach (w_sess w) (w_sess (CycleModel.run eps w ops)) /\ w_queues (CycleModel.run eps w ops) = Q.
Proof.
  induction ops as [|o ops IH]; intros w HQ Hi Hne; simpl; [split; [apply rtc_refl|exact HQ]|].
  destruct (step_reach w o HQ Hi Hne) as [H1 HQ1].
  destruct (IH (fst (CycleModel.step eps w o)) HQ1 (reach_ids _ _ H1 Hi) (reach_ne _ _ H1 Hne)) as [H2 HQ2].
  split; [eapply reach_trans; eassumption|exact HQ2].
Qed.

End Reach.
