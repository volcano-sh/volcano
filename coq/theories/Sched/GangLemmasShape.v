(* C01: two hypotheses on a choice list from which the run-dependent hypothesis [guarded] of the
   gang theorem follows, for a session with no Allocated task with a non-empty request (a fresh
   snapshot has none).

   [kept_free]: no job is attempted again after an attempt of it that the MODEL decided not to
   commit; backfill placements anywhere.  This is what one `allocate` run looks like (allocate.go
   305-356: a job is pushed back into the queue only after its statement was committed), but that
   is not proved here: [kept_free] recurses through [step] and reads [decide] in every
   intermediate world, and allocate's queue loop is not modelled (see Props/C01.v, comment 8).
   [nodup_kept_free]: the purely syntactic special case, every job attempted at most once.

   For `allocate` twice [kept_free] fails on the F10 witness and so does the theorem. *)
From stdpp Require Import gmap.
From Coq Require Import ZArith.
From V Require Import Base.Res Sched.LedgerModel Sched.StmtModel Sched.GangModel Sched.CycleModel Sched.LedgerInvP
                      Sched.GangLemmas Sched.GangLemmasInv Sched.GangLemmasStmt Sched.GangLemmasCycle.
Open Scope Z_scope.

Section WithEps.
Variable eps : Z.

(* what allocate decides after the task loop of this attempt (allocate.go 343, 853-866) *)
Definition attempt_decision (w : world) (jid : positive) (places : list (positive * positive)) : decision :=
  CycleModel.decide (do_places eps w (w_sess w) (w_next_stmt w) jid places).1 jid.

Fixpoint kept_free (w : world) (K : gset positive) (ops : list cop) : Prop :=
  match ops with
  | [] => True
  | CAttempt jid places :: r =>
      jid ∉ K /\ places_non_be (w_sess w) places /\
      kept_free (step eps w (CAttempt jid places)).1
                (match attempt_decision w jid places with DCommit => K | _ => {[jid]} ∪ K end) r
  | CBackfill t n :: r => kept_free (step eps w (CBackfill t n)).1 K r
  end.

(* every tentative allocation with a non-empty request belongs to a job of K *)
Definition kinv (s : sess) (K : gset positive) : Prop :=
  forall i t, heap s !! i = Some t -> t_status t = Allocated -> t_best_effort t = false -> t_job t ∈ K.

Lemma kinv_mono s K K' : K ⊆ K' -> kinv s K -> kinv s K'.
Proof. intros Hsub H i t E Hs Hb. apply Hsub. by eapply H. Qed.

(* an attempt of a job outside K is guarded *)
Lemma kinv_guard s K jid : kinv s K -> jid ∉ K -> no_kept_alloc s jid.
Proof.
  intros Hk HjK i t E Hj Hs. destruct (t_best_effort t) eqn:Hb; [done|]. destruct HjK. rewrite <- Hj. by eapply Hk.
Qed.

(* the K of kept_free after one step *)
Definition kept_after (w : world) (K : gset positive) (o : cop) : gset positive :=
  match o with
  | CAttempt jid places => match attempt_decision w jid places with DCommit => K | _ => {[jid]} ∪ K end
  | CBackfill _ _ => K
  end.

Lemma kept_step w K o : winv w -> cop_guard w o -> kinv (w_sess w) K ->
  let w' := (step eps w o).1 in
  winv w' /\ kinv (w_sess w') (kept_after w K o) /\ persist (w_sess w) (w_sess w').
Proof.
  intros Hw Hg Hk. destruct (step_spec eps w o Hw Hg) as (Hw' & Hev & _).
  split; [done|]. split; [|by eapply cycle_rel_persist]. intros i t' E' Hs Hb.
  destruct (evolve_bwd _ _ _ _ _ Hev E') as (t & E & (_ & Hj & _ & Hbe) & HR). rewrite Hj.
  assert (HK : t_status t = Allocated \/ kept_by eps w o (t_job t) -> t_job t ∈ kept_after w K o).
  { intros [Hst|Hkept].
    - assert (t_job t ∈ K) by (eapply Hk; [exact E|done|congruence]).
      destruct o; simpl; [destruct (attempt_decision _ _ _)|]; try done; apply elem_of_union; by right.
    - destruct o as [jid places|]; [|done]. destruct Hkept as [-> Hd]. simpl. fold (attempt_decision w jid places) in Hd.
      destruct (attempt_decision _ _ _); [done|..]; apply elem_of_union; left; by apply elem_of_singleton. }
  destruct HR as [Hst|[?|(_ & [[_ [?|?]]|[? _]])]]; try congruence; apply HK; [left|right]; congruence.
Qed.

Lemma kept_free_guarded ops : forall w K,
  winv w -> kinv (w_sess w) K -> kept_free w K ops -> guarded eps w ops.
Proof.
  induction ops as [|o ops IH]; intros w K Hw Hk Hf; [done|].
  assert (Hg : cop_guard w o) by (destruct o; [destruct Hf as (? & ? & _); split; [by eapply kinv_guard|done]|done]).
  destruct (kept_step w K o Hw Hg Hk) as (Hw' & Hk' & _). split; [done|].
  eapply IH; [exact Hw'|exact Hk'|]. destruct o; [by destruct Hf as (_ & _ & ?)|done].
Qed.

(* ---------- the purely syntactic special case: every job attempted at most once ---------- *)

Definition attempt_jobs (ops : list cop) : list positive :=
  omap (fun o => match o with CAttempt jid _ => Some jid | CBackfill _ _ => None end) ops.

(* the tasks an attempt names exist in the initial snapshot with a non-empty request *)
Definition static_non_be (s0 : sess) (ops : list cop) : Prop :=
  forall jid places tid nid, CAttempt jid places ∈ ops -> (tid, nid) ∈ places ->
    exists t0, heap s0 !! tid = Some t0 /\ t_best_effort t0 = false.

Lemma nodup_kept_free s0 ops : forall w K,
  winv w -> kinv (w_sess w) K -> persist s0 (w_sess w) ->
  NoDup (attempt_jobs ops) -> (forall j, j ∈ attempt_jobs ops -> j ∉ K) -> static_non_be s0 ops ->
  kept_free w K ops.
Proof.
  induction ops as [|o ops IH]; intros w K Hw Hk Hp Hnd HK Hst; [done|].
  assert (Hst' : static_non_be s0 ops).
  { intros j pl t n Hin Hpl. eapply Hst; [apply elem_of_cons; right; exact Hin|exact Hpl]. }
  destruct o as [jid places|tid nid]; simpl in *.
  - apply NoDup_cons in Hnd as [Hnotin Hnd].
    assert (HjK : jid ∉ K) by (apply HK; by left).
    assert (Hnbe : places_non_be (w_sess w) places).
    { intros tid nid t Hin Et. destruct (Hst jid places tid nid) as (t0 & E0 & Hb0); [by left|done|].
      destruct (evolve_fwd _ _ _ _ _ Hp E0) as (t' & Et' & (_ & _ & _ & Hb') & _). congruence. }
    split; [done|]. split; [done|].
    destruct (kept_step w K (CAttempt jid places) Hw (conj (kinv_guard _ _ _ Hk HjK) Hnbe) Hk) as (Hw' & Hk' & Hp').
    apply IH; [exact Hw'|exact Hk'|by eapply persist_trans|done| |done].
    intros j Hj. assert (j <> jid) by (intros ->; done). assert (j ∉ K) by (apply HK; by right).
    destruct (attempt_decision w jid places); [done|..]; by intros [?%elem_of_singleton|?]%elem_of_union.
  - destruct (kept_step w K (CBackfill tid nid) Hw I Hk) as (Hw' & Hk' & Hp').
    apply IH; [exact Hw'|exact Hk'|by eapply persist_trans|done|done|done].
Qed.

End WithEps.
