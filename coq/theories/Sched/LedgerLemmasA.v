(* C07 proofs: amounts of resource vectors under add / sub, sums over task lists,
   sums over the copies a node holds and over the tasks of a job when one element is
   inserted or removed, and the status-index primitives.  For every eps (the ledger
   arithmetic does not depend on it). *)
From stdpp Require Import gmap.
From Coq Require Import ZArith Lia.
From V Require Import Base.Res Base.ResLemmas Sched.LedgerModel Sched.StmtModel Sched.GangModel
  Sched.LedgerInvP Sched.LedgerInv.
Open Scope Z_scope.

Lemma amt_add r x d : amt (add r x) d = amt r d + amt x d.
Proof. destruct d; simpl; [reflexivity|reflexivity|apply add_sget]. Qed.

Lemma amt_sub_some r x d : sc r <> None -> amt (sub r x) d = amt r d - amt x d.
Proof. intros H. destruct d; simpl; [reflexivity|reflexivity|apply sub_sget; exact H]. Qed.

Lemma sget_nil r k : sc r = None -> sget r k = 0.
Proof. intros H. unfold sget, scm. rewrite H. reflexivity. Qed.

(* amounts subtract exactly when the subtrahend is part of the minuend; this covers Go's
   nil-map quirk of Resource.sub (a nil scalar map drops the subtrahend's scalars: they are
   all 0 then) *)
Lemma amt_sub_part r x :
  (forall d, 0 <= amt x d <= amt r d) -> forall d, amt (sub r x) d = amt r d - amt x d.
Proof.
  intros H d. destruct (sc r) as [m|] eqn:Hm.
  - apply amt_sub_some. congruence.
  - destruct d as [| |k]; simpl; [reflexivity|reflexivity|].
    specialize (H (DSc k)). simpl in H.
    rewrite (sget_nil (sub r x) k) by (apply sub_nil_drops_scalars; exact Hm).
    rewrite (sget_nil r k Hm) in *. lia.
Qed.

Lemma sub_sc_some r x : sc r <> None -> sc (sub r x) <> None.
Proof. unfold sub. simpl. destruct (sc r); [discriminate|congruence]. Qed.

Lemma add_sc_some r x : sc r <> None -> sc (add r x) <> None.
Proof. unfold add. simpl. case_bool_decide; [auto|discriminate]. Qed.

Lemma res_eqv_amt r s : res_eqv r s <-> forall d, amt r d = amt s d.
Proof.
  split.
  - intros (Hc & Hm & Hs) [| |k]; simpl; auto.
  - intros H. split; [exact (H DCpu)|]. split; [exact (H DMem)|]. intros k. exact (H (DSc k)).
Qed.

Lemma res_eqv_refl r : res_eqv r r.
Proof. apply res_eqv_amt. reflexivity. Qed.
Lemma res_eqv_sym r s : res_eqv r s -> res_eqv s r.
Proof. rewrite !res_eqv_amt. intros H d. symmetry. apply H. Qed.
Lemma res_eqv_trans r s t : res_eqv r s -> res_eqv s t -> res_eqv r t.
Proof. rewrite !res_eqv_amt. intros H1 H2 d. rewrite H1. apply H2. Qed.

(* add then sub: the handler ledger is balanced whether or not the callback reported an error *)
Lemma add_sub_eqv r x : res_eqv (sub (add r x) x) r.
Proof. destruct (add_sub_pointwise r x) as (a & b & c). repeat split; assumption. Qed.

(* sub then add needs the subtrahend to be covered (or a non-nil scalar map) *)
Lemma sub_add_eqv r x : (forall d, 0 <= amt x d <= amt r d) -> res_eqv (add (sub r x) x) r.
Proof. intros H. apply res_eqv_amt. intros d. rewrite amt_add, amt_sub_part by exact H. lia. Qed.

Lemma add_eqv_proper r r' x : res_eqv r r' -> res_eqv (add r x) (add r' x).
Proof. rewrite !res_eqv_amt. intros H d. rewrite !amt_add, H. reflexivity. Qed.

Lemma sum_amt_cons f t l : sum_amt f (t :: l) = f t + sum_amt f l.
Proof. reflexivity. Qed.

Lemma sum_amt_perm f l l' : l ≡ₚ l' -> sum_amt f l = sum_amt f l'.
Proof. induction 1; simpl; lia. Qed.

Lemma sum_amt_ext f g l : (forall t, t ∈ l -> f t = g t) -> sum_amt f l = sum_amt g l.
Proof.
  induction l as [|t l IH]; intros H; simpl; [reflexivity|].
  rewrite (H t) by left. rewrite IH; [reflexivity|]. intros x Hx. apply H. right. exact Hx.
Qed.

Lemma sum_amt_nonneg f l : (forall t, t ∈ l -> 0 <= f t) -> 0 <= sum_amt f l.
Proof.
  induction l as [|t l IH]; intros H; simpl; [lia|].
  assert (0 <= f t) by (apply H; left). assert (0 <= sum_amt f l) by (apply IH; intros; apply H; right; auto). lia.
Qed.

Lemma sum_amt_ge_elem f l t : (forall x, x ∈ l -> 0 <= f x) -> t ∈ l -> f t <= sum_amt f l.
Proof.
  intros Hnn Hin. apply elem_of_Permutation in Hin as [l' Hp].
  rewrite (sum_amt_perm f _ _ Hp). simpl.
  assert (0 <= sum_amt f l'); [|lia].
  apply sum_amt_nonneg. intros x Hx. apply Hnn. rewrite Hp. right. exact Hx.
Qed.

Lemma copies_insert (n : node) i c idle used rel pip :
  n_tasks n !! i = None ->
  copies (node_with n idle used rel pip (<[i := c]> (n_tasks n))) ≡ₚ c :: copies n.
Proof.
  intros Hn. unfold copies. simpl. rewrite map_to_list_insert by exact Hn. reflexivity.
Qed.

Lemma copies_delete (n : node) i c idle used rel pip :
  n_tasks n !! i = Some c ->
  copies n ≡ₚ c :: copies (node_with n idle used rel pip (delete i (n_tasks n))).
Proof.
  intros Hn. unfold copies. simpl.
  rewrite <- (map_to_list_delete (n_tasks n) i c Hn). reflexivity.
Qed.

Lemma elem_of_copies n c : c ∈ copies n <-> exists i, n_tasks n !! i = Some c.
Proof.
  unfold copies. rewrite elem_of_list_fmap. split.
  - intros ([i x] & -> & Hin). apply elem_of_map_to_list in Hin. eauto.
  - intros (i & Hi). exists (i, c). split; [reflexivity|]. apply elem_of_map_to_list. exact Hi.
Qed.

Lemma elem_of_tasks_in h S t : t ∈ tasks_in h S <-> exists i, i ∈ S /\ h !! i = Some t.
Proof.
  unfold tasks_in. rewrite elem_of_list_omap. split.
  - intros (i & Hi & Hl). exists i. split; [apply elem_of_elements; exact Hi|exact Hl].
  - intros (i & Hi & Hl). exists i. split; [apply elem_of_elements; exact Hi|exact Hl].
Qed.

Lemma tasks_in_union_singleton h S i t :
  i ∉ S -> h !! i = Some t -> tasks_in h ({[i]} ∪ S) ≡ₚ t :: tasks_in h S.
Proof.
  intros Hni Hl. unfold tasks_in. rewrite (elements_union_singleton S i Hni). simpl. rewrite Hl. reflexivity.
Qed.

Lemma tasks_in_difference_singleton h S i t :
  i ∈ S -> h !! i = Some t -> tasks_in h S ≡ₚ t :: tasks_in h (S ∖ {[i]}).
Proof.
  intros Hi Hl.
  assert (HS : S = {[i]} ∪ (S ∖ {[i]})).
  { apply set_eq. intros x. rewrite elem_of_union, elem_of_difference, elem_of_singleton.
    destruct (decide (x = i)) as [->|]; tauto. }
  rewrite HS at 1. apply tasks_in_union_singleton; [set_solver|exact Hl].
Qed.

Lemma omap_cons' {A B} (f : A -> option B) x l :
  omap f (x :: l) = match f x with Some y => y :: omap f l | None => omap f l end.
Proof. reflexivity. Qed.

(* the list only depends on the heap entries of the members *)
Lemma tasks_in_ext h h' S : (forall i, i ∈ S -> h !! i = h' !! i) -> tasks_in h S = tasks_in h' S.
Proof.
  intros H. unfold tasks_in.
  assert (Hall : forall i, i ∈ elements S -> h !! i = h' !! i) by (intros i Hi; apply H, elem_of_elements, Hi).
  induction (elements S) as [|i l IH]; [reflexivity|].
  rewrite !omap_cons'. rewrite (Hall i) by left. rewrite IH; [reflexivity|]. intros x Hx. apply Hall. right. exact Hx.
Qed.

(* ... and its image under a view only on the views of those entries *)
Lemma tasks_in_fmap {V} (v : task -> V) h h' S :
  (forall i, i ∈ S -> v <$> h !! i = v <$> h' !! i) -> v <$> tasks_in h S = v <$> tasks_in h' S.
Proof.
  intros H. unfold tasks_in.
  assert (Hall : forall i, i ∈ elements S -> v <$> h !! i = v <$> h' !! i) by (intros i Hi; apply H, elem_of_elements, Hi).
  induction (elements S) as [|i l IH]; [reflexivity|].
  rewrite !omap_cons'. assert (Hi := Hall i ltac:(left)).
  assert (IH' := IH (fun x Hx => Hall x ltac:(right; exact Hx))).
  destruct (h !! i), (h' !! i); try discriminate Hi; [|exact IH']. injection Hi as Hi. rewrite !fmap_cons. f_equal; assumption.
Qed.

(* a sum that reads a view of the tasks is the same over lists with the same views *)
Lemma sum_amt_fmap {V} (v : task -> V) f l l' :
  (forall t t', v t = v t' -> f t = f t') -> v <$> l ≡ₚ v <$> l' -> sum_amt f l = sum_amt f l'.
Proof.
  intros Hf Hp. change (v <$> l') with (map v l') in Hp.
  apply Permutation_map_inv in Hp as (l3 & Heq & Hp). rewrite (sum_amt_perm f _ _ Hp). clear Hp.
  revert l3 Heq. induction l as [|t l IH]; intros [|t3 l3] Heq; try discriminate; [reflexivity|].
  injection Heq as H0 H1. simpl. rewrite (Hf _ _ H0), (IH _ H1). reflexivity.
Qed.

Lemma status_of_skey s : status_of_key (skey s) = Some s.
Proof. destruct s; reflexivity. Qed.

Lemma skey_inj s s' : skey s = skey s' -> s = s'.
Proof. intros H. apply (f_equal status_of_key) in H. rewrite !status_of_skey in H. congruence. Qed.

Lemma status_key_inv k s : status_of_key k = Some s -> k = skey s.
Proof.
  unfold status_of_key. do 4 (try destruct k as [k|k|]); try discriminate; intros [= <-]; reflexivity.
Qed.

Lemma idx_set_add ix s t s' :
  idx_set (idx_add ix s t) s' = if decide (s = s') then {[t]} ∪ idx_set ix s else idx_set ix s'.
Proof.
  unfold idx_set, idx_add. destruct (decide (s = s')) as [->|Hne].
  - rewrite lookup_insert. reflexivity.
  - rewrite lookup_insert_ne; [reflexivity|]. intros H. apply Hne, skey_inj, H.
Qed.

Lemma idx_set_del ix s t s' :
  idx_set (idx_del ix s t) s' = if decide (s = s') then idx_set ix s ∖ {[t]} else idx_set ix s'.
Proof.
  unfold idx_set, idx_del. destruct (ix !! skey s) as [ts|] eqn:E.
  - case_bool_decide as He.
    + destruct (decide (s = s')) as [->|Hne].
      * rewrite lookup_delete. simpl. symmetry. exact He.
      * rewrite lookup_delete_ne; [reflexivity|]. intros H. apply Hne, skey_inj, H.
    + destruct (decide (s = s')) as [->|Hne].
      * rewrite lookup_insert. reflexivity.
      * rewrite lookup_insert_ne; [reflexivity|]. intros H. apply Hne, skey_inj, H.
  - destruct (decide (s = s')) as [->|Hne]; [|reflexivity].
    rewrite E. simpl. set_solver.
Qed.

Lemma idx_add_keys ix s t k x :
  (forall k x, ix !! k = Some x -> x <> ∅ /\ is_Some (status_of_key k)) ->
  idx_add ix s t !! k = Some x -> x <> ∅ /\ is_Some (status_of_key k).
Proof.
  intros H. unfold idx_add. destruct (decide (k = skey s)) as [->|Hne].
  - rewrite lookup_insert. intros [= <-]. split; [set_solver|]. rewrite status_of_skey. eauto.
  - rewrite lookup_insert_ne by congruence. apply H.
Qed.

Lemma idx_del_keys ix s t k x :
  (forall k x, ix !! k = Some x -> x <> ∅ /\ is_Some (status_of_key k)) ->
  idx_del ix s t !! k = Some x -> x <> ∅ /\ is_Some (status_of_key k).
Proof.
  intros H. unfold idx_del. destruct (ix !! skey s) as [ts|] eqn:E; [|apply H].
  case_bool_decide as He.
  - destruct (decide (k = skey s)) as [->|Hne].
    + rewrite lookup_delete. discriminate.
    + rewrite lookup_delete_ne by congruence. apply H.
  - destruct (decide (k = skey s)) as [->|Hne].
    + rewrite lookup_insert. intros [= <-]. split; [exact He|]. rewrite status_of_skey. eauto.
    + rewrite lookup_insert_ne by congruence. apply H.
Qed.

(* the index of a task set to which a fresh task is added *)
Lemma index_ok_add h ids ix t :
  index_ok h ids ix -> t_id t ∉ ids -> h !! t_id t = Some t ->
  index_ok h ({[t_id t]} ∪ ids) (idx_add ix (t_status t) (t_id t)).
Proof.
  intros [Hix Hk] Hni Hl. split.
  - intros s i. rewrite idx_set_add. destruct (decide (t_status t = s)) as [<-|Hne].
    + rewrite elem_of_union, elem_of_singleton, Hix. split.
      * intros [->|[Hi Ht]]; [|split; [set_solver|exact Ht]]. split; [set_solver|eauto].
      * intros [Hi (t' & Ht' & Hs)]. apply elem_of_union in Hi as [Hi|Hi]; [left; set_solver|right; eauto].
    + rewrite Hix. split.
      * intros [Hi Ht]. split; [set_solver|exact Ht].
      * intros [Hi (t' & Ht' & Hs)]. apply elem_of_union in Hi as [Hi|Hi]; [|eauto].
        apply elem_of_singleton in Hi. subst i. rewrite Hl in Ht'. inversion Ht'; subst. contradiction.
  - intros k x. apply idx_add_keys. exact Hk.
Qed.

(* ... and from which a member is removed (under the status it is stored with) *)
Lemma index_ok_del h ids ix t :
  index_ok h ids ix -> h !! t_id t = Some t ->
  index_ok h (ids ∖ {[t_id t]}) (idx_del ix (t_status t) (t_id t)).
Proof.
  intros [Hix Hk] Hl. split.
  - intros s i. rewrite idx_set_del. destruct (decide (t_status t = s)) as [<-|Hne].
    + rewrite !elem_of_difference, Hix. tauto.
    + rewrite Hix, elem_of_difference, elem_of_singleton. split; [|tauto].
      intros [Hi (t' & Ht' & Hs)]. split; [|eauto]. split; [exact Hi|].
      intros ->. rewrite Hl in Ht'. inversion Ht'; subst. contradiction.
  - intros k x. apply idx_del_keys. exact Hk.
Qed.

(* the index only reads the statuses of the members *)
Lemma index_ok_ext h h' ids ix :
  (forall i, i ∈ ids -> (t_status <$> h !! i) = (t_status <$> h' !! i)) ->
  index_ok h ids ix -> index_ok h' ids ix.
Proof.
  intros Hag [Hix Hk]. split; [|exact Hk].
  intros s i. rewrite Hix. split; intros [Hi (t & Ht & Hs)]; (split; [exact Hi|]);
    specialize (Hag i Hi); rewrite Ht in Hag; simpl in Hag.
  - destruct (h' !! i) as [t'|]; [|discriminate]. simpl in Hag. exists t'. split; [reflexivity|congruence].
  - destruct (h !! i) as [t'|]; [|discriminate]. simpl in Hag. exists t'. split; [reflexivity|congruence].
Qed.
