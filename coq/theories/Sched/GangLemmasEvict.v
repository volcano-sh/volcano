(* C01, preempt and reclaim only Pipeline and Evict.  Over the operation alphabet of
   Sched/StmtModel (the one the C07 histories and the C04 action model are built from): a history
   without Statement.Allocate / Session.Allocate / RecoverOperations, started in a session whose
   statements hold no Allocate operation, never adds an entry to the bind log - whatever is
   committed, discarded, merged or evicted on the way.  The frame lemmas on the way (what each
   primitive does to the bind log and to the statements) need no invariant; GangLemmasStmt and
   GangLemmasCycle use them too. *)
From stdpp Require Import gmap.
From Coq Require Import ZArith.
From V Require Import Base.Res Sched.LedgerModel Sched.StmtModel.
Open Scope Z_scope.

Definition frame (s s' : sess) : Prop := binds s' = binds s /\ stmts s' = stmts s.
Lemma frame_refl s : frame s s. Proof. by split. Qed.
Lemma frame_trans a b c : frame a b -> frame b c -> frame a c.
Proof. intros [? ?] [? ?]. split; congruence. Qed.

Lemma update_frame s p st f s1 p1 : ssn_update_status s p st = (f, s1, p1) -> frame s s1.
Proof.
  unfold ssn_update_status. destruct (jobs s !! t_job p) as [j|]; [|intros [= <- <- <-]; apply frame_refl].
  destruct (job_update (heap s) j p st) as [j' p']. intros [= <- <- <-]. by split.
Qed.

Lemma node_remove_frame s p : frame s (ssn_node_remove s p).
Proof. unfold ssn_node_remove. repeat case_match; by split. Qed.

Section WithEps.
Variable eps : Z.

Lemma node_update_frame s p s1 p1 f : ssn_node_update eps s p = (s1, p1, f) -> frame s s1.
Proof.
  unfold ssn_node_update. repeat case_match; intros [= <- <- <-]; by split.
Qed.

Lemma unallocate_frame s p : frame s (unallocate_with s p).
Proof.
  unfold unallocate_with. destruct (ssn_update_status s p Pending) as [[f s1] p1] eqn:E.
  apply update_frame in E. destruct (node_remove_frame s1 p1) as [H1 H2]. destruct E as [E1 E2].
  split; simpl; congruence.
Qed.

Lemma unevict_frame s p prev : frame s (unevict_with eps s p prev).1.
Proof.
  unfold unevict_with. destruct (ssn_update_status s p (restore_status prev)) as [[f s1] p1] eqn:E.
  destruct (ssn_node_update eps s1 p1) as [[s2 p2] fatal] eqn:E2.
  apply update_frame in E. apply node_update_frame in E2. unfold h_alloc. simpl.
  destruct E as [? ?], E2 as [? ?]. split; simpl; congruence.
Qed.

(* the node step of Statement.Allocate / Pipeline: NodeInfo.AddTask on the named node, if it is there
   and accepts the task *)
Definition node_step (s : sess) (p : task) (nid : positive) : sess * task * bool :=
  match nodes s !! nid with
  | Some n => match node_add eps n p with
              | inl (n', p') => (put_task (upd_nodes s (<[nid := n']> (nodes s))) p', p', true)
              | inr _ => (s, p, false)
              end
  | None => (s, p, false)
  end.

Lemma node_step_frame s p nid : frame s (node_step s p nid).1.1.
Proof. unfold node_step. repeat case_match; by split. Qed.

Lemma place_frame s sid k p nid s' r : place_with eps s sid k p nid = (s', r) ->
  binds s' = binds s /\
  (r = RErr /\ stmts s' = stmts s \/
   r = ROk /\ stmts s' = <[sid := default [] (stmts s !! sid) ++ [mkOp k (t_id p) Pending]]> (stmts s)).
Proof.
  unfold place_with.
  destruct (ssn_update_status s p _) as [[found s1] p1] eqn:E1. apply update_frame in E1 as [B1 S1].
  set (p2 := set_node p1 (Some nid)). set (s2 := put_task s1 p2).
  fold (node_step s2 p2 nid). pose proof (node_step_frame s2 p2 nid) as F3.
  destruct (node_step s2 p2 nid) as [[s3 p3] ok].
  assert (B3 : binds s3 = binds s /\ stmts s3 = stmts s) by (destruct F3; split; simpl in *; congruence).
  unfold h_alloc. destruct B3 as [B3 S3]. destruct (found && ok && negb (bool_decide (t_id p3 ∈ herr s3))).
  - intros [= <- <-]. split; [simpl; congruence|]. right. simpl. by rewrite S3.
  - intros [= <- <-]. set (s4 := upd_handlers s3 _ _).
    destruct (unallocate_frame s4 p3) as [B5 S5].
    split; [rewrite B5; simpl; congruence|]. left. rewrite S5. simpl. split; congruence.
Qed.

Lemma evict_frame s sid p prev s' r : stmt_evict_with eps s sid p prev = (s', r) ->
  binds s' = binds s /\
  stmts s' = <[sid := default [] (stmts s !! sid) ++ [mkOp KEvict (t_id p) (default (t_status p) prev)]]> (stmts s).
Proof.
  unfold stmt_evict_with.
  destruct (ssn_update_status s p Releasing) as [[f s1] p1] eqn:E1.
  destruct (ssn_node_update eps s1 p1) as [[s2 p2] fatal] eqn:E2.
  apply update_frame in E1 as [B1 S1]. apply node_update_frame in E2 as [B2 S2].
  intros [= <- <-]. split; simpl; [congruence|]. by rewrite S2, S1.
Qed.

Lemma undo_frame s o : frame s (undo_op eps s o).
Proof.
  unfold undo_op. destruct (heap s !! op_task o) as [p|]; [|apply frame_refl].
  destruct (op_kind o); [apply unevict_frame|apply unallocate_frame|apply unallocate_frame].
Qed.

Lemma undo_fold_frame l : forall s, frame s (fold_left (undo_op eps) l s).
Proof.
  induction l as [|o l IH]; intros s; [apply frame_refl|]. simpl.
  eapply frame_trans; [apply undo_frame|apply IH].
Qed.

Lemma commit_op_frame s o : op_kind o <> KAllocate -> frame s (commit_op eps s o).
Proof.
  intros Hk. unfold commit_op. destruct (heap s !! op_task o) as [p|]; [|apply frame_refl].
  destruct (op_kind o); [|apply frame_refl|done].
  case_bool_decide; [apply unevict_frame|by split].
Qed.

Lemma commit_fold_frame l : forall s, Forall (fun o => op_kind o <> KAllocate) l -> frame s (fold_left (commit_op eps) l s).
Proof.
  induction l as [|o l IH]; intros s Hall; [apply frame_refl|]. apply Forall_cons in Hall as [Ho Hall]. simpl.
  eapply frame_trans; [by apply commit_op_frame|by apply IH].
Qed.

(* SS: the statements the history works with (preempt / reclaim create their statements fresh; an
   earlier `allocate` may have left KEPT statements with Allocate operations: they are outside SS
   and the history never names them).  No statement of SS holds an Allocate operation *)
Variable SS : positive -> Prop.

Definition no_alloc_ops (s : sess) : Prop :=
  forall sid l, SS sid -> stmts s !! sid = Some l -> Forall (fun o => op_kind o <> KAllocate) l.

Lemma no_alloc_default s sid : SS sid -> no_alloc_ops s -> Forall (fun o => op_kind o <> KAllocate) (default [] (stmts s !! sid)).
Proof. intros HS H. destruct (stmts s !! sid) as [l|] eqn:E; [by eapply H|constructor]. Qed.

Lemma no_alloc_same s s' : stmts s' = stmts s -> no_alloc_ops s -> no_alloc_ops s'.
Proof. intros E H sid l. rewrite E. apply H. Qed.

Lemma no_alloc_insert s s' sid l : stmts s' = <[sid := l]> (stmts s) ->
  Forall (fun o => op_kind o <> KAllocate) l -> no_alloc_ops s -> no_alloc_ops s'.
Proof.
  intros E Hl H sid' l' HS. rewrite E. intros [[<- <-]|[_ E']]%lookup_insert_Some; [done|by eapply H].
Qed.

Lemma no_alloc_push s s' sid o : stmts s' = <[sid := default [] (stmts s !! sid) ++ [o]]> (stmts s) ->
  SS sid -> op_kind o <> KAllocate -> no_alloc_ops s -> no_alloc_ops s'.
Proof.
  intros E HS Ho H. eapply no_alloc_insert; [exact E| |done].
  apply Forall_app. split; [by apply no_alloc_default|]. by repeat constructor.
Qed.

(* the operations preempt / reclaim (and any eviction-only plugin action) are made of, on statements of SS *)
Definition evict_alphabet (o : op) : Prop :=
  match o with
  | OAllocate _ _ _ | OSsnAllocate _ _ | ORecover _ _ => False
  | OPipeline sid _ _ | OEvict sid _ | OEvictClone sid _ | ODiscard sid | OCommit sid | OSave sid _ => SS sid
  | OMerge sid src => SS sid /\ SS src
  | _ => True
  end.

(* Session.Pipeline and Session.Evict touch neither the bind log nor a statement *)
Lemma ssn_pipeline_frame jr s tid nid : frame s (ssn_place_with eps jr s KPipeline tid nid).1.
Proof.
  unfold ssn_place_with. destruct (heap s !! tid) as [p|]; [|done].
  destruct (ssn_update_status s p Pipelined) as [[found s1] p1] eqn:E1. apply update_frame in E1 as [B1 S1].
  destruct found; simpl; [|done]. set (p2 := set_node p1 (Some nid)). set (s2 := put_task s1 p2).
  destruct (ssn_update_status s2 p2 Pending) as [[f sr] pr] eqn:Er. apply update_frame in Er as [Br Sr].
  assert (Hrev : frame s (put_task sr (set_node pr None))) by (split; simpl in *; congruence).
  destruct (nodes s1 !! nid) as [n|]; [|exact Hrev].
  destruct (node_add eps n p2) as [[n' p3]|e]; [|exact Hrev]. split; simpl; congruence.
Qed.

Lemma ssn_evict_frame s tid : frame s (ssn_evict eps s tid).1.
Proof.
  unfold ssn_evict. destruct (heap s !! tid) as [p|]; [|done]. case_bool_decide; [done|].
  destruct (ssn_update_status _ p Releasing) as [[found s1] p1] eqn:E1. apply update_frame in E1 as [B1 S1].
  destruct found; simpl; [|done].
  destruct (ssn_node_update eps s1 p1) as [[s2 p2] fatal] eqn:E2. apply node_update_frame in E2 as [B2 S2].
  split; simpl in *; congruence.
Qed.

(* a step that sends no bind and leaves no Allocate operation in a statement of SS *)
Definition quiet (s s' : sess) : Prop := no_alloc_ops s -> binds s' = binds s /\ no_alloc_ops s'.

Lemma frame_quiet s s' : frame s s' -> quiet s s'.
Proof. intros [B S] Hn. split; [done|by eapply no_alloc_same]. Qed.

Lemma push_quiet s s' sid o : binds s' = binds s ->
  stmts s' = <[sid := default [] (stmts s !! sid) ++ [o]]> (stmts s) -> SS sid -> op_kind o <> KAllocate -> quiet s s'.
Proof. intros B S HS Ho Hn. split; [done|by eapply no_alloc_push]. Qed.

Lemma with_task_quiet s tid (f : task -> sess * result) :
  (forall p, quiet s (f p).1) -> quiet s (with_task s tid f).1.
Proof. intros Hf. unfold with_task. destruct (heap s !! tid) as [p|]; [apply Hf|by apply frame_quiet]. Qed.

Lemma step_no_bind s o : evict_alphabet o -> quiet s (step eps s o).1.
Proof.
  intros Ha. destruct o; try done; simpl.
  - (* OPipeline *)
    apply with_task_quiet. intros p. destruct (place_with eps s sid KPipeline p nid) as [s' r] eqn:E.
    destruct (place_frame _ _ _ _ _ _ _ E) as [B [[_ S]|[_ S]]]; [by apply frame_quiet|by eapply push_quiet].
  - (* OEvict *)
    apply with_task_quiet. intros p. destruct (stmt_evict_with eps s sid p None) as [s' r] eqn:E.
    destruct (evict_frame _ _ _ _ _ _ E) as [B S]. by eapply push_quiet.
  - (* OEvictClone *)
    unfold stmt_evict_clone. repeat case_match; try (by apply frame_quiet).
    match goal with |- context [stmt_evict_with eps s sid ?c None] => destruct (stmt_evict_with eps s sid c None) as [s' r] eqn:E end.
    destruct (evict_frame _ _ _ _ _ _ E) as [B S]. by eapply push_quiet.
  - (* OUnPipeline *)
    apply with_task_quiet. intros p. apply frame_quiet, unallocate_frame.
  - (* ODiscard *)
    intros Hn. unfold stmt_discard. destruct (undo_fold_frame (rev (default [] (stmts s !! sid))) s) as [B S]. simpl.
    split; [done|]. eapply no_alloc_insert; [reflexivity|constructor|by eapply no_alloc_same].
  - (* OCommit *)
    intros Hn. unfold stmt_commit.
    destruct (commit_fold_frame (default [] (stmts s !! sid)) s (no_alloc_default s sid Ha Hn)) as [B S]. simpl.
    split; [done|]. eapply no_alloc_insert; [reflexivity|constructor|by eapply no_alloc_same].
  - (* OMerge *)
    intros Hn. unfold stmt_merge. case_bool_decide; [done|]. simpl. split; [done|].
    destruct Ha as [Ha1 Ha2]. intros sid' l' HS'. simpl.
    intros [[<- <-]|[_ [[<- <-]|[_ E]]%lookup_insert_Some]]%lookup_insert_Some.
    + constructor.
    + apply Forall_app. split; by apply no_alloc_default.
    + by eapply Hn.
  - (* OSsnPipeline *) apply frame_quiet, ssn_pipeline_frame.
  - (* OSsnEvict *) apply frame_quiet, ssn_evict_frame.
Qed.

Theorem evict_ops_no_bind ops : forall s,
  Forall evict_alphabet ops -> no_alloc_ops s ->
  binds (run eps s ops) = binds s /\ no_alloc_ops (run eps s ops).
Proof.
  induction ops as [|o ops IH]; intros s Hall Hn; [done|].
  apply Forall_cons in Hall as [Ho Hall]. unfold run. simpl.
  destruct (step_no_bind s o Ho Hn) as [B N]. destruct (IH _ Hall N) as [B' N']. unfold run in *.
  split; [congruence|done].
Qed.

End WithEps.
