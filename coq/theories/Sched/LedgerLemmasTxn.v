(* C07 proofs: transactions.  What the status update, unallocate and Statement.Allocate /
   Pipeline do to every field of the session when called with the canonical object or a clone
   (update_sk, unallocate_sk, place_sk); the binder / evictor logs move only in Commit,
   Session.Allocate and Session.Evict; a Session.Allocate / Pipeline that cannot place the task
   leaves no trace. *)
From stdpp Require Import gmap.
From Coq Require Import ZArith.
From V Require Import Base.Res Base.ResLemmas Sched.LedgerModel Sched.StmtModel Sched.GangModel
  Sched.LedgerInvP Sched.LedgerInv Sched.LedgerLemmasA Sched.LedgerLemmasJob Sched.LedgerLemmasNode
  Sched.LedgerLemmasSess Sched.LedgerLemmasSk.
Open Scope Z_scope.

(* the standing assumption on a session *)
Definition sess_ok (s : sess) : Prop := ledger_inv s /\ sess_wf s /\ saved_ok s.

(* the task is a member of its job, filed under its own sub-job (true of every task that came
   through AddTaskInfo) *)
Definition jmember (j : job) (p : task) : Prop :=
  t_id p ∈ j_tasks j /\ j_task_sub j !! t_id p = Some (t_sub p) /\ t_sub p ∈ dom (j_subs j).

Lemma jmember_view j j' p : jview j = jview j' -> jmember j p -> jmember j' p.
Proof. unfold jview, jmember. intros [= -> -> ->]. tauto. Qed.

Lemma jmember_static j p q : t_id q = t_id p -> t_sub q = t_sub p -> jmember j p -> jmember j q.
Proof. unfold jmember. intros -> ->. tauto. Qed.

(* delete + re-add of a member keeps the job's skeleton *)
Lemma jview_readd j stored q :
  t_id stored = t_id q -> jmember j q -> jview (job_add (job_del j stored) q) = jview j.
Proof.
  intros Hid (Hin & Hts & Hd). unfold jview, job_add, job_del. simpl. rewrite Hid, Hts.
  apply elem_of_dom in Hd as [sj Hsj]. rewrite Hsj.
  f_equal; [f_equal|].
  - apply set_eq. intros x. rewrite elem_of_union, elem_of_difference, elem_of_singleton.
    destruct (decide (x = t_id q)) as [->|]; tauto.
  - rewrite insert_delete_insert. apply insert_id. exact Hts.
  - rewrite !dom_insert_L. apply set_eq. intros x. rewrite !elem_of_union, !elem_of_singleton.
    split; [|tauto]. intros [->|[->|H]]; try assumption; apply elem_of_dom; eauto.
Qed.

(* UpdateTaskStatus of a member, with the stored object or a clone of it *)
Lemma job_update_member h j c stored st :
  h !! t_id c = Some stored -> t_id stored = t_id c -> jmember j c ->
  exists j', job_update h j c st = (j', set_status c st) /\ jview j' = jview j.
Proof.
  intros Hl Hid Hm. unfold job_update. rewrite bool_decide_eq_true_2 by exact (proj1 Hm). rewrite Hl.
  eexists. split; [reflexivity|]. apply jview_readd; [exact Hid|exact Hm].
Qed.

Definition jknown (s : sess) (p : task) : Prop :=
  match jobs s !! t_job p with Some j => jmember j p | None => True end.

(* the fields the status update does not touch *)
Definition others (s : sess) :=
  (nodes s, hshare s, hlog s, herr s, refuse_bind s, refuse_evict s, binds s, evicts s, stmts s, saved s, job_ready s).

Lemma jv_insert_same s k j j' :
  jobs s !! k = Some j -> jview j' = jview j -> jv (upd_jobs s (<[k := j']> (jobs s))) = jv s.
Proof.
  intros Hj Hv. unfold jv. simpl. rewrite fmap_insert, Hv. apply insert_id. rewrite lookup_fmap, Hj. reflexivity.
Qed.

Lemma update_sk s c stored st :
  jknown s c -> heap s !! t_id c = Some stored -> t_id stored = t_id c ->
  exists (f : bool) (s1 : sess), ssn_update_status s c st = (f, s1, if f then set_status c st else c) /\
    f = bool_decide (is_Some (jobs s !! t_job c)) /\
    heap s1 = <[t_id c := if f then set_status c st else stored]> (heap s) /\
    jv s1 = jv s /\ others s1 = others s.
Proof.
  intros Hjk Hl Hid. unfold ssn_update_status, jknown in *. destruct (jobs s !! t_job c) as [j|] eqn:Ej.
  - destruct (job_update_member (heap s) j c stored st Hl Hid Hjk) as (j' & -> & Hv).
    exists true. eexists. split; [reflexivity|]. split; [rewrite bool_decide_eq_true_2 by eauto; reflexivity|].
    split; [reflexivity|]. split; [apply (jv_insert_same s _ j j' Ej Hv)|reflexivity].
  - exists false, s. split; [reflexivity|]. split; [rewrite bool_decide_eq_false_2; [reflexivity|intros [? ?]; discriminate]|].
    split; [symmetry; apply insert_id; exact Hl|]. split; reflexivity.
Qed.

Lemma others_inv s s' : others s' = others s ->
  nodes s' = nodes s /\ hshare s' = hshare s /\ hlog s' = hlog s /\ herr s' = herr s /\
  refuse_bind s' = refuse_bind s /\ refuse_evict s' = refuse_evict s /\ binds s' = binds s /\
  evicts s' = evicts s /\ stmts s' = stmts s /\ saved s' = saved s /\ job_ready s' = job_ready s.
Proof. unfold others. intros [= -> -> -> -> -> -> -> -> -> -> ->]. repeat split. Qed.

Definition rm_node (nds : gmap positive node) (onid : option positive) (i : positive) : gmap positive node :=
  match onid with
  | Some nid => match nds !! nid with Some n => <[nid := node_remove n i]> nds | None => nds end
  | None => nds
  end.

(* unallocate / unPipeline on the canonical object: what it does to every field *)
Lemma unallocate_sk s p :
  jknown s p -> heap s !! t_id p = Some p ->
  let s' := unallocate_with s p in
  let f := bool_decide (is_Some (jobs s !! t_job p)) in
  heap s' = <[t_id p := set_node (if f then set_status p Pending else p) None]> (heap s) /\
  jv s' = jv s /\
  nodes s' = rm_node (nodes s) (t_node p) (t_id p) /\
  hshare s' = <[t_job p := sub (default empty_res (hshare s !! t_job p)) (t_req p)]> (hshare s) /\
  stmts s' = stmts s /\ binds s' = binds s /\ evicts s' = evicts s /\ saved s' = saved s.
Proof.
  intros Hjk Hl. unfold unallocate_with.
  destruct (update_sk s p p Pending Hjk Hl eq_refl) as (f & s1 & -> & Hf & Hh1 & Hjv1 & Ho1).
  rewrite <- Hf. apply others_inv in Ho1 as (Hn1 & Hs1 & Hl1 & _ & _ & _ & Hb1 & He1 & Hst1 & Hsv1 & _).
  set (p1 := if f then set_status p Pending else p).
  assert (Hp1 : t_node p1 = t_node p /\ t_id p1 = t_id p /\ t_job p1 = t_job p /\ t_req p1 = t_req p)
    by (unfold p1; destruct f; repeat split).
  destruct Hp1 as (Hnode1 & Hid1 & Hjob1 & Hreq1).
  unfold ssn_node_remove, rm_node. rewrite Hnode1, Hn1, Hid1.
  destruct (t_node p) as [nid|]; [destruct (nodes s !! nid) as [n|]|]; simpl;
    rewrite ?Hh1, ?Hid1, ?Hjob1, ?Hreq1, ?Hs1, ?insert_insert;
    (split; [reflexivity|]); (split; [exact Hjv1|]); repeat split; assumption.
Qed.

Lemma found_jv s s' k : jv s = jv s' ->
  bool_decide (is_Some (jobs s !! k)) = bool_decide (is_Some (jobs s' !! k)).
Proof.
  intros H. apply bool_decide_ext.
  pose proof (fmap_eq_lookup jview _ _ k H) as E.
  destruct (jobs s !! k), (jobs s' !! k); simpl in E; try discriminate; split; intros [? ?]; try discriminate; eauto.
Qed.

Lemma jknown_fields s s' p q :
  jobs s' = jobs s -> t_id q = t_id p -> t_job q = t_job p -> t_sub q = t_sub p -> jknown s p -> jknown s' q.
Proof.
  unfold jknown. intros -> Hi -> Hs. destruct (jobs s !! t_job p); [|auto]. apply jmember_static; assumption.
Qed.

Lemma jknown_jv s s' p : jv s = jv s' -> jknown s p -> jknown s' p.
Proof.
  intros H. unfold jknown.
  pose proof (fmap_eq_lookup jview _ _ (t_job p) H) as E.
  destruct (jobs s !! t_job p) as [j|], (jobs s' !! t_job p) as [j'|]; simpl in E; try discriminate; auto.
  apply jmember_view. congruence.
Qed.

Lemma share_same_refl sh : share_same sh sh.
Proof. intros k. apply res_eqv_refl. Qed.

Lemma sess_ok_place eps s sid k p nid :
  sess_ok s -> heap s !! t_id p = Some p -> sess_ok (fst (place_with eps s sid k p nid)).
Proof.
  intros (Hl & Hw & Hs) Hp. pose proof (good_init s Hl Hw Hs) as Hg.
  assert (Hpk : pok (table_of (heap s)) p) by (eapply good_heap_pok; eauto).
  pose proof (good_place eps _ s sid k p nid Hg Hpk) as Hg'.
  split; [exact (proj1 Hg')|]. split; [exact (proj1 (proj2 Hg'))|]. eapply good_saved_ok; eauto.
Qed.

Definition place_status (k : opkind) : status := match k with KAllocate => Allocated | _ => Pipelined end.

(* the object a placement of p on nid works with *)
Definition placed_obj (s : sess) (k : opkind) (p : task) (nid : positive) : task :=
  set_node (if bool_decide (is_Some (jobs s !! t_job p)) then set_status p (place_status k) else p) (Some nid).

(* [s4] is [s] after the "do" half of a placement of p on nid (status, node name, node ledger
   if the node took it, handler callback) *)
Definition placed_state eps (s : sess) (p p2 : task) (nid : positive) (s4 : sess) : Prop :=
  heap s4 = <[t_id p := p2]> (heap s) /\ jv s4 = jv s /\
  (nodes s4 = nodes s \/
   exists n n' q, nodes s !! nid = Some n /\ node_add eps n p2 = inl (n', q) /\ nodes s4 = <[nid := n']> (nodes s)) /\
  hshare s4 = <[t_job p := add (default empty_res (hshare s !! t_job p)) (t_req p)]> (hshare s).

(* Statement.Allocate / Pipeline on the canonical object, completely characterised *)
Lemma place_sk eps s sid k p nid :
  ledger_inv s -> jknown s p -> heap s !! t_id p = Some p ->
  let f := bool_decide (is_Some (jobs s !! t_job p)) in
  let p2 := placed_obj s k p nid in
  exists (ok b : bool) (s4 : sess), placed_state eps s p p2 nid s4 /\
    stmts s4 = stmts s /\ binds s4 = binds s /\ evicts s4 = evicts s /\ (saved s4 = saved s /\ refuse_bind s4 = refuse_bind s) /\
    b = bool_decide (t_id p ∈ herr s) /\
    place_with eps s sid k p nid =
      if f && ok && negb b then (push_op s4 sid k (t_id p) Pending, ROk) else (unallocate_with s4 p2, RErr).
Proof.
  intros (Hh & Hjobs & Hnodes) Hjk Hl. cbv zeta. unfold place_with, placed_obj. fold (place_status k).
  destruct (update_sk s p p (place_status k) Hjk Hl eq_refl) as (f & s1 & -> & Hf & Hh1 & Hjv1 & Ho1).
  rewrite <- Hf. apply others_inv in Ho1 as (Hn1 & Hs1 & Hl1 & He1 & Hrb1 & _ & Hb1 & Hev1 & Hst1 & Hsv1 & _).
  set (p1 := if f then set_status p (place_status k) else p).
  assert (Hp1 : t_id p1 = t_id p /\ t_job p1 = t_job p /\ t_req p1 = t_req p) by (unfold p1; destruct f; repeat split).
  destruct Hp1 as (Hid1 & Hjob1 & Hreq1).
  set (p2 := set_node p1 (Some nid)).
  cbv beta iota zeta. fold p2.
  assert (Hn2 : nodes (put_task s1 p2) = nodes s) by exact Hn1. rewrite Hn2.
  assert (Hh2 : heap (put_task s1 p2) = <[t_id p := p2]> (heap s)).
  { simpl. rewrite Hh1, Hid1, insert_insert. reflexivity. }
  assert (Hfail : exists s4, placed_state eps s p p2 nid s4 /\
            stmts s4 = stmts s /\ binds s4 = binds s /\ evicts s4 = evicts s /\ (saved s4 = saved s /\ refuse_bind s4 = refuse_bind s) /\
            (let '(herr_, s4') := h_alloc (put_task s1 p2) p2 in
             if f && false && negb herr_ then (push_op s4' sid k (t_id p) Pending, ROk) else (unallocate_with s4' p2, RErr)) =
            (unallocate_with s4 p2, RErr)).
  { eexists. split; [|split; [|split; [|split; [|split]]]]; cycle 5.
    - unfold h_alloc. rewrite andb_false_r. reflexivity.
    - split; [exact Hh2|]. split; [exact Hjv1|]. split; [left; exact Hn1|].
      simpl. rewrite Hs1, Hjob1, Hreq1. reflexivity.
    - exact Hst1. - exact Hb1. - exact Hev1. - split; [exact Hsv1|exact Hrb1]. }
  destruct (nodes s !! nid) as [n|] eqn:En.
  - destruct (node_add eps n p2) as [[n' q]|e] eqn:Ea.
    + destruct (node_add_spec _ _ _ _ _ Ea) as (Hq & _). destruct (Hnodes _ _ En) as [Hnid _].
      rewrite Hnid in Hq. change (set_node p2 (Some nid)) with p2 in Hq. subst q.
      exists true, (bool_decide (t_id p ∈ herr s)). eexists.
      split; [|split; [|split; [|split; [|split; [|split; [reflexivity|]]]]]]; cycle 5.
      * unfold h_alloc. simpl. rewrite He1, Hid1, andb_true_r. reflexivity.
      * split; [simpl; rewrite Hh1, Hid1, !insert_insert; reflexivity|]. split; [exact Hjv1|].
        split; [right; exists n, n', p2; split; [first [exact En|reflexivity]|]; split; [exact Ea|]; simpl; rewrite ?Hn1; reflexivity|].
        simpl. rewrite Hs1, Hjob1, Hreq1. reflexivity.
      * exact Hst1. * exact Hb1. * exact Hev1. * split; [exact Hsv1|exact Hrb1].
    + destruct Hfail as (s4 & H1 & H2 & H3 & H4 & H5 & H6).
      exists false, (bool_decide (t_id p ∈ herr s)), s4. rewrite andb_false_r. simpl.
      repeat (split; [assumption|]). split; [reflexivity|]. rewrite <- H6. unfold h_alloc. rewrite !andb_false_r. reflexivity.
  - destruct Hfail as (s4 & H1 & H2 & H3 & H4 & H5 & H6).
    exists false, (bool_decide (t_id p ∈ herr s)), s4. rewrite andb_false_r. simpl.
    repeat (split; [assumption|]). split; [reflexivity|]. rewrite <- H6. unfold h_alloc. rewrite !andb_false_r. reflexivity.
Qed.

(* the call sites' precondition of Allocate / Pipeline: a Pending task on no node (here: not on
   the target node), member of its job if the session knows the job *)
Definition placeable (s : sess) (p : task) (nid : positive) : Prop :=
  heap s !! t_id p = Some p /\ t_status p = Pending /\ t_node p = None /\ jknown s p /\
  (forall n, nodes s !! nid = Some n -> n_tasks n !! t_id p = None).

Lemma sess_ok_step eps s o : sess_ok s -> sess_ok (fst (step eps s o)).
Proof. intros (Hl & Hw & Hs). apply ledger_inv_step; assumption. Qed.

Lemma discard_single eps s sid o :
  default [] (stmts s !! sid) = [o] -> stmt_discard eps s sid = (let s' := undo_op eps s o in upd_stmts s' (<[sid := []]> (stmts s'))).
Proof. intros H. unfold stmt_discard. rewrite H. reflexivity. Qed.

Definition lg (s : sess) := (binds s, evicts s).
Definition rf (s : sess) := (refuse_bind s, refuse_evict s).
(* the binder / evictor logs and the refusal scripts: nothing below Commit, Session.Allocate,
   Session.Evict and the fault injection touches them *)
Definition cache (s : sess) := (lg s, rf s).

Lemma cache_lg s s' : cache s' = cache s -> lg s' = lg s.
Proof. intros H. exact (f_equal fst H). Qed.
Lemma cache_rf s s' : cache s' = cache s -> rf s' = rf s.
Proof. intros H. exact (f_equal snd H). Qed.

Lemma cache_update s p st f s' p' : ssn_update_status s p st = (f, s', p') -> cache s' = cache s.
Proof.
  unfold ssn_update_status. destruct (jobs s !! t_job p); [destruct (job_update _ _ _ _)|]; intros [= <- <- <-]; reflexivity.
Qed.

Lemma cache_node_update eps s p s' p' f : ssn_node_update eps s p = (s', p', f) -> cache s' = cache s.
Proof.
  unfold ssn_node_update. destruct (t_node p); [destruct (nodes s !! _); [destruct (node_update _ _ _) as [[? ?]|?]|]|];
    intros [= <- <- <-]; reflexivity.
Qed.

Lemma cache_node_remove s p : cache (ssn_node_remove s p) = cache s.
Proof. unfold ssn_node_remove. destruct (t_node p); [destruct (nodes s !! _)|]; reflexivity. Qed.

Lemma cache_unallocate s p : cache (unallocate_with s p) = cache s.
Proof.
  unfold unallocate_with. destruct (ssn_update_status s p Pending) as [[f s1] p1] eqn:E.
  apply cache_update in E. change (cache (ssn_node_remove s1 p1) = cache s). rewrite cache_node_remove. exact E.
Qed.

Lemma cache_unevict eps s p prev : cache (fst (unevict_with eps s p prev)) = cache s.
Proof.
  unfold unevict_with. destruct (ssn_update_status s p _) as [[f s1] p1] eqn:E. apply cache_update in E.
  destruct (ssn_node_update eps s1 p1) as [[s2 p2] ft] eqn:E2. apply cache_node_update in E2.
  simpl. change (cache s2 = cache s). congruence.
Qed.

Lemma cache_evict_with eps s sid p prev : cache (fst (stmt_evict_with eps s sid p prev)) = cache s.
Proof.
  unfold stmt_evict_with. destruct (ssn_update_status s p _) as [[f s1] p1] eqn:E. apply cache_update in E.
  destruct (ssn_node_update eps s1 p1) as [[s2 p2] ft] eqn:E2. apply cache_node_update in E2.
  simpl. change (cache s2 = cache s). congruence.
Qed.

Lemma cache_place eps s sid k p nid : cache (fst (place_with eps s sid k p nid)) = cache s.
Proof.
  unfold place_with. destruct (ssn_update_status s p _) as [[f s1] p1] eqn:E. apply cache_update in E.
  set (p2 := set_node p1 (Some nid)). set (s2 := put_task s1 p2).
  assert (H3 : forall s3 p3 ok,
     match nodes s2 !! nid with
     | Some n => match node_add eps n p2 with
                 | inl (n', p') => (put_task (upd_nodes s2 (<[nid := n']> (nodes s2))) p', p', true)
                 | inr _ => (s2, p2, false)
                 end
     | None => (s2, p2, false)
     end = (s3, p3, ok) -> cache s3 = cache s).
  { intros s3 p3 ok. destruct (nodes s2 !! nid); [destruct (node_add _ _ _) as [[? ?]|?]|]; intros [= <- <- <-]; exact E. }
  destruct (match nodes s2 !! nid with Some n => _ | None => _ end) as [[s3 p3] ok] eqn:E3.
  specialize (H3 _ _ _ eq_refl). unfold h_alloc. cbv beta iota zeta.
  destruct (f && ok && negb _); simpl; [exact H3|]. rewrite cache_unallocate. exact H3.
Qed.

Lemma cache_undo eps s o : cache (undo_op eps s o) = cache s.
Proof.
  unfold undo_op. destruct (heap s !! op_task o); [|reflexivity].
  destruct (op_kind o); [apply cache_unevict|apply cache_unallocate|apply cache_unallocate].
Qed.

(* Session.Allocate / Pipeline leaves the cache alone up to the dispatch loop, which only
   Session.Allocate of a task of a known, ready job reaches *)
Lemma ssn_place_cache eps jr s k tid nid :
  let r := ssn_place_with eps jr s k tid nid in
  cache (fst r) = cache s \/
  k = KAllocate /\ exists p j s4, heap s !! tid = Some p /\ jobs s !! t_job p = Some j /\ cache s4 = cache s /\
    fst r = fst (dispatch_all s4 (elements (idx_set (j_index (fst (job_update (heap s) j p Allocated))) Allocated))).
Proof.
  cbv zeta. unfold ssn_place_with. destruct (heap s !! tid) as [p|] eqn:Eh; [|left; reflexivity].
  destruct (ssn_update_status s p _) as [[f s1] p1] eqn:E1.
  destruct f; cbn [negb]; [|left; reflexivity].
  unfold ssn_update_status in E1. destruct (jobs s !! t_job p) as [j|] eqn:Ej; [|discriminate E1].
  destruct (job_update (heap s) j p _) as [j1 q1] eqn:Eju. injection E1 as <- <-.
  set (p2 := set_node q1 (Some nid)). set (s2 := put_task _ p2).
  assert (Hrev : cache (let '(_, sr, pr) := ssn_update_status s2 p2 Pending in put_task sr (set_node pr None)) = cache s).
  { destruct (ssn_update_status s2 p2 Pending) as [[fr sr] pr] eqn:Er. apply cache_update in Er. exact Er. }
  destruct (nodes s2 !! nid) as [n|]; [|left; exact Hrev].
  destruct (node_add eps n p2) as [[n' p3]|e]; [|left; exact Hrev].
  unfold h_alloc. cbv beta iota zeta.
  match goal with |- context [upd_handlers ?a ?b ?c] => set (s4 := upd_handlers a b c) end.
  destruct k; try (left; reflexivity).
  change (jobs s4) with (<[t_job p := j1]> (jobs s)). rewrite lookup_insert.
  destruct (jr s4 j1); [|left; reflexivity].
  right. split; [reflexivity|]. exists p, j, s4. split; [reflexivity|]. split; [exact Ej|]. split; [reflexivity|].
  simpl in Eju. rewrite Eju. cbn [fst]. unfold idx_set. destruct (dispatch_all s4 _) as [s5 ok]. reflexivity.
Qed.

Definition touches_cache (o : op) : bool :=
  match o with OCommit _ | OSsnAllocate _ _ | OSsnEvict _ => true | _ => false end.

Theorem undecided_invisible eps s o :
  touches_cache o = false ->
  binds (fst (step eps s o)) = binds s /\ evicts (fst (step eps s o)) = evicts s.
Proof.
  intros Ht. assert (H : lg (fst (step eps s o)) = lg s); [|unfold lg in H; inversion H; auto].
  destruct o; try discriminate; simpl.
  - unfold stmt_allocate, with_task. destruct (heap s !! tid); [apply cache_lg, cache_place|reflexivity].
  - unfold stmt_pipeline, with_task. destruct (heap s !! tid); [apply cache_lg, cache_place|reflexivity].
  - unfold stmt_evict, with_task. destruct (heap s !! tid); [apply cache_lg, cache_evict_with|reflexivity].
  - unfold stmt_evict_clone. destruct (heap s !! tid) as [p|]; [|reflexivity].
    destruct (t_node p); [|reflexivity]. destruct (nodes s !! _) as [n|]; [|reflexivity].
    destruct (n_tasks n !! tid); [apply cache_lg, cache_evict_with|reflexivity].
  - unfold stmt_unpipeline, with_task. destruct (heap s !! tid); [apply cache_lg, cache_unallocate|reflexivity].
  - unfold stmt_discard. change (lg (fold_left (undo_op eps) (rev (default [] (stmts s !! sid))) s) = lg s).
    apply cache_lg, (fold_left_inv (fun s' => cache s' = cache s)); [|reflexivity]. intros s' o H. rewrite cache_undo. exact H.
  - unfold stmt_merge. case_bool_decide; reflexivity.
  - reflexivity.
  - unfold stmt_recover. destruct (recover_ops eps s sid _) as [s1 r] eqn:E. simpl.
    change (lg s1 = lg s). change s1 with (fst (s1, r)). rewrite <- E. apply cache_lg.
    apply (recover_ops_inv (fun s' => cache s' = cache s) (fun _ => True)); [| |reflexivity|apply Forall_true; exact (fun _ => I)].
    + intros s' p prev H _. rewrite cache_evict_with. exact H.
    + intros s' k p nid H _. rewrite cache_place. exact H.
  - destruct (ssn_place_cache eps (fun s _ => job_ready s) s KPipeline tid nid) as [H|[H _]]; [exact (cache_lg _ _ H)|discriminate H].
  - reflexivity.
  - reflexivity.
  - reflexivity.
Qed.

Lemma sess_eqv_refl s : sess_eqv s s.
Proof.
  split; [|split; [|split]].
  - intros i. destruct (heap s !! i); constructor. repeat split.
  - intros i. destruct (jobs s !! i) as [j|]; constructor.
    split; [reflexivity|]. split; [reflexivity|]. split; [apply res_eqv_refl|]. split; [apply res_eqv_refl|].
    split; [reflexivity|]. intros k. destruct (j_subs j !! k); constructor. split; reflexivity.
  - intros i. destruct (nodes s !! i) as [n|]; constructor.
    repeat (split; [apply res_eqv_refl|]). intros k. destruct (n_tasks n !! k); constructor. repeat split.
  - apply share_same_refl.
Qed.

Theorem failed_ssn_place_no_trace_cause eps jr s k p nid :
  sess_ok s -> heap s !! t_id p = Some p -> t_status p = Pending -> t_node p = None -> jknown s p ->
  (jobs s !! t_job p = None \/ nodes s !! nid = None \/
   exists n e, nodes s !! nid = Some n /\ node_add eps n (placed_obj s k p nid) = inr e) ->
  let r := ssn_place_with eps jr s k (t_id p) nid in
  snd r = RErr /\ sess_eqv s (fst r) /\ binds (fst r) = binds s /\ evicts (fst r) = evicts s /\
  stmts (fst r) = stmts s /\ hlog (fst r) = hlog s.
Proof.
  intros Hok Hl Hst Hnd Hjk Hcause. cbv zeta.
  assert (Hinv' : ledger_inv (fst (ssn_place_with eps jr s k (t_id p) nid))).
  { destruct Hok as (Hl0 & Hw & Hs). exact (proj1 (good_ssn_place eps _ jr s k (t_id p) nid (good_init s Hl0 Hw Hs))). }
  revert Hinv'. unfold ssn_place_with. rewrite Hl. fold (place_status k).
  destruct (update_sk s p p (place_status k) Hjk Hl eq_refl) as (f & s1 & -> & Hf & Hh1 & Hjv1 & Ho1).
  destruct f; cbn [negb]; [|intros _; repeat split; apply sess_eqv_refl].
  apply others_inv in Ho1 as (Hn1 & Hs1 & Hl1 & He1 & Hrb1 & _ & Hb1 & Hev1 & Hst1 & Hsv1 & _).
  assert (Hfound : bool_decide (is_Some (jobs s !! t_job p)) = true) by (symmetry; exact Hf).
  set (p2 := set_node (set_status p (place_status k)) (Some nid)).
  assert (Hp2 : placed_obj s k p nid = p2) by (unfold placed_obj; rewrite Hfound; reflexivity).
  set (s2 := put_task s1 p2).
  assert (Hl2 : heap s2 !! t_id p2 = Some p2) by (simpl; apply lookup_insert).
  assert (Hjk2 : jknown s2 p2) by (apply (jknown_fields s1 s2 p p2); auto; apply (jknown_jv s s1); auto).
  destruct (update_sk s2 p2 p2 Pending Hjk2 Hl2 eq_refl) as (f' & sr & Er & Hf' & Hhr & Hjvr & Hor).
  apply others_inv in Hor as (Hnr & Hsr & Hlr & _ & _ & _ & Hbr & Hevr & Hstr & _ & _).
  assert (Hf'' : f' = true).
  { rewrite Hf'. change (jobs s2) with (jobs s1). rewrite <- (found_jv s s1 _ (eq_sym Hjv1)). exact Hfound. }
  clear Hf'. subst f'.
  assert (Hnode : nodes s2 !! nid = None \/ exists n e, nodes s2 !! nid = Some n /\ node_add eps n p2 = inr e).
  { change (nodes s2) with (nodes s1). rewrite Hn1, <- Hp2.
    destruct Hcause as [Hc|[Hc|Hc]]; [|left; exact Hc|right; exact Hc].
    exfalso. rewrite Hc in Hfound. rewrite bool_decide_eq_false_2 in Hfound; [discriminate|]. intros [? ?]; discriminate. }
  assert (Hres : match nodes s2 !! nid with
                 | Some n => match node_add eps n p2 with inl _ => False | inr _ => True end
                 | None => True end).
  { destruct Hnode as [->|(n & e & -> & ->)]; exact I. }
  set (srev := put_task sr (set_node (set_status p2 Pending) None)).
  assert (Hgoal : ledger_inv srev -> sess_eqv s srev /\ binds srev = binds s /\ evicts srev = evicts s /\
                  stmts srev = stmts s /\ hlog srev = hlog s).
  { assert (Hb2 : binds sr = binds s) by (rewrite Hbr; exact Hb1).
    assert (Hev2 : evicts sr = evicts s) by (rewrite Hevr; exact Hev1).
    assert (Hst2 : stmts sr = stmts s) by (rewrite Hstr; exact Hst1).
    assert (Hlg2 : hlog sr = hlog s) by (rewrite Hlr; exact Hl1).
    intros Hinv. split; [|unfold srev; simpl; repeat split; assumption].
    apply sk_sess_eqv; [exact (proj1 Hok)|exact Hinv| | | |].
    - unfold hv, srev. simpl. rewrite Hhr. simpl. rewrite Hh1, !insert_insert, fmap_insert.
      symmetry. apply insert_id. rewrite lookup_fmap, Hl. simpl. unfold hview. simpl. rewrite Hst, Hnd. reflexivity.
    - unfold srev. change (jv s = jv sr). rewrite Hjvr. change (jv s = jv s1). congruence.
    - unfold nv, srev. simpl. rewrite Hnr. simpl. rewrite Hn1. reflexivity.
    - unfold srev. simpl. rewrite Hsr. simpl. rewrite Hs1. apply share_same_refl. }
  fold p2. fold s2. rewrite Er.
  destruct (nodes s2 !! nid) as [n|]; [destruct (node_add eps n p2) as [[? ?]|e]; [contradiction|]|];
    simpl; intros Hinv; (split; [reflexivity|]); apply Hgoal; exact Hinv.
Qed.

Definition nv4 (n : node) := if n_has_node n then None else Some (n_idle n, n_used n, n_releasing n, n_pipelined n).

Lemma nv4_remove n i : nv4 (node_remove n i) = nv4 n.
Proof.
  unfold node_remove, nv4. destruct (n_tasks n !! i) as [c|]; [|reflexivity].
  destruct (n_has_node n) eqn:Hn; simpl; [destruct (t_status c); simpl; rewrite Hn; reflexivity|rewrite Hn; reflexivity].
Qed.

Lemma nv4_add eps n p n' q : node_add eps n p = inl (n', q) -> nv4 n' = nv4 n.
Proof.
  unfold node_add, nv4. cbv zeta. case_bool_decide; [discriminate|]. case_bool_decide; [discriminate|].
  destruct (n_has_node n) eqn:Hn; simpl.
  - destruct (t_status p); try (intros [= <- _]; simpl; rewrite Hn; reflexivity).
    destruct (less_equal_names _ _ _ _); [|discriminate]. intros [= <- _]; simpl; rewrite Hn; reflexivity.
  - intros [= <- _]; simpl; rewrite Hn; reflexivity.
Qed.

Lemma set_node_id p x : t_node p = x -> set_node p x = p.
Proof. destruct p; simpl; intros ->; reflexivity. Qed.

Lemma node_update_ok eps n p :
  t_node p = Some (n_id n) -> t_status p <> Binding ->
  exists n', node_update eps n p = inl (n', p) /\ n_id n' = n_id n /\
    nview n' = (n_has_node n, n_alloc n, <[t_id p := hview p]> (hview <$> n_tasks n), nv4 n).
Proof.
  intros Hnode Hst. destruct (node_remove_fields n (t_id p)) as (Hid & Hhas & Hal & Hts).
  assert (Hex : exists n' q, node_update eps n p = inl (n', q)).
  { unfold node_update, node_add. cbv zeta. rewrite Hid, Hts, lookup_delete.
    rewrite bool_decide_eq_false_2 by (intros [_ H]; apply H; exact Hnode).
    rewrite bool_decide_eq_false_2 by (intros [? ?]; discriminate).
    destruct (negb _); [eauto|]. destruct (t_status p); eauto. contradiction. }
  destruct Hex as (n' & q & Hu). pose proof Hu as Hu'. unfold node_update in Hu'.
  destruct (node_add_spec _ _ _ _ _ Hu') as (Hq & _ & Ht' & Hid' & Hhas' & Hal' & _).
  rewrite Hid in Hq. rewrite (set_node_id p _ Hnode) in Hq. subst q.
  exists n'. split; [exact Hu|]. split; [congruence|].
  change (nview n') with (n_has_node n', n_alloc n', hview <$> n_tasks n', nv4 n').
  rewrite Hhas', Hal', Ht', Hhas, Hal, Hts, Hid, (set_node_id p _ Hnode), (nv4_add _ _ _ _ _ Hu'), nv4_remove.
  rewrite fmap_insert, fmap_delete, insert_delete_insert. reflexivity.
Qed.

Lemma node_update_tasks eps n p n' q :
  node_update eps n p = inl (n', q) -> forall j, j <> t_id p -> n_tasks n' !! j = n_tasks n !! j.
Proof.
  unfold node_update. intros H j Hj. destruct (node_add_spec _ _ _ _ _ H) as (_ & _ & Ht & _).
  destruct (node_remove_fields n (t_id p)) as (_ & _ & _ & Hr).
  rewrite Ht, lookup_insert_ne, Hr, lookup_delete_ne by congruence. reflexivity.
Qed.

Lemma ssn_node_update_ok eps s p nid n :
  t_node p = Some nid -> nodes s !! nid = Some n -> n_id n = nid -> t_status p <> Binding ->
  exists n', ssn_node_update eps s p = (put_task (upd_nodes s (<[nid := n']> (nodes s))) p, p, false) /\
    n_id n' = nid /\
    nview n' = (n_has_node n, n_alloc n, <[t_id p := hview p]> (hview <$> n_tasks n), nv4 n) /\
    (forall j, j <> t_id p -> n_tasks n' !! j = n_tasks n !! j).
Proof.
  intros Hnode Hn Hid Hst. rewrite <- Hid in Hnode.
  destruct (node_update_ok eps n p Hnode Hst) as (n' & Hu & Hid' & Hv).
  exists n'. unfold ssn_node_update. rewrite Hnode, Hid, Hn, Hu. split; [reflexivity|]. split; [congruence|].
  split; [exact Hv|]. eapply node_update_tasks; eauto.
Qed.

(* the call sites' precondition of Evict: a Running or Bound task on its node (the node's copy in
   step with the task), whose request the handler's share covers *)
Definition evictable (s : sess) (p : task) (nid : positive) : Prop :=
  heap s !! t_id p = Some p /\ (t_status p = Running \/ t_status p = Bound) /\ t_node p = Some nid /\
  jknown s p /\
  (exists n c, nodes s !! nid = Some n /\ n_tasks n !! t_id p = Some c /\ hview c = hview p) /\
  covers (default empty_res (hshare s !! t_job p)) (t_req p).

Lemma job_update_index h j p st :
  h !! t_id p = Some p -> t_id p ∈ j_tasks j ->
  j_index (fst (job_update h j p st)) = idx_add (idx_del (j_index j) (t_status p) (t_id p)) st (t_id p).
Proof.
  intros Hl Hin. unfold job_update. rewrite bool_decide_eq_true_2 by exact Hin. rewrite Hl. reflexivity.
Qed.

