(* C03: what "a task requests a dimension" means, the bound the queue plugins'
   AllocatableFn gives (queue_allocatable_bound), and the per-queue sum view of the handler
   ledger ([share_of] as a sum over the per-job ledgers of the queue's jobs). *)
From stdpp Require Import gmap.
From Coq Require Import ZArith Lia.
From V Require Import Base.Res Base.ResLemmas Sched.LedgerModel Sched.StmtModel Sched.GangModel
                      Sched.CycleModel Sched.LedgerInvP Sched.LedgerLemmasA.
Open Scope Z_scope.

(* the dimensions the *WithDimension comparisons look at: cpu / memory with a positive request,
   scalars with a positive request other than "pods" *)
Definition requested (r : res) (d : dim) : Prop :=
  match d with
  | DCpu => 0 < cpu r
  | DMem => 0 < mem r
  | DSc k => k <> pods_name /\ 0 < sget r k
  end.

Lemma requested_amt r d : requested r d <-> d <> DSc pods_name /\ 0 < amt r d.
Proof.
  destruct d as [| |k]; simpl; [split; [split; [discriminate|assumption]|tauto]..|].
  split; intros [Hk Hq]; (split; [congruence|exact Hq]).
Qed.

(* ---------- amt through add / sub ---------- *)

Lemma amt_empty d : amt empty_res d = 0.
Proof. destruct d; reflexivity. Qed.

Lemma amt_sub_exact a b d : (d = DCpu \/ d = DMem \/ sc a <> None) -> amt (sub a b) d = amt a d - amt b d.
Proof.
  destruct d; simpl; intros H; try reflexivity.
  destruct H as [H|[H|H]]; try discriminate. apply sub_sget. exact H.
Qed.

(* the nil-map exception of Resource.sub: scalars of the subtrahend are dropped *)
Lemma amt_sub_nil a b k : sc a = None -> amt (sub a b) (DSc k) = 0 /\ amt a (DSc k) = 0.
Proof.
  intros H. simpl. unfold sget, scm. rewrite (sub_nil_drops_scalars a b H), H. simpl.
  rewrite lookup_empty. split; reflexivity.
Qed.

Lemma amt_sub_bounds a b d : 0 <= amt b d -> amt a d - amt b d <= amt (sub a b) d <= amt a d.
Proof.
  intros Hb. destruct (sc a) as [m|] eqn:Hm.
  - rewrite amt_sub_exact by (right; right; congruence). lia.
  - destruct d.
    + rewrite amt_sub_exact by auto. lia.
    + rewrite amt_sub_exact by auto. lia.
    + destruct (amt_sub_nil a b k Hm) as [-> ->]. lia.
Qed.

(* ---------- queue_allocatable_bound ---------- *)

(* r.LessEqualWithDimension(rr, req): in every requested dimension r is within rr -- cpu and memory
   always, scalars when r has a scalar map (with a nil map on r the comparison skips them) *)
Lemma le_dim_bound r rr req :
  le_dim r rr req = true -> (sc r = None -> forall k, sget req k = 0) ->
  forall d, requested req d -> amt r d <= amt rr d.
Proof.
  unfold le_dim, names_none, le_dim_names. intros H Hnil d Hd.
  (* cpu and memory read alike in both cases; only a scalar map says anything about scalars *)
  destruct (sc r) as [m|] eqn:Hm;
    rewrite !andb_true_iff, !negb_true_iff, !andb_false_iff, !bool_decide_eq_false, ?bool_decide_eq_true in H;
    destruct H as [[Hc Hmm] Hk];
    (destruct d as [| |k]; simpl in *; [destruct Hc; lia|destruct Hmm; lia|destruct Hd as [Hkp Hq]]).
  2: { rewrite (Hnil eq_refl k) in Hq. lia. }
  rewrite keys_where_nil in Hk.
  destruct (scm req !! k) as [q|] eqn:E; [|rewrite (sget_none _ _ E) in Hq; lia].
  rewrite (sget_lookup _ _ _ E) in Hq.
  specialize (Hk k q E). unfold req_sel, ignored in Hk.
  rewrite !andb_false_iff, negb_false_iff, !bool_decide_eq_false, bool_decide_eq_true in Hk.
  destruct Hk as [[Hk|Hk]|Hk]; [contradiction|lia|lia].
Qed.

(* when the sum has no scalar map the request has no scalars at all *)
Lemma add_sc_none a x : sc (add a x) = None -> forall k, sget x k = 0.
Proof.
  unfold add. simpl. case_bool_decide as He; [|discriminate]. intros _ k.
  unfold sget. rewrite He, lookup_empty. reflexivity.
Qed.

Lemma le_dim_add_bound base req c :
  le_dim (add base req) c req = true ->
  forall d, requested req d -> amt base d + amt req d <= amt c d.
Proof. intros Hle d Hd. rewrite <- amt_add. exact (le_dim_bound _ _ _ Hle (add_sc_none _ _) d Hd). Qed.

Theorem queue_allocatable_bound (w : world) (allocated : res) (q : qattr) (t : task) :
  q_has_plugin q = true ->
  queue_allocatable w allocated q t = true ->
  q_open q = true /\
  forall d, requested (t_req t) d -> amt allocated d + amt (t_req t) d <= amt (q_limit q) d.
Proof.
  intros Hp. unfold queue_allocatable. rewrite Hp. simpl. rewrite andb_true_iff. intros [Ho Hle].
  split; [exact Ho|apply le_dim_add_bound, Hle].
Qed.

(* the answer when no queue plugin is configured: no constraint *)
Lemma queue_allocatable_no_plugin w a q t : q_has_plugin q = false -> queue_allocatable w a q t = true.
Proof. intros H. unfold queue_allocatable. rewrite H. reflexivity. Qed.

(* ---------- sums ---------- *)

Definition zsum {A} (g : A -> Z) (l : list A) : Z := foldr (fun x acc => g x + acc) 0 l.

Lemma zsum_app {A} (g : A -> Z) l1 l2 : zsum g (l1 ++ l2) = zsum g l1 + zsum g l2.
Proof. induction l1 as [|x l IH]; simpl; [reflexivity|rewrite IH; lia]. Qed.

Lemma zsum_perm {A} (g : A -> Z) l1 l2 : l1 ≡ₚ l2 -> zsum g l1 = zsum g l2.
Proof. induction 1; simpl; lia. Qed.

Lemma zsum_ext {A} (g h : A -> Z) l : (forall x, g x = h x) -> zsum g l = zsum h l.
Proof. intros E. induction l as [|x l IH]; simpl; [reflexivity|rewrite E, IH; reflexivity]. Qed.

Lemma zsum_map_insert {A} (g : positive * A -> Z) (m : gmap positive A) i x :
  zsum g (map_to_list (<[i:=x]> m)) =
  zsum g (map_to_list m) + g (i, x) - match m !! i with Some y => g (i, y) | None => 0 end.
Proof.
  destruct (m !! i) as [y|] eqn:E.
  - rewrite <- (insert_delete_insert m i x).
    rewrite (zsum_perm _ _ _ (map_to_list_insert (delete i m) i x (lookup_delete m i))).
    rewrite <- (zsum_perm _ _ _ (map_to_list_delete m i y E)). simpl. lia.
  - rewrite (zsum_perm _ _ _ (map_to_list_insert m i x E)). simpl.
    rewrite Z.sub_0_r. apply Z.add_comm.
Qed.

Lemma sum_amt_zsum f l : sum_amt f l = zsum f l.
Proof. reflexivity. Qed.

(* the queue of a job id *)
Definition jq (s : sess) (jid : positive) : option positive := j_queue <$> (jobs s !! jid).

(* what one per-job ledger entry counts for queue q in dimension d *)
Definition mterm (f : positive -> option positive) (q : positive) (d : dim) (kv : positive * res) : Z :=
  if bool_decide (f (fst kv) = Some q) then amt (snd kv) d else 0.
(* sum of the per-job ledgers [m] of the jobs that [f] maps to queue q, in dimension d *)
Definition msum (f : positive -> option positive) (m : gmap positive res) (q : positive) (d : dim) : Z :=
  zsum (mterm f q d) (map_to_list m).

Lemma msum_ext f g m q d : (forall i, f i = g i) -> msum f m q d = msum g m q d.
Proof. intros E. unfold msum. apply zsum_ext. intros [i r]. unfold mterm. simpl. rewrite E. reflexivity. Qed.

Lemma msum_insert f m i x q d :
  msum f (<[i:=x]> m) q d =
  msum f m q d + (if bool_decide (f i = Some q) then amt x d - amt (default empty_res (m !! i)) d else 0).
Proof.
  unfold msum. rewrite zsum_map_insert. unfold mterm. simpl.
  destruct (m !! i); simpl; rewrite ?amt_empty; destruct (bool_decide (f i = Some q)); lia.
Qed.

Lemma jq_decide s i q :
  bool_decide (jq s i = Some q) = match jobs s !! i with Some j => bool_decide (j_queue j = q) | None => false end.
Proof.
  unfold jq. destruct (jobs s !! i) as [j|]; simpl.
  - apply bool_decide_ext. split; congruence.
  - reflexivity.
Qed.

Lemma share_of_amt s q d : amt (share_of s q) d = msum (jq s) (hshare s) q d.
Proof.
  unfold share_of, map_fold, msum. simpl.
  induction (map_to_list (hshare s)) as [|[i r] l IH]; simpl.
  - apply amt_empty.
  - unfold mterm at 1. simpl. rewrite jq_decide. destruct (jobs s !! i) as [j|]; simpl.
    + destruct (bool_decide (j_queue j = q)); [rewrite amt_add, IH; lia|rewrite IH; lia].
    + rewrite IH. lia.
Qed.
