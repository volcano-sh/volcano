(* C01, sub-groups: the gang plugin's JobReady / JobPipelined of a job WITH sub-group policies in
   the property's wording: the policy-less conclusions (minMember, role minimums) and, for every
   policy with MinSubGroups <> 0, at least that many of its sub-groups have at least SubGroupSize
   tasks occupying a slot (counted over the sub-group's task list, not its index). *)
From stdpp Require Import gmap.
From Coq Require Import ZArith.
From V Require Import Base.Res Sched.LedgerModel Sched.StmtModel Sched.GangModel Sched.LedgerInvP
                      Sched.GangLemmas Sched.GangValid Sched.SubGroupModel.
Open Scope Z_scope.

(* a sub-group is complete w.r.t. a notion p of "occupies a slot" *)
Definition sub_complete (p : task -> bool) (h : gmap positive task) (sj : subjob) : bool :=
  sj_min sj <=? count_tasks p (tasks_in h (sj_tasks sj)).

Definition subs_idx_ok (h : gmap positive task) (j : job) : Prop :=
  forall sid sj, j_subs j !! sid = Some sj -> idx_ok h (sj_tasks sj) (sj_index sj).

Lemma sub_inv_subs_idx_ok h j : job_inv h j -> subs_idx_ok h j.
Proof.
  intros (_ & _ & _ & _ & (_ & _ & Hsubs)) sid sj E. destruct (Hsubs sid sj E) as [_ Hix].
  by apply index_ok_idx_ok.
Qed.

Lemma subs_with_ext sg g (c1 c2 : subjob -> bool) :
  (forall sid sj, j_subs (sg_job sg) !! sid = Some sj -> c1 sj = c2 sj) -> subs_with sg g c1 = subs_with sg g c2.
Proof.
  intros H. unfold subs_with. f_equal. f_equal. apply List.filter_ext_in. intros [sid sj] Hin.
  apply elem_of_list_In, elem_of_map_to_list in Hin. simpl. by rewrite (H sid sj Hin).
Qed.

Lemma subs_with_ext_all sg (c1 c2 : subjob -> bool) :
  (forall sid sj, j_subs (sg_job sg) !! sid = Some sj -> c1 sj = c2 sj) ->
  (forall g m, sg_min_subs sg !! g = Some m -> m <> 0 -> m <= subs_with sg g c1) <->
  (forall g m, sg_min_subs sg !! g = Some m -> m <> 0 -> m <= subs_with sg g c2).
Proof.
  intros H. split; intros H' g m E Hm; specialize (H' g m E Hm);
    [rewrite <- (subs_with_ext sg g c1 c2 H)|rewrite (subs_with_ext sg g c1 c2 H)]; done.
Qed.

Lemma sub_ready_complete h sj : idx_ok h (sj_tasks sj) (sj_index sj) ->
  sub_ready h sj = sub_complete session_ready h sj.
Proof.
  intros Hix. unfold sub_ready, sub_complete. apply eq_true_iff_eq.
  rewrite (is_ready_spec h (sj_tasks sj)) by done. by rewrite Z.leb_le.
Qed.
Lemma sub_pipelined_complete h sj : idx_ok h (sj_tasks sj) (sj_index sj) ->
  sub_pipelined h sj = sub_complete session_pipelined h sj.
Proof.
  intros Hix. unfold sub_pipelined, sub_complete. apply eq_true_iff_eq.
  rewrite (is_pipelined_spec h (sj_tasks sj)) by done. by rewrite Z.leb_le.
Qed.

(* the sub-group clause: for every policy that requires sub-groups, enough of them are complete *)
Definition sub_groups_cond (p : task -> bool) (h : gmap positive task) (sg : sgjob) : Prop :=
  forall g m, sg_min_subs sg !! g = Some m -> m <> 0 -> m <= subs_with sg g (sub_complete p h).

Lemma check_sub_cond_spec sg (c : subjob -> bool) :
  check_sub_cond sg c = true <-> forall g m, sg_min_subs sg !! g = Some m -> m <> 0 -> m <= subs_with sg g c.
Proof.
  unfold check_sub_cond. rewrite forallb_forall. split.
  - intros H g m E Hm. apply elem_of_map_to_list, elem_of_list_In in E. specialize (H _ E). simpl in H.
    apply orb_true_iff in H as [H%Z.eqb_eq|H%Z.leb_le]; [done|done].
  - intros H [g m] Hin. apply elem_of_list_In, elem_of_map_to_list in Hin. simpl.
    destruct (Z.eqb_spec m 0) as [->|Hm]; [done|]. simpl. apply Z.leb_le. by apply H.
Qed.

Theorem gang_ready_sub_spec_idx h sg :
  idx_ok h (j_tasks (sg_job sg)) (j_index (sg_job sg)) -> subs_idx_ok h (sg_job sg) ->
  (gang_job_ready_sub h sg = true <-> gang_cond session_ready h (sg_job sg) /\ sub_groups_cond session_ready h sg) /\
  (gang_job_pipelined_sub h sg = true <-> gang_cond session_pipelined h (sg_job sg) /\ sub_groups_cond session_pipelined h sg).
Proof.
  intros Hix Hsubs. destruct (gang_ready_spec_idx h (sg_job sg) Hix) as [Hr Hp].
  unfold gang_job_ready_sub, gang_job_pipelined_sub, sub_groups_cond.
  unfold gang_job_ready, gang_job_pipelined in Hr, Hp.
  rewrite !andb_true_iff, !check_sub_cond_spec.
  rewrite (subs_with_ext_all sg (sub_ready h) (sub_complete session_ready h)),
          (subs_with_ext_all sg (sub_pipelined h) (sub_complete session_pipelined h)).
  - rewrite andb_true_iff in Hr, Hp. tauto.
  - intros sid sj E. apply sub_pipelined_complete. by eapply Hsubs.
  - intros sid sj E. apply sub_ready_complete. by eapply Hsubs.
Qed.

Theorem gang_ready_sub_spec h sg : job_inv h (sg_job sg) ->
  (gang_job_ready_sub h sg = true <-> gang_cond session_ready h (sg_job sg) /\ sub_groups_cond session_ready h sg) /\
  (gang_job_pipelined_sub h sg = true <-> gang_cond session_pipelined h (sg_job sg) /\ sub_groups_cond session_pipelined h sg).
Proof.
  intros Hj. apply gang_ready_sub_spec_idx; [by apply job_inv_idx_ok|by apply sub_inv_subs_idx_ok].
Qed.

(* one policy, SubGroupSize 2, MinSubGroups 2, minMember 3; group 1 = {t1, t2}, group 2 = {t3, t4} *)
Definition ex_sg (st4 : status) : gmap positive task * sgjob :=
  build_sg 1 3 [] [mkPol (Some 2) (Some 2)]
    [mkSgTask 1 1 false Allocated 1 1; mkSgTask 2 1 false Running 1 1;
     mkSgTask 3 1 false Allocated 1 2; mkSgTask 4 1 false st4 1 2].

(* three occupied slots reach minMember 3, but group 2 has one: without the sub-group conjunct the
   job would be ready *)
Example ex_sg_incomplete :
  let '(h, sg) := ex_sg Pending in
  gang_job_ready h (sg_job sg) = true /\ gang_job_ready_sub h sg = false /\
  subs_with sg 1 (sub_ready h) = 1 /\ gang_job_valid_sub h sg = 0.
Proof. vm_compute. repeat split. Qed.

Example ex_sg_complete :
  let '(h, sg) := ex_sg Allocated in
  gang_job_ready_sub h sg = true /\ subs_with sg 1 (sub_ready h) = 2.
Proof. vm_compute. repeat split. Qed.

(* pipelined only: group 2 completes only with a Pipelined task *)
Example ex_sg_pipelined :
  let '(h, sg) := ex_sg Pipelined in
  gang_job_ready_sub h sg = false /\ gang_job_pipelined_sub h sg = true.
Proof. vm_compute. repeat split. Qed.
