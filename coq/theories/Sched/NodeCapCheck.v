(* Property C02: an executable form of the hypotheses of cycle_no_overcommit (sound, not
   complete: it asks Resreq = InitResreq, which is what NewTaskInfo produces for a pod without
   init containers), used (a) as law 113 on every generated cycle -- "the theorem applies to
   this input" -- and (b) for the non-vacuity examples, including the one showing that the
   granularity hypothesis cannot be dropped. *)
From stdpp Require Import gmap.
From Coq Require Import ZArith Lia.
From V Require Import Base.Res Base.ResLemmas Sched.LedgerModel Sched.StmtModel Sched.GangModel Sched.CycleModel
                      Sched.LedgerInvP Sched.NodeCapLemmas Sched.NodeCapLemmasCycle.
Open Scope Z_scope.

Definition nonneg_b (r : res) : bool :=
  bool_decide (0 <= cpu r) && bool_decide (0 <= mem r) && map_allb (fun _ v => bool_decide (0 <= v)) (scm r).

Definition granular_b (eps : Z) (r : res) : bool :=
  let g v := bool_decide (v = 0) || bool_decide (eps <= v) in
  g (cpu r) && g (mem r) && map_allb (fun _ v => g v) (scm r).

Lemma nonneg_b_sound r : nonneg_b r = true -> nonneg r.
Proof.
  unfold nonneg_b. rewrite !andb_true_iff, !bool_decide_eq_true, map_allb_spec. intros [[Hc Hm] Hs] d.
  destruct d as [| |k]; simpl; [exact Hc|exact Hm|]. unfold sget.
  destruct (scm r !! k) as [v|] eqn:E; simpl; [|lia]. specialize (Hs k v E). apply bool_decide_eq_true in Hs. exact Hs.
Qed.

Lemma granular_b_sound eps r : granular_b eps r = true -> granular eps r.
Proof.
  unfold granular_b. rewrite !andb_true_iff, !orb_true_iff, !bool_decide_eq_true, map_allb_spec. intros [[Hc Hm] Hs] d.
  destruct d as [| |k]; simpl; [exact Hc|exact Hm|]. unfold sget.
  destruct (scm r !! k) as [v|] eqn:E; simpl; [|left; reflexivity]. specialize (Hs k v E).
  rewrite orb_true_iff, !bool_decide_eq_true in Hs. exact Hs.
Qed.

(* everything task_ok asks except granularity *)
Definition task_pre_b (eps : Z) (t : task) : bool :=
  nonneg_b (t_req t) && bool_decide (t_req t = t_init t) && implb (t_best_effort t) (is_empty eps (t_init t)).
Definition task_ok_b (eps : Z) (t : task) : bool := task_pre_b eps t && granular_b eps (t_req t).

Lemma task_ok_b_sound eps t : task_ok_b eps t = true -> task_ok eps t.
Proof.
  unfold task_ok_b, task_pre_b. rewrite !andb_true_iff, bool_decide_eq_true. intros [[[Hn He] Hb] Hg].
  split; [apply nonneg_b_sound; exact Hn|]. split; [apply granular_b_sound; exact Hg|]. split; [intros d; rewrite He; lia|].
  intros Hbe. rewrite Hbe in Hb. exact Hb.
Qed.

Definition node_keys (n : node) : list positive :=
  elements ((dom (scm (n_idle n)) : gset positive) ∪ dom (scm (n_releasing n)) ∪ dom (scm (n_pipelined n))).

Definition dim_okb (eps : Z) (n : node) (d : dim) : bool :=
  bool_decide (- eps < amt (n_idle n) d) && bool_decide (- eps < fut_amt n d).

Definition nwc_b (eps : Z) (n : node) : bool :=
  match sc (n_idle n) with Some _ => true | None => false end &&
  dim_okb eps n DCpu && dim_okb eps n DMem &&
  forallb (fun k => ignored k || dim_okb eps n (DSc k)) (node_keys n).

Lemma nwc_b_sound eps n : 0 < eps -> nwc_b eps n = true -> node_within_capacity eps n.
Proof.
  intros Heps. unfold nwc_b. rewrite !andb_true_iff, forallb_forall. intros [[[Hs Hc] Hm] Hk].
  assert (Hd : forall d, guarded_dim d -> dim_okb eps n d = true).
  { intros [| |k] Hg; [exact Hc|exact Hm|].
    destruct (base.decide (k ∈ node_keys n)) as [Hin|Hout].
    - specialize (Hk k (proj1 (elem_of_list_In _ _) Hin)). apply orb_true_iff in Hk as [Hi|Hok]; [|exact Hok].
      unfold ignored in Hi. apply bool_decide_eq_true in Hi. subst k. exfalso. apply Hg. reflexivity.
    - unfold node_keys in Hout. rewrite elem_of_elements, !elem_of_union, !elem_of_dom in Hout.
      assert (Hz : forall r, ¬ is_Some (scm r !! k) -> sget r k = 0).
      { intros r Hr. unfold sget. destruct (scm r !! k); [exfalso; apply Hr; eauto|reflexivity]. }
      unfold dim_okb, fut_amt. simpl.
      rewrite (Hz (n_idle n)), (Hz (n_releasing n)), (Hz (n_pipelined n)) by tauto.
      rewrite andb_true_iff, !bool_decide_eq_true. lia. }
  split; [destruct (sc (n_idle n)); [discriminate|discriminate Hs]|].
  intros d Hg. specialize (Hd d Hg). unfold dim_okb, fut_amt in Hd.
  rewrite andb_true_iff, !bool_decide_eq_true in Hd. exact Hd.
Qed.

Definition node_safe_b (eps : Z) (n : node) : bool :=
  nwc_b eps n && bool_decide (map_Forall (fun _ c => nonneg_b (t_req c) = true) (n_tasks n)).

Lemma node_safe_b_sound eps n : 0 < eps -> node_safe_b eps n = true -> node_safe eps n.
Proof.
  intros Heps. unfold node_safe_b. rewrite andb_true_iff, bool_decide_eq_true. intros [Hc Hn].
  split; [apply nwc_b_sound; assumption|]. intros i c Hl. apply nonneg_b_sound. apply (Hn i c Hl).
Qed.

Definition no_evict_b (l : list oprec) : bool := forallb (fun o => negb (bool_decide (op_kind o = KEvict))) l.

Definition sess_pre_b (tb : task -> bool) (s : sess) : bool :=
  bool_decide (map_Forall (fun _ t => tb t = true /\ is_Some (jobs s !! t_job t)) (heap s)) &&
  bool_decide (map_Forall (fun _ l => no_evict_b l = true) (stmts s)).

Definition world_ok_b (eps : Z) (w : world) : bool :=
  sess_pre_b (task_ok_b eps) (w_sess w) &&
  bool_decide (map_Forall (fun _ n => node_safe_b eps n = true) (nodes (w_sess w))).

Lemma no_evict_b_sound l : no_evict_b l = true -> no_evict l.
Proof.
  unfold no_evict_b, no_evict. rewrite forallb_forall, Forall_forall. intros H o Ho.
  specialize (H o (proj1 (elem_of_list_In _ _) Ho)). apply negb_true_iff, bool_decide_eq_false in H. exact H.
Qed.

Theorem world_ok_b_sound eps w : 0 < eps -> world_ok_b eps w = true -> world_ok eps w.
Proof.
  intros Heps. unfold world_ok_b, sess_pre_b. rewrite !andb_true_iff, !bool_decide_eq_true. intros [[Hh Hst] Hn].
  split; [split|].
  - intros i t Hl. destruct (Hh i t Hl) as [H1 H2]. split; [apply task_ok_b_sound; exact H1|exact H2].
  - intros sid l Hl. apply no_evict_b_sound. apply (Hst sid l Hl).
  - intros i n Hl. apply node_safe_b_sound; [exact Heps|apply (Hn i n Hl)].
Qed.

(* ---------- non-vacuity: a world the theorem applies to, on which the skeleton really places ---------- *)

Definition ex_req (c : Z) : res := mkRes c 0 (Some {[1%positive := 16]}).
Definition ex_task (i : positive) (c : Z) (be : bool) : task :=
  mkTask i 1 1 1 0 (ex_req c) (ex_req c) be false Pending None.
Definition ex_job0 : job := mkJob 1 1 0 ∅ 0 ∅ ∅ empty_res empty_res ∅ ∅.
Definition ex_node (idle_cpu : Z) : node :=
  mkNode 1 true (mkRes idle_cpu 0 (Some {[1%positive := 160]})) (mkRes 0 0 (Some ∅)) (mkRes 0 0 (Some ∅)) (mkRes 0 0 (Some ∅))
         (mkRes idle_cpu 0 (Some {[1%positive := 160]})) ∅.
Definition ex_sess (ts : list task) (n : node) : sess :=
  mkSess (list_to_map (map (fun t => (t_id t, t)) ts)) {[1%positive := fold_left job_add ts ex_job0]} {[1%positive := n]}
         ∅ [] ∅ ∅ ∅ [] [] ∅ ∅ true.

(* two tasks of 8000 units on a node with 12000 idle: the first is allocated, the second refused *)
Definition ex_world : world := mkWorld (ex_sess [ex_task 1 8000 false; ex_task 2 8000 false] (ex_node 12000)) ∅ 1.
Definition ex_ops : list cop := [CAttempt 1 [(1, 1); (2, 1)]]%positive.

Example ex_world_ok : world_ok 2 ex_world.
Proof. apply world_ok_b_sound; [lia|vm_compute; reflexivity]. Qed.

Example ex_places :
  match nodes (w_sess (run 2 ex_world ex_ops)) !! 1%positive with
  | Some n => (cpu (n_idle n), map fst (map_to_list (n_tasks n)))
  | None => (0, [])
  end = (4000, [1%positive]).
Proof. vm_compute. reflexivity. Qed.

(* the granularity hypothesis is needed *)

(* Three "best-effort" tasks whose request is 1 unit of cpu (below eps = 2, so IsEmpty() holds,
   but not zero: such a request is not granular) are backfilled onto a full node.  Backfill tests
   nothing, each placement takes 1 unit, and Idle ends at -3 <= -eps.  Every other hypothesis of
   the theorem holds of this world. *)
Definition tiny_task (i : positive) : task :=
  mkTask i 1 1 1 0 (mkRes 1 0 None) (mkRes 1 0 None) true false Pending None.
Definition drift_world : world := mkWorld (ex_sess [tiny_task 1; tiny_task 2; tiny_task 3] (ex_node 0)) ∅ 1.
Definition drift_ops : list cop := [CBackfill 1 1; CBackfill 2 1; CBackfill 3 1]%positive.

Example drift_without_granularity :
  sess_pre_b (task_pre_b 2) (w_sess drift_world) = true /\
  nodes_safe 2 (nodes (w_sess drift_world)) /\
  exists n, nodes (w_sess (run 2 drift_world drift_ops)) !! 1%positive = Some n /\
            amt (n_idle n) DCpu = -3 /\ ~ node_within_capacity 2 n.
Proof.
  split; [vm_compute; reflexivity|]. split.
  - intros i n Hl. apply node_safe_b_sound; [lia|].
    assert (H : bool_decide (map_Forall (fun _ n => node_safe_b 2 n = true) (nodes (w_sess drift_world))) = true)
      by (vm_compute; reflexivity).
    apply bool_decide_eq_true in H. apply (H i n Hl).
  - destruct (nodes (w_sess (run 2 drift_world drift_ops)) !! 1%positive) as [n|] eqn:E; [|vm_compute in E; discriminate].
    exists n. split; [reflexivity|].
    assert (Hc : cpu (n_idle n) = -3).
    { assert (H : match nodes (w_sess (run 2 drift_world drift_ops)) !! 1%positive with Some n => cpu (n_idle n) | None => 0 end = -3)
        by (vm_compute; reflexivity).
      rewrite E in H. exact H. }
    split; [exact Hc|]. intros [_ H]. specialize (H DCpu). destruct H as [H _]; [discriminate|]. simpl in H. lia.
Qed.
