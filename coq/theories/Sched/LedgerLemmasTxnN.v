(* C07 proofs: Discard of a statement holding ANY number of recorded operations on
   pairwise distinct tasks restores the session.  Technique: every do / undo of task i changes the
   skeleton only at key i (heap entry i, the copy keyed i on one node) and the handler share of
   i's job by +-req(i) (frame relation local_on); per operation a "contract" packages the do
   step with the promise that its undo, run later on any state with the same skeleton, gives the
   skeleton before the do step back; LIFO induction over the operation list; determinacy
   (sk_sess_eqv) turns the restored skeleton into sess_eqv. *)
From stdpp Require Import gmap.
From Coq Require Import ZArith Lia.
From V Require Import Base.Res Base.ResLemmas Sched.LedgerModel Sched.StmtModel Sched.GangModel
  Sched.LedgerInvP Sched.LedgerInv Sched.LedgerLemmasA Sched.LedgerLemmasJob Sched.LedgerLemmasNode
  Sched.LedgerLemmasSess Sched.LedgerLemmasSk Sched.LedgerLemmasTxn.
Open Scope Z_scope.

Notation hvt := (status * option positive * res)%type.
Notation nvt := (bool * res * gmap positive hvt * option (res * res * res * res))%type.

Definition nv_set (v : nvt) (m : gmap positive hvt) : nvt := (v.1.1.1, v.1.1.2, m, v.2).

Definition nv_upd (N : gmap positive nvt) (nid i : positive) (x : option hvt) : gmap positive nvt :=
  match N !! nid with
  | Some v => <[nid := nv_set v (partial_alter (fun _ => x) i v.1.2)]> N
  | None => N
  end.

Definition nvcopy (N : gmap positive nvt) (nid j : positive) : option hvt :=
  N !! nid ≫= (fun v => v.1.2 !! j).

Lemma nv_set_id (v : nvt) : nv_set v v.1.2 = v.
Proof. destruct v as [[[a b] c] d]. reflexivity. Qed.

Lemma nv_upd_self N nid i x : nvcopy N nid i = x -> nv_upd N nid i x = N.
Proof.
  unfold nvcopy, nv_upd. destruct (N !! nid) as [v|] eqn:E; simpl; [|reflexivity].
  intros <-. rewrite partial_alter_self, nv_set_id. apply insert_id. exact E.
Qed.

Lemma nv_upd_upd N nid i x y : nv_upd (nv_upd N nid i x) nid i y = nv_upd N nid i y.
Proof.
  unfold nv_upd. destruct (N !! nid) as [v|] eqn:E; [|rewrite E; reflexivity].
  rewrite lookup_insert, insert_insert. f_equal. unfold nv_set. simpl.
  rewrite <- partial_alter_compose. reflexivity.
Qed.

Lemma nvcopy_upd_ne N nid i x nid' j : j <> i -> nvcopy (nv_upd N nid i x) nid' j = nvcopy N nid' j.
Proof.
  intros Hne. unfold nvcopy, nv_upd. destruct (N !! nid) as [v|] eqn:E; [|reflexivity].
  destruct (decide (nid' = nid)) as [->|Hn].
  - rewrite lookup_insert, E. simpl. apply lookup_partial_alter_ne. congruence.
  - rewrite lookup_insert_ne by congruence. reflexivity.
Qed.

Lemma nvcopy_upd N nid i x : is_Some (N !! nid) -> nvcopy (nv_upd N nid i x) nid i = x.
Proof.
  intros [v E]. unfold nvcopy, nv_upd. rewrite E, lookup_insert. simpl. apply lookup_partial_alter.
Qed.

Lemma nview_eq n : nview n = (n_has_node n, n_alloc n, hview <$> n_tasks n, nv4 n).
Proof. reflexivity. Qed.

Lemma nview_remove n i : nview (node_remove n i) = nv_set (nview n) (delete i (nview n).1.2).
Proof.
  destruct (node_remove_fields n i) as (_ & Hh & Ha & Ht).
  rewrite (nview_eq (node_remove n i)), Hh, Ha, Ht, nv4_remove, fmap_delete. reflexivity.
Qed.

Lemma nview_add eps n p n' q :
  node_add eps n p = inl (n', q) ->
  nview n' = nv_set (nview n) (<[t_id p := hview (set_node p (Some (n_id n)))]> (nview n).1.2).
Proof.
  intros Ha. destruct (node_add_spec _ _ _ _ _ Ha) as (_ & _ & Ht & _ & Hh & Hal & _).
  rewrite (nview_eq n'), Hh, Hal, Ht, (nv4_add _ _ _ _ _ Ha), fmap_insert. reflexivity.
Qed.

Lemma nv_insert_node s nid n n' m :
  nodes s !! nid = Some n -> nview n' = nv_set (nview n) m ->
  nview <$> (<[nid := n']> (nodes s)) = <[nid := nv_set (nview n) m]> (nv s).
Proof. intros Hn Hv. rewrite fmap_insert, Hv. reflexivity. Qed.

Lemma nv_rm_node (nds : gmap positive node) nid i :
  nview <$> rm_node nds (Some nid) i = nv_upd (nview <$> nds) nid i None.
Proof.
  unfold rm_node, nv_upd. rewrite lookup_fmap. destruct (nds !! nid) as [n|]; simpl; [|reflexivity].
  rewrite fmap_insert, nview_remove. reflexivity.
Qed.

Definition cov (sh : gmap positive res) (p : task) : Prop :=
  covers (default empty_res (sh !! t_job p)) (t_req p).

Lemma covers_keep_add r y x : covers r x -> covers (add r y) x.
Proof. intros [H|H]; [left; apply add_sc_some, H|right; exact H]. Qed.
Lemma covers_keep_sub r y x : covers r x -> covers (sub r y) x.
Proof. intros [H|H]; [left; apply sub_sc_some, H|right; exact H]. Qed.

Lemma cov_add sh k y q : cov sh q -> cov (<[k := add (default empty_res (sh !! k)) y]> sh) q.
Proof.
  unfold cov. destruct (decide (t_job q = k)) as [->|Hne].
  - rewrite lookup_insert. simpl. apply covers_keep_add.
  - rewrite lookup_insert_ne by congruence. auto.
Qed.
Lemma cov_sub sh k y q : cov sh q -> cov (<[k := sub (default empty_res (sh !! k)) y]> sh) q.
Proof.
  unfold cov. destruct (decide (t_job q = k)) as [->|Hne].
  - rewrite lookup_insert. simpl. apply covers_keep_sub.
  - rewrite lookup_insert_ne by congruence. auto.
Qed.

Lemma shamt_add sh k y k' d :
  shamt (<[k := add (default empty_res (sh !! k)) y]> sh) k' d = shamt sh k' d + (if decide (k' = k) then amt y d else 0).
Proof.
  unfold shamt. destruct (decide (k' = k)) as [->|Hne].
  - rewrite lookup_insert. simpl. apply amt_add.
  - rewrite lookup_insert_ne by congruence. lia.
Qed.
Lemma shamt_sub sh k y k' d :
  covers (default empty_res (sh !! k)) y ->
  shamt (<[k := sub (default empty_res (sh !! k)) y]> sh) k' d = shamt sh k' d - (if decide (k' = k) then amt y d else 0).
Proof.
  intros Hc. unfold shamt. destruct (decide (k' = k)) as [->|Hne].
  - rewrite lookup_insert. simpl. apply amt_sub_covers, Hc.
  - rewrite lookup_insert_ne by congruence. lia.
Qed.

Definition ncopy (s : sess) (nid j : positive) : option task := nodes s !! nid ≫= (fun n => n_tasks n !! j).

Lemma nvcopy_ncopy s nid j : nvcopy (nv s) nid j = hview <$> ncopy s nid j.
Proof.
  unfold nvcopy, ncopy, nv. rewrite lookup_fmap. destruct (nodes s !! nid) as [n|]; simpl; [|reflexivity].
  apply lookup_fmap.
Qed.

Definition local_on (I : gset positive) (s s' : sess) : Prop :=
  (forall j, j ∉ I -> heap s' !! j = heap s !! j) /\ jv s' = jv s /\
  (forall j nid, j ∉ I -> ncopy s' nid j = ncopy s nid j) /\
  (forall q, cov (hshare s) q -> cov (hshare s') q).

Lemma ncopy_nodes_eq s s' nid j : nodes s' = nodes s -> ncopy s' nid j = ncopy s nid j.
Proof. intros H. unfold ncopy. rewrite H. reflexivity. Qed.

Lemma ncopy_insert_node s s' nid n n' nid' j :
  nodes s !! nid = Some n -> nodes s' = <[nid := n']> (nodes s) -> n_tasks n' !! j = n_tasks n !! j ->
  ncopy s' nid' j = ncopy s nid' j.
Proof.
  intros Hn Hs' Ht. unfold ncopy. rewrite Hs'. destruct (decide (nid' = nid)) as [->|Hne].
  - rewrite lookup_insert, Hn. simpl. exact Ht.
  - rewrite lookup_insert_ne by congruence. reflexivity.
Qed.

Lemma ncopy_rm_node s s' onid i nid' j :
  nodes s' = rm_node (nodes s) onid i -> j <> i -> ncopy s' nid' j = ncopy s nid' j.
Proof.
  intros Hn Hj. unfold rm_node in Hn. destruct onid as [nid|]; [|apply ncopy_nodes_eq, Hn].
  destruct (nodes s !! nid) as [n|] eqn:E; [|apply ncopy_nodes_eq, Hn].
  eapply ncopy_insert_node; eauto. destruct (node_remove_fields n i) as (_ & _ & _ & ->).
  apply lookup_delete_ne. congruence.
Qed.

Lemma local_on_refl I s : local_on I s s.
Proof. repeat split; auto. Qed.

(* the frame of an operation on the single task i, stated with j <> i *)
Lemma local_on_single i s s' :
  (forall j, j <> i -> heap s' !! j = heap s !! j) -> jv s' = jv s ->
  (forall j nid, j <> i -> ncopy s' nid j = ncopy s nid j) ->
  (forall q, cov (hshare s) q -> cov (hshare s') q) -> local_on {[i]} s s'.
Proof.
  intros A B C D. split; [|split; [exact B|split; [|exact D]]].
  - intros j Hj. apply A. intros ->. apply Hj, elem_of_singleton. reflexivity.
  - intros j nid Hj. apply C. intros ->. apply Hj, elem_of_singleton. reflexivity.
Qed.

Lemma local_on_trans I J s1 s2 s3 : local_on I s1 s2 -> local_on J s2 s3 -> local_on (I ∪ J) s1 s3.
Proof.
  intros (A1 & B1 & C1 & D1) (A2 & B2 & C2 & D2). split; [|split; [|split]].
  - intros j Hj. rewrite A2, A1 by set_solver. reflexivity.
  - congruence.
  - intros j nid Hj. rewrite C2, C1 by set_solver. reflexivity.
  - auto.
Qed.

Lemma local_on_mono I J s s' : I ⊆ J -> local_on I s s' -> local_on J s s'.
Proof.
  intros HIJ (A & B & C & D). split; [|split; [|split]]; auto.
Qed.

Lemma sess_ok_undo eps s o : sess_ok s -> sess_ok (undo_op eps s o).
Proof.
  intros (Hl & Hw & Hs). pose proof (good_undo_op eps _ s o (good_init s Hl Hw Hs)) as Hg.
  split; [exact (proj1 Hg)|]. split; [exact (proj1 (proj2 Hg))|]. eapply good_saved_ok; eauto.
Qed.

Lemma sess_ok_evict_with eps s sid c stored :
  sess_ok s -> heap s !! t_id c = Some stored -> t_job stored = t_job c -> t_req stored = t_req c ->
  sess_ok (fst (stmt_evict_with eps s sid c None)).
Proof.
  intros (Hl & Hw & Hs) Hc Hj Hr. pose proof (good_init s Hl Hw Hs) as Hg.
  assert (Hpk : pok (table_of (heap s)) c).
  { pose proof (good_heap_pok _ _ _ _ Hg Hc) as Hp. unfold pok in *. destruct Hl as (Hh & _).
    destruct (Hh _ _ Hc) as [Hid _]. rewrite <- Hj, <- Hr, <- Hid. exact Hp. }
  pose proof (good_evict_with eps _ s sid c None Hg Hpk) as Hg'.
  split; [exact (proj1 Hg')|]. split; [exact (proj1 (proj2 Hg'))|]. eapply good_saved_ok; eauto.
Qed.

(* UpdateTaskStatus followed by node.UpdateTask (what Evict and unevict share), with the stored
   object or a clone of it that names node nid: every field of the result *)
Lemma restatus_sk eps s c stored st nid n :
  ledger_inv s -> jknown s c -> heap s !! t_id c = Some stored ->
  t_node c = Some nid -> nodes s !! nid = Some n -> t_status c <> Binding -> st <> Binding ->
  let c1 := if bool_decide (is_Some (jobs s !! t_job c)) then set_status c st else c in
  exists fl s1 s2 n1, ssn_update_status s c st = (fl, s1, c1) /\ ssn_node_update eps s1 c1 = (s2, c1, false) /\
    heap s2 = <[t_id c := c1]> (heap s) /\ jv s2 = jv s /\ nodes s2 = <[nid := n1]> (nodes s) /\
    nview n1 = nv_set (nview n) (<[t_id c := hview c1]> (nview n).1.2) /\
    (forall j, j <> t_id c -> n_tasks n1 !! j = n_tasks n !! j) /\
    hshare s2 = hshare s /\ stmts s2 = stmts s /\ lg s2 = lg s.
Proof.
  intros (Hh & _ & Hnodes) Hjk Hl Hnd Hn Hnb Hst. cbv zeta. destruct (Hnodes _ _ Hn) as [Hnid _].
  destruct (update_sk s c stored st Hjk Hl (proj1 (Hh _ _ Hl))) as (f & s1 & E1 & Hf & Hh1 & Hjv1 & Ho1).
  rewrite <- Hf. apply others_inv in Ho1 as (Hn1 & Hs1 & _ & _ & _ & _ & Hb1 & He1 & Hst1 & _ & _).
  set (c1 := if f then set_status c st else c) in *.
  assert (Hc1 : t_id c1 = t_id c /\ t_node c1 = Some nid /\ t_status c1 <> Binding)
    by (unfold c1; destruct f; repeat split; assumption).
  destruct Hc1 as (Hid1 & Hnode1 & Hnb1).
  assert (Hn1' : nodes s1 !! nid = Some n) by (rewrite Hn1; exact Hn).
  destruct (ssn_node_update_ok eps s1 c1 nid n Hnode1 Hn1' Hnid Hnb1) as (n1 & E2 & _ & Hv1 & Htk1).
  exists f, s1. eexists. exists n1. split; [exact E1|]. split; [exact E2|].
  split; [simpl; rewrite Hh1, Hid1, insert_insert; reflexivity|]. split; [exact Hjv1|].
  split; [simpl; rewrite Hn1; reflexivity|]. split; [rewrite Hv1, Hid1; reflexivity|].
  split; [rewrite <- Hid1; exact Htk1|]. split; [exact Hs1|]. split; [exact Hst1|].
  unfold lg. simpl. rewrite Hb1, He1. reflexivity.
Qed.

(* Statement.Evict with the stored object or a clone of it *)
Lemma evict_sk eps s sid c stored nid n :
  ledger_inv s -> jknown s c -> heap s !! t_id c = Some stored ->
  t_node c = Some nid -> nodes s !! nid = Some n -> (t_status c = Running \/ t_status c = Bound) ->
  let f := bool_decide (is_Some (jobs s !! t_job c)) in
  let c1 := if f then set_status c Releasing else c in
  exists s1 n1, stmt_evict_with eps s sid c None = (s1, ROk) /\
    heap s1 = <[t_id c := c1]> (heap s) /\ jv s1 = jv s /\
    nodes s1 = <[nid := n1]> (nodes s) /\
    nview n1 = nv_set (nview n) (<[t_id c := hview c1]> (nview n).1.2) /\
    (forall j, j <> t_id c -> n_tasks n1 !! j = n_tasks n !! j) /\
    hshare s1 = <[t_job c := sub (default empty_res (hshare s !! t_job c)) (t_req c)]> (hshare s) /\
    stmts s1 = <[sid := default [] (stmts s !! sid) ++ [mkOp KEvict (t_id c) (t_status c)]]> (stmts s) /\
    lg s1 = lg s.
Proof.
  intros Hinv Hjk Hl Hnd Hn Hst. cbv zeta.
  destruct (restatus_sk eps s c stored Releasing nid n Hinv Hjk Hl Hnd Hn)
    as (fl & s1 & s2 & n1 & E1 & E2 & Hh2 & Hjv2 & Hn2 & Hv & Htk & Hs2 & Hst2 & Hlg2);
    [destruct Hst as [-> | ->]; discriminate|discriminate|].
  unfold stmt_evict_with. rewrite E1. cbv beta iota zeta. rewrite E2. change (default (t_status c) None) with (t_status c).
  eexists. exists n1. split; [reflexivity|].
  split; [exact Hh2|]. split; [exact Hjv2|]. split; [exact Hn2|]. split; [exact Hv|]. split; [exact Htk|].
  split; [simpl; rewrite Hs2; destruct (bool_decide _); reflexivity|].
  split; [simpl; rewrite Hst2; reflexivity|]. exact Hlg2.
Qed.

(* unevict on the object the heap holds *)
Lemma unevict_sk eps s c1 prev nid n :
  ledger_inv s -> jknown s c1 -> heap s !! t_id c1 = Some c1 ->
  t_node c1 = Some nid -> nodes s !! nid = Some n ->
  (prev = Running \/ prev = Bound) -> t_status c1 <> Binding ->
  let f := bool_decide (is_Some (jobs s !! t_job c1)) in
  let c4 := if f then set_status c1 prev else c1 in
  exists n', let s' := fst (unevict_with eps s c1 prev) in
    heap s' = <[t_id c1 := c4]> (heap s) /\ jv s' = jv s /\
    nodes s' = <[nid := n']> (nodes s) /\
    nview n' = nv_set (nview n) (<[t_id c1 := hview c4]> (nview n).1.2) /\
    (forall j, j <> t_id c1 -> n_tasks n' !! j = n_tasks n !! j) /\
    hshare s' = <[t_job c1 := add (default empty_res (hshare s !! t_job c1)) (t_req c1)]> (hshare s) /\
    stmts s' = stmts s /\ lg s' = lg s.
Proof.
  intros Hinv Hjk Hl Hnd Hn Hprev Hnb. cbv zeta.
  destruct (restatus_sk eps s c1 c1 prev nid n Hinv Hjk Hl Hnd Hn Hnb)
    as (fl & s1 & s2 & n' & E1 & E2 & Hh2 & Hjv2 & Hn2 & Hv & Htk & Hs2 & Hst2 & Hlg2);
    [destruct Hprev as [-> | ->]; discriminate|].
  unfold unevict_with. replace (restore_status prev) with prev by (destruct Hprev as [-> | ->]; reflexivity).
  rewrite E1. cbv beta iota zeta. rewrite E2. unfold h_alloc. cbn [fst snd]. exists n'.
  split; [exact Hh2|]. split; [exact Hjv2|]. split; [exact Hn2|]. split; [exact Hv|]. split; [exact Htk|].
  split; [simpl; rewrite Hs2; destruct (bool_decide _); reflexivity|]. split; [exact Hst2|exact Hlg2].
Qed.

Definition undo_contract eps (i : positive) (s s1 : sess) (rec_o : list oprec) : Prop :=
  forall s'', sess_ok s'' -> hv s'' = hv s1 -> jv s'' = jv s1 -> nv s'' = nv s1 ->
    (forall k d, shamt (hshare s'') k d = shamt (hshare s1) k d) ->
    heap s'' !! i = heap s1 !! i -> (forall q, cov (hshare s1) q -> cov (hshare s'') q) ->
    let s3 := fold_left (undo_op eps) (rev rec_o) s'' in
    hv s3 = hv s /\ jv s3 = jv s /\ nv s3 = nv s /\
    (forall k d, shamt (hshare s3) k d = shamt (hshare s) k d) /\
    local_on {[i]} s'' s3 /\ sess_ok s3 /\ lg s3 = lg s''.

Definition do_contract eps (sid i : positive) (s s1 : sess) (L rec_o : list oprec) : Prop :=
  default [] (stmts s1 !! sid) = L ++ rec_o /\ Forall (fun o => op_task o = i) rec_o /\
  sess_ok s1 /\ local_on {[i]} s s1 /\ lg s1 = lg s /\ undo_contract eps i s s1 rec_o.

Lemma placeable_nvcopy s p nid : placeable s p nid -> nvcopy (nv s) nid (t_id p) = None.
Proof.
  intros (_ & _ & _ & _ & Hoff). unfold nvcopy, nv. rewrite lookup_fmap.
  destruct (nodes s !! nid) as [n|] eqn:E; simpl; [|reflexivity].
  rewrite lookup_fmap, (Hoff n eq_refl). reflexivity.
Qed.

Lemma placed_obj_fields s k p nid :
  let p2 := placed_obj s k p nid in
  t_id p2 = t_id p /\ t_job p2 = t_job p /\ t_sub p2 = t_sub p /\ t_req p2 = t_req p /\ t_node p2 = Some nid.
Proof. unfold placed_obj. destruct (bool_decide _); repeat split. Qed.

Lemma placed_nv eps s k p nid s4 :
  ledger_inv s -> placed_state eps s p (placed_obj s k p nid) nid s4 ->
  nv s4 = nv s \/ nv s4 = nv_upd (nv s) nid (t_id p) (Some (hview (placed_obj s k p nid))).
Proof.
  intros (_ & _ & Hnodes) (_ & _ & [Hn4|(n & n' & q & En & Ea & Hn4)] & _).
  - left. unfold nv. rewrite Hn4. reflexivity.
  - right. destruct (Hnodes _ _ En) as [Hnid _].
    destruct (placed_obj_fields s k p nid) as (Hid2 & _ & _ & _ & Hnode2).
    pose proof (nview_add _ _ _ _ _ Ea) as Hv. rewrite Hnid, (set_node_id _ _ Hnode2), Hid2 in Hv.
    unfold nv at 1. rewrite Hn4, fmap_insert, Hv. unfold nv_upd, nv. rewrite (lookup_fmap nview (nodes s) nid), En. reflexivity.
Qed.

(* the do half of a placement of p changes the skeleton at key t_id p only *)
Lemma placed_local eps s k p nid s4 :
  placed_state eps s p (placed_obj s k p nid) nid s4 -> local_on {[t_id p]} s s4.
Proof.
  intros (Hh4 & Hjv4 & Hn4 & Hs4). apply local_on_single.
  - intros j Hj. rewrite Hh4. apply lookup_insert_ne. congruence.
  - exact Hjv4.
  - intros j nid' Hj. destruct Hn4 as [Hn4|(n & n' & q & En & Ea & Hn4)]; [apply ncopy_nodes_eq, Hn4|].
    eapply ncopy_insert_node; [exact En|exact Hn4|].
    destruct (node_add_spec _ _ _ _ _ Ea) as (_ & _ & -> & _).
    destruct (placed_obj_fields s k p nid) as (-> & _). apply lookup_insert_ne. congruence.
  - intros q Hq. rewrite Hs4. apply cov_add, Hq.
Qed.

(* unallocate of the placed object, on ANY state that has the skeleton of s4 and holds the object,
   gives the skeleton of s back: with sx = s4 this is the rollback of a failed placement, with a
   later state the undo of a recorded one *)
Lemma unplace_sk eps s k p nid s4 sx :
  ledger_inv s -> placeable s p nid -> placed_state eps s p (placed_obj s k p nid) nid s4 ->
  hv sx = hv s4 -> jv sx = jv s4 -> nv sx = nv s4 ->
  (forall k' d, shamt (hshare sx) k' d = shamt (hshare s4) k' d) ->
  heap sx !! t_id p = heap s4 !! t_id p -> (forall q, cov (hshare s4) q -> cov (hshare sx) q) ->
  let s3 := unallocate_with sx (placed_obj s k p nid) in
  hv s3 = hv s /\ jv s3 = jv s /\ nv s3 = nv s /\
  (forall k' d, shamt (hshare s3) k' d = shamt (hshare s) k' d) /\
  local_on {[t_id p]} sx s3 /\
  stmts s3 = stmts sx /\ binds s3 = binds sx /\ evicts s3 = evicts sx /\ saved s3 = saved sx.
Proof.
  intros Hinv Hpl Hps Hhv Hjv Hnv Hsh Hheap Hcov. cbv zeta.
  pose proof (placeable_nvcopy s p nid Hpl) as Hnc.
  pose proof (placed_nv eps s k p nid s4 Hinv Hps) as Hnv4.
  destruct Hpl as (Hl & Hst & Hnd & Hjk & Hoff). destruct Hps as (Hh4 & Hjv4 & _ & Hs4).
  set (p2 := placed_obj s k p nid) in *.
  destruct (placed_obj_fields s k p nid) as (Hid2 & Hjob2 & Hsub2 & Hreq2 & Hnode2). fold p2 in Hid2, Hjob2, Hsub2, Hreq2, Hnode2.
  assert (Hlx : heap sx !! t_id p2 = Some p2) by (rewrite Hid2, Hheap, Hh4; apply lookup_insert).
  assert (Hjkx : jknown sx p2).
  { apply (jknown_jv s sx); [congruence|]. eapply (jknown_fields s s p p2); auto. }
  destruct (unallocate_sk sx p2 Hjkx Hlx) as (A & B & C & D & E).
  rewrite Hid2, Hjob2, Hreq2, Hnode2 in *.
  rewrite <- (found_jv s sx (t_job p)) in A by congruence.
  assert (Hcov2 : covers (default empty_res (hshare sx !! t_job p)) (t_req p)).
  { specialize (Hcov p2). unfold cov in Hcov. rewrite Hjob2, Hreq2 in Hcov. apply Hcov.
    rewrite Hs4, lookup_insert. simpl. apply covers_add. }
  split; [|split; [|split; [|split; [|split; [|exact E]]]]].
  - unfold hv at 1. rewrite A, fmap_insert. fold (hv sx). rewrite Hhv. unfold hv at 1.
    rewrite Hh4, fmap_insert, insert_insert. apply insert_id. unfold hv. rewrite lookup_fmap, Hl. simpl. f_equal.
    unfold p2, placed_obj, hview. destruct (bool_decide _); simpl; rewrite ?Hst, ?Hnd; reflexivity.
  - congruence.
  - unfold nv at 1. rewrite C, nv_rm_node. fold (nv sx). rewrite Hnv.
    destruct Hnv4 as [-> | ->]; rewrite ?nv_upd_upd; apply nv_upd_self; exact Hnc.
  - intros k' d. rewrite D, shamt_sub by exact Hcov2. rewrite Hsh, Hs4, shamt_add. lia.
  - apply local_on_single.
    + intros j Hj. rewrite A. apply lookup_insert_ne. congruence.
    + exact B.
    + intros j nid' Hj. eapply ncopy_rm_node; [exact C|exact Hj].
    + intros q Hq. rewrite D. apply cov_sub, Hq.
Qed.

(* the rollback of a failed placement *)
Lemma undo_place eps s k p nid s4 :
  ledger_inv s -> placeable s p nid -> placed_state eps s p (placed_obj s k p nid) nid s4 ->
  let s' := unallocate_with s4 (placed_obj s k p nid) in
  hv s' = hv s /\ jv s' = jv s /\ nv s' = nv s /\ share_same (hshare s) (hshare s') /\
  stmts s' = stmts s4 /\ binds s' = binds s4 /\ evicts s' = evicts s4 /\ saved s' = saved s4.
Proof.
  intros Hinv Hpl Hps.
  destruct (unplace_sk eps s k p nid s4 s4 Hinv Hpl Hps eq_refl eq_refl eq_refl (fun _ _ => eq_refl) eq_refl (fun _ H => H))
    as (H1 & H2 & H3 & H4 & _ & H5).
  do 3 (split; [assumption|]). split; [|exact H5]. apply share_same_amt. intros k' d. symmetry. apply H4.
Qed.

(* Discard of a statement holding one Allocate / Pipeline restores the session; a bind refused in
   Commit does the same *)
Theorem discard_restores_place eps s sid k p nid s1 :
  sess_ok s -> placeable s p nid -> k <> KEvict -> default [] (stmts s !! sid) = [] ->
  place_with eps s sid k p nid = (s1, ROk) ->
  sess_eqv s (stmt_discard eps s1 sid) /\ sess_eqv s (undo_op eps s1 (mkOp k (t_id p) Pending)) /\
  binds (stmt_discard eps s1 sid) = binds s /\ evicts (stmt_discard eps s1 sid) = evicts s /\
  (t_id p ∈ refuse_bind s -> k = KAllocate ->
     commit_op eps s1 (mkOp k (t_id p) Pending) = undo_op eps s1 (mkOp k (t_id p) Pending)).
Proof.
  intros Hok Hpl Hk Hemp Hplace. pose proof Hpl as (Hl & _ & _ & Hjk & _).
  pose proof (sess_ok_place eps s sid k p nid Hok Hl) as Hok1. rewrite Hplace in Hok1. simpl in Hok1.
  destruct (place_sk eps s sid k p nid (proj1 Hok) Hjk Hl) as (ok & b & s4 & Hps & Hst4 & Hb4 & He4 & (Hsv4 & Hrb4) & _ & Heq).
  rewrite Heq in Hplace. destruct (_ && negb b); [|discriminate]. injection Hplace as <-.
  set (s1 := push_op s4 sid k (t_id p) Pending) in *.
  set (p2 := placed_obj s k p nid).
  assert (Hid2 : t_id p2 = t_id p) by (unfold p2, placed_obj; destruct (bool_decide _); reflexivity).
  assert (Hps1 : placed_state eps s p p2 nid s1) by exact Hps.
  assert (Hl1 : heap s1 !! t_id p = Some p2) by (destruct Hps1 as (-> & _); apply lookup_insert).
  assert (Hundo : undo_op eps s1 (mkOp k (t_id p) Pending) = unallocate_with s1 p2).
  { unfold undo_op. cbn [op_task op_kind]. rewrite Hl1. destruct k; [congruence|reflexivity|reflexivity]. }
  destruct (undo_place eps s k p nid s1 (proj1 Hok) Hpl Hps1) as (H1 & H2 & H3 & H4 & H5 & H6 & H7 & H8).
  fold p2 in H1, H2, H3, H4, H5, H6, H7, H8. rewrite <- Hundo in *.
  assert (Hops : default [] (stmts s1 !! sid) = [mkOp k (t_id p) Pending]).
  { unfold s1, push_op. simpl. rewrite lookup_insert. simpl. rewrite Hst4, Hemp. reflexivity. }
  pose proof (sess_ok_step eps s1 (ODiscard sid) Hok1) as Hok2. simpl in Hok2.
  rewrite (discard_single eps s1 sid _ Hops) in *. cbv zeta in *.
  split; [|split; [|split; [|split]]].
  - apply sk_sess_eqv; [exact (proj1 Hok)|exact (proj1 Hok2)|symmetry; exact H1|symmetry; exact H2|symmetry; exact H3|exact H4].
  - apply sk_sess_eqv; [exact (proj1 Hok)|exact (proj1 Hok2)|symmetry; exact H1|symmetry; exact H2|symmetry; exact H3|exact H4].
  - simpl. rewrite H6. simpl. exact Hb4.
  - simpl. rewrite H7. simpl. exact He4.
  - intros Hr ->. rewrite Hundo. unfold commit_op. cbn [op_task op_kind]. rewrite Hl1, Hid2.
    rewrite bool_decide_eq_true_2; [reflexivity|]. change (refuse_bind s1) with (refuse_bind s4). rewrite Hrb4. exact Hr.
Qed.

Theorem contract_place eps s sid k p nid L :
  sess_ok s -> placeable s p nid -> k <> KEvict -> default [] (stmts s !! sid) = L ->
  exists rec_o, do_contract eps sid (t_id p) s (fst (place_with eps s sid k p nid)) L rec_o.
Proof.
  intros Hok Hpl Hk HL. pose proof Hpl as (Hl & _ & _ & Hjk & _).
  pose proof (sess_ok_place eps s sid k p nid Hok Hl) as Hok1.
  pose proof (cache_lg _ _ (cache_place eps s sid k p nid)) as Hlg1.
  destruct (place_sk eps s sid k p nid (proj1 Hok) Hjk Hl) as (ok & b & s4 & Hps & Hst4 & _ & _ & _ & _ & Heq).
  pose proof (placed_local eps s k p nid s4 Hps) as Hloc4.
  pose proof (fun sx => unplace_sk eps s k p nid s4 sx (proj1 Hok) Hpl Hps) as Hun. cbv zeta in Hun.
  set (p2 := placed_obj s k p nid) in *.
  assert (Hl4 : heap s4 !! t_id p = Some p2) by (destruct Hps as (-> & _); apply lookup_insert).
  rewrite Heq in *. destruct (_ && negb b); cbn [fst] in *.
  - (* recorded: the undo runs later, on a state with the skeleton of s4 *)
    exists [mkOp k (t_id p) Pending]. split; [|split; [|split; [|split; [|split]]]].
    + unfold push_op. simpl. rewrite lookup_insert. simpl. rewrite Hst4, HL. reflexivity.
    + repeat constructor.
    + exact Hok1.
    + exact Hloc4.
    + exact Hlg1.
    + intros s'' Hok'' Hhv Hjv Hnv Hsh Hheap Hcov. cbn [rev app fold_left].
      assert (Hundo : undo_op eps s'' (mkOp k (t_id p) Pending) = unallocate_with s'' p2).
      { unfold undo_op. cbn [op_task op_kind]. rewrite Hheap. change (heap s4 !! t_id p) with (heap s4 !! t_id p).
        cbn [heap push_op upd_stmts]. rewrite Hl4. destruct k; [congruence|reflexivity|reflexivity]. }
      rewrite Hundo. destruct (Hun s'' Hhv Hjv Hnv Hsh Hheap Hcov) as (H1 & H2 & H3 & H4 & H5 & _).
      do 5 (split; [assumption|]). rewrite <- Hundo. split; [apply sess_ok_undo, Hok''|apply cache_lg, cache_undo].
  - (* failed: rolled back at once *)
    destruct (Hun s4 eq_refl eq_refl eq_refl (fun _ _ => eq_refl) eq_refl (fun _ H => H)) as (H1 & H2 & H3 & H4 & H5 & H6 & _).
    exists []. split; [|split; [|split; [|split; [|split]]]].
    + rewrite app_nil_r, H6, Hst4. exact HL.
    + constructor.
    + exact Hok1.
    + pose proof (local_on_trans _ _ _ _ _ Hloc4 H5) as Hloc. rewrite (idemp_L (∪)) in Hloc. exact Hloc.
    + exact Hlg1.
    + intros s'' Hok'' Hhv Hjv Hnv Hsh _ _. cbn [rev fold_left].
      split; [congruence|]. split; [congruence|]. split; [congruence|].
      split; [intros k' d; rewrite Hsh; apply H4|]. split; [apply local_on_refl|]. split; [exact Hok''|reflexivity].
Qed.

Lemma nv_node_upd s nid n n' i h :
  nodes s !! nid = Some n -> nview n' = nv_set (nview n) (<[i := h]> (nview n).1.2) ->
  nview <$> (<[nid := n']> (nodes s)) = nv_upd (nv s) nid i (Some h).
Proof.
  intros Hn Hv. rewrite fmap_insert, Hv. unfold nv_upd, nv.
  rewrite (lookup_fmap nview (nodes s) nid), Hn. reflexivity.
Qed.

Lemma nv_lookup_node s nid : is_Some (nv s !! nid) -> is_Some (nodes s !! nid).
Proof. unfold nv. rewrite lookup_fmap. destruct (nodes s !! nid); [eauto|intros [? ?]; discriminate]. Qed.

(* the precondition of Evict with a passed object c (the stored object p itself, or the clone
   of it that the node holds) *)
Definition evictable_with (s : sess) (p c : task) (nid : positive) : Prop :=
  heap s !! t_id p = Some p /\ (t_status p = Running \/ t_status p = Bound) /\ t_node p = Some nid /\
  t_id c = t_id p /\ t_job c = t_job p /\ t_sub c = t_sub p /\ hview c = hview p /\
  jknown s p /\ nvcopy (nv s) nid (t_id p) = Some (hview p) /\ cov (hshare s) p.

Theorem contract_evict eps s sid p c nid L :
  sess_ok s -> evictable_with s p c nid -> default [] (stmts s !! sid) = L ->
  exists rec_o, do_contract eps sid (t_id p) s (fst (stmt_evict_with eps s sid c None)) L rec_o.
Proof.
  intros Hok (Hl & Hstp & Hnd & Hidc & Hjobc & Hsubc & Hvc & Hjk & Hnc & Hcov) HL.
  assert (Hvc' : t_status c = t_status p /\ t_node c = t_node p /\ t_req c = t_req p)
    by (unfold hview in Hvc; inversion Hvc; auto).
  destruct Hvc' as (Hstc & Hndc & Hreqc).
  assert (Hjkc : jknown s c) by (eapply (jknown_fields s s p c); auto).
  assert (Hlc : heap s !! t_id c = Some p) by (rewrite Hidc; exact Hl).
  assert (Hnode : is_Some (nodes s !! nid)).
  { apply nv_lookup_node. unfold nvcopy in Hnc. destruct (nv s !! nid); [eauto|discriminate]. }
  destruct Hnode as [n Hn].
  assert (Hndc' : t_node c = Some nid) by congruence.
  assert (Hstc' : t_status c = Running \/ t_status c = Bound) by (rewrite Hstc; exact Hstp).
  pose proof (sess_ok_evict_with eps s sid c p Hok Hlc (eq_sym Hjobc) (eq_sym Hreqc)) as Hok1.
  destruct (evict_sk eps s sid c p nid n (proj1 Hok) Hjkc Hlc Hndc' Hn Hstc')
    as (s1 & n1 & Heq & Hh1 & Hjv1 & Hn1 & Hv1 & Htk1 & Hs1 & Hst1 & Hlg1).
  rewrite Heq in *. cbn [fst] in *.
  set (f := bool_decide (is_Some (jobs s !! t_job c))) in *.
  set (c1 := if f then set_status c Releasing else c) in *.
  assert (Hc1 : t_id c1 = t_id p /\ t_job c1 = t_job p /\ t_sub c1 = t_sub p /\ t_req c1 = t_req p /\
                t_node c1 = Some nid /\ t_status c1 <> Binding).
  { unfold c1. destruct f; simpl; repeat split; try congruence.
    all: destruct Hstc' as [H|H]; rewrite H; discriminate. }
  destruct Hc1 as (Hid1 & Hjob1 & Hsub1 & Hreq1 & Hnode1 & Hnb1).
  rewrite Hidc, Hjobc, Hreqc in *.
  assert (Hnv1 : nv s1 = nv_upd (nv s) nid (t_id p) (Some (hview c1))).
  { unfold nv at 1. rewrite Hn1. eapply nv_node_upd; eauto. }
  assert (Hhv1 : hv s1 = <[t_id p := hview c1]> (hv s)) by (unfold hv at 1; rewrite Hh1, fmap_insert; reflexivity).
  exists [mkOp KEvict (t_id p) (t_status c)]. split; [|split; [|split; [|split; [|split]]]].
  - rewrite Hst1, lookup_insert. simpl. rewrite HL. reflexivity.
  - repeat constructor.
  - exact Hok1.
  - apply local_on_single.
    + intros j Hj. rewrite Hh1. apply lookup_insert_ne. congruence.
    + exact Hjv1.
    + intros j nid' Hj. eapply (ncopy_insert_node s s1 nid n n1); [exact Hn|exact Hn1|apply Htk1, Hj].
    + intros q Hq. rewrite Hs1. apply cov_sub, Hq.
  - exact Hlg1.
  - intros s'' Hok'' Hhv Hjv Hnv Hsh Hheap Hcv. cbn [rev app fold_left].
    assert (Hl'' : heap s'' !! t_id p = Some c1) by (rewrite Hheap, Hh1; apply lookup_insert).
    assert (Hundo : undo_op eps s'' (mkOp KEvict (t_id p) (t_status c)) = fst (unevict_with eps s'' c1 (t_status c))).
    { unfold undo_op. cbn [op_task op_kind op_prev]. rewrite Hl''. reflexivity. }
    rewrite Hundo.
    assert (Hjk1 : jknown s'' c1).
    { apply (jknown_jv s s''); [congruence|]. eapply (jknown_fields s s p c1); auto. }
    assert (Hl1'' : heap s'' !! t_id c1 = Some c1) by (rewrite Hid1; exact Hl'').
    assert (Hnode'' : is_Some (nodes s'' !! nid)).
    { apply nv_lookup_node. rewrite Hnv, Hnv1. unfold nv_upd, nv. rewrite (lookup_fmap nview (nodes s) nid), Hn.
      simpl. rewrite lookup_insert. eauto. }
    destruct Hnode'' as [n'' Hn''].
    destruct (unevict_sk eps s'' c1 (t_status c) nid n'' (proj1 Hok'') Hjk1 Hl1'' Hnode1 Hn'' Hstc' Hnb1)
      as (n3 & A & B & C & D & Dt & E & F & G).
    rewrite Hid1, Hjob1, Hreq1 in *.
    assert (Hff : bool_decide (is_Some (jobs s'' !! t_job p)) = f).
    { unfold f. rewrite Hjobc. symmetry. apply found_jv. congruence. }
    rewrite Hff in *.
    set (c4 := if f then set_status c1 (t_status c) else c1) in *.
    assert (Hv4 : hview c4 = hview p).
    { rewrite <- Hvc. unfold c4, c1, hview. destruct f; reflexivity. }
    rewrite Hv4 in D.
    assert (Hnv3 : nv (unevict_with eps s'' c1 (t_status c)).1 = nv_upd (nv s'') nid (t_id p) (Some (hview p))).
    { unfold nv at 1. rewrite C. eapply nv_node_upd; eauto. }
    split; [|split; [|split; [|split; [|split; [|split]]]]].
    + unfold hv at 1. rewrite A, fmap_insert, Hv4. fold (hv s''). rewrite Hhv, Hhv1, insert_insert.
      apply insert_id. unfold hv. rewrite lookup_fmap, Hl. reflexivity.
    + congruence.
    + rewrite Hnv3, Hnv, Hnv1, nv_upd_upd. apply nv_upd_self. exact Hnc.
    + intros k' d. rewrite E, shamt_add, Hsh, Hs1, shamt_sub by exact Hcov. lia.
    + apply local_on_single.
      * intros j Hj. rewrite A. apply lookup_insert_ne. congruence.
      * exact B.
      * intros j nid' Hj. eapply (ncopy_insert_node s'' _ nid n'' n3); [exact Hn''|exact C|apply Dt, Hj].
      * intros q Hq. rewrite E. apply cov_add, Hq.
    + rewrite <- Hundo. apply sess_ok_undo, Hok''.
    + exact G.
Qed.

Inductive txop := TPlace (k : opkind) (tid nid : positive) | TEvict (clone : bool) (tid : positive).

Definition tx_tid (o : txop) : positive := match o with TPlace _ t _ => t | TEvict _ t => t end.

Definition tx_op (sid : positive) (o : txop) : op :=
  match o with
  | TPlace KAllocate t n => OAllocate sid t n
  | TPlace _ t n => OPipeline sid t n
  | TEvict false t => OEvict sid t
  | TEvict true t => OEvictClone sid t
  end.

(* the call sites' preconditions *)
Definition tx_pre (s : sess) (o : txop) : Prop :=
  match o with
  | TPlace k t nid => k <> KEvict /\ exists p, t_id p = t /\ placeable s p nid
  | TEvict false t => exists p nid, t_id p = t /\ evictable_with s p p nid
  | TEvict true t => exists p nid c, t_id p = t /\ ncopy s nid t = Some c /\ evictable_with s p c nid
  end.

Lemma placeable_frame I s s' p nid :
  local_on I s s' -> t_id p ∉ I -> placeable s p nid -> placeable s' p nid.
Proof.
  intros (A & B & C & D) Hi (Hl & Hst & Hnd & Hjk & Hoff).
  split; [rewrite A by exact Hi; exact Hl|]. split; [exact Hst|]. split; [exact Hnd|].
  split; [apply (jknown_jv s s'); [congruence|exact Hjk]|].
  intros n Hn. specialize (C (t_id p) nid Hi). unfold ncopy in C. rewrite Hn in C. simpl in C. rewrite C.
  destruct (nodes s !! nid) as [n0|] eqn:E; simpl; [apply Hoff; reflexivity|reflexivity].
Qed.

Lemma evictable_with_frame I s s' p c nid :
  local_on I s s' -> t_id p ∉ I -> evictable_with s p c nid -> evictable_with s' p c nid.
Proof.
  intros (A & B & C & D) Hi (Hl & H2 & H3 & H4 & H5 & H6 & H7 & Hjk & Hnc & Hcov).
  split; [rewrite A by exact Hi; exact Hl|]. repeat (split; [assumption|]).
  split; [apply (jknown_jv s s'); [congruence|exact Hjk]|].
  split; [rewrite nvcopy_ncopy, C by exact Hi; rewrite <- nvcopy_ncopy; exact Hnc|apply D, Hcov].
Qed.

Lemma tx_pre_frame I s s' o : local_on I s s' -> tx_tid o ∉ I -> tx_pre s o -> tx_pre s' o.
Proof.
  intros Hloc Hi. destruct o as [k t nid|[|] t]; simpl in *.
  - intros (Hk & p & <- & Hp). split; [exact Hk|]. exists p. split; [reflexivity|]. eapply placeable_frame; eauto.
  - intros (p & nid & c & <- & Hc & He). exists p, nid, c. split; [reflexivity|].
    split; [destruct Hloc as (_ & _ & C & _); rewrite C by exact Hi; exact Hc|]. eapply evictable_with_frame; eauto.
  - intros (p & nid & <- & He). exists p, nid. split; [reflexivity|]. eapply evictable_with_frame; eauto.
Qed.

Lemma tx_step eps sid s o L :
  sess_ok s -> tx_pre s o -> default [] (stmts s !! sid) = L ->
  exists rec_o, do_contract eps sid (tx_tid o) s (fst (step eps s (tx_op sid o))) L rec_o.
Proof.
  intros Hok Hpre HL. destruct o as [k t nid|[|] t]; simpl in Hpre.
  - destruct Hpre as (Hk & p & <- & Hp). pose proof Hp as (Hl & _).
    destruct (contract_place eps s sid k p nid L Hok Hp Hk HL) as (rec_o & Hc). exists rec_o.
    destruct k; [congruence| |]; simpl; unfold stmt_pipeline, stmt_allocate, with_task; rewrite Hl; exact Hc.
  - destruct Hpre as (p & nid & c & <- & Hc & He). pose proof He as (Hl & _ & Hnd & _).
    destruct (contract_evict eps s sid p c nid L Hok He HL) as (rec_o & Hcn). exists rec_o.
    simpl. unfold stmt_evict_clone. rewrite Hl, Hnd. unfold ncopy in Hc.
    destruct (nodes s !! nid) as [n|]; [|discriminate]. simpl in Hc. rewrite Hc. exact Hcn.
  - destruct Hpre as (p & nid & <- & He). pose proof He as (Hl & _).
    destruct (contract_evict eps s sid p p nid L Hok He HL) as (rec_o & Hcn). exists rec_o.
    simpl. unfold stmt_evict, with_task. rewrite Hl. exact Hcn.
Qed.

(* LIFO induction: run the operations, then undo what was recorded in reverse order *)
Lemma discard_chain eps sid ops : forall s L,
  sess_ok s -> default [] (stmts s !! sid) = L -> NoDup (map tx_tid ops) -> Forall (tx_pre s) ops ->
  let s' := run eps s (map (tx_op sid) ops) in
  exists recs, default [] (stmts s' !! sid) = L ++ recs /\
    let s'' := fold_left (undo_op eps) (rev recs) s' in
    hv s'' = hv s /\ jv s'' = jv s /\ nv s'' = nv s /\
    (forall k d, shamt (hshare s'') k d = shamt (hshare s) k d) /\
    local_on (list_to_set (map tx_tid ops)) s s'' /\ sess_ok s'' /\ lg s'' = lg s.
Proof.
  induction ops as [|o rest IH]; intros s L Hok HL Hnd Hpre; cbv zeta.
  - exists []. split; [rewrite app_nil_r; exact HL|]. simpl.
    do 4 (split; [reflexivity|]). split; [apply local_on_refl|]. split; [exact Hok|reflexivity].
  - simpl in Hnd. apply NoDup_cons in Hnd as [Hnotin Hnd']. apply Forall_cons in Hpre as [Hpo Hpr].
    destruct (tx_step eps sid s o L Hok Hpo HL) as (rec_o & Hst1 & Hall & Hok1 & Hloc1 & Hlg1 & Hundo).
    set (s1 := fst (step eps s (tx_op sid o))) in *.
    assert (Hpre1 : Forall (tx_pre s1) rest).
    { apply Forall_forall. intros o' Ho'. eapply tx_pre_frame; [exact Hloc1| |eapply Forall_forall; eauto].
      intros Hin. apply elem_of_singleton in Hin. apply Hnotin. rewrite <- Hin. apply elem_of_list_fmap. eauto. }
    destruct (IH s1 (L ++ rec_o) Hok1 Hst1 Hnd' Hpre1) as (recs & Hst' & Hhv & Hjv & Hnv & Hsh & Hloc & Hok'' & Hlg'').
    change (run eps s (map (tx_op sid) (o :: rest))) with (run eps s1 (map (tx_op sid) rest)).
    set (s' := run eps s1 (map (tx_op sid) rest)) in *.
    set (s'' := fold_left (undo_op eps) (rev recs) s') in *.
    exists (rec_o ++ recs). split; [rewrite Hst', app_assoc; reflexivity|].
    rewrite rev_app_distr, fold_left_app. fold s''.
    assert (Hi : tx_tid o ∉ (list_to_set (map tx_tid rest) : gset positive)).
    { rewrite elem_of_list_to_set. exact Hnotin. }
    pose proof Hloc as (A & _ & _ & D).
    destruct (Hundo s'' Hok'' Hhv Hjv Hnv Hsh (A _ Hi) D) as (H1 & H2 & H3 & H4 & H5 & H6 & H7).
    do 4 (split; [assumption|]). split; [|split; [exact H6|congruence]].
    eapply local_on_mono; [|exact (local_on_trans _ _ _ _ _ (local_on_trans _ _ _ _ _ Hloc1 Hloc) H5)].
    simpl. clear. set_solver.
Qed.

(* Discard restores the session: any number of Allocate / Pipeline / Evict / Evict-with-the-
   node's-clone operations recorded in ONE statement on pairwise distinct tasks that meet the
   call sites' preconditions (operations that fail on the way are allowed: they leave no
   trace and are not recorded) *)
Theorem discard_restores eps s sid ops :
  sess_ok s -> default [] (stmts s !! sid) = [] -> NoDup (map tx_tid ops) -> Forall (tx_pre s) ops ->
  let s' := run eps s (map (tx_op sid) ops) in
  sess_eqv s (stmt_discard eps s' sid) /\
  binds (stmt_discard eps s' sid) = binds s /\ evicts (stmt_discard eps s' sid) = evicts s.
Proof.
  intros Hok HL Hnd Hpre. cbv zeta.
  destruct (discard_chain eps sid ops s [] Hok HL Hnd Hpre) as (recs & Hst & Hhv & Hjv & Hnv & Hsh & _ & Hok'' & Hlg).
  unfold stmt_discard. rewrite Hst. cbn [app].
  set (s'' := fold_left (undo_op eps) (rev recs) (run eps s (map (tx_op sid) ops))) in *.
  split; [|unfold lg in Hlg; inversion Hlg; auto].
  apply sk_sess_eqv; [exact (proj1 Hok)|exact (proj1 Hok'')|symmetry; exact Hhv|symmetry; exact Hjv|symmetry; exact Hnv|].
  apply share_same_amt. intros k d. symmetry. apply Hsh.
Qed.

Lemma evictable_to_with s p nid : evictable s p nid -> evictable_with s p p nid.
Proof.
  intros (Hl & Hst & Hnd & Hjk & (n & c & Hn & Hc & Hv) & Hcov).
  repeat (split; [first [assumption|reflexivity]|]). split; [|exact Hcov].
  unfold nvcopy, nv. rewrite lookup_fmap, Hn. simpl. rewrite lookup_fmap, Hc. simpl. congruence.
Qed.
