(* C01: effect of the Statement / Session primitives on task statuses (only what the gang
   theorem needs; the resource ledgers are C07's business, what happens to statements and to the
   bind log is in GangLemmasEvict). *)
From stdpp Require Import gmap.
From Coq Require Import ZArith.
From V Require Import Base.Res Sched.LedgerModel Sched.StmtModel Sched.GangModel Sched.LedgerInvP
                      Sched.GangLemmas Sched.GangLemmasInv Sched.GangLemmasEvict.
Open Scope Z_scope.

(* agreement on heap / jobs / refuse_bind *)
Definition hj_eq (s s' : sess) : Prop :=
  heap s' = heap s /\ jobs s' = jobs s /\ refuse_bind s' = refuse_bind s.

Lemma gang_inv_hj s s' : gang_inv s -> hj_eq s s' -> gang_inv s'.
Proof. intros H (Hh & Hj & _). unfold gang_inv in *. by rewrite Hh, Hj. Qed.

Lemma ssn_node_remove_hj s p : hj_eq s (ssn_node_remove s p).
Proof. unfold ssn_node_remove, hj_eq. repeat case_match; done. Qed.

Section WithEps.
Variable eps : Z.

(* ---- unallocate ---- *)
Lemma unallocate_spec s p : gang_inv s -> heap s !! t_id p = Some p ->
  exists p', touched s (unallocate_with s p) (t_id p) p p' /\
    (t_status p' = Pending \/ t_status p' = t_status p) /\
    (is_Some (jobs s !! t_job p) -> t_status p' = Pending).
Proof.
  intros Hinv Hp. unfold unallocate_with.
  destruct (touched_update s p Pending Hinv Hp) as (found & s1 & p1 & -> & Hf & Hst & Ht).
  destruct (ssn_node_remove_hj s1 p1) as (Hh2 & Hj2 & Hr2).
  exists (set_node p1 None). split; [by apply (touched_set_node _ s1)|]. simpl. split.
  - destruct found; [by left|right; by subst].
  - intros ->%Hf. exact Hst.
Qed.

(* ---- Statement.Allocate / Pipeline ---- *)
Definition placed_status (k : opkind) : status := match k with KAllocate => Allocated | _ => Pipelined end.

Lemma node_step_touched s s2 i p p2 nid s3 p3 ok : touched s s2 i p p2 -> node_step eps s2 p2 nid = (s3, p3, ok) ->
  touched s s3 i p p3 /\ t_status p3 = t_status p2.
Proof.
  intros Ht. unfold node_step. destruct (nodes s2 !! nid) as [n|]; [|by intros [= <- <- <-]].
  destruct (node_add eps n p2) as [[n' p']|e] eqn:En; intros [= <- <- <-]; [|done].
  apply node_add_task in En as ->. split; [|done]. by apply (touched_set_node _ s2).
Qed.

Lemma place_with_spec s sid k p nid s' r : gang_inv s -> heap s !! t_id p = Some p ->
  place_with eps s sid k p nid = (s', r) ->
  exists p', touched s s' (t_id p) p p' /\
    match r with ROk => t_status p' = placed_status k | _ => t_status p' = Pending \/ t_status p' = t_status p end.
Proof.
  intros Hinv Hp. unfold place_with. fold (placed_status k).
  destruct (touched_update s p (placed_status k) Hinv Hp) as (found & s1 & p1 & -> & Hf & Hst & Ht1).
  set (p2 := set_node p1 (Some nid)). set (s2 := put_task s1 p2).
  assert (Ht2 : touched s s2 (t_id p) p p2) by (by apply (touched_set_node _ s1)).
  fold (node_step eps s2 p2 nid). destruct (node_step eps s2 p2 nid) as [[s3 p3] nodeok] eqn:E3.
  destruct (node_step_touched _ _ _ _ _ _ _ _ _ Ht2 E3) as [Ht3 Hst3]. simpl in Hst3. unfold h_alloc.
  set (s4 := upd_handlers s3 _ _).
  assert (Ht4 : touched s s4 (t_id p) p p3) by (by apply (touched_same _ s3)).
  destruct (found && nodeok && negb (bool_decide (t_id p3 ∈ herr s3))) eqn:Eok; intros [= <- <-].
  - exists p3. apply andb_true_iff in Eok as [[-> _]%andb_true_iff _].
    split; [by apply (touched_same _ s4)|congruence].
  - pose proof (tc_meta _ _ _ _ _ Ht4) as (Hid3 & Hjob3 & _).
    assert (Hp4 : heap s4 !! t_id p3 = Some p3) by (rewrite Hid3; exact (touched_new _ _ _ _ _ Ht4)).
    destruct (unallocate_spec s4 p3 (tc_inv _ _ _ _ _ Ht4) Hp4) as (p5 & Ht5 & Hst5 & Hfound5).
    rewrite Hid3 in Ht5. exists p5. split; [by eapply touched_trans|].
    destruct found.
    + left. apply Hfound5. rewrite Hjob3. destruct (proj1 Hf eq_refl) as [j Ej].
      destruct (jobs_static_some _ _ _ _ (tc_jobs _ _ _ _ _ Ht4) Ej) as (j' & Ej' & _). eauto.
    + subst p1. destruct Hst5 as [?|Hst5]; [by left|right]. congruence.
Qed.

(* ---- one bind: AddBindTask accepted, then UpdateTaskStatus(Binding) ---- *)
Definition bind_task (s : sess) (p : task) : bool * sess * task :=
  ssn_update_status (upd_logs s ((t_id p, t_node p) :: binds s) (evicts s)) p Binding.

Lemma bind_task_spec s p : gang_inv s -> heap s !! t_id p = Some p -> is_Some (jobs s !! t_job p) ->
  exists s' p', bind_task s p = (true, s', p') /\ touched s s' (t_id p) p p' /\ t_status p' = Binding /\
    stmts s' = stmts s /\ binds s' = (t_id p, t_node p) :: binds s.
Proof.
  intros Hinv Hp Hsome. unfold bind_task. set (s0 := upd_logs s _ _).
  destruct (touched_update s0 p Binding Hinv Hp) as (found & s1 & p1 & E & Hf & Hst & Ht).
  assert (found = true) as -> by (by apply Hf). destruct (update_frame _ _ _ _ _ _ E) as [Hb Hs].
  exists s1, p1. split; [done|]. split; [|done]. destruct Ht. by split.
Qed.

(* the tasks of B are Binding, every other task has the status it had *)
Definition bound_rel (B : list positive) (i : positive) (t t' : task) : Prop :=
  (i ∈ B -> t_status t' = Binding) /\ (i ∉ B -> t_status t' = t_status t).

(* s' is s after the tasks of B, and only they, have been handed to the binder *)
Record bound_batch (s s' : sess) (B : list positive) : Prop := {
  bb_ev : evolve (bound_rel B) s s';
  bb_stmts : stmts s' = stmts s;
  bb_binds : exists nb, binds s' = nb ++ binds s /\ forall b, b ∈ nb -> fst b ∈ B;
}.

Lemma bound_batch_refl s : gang_inv s -> bound_batch s s [].
Proof.
  intros Hinv. split; [|done|].
  - apply evolve_refl; [done|]. intros i t. split; [by intros ?%elem_of_nil|done].
  - exists []. split; [done|]. by intros b ?%elem_of_nil.
Qed.

Lemma bound_batch_step s s1 B i p :
  bound_batch s s1 B -> heap s1 !! i = Some p -> is_Some (jobs s1 !! t_job p) ->
  exists s2 p2, bind_task s1 p = (true, s2, p2) /\ bound_batch s s2 (B ++ [i]).
Proof.
  intros [Hev Hst (nb & Hnb & HnbB)] Hp Hsome.
  assert (Hid : t_id p = i) by (destruct (ev_inv _ _ _ Hev) as (Ha & _); by apply Ha).
  rewrite <- Hid in Hp. destruct (bind_task_spec s1 p (ev_inv _ _ _ Hev) Hp Hsome) as (s2 & p2 & E & Ht & Hb & Hs2 & Hb2).
  rewrite Hid in *. exists s2, p2. split; [done|]. split.
  - eapply evolve_touched; [exact Hev|exact Ht| |].
    + intros j t u Hne _ _ [HB HnB]. split; [intros [?|?%elem_of_list_singleton]%elem_of_app; [auto|done]|].
      intros Hn. apply HnB. intros ?. apply Hn, elem_of_app. by left.
    + intros t _ _ _. split; [done|]. intros Hn. destruct Hn. apply elem_of_app. right. by left.
  - congruence.
  - exists ((i, t_node p) :: nb). split; [rewrite Hb2, Hnb; done|].
    intros b [->|Hb']%elem_of_cons; apply elem_of_app; [right; by left|left; by apply HnbB].
Qed.

(* the tasks a bound_batch from s may bind: the tasks of a job jid that exists *)
Definition bindable (s : sess) (jid i : positive) : Prop := exists t, heap s !! i = Some t /\ t_job t = jid.

Lemma bindable_later s s1 B jid i : bound_batch s s1 B -> is_Some (jobs s !! jid) -> bindable s jid i ->
  exists p, heap s1 !! i = Some p /\ is_Some (jobs s1 !! t_job p).
Proof.
  intros Hbb [j Ej] (t & Et & <-). destruct (evolve_fwd _ _ _ _ _ (bb_ev _ _ _ Hbb) Et) as (t1 & E1 & (_ & Hjob & _) & _).
  destruct (jobs_static_some _ _ _ _ (ev_jobs _ _ _ (bb_ev _ _ _ Hbb)) Ej) as (j' & Ej' & _).
  exists t1. split; [done|]. rewrite Hjob. eauto.
Qed.

(* ---- Statement.Commit ---- *)
Definition alloc_tasks (ops : list oprec) : list positive :=
  omap (fun o => match op_kind o with KAllocate => Some (op_task o) | _ => None end) ops.

Lemma elem_of_alloc_tasks ops i : i ∈ alloc_tasks ops <-> exists o, o ∈ ops /\ op_kind o = KAllocate /\ op_task o = i.
Proof.
  unfold alloc_tasks. rewrite elem_of_list_omap. split.
  - intros (o & Ho & E). exists o. destruct (op_kind o); try done. by injection E as <-.
  - intros (o & Ho & Hk & <-). exists o. by rewrite Hk.
Qed.

Lemma commit_fold s jid ops : forall s1 B,
  bound_batch s s1 B -> refuse_bind s = ∅ -> is_Some (jobs s !! jid) ->
  Forall (fun o => op_kind o <> KEvict /\ bindable s jid (op_task o)) ops ->
  bound_batch s (fold_left (commit_op eps) ops s1) (B ++ alloc_tasks ops).
Proof.
  induction ops as [|o ops IH]; intros s1 B Hbb Href Hj Hall.
  - simpl. by rewrite app_nil_r.
  - apply Forall_cons in Hall as [[Hk Hbind] Hall]. simpl.
    destruct (bindable_later _ _ _ _ _ Hbb Hj Hbind) as (p & Ep & Hsome).
    unfold commit_op at 2, alloc_tasks. rewrite Ep. simpl. destruct (op_kind o); [done|by apply IH|].
    rewrite bool_decide_false by (rewrite (ev_refuse _ _ _ (bb_ev _ _ _ Hbb)), Href; set_solver).
    destruct (bound_batch_step s s1 B (op_task o) p Hbb Ep Hsome) as (s2 & p2 & E & Hbb2).
    unfold bind_task in E. rewrite E. simpl.
    specialize (IH s2 (B ++ [op_task o]) Hbb2 Href Hj Hall). by rewrite <- app_assoc in IH.
Qed.

(* ---- Session.Allocate's dispatch loop ---- *)
Lemma dispatch_all_spec s jid l : forall s1 B,
  bound_batch s s1 B -> refuse_bind s = ∅ -> is_Some (jobs s !! jid) -> Forall (bindable s jid) l ->
  exists s2, dispatch_all s1 l = (s2, true) /\ bound_batch s s2 (B ++ l).
Proof.
  induction l as [|i l IH]; intros s1 B Hbb Href Hj Hall.
  - exists s1. simpl. by rewrite app_nil_r.
  - apply Forall_cons in Hall as [Hbind Hall]. simpl.
    destruct (bindable_later _ _ _ _ _ Hbb Hj Hbind) as (p & Ep & Hsome).
    unfold dispatch. rewrite Ep.
    rewrite bool_decide_false by (rewrite (ev_refuse _ _ _ (bb_ev _ _ _ Hbb)), Href; set_solver).
    destruct (bound_batch_step s s1 B i p Hbb Ep Hsome) as (s2 & p2 & E & Hbb2).
    assert (Hid : t_id p = i) by (destruct (ev_inv _ _ _ (bb_ev _ _ _ Hbb)) as (Ha & _); by apply Ha).
    unfold bind_task in E. rewrite Hid in E. rewrite E.
    destruct (IH s2 (B ++ [i]) Hbb2 Href Hj Hall) as (s3 & E3 & Hbb3).
    exists s3. split; [done|]. by rewrite <- app_assoc in Hbb3.
Qed.

(* ---- Statement.Discard ---- *)
(* tasks of P may have gone back to Pending, nothing else has changed its status *)
Definition undone_rel (P : positive -> Prop) (i : positive) (t t' : task) : Prop :=
  t_status t' = t_status t \/ (t_status t' = Pending /\ P i).

Lemma discard_fold (P : positive -> Prop) s ops : forall s1,
  evolve (undone_rel P) s s1 ->
  Forall (fun o => op_kind o <> KEvict /\ P (op_task o)) ops ->
  evolve (undone_rel P) s (fold_left (undo_op eps) ops s1).
Proof.
  induction ops as [|o ops IH]; intros s1 Hev Hall; [done|].
  apply Forall_cons in Hall as [[Hk HP] Hall]. simpl. apply IH; [|done]. unfold undo_op.
  destruct (heap s1 !! op_task o) as [p|] eqn:Ep; [|done].
  assert (Hid : t_id p = op_task o) by (destruct (ev_inv _ _ _ Hev) as (Ha & _); by apply Ha).
  rewrite <- Hid in Ep. destruct (unallocate_spec s1 p (ev_inv _ _ _ Hev) Ep) as (p' & Ht & Hst & _).
  rewrite Hid in Ht. destruct (op_kind o); [done| |].
  all: eapply evolve_touched; [exact Hev|exact Ht|done|]; intros t _ _ [H|[H _]]; destruct Hst as [Hst|Hst];
    first [left; congruence|right; split; [congruence|done]].
Qed.

End WithEps.
