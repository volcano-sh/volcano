(* Property C02: witnesses for the eviction theorems.
   - commit_refused_eviction_refuted: "Commit keeps every node within capacity" is FALSE when the
     evictor refuses an eviction: the victim is un-evicted while the preemptor stays pipelined on
     the room the victim was going to release (documented limit; C07 owns refusals).
   - idle_plus_releasing_overcounts: what the seeded mutant C02-2 does (available = Idle +
     Releasing instead of FutureIdle): the second reclaimer passes the test without an eviction
     and the node leaves "within capacity".
   - non-vacuity of evict_history_safe. *)
From stdpp Require Import gmap.
From Coq Require Import ZArith Lia List.
From V Require Import Base.Res Base.ResLemmas Sched.LedgerModel Sched.StmtModel Sched.LedgerCodec Sched.GangModel
                      Sched.CycleModel Sched.LedgerInvP Sched.NodeCapLemmas Sched.NodeCapLemmasCycle Sched.NodeCapCheck
                      Sched.NodeCapLemmasEvict Sched.NodeCapSelectVictims.
Import ListNotations.
Open Scope Z_scope.

(* one node of 2000 milli-cpu; victims t1, t2 (1000 each, Running, job 1); preemptors t3, t4
   (1000 each, Pending, job 2) *)
Definition ev_nodes : list node_spec := [mkNodeSpec 1 true 2000 1024 10 0].
Definition ev_jobs : list job_spec := [mkJobSpec 1 1 0 []; mkJobSpec 2 1 1 []].
Definition ev_tasks : list task_spec :=
  [mkTaskSpec 1 1 1 0 1000 256 0 Running (Some 1%positive) true; mkTaskSpec 2 1 1 0 1000 256 0 Running (Some 1%positive) true;
   mkTaskSpec 3 2 1 0 1000 256 0 Pending None true; mkTaskSpec 4 2 1 0 1000 256 0 Pending None true].
Definition ev_sess : sess := build 2 ev_nodes ev_jobs ev_tasks.

Definition node1 (s : sess) : node := default (empty_node (mkNodeSpec 1 false 0 0 0 0)) (nodes s !! 1%positive).

(* the statement [Evict t1; Pipeline t3 -> n1], then the evictor refuses t1 *)
Definition ev_before_commit : sess :=
  StmtModel.run 2 ev_sess [OEvictClone 1 1; OPipeline 1 3 1; OSetFaults [] [] [1%positive] true]%positive.

Theorem commit_refused_eviction_refuted :
  nwc_b 2 (node1 ev_sess) = true /\ nwc_b 2 (node1 ev_before_commit) = true /\
  map (fun o => (op_kind o, op_task o)) (default [] (stmts ev_before_commit !! 1%positive)) = [(KEvict, 1%positive); (KPipeline, 3%positive)] /\
  elements (refuse_evict ev_before_commit) = [1%positive] /\
  ~ node_within_capacity 2 (node1 (stmt_commit 2 ev_before_commit 1)).
Proof.
  split; [vm_compute; reflexivity|]. split; [vm_compute; reflexivity|]. split; [vm_compute; reflexivity|].
  split; [vm_compute; reflexivity|].
  intros [_ H]. specialize (H DCpu). destruct H as [_ H]; [discriminate|].
  assert (E : amt (n_idle (node1 (stmt_commit 2 ev_before_commit 1))) DCpu +
              amt (n_releasing (node1 (stmt_commit 2 ev_before_commit 1))) DCpu -
              amt (n_pipelined (node1 (stmt_commit 2 ev_before_commit 1))) DCpu = -16000) by (vm_compute; reflexivity).
  lia.
Qed.

Lemma gset_empty_by_elements (X : gset positive) : elements X = [] -> X = ∅.
Proof. intros H. apply leibniz_equiv. apply elements_empty_iff. exact H. Qed.

(* the same statement committed while the evictor refuses nothing: nodes untouched *)
Example commit_without_refusal_keeps :
  nodes (stmt_commit 2 (StmtModel.run 2 ev_sess [OEvictClone 1 1; OPipeline 1 3 1]%positive) 1) =
  nodes (StmtModel.run 2 ev_sess [OEvictClone 1 1; OPipeline 1 3 1]%positive).
Proof.
  apply stmt_commit_without_refusal; [apply gset_empty_by_elements; vm_compute; reflexivity|].
  assert (H : forallb (fun o => negb (bool_decide (op_kind o = KAllocate)))
                (default [] (stmts (StmtModel.run 2 ev_sess [OEvictClone 1 1; OPipeline 1 3 1]%positive) !! 1%positive)) = true) by (vm_compute; reflexivity).
  rewrite forallb_forall in H. apply Forall_forall. intros o Ho. specialize (H o Ho).
  apply negb_true_iff, bool_decide_eq_false in H. exact H.
Qed.

(* ---- the ledger of n1 ---- *)
Definition ev_n1 : node := node1 ev_sess.
Definition ev_t3 : task := task_of_spec 2 (mkTaskSpec 3 2 1 0 1000 256 0 Pending None true).
Definition ev_t4 : task := task_of_spec 2 (mkTaskSpec 4 2 1 0 1000 256 0 Pending None true).

(* evict t1, pipeline t3: FutureIdle is used up.  t4 does NOT pass the FutureIdle test ... *)
Definition ev_n1' : node := fst (npipeline 2 (nevict 2 ev_n1 1) ev_t3).

Example second_reclaimer_needs_a_victim :
  snd (npipeline 2 (nevict 2 ev_n1 1) ev_t3) = true /\
  less_equal 2 (t_init ev_t4) (future_idle ev_n1') DZero = false /\
  snd (npipeline 2 (nevict 2 ev_n1' 2) ev_t4) = true /\
  nwc_b 2 (fst (npipeline 2 (nevict 2 ev_n1' 2) ev_t4)) = true.
Proof. vm_compute. repeat split; reflexivity. Qed.

(* ... but it passes "Idle + Releasing" (the seeded mutant C02-2), and pipelining it without a
   second eviction overcommits the node's future *)
Example idle_plus_releasing_overcounts :
  less_equal 2 (t_init ev_t4) (add (n_idle ev_n1') (n_releasing ev_n1')) DZero = true /\
  match node_add 2 ev_n1' (set_status ev_t4 Pipelined) with
  | inl (n', _) => nwc_b 2 n'
  | inr _ => true
  end = false.
Proof. vm_compute. split; reflexivity. Qed.

(* non-vacuity of evict_history_safe: n1 satisfies nbase, and the history above is one of its histories *)
Example ev_n1_base : nbase 2 ev_n1.
Proof.
  constructor.
  - vm_compute. reflexivity.
  - apply node_safe_b_sound; [lia|vm_compute; reflexivity].
  - intros j c Hl Hst. exfalso.
    assert (H : bool_decide (map_Forall (fun _ c => t_status c <> Pipelined) (n_tasks ev_n1)) = true) by (vm_compute; reflexivity).
    apply bool_decide_eq_true in H. apply (H j c Hl Hst).
  - split; [vm_compute; reflexivity|]. intros j c Hl.
    assert (H : bool_decide (map_Forall (fun j c => t_id c = j /\ t_node c = Some (n_id ev_n1)) (n_tasks ev_n1)) = true) by (vm_compute; reflexivity).
    apply bool_decide_eq_true in H. apply (H j c Hl).
Qed.

(* ---------- topology-aware preemption's dry run (seeded mutant C02-r5-1) ---------- *)

(* n: 8 cpu; v1, v2, v3 running 2 cpu each (2 idle); A (4 cpu) has been pipelined after evicting v1:
   Idle 2, Releasing 2, Pipelined 4 (Pipelined > Releasing).  B (3 cpu) needs BOTH v2 and v3. *)
Definition tp_nodes : list node_spec := [mkNodeSpec 1 true 8000 1024 20 0].
Definition tp_tasks : list task_spec :=
  [mkTaskSpec 1 1 1 0 2000 16 0 Running (Some 1%positive) true; mkTaskSpec 2 1 1 0 2000 16 0 Running (Some 1%positive) true;
   mkTaskSpec 3 1 1 0 2000 16 0 Running (Some 1%positive) true;
   mkTaskSpec 4 2 1 2 4000 16 0 Pending None true; mkTaskSpec 5 2 1 1 3000 16 0 Pending None true].
Definition tp_n0 : node := node1 (build 2 tp_nodes ev_jobs tp_tasks).
Definition tp_A : task := task_of_spec 2 (mkTaskSpec 4 2 1 2 4000 16 0 Pending None true).
Definition tp_B : task := task_of_spec 2 (mkTaskSpec 5 2 1 1 3000 16 0 Pending None true).
Definition tp_n1 : node := fst (npipeline 2 (nevict 2 tp_n0 1) tp_A).
Definition all_votes_yes (_ : node) : bool := true.

(* the code's dry run: the final victims are v2 and v3, and the node stays within capacity *)
Example select_victims_future_idle :
  select_victims 2 all_votes_yes future_idle tp_B tp_n1 [2; 3]%positive = Some [3; 2]%positive /\
  match preempt_on 2 tp_B tp_n1 [3; 2]%positive with inl (n', _) => nwc_b 2 n' | inr _ => false end = true.
Proof. vm_compute. split; reflexivity. Qed.

(* the reprieve test against Idle instead of FutureIdle (mutant C02-r5-1): v3 is reprieved because the
   dry-run Idle (which counts the removed victims, but not what is already promised to A) still
   holds B; only v2 is evicted and B is pipelined: Pipelined 7 against Idle + Releasing 6 *)
Definition select_victims_idle_reprieve (p : task) (n : node) (q : list positive) : option (list positive) :=
  let '(dry, pots) := remove_until 2 all_votes_yes future_idle p n q [] in
  match pots with
  | [] => None
  | _ => if pfits 2 all_votes_yes future_idle p dry
         then match reprieve 2 all_votes_yes n_idle p n dry pots [] with Some (_, vs) => Some vs | None => None end
         else None
  end.

Theorem reprieve_against_idle_refuted :
  nwc_b 2 tp_n1 = true /\
  select_victims_idle_reprieve tp_B tp_n1 [2; 3]%positive = Some [2]%positive /\
  match preempt_on 2 tp_B tp_n1 [2]%positive with
  | inl (n', _) => (nwc_b 2 n', fut_amt n' DCpu)
  | inr _ => (true, 0)
  end = (false, -16000).
Proof. vm_compute. repeat split; reflexivity. Qed.

Example tp_n1_base : nbase 2 tp_n1.
Proof.
  constructor.
  - vm_compute. reflexivity.
  - apply node_safe_b_sound; [lia|vm_compute; reflexivity].
  - intros j c Hl Hst. left. vm_compute. discriminate.
  - split; [vm_compute; reflexivity|]. intros j c Hl.
    assert (H : bool_decide (map_Forall (fun j c => t_id c = j /\ t_node c = Some (n_id tp_n1)) (n_tasks tp_n1)) = true) by (vm_compute; reflexivity).
    apply bool_decide_eq_true in H. apply (H j c Hl).
Qed.
