(* C01: the gang theorem from the shape hypothesis [kept_free] of GangLemmasShape instead of
   [guarded] (still a hypothesis about the run, see there), composition with preempt / reclaim
   histories, a consecutive-cycles history theorem, the bind-fault boundary, and richer examples. *)
From stdpp Require Import gmap.
From Coq Require Import ZArith.
From V Require Import Base.Res Sched.LedgerModel Sched.StmtModel Sched.GangModel Sched.CycleModel Sched.LedgerInvP
                      Sched.GangLemmas Sched.GangLemmasInv Sched.GangLemmasStmt Sched.GangLemmasCycle
                      Sched.GangLemmasShape Sched.GangLemmasMain Sched.GangLemmasEvict
                      Sched.LedgerCodec Sched.CycleCodec Sched.LedgerInv Sched.LedgerLemmasSound.
Open Scope Z_scope.

(* a session as a snapshot delivers it: no tentative allocation with a non-empty request *)
Definition no_tentative (s : sess) : Prop := kinv s ∅.

Lemma run_app eps w a b : CycleModel.run eps w (a ++ b) = CycleModel.run eps (CycleModel.run eps w a) b.
Proof. unfold CycleModel.run. by rewrite fold_left_app. Qed.

Lemma guarded_app eps a : forall w b, guarded eps w (a ++ b) <-> guarded eps w a /\ guarded eps (CycleModel.run eps w a) b.
Proof.
  induction a as [|o a IH]; intros w b; simpl; [tauto|].
  rewrite IH. unfold CycleModel.run. simpl. tauto.
Qed.

(* the gang theorem from kept_free *)

Theorem gang_ok_one_allocate_core eps w ops :
  gang_inv (w_sess w) -> refuse_bind (w_sess w) = ∅ -> stmts (w_sess w) = ∅ -> no_tentative (w_sess w) ->
  kept_free eps w ∅ ops ->
  binds_ok (w_sess w) (w_sess (CycleModel.run eps w ops)) /\ gang_inv (w_sess (CycleModel.run eps w ops)).
Proof.
  intros Hinv Href Hst Hnt Hkf. apply bind_only_when_gang_ok_core; try done.
  eapply kept_free_guarded; [by apply winv_intro|exact Hnt|exact Hkf].
Qed.

Theorem gang_ok_one_allocate eps w ops :
  ledger_inv (w_sess w) -> heap_members (w_sess w) ->
  refuse_bind (w_sess w) = ∅ -> stmts (w_sess w) = ∅ -> no_tentative (w_sess w) ->
  kept_free eps w ∅ ops ->
  binds_ok (w_sess w) (w_sess (CycleModel.run eps w ops)).
Proof.
  intros Hl Hm Href Hst Hnt Hkf.
  exact (proj1 (gang_ok_one_allocate_core eps w ops (ledger_inv_gang_inv _ Hl Hm) Href Hst Hnt Hkf)).
Qed.

(* purely syntactic: every job attempted at most once, the attempted tasks exist with a non-empty
   request in the snapshot; backfill placements anywhere *)
Theorem gang_ok_attempt_once eps w ops :
  ledger_inv (w_sess w) -> heap_members (w_sess w) ->
  refuse_bind (w_sess w) = ∅ -> stmts (w_sess w) = ∅ -> no_tentative (w_sess w) ->
  NoDup (attempt_jobs ops) -> static_non_be (w_sess w) ops ->
  binds_ok (w_sess w) (w_sess (CycleModel.run eps w ops)).
Proof.
  intros Hl Hm Href Hst Hnt Hnd Hsn.
  pose proof (ledger_inv_gang_inv _ Hl Hm) as Hinv.
  apply (gang_ok_one_allocate eps w ops Hl Hm Href Hst Hnt).
  apply (nodup_kept_free eps (w_sess w));
    [by apply winv_intro|exact Hnt|by apply persist_refl|done|intros j _; set_solver|done].
Qed.

(* allocate / backfill followed by preempt / reclaim in the same session *)

(* the statements preempt / reclaim create are fresh: numbered from w_next_stmt on *)
Definition fresh_ids (w : world) (sid : positive) : Prop := (w_next_stmt w <= sid)%positive.

Theorem alloc_then_evict_no_new_bind eps w cops eops :
  gang_inv (w_sess w) -> refuse_bind (w_sess w) = ∅ -> stmts (w_sess w) = ∅ ->
  guarded eps w cops ->
  let w' := CycleModel.run eps w cops in
  Forall (evict_alphabet (fresh_ids w')) eops ->
  binds (StmtModel.run eps (w_sess w') eops) = binds (w_sess w') /\
  binds_ok (w_sess w) (w_sess w').
Proof.
  intros Hinv Href Hst Hg w' He. subst w'.
  destruct (run_spec eps cops w (winv_intro w Hinv Href Hst) Hg) as [(Hinv' & Href' & Hfresh') _].
  split.
  - apply (evict_ops_no_bind eps _ eops _ He).
    intros sid l HS E. rewrite (Hfresh' sid HS) in E. done.
  - exact (proj1 (bind_only_when_gang_ok_core eps w cops Hinv Href Hst Hg)).
Qed.

Fixpoint kept_freeb (eps : Z) (w : world) (K : gset positive) (ops : list cop) : bool :=
  match ops with
  | [] => true
  | CAttempt jid places :: r =>
      bool_decide (jid ∉ K) && places_non_beb (w_sess w) places &&
      kept_freeb eps (CycleModel.step eps w (CAttempt jid places)).1
                 (match attempt_decision eps w jid places with DCommit => K | _ => {[jid]} ∪ K end) r
  | CBackfill t n :: r => kept_freeb eps (CycleModel.step eps w (CBackfill t n)).1 K r
  end.

Lemma kept_freeb_sound eps ops : forall w K, kept_freeb eps w K ops = true -> kept_free eps w K ops.
Proof.
  induction ops as [|o ops IH]; intros w K; [done|]. destruct o as [jid places|t n]; simpl; [|apply IH].
  intros [[H1%bool_decide_eq_true H2%places_non_beb_sound]%andb_true_iff H3%IH]%andb_true_iff. done.
Qed.

Definition no_tentativeb (s : sess) : bool :=
  forallb (fun it : positive * task => negb (bool_decide (t_status it.2 = Allocated)) || t_best_effort it.2)
          (map_to_list (heap s)).
Lemma no_tentativeb_sound s : no_tentativeb s = true -> no_tentative s.
Proof.
  intros H i t Et Hs Hb. pose proof (forallb_map_to_list _ _ _ _ H Et) as H'. simpl in H'.
  rewrite bool_decide_true in H' by done. simpl in H'. congruence.
Qed.

(* with a refused AddBindTask in the middle of a Commit the earlier binds of the same gang stay
   sent: refuse_bind = {} cannot be dropped from the gang theorem (statement.go 426-433) *)
Definition fault_world : world :=
  let w := world_of (ex_case ex_cops 7000) in
  mkWorld (upd_faults (w_sess w) ∅ {[3%positive]} ∅ true) (w_queues w) (w_next_stmt w).

Definition fault_check : bool :=
  let w := fault_world in
  ginvb (heap (w_sess w)) (jobs (w_sess w)) && bool_decide (stmts (w_sess w) = ∅) &&
  no_tentativeb (w_sess w) && kept_freeb eps0 w ∅ ex_cops &&
  partial_bind_b (w_sess (CycleModel.run eps0 w ex_cops)) (2%positive, Some 1%positive) 2.
Lemma fault_check_true : fault_check = true.
Proof. vm_compute. reflexivity. Qed.

(* the indexes of a job recomputed from the heap *)
Definition index_of (h : gmap positive task) (ids : gset positive) : gmap positive (gset positive) :=
  list_to_map (map (fun st => (skey st, filter (fun i => status_at h i = Some st) ids)) all_status).

Lemma idx_set_index_of h ids st : idx_set (index_of h ids) st = filter (fun i => status_at h i = Some st) ids.
Proof.
  unfold idx_set, index_of.
  rewrite (elem_of_list_to_map_1 _ (skey st) (filter (fun i => status_at h i = Some st) ids)); [done| |].
  - apply (bool_decide_unpack _). vm_compute. reflexivity.
  - apply elem_of_list_In. exact (in_map _ all_status st (all_status_complete st)).
Qed.

Definition reindex (h : gmap positive task) (j : job) : job :=
  mkJob (j_id j) (j_queue j) (j_min j) (j_role_min j) (j_role_total j) (j_tasks j) (index_of h (j_tasks j))
        (j_alloc j) (j_total j) (j_subs j) (j_task_sub j).

(* the session the next cycle starts from, as far as the gang theorem looks at it: binds fed back
   (Binding -> Bound), tentative statuses gone, indexes recomputed from the new statuses, no
   statement, empty logs.  Node and job resource ledgers are NOT rebuilt here (C07 / C02 own them). *)
Definition next_sess (s : sess) : sess :=
  let h := next_heap (heap s) in
  mkSess h (reindex h <$> jobs s) (nodes s) (hshare s) [] (herr s) ∅ (refuse_evict s) [] [] ∅ ∅ true.

Definition next_world (w : world) : world := mkWorld (next_sess (w_sess w)) (w_queues w) 1.

Lemma next_heap_lookup h i : next_heap h !! i = (fun t => set_status t (feed_status (t_status t))) <$> h !! i.
Proof. unfold next_heap. by rewrite lookup_fmap. Qed.

Lemma next_sess_gang_inv s : gang_inv s -> gang_inv (next_sess s).
Proof.
  intros (Ha & Hb & Hc). unfold gang_inv, next_sess. cbn [heap jobs]. split; [|split].
  - intros i t'. rewrite next_heap_lookup. destruct (heap s !! i) as [t|] eqn:E; [|done].
    simpl. intros [= <-]. simpl. by apply Ha.
  - intros jid j'. rewrite lookup_fmap. destruct (jobs s !! jid) as [j|] eqn:Ej; [|done].
    simpl. intros [= <-]. destruct (Hb _ _ Ej) as [Hts _]. split.
    + intros i Hi. simpl in Hi. destruct (Hts i Hi) as (t & Et & Hj). eexists. rewrite next_heap_lookup, Et. split; [reflexivity|done].
    + intros st i. simpl. rewrite idx_set_index_of, elem_of_filter, status_at_Some. tauto.
  - intros i t' j'. rewrite next_heap_lookup. destruct (heap s !! i) as [t|] eqn:E; [|done].
    simpl. intros [= <-]. simpl. rewrite lookup_fmap. destruct (jobs s !! t_job t) as [j|] eqn:Ej; [|done].
    simpl. intros [= <-]. simpl. by eapply Hc.
Qed.

Lemma next_sess_no_tentative s : no_tentative (next_sess s).
Proof.
  intros i t E Hs _. by destruct (next_heap_fresh (heap s) i t E).
Qed.

(* every cycle runs a choice list of the one-allocate shape, from the session fed back by the
   previous one *)
Fixpoint cycles_shape (eps : Z) (w : world) (cs : list (list cop)) : Prop :=
  match cs with
  | [] => True
  | ops :: r => kept_free eps w ∅ ops /\ cycles_shape eps (next_world (CycleModel.run eps w ops)) r
  end.
Fixpoint cycles_binds_ok (eps : Z) (w : world) (cs : list (list cop)) : Prop :=
  match cs with
  | [] => True
  | ops :: r => binds_ok (w_sess w) (w_sess (CycleModel.run eps w ops)) /\
                cycles_binds_ok eps (next_world (CycleModel.run eps w ops)) r
  end.

Theorem cycles_gang_ok eps cs : forall w,
  gang_inv (w_sess w) -> refuse_bind (w_sess w) = ∅ -> stmts (w_sess w) = ∅ -> no_tentative (w_sess w) ->
  cycles_shape eps w cs -> cycles_binds_ok eps w cs.
Proof.
  induction cs as [|ops cs IH]; intros w Hinv Href Hst Hnt Hsh; [done|]. destruct Hsh as [Hkf Hsh].
  destruct (gang_ok_one_allocate_core eps w ops Hinv Href Hst Hnt Hkf) as [Hok Hinv'].
  split; [done|]. apply IH; try done.
  - by apply next_sess_gang_inv.
  - apply next_sess_no_tentative.
Qed.

(* a gang complete at the end of a cycle is complete in the next cycle's session *)
Lemma next_sess_gang_ok s jid j : jobs s !! jid = Some j -> gang_ok (heap s) j ->
  exists j', jobs (next_sess s) !! jid = Some j' /\ gang_ok (heap (next_sess s)) j'.
Proof.
  intros Ej Hok. exists (reindex (next_heap (heap s)) j). unfold next_sess. cbn [heap jobs].
  rewrite lookup_fmap, Ej. split; [done|]. exact (proj2 (cycles_compose (heap s) j) Hok).
Qed.

(* two gangs and a best-effort pod: job 2 (minMember 2 of 3 pods) is attempted, committed, and
   attempted AGAIN for its third pod (the re-push after Commit that kept_free allows); job 3
   (minMember 2, one pod with an empty request) gets one attempt and a backfill placement *)
Definition ex2_case (cops : list cop) : cycle_case :=
  mkCycle eps0
    [mkNodeSpec 1 true 8000 (64 * 1048576) 16 0]
    [mkQSpec 1 true 1 0 0]
    [mkJobSpec 2 1 2 []; mkJobSpec 3 1 2 []]
    [mkT 2 2 1 9 1000 Pending None; mkT 3 2 1 8 1000 Pending None; mkT 4 2 1 1 1000 Pending None;
     mkT 5 3 1 5 1000 Pending None; mkT 6 3 1 0 0 Pending None]
    false [1; 2] [] cops.
Definition ex2_cops : list cop :=
  [CAttempt 2 [(2, 1); (3, 1)]; CAttempt 3 [(5, 1)]; CAttempt 2 [(4, 1)]; CBackfill 6 1]%positive.

Definition hyps2_okb (c : cycle_case) : bool :=
  let w := world_of c in
  heap_nonnegb (heap (w_sess w)) && ledger_okb (heap (w_sess w)) (jobs (w_sess w)) (nodes (w_sess w)) &&
  ginvb (heap (w_sess w)) (jobs (w_sess w)) &&
  bool_decide (refuse_bind (w_sess w) = ∅) && bool_decide (stmts (w_sess w) = ∅) &&
  no_tentativeb (w_sess w) && kept_freeb (cc_eps c) w ∅ (cc_cops c).

Example ex2_computes : hyps2_okb (ex2_case ex2_cops) = true /\
  binds_of (ex2_case ex2_cops) = [(6, Some 1); (4, Some 1); (5, Some 1); (3, Some 1); (2, Some 1)]%positive.
Proof. vm_compute. repeat split. Qed.

(* the headline theorem (with ledger_inv) instantiated: five binds, all of complete gangs *)
Example ex2_theorem_applies :
  let c := ex2_case ex2_cops in
  binds_ok (w_sess (world_of c)) (w_sess (CycleModel.run (cc_eps c) (world_of c) (cc_cops c))) /\
  length (binds_of c) = 5%nat.
Proof.
  intros c. assert (Hc : hyps2_okb c = true) by (vm_compute; reflexivity).
  apply andb_true_iff in Hc as [[[[[Hc H3]%andb_true_iff H4]%andb_true_iff H5]%andb_true_iff H6]%andb_true_iff H7].
  pose proof (ledger_okb_sound_b _ Hc) as Hl. pose proof (ginvb_sound _ _ H3) as Hg.
  split; [|vm_compute; reflexivity].
  apply gang_ok_one_allocate; [exact Hl|exact (proj2 (proj2 Hg))|by apply bool_decide_eq_true in H4|
    by apply bool_decide_eq_true in H5|by apply no_tentativeb_sound|by apply kept_freeb_sound].
Qed.

(* F10 has the forbidden shape: the second attempt follows a kept one *)
Example f10_not_kept_free : kept_freeb eps0 f10_world ∅ f10_cops = false.
Proof. vm_compute. reflexivity. Qed.
