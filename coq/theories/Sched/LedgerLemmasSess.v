(* C07 proofs: the ledger invariant is preserved by every operation of the session
   model (StmtModel.v), hence by every history.

   Technique: a static table T (task id -> job, request) types every task object that can be
   passed to an operation (the heap's objects, the copies nodes hold, the clones saved by
   SaveOperations); [good T s] = ledger_inv s + the idle ledgers have a scalar map + everything
   is typed by T.  Every primitive preserves [good T]; T is instantiated with the initial heap. *)
From stdpp Require Import gmap.
From Coq Require Import ZArith.
From V Require Import Base.Res Base.ResLemmas Sched.LedgerModel Sched.StmtModel Sched.GangModel
  Sched.LedgerInvP Sched.LedgerInv Sched.LedgerLemmasA Sched.LedgerLemmasJob Sched.LedgerLemmasNode.
Open Scope Z_scope.

Definition sess_wf (s : sess) : Prop := forall i n, nodes s !! i = Some n -> node_wf n.

(* the clones kept by SaveOperations are clones of tasks the session knows *)
Definition saved_ok (s : sess) : Prop :=
  forall slot l, saved s !! slot = Some l ->
    Forall (fun o => exists t, heap s !! t_id (so_task o) = Some t /\
                               t_job t = t_job (so_task o) /\ t_req t = t_req (so_task o)) l.

(* what every step keeps, a fold of steps keeps *)
Lemma fold_left_inv {A B} (P : A -> Prop) (f : A -> B -> A) l a :
  (forall a b, P a -> P (f a b)) -> P a -> P (fold_left f l a).
Proof. intros Hf. revert a. induction l as [|b l IH]; simpl; intros a Ha; [exact Ha|]. apply IH, Hf, Ha. Qed.

(* what Statement.Evict and Statement.Allocate / Pipeline keep (P, for clones that satisfy Q),
   RecoverOperations keeps *)
Lemma recover_ops_inv (P : sess -> Prop) (Q : task -> Prop) eps sid :
  (forall s p prev, P s -> Q p -> P (fst (stmt_evict_with eps s sid p prev))) ->
  (forall s k p nid, P s -> Q p -> P (fst (place_with eps s sid k p nid))) ->
  forall l s, P s -> Forall (fun o => Q (so_task o)) l -> P (fst (recover_ops eps s sid l)).
Proof.
  intros He Hp. induction l as [|o r IH]; intros s Hs Hl; [exact Hs|].
  inversion Hl as [|? ? Hq Hr]; subst. simpl.
  assert (Hplace : forall k, P (fst match t_node (so_task o) with
            | Some nid => let '(s1, res) := place_with eps s sid k (so_task o) nid in
                          match res with ROk => recover_ops eps s1 sid r | _ => (s1, RErr) end
            | None => (s, RErr) end)).
  { intros k. destruct (t_node (so_task o)) as [nid|]; [|exact Hs].
    specialize (Hp s k (so_task o) nid Hs Hq). destruct (place_with eps s sid k (so_task o) nid) as [s1 res].
    destruct res; try exact Hp. apply IH; assumption. }
  destruct (so_kind o); [|apply Hplace|apply Hplace].
  specialize (He s (so_task o) (Some (so_prev o)) Hs Hq).
  destruct (stmt_evict_with eps s sid (so_task o) (Some (so_prev o))) as [s1 res]. apply IH; assumption.
Qed.

Section Typed.
Variable eps : Z.
Variable T : gmap positive (positive * res).

Definition pok (p : task) : Prop := T !! t_id p = Some (t_job p, t_req p).

Definition good (s : sess) : Prop :=
  ledger_inv s /\ sess_wf s /\
  (forall i t, heap s !! i = Some t -> pok t) /\
  (forall i, is_Some (T !! i) -> is_Some (heap s !! i)) /\
  (forall slot l, saved s !! slot = Some l -> Forall (fun o => pok (so_task o)) l) /\
  (forall i jr, T !! i = Some jr -> nonneg (snd jr)).

(* replacing the heap entry of p's task by p is harmless for the job that holds it *)
Definition putok (s : sess) (p : task) : Prop :=
  (forall t, heap s !! t_id p = Some t -> t_status t = t_status p) \/ jobs s !! t_job p = None.

Definition ctx (s : sess) (p : task) : Prop := good s /\ pok p /\ putok s p.

Lemma good_fields s s' :
  heap s' = heap s -> jobs s' = jobs s -> nodes s' = nodes s -> saved s' = saved s -> good s -> good s'.
Proof.
  intros Hh Hj Hn Hs. unfold good, ledger_inv, sess_wf. rewrite Hh, Hj, Hn, Hs. tauto.
Qed.

Lemma putok_fields s s' p : heap s' = heap s -> jobs s' = jobs s -> putok s p -> putok s' p.
Proof. intros Hh Hj. unfold putok. rewrite Hh, Hj. tauto. Qed.

Lemma ctx_fields s s' p :
  heap s' = heap s -> jobs s' = jobs s -> nodes s' = nodes s -> saved s' = saved s -> ctx s p -> ctx s' p.
Proof.
  intros Hh Hj Hn Hs (Hg & Hp & Hput). split; [eapply good_fields; eauto|]. split; [exact Hp|].
  eapply putok_fields; eauto.
Qed.

Lemma pok_nonneg s p : good s -> pok p -> nonneg (t_req p).
Proof. intros (_ & _ & _ & _ & _ & Hnn) Hp. apply (Hnn _ _ Hp). Qed.

Lemma pok_agree p q : pok p -> pok q -> t_id p = t_id q -> t_job p = t_job q /\ t_req p = t_req q.
Proof. unfold pok. intros Hp Hq He. rewrite He in Hp. rewrite Hp in Hq. inversion Hq. auto. Qed.

Lemma good_heap_entry s p :
  good s -> pok p -> exists x, heap s !! t_id p = Some x /\ t_req x = t_req p /\ t_job x = t_job p.
Proof.
  intros ((Hh & _) & _ & Hty & Hdom & _) Hp.
  destruct (Hdom (t_id p)) as [x Hx]; [unfold pok in Hp; rewrite Hp; eauto|].
  exists x. split; [exact Hx|]. destruct (Hh _ _ Hx) as [Hid _].
  destruct (pok_agree x p (Hty _ _ Hx) Hp Hid). auto.
Qed.

Lemma heap_static_put s p : good s -> pok p -> heap_static (heap s) (<[t_id p := p]> (heap s)).
Proof.
  intros ((Hh & _) & _ & Hty & _) Hp. apply heap_static_insert. intros x Hx.
  destruct (Hh _ _ Hx) as [Hid _]. destruct (pok_agree x p (Hty _ _ Hx) Hp Hid). auto.
Qed.

Lemma pok_copy s nid n i c : good s -> nodes s !! nid = Some n -> n_tasks n !! i = Some c -> pok c.
Proof.
  intros ((Hh & _ & Hnodes) & _ & Hty & _) Hn Hc.
  destruct (Hnodes _ _ Hn) as [_ [Hcs _]]. destruct (Hcs _ _ Hc) as (Hid & _ & _ & t & Ht & Hr & Hj).
  specialize (Hty _ _ Ht). destruct (Hh _ _ Ht) as [Hidt _]. unfold pok in *.
  rewrite Hid, <- Hr, <- Hj, <- Hidt. exact Hty.
Qed.

Lemma good_put s p : good s -> pok p -> putok s p -> good (put_task s p).
Proof.
  intros Hg Hp Hput. pose proof (pok_nonneg s p Hg Hp) as Hnnp.
  pose proof (heap_static_put s p Hg Hp) as Hst.
  destruct Hg as ((Hh & Hjobs & Hnodes) & Hw & Hty & Hdom & Hsv & Hnn).
  split; [|split; [|split; [|split; [|split]]]].
  - split; [|split]; simpl.
    + apply heap_ok_insert; assumption.
    + intros i j Hj. destruct (Hjobs i j Hj) as [Hid Hinv]. split; [exact Hid|].
      eapply job_inv_ext; [|exact Hinv]. intros k Hk.
      destruct (decide (k = t_id p)) as [->|Hne]; [|rewrite lookup_insert_ne by congruence; reflexivity].
      rewrite lookup_insert. destruct Hinv as (Hm & _). destruct (Hm _ Hk) as (t & Ht & Htj).
      rewrite Ht. simpl. f_equal. destruct (Hh _ _ Ht) as [Hidt _].
      destruct (pok_agree t p (Hty _ _ Ht) Hp Hidt) as [Hjb Hrq].
      unfold tview. rewrite Hjb, Hrq. destruct Hput as [Hs|Hnone].
      * rewrite (Hs t Ht). reflexivity.
      * exfalso. rewrite <- Hjb, Htj, Hid, Hj in Hnone. discriminate.
    + intros i n Hn. destruct (Hnodes i n Hn). split; [assumption|]. eapply node_inv_ext; eauto.
  - exact Hw.
  - intros i t. simpl. destruct (decide (i = t_id p)) as [->|Hne].
    + rewrite lookup_insert. intros [= <-]. exact Hp.
    + rewrite lookup_insert_ne by congruence. apply Hty.
  - intros i Hi. simpl. destruct (decide (i = t_id p)) as [->|Hne].
    + rewrite lookup_insert. eauto.
    + rewrite lookup_insert_ne by congruence. auto.
  - exact Hsv.
  - exact Hnn.
Qed.

Lemma good_set_node s nid n' :
  good s -> n_id n' = nid -> node_inv (heap s) n' -> node_wf n' ->
  good (upd_nodes s (<[nid := n']> (nodes s))).
Proof.
  intros ((Hh & Hjobs & Hnodes) & Hw & Hrest) Hid Hinv Hwf.
  split; [|split; [|exact Hrest]].
  - split; [exact Hh|]. split; [exact Hjobs|]. simpl. intros i n.
    destruct (decide (i = nid)) as [->|Hne].
    + rewrite lookup_insert. intros [= <-]. auto.
    + rewrite lookup_insert_ne by congruence. apply Hnodes.
  - intros i n. simpl. destruct (decide (i = nid)) as [->|Hne].
    + rewrite lookup_insert. intros [= <-]. exact Hwf.
    + rewrite lookup_insert_ne by congruence. apply Hw.
Qed.

Lemma ssn_update_status_cases s p st :
  (exists j j' p', jobs s !! t_job p = Some j /\ job_update (heap s) j p st = (j', p') /\
     ssn_update_status s p st = (true, put_task (upd_jobs s (<[t_job p := j']> (jobs s))) p', p')) \/
  (jobs s !! t_job p = None /\ ssn_update_status s p st = (false, s, p)).
Proof.
  unfold ssn_update_status. destruct (jobs s !! t_job p) as [j|] eqn:E; [left|right; auto].
  destruct (job_update (heap s) j p st) as [j' p'] eqn:Eu. exists j, j', p'. auto.
Qed.

Lemma good_update s p st f s' p' :
  good s -> pok p -> ssn_update_status s p st = (f, s', p') ->
  ctx s' p' /\ t_id p' = t_id p /\ t_node p' = t_node p.
Proof.
  intros Hg Hp. pose proof (pok_nonneg s p Hg Hp) as Hnnp.
  destruct (ssn_update_status_cases s p st) as [(j & j' & q & Ej & Eu & ->)|[Ej ->]].
  - intros [= <- <- <-].
    pose proof Hg as ((Hh & Hjobs & Hnodes) & Hw & Hty & Hdom & Hsv & Hnn).
    destruct (Hjobs _ _ Ej) as [Hjid Hjinv].
    destruct (job_update_inv (heap s) j p st j' q Hh Hjinv (eq_sym Hjid) Hnnp Eu) as (-> & Hid' & Hin & Hh' & Hj').
    assert (Hpq : pok (set_status p st)) by exact Hp.
    split; [|split; reflexivity]. split; [|split; [exact Hpq|]].
    + split; [|split; [|split; [|split; [|split]]]].
      * split; [exact Hh'|]. split; simpl.
        -- intros i j2. destruct (decide (i = t_job p)) as [->|Hne].
           ++ rewrite lookup_insert. intros [= <-]. split; [congruence|exact Hj'].
           ++ rewrite lookup_insert_ne by congruence. intros Hj2. destruct (Hjobs _ _ Hj2) as [Hid2 Hinv2].
              split; [exact Hid2|]. eapply job_inv_ext; [|exact Hinv2]. apply agree_on_insert_notin.
              intros Hk. destruct Hinv2 as (Hm & _). destruct (Hm _ Hk) as (t & Ht & Htj).
              destruct (Hh _ _ Ht) as [Hidt _]. destruct (pok_agree t p (Hty _ _ Ht) Hp Hidt) as [Hjb _].
              congruence.
        -- intros i n Hn. destruct (Hnodes i n Hn). split; [assumption|]. eapply node_inv_ext; [|eassumption].
           apply (heap_static_put s (set_status p st) Hg Hpq).
      * exact Hw.
      * intros i t. simpl. destruct (decide (i = t_id p)) as [->|Hne].
        -- rewrite lookup_insert. intros [= <-]. exact Hpq.
        -- rewrite lookup_insert_ne by congruence. apply Hty.
      * intros i Hi. simpl. destruct (decide (i = t_id p)) as [->|Hne].
        -- rewrite lookup_insert. eauto.
        -- rewrite lookup_insert_ne by congruence. auto.
      * exact Hsv.
      * exact Hnn.
    + left. simpl. rewrite lookup_insert. intros t [= <-]. reflexivity.
  - intros [= <- <- <-]. split; [|split; reflexivity]. split; [exact Hg|]. split; [exact Hp|]. right. exact Ej.
Qed.

Lemma ctx_put s p x : ctx s p -> ctx (put_task s (set_node p x)) (set_node p x).
Proof.
  intros (Hg & Hp & Hput).
  assert (Hp' : pok (set_node p x)) by exact Hp.
  assert (Hput' : putok s (set_node p x)) by exact Hput.
  split; [apply good_put; assumption|]. split; [exact Hp'|].
  left. simpl. rewrite lookup_insert. intros t [= <-]. reflexivity.
Qed.

Lemma ctx_set_node s p nid n' :
  ctx s p -> n_id n' = nid -> node_inv (heap s) n' -> node_wf n' ->
  ctx (upd_nodes s (<[nid := n']> (nodes s))) p.
Proof.
  intros (Hg & Hp & Hput) Hid Hinv Hwf. split; [apply good_set_node; assumption|]. split; [exact Hp|exact Hput].
Qed.

Lemma good_node_id s nid n : good s -> nodes s !! nid = Some n -> n_id n = nid /\ node_inv (heap s) n /\ node_wf n.
Proof. intros ((_ & _ & Hnodes) & Hw & _) Hn. destruct (Hnodes _ _ Hn). split; [assumption|]. split; [assumption|]. eapply Hw; eauto. Qed.

Lemma ctx_node_remove s p q : ctx s p -> ctx (ssn_node_remove s q) p.
Proof.
  intros Hc. unfold ssn_node_remove. destruct (t_node q) as [nid|]; [|exact Hc].
  destruct (nodes s !! nid) as [n|] eqn:En; [|exact Hc].
  destruct (good_node_id s nid n (proj1 Hc) En) as (Hid & Hinv & Hwf).
  destruct (node_remove_inv (heap s) n (t_id q) Hinv Hwf) as [Hi' Hw'].
  apply ctx_set_node; try assumption. destruct (node_remove_fields n (t_id q)) as (-> & _). exact Hid.
Qed.

Lemma ctx_node_add s p nid n n' p' :
  ctx s p -> nodes s !! nid = Some n -> node_add eps n p = inl (n', p') ->
  ctx (put_task (upd_nodes s (<[nid := n']> (nodes s))) p') p'.
Proof.
  intros Hc En Ha. pose proof Hc as (Hg & Hp & Hput).
  destruct (good_node_id s nid n Hg En) as (Hid & Hinv & Hwf).
  destruct (node_add_spec _ _ _ _ _ Ha) as (-> & _ & _ & Hid' & _).
  destruct (node_add_inv eps (heap s) n p n' _ Hinv Hwf (pok_nonneg s p Hg Hp) (good_heap_entry s p Hg Hp) Ha) as [Hi' Hw'].
  apply ctx_put. apply ctx_set_node; try assumption. congruence.
Qed.

Lemma ctx_node_update s p s' p' fatal :
  ctx s p -> ssn_node_update eps s p = (s', p', fatal) -> ctx s' p'.
Proof.
  intros Hc. pose proof Hc as (Hg & Hp & Hput). unfold ssn_node_update.
  destruct (t_node p) as [nid|]; [|intros [= <- <- <-]; exact Hc].
  destruct (nodes s !! nid) as [n|] eqn:En; [|intros [= <- <- <-]; exact Hc].
  destruct (good_node_id s nid n Hg En) as (Hid & Hinv & Hwf).
  destruct (node_remove_inv (heap s) n (t_id p) Hinv Hwf) as [Hi1 Hw1].
  destruct (node_remove_fields n (t_id p)) as (Hrid & _).
  destruct (node_update eps n p) as [[n' q]|e] eqn:Eu.
  - intros [= <- <- <-]. unfold node_update in Eu.
    destruct (node_add_spec _ _ _ _ _ Eu) as (-> & _ & _ & Hid' & _).
    destruct (node_add_inv eps (heap s) _ p n' _ Hi1 Hw1 (pok_nonneg s p Hg Hp) (good_heap_entry s p Hg Hp) Eu) as [Hi' Hw'].
    apply ctx_put. apply ctx_set_node; try assumption. congruence.
  - intros [= <- <- <-]. apply ctx_set_node; try assumption. congruence.
Qed.

Lemma ctx_h_alloc s p q b s' : ctx s p -> h_alloc s q = (b, s') -> ctx s' p.
Proof. intros Hc [= _ <-]. eapply ctx_fields; [..|exact Hc]; reflexivity. Qed.

Lemma ctx_h_dealloc s p q : ctx s p -> ctx (h_dealloc s q) p.
Proof. intros Hc. eapply ctx_fields; [..|exact Hc]; reflexivity. Qed.

Lemma good_push s sid k tid prev : good s -> good (push_op s sid k tid prev).
Proof. apply good_fields; reflexivity. Qed.

Lemma good_logs s b e : good s -> good (upd_logs s b e).
Proof. apply good_fields; reflexivity. Qed.

Lemma good_stmts s st : good s -> good (upd_stmts s st).
Proof. apply good_fields; reflexivity. Qed.

Lemma good_unallocate s p : good s -> pok p -> good (unallocate_with s p).
Proof.
  intros Hg Hp. unfold unallocate_with.
  destruct (ssn_update_status s p Pending) as [[f s1] p1] eqn:E.
  destruct (good_update _ _ _ _ _ _ Hg Hp E) as (Hc & _).
  apply (ctx_node_remove s1 p1 p1) in Hc. apply (ctx_h_dealloc _ p1 p1) in Hc.
  apply (ctx_put _ _ None) in Hc. exact (proj1 Hc).
Qed.

Lemma good_unevict s p prev : good s -> pok p -> good (fst (unevict_with eps s p prev)).
Proof.
  intros Hg Hp. unfold unevict_with.
  destruct (ssn_update_status s p (restore_status prev)) as [[f s1] p1] eqn:E.
  destruct (good_update _ _ _ _ _ _ Hg Hp E) as (Hc & _).
  destruct (ssn_node_update eps s1 p1) as [[s2 p2] fatal] eqn:E2.
  apply (ctx_node_update _ _ _ _ _ Hc) in E2.
  destruct (h_alloc s2 p2) as [b s3] eqn:E3. apply (ctx_h_alloc _ _ _ _ _ E2) in E3. exact (proj1 E3).
Qed.

Lemma good_place s sid k p nid : good s -> pok p -> good (fst (place_with eps s sid k p nid)).
Proof.
  intros Hg Hp. unfold place_with.
  destruct (ssn_update_status s p _) as [[f s1] p1] eqn:E.
  destruct (good_update _ _ _ _ _ _ Hg Hp E) as (Hc & _).
  apply (ctx_put _ _ (Some nid)) in Hc.
  set (p2 := set_node p1 (Some nid)) in *. set (s2 := put_task s1 p2) in *.
  assert (Hc3 : forall s3 p3 ok,
             match nodes s2 !! nid with
             | Some n => match node_add eps n p2 with
                         | inl (n', p') => (put_task (upd_nodes s2 (<[nid := n']> (nodes s2))) p', p', true)
                         | inr _ => (s2, p2, false)
                         end
             | None => (s2, p2, false)
             end = (s3, p3, ok) -> ctx s3 p3).
  { intros s3 p3 ok. destruct (nodes s2 !! nid) as [n|] eqn:En; [|intros [= <- <- <-]; exact Hc].
    destruct (node_add eps n p2) as [[n' p']|e] eqn:Ea; [|intros [= <- <- <-]; exact Hc].
    intros [= <- <- <-]. exact (ctx_node_add s2 p2 nid n n' p' Hc En Ea). }
  destruct (match nodes s2 !! nid with Some n => _ | None => _ end) as [[s3 p3] ok] eqn:E3.
  specialize (Hc3 _ _ _ eq_refl).
  destruct (h_alloc s3 p3) as [b s4] eqn:E4. pose proof (ctx_h_alloc _ _ _ _ _ Hc3 E4) as Hc4.
  destruct (f && ok && negb b); simpl.
  - apply good_push. exact (proj1 Hc4).
  - apply good_unallocate; [exact (proj1 Hc4)|exact (proj1 (proj2 Hc4))].
Qed.

Lemma good_evict_with s sid p prev : good s -> pok p -> good (fst (stmt_evict_with eps s sid p prev)).
Proof.
  intros Hg Hp. unfold stmt_evict_with.
  destruct (ssn_update_status s p Releasing) as [[f s1] p1] eqn:E.
  destruct (good_update _ _ _ _ _ _ Hg Hp E) as (Hc & _).
  destruct (ssn_node_update eps s1 p1) as [[s2 p2] fatal] eqn:E2.
  apply (ctx_node_update _ _ _ _ _ Hc) in E2. simpl.
  apply good_push. exact (proj1 (ctx_h_dealloc _ _ p2 E2)).
Qed.

Lemma good_heap_pok s i p : good s -> heap s !! i = Some p -> pok p.
Proof. intros (_ & _ & Hty & _) H. eapply Hty; eauto. Qed.

Lemma good_undo_op s o : good s -> good (undo_op eps s o).
Proof.
  intros Hg. unfold undo_op. destruct (heap s !! op_task o) as [p|] eqn:E; [|exact Hg].
  pose proof (good_heap_pok _ _ _ Hg E) as Hp.
  destruct (op_kind o); [apply good_unevict|apply good_unallocate|apply good_unallocate]; assumption.
Qed.

Lemma good_discard s sid : good s -> good (stmt_discard eps s sid).
Proof. intros Hg. unfold stmt_discard. apply good_stmts. apply (fold_left_inv good); [intros; apply good_undo_op; assumption|exact Hg]. Qed.

Lemma good_commit_op s o : good s -> good (commit_op eps s o).
Proof.
  intros Hg. unfold commit_op. destruct (heap s !! op_task o) as [p|] eqn:E; [|exact Hg].
  pose proof (good_heap_pok _ _ _ Hg E) as Hp.
  destruct (op_kind o).
  - case_bool_decide; [apply good_unevict; assumption|apply good_logs; exact Hg].
  - exact Hg.
  - case_bool_decide; [apply good_unallocate; assumption|].
    destruct (ssn_update_status _ p Binding) as [[f s2] p2] eqn:E2.
    destruct (good_update _ _ _ _ _ _ (good_logs s _ _ Hg) Hp E2) as (Hc & _).
    destruct f; [exact (proj1 Hc)|]. apply good_unallocate; [exact (proj1 Hc)|exact (proj1 (proj2 Hc))].
Qed.

Lemma good_commit s sid : good s -> good (stmt_commit eps s sid).
Proof. intros Hg. unfold stmt_commit. apply good_stmts. apply (fold_left_inv good); [intros; apply good_commit_op; assumption|exact Hg]. Qed.

Lemma good_merge s sid src : good s -> good (stmt_merge s sid src).
Proof. intros Hg. unfold stmt_merge. case_bool_decide; [exact Hg|]. apply good_stmts, Hg. Qed.

Lemma good_save s sid slot : good s -> good (stmt_save s sid slot).
Proof.
  intros Hg. pose proof Hg as (Hl & Hw & Hty & Hdom & Hsv & Hnn).
  unfold stmt_save. split; [exact Hl|]. split; [exact Hw|]. split; [exact Hty|]. split; [exact Hdom|].
  split; [|exact Hnn]. simpl. intros sl l. destruct (decide (sl = slot)) as [->|Hne].
  - rewrite lookup_insert. intros [= <-]. apply Forall_forall. intros o Ho.
    apply elem_of_list_omap in Ho as (r & _ & Hr).
    destruct (heap s !! op_task r) as [p|] eqn:E; [|discriminate]. inversion Hr; subst. simpl. eapply Hty; eauto.
  - rewrite lookup_insert_ne by congruence. apply Hsv.
Qed.

Lemma good_upd_saved_delete s slot : good s -> good (upd_saved s (delete slot (saved s))).
Proof.
  intros (Hl & Hw & Hty & Hdom & Hsv & Hnn). split; [exact Hl|]. split; [exact Hw|]. split; [exact Hty|].
  split; [exact Hdom|]. split; [|exact Hnn]. simpl. intros sl l Hs. apply lookup_delete_Some in Hs as [_ Hs]. eapply Hsv; eauto.
Qed.

Lemma good_recover s sid slot : good s -> good (fst (stmt_recover eps s sid slot)).
Proof.
  intros Hg. unfold stmt_recover.
  destruct (recover_ops eps s sid (default [] (saved s !! slot))) as [s1 r] eqn:E. simpl.
  apply good_upd_saved_delete. change s1 with (fst (s1, r)). rewrite <- E. apply (recover_ops_inv good pok);
    [intros; apply good_evict_with; assumption|intros; apply good_place; assumption|exact Hg|].
  destruct (saved s !! slot) as [l|] eqn:Es; simpl; [|constructor].
  destruct Hg as (_ & _ & _ & _ & Hsv & _). eapply Hsv; eauto.
Qed.

Lemma good_dispatch s tid : good s -> good (fst (dispatch s tid)).
Proof.
  intros Hg. unfold dispatch. destruct (heap s !! tid) as [p|] eqn:E; [|exact Hg].
  case_bool_decide; [exact Hg|].
  destruct (ssn_update_status _ p Binding) as [[f s2] p2] eqn:E2. simpl.
  destruct (good_update _ _ _ _ _ _ (good_logs s _ _ Hg) (good_heap_pok _ _ _ Hg E) E2) as (Hc & _). exact (proj1 Hc).
Qed.

Lemma good_dispatch_all l s : good s -> good (fst (dispatch_all s l)).
Proof.
  revert s. induction l as [|t r IH]; intros s Hg; [exact Hg|]. simpl.
  destruct (dispatch s t) as [s1 ok] eqn:E.
  assert (Hg1 : good s1) by (change s1 with (fst (s1, ok)); rewrite <- E; apply good_dispatch; exact Hg).
  destruct ok; [apply IH; exact Hg1|]. simpl.
  destruct (heap s1 !! t) as [p|] eqn:Ep; [|exact Hg1].
  apply good_unallocate; [exact Hg1|]. eapply good_heap_pok; eauto.
Qed.

Lemma good_ssn_place jr s k tid nid : good s -> good (fst (ssn_place_with eps jr s k tid nid)).
Proof.
  intros Hg. unfold ssn_place_with. destruct (heap s !! tid) as [p|] eqn:E; [|exact Hg].
  pose proof (good_heap_pok _ _ _ Hg E) as Hp.
  destruct (ssn_update_status s p _) as [[f s1] p1] eqn:E1.
  destruct (good_update _ _ _ _ _ _ Hg Hp E1) as (Hc & _).
  destruct f; cbn [negb]; [|exact Hg].
  apply (ctx_put _ _ (Some nid)) in Hc.
  set (p2 := set_node p1 (Some nid)) in *. set (s2 := put_task s1 p2) in *.
  assert (Hrev : good (let '(_, sr, pr) := ssn_update_status s2 p2 Pending in put_task sr (set_node pr None))).
  { destruct (ssn_update_status s2 p2 Pending) as [[fr sr] pr] eqn:Er.
    destruct (good_update _ _ _ _ _ _ (proj1 Hc) (proj1 (proj2 Hc)) Er) as (Hcr & _).
    exact (proj1 (ctx_put _ _ None Hcr)). }
  destruct (nodes s2 !! nid) as [n|] eqn:En; [|exact Hrev].
  destruct (node_add eps n p2) as [[n' p3]|e] eqn:Ea; [|exact Hrev].
  pose proof (ctx_node_add _ _ _ _ _ _ Hc En Ea) as Hc3.
  destruct (h_alloc _ p3) as [b s4] eqn:E4. pose proof (ctx_h_alloc _ _ _ _ _ Hc3 E4) as Hc4.
  destruct k; try exact (proj1 Hc4).
  destruct (jobs s4 !! t_job p) as [j|]; [|exact (proj1 Hc4)].
  destruct (jr s4 j); [|exact (proj1 Hc4)].
  destruct (dispatch_all s4 _) as [s5 ok] eqn:E5. simpl.
  change s5 with (fst (s5, ok)). rewrite <- E5. apply good_dispatch_all. exact (proj1 Hc4).
Qed.

Lemma good_ssn_evict s tid : good s -> good (fst (ssn_evict eps s tid)).
Proof.
  intros Hg. unfold ssn_evict. destruct (heap s !! tid) as [p|] eqn:E; [|exact Hg].
  case_bool_decide; [exact Hg|].
  destruct (ssn_update_status _ p Releasing) as [[f s1] p1] eqn:E1.
  destruct (good_update _ _ _ _ _ _ (good_logs s _ _ Hg) (good_heap_pok _ _ _ Hg E) E1) as (Hc & _).
  destruct f; cbn [negb]; [|exact (proj1 Hc)].
  destruct (ssn_node_update eps s1 p1) as [[s2 p2] fatal] eqn:E2.
  apply (ctx_node_update _ _ _ _ _ Hc) in E2. exact (proj1 (ctx_h_dealloc _ _ p2 E2)).
Qed.

Lemma good_with_task s tid f : good s -> (forall p, pok p -> good (fst (f p))) -> good (fst (with_task s tid f)).
Proof.
  intros Hg Hf. unfold with_task. destruct (heap s !! tid) as [p|] eqn:E; [|exact Hg].
  apply Hf. eapply good_heap_pok; eauto.
Qed.

Theorem good_step s o : good s -> good (fst (step eps s o)).
Proof.
  intros Hg. destruct o; simpl.
  - apply good_with_task; [exact Hg|]. intros p Hp. apply good_place; assumption.
  - apply good_with_task; [exact Hg|]. intros p Hp. apply good_place; assumption.
  - apply good_with_task; [exact Hg|]. intros p Hp. apply good_evict_with; assumption.
  - unfold stmt_evict_clone. destruct (heap s !! tid) as [p|]; [|exact Hg].
    destruct (t_node p) as [nid|]; [|exact Hg]. destruct (nodes s !! nid) as [n|] eqn:En; [|exact Hg].
    destruct (n_tasks n !! tid) as [c|] eqn:Ec; [|exact Hg].
    apply good_evict_with; [exact Hg|]. eapply pok_copy; eauto.
  - apply good_with_task; [exact Hg|]. intros p Hp. simpl. apply good_unallocate; assumption.
  - apply good_discard, Hg.
  - apply good_commit, Hg.
  - apply good_merge, Hg.
  - apply good_save, Hg.
  - apply good_recover, Hg.
  - apply good_ssn_place, Hg.
  - apply good_ssn_place, Hg.
  - apply good_ssn_evict, Hg.
  - destruct Hg as ((Hh & Hjobs & Hnodes) & Hrest). split; [|exact Hrest].
    split; [exact Hh|]. split; [|exact Hnodes]. simpl. intros i j Hj.
    apply lookup_delete_Some in Hj as [_ Hj]. auto.
  - destruct Hg as ((Hh & Hjobs & Hnodes) & Hw & Hrest). split; [|split; [|exact Hrest]].
    + split; [exact Hh|]. split; [exact Hjobs|]. simpl. intros i n Hn.
      apply lookup_delete_Some in Hn as [_ Hn]. auto.
    + intros i n. simpl. intros Hn. apply lookup_delete_Some in Hn as [_ Hn]. eapply Hw; eauto.
  - eapply good_fields; [..|exact Hg]; reflexivity.
Qed.

Theorem good_run ops s : good s -> good (run eps s ops).
Proof. apply (fold_left_inv good). intros s' o. apply good_step. Qed.

End Typed.

Definition table_of (h : gmap positive task) : gmap positive (positive * res) :=
  (fun t => (t_job t, t_req t)) <$> h.

Lemma good_init s : ledger_inv s -> sess_wf s -> saved_ok s -> good (table_of (heap s)) s.
Proof.
  intros Hl Hw Hs. pose proof Hl as (Hh & _).
  assert (Hty : forall i t, heap s !! i = Some t -> pok (table_of (heap s)) t).
  { intros i t Ht. unfold pok, table_of. destruct (Hh _ _ Ht) as [-> _]. rewrite lookup_fmap, Ht. reflexivity. }
  split; [exact Hl|]. split; [exact Hw|]. split; [exact Hty|]. split; [|split].
  - intros i [x Hx]. unfold table_of in Hx. rewrite lookup_fmap in Hx.
    destruct (heap s !! i); [eauto|discriminate].
  - intros slot l Hsl. specialize (Hs slot l Hsl). eapply Forall_impl; [exact Hs|].
    intros o (t & Ht & Hj & Hr). simpl. unfold pok. rewrite <- Hj, <- Hr.
    destruct (Hh _ _ Ht) as [Hid _]. rewrite <- Hid. apply (Hty _ _ Ht).
  - intros i jr Hx. unfold table_of in Hx. rewrite lookup_fmap in Hx.
    destruct (heap s !! i) as [t|] eqn:E; [|discriminate]. inversion Hx; subst. simpl. apply (Hh _ _ E).
Qed.

Lemma good_saved_ok T s : good T s -> saved_ok s.
Proof.
  intros Hg slot l Hsl. pose proof Hg as (_ & _ & _ & _ & Hsv & _).
  eapply Forall_impl; [exact (Hsv _ _ Hsl)|]. intros o Hp. simpl in Hp.
  destruct (good_heap_entry T s _ Hg Hp) as (x & Hx & Hr & Hj). eauto.
Qed.

(* MAIN THEOREM of C07: for every tolerance, every session satisfying the bookkeeping invariant
   (whose real nodes' Idle vectors carry a scalar map and whose saved clones are clones of known
   tasks) and EVERY history over the whole operation alphabet -- including unknown task, job or
   node, a node refusing the task, a handler error, a refused bind or eviction -- the
   invariant holds after the history (and so do the two side conditions) *)
Theorem ledger_inv_preserved eps s ops :
  ledger_inv s -> sess_wf s -> saved_ok s ->
  ledger_inv (run eps s ops) /\ sess_wf (run eps s ops) /\ saved_ok (run eps s ops).
Proof.
  intros Hl Hw Hs. pose proof (good_run eps _ ops s (good_init s Hl Hw Hs)) as Hg.
  split; [exact (proj1 Hg)|]. split; [exact (proj1 (proj2 Hg))|]. eapply good_saved_ok; eauto.
Qed.

Theorem ledger_inv_step eps s o :
  ledger_inv s -> sess_wf s -> saved_ok s ->
  ledger_inv (fst (step eps s o)) /\ sess_wf (fst (step eps s o)) /\ saved_ok (fst (step eps s o)).
Proof. intros Hl Hw Hs. apply (ledger_inv_preserved eps s [o]); assumption. Qed.
