(* C03: a decidable form of the well-formedness hypothesis and non-vacuity examples on a
   concrete cluster (the world is built by the same [world_of] the harness cases go through). *)
From stdpp Require Import gmap.
From Coq Require Import ZArith Lia List.
From V Require Import Base.Res Base.ResLemmas Sched.LedgerModel Sched.StmtModel Sched.GangModel
                      Sched.CycleModel Sched.LedgerInvP Sched.LedgerCodec Sched.CycleCodec
                      Sched.QueueLemmasBase Sched.QueueLemmasReach Sched.QueueLemmas
                      Sched.LedgerInv Sched.LedgerLemmasSess Sched.LedgerLemmasTxn Sched.LedgerLemmasEx Sched.QueueLemmasHeld.
Import ListNotations.
Open Scope Z_scope.

Definition res_nonnegb (r : res) : bool :=
  bool_decide (0 <= cpu r) && bool_decide (0 <= mem r) && map_allb (fun _ v => bool_decide (0 <= v)) (scm r).
Definition res_zero_but_pods (r : res) : bool :=
  bool_decide (cpu r = 0) && bool_decide (mem r = 0) &&
  map_allb (fun k v => bool_decide (k = pods_name) || bool_decide (v = 0)) (scm r).
Definition task_okb (i : positive) (t : task) : bool :=
  bool_decide (t_id t = i) && res_nonnegb (t_req t) && implb (t_best_effort t) (res_zero_but_pods (t_req t)).
Definition world_okb (w : world) : bool :=
  map_allb task_okb (heap (w_sess w)) &&
  map_allb (fun _ l => forallb (fun o => negb (bool_decide (op_kind o = KEvict))) l) (stmts (w_sess w)).

Lemma res_nonnegb_ok r : res_nonnegb r = true -> nonneg r.
Proof.
  unfold res_nonnegb. rewrite !andb_true_iff, !bool_decide_eq_true, map_allb_spec. intros [[Hc Hm] Hs] d.
  destruct d; simpl; try lia. unfold sget. destruct (scm r !! k) as [v|] eqn:E; simpl; [|lia].
  specialize (Hs k v E). apply bool_decide_eq_true in Hs. exact Hs.
Qed.

Lemma res_zero_but_pods_ok r : res_zero_but_pods r = true -> forall d, d <> DSc pods_name -> amt r d = 0.
Proof.
  unfold res_zero_but_pods. rewrite !andb_true_iff, !bool_decide_eq_true, map_allb_spec. intros [[Hc Hm] Hs] d Hd.
  destruct d; simpl; try lia. unfold sget. destruct (scm r !! k) as [v|] eqn:E; simpl; [|lia].
  specialize (Hs k v E). rewrite orb_true_iff, !bool_decide_eq_true in Hs. destruct Hs; [congruence|assumption].
Qed.

Lemma world_okb_ok w : world_okb w = true -> world_ok w.
Proof.
  unfold world_okb. rewrite andb_true_iff, !map_allb_spec. intros [Hh Hs]. split; [|split].
  - intros i t Hl. specialize (Hh i t Hl). unfold task_okb in Hh.
    rewrite !andb_true_iff, bool_decide_eq_true in Hh. destruct Hh as [[Hi Hn] _].
    split; [exact Hi|apply res_nonnegb_ok, Hn].
  - intros i t Hl Hbe. specialize (Hh i t Hl). unfold task_okb in Hh.
    rewrite !andb_true_iff in Hh. destruct Hh as [_ Hz]. rewrite Hbe in Hz. simpl in Hz.
    apply res_zero_but_pods_ok, Hz.
  - intros sid l o Hl Ho. specialize (Hs sid l Hl). rewrite forallb_forall in Hs.
    apply elem_of_list_In in Ho. specialize (Hs o Ho). apply negb_true_iff, bool_decide_eq_false in Hs. exact Hs.
Qed.

(* ---------- a concrete cycle ---------- *)

(* one node (4 cpu), one Open queue whose limit is 1 cpu, one job of two pending tasks of 600m *)
Definition ex_case (ops : list cop) : cycle_case :=
  mkCycle 2
    [mkNodeSpec 1 true 4000 100000 10 0]
    [mkQSpec 1 true 1 0 0; mkQSpec 2 false 1 0 0]
    [mkJobSpec 1 1 1 []; mkJobSpec 2 2 1 []]
    [mkTaskSpec 1 1 1 0 600 100 0 Pending None false;
     mkTaskSpec 2 1 1 0 600 100 0 Pending None false;
     mkTaskSpec 3 2 1 0 100 100 0 Pending None false]
    true [1]
    [(1%positive, mkRes 16000 1600000 None); (2%positive, mkRes 16000 1600000 None)]
    ops.

Definition ex_w : world := world_of (ex_case []).
Definition ev1 : hev := mkHev true 1 Allocated (Some 1%positive).
Definition ops1 : list cop := [CAttempt 1 [(1%positive, 1%positive)]].
Definition ops2 : list cop := [CAttempt 1 [(1%positive, 1%positive); (2%positive, 1%positive)]].
Definition ops3 : list cop := [CAttempt 2 [(3%positive, 1%positive)]].

Example ex_world_ok : world_ok ex_w.
Proof. apply world_okb_ok. vm_compute. reflexivity. Qed.

(* the first task fits under the limit and is placed (and bound: the gang of 1 is complete) *)
Example ex_first_placed :
  let s' := w_sess (CycleModel.run 2 ex_w ops1) in
  verdicts 2 ex_w ops1 = [VOk] /\
  hlog s' = [ev1] /\
  binds s' = [(1%positive, Some 1%positive)] /\
  amt (share_of s' 1) DCpu = 9600.
Proof. vm_compute. repeat split; reflexivity. Qed.

(* the second one would raise the queue to 1200m > 1000m: the model's guard refuses it, the
   choice list is reported as one the code cannot produce, nothing is placed for it *)
Example ex_second_refused :
  let s' := w_sess (CycleModel.run 2 ex_w ops2) in
  verdicts 2 ex_w ops2 = [VQueueRefuses 2] /\
  hlog s' = [ev1] /\
  amt (share_of s' 1) DCpu = 9600.
Proof. vm_compute. repeat split; reflexivity. Qed.

(* a queue that is not Open refuses every task *)
Example ex_closed_refused :
  verdicts 2 ex_w ops3 = [VQueueRefuses 3] /\
  hlog (w_sess (CycleModel.run 2 ex_w ops3)) = [].
Proof. vm_compute. split; reflexivity. Qed.

(* what the first run offers the invariant theorems: one allocate callback, for the task stored
   under id 1, of queue 1 (limit 1 cpu), which requests cpu.  The task is found first: evaluating
   the other conjuncts with it still open would normalise the whole session *)
Lemma ex_first_placement :
  let s' := w_sess (CycleModel.run 2 ex_w ops1) in
  exists t, heap s' !! 1%positive = Some t /\ hlog s' = [ev1] ++ hlog (w_sess ex_w) /\
            queue_of s' t = Some 1%positive /\
            w_queues ex_w !! 1%positive = Some (mkQ true (mkRes 16000 1600000 None) true) /\
            requested (t_req t) DCpu.
Proof. cbv zeta. eexists. split; [vm_compute; reflexivity|]. vm_compute. repeat split. Qed.

(* the hypotheses of queue_cap_invariant are satisfiable: instantiate it on the first run *)
Example ex_invariant_applies :
  let s' := w_sess (CycleModel.run 2 ex_w ops1) in
  amt (share_of s' 1) DCpu <= 16000.
Proof.
  destruct ex_first_placement as (t & Hh & Hl & Hq & HQ & Hr).
  exact (proj2 (queue_cap_invariant 2 ex_w ops1 ex_world_ok [ev1] Hl ev1 t 1%positive _
                  ltac:(left) eq_refl Hh Hq HQ eq_refl) DCpu Hr).
Qed.

(* the share of queue 1 on the same run, computed: it moved by the one allocate event of 600m *)
Example ex_balance :
  let s' := w_sess (CycleModel.run 2 ex_w ops1) in
  amt (share_of s' 1) DCpu - amt (share_of (w_sess ex_w) 1) DCpu
  = zsum (ev_signed (w_sess ex_w) 1 DCpu) [ev1].
Proof. vm_compute. reflexivity. Qed.

(* ---------- audit W1: the ledger covers the placed pods; a NON-EMPTY initial ledger ---------- *)

Definition no_holdingb (s : sess) : bool := map_allb (fun _ t => negb (holds (t_status t))) (heap s).
Lemma no_holdingb_ok s : no_holdingb s = true -> forall i t, heap s !! i = Some t -> holds (t_status t) = false.
Proof. unfold no_holdingb. rewrite map_allb_spec. intros H i t Hl. apply negb_true_iff, (H i t Hl). Qed.

(* the fresh cluster satisfies the full well-formedness (nothing placed yet, empty ledger) *)
Example ex_world_ok_held : world_ok_held ex_w.
Proof.
  assert (Hs : sess_ok (w_sess ex_w)) by (apply sess_ok_of_bools; vm_compute; reflexivity).
  destruct Hs as (Hl & Hwf & Hsv).
  split; [exact ex_world_ok|]. split; [exact Hl|]. split; [exact Hwf|]. split; [exact Hsv|]. split.
  - intros sid _. vm_compute. reflexivity.
  - apply cover_no_holding; [vm_compute; reflexivity|apply no_holdingb_ok; vm_compute; reflexivity].
Qed.

(* the world after the first cycle: task 1 is Binding on node 1, the ledger of queue 1 holds its
   9600 units -- a session that starts with a NON-EMPTY ledger and a pod in a holding status.  Its
   well-formedness is not computed but DERIVED from the invariant theorems. *)
Definition ex_w1 : world := CycleModel.run 2 ex_w ops1.

Example ex_w1_ledger : held (w_sess ex_w1) 1 DCpu = 9600 /\ amt (share_of (w_sess ex_w1) 1) DCpu = 9600.
Proof. vm_compute. split; reflexivity. Qed.

Example ex_w1_ok_held : world_ok_held ex_w1.
Proof.
  pose proof (run_held 2 _ ops1 ex_w (world_ok_held_inv ex_w ex_world_ok_held)) as (Hg & _ & Hf & Hc).
  split; [apply world_okb_ok; vm_compute; reflexivity|].
  split; [exact (proj1 Hg)|]. split; [exact (proj1 (proj2 Hg))|]. split; [eapply good_saved_ok; exact Hg|].
  split; assumption.
Qed.

(* second cycle from that session: task 2 (another 9600) is refused, 19200 > 16000; placing it is
   not a behaviour of the model, and the placed pods stay at 9600 <= 16000 *)
Definition ops4 : list cop := [CAttempt 1 [(2%positive, 1%positive)]].
Example ex_second_cycle :
  verdicts 2 ex_w1 ops4 = [VQueueRefuses 2] /\ held (w_sess (CycleModel.run 2 ex_w1 ops4)) 1 DCpu = 9600.
Proof. vm_compute. split; reflexivity. Qed.

(* the reviewer's counter-world: the same session with the ledger forgotten is NOT well-formed
   (world_ok alone accepts it, and queue_cap_invariant, about the ledger, says nothing of its pods) *)
Definition ex_w1_forgotten : world :=
  mkWorld (upd_handlers (w_sess ex_w1) ∅ []) (w_queues ex_w1) (w_next_stmt ex_w1).
Example ex_forgotten_ledger_rejected :
  world_ok ex_w1_forgotten /\ (~ cover (w_sess ex_w1_forgotten)) /\
  (verdicts 2 ex_w1_forgotten ops4 = [VOk]) /\
  (held (w_sess (CycleModel.run 2 ex_w1_forgotten ops4)) 1 DCpu = 19200).
Proof.
  split; [apply world_okb_ok; vm_compute; reflexivity|]. split; [|vm_compute; split; reflexivity].
  intros Hc. specialize (Hc 1%positive DCpu). vm_compute in Hc. apply Hc. reflexivity.
Qed.

(* the main theorem in the property's words, instantiated on the first cycle *)
Example ex_placed_within_limit :
  held (w_sess (CycleModel.run 2 ex_w ops1)) 1 DCpu <= 16000.
Proof.
  destruct ex_first_placement as (t & Hh & Hl & Hq & HQ & Hr).
  exact (proj2 (placed_pods_within_limit 2 ex_w ops1 ex_world_ok_held [ev1] Hl ev1 t 1%positive _
                  ltac:(left) eq_refl Hh Hq HQ eq_refl) DCpu Hr).
Qed.

(* ---------- audit W7: backfill asks no vote ---------- *)
(* a best-effort task (empty request) of a job of the CLOSED queue 2 is placed by backfill: the
   action never consults ssn.Allocatable (backfill.go), so "not Open" and "leaf only" are not
   enforced for best-effort pods -- they request nothing, which is why the property text
   ("no pod with a non-zero request") and the first conjunct of the main theorem exempt them *)
Definition ex_case_be : cycle_case :=
  mkCycle 2
    [mkNodeSpec 1 true 4000 100000 10 0]
    [mkQSpec 1 true 1 0 0; mkQSpec 2 false 1 0 0]
    [mkJobSpec 1 1 1 []; mkJobSpec 2 2 1 []]
    [mkTaskSpec 1 2 1 0 0 0 0 Pending None false]
    true [2] [(1%positive, mkRes 16000 1600000 None); (2%positive, mkRes 16000 1600000 None)] [].
Definition ex_w_be : world := world_of ex_case_be.

Example ex_backfill_places_in_closed_queue :
  let s' := w_sess (CycleModel.run 2 ex_w_be [CBackfill 1 1]) in
  verdicts 2 ex_w_be [CBackfill 1 1] = [VOk] /\
  (exists t, heap s' !! 1%positive = Some t /\ t_best_effort t = true /\ t_status t = Binding /\
             queue_of s' t = Some 2%positive) /\
  (exists qa, w_queues ex_w_be !! 2%positive = Some qa /\ q_open qa = false).
Proof.
  (* the task is found first: evaluating [queue_of s' ?t] with [t] still open would normalise
     the whole session, handler closures included *)
  cbv zeta. split; [vm_compute; reflexivity|]. split.
  - eexists. split; [vm_compute; reflexivity|]. vm_compute. repeat split.
  - vm_compute. eexists; repeat split.
Qed.
