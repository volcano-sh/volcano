(* C01: the counts the gang plugin reads from TaskStatusIndex are the specification
   counts over the job's task list (index_counts_spec), and the plugin's JobReady / JobPipelined
   votes are the property's own wording on those counts (gang_ready_spec).  std++ style. *)
From stdpp Require Import gmap.
From Coq Require Import ZArith Lia.
From V Require Import Base.Res Sched.LedgerModel Sched.StmtModel Sched.GangModel Sched.LedgerInvP.
Open Scope Z_scope.

(* the membership half of LedgerInvP.index_ok: all the counting needs *)
Definition idx_ok (h : gmap positive task) (ids : gset positive) (ix : gmap positive (gset positive)) : Prop :=
  forall s i, i ∈ idx_set ix s <-> i ∈ ids /\ exists t, h !! i = Some t /\ t_status t = s.

Lemma index_ok_idx_ok h ids ix : index_ok h ids ix -> idx_ok h ids ix.
Proof. intros [H _]. exact H. Qed.

(* a task predicate read through the heap *)
Definition holds (h : gmap positive task) (p : task -> bool) (i : positive) : bool :=
  match h !! i with Some t => p t | None => false end.

(* what the session counts as occupying a gang slot: ReadyTaskNum's statuses, best-effort
   Pending tasks, and (for the Pipelined votes) Pipelined tasks *)
Definition slot_counted (with_pipelined : bool) (t : task) : bool :=
  match t_status t with
  | Bound | Binding | Running | Allocated | Succeeded => true
  | Pipelined => with_pipelined
  | Pending => t_best_effort t
  | _ => false
  end.
Definition session_ready : task -> bool := slot_counted false.
Definition session_pipelined : task -> bool := slot_counted true.
Definition ready_status (t : task) : bool :=
  match t_status t with Bound | Binding | Running | Allocated | Succeeded => true | _ => false end.
Definition has_status (s : status) (t : task) : bool := bool_decide (t_status t = s).
Definition in_role (r : positive) (t : task) : bool := bool_decide (t_role t = r).

Lemma stdpp_filter_length {A} (q : A -> bool) (l : list A) :
  length (filter (fun i => q i = true) l) = length (List.filter q l).
Proof.
  induction l as [|a l IH]; [done|].
  rewrite filter_cons. destruct (decide (q a = true)) as [E|E].
  - cbn [List.filter]. rewrite E. simpl. by rewrite IH.
  - cbn [List.filter]. destruct (q a); [done|]. done.
Qed.

Lemma size_filter_list (l : list positive) (X : gset positive) (q : positive -> bool) :
  NoDup l -> (forall i, i ∈ X <-> i ∈ l /\ q i = true) ->
  size X = length (List.filter q l).
Proof.
  intros Hnd HX. rewrite <- stdpp_filter_length. apply Permutation_length.
  apply NoDup_Permutation; [apply NoDup_elements|by apply NoDup_filter|].
  intros i. rewrite elem_of_elements, elem_of_list_filter, HX. tauto.
Qed.

Lemma filter_tasks_in h (p : task -> bool) (l : list positive) :
  length (List.filter p (omap (fun i => h !! i) l)) = length (List.filter (holds h p) l).
Proof.
  induction l as [|a l IH]; [done|]. cbn. unfold holds at 1.
  destruct (h !! a) as [t|]; cbn.
  - destruct (p t); cbn; by rewrite IH.
  - done.
Qed.

Lemma size_spec h ids (X : gset positive) (p : task -> bool) :
  (forall i, i ∈ X <-> i ∈ ids /\ holds h p i = true) ->
  Z.of_nat (size X) = count_tasks p (tasks_in h ids).
Proof.
  intros HX. unfold count_tasks, tasks_in. rewrite filter_tasks_in. f_equal.
  apply size_filter_list; [apply NoDup_elements|].
  intros i. rewrite HX. by rewrite elem_of_elements.
Qed.

Lemma idx_count_spec h ids ix s : idx_ok h ids ix ->
  idx_count ix s = count_tasks (has_status s) (tasks_in h ids).
Proof.
  intros Hix. unfold idx_count. apply size_spec. intros i. rewrite (Hix s i).
  unfold holds, has_status. destruct (h !! i) as [t|].
  - rewrite bool_decide_eq_true. naive_solver.
  - naive_solver.
Qed.

Lemma count_set_spec h ids ix s (q : task -> bool) : idx_ok h ids ix ->
  count_set (holds h q) (idx_set ix s) = count_tasks (fun t => has_status s t && q t) (tasks_in h ids).
Proof.
  intros Hix. unfold count_set. rewrite stdpp_filter_length.
  rewrite <- (size_filter_list (elements (idx_set ix s)) (filter (fun i => holds h q i = true) (idx_set ix s))).
  - apply size_spec. intros i. rewrite elem_of_filter, (Hix s i).
    unfold holds, has_status. destruct (h !! i) as [t|].
    + rewrite andb_true_iff, bool_decide_eq_true. naive_solver.
    + naive_solver.
  - apply NoDup_elements.
  - intros i. rewrite elem_of_filter, elem_of_elements. tauto.
Qed.

(* counts as sums of 0/1 *)
Lemma sum_amt_cons (f : task -> Z) t l : sum_amt f (t :: l) = f t + sum_amt f l.
Proof. reflexivity. Qed.
Lemma count_tasks_sum (p : task -> bool) l : count_tasks p l = sum_amt (fun t => Z.b2z (p t)) l.
Proof.
  unfold count_tasks. induction l as [|t l IH]; [done|].
  rewrite sum_amt_cons, <- IH. cbn [List.filter]. destruct (p t); cbn [length Z.b2z]; lia.
Qed.
Lemma sum_amt_add (f g : task -> Z) l : sum_amt f l + sum_amt g l = sum_amt (fun t => f t + g t) l.
Proof. induction l as [|t l IH]; [done|]. rewrite !sum_amt_cons. lia. Qed.
Lemma sum_amt_ext (f g : task -> Z) l : (forall t, f t = g t) -> sum_amt f l = sum_amt g l.
Proof. intros H. induction l as [|t l IH]; [done|]. by rewrite !sum_amt_cons, H, IH. Qed.

Lemma count_tasks_mono (p q : task -> bool) l : (forall t, p t = true -> q t = true) -> count_tasks p l <= count_tasks q l.
Proof.
  intros H. rewrite !count_tasks_sum. induction l as [|t l IH]; [done|]. rewrite !sum_amt_cons.
  specialize (H t). destruct (p t), (q t); cbn [Z.b2z]; try lia; by specialize (H eq_refl).
Qed.
Lemma count_tasks_nonneg (p : task -> bool) l : 0 <= count_tasks p l.
Proof. unfold count_tasks. lia. Qed.

Section Counts.
Variables (h : gmap positive task) (ids : gset positive) (ix : gmap positive (gset positive)).
Hypothesis Hix : idx_ok h ids ix.
Let ts := tasks_in h ids.

Lemma ready_num_spec : ready_num ix = count_tasks ready_status ts.
Proof.
  unfold ready_num. rewrite !(idx_count_spec h ids) by done. fold ts.
  rewrite !count_tasks_sum, !sum_amt_add. apply sum_amt_ext. intros t.
  unfold has_status, ready_status. destruct (t_status t); reflexivity.
Qed.

Lemma waiting_num_spec : waiting_num ix = count_tasks (has_status Pipelined) ts.
Proof. unfold waiting_num. by rewrite (idx_count_spec h ids). Qed.

Lemma pending_be_num_spec :
  pending_be_num h ix = count_tasks (fun t => has_status Pending t && t_best_effort t) ts.
Proof. unfold pending_be_num. exact (count_set_spec h ids ix Pending t_best_effort Hix). Qed.

Lemma role_occupied_spec b r :
  role_occupied h ix b r = count_tasks (fun t => slot_counted b t && in_role r t) ts.
Proof.
  unfold role_occupied.
  change (has_role h r) with (holds h (in_role r)).
  change (is_best_effort h) with (holds h t_best_effort).
  assert (Hbe : count_set (fun i => holds h (in_role r) i && holds h t_best_effort i) (idx_set ix Pending) =
                count_set (holds h (fun t => in_role r t && t_best_effort t)) (idx_set ix Pending)).
  { unfold count_set. f_equal. f_equal. apply list_filter_iff. intros i. unfold holds. by destruct (h !! i). }
  rewrite Hbe. rewrite !(count_set_spec h ids) by done. fold ts.
  destruct b; rewrite ?Z.add_0_r, !count_tasks_sum, !sum_amt_add; apply sum_amt_ext; intros t;
    unfold has_status, slot_counted, in_role;
    destruct (t_status t), (bool_decide (t_role t = r)), (t_best_effort t); reflexivity.
Qed.

Lemma slot_total_spec (b : bool) :
  (if b then waiting_num ix else 0) + ready_num ix + pending_be_num h ix = count_tasks (slot_counted b) ts.
Proof.
  rewrite ready_num_spec, pending_be_num_spec.
  destruct b; rewrite ?waiting_num_spec, ?Z.add_0_l, !count_tasks_sum, !sum_amt_add; apply sum_amt_ext; intros t;
    unfold has_status, ready_status, slot_counted; destruct (t_status t), (t_best_effort t); reflexivity.
Qed.

Lemma is_ready_spec m : is_ready h ix m = true <-> m <= count_tasks session_ready ts.
Proof. unfold is_ready, session_ready. by rewrite bool_decide_eq_true, <- (slot_total_spec false). Qed.
Lemma is_pipelined_spec m : is_pipelined h ix m = true <-> m <= count_tasks session_pipelined ts.
Proof. unfold is_pipelined, session_pipelined. by rewrite bool_decide_eq_true, <- (slot_total_spec true). Qed.
Lemma is_starving_spec m :
  is_starving ix m = true <-> count_tasks (has_status Pipelined) ts + count_tasks ready_status ts < m.
Proof. unfold is_starving. by rewrite bool_decide_eq_true, waiting_num_spec, ready_num_spec. Qed.

End Counts.

(* the gang condition (minMember, and the role minimums when they apply) for a notion p of
   "occupies a slot": session_ready / session_pipelined for the plugin's votes, cluster_ready for gang_ok *)
Definition gang_cond (p : task -> bool) (h : gmap positive task) (j : job) : Prop :=
  let ts := tasks_in h (j_tasks j) in
  j_min j <= count_tasks p ts /\
  (j_role_total j <= j_min j ->
   forall r m, j_role_min j !! r = Some m -> m <= count_tasks (fun t => p t && in_role r t) ts).

Lemma roles_ok_spec h j b : idx_ok h (j_tasks j) (j_index j) ->
  roles_ok h j b = true <->
  (j_role_total j <= j_min j ->
   forall r m, j_role_min j !! r = Some m ->
     m <= count_tasks (fun t => slot_counted b t && in_role r t) (tasks_in h (j_tasks j))).
Proof.
  intros Hix. unfold roles_ok. case_bool_decide as Hlt.
  - split; [intros _ Hle; lia|done].
  - rewrite bool_decide_eq_true. unfold map_Forall. split.
    + intros H _ r m Hr. specialize (H r m Hr). apply bool_decide_eq_true in H.
      by rewrite (role_occupied_spec h (j_tasks j)) in H.
    + intros H r m Hr. apply bool_decide_eq_true.
      rewrite (role_occupied_spec h (j_tasks j)) by done. apply H; [lia|done].
Qed.

Theorem gang_ready_spec_idx h j : idx_ok h (j_tasks j) (j_index j) ->
  (gang_job_ready h j = true <-> gang_cond session_ready h j) /\
  (gang_job_pipelined h j = true <-> gang_cond session_pipelined h j).
Proof.
  intros Hix. unfold gang_job_ready, gang_job_pipelined, check_task_ready, check_task_pipelined, gang_cond.
  rewrite !andb_true_iff, !roles_ok_spec by done.
  rewrite (is_ready_spec h (j_tasks j)), (is_pipelined_spec h (j_tasks j)) by done.
  unfold session_ready, session_pipelined. tauto.
Qed.

Lemma job_inv_idx_ok h j : job_inv h j -> idx_ok h (j_tasks j) (j_index j).
Proof. intros (_ & Hix & _). by apply index_ok_idx_ok. Qed.

Theorem index_counts_spec h j : job_inv h j ->
  let ts := tasks_in h (j_tasks j) in
  ready_num (j_index j) = count_tasks ready_status ts /\
  pending_be_num h (j_index j) = count_tasks (fun t => has_status Pending t && t_best_effort t) ts /\
  waiting_num (j_index j) = count_tasks (has_status Pipelined) ts /\
  (forall b r, role_occupied h (j_index j) b r = count_tasks (fun t => slot_counted b t && in_role r t) ts).
Proof.
  intros Hj%job_inv_idx_ok ts. split; [|split; [|split]].
  - by apply ready_num_spec.
  - by apply pending_be_num_spec.
  - by apply waiting_num_spec.
  - intros b r. by apply role_occupied_spec.
Qed.

Theorem gang_ready_spec h j : job_inv h j ->
  (gang_job_ready h j = true <-> gang_cond session_ready h j) /\
  (gang_job_pipelined h j = true <-> gang_cond session_pipelined h j) /\
  (gang_job_starving j = true <->
   count_tasks (has_status Pipelined) (tasks_in h (j_tasks j)) + count_tasks ready_status (tasks_in h (j_tasks j)) < j_min j).
Proof.
  intros Hj%job_inv_idx_ok. destruct (gang_ready_spec_idx h j Hj) as [H1 H2].
  split; [done|split; [done|]]. by apply is_starving_spec.
Qed.

(* the cluster-visible condition of LedgerInvP.gang_ok in the same shape *)
Lemma gang_ok_cond h j : gang_ok h j <-> gang_cond cluster_ready h j.
Proof.
  unfold gang_ok, gang_cond, in_role. done.
Qed.
