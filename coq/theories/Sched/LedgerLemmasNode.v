(* C07 proofs: NodeInfo.AddTask / RemoveTask preserve the node invariant (the four sums over
   the held copies and idle + used = allocatable); UpdateTask is RemoveTask then AddTask
   (C07_node_update_inv in Props/C07.v). *)
From stdpp Require Import gmap.
From Coq Require Import ZArith Lia.
From V Require Import Base.Res Base.ResLemmas Sched.LedgerModel Sched.StmtModel Sched.GangModel
  Sched.LedgerInvP Sched.LedgerInv Sched.LedgerLemmasA.
Open Scope Z_scope.

(* the well-formedness the idle ledger needs: Resource.sub on a nil scalar map silently drops
   the subtrahend's scalars, so Idle of a real node must have a scalar map (NewResource of a
   node's allocatable always has one: it carries "pods") *)
Definition node_wf (n : node) : Prop := n_has_node n = true -> sc (n_idle n) <> None.

(* what the node invariant reads of the heap: the static fields *)
Definition heap_static (h h' : gmap positive task) : Prop :=
  forall i t, h !! i = Some t -> exists t', h' !! i = Some t' /\ t_req t' = t_req t /\ t_job t' = t_job t.

Lemma heap_static_refl h : heap_static h h.
Proof. intros i t Ht. eauto. Qed.

Lemma heap_static_insert h p :
  (forall x, h !! t_id p = Some x -> t_req x = t_req p /\ t_job x = t_job p) ->
  heap_static h (<[t_id p := p]> h).
Proof.
  intros H i t Ht. destruct (decide (i = t_id p)) as [->|Hne].
  - rewrite lookup_insert. exists p. destruct (H t Ht) as [-> ->]. auto.
  - rewrite lookup_insert_ne by congruence. eauto.
Qed.

Lemma node_inv_ext h h' n : heap_static h h' -> node_inv h n -> node_inv h' n.
Proof.
  intros Hs [Hc Hsum]. split; [|exact Hsum].
  intros i c Hi. destruct (Hc i c Hi) as (H1 & H2 & H3 & t & Ht & Hr & Hj).
  repeat split; try assumption. destruct (Hs i t Ht) as (t' & Ht' & Hr' & Hj').
  exists t'. split; [exact Ht'|]. split; congruence.
Qed.

Lemma copy_amts_nonneg h n c d :
  node_inv h n -> c ∈ copies n -> 0 <= used_amt d c /\ 0 <= rel_amt d c /\ 0 <= pip_amt d c.
Proof.
  intros [Hc _] Hin. apply elem_of_copies in Hin as (i & Hi).
  destruct (Hc i c Hi) as (_ & _ & Hnn & _). specialize (Hnn d).
  unfold used_amt, rel_amt, pip_amt. repeat case_bool_decide; lia.
Qed.

(* inserting a fresh copy, given how the four ledgers moved *)
Lemma node_with_insert_inv h n t idle used rel pip :
  node_inv h n -> n_tasks n !! t_id t = None -> nonneg (t_req t) ->
  (exists x, h !! t_id t = Some x /\ t_req x = t_req t /\ t_job x = t_job t) ->
  (n_has_node n = true -> forall d,
     amt used d = amt (n_used n) d + used_amt d t /\
     amt rel d = amt (n_releasing n) d + rel_amt d t /\
     amt pip d = amt (n_pipelined n) d + pip_amt d t /\
     amt idle d + amt used d = amt (n_alloc n) d) ->
  node_inv h (node_with n idle used rel pip (<[t_id t := set_node t (Some (n_id n))]> (n_tasks n))).
Proof.
  intros [Hc Hsum] Hnone Hnn Hx Hled. split.
  - intros i c. simpl. destruct (decide (i = t_id t)) as [->|Hne].
    + rewrite lookup_insert. intros [= <-]. simpl. split; [reflexivity|]. split; [reflexivity|]. split; [exact Hnn|exact Hx].
    + rewrite lookup_insert_ne by congruence. apply Hc.
  - intros Hhas. change (n_has_node n = true) in Hhas.
    destruct (Hsum Hhas) as (Hu & Hr & Hp & Hi). specialize (Hled Hhas).
    set (c := set_node t (Some (n_id n))).
    pose proof (copies_insert n (t_id t) c idle used rel pip Hnone) as Hperm.
    assert (Hcu : forall d, used_amt d c = used_amt d t) by reflexivity.
    assert (Hcr : forall d, rel_amt d c = rel_amt d t) by reflexivity.
    assert (Hcp : forall d, pip_amt d c = pip_amt d t) by reflexivity.
    cbn [n_used n_releasing n_pipelined n_idle n_alloc node_with].
    split; [|split; [|split]]; intros d; destruct (Hled d) as (L1 & L2 & L3 & L4);
      rewrite ?(sum_amt_perm _ _ _ Hperm), ?sum_amt_cons, ?Hcu, ?Hcr, ?Hcp, <- ?Hu, <- ?Hr, <- ?Hp; lia.
Qed.

(* removing a held copy, given how the four ledgers moved *)
Lemma node_with_delete_inv h n i c idle used rel pip :
  node_inv h n -> n_tasks n !! i = Some c ->
  (n_has_node n = true -> forall d,
     amt used d = amt (n_used n) d - used_amt d c /\
     amt rel d = amt (n_releasing n) d - rel_amt d c /\
     amt pip d = amt (n_pipelined n) d - pip_amt d c /\
     amt idle d + amt used d = amt (n_alloc n) d) ->
  node_inv h (node_with n idle used rel pip (delete i (n_tasks n))).
Proof.
  intros [Hc Hsum] Hi Hled. split.
  - intros k x. simpl. destruct (decide (k = i)) as [->|Hne].
    + rewrite lookup_delete. discriminate.
    + rewrite lookup_delete_ne by congruence. apply Hc.
  - intros Hhas. change (n_has_node n = true) in Hhas.
    destruct (Hsum Hhas) as (Hu & Hr & Hp & Hid). specialize (Hled Hhas).
    pose proof (copies_delete n i c idle used rel pip Hi) as Hperm.
    cbn [n_used n_releasing n_pipelined n_idle n_alloc node_with].
    split; [|split; [|split]]; intros d; destruct (Hled d) as (L1 & L2 & L3 & L4);
      [rewrite L1, Hu|rewrite L2, Hr|rewrite L3, Hp|exact L4];
      rewrite (sum_amt_perm _ _ _ Hperm), sum_amt_cons; lia.
Qed.

Lemma node_add_spec eps n t n' t' :
  node_add eps n t = inl (n', t') ->
  t' = set_node t (Some (n_id n)) /\ n_tasks n !! t_id t = None /\
  n_tasks n' = <[t_id t := set_node t (Some (n_id n))]> (n_tasks n) /\
  n_id n' = n_id n /\ n_has_node n' = n_has_node n /\ n_alloc n' = n_alloc n /\
  (t_node t = None \/ t_node t = Some (n_id n)).
Proof.
  unfold node_add. cbv zeta. case_bool_decide as H1; [discriminate|]. case_bool_decide as H2; [discriminate|].
  assert (Hn : n_tasks n !! t_id t = None).
  { destruct (n_tasks n !! t_id t) eqn:E; [exfalso; apply H2; eauto|reflexivity]. }
  assert (Hnode : t_node t = None \/ t_node t = Some (n_id n)).
  { destruct (t_node t) as [x|]; [|left; reflexivity]. right.
    destruct (decide (x = n_id n)) as [->|Hne]; [reflexivity|]. exfalso. apply H1. split; congruence. }
  destruct (n_has_node n) eqn:Hhas; simpl.
  - destruct (t_status t); try (intros [= <- <-]; repeat split; first [assumption|reflexivity|simpl; assumption]).
    destruct (less_equal_names eps (t_req t) (n_idle n) DZero); [|intros ?; discriminate].
    intros [= <- <-]; repeat split; first [assumption|reflexivity|simpl; assumption].
  - intros [= <- <-]; repeat split; first [assumption|reflexivity|simpl; assumption].
Qed.

(* AddTask: success keeps the invariant; the caller's object only gains NodeName (node_add_spec) *)
Theorem node_add_inv eps h n t n' t' :
  node_inv h n -> node_wf n -> nonneg (t_req t) ->
  (exists x, h !! t_id t = Some x /\ t_req x = t_req t /\ t_job x = t_job t) ->
  node_add eps n t = inl (n', t') ->
  node_inv h n' /\ node_wf n'.
Proof.
  intros Hinv Hwf Hnn Hx Hadd.
  destruct (node_add_spec _ _ _ _ _ Hadd) as (_ & Hnone & _).
  pose proof Hinv as [_ Hsum].
  revert Hadd. unfold node_add. cbv zeta. case_bool_decide as H1; [discriminate|]. case_bool_decide as H2; [discriminate|].
  destruct (n_has_node n) eqn:Hhas; simpl.
  - specialize (Hwf Hhas). destruct (Hsum eq_refl) as (_ & _ & _ & Hid).
    assert (Hsub : forall d, amt (sub (n_idle n) (t_req t)) d = amt (n_idle n) d - amt (t_req t) d)
      by (intros d; apply amt_sub_some, Hwf).
    assert (Hwf' : sc (sub (n_idle n) (t_req t)) <> None) by (apply sub_sc_some, Hwf).
    destruct (t_status t) eqn:Est;
      try (destruct (less_equal_names eps (t_req t) (n_idle n) DZero); [|intros ?; discriminate]);
      intros [= <- <-];
      (split; [apply node_with_insert_inv; try assumption;
               intros _ d; specialize (Hid d); unfold used_amt, rel_amt, pip_amt; rewrite Est; simpl;
               rewrite ?amt_add, ?Hsub; lia
              |intros _; simpl; assumption]).
  - intros [= <- <-]. split.
    + apply node_with_insert_inv; try assumption. rewrite Hhas. discriminate.
    + unfold node_wf. simpl. rewrite Hhas. discriminate.
Qed.

Lemma node_remove_none n i : n_tasks n !! i = None -> node_remove n i = n.
Proof. unfold node_remove. intros ->. reflexivity. Qed.

Lemma node_remove_fields n i :
  n_id (node_remove n i) = n_id n /\ n_has_node (node_remove n i) = n_has_node n /\
  n_alloc (node_remove n i) = n_alloc n /\ n_tasks (node_remove n i) = delete i (n_tasks n).
Proof.
  unfold node_remove. destruct (n_tasks n !! i) as [c|] eqn:E.
  - destruct (n_has_node n) eqn:Hhas; simpl; [destruct (t_status c)|]; repeat split; simpl; assumption.
  - repeat split. symmetry. apply delete_notin. exact E.
Qed.

(* RemoveTask *)
Theorem node_remove_inv h n i :
  node_inv h n -> node_wf n -> node_inv h (node_remove n i) /\ node_wf (node_remove n i).
Proof.
  intros Hinv Hwf. unfold node_remove. destruct (n_tasks n !! i) as [c|] eqn:E; [|split; assumption].
  pose proof Hinv as [Hc Hsum].
  destruct (n_has_node n) eqn:Hhas; simpl.
  - specialize (Hwf Hhas). destruct (Hsum eq_refl) as (Hu & Hr & Hp & Hid).
    assert (Hcin : c ∈ copies n) by (apply elem_of_copies; eauto).
    assert (Hnn : forall d x, x ∈ copies n -> 0 <= used_amt d x /\ 0 <= rel_amt d x /\ 0 <= pip_amt d x)
      by (intros d x Hx; eapply copy_amts_nonneg; eauto).
    assert (Hreq : nonneg (t_req c)) by (destruct (Hc i c E) as (_ & _ & H & _); exact H).
    assert (Hge_u : forall d, used_amt d c <= amt (n_used n) d)
      by (intros d; rewrite Hu; apply sum_amt_ge_elem; [intros x Hx; apply (Hnn d x Hx)|exact Hcin]).
    assert (Hge_r : forall d, rel_amt d c <= amt (n_releasing n) d)
      by (intros d; rewrite Hr; apply sum_amt_ge_elem; [intros x Hx; apply (Hnn d x Hx)|exact Hcin]).
    assert (Hge_p : forall d, pip_amt d c <= amt (n_pipelined n) d)
      by (intros d; rewrite Hp; apply sum_amt_ge_elem; [intros x Hx; apply (Hnn d x Hx)|exact Hcin]).
    assert (Hwf' : sc (add (n_idle n) (t_req c)) <> None) by (apply add_sc_some, Hwf).
    destruct (t_status c) eqn:Est;
      (split; [eapply node_with_delete_inv; [exact Hinv|exact E|];
               intros _ d; specialize (Hid d);
               unfold used_amt, rel_amt, pip_amt in *; rewrite Est in *; simpl in *;
               rewrite ?amt_add;
               rewrite ?(amt_sub_part (n_used n) (t_req c)) by (intros d'; split; [apply Hreq|apply Hge_u]);
               rewrite ?(amt_sub_part (n_releasing n) (t_req c)) by (intros d'; split; [apply Hreq|apply Hge_r]);
               rewrite ?(amt_sub_part (n_pipelined n) (t_req c)) by (intros d'; split; [apply Hreq|apply Hge_p]);
               lia
              |intros _; simpl; assumption]).
  - split.
    + eapply node_with_delete_inv; [exact Hinv|exact E|]. rewrite Hhas. discriminate.
    + unfold node_wf. simpl. rewrite Hhas. discriminate.
Qed.

