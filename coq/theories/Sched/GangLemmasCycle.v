(* C01: the action skeleton (CycleModel) binds a task only when its gang is complete
   in the cluster-visible sense, and a complete gang stays complete until the end of the cycle. *)
From stdpp Require Import gmap.
From Coq Require Import ZArith Lia.
From V Require Import Base.Res Sched.LedgerModel Sched.StmtModel Sched.GangModel Sched.CycleModel Sched.LedgerInvP
                      Sched.GangLemmas Sched.GangLemmasInv Sched.GangLemmasEvict Sched.GangLemmasStmt.
Open Scope Z_scope.

Lemma filter_length_mono {A} (f g : A -> bool) (l : list A) :
  (forall x, x ∈ l -> f x = true -> g x = true) -> (length (List.filter f l) <= length (List.filter g l))%nat.
Proof.
  induction l as [|a l IH]; intros H; [done|]. simpl.
  assert (IH' : (length (List.filter f l) <= length (List.filter g l))%nat).
  { apply IH. intros x Hx. apply H. by right. }
  destruct (f a) eqn:Ef.
  - rewrite (H a) by (done || left). simpl. lia.
  - destruct (g a); simpl; lia.
Qed.

Lemma count_heap_mono h h' ids (p p' : task -> bool) :
  (forall i t, i ∈ ids -> h !! i = Some t -> p t = true -> exists t', h' !! i = Some t' /\ p' t' = true) ->
  count_tasks p (tasks_in h ids) <= count_tasks p' (tasks_in h' ids).
Proof.
  intros H. unfold count_tasks, tasks_in. rewrite !filter_tasks_in. apply inj_le.
  apply filter_length_mono. intros i Hi%elem_of_elements. unfold holds.
  destruct (h !! i) as [t|] eqn:E; [|done]. intros Hp.
  destruct (H i t Hi E Hp) as (t' & -> & Hp'). done.
Qed.

Lemma gang_cond_mono (p p' : task -> bool) h h' j j' :
  gang_cond p h j -> jstatic j j' ->
  (forall i t, i ∈ j_tasks j -> h !! i = Some t -> p t = true ->
     exists t', h' !! i = Some t' /\ t_role t' = t_role t /\ p' t' = true) ->
  gang_cond p' h' j'.
Proof.
  intros [Hmin Hroles] (Emin & Erm & Ert & Ets) H. unfold gang_cond. rewrite Emin, Erm, Ert, Ets. split.
  - etrans; [exact Hmin|]. apply count_heap_mono. intros i t Hi E Hp.
    destruct (H i t Hi E Hp) as (t' & E' & _ & Hp'). eauto.
  - intros Hle r m Hr. etrans; [by apply Hroles|]. apply count_heap_mono. intros i t Hi E Hp.
    apply andb_true_iff in Hp as [Hp Hrole].
    destruct (H i t Hi E Hp) as (t' & E' & Hr' & Hp'). exists t'. split; [done|].
    apply andb_true_iff. split; [done|]. unfold in_role in *. by rewrite Hr'.
Qed.

Definition keeps_visible (_ : positive) (t t' : task) : Prop :=
  (cluster_ready t = true -> cluster_ready t' = true) /\ (t_status t = Binding -> t_status t' = Binding).
Definition persist : sess -> sess -> Prop := evolve keeps_visible.

Lemma persist_refl s : gang_inv s -> persist s s.
Proof. intros H. by apply evolve_refl. Qed.
Lemma persist_trans a b c : persist a b -> persist b c -> persist a c.
Proof. intros H1 H2. eapply evolve_trans; [exact H1|exact H2|]. intros i t u v _ _ [? ?] [? ?]. split; auto. Qed.

(* what has to hold of a task whose bind went out, seen at session s: it is Binding and its gang is complete *)
Definition bound_ok (s : sess) (i : positive) : Prop :=
  exists t j, heap s !! i = Some t /\ t_status t = Binding /\ jobs s !! t_job t = Some j /\ gang_ok (heap s) j.

Lemma bound_ok_persist s s' i : bound_ok s i -> persist s s' -> bound_ok s' i.
Proof.
  intros (t & j & E & Hb & Ej & Hok) Hp.
  destruct (evolve_fwd _ _ _ _ _ Hp E) as (t' & E' & (_ & Hjob & _) & _ & Hb').
  destruct (jobs_static_some _ _ _ _ (ev_jobs _ _ _ Hp) Ej) as (j' & Ej' & Hs).
  exists t', j'. split; [done|]. split; [auto|]. split; [by rewrite Hjob|].
  apply gang_ok_cond. apply gang_ok_cond in Hok.
  eapply gang_cond_mono; [exact Hok|exact Hs|].
  intros k u _ Eu Hu. destruct (evolve_fwd _ _ _ _ _ Hp Eu) as (u' & Eu' & (_ & _ & Hr & _) & Hc & _). eauto.
Qed.

(* the binds sent between s and s' are of complete gangs (GangLemmasMain.binds_ok is this, with bound_ok
   written out); a step reports this and that the cluster-visible state persists *)
Definition sent_ok (s s' : sess) : Prop :=
  exists nb, binds s' = nb ++ binds s /\ forall b, b ∈ nb -> bound_ok s' b.1.
Definition step_out (s s' : sess) : Prop := persist s s' /\ sent_ok s s'.

Lemma sent_ok_no_bind s s' : binds s' = binds s -> sent_ok s s'.
Proof. intros E. exists []. split; [done|]. by intros b ?%elem_of_nil. Qed.

Lemma step_out_refl s : gang_inv s -> step_out s s.
Proof. intros H. split; [by apply persist_refl|by apply sent_ok_no_bind]. Qed.

Lemma step_out_trans a b c : step_out a b -> step_out b c -> step_out a c.
Proof.
  intros (P1 & nb1 & E1 & B1) (P2 & nb2 & E2 & B2). split; [by eapply persist_trans|].
  exists (nb2 ++ nb1). split; [rewrite E2, E1; by rewrite app_assoc|].
  intros x [Hx|Hx]%elem_of_app; [by apply B2|]. eapply bound_ok_persist; [by apply B1|done].
Qed.

(* how one step of the skeleton may move a status: a bind goes out; `allocate` pipelines a task
   with a non-empty request; a task is tentatively allocated, by backfill if its request is empty,
   else by an attempt on a job of K whose statement is kept *)
Definition cycle_rel (K : positive -> Prop) (_ : positive) (t t' : task) : Prop :=
  t_status t' = t_status t \/ t_status t' = Binding \/
  (t_status t = Pending /\
   (t_status t' = Allocated /\ (t_best_effort t = true \/ K (t_job t)) \/
    t_status t' = Pipelined /\ t_best_effort t = false)).

Lemma cycle_rel_persist K s s' : evolve (cycle_rel K) s s' -> persist s s'.
Proof.
  intros H. eapply evolve_mono; [exact H|]. intros i t t' _ (_ & _ & _ & Hbe). unfold keeps_visible, cluster_ready.
  rewrite Hbe. intros [->|[->|[-> [[-> _]|[-> ->]]]]]; done.
Qed.

Lemma cycle_rel_backfill K i p p' : t_status p = Pending -> t_best_effort p = true ->
  t_status p' = Pending \/ t_status p' = Allocated -> cycle_rel K i p p'.
Proof. intros Hp Hb [?|?]; [left; congruence|right; right]. split; [done|]. left. split; [done|by left]. Qed.

(* session-ready at h becomes cluster-ready at h': the bridge used at every bind *)
Lemma ready_to_ok h h' j j' :
  idx_ok h (j_tasks j) (j_index j) -> gang_job_ready h j = true -> jstatic j j' ->
  (forall i t, i ∈ j_tasks j -> h !! i = Some t -> session_ready t = true ->
     exists t', h' !! i = Some t' /\ t_role t' = t_role t /\ cluster_ready t' = true) ->
  gang_ok h' j'.
Proof.
  intros Hix Hr Hs H. apply gang_ok_cond. destruct (gang_ready_spec_idx h j Hix) as [Hspec _].
  apply Hspec in Hr. by eapply gang_cond_mono.
Qed.

(* the session counts an Allocated task as occupying a slot, the cluster only if its request is empty *)
Lemma session_ready_visible t : session_ready t = true -> t_status t <> Allocated \/ t_best_effort t = true ->
  cluster_ready t = true.
Proof. unfold session_ready, slot_counted, cluster_ready. destruct (t_status t); try done; by intros _ [?|?]. Qed.

(* the step shared by Commit and by Session.Allocate's dispatch: the binds of a batch B of tasks of a
   JobReady job are sent for a complete gang, provided B holds every tentative allocation of the
   job with a non-empty request *)
Lemma bind_ready_job s s' B jid j :
  gang_inv s -> jobs s !! jid = Some j -> gang_job_ready (heap s) j = true -> bound_batch s s' B ->
  (forall i, i ∈ B -> bindable s jid i) ->
  (forall i t, heap s !! i = Some t -> t_job t = jid -> t_status t = Allocated -> t_best_effort t = true \/ i ∈ B) ->
  sent_ok s s'.
Proof.
  intros (Ha & Hb & Hc) Ej Eready [Hev _ (nb & Enb & Hnb)] HB Halloc.
  destruct (jobs_static_some _ _ _ _ (ev_jobs _ _ _ Hev) Ej) as (j' & Ej' & Hs).
  destruct (Hb _ _ Ej) as [Hts Hix].
  assert (Hok : gang_ok (heap s') j').
  { eapply ready_to_ok; [exact Hix|exact Eready|exact Hs|]. intros i t Hi Et Hsr.
    destruct (evolve_fwd _ _ _ _ _ Hev Et) as (t' & Et' & (_ & _ & Hr' & Hbe') & HB' & HnB).
    exists t'. split; [done|]. split; [done|]. unfold cluster_ready.
    destruct (base.decide (i ∈ B)) as [Hin|Hnin]; [by rewrite HB'|]. fold (cluster_ready t').
    apply session_ready_visible.
    - unfold session_ready, slot_counted. by rewrite HnB, Hbe'.
    - rewrite HnB, Hbe' by done. destruct (base.decide (t_status t = Allocated)) as [Hal|]; [right|by left].
      destruct (Hts i Hi) as (t0 & Et0 & Hj0). rewrite Et in Et0. injection Et0 as <-.
      by destruct (Halloc i t Et Hj0 Hal). }
  exists nb. split; [done|]. intros b Hin%Hnb. destruct (HB _ Hin) as (t & Et & Hjob).
  destruct (evolve_fwd _ _ _ _ _ Hev Et) as (t' & Et' & (_ & Hjob' & _) & HB' & _).
  exists t', j'. split; [done|]. split; [auto|]. split; [by rewrite Hjob', Hjob|done].
Qed.

Section WithEps.
Variable eps : Z.

(* ---------- backfill: Session.Allocate with its dispatch ---------- *)

(* what a backfill placement leaves behind: no kept statement, hence no job in cycle_rel *)
Definition backfilled (s s' : sess) : Prop :=
  evolve (cycle_rel (fun _ => False)) s s' /\ sent_ok s s' /\ stmts s' = stmts s.

Lemma backfill_spec s tid nid p :
  gang_inv s -> refuse_bind s = ∅ -> heap s !! tid = Some p -> t_status p = Pending -> t_best_effort p = true ->
  exists s' r, ssn_place_with eps (fun s j => gang_job_ready (heap s) j) s KAllocate tid nid = (s', r) /\ backfilled s s'.
Proof.
  intros Hinv Href Hp Hpend Hbe.
  assert (Hid : t_id p = tid) by (destruct Hinv as (Ha & _); by apply Ha).
  unfold ssn_place_with. rewrite Hp. rewrite <- Hid in *.
  destruct (touched_update s p Allocated Hinv Hp) as (found & s1 & p1 & E & Hf & Hst & Ht1).
  rewrite E. destruct (update_frame _ _ _ _ _ _ E) as [Hb1 Hs1]. destruct found; simpl negb; cbv iota.
  2:{ exists s, RErr. split; [done|]. split; [by apply evolve_refl; [|left]|]. by split; [apply sent_ok_no_bind|]. }
  set (p2 := set_node p1 (Some nid)). set (s2 := put_task s1 p2).
  assert (Ht2 : touched s s2 (t_id p) p p2) by (by apply (touched_set_node _ s1)).
  assert (Hb2 : binds s2 = binds s) by done. assert (Hs2 : stmts s2 = stmts s) by done.
  (* a replacement of p that is still Pending or is Allocated, without any bind *)
  assert (Hsilent : forall sq pq (r0 : result), touched s sq (t_id p) p pq ->
     t_status pq = Pending \/ t_status pq = Allocated -> binds sq = binds s -> stmts sq = stmts s ->
     exists s' r, (sq, r0) = (s', r) /\ backfilled s s').
  { intros sq pq r0 Ht Hst' Hb Hs. exists sq, r0. split; [done|]. split; [|by split; [apply sent_ok_no_bind|]].
    eapply evolve_mono; [exact (touched_evolve _ _ _ _ _ Ht)|].
    intros j t t' _ _ [[_ ->]|(_ & -> & ->)]; [by left|by apply cycle_rel_backfill]. }
  assert (Hrevert : forall r0 : result, exists s' r,
     ((let '(_, sr, pr) := ssn_update_status s2 p2 Pending in put_task sr (set_node pr None)), r0) = (s', r) /\
     backfilled s s').
  { intros r0. pose proof (tc_meta _ _ _ _ _ Ht2) as (Hid2 & _).
    assert (Hp2 : heap s2 !! t_id p2 = Some p2) by (rewrite Hid2; exact (touched_new _ _ _ _ _ Ht2)).
    destruct (touched_update s2 p2 Pending (tc_inv _ _ _ _ _ Ht2) Hp2) as (f & sr & pr & Er & _ & Hstr & Htr).
    rewrite Er. destruct (update_frame _ _ _ _ _ _ Er) as [Hbr Hsr]. rewrite Hid2 in Htr. apply (Hsilent _ (set_node pr None)).
    - eapply touched_trans; [exact Ht2|]. by apply (touched_set_node _ sr).
    - simpl. destruct f; [by left|right; by subst].
    - simpl. congruence.
    - simpl. congruence. }
  destruct (nodes s2 !! nid) as [n|] eqn:En; [|apply Hrevert].
  destruct (node_add eps n p2) as [[n' p3]|e] eqn:Eadd; [|apply Hrevert].
  clear Hrevert. apply node_add_task in Eadd as ->.
  set (p3 := set_node p2 (Some (n_id n))).
  set (s3 := put_task (upd_nodes s2 (<[nid := n']> (nodes s2))) p3).
  assert (Ht3 : touched s s3 (t_id p) p p3) by (by apply (touched_set_node _ s2)).
  unfold h_alloc. set (s4 := upd_handlers s3 _ _).
  assert (Ht4 : touched s s4 (t_id p) p p3) by (by apply (touched_same _ s3)).
  assert (Hb4 : binds s4 = binds s) by (simpl; done).
  assert (Hs4 : stmts s4 = stmts s) by (simpl; done).
  destruct (jobs s4 !! t_job p) as [j4|] eqn:Ej4; [|by apply (Hsilent s4 p3); [|right|..]].
  destruct (gang_job_ready (heap s4) j4) eqn:Eready; [|by apply (Hsilent s4 p3); [|right|..]].
  clear Hsilent.
  (* dispatch every Allocated task of the job *)
  pose proof (tc_inv _ _ _ _ _ Ht4) as Hinv4. destruct (proj1 (proj2 Hinv4) _ _ Ej4) as [Hts4 Hix4].
  set (l := elements (default ∅ (j_index j4 !! skey Allocated))).
  assert (Hl : forall i, i ∈ l <-> i ∈ j_tasks j4 /\ exists t, heap s4 !! i = Some t /\ t_status t = Allocated).
  { intros i. unfold l. rewrite elem_of_elements. apply (Hix4 Allocated i). }
  assert (Hjob : forall i, i ∈ l -> bindable s4 (t_job p) i).
  { intros i [Hi _]%Hl. by apply Hts4. }
  assert (Href4 : refuse_bind s4 = ∅) by (rewrite (tc_refuse _ _ _ _ _ Ht4); done).
  destruct (dispatch_all_spec s4 (t_job p) l s4 [] (bound_batch_refl s4 Hinv4) Href4 (mk_is_Some _ _ Ej4)
              (proj2 (Forall_forall _ _) Hjob)) as (s5 & E5 & Hbb).
  rewrite E5. simpl in Hbb. exists s5, ROk. split; [done|]. split; [|split].
  - eapply evolve_trans; [exact (touched_evolve _ _ _ _ _ Ht4)|exact (bb_ev _ _ _ Hbb)|].
    intros i t u v _ _ Hu [HB HnB]. destruct (base.decide (i ∈ l)) as [Hin|Hnin]; [right; left; auto|].
    destruct Hu as [[_ ->]|(_ & -> & ->)]; [left; auto|]. apply cycle_rel_backfill; [done|done|right; by rewrite HnB].
  - destruct (bind_ready_job s4 s5 l (t_job p) j4 Hinv4 Ej4 Eready Hbb Hjob) as (nb & Enb & Hnb).
    + intros i t Et Hj Hal. right. apply Hl. split; [|eauto]. eapply (proj2 (proj2 Hinv4)); [exact Et|by rewrite Hj].
    + exists nb. split; [congruence|done].
  - rewrite (bb_stmts _ _ _ Hbb). done.
Qed.

(* ---------- the task loop of an attempt ---------- *)

(* what the task loop may have done to a task that was Pending in job jid with a non-empty request:
   nothing, or pipelined it, or allocated it with an Allocate operation recorded in ops *)
Definition placing_rel (jid : positive) (ops : list oprec) (i : positive) (t0 t : task) : Prop :=
  t_status t = t_status t0 \/
  (t_status t0 = Pending /\ t_best_effort t0 = false /\ t_job t0 = jid /\
   (t_status t = Pending \/ t_status t = Pipelined \/ (t_status t = Allocated /\ mkOp KAllocate i Pending ∈ ops))).

Definition was_pending (s0 : sess) (jid i : positive) : Prop :=
  exists t0, heap s0 !! i = Some t0 /\ t_status t0 = Pending /\ t_best_effort t0 = false /\ t_job t0 = jid.

(* the invariant of the task loop of an attempt on job jid with statement sid, started at s0: statuses have
   moved by placing_rel, no bind, no other statement touched, every recorded operation is a placement of a
   task that was Pending in jid at s0 *)
Record dp (s0 s : sess) (sid jid : positive) : Prop := {
  dp_ev : evolve (placing_rel jid (default [] (stmts s !! sid))) s0 s;
  dp_binds : binds s = binds s0;
  dp_stmts : forall sid', sid' <> sid -> stmts s !! sid' = stmts s0 !! sid';
  dp_ops : Forall (fun o => op_kind o <> KEvict /\ was_pending s0 jid (op_task o)) (default [] (stmts s !! sid));
}.

Lemma placing_rel_mono jid ops ops' i t0 t :
  (forall o, o ∈ ops -> o ∈ ops') -> placing_rel jid ops i t0 t -> placing_rel jid ops' i t0 t.
Proof.
  intros Hsub [?|(? & ? & ? & Hc)]; [by left|right]. repeat split; try done.
  destruct Hc as [?|[?|[? ?]]]; [by left|right; by left|right; right; split; [done|by apply Hsub]].
Qed.

(* while the statement is not committed, that is a move a step may make *)
Lemma placing_cycle_rel jid ops (K : positive -> Prop) i t0 t1 :
  placing_rel jid ops i t0 t1 -> K jid -> cycle_rel K i t0 t1.
Proof.
  intros [?|(Hp & Hb & <- & [?|[?|[? _]]])] HK; [by left|left; congruence|right; right; (split; [done|])..];
    [by right|left]. split; [done|by right].
Qed.

Lemma dp_refl s0 sid jid : gang_inv s0 -> stmts s0 !! sid = None -> dp s0 s0 sid jid.
Proof.
  intros Hinv Hfresh. split; try done.
  - apply evolve_refl; [done|]. by left.
  - rewrite Hfresh. simpl. constructor.
Qed.

(* Statement.Allocate / Pipeline on a Pending task of the job, with a non-empty request *)
Lemma dp_place s0 s sid jid k p nid s' r :
  dp s0 s sid jid -> heap s !! t_id p = Some p -> t_status p = Pending -> t_job p = jid -> t_best_effort p = false ->
  place_with eps s sid k p nid = (s', r) -> k <> KEvict -> dp s0 s' sid jid.
Proof.
  intros [Dev Dbinds Dstmts Dops] Ep Hpend Hjob Hbe E Hk.
  destruct (place_with_spec eps s sid k p nid s' r (ev_inv _ _ _ Dev) Ep E) as (p' & Ht & Hst).
  destruct (place_frame _ _ _ _ _ _ _ _ E) as [Hb Hs].
  (* the task was Pending at the start: either untouched so far, or placed and rolled back *)
  assert (Hwas : forall t0, heap s0 !! t_id p = Some t0 -> same_meta t0 p ->
    placing_rel jid (default [] (stmts s !! sid)) (t_id p) t0 p ->
    t_status t0 = Pending /\ t_best_effort t0 = false /\ t_job t0 = jid).
  { intros t0 _ (_ & Hj0 & _ & Hb0) [?|(? & ? & ? & _)]; [|done]. repeat split; congruence. }
  destruct Hs as [[-> Hs]|[-> Hs]].
  - (* rolled back *)
    assert (Hst' : t_status p' = Pending) by (destruct Hst; congruence).
    split; rewrite ?Hs; [|congruence|done|done].
    eapply evolve_touched; [exact Dev|exact Ht|done|].
    intros t0 E0 M0 R0. right. destruct (Hwas t0 E0 M0 R0) as (? & ? & ?). repeat split; try done. by left.
  - (* placed: one more operation *)
    assert (Hops : default [] (stmts s' !! sid) = default [] (stmts s !! sid) ++ [mkOp k (t_id p) Pending])
      by (by rewrite Hs, lookup_insert).
    split; rewrite ?Hops.
    + eapply evolve_touched; [exact Dev|exact Ht| |].
      * intros j t u _ _ _. apply placing_rel_mono. intros o Ho. apply elem_of_app. by left.
      * intros t0 E0 M0 R0. right. destruct (Hwas t0 E0 M0 R0) as (? & ? & ?). repeat split; try done.
        rewrite Hst. destruct k; [done|right; by left|right; right]. split; [done|]. apply elem_of_app. right. by left.
    + congruence.
    + intros sid' Hne. rewrite Hs, lookup_insert_ne by done. by apply Dstmts.
    + apply Forall_app. split; [done|]. constructor; [|constructor]. split; [done|].
      destruct (evolve_bwd _ _ _ _ _ Dev Ep) as (t0 & E0 & M0 & R0). exists t0. split; [done|by eapply Hwas].
Qed.

(* allocateResourcesForTask: allocate if the task fits Idle, pipeline if it fits FutureIdle *)
Lemma dp_step s0 s sid jid tid nid p :
  dp s0 s sid jid -> heap s !! tid = Some p -> t_status p = Pending -> t_job p = jid -> t_best_effort p = false ->
  exists s' pl, try_place eps s sid tid nid = (s', pl) /\ dp s0 s' sid jid.
Proof.
  intros Hdp Ep Hpend Hjob Hbe. unfold try_place, stmt_allocate, stmt_pipeline, with_task. rewrite Ep.
  assert (Hid : t_id p = tid) by (destruct (ev_inv _ _ _ (dp_ev _ _ _ _ Hdp)) as (Ha & _); by apply Ha).
  rewrite <- Hid in Ep. destruct (nodes s !! nid) as [n|]; [|by exists s, PlaceRefused].
  destruct (negb _); [by exists s, PlacedNone|].
  destruct (less_equal eps (t_init p) (n_idle n) DZero); [|destruct (less_equal eps (t_init p) (future_idle n) DZero)];
    [| |by exists s, PlacedNone].
  - destruct (place_with eps s sid KAllocate p nid) as [s' r] eqn:E. eexists _, _. split; [done|by eapply dp_place].
  - destruct (place_with eps s sid KPipeline p nid) as [s' r] eqn:E. eexists _, _. split; [done|by eapply dp_place].
Qed.

(* allocate.go 283: `allocate` never takes a task with an empty request *)
Definition places_non_be (s0 : sess) (places : list (positive * positive)) : Prop :=
  forall tid nid t, (tid, nid) ∈ places -> heap s0 !! tid = Some t -> t_best_effort t = false.

Lemma do_places_dp w s0 sid jid places : forall s,
  dp s0 s sid jid -> places_non_be s0 places ->
  exists s' v, do_places eps w s sid jid places = (s', v) /\ dp s0 s' sid jid.
Proof.
  induction places as [|[tid nid] places IH]; intros s Hdp Hnbe.
  - by exists s, VOk.
  - simpl. destruct (heap s !! tid) as [p|] eqn:Ep; [|by exists s, (VNotPending tid)].
    destruct (bool_decide (t_status p = Pending) && bool_decide (t_job p = jid)) eqn:Echk; simpl negb; cbv iota;
      [|by exists s, (VNotPending tid)].
    apply andb_true_iff in Echk as [Hpend%bool_decide_eq_true Hjob%bool_decide_eq_true].
    destruct (negb _); [by exists s, (VQueueRefuses tid)|].
    destruct (evolve_bwd _ _ _ _ _ (dp_ev _ _ _ _ Hdp) Ep) as (t0 & E0 & (_ & _ & _ & Hbe0) & _).
    assert (Hbe : t_best_effort p = false).
    { rewrite Hbe0. eapply (Hnbe tid nid); [by left|done]. }
    destruct (dp_step s0 s sid jid tid nid p Hdp Ep Hpend Hjob Hbe) as (s1 & pl & E & Hdp1).
    rewrite E. apply IH; [done|]. intros t n u Hin. eapply Hnbe. by right.
Qed.

(* statements are numbered from w_next_stmt on: none exists yet *)
Definition fresh_from (s : sess) (sid : positive) : Prop :=
  forall sid', (sid <= sid')%positive -> stmts s !! sid' = None.

Definition winv (w : world) : Prop :=
  gang_inv (w_sess w) /\ refuse_bind (w_sess w) = ∅ /\ fresh_from (w_sess w) (w_next_stmt w).

Lemma winv_intro w : gang_inv (w_sess w) -> refuse_bind (w_sess w) = ∅ -> stmts (w_sess w) = ∅ -> winv w.
Proof. intros H1 H2 H3. split; [done|]. split; [done|]. intros sid _. rewrite H3. apply lookup_empty. Qed.

Lemma winv_next (R : positive -> task -> task -> Prop) w s' sid' :
  winv w -> evolve R (w_sess w) s' -> fresh_from s' sid' -> winv (mkWorld s' (w_queues w) sid').
Proof. intros (_ & Href & _) Hev Hf. split; [exact (ev_inv _ _ _ Hev)|]. split; [|done]. simpl. by rewrite (ev_refuse _ _ _ Hev). Qed.

(* the guard of an attempt (see docs/notes/C01.md, finding F10): the attempted job holds no
   tentative allocation with a non-empty request left by an earlier, kept statement; and
   `allocate` only places tasks with a non-empty request *)
Definition no_kept_alloc (s : sess) (jid : positive) : Prop :=
  forall i t, heap s !! i = Some t -> t_job t = jid -> t_status t = Allocated -> t_best_effort t = true.

Definition cop_guard (w : world) (o : cop) : Prop :=
  match o with
  | CAttempt jid places => no_kept_alloc (w_sess w) jid /\ places_non_be (w_sess w) places
  | CBackfill _ _ => True
  end.

(* the jobs a step leaves with a kept statement: the attempted job, unless its statement was committed
   (the decision read here is what GangLemmasShape names attempt_decision) *)
Definition kept_by (w : world) (o : cop) (j : positive) : Prop :=
  match o with
  | CAttempt jid places =>
      j = jid /\ CycleModel.decide (do_places eps w (w_sess w) (w_next_stmt w) jid places).1 jid <> DCommit
  | CBackfill _ _ => False
  end.

Lemma attempt_spec w jid places :
  winv w -> cop_guard w (CAttempt jid places) ->
  let w' := fst (step eps w (CAttempt jid places)) in
  winv w' /\ evolve (cycle_rel (kept_by w (CAttempt jid places))) (w_sess w) (w_sess w') /\
  sent_ok (w_sess w) (w_sess w').
Proof.
  intros Hw [Hg1 Hg2]. pose proof Hw as (Hinv & Href & Hfresh). unfold kept_by. simpl.
  set (s0 := w_sess w) in *. set (sid := w_next_stmt w) in *.
  assert (Hsid : stmts s0 !! sid = None) by (apply Hfresh; lia).
  destruct (do_places_dp w s0 sid jid places s0 (dp_refl s0 sid jid Hinv Hsid) Hg2) as (s1 & v & E & Hdp).
  rewrite E. simpl. destruct Hdp as [Dev Dbinds Dstmts Dops]. set (ops := default [] (stmts s1 !! sid)) in *.
  assert (Hfresh1 : forall s', stmts s' = stmts s1 -> fresh_from (upd_stmts s' (<[sid := []]> (stmts s'))) (Pos.succ sid)).
  { intros s' Es sid' Hle. simpl. rewrite lookup_insert_ne, Es, Dstmts by lia. apply Hfresh. lia. }
  (* it is enough to say how the statuses have moved since the task loop *)
  assert (Hend : forall (R : positive -> task -> task -> Prop) s',
    evolve R s1 s' -> stmts s' = stmts s1 -> sent_ok s1 s' ->
    (forall i t0 t1 t', heap s0 !! i = Some t0 -> same_meta t0 t1 -> placing_rel jid ops i t0 t1 -> R i t1 t' ->
       cycle_rel (fun j => j = jid /\ CycleModel.decide s1 jid <> DCommit) i t0 t') ->
    let s2 := upd_stmts s' (<[sid := []]> (stmts s')) in
    winv (mkWorld s2 (w_queues w) (Pos.succ sid)) /\
    evolve (cycle_rel (fun j => j = jid /\ CycleModel.decide s1 jid <> DCommit)) s0 s2 /\ sent_ok s0 s2).
  { intros R s' Hev Es (nb & Enb & Hnb) HR s2.
    assert (Hev2 : evolve (cycle_rel (fun j => j = jid /\ CycleModel.decide s1 jid <> DCommit)) s0 s2).
    { apply (evolve_same _ _ s'); [|done..]. eapply evolve_trans; [exact Dev|exact Hev|exact HR]. }
    split; [eapply winv_next; [exact Hw|exact Hev2|by apply Hfresh1]|]. split; [done|].
    exists nb. split; [simpl; congruence|exact Hnb]. }
  destruct (CycleModel.decide s1 jid) eqn:Ed.
  - (* commit: every Allocate operation of the statement is bound, for the job just found ready *)
    unfold CycleModel.decide in Ed. destruct (jobs s1 !! jid) as [j1|] eqn:Ej1; [|done].
    destruct (gang_sub_ready (heap s1) j1 || gang_sub_pipelined (heap s1) j1); [|done].
    destruct (gang_job_ready (heap s1) j1) eqn:Eready; [|done].
    pose proof (ev_inv _ _ _ Dev) as Hinv1.
    assert (Href1 : refuse_bind s1 = ∅) by (by rewrite (ev_refuse _ _ _ Dev)).
    assert (Hops : Forall (fun o => op_kind o <> KEvict /\ bindable s1 jid (op_task o)) ops).
    { eapply Forall_impl; [exact Dops|]. intros o [Hk (u0 & Eu0 & _ & _ & Hj0)]. split; [done|].
      destruct (evolve_fwd _ _ _ _ _ Dev Eu0) as (t1 & E1 & (_ & Hj1 & _) & _). exists t1. split; [done|congruence]. }
    pose proof (commit_fold eps s1 jid ops s1 [] (bound_batch_refl s1 Hinv1) Href1 (mk_is_Some _ _ Ej1) Hops) as Hbb.
    simpl in Hbb.
    unfold stmt_commit. fold ops. apply (Hend _ _ (bb_ev _ _ _ Hbb) (bb_stmts _ _ _ Hbb)).
    + apply (bind_ready_job s1 _ _ jid j1 Hinv1 Ej1 Eready Hbb).
      * intros i (o & Ho & _ & <-)%elem_of_alloc_tasks. exact (proj2 (proj1 (Forall_forall _ _) Hops o Ho)).
      * intros i t1 E1 Hj1 Hal. destruct (evolve_bwd _ _ _ _ _ Dev E1) as (t0 & E0 & (_ & Hj0 & _ & Hb0) & R0).
        destruct R0 as [Hst|(_ & _ & _ & [?|[?|[_ Hin]]])]; try congruence.
        -- left. rewrite Hb0. eapply Hg1; [exact E0|congruence|congruence].
        -- right. apply elem_of_alloc_tasks. by eexists.
    + intros i t0 t1 t' _ _ R0 [HB HnB]. destruct (base.decide (i ∈ alloc_tasks ops)) as [Hin|Hnin]; [right; left; auto|].
      unfold cycle_rel. rewrite HnB by done. destruct R0 as [?|(? & ? & ? & [?|[?|[_ Hin]]])]; [by left|left; congruence| |].
      * right. right. split; [done|]. by right.
      * destruct Hnin. apply elem_of_alloc_tasks. by eexists.
  - (* keep *)
    split; [eapply winv_next; [exact Hw|exact Dev|]|].
    { intros sid' Hle. rewrite Dstmts by lia. apply Hfresh. lia. }
    split; [|by apply sent_ok_no_bind]. eapply evolve_mono; [exact Dev|].
    intros i t0 t1 _ _ R0. by apply (placing_cycle_rel _ _ _ _ _ _ R0).
  - (* discard: every operation of the statement is undone *)
    unfold stmt_discard. fold ops.
    assert (Hops : Forall (fun o => op_kind o <> KEvict /\ was_pending s0 jid (op_task o)) (rev ops)) by (by apply Forall_rev).
    pose proof (discard_fold eps _ s1 (rev ops) s1 (evolve_refl _ s1 (ev_inv _ _ _ Dev) (fun _ _ => or_introl eq_refl)) Hops) as Hub.
    destruct (undo_fold_frame eps (rev ops) s1) as [Ub Us].
    apply (Hend _ _ Hub Us (sent_ok_no_bind _ _ Ub)).
    intros i t0 t1 t' E0 _ R0 [Hst|[Hst (u0 & Eu0 & Hp0 & _)]].
    + assert (H : cycle_rel (fun j => j = jid /\ DDiscard <> DCommit) i t0 t1)
        by (by apply (placing_cycle_rel _ _ _ _ _ _ R0)).
      unfold cycle_rel in *. by rewrite Hst.
    + left. rewrite E0 in Eu0. injection Eu0 as <-. congruence.
Qed.

Lemma step_spec w o : winv w -> cop_guard w o ->
  let w' := fst (step eps w o) in
  winv w' /\ evolve (cycle_rel (kept_by w o)) (w_sess w) (w_sess w') /\ sent_ok (w_sess w) (w_sess w').
Proof.
  destruct o as [jid places|tid nid]; [apply attempt_spec|].
  intros Hw _. pose proof Hw as (Hinv & Href & Hfresh). simpl.
  assert (Hrefl : winv w /\ evolve (cycle_rel (fun _ => False)) (w_sess w) (w_sess w) /\ sent_ok (w_sess w) (w_sess w)).
  { split; [done|]. split; [by apply evolve_refl; [|left]|by apply sent_ok_no_bind]. }
  destruct (heap (w_sess w) !! tid) as [p|] eqn:Ep; [|done].
  destruct (bool_decide (t_status p = Pending)) eqn:Epend; simpl negb; cbv iota; [|done].
  apply bool_decide_eq_true in Epend.
  destruct (t_best_effort p) eqn:Ebe; simpl negb; cbv iota; [|done].
  destruct (backfill_spec (w_sess w) tid nid p Hinv Href Ep Epend Ebe) as (s' & r & -> & Hev & Hout & Hs).
  simpl. split; [|done]. eapply winv_next; [done|exact Hev|]. intros sid' Hle. rewrite Hs. by apply Hfresh.
Qed.

Fixpoint guarded (w : world) (ops : list cop) : Prop :=
  match ops with
  | [] => True
  | o :: r => cop_guard w o /\ guarded (fst (step eps w o)) r
  end.

Lemma run_spec ops : forall w, winv w -> guarded w ops ->
  winv (run eps w ops) /\ step_out (w_sess w) (w_sess (run eps w ops)).
Proof.
  induction ops as [|o ops IH]; intros w Hw Hg.
  - simpl. split; [done|]. apply step_out_refl. by destruct Hw.
  - destruct Hg as [Hg1 Hg2]. destruct (step_spec w o Hw Hg1) as (Hw1 & Hev1 & Hout1).
    destruct (IH _ Hw1 Hg2) as [Hw2 Hout2]. unfold run in *. simpl. split; [done|].
    eapply step_out_trans; [|exact Hout2]. split; [by eapply cycle_rel_persist|done].
Qed.

End WithEps.
