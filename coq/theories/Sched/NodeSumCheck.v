(* Executable, sound check of the accounting hypothesis of cycle_sums_within_allocatable
   (nodes_acct), evaluated by law 113 on every generated cycle together with world_ok_b, and
   non-vacuity examples; the constructor of initial sessions establishes the hypothesis
   (build_nodes_acct). *)
From stdpp Require Import gmap.
From Coq Require Import ZArith Lia.
From V Require Import Base.Res Base.ResLemmas Sched.LedgerModel Sched.StmtModel Sched.LedgerCodec Sched.GangModel
                      Sched.CycleModel Sched.LedgerInvP Sched.NodeCapLemmas Sched.NodeCapLemmasCycle Sched.NodeCapCheck
                      Sched.NodeSumLemmas Sched.NodeCapLemmasEvict Sched.NodeCapEvictEx.
Open Scope Z_scope.

Definition res_keys1 (r : res) : list positive := elements (dom (scm r) : gset positive).

Definition acct_keys (n : node) : list positive :=
  res_keys1 (n_idle n) ++ res_keys1 (n_alloc n) ++ res_keys1 (n_releasing n) ++ res_keys1 (n_pipelined n) ++
  flat_map (fun c => res_keys1 (t_req c)) (map snd (map_to_list (n_tasks n))).

Definition acct_dim_b (n : node) (d : dim) : bool :=
  bool_decide (amt (n_idle n) d = amt (n_alloc n) d - csum (used_amt d) (n_tasks n)) &&
  bool_decide (amt (n_releasing n) d = csum (rel_amt d) (n_tasks n)) &&
  bool_decide (amt (n_pipelined n) d = csum (pip_amt d) (n_tasks n)).

Definition node_acct_b (n : node) : bool :=
  bool_decide (map_Forall (fun _ c => nonneg_b (t_req c) = true) (n_tasks n)) &&
  (negb (n_has_node n) ||
   (match sc (n_idle n) with Some _ => true | None => false end &&
    acct_dim_b n DCpu && acct_dim_b n DMem && forallb (fun k => acct_dim_b n (DSc k)) (acct_keys n))).

Lemma sget_not_key r k : k ∉ res_keys1 r -> sget r k = 0.
Proof.
  unfold res_keys1. rewrite elem_of_elements, elem_of_dom. intros H. unfold sget.
  destruct (scm r !! k); [exfalso; apply H; eauto|reflexivity].
Qed.

Lemma csum_zero f m : (forall k c, m !! k = Some c -> f c = 0) -> csum f m = 0.
Proof. intros H. apply csum_ind; [reflexivity|]. intros k c z Hl ->. rewrite (H k c Hl). reflexivity. Qed.

Theorem node_acct_b_sound n : node_acct_b n = true -> node_acct n.
Proof.
  unfold node_acct_b. rewrite andb_true_iff, bool_decide_eq_true. intros [Hnn Hrest].
  assert (Hnn' : forall k c, n_tasks n !! k = Some c -> nonneg (t_req c)) by (intros k c Hl; apply nonneg_b_sound; apply (Hnn k c Hl)).
  apply orb_true_iff in Hrest as [Hno|Hrest].
  - apply negb_true_iff in Hno. split; [rewrite Hno; discriminate|]. split; [exact Hnn'|]. intros Hc. congruence.
  - rewrite !andb_true_iff, forallb_forall in Hrest. destruct Hrest as [[[Hs Hc] Hm] Hk].
    split; [intros _; destruct (sc (n_idle n)); [discriminate|discriminate Hs]|]. split; [exact Hnn'|].
    intros _ d.
    assert (Hd : acct_dim_b n d = true).
    { destruct d as [| |k]; [exact Hc|exact Hm|].
      destruct (base.decide (k ∈ acct_keys n)) as [Hin|Hout]; [apply Hk; apply elem_of_list_In; exact Hin|].
      unfold acct_keys in Hout. rewrite !elem_of_app in Hout.
      assert (Hcopies : forall j c, n_tasks n !! j = Some c -> sget (t_req c) k = 0).
      { intros j c Hl. apply sget_not_key. intros Hin. apply Hout. right; right; right; right.
        apply elem_of_list_In, in_flat_map. exists c. split; [|apply elem_of_list_In; exact Hin].
        apply elem_of_list_In, elem_of_list_fmap. exists (j, c). split; [reflexivity|apply elem_of_map_to_list; exact Hl]. }
      unfold acct_dim_b. simpl.
      rewrite (sget_not_key (n_idle n)), (sget_not_key (n_alloc n)), (sget_not_key (n_releasing n)), (sget_not_key (n_pipelined n)) by tauto.
      rewrite (csum_zero (used_amt (DSc k))), (csum_zero (rel_amt (DSc k))), (csum_zero (pip_amt (DSc k))).
      - reflexivity.
      - intros j c Hl. unfold pip_amt. simpl. rewrite (Hcopies j c Hl). case_bool_decide; reflexivity.
      - intros j c Hl. unfold rel_amt. simpl. rewrite (Hcopies j c Hl). case_bool_decide; reflexivity.
      - intros j c Hl. unfold used_amt. simpl. rewrite (Hcopies j c Hl). case_bool_decide; reflexivity. }
    unfold acct_dim_b in Hd. rewrite !andb_true_iff, !bool_decide_eq_true in Hd. tauto.
Qed.

Definition nodes_acct_b (ns : gmap positive node) : bool := bool_decide (map_Forall (fun _ n => node_acct_b n = true) ns).

Theorem nodes_acct_b_sound ns : nodes_acct_b ns = true -> nodes_acct ns.
Proof. unfold nodes_acct_b. rewrite bool_decide_eq_true. intros H i n Hl. apply node_acct_b_sound. apply (H i n Hl). Qed.

(* ---------- non-vacuity: a session with running pods and a terminating one ---------- *)
Definition acct_tasks : list task_spec :=
  [mkTaskSpec 1 1 1 0 1000 256 0 Running (Some 1%positive) true; mkTaskSpec 2 1 1 0 500 256 0 Releasing (Some 1%positive) true;
   mkTaskSpec 3 2 1 1 1000 256 0 Pending None true; mkTaskSpec 4 2 1 0 500 256 0 Pending None true].
Definition acct_world : world := mkWorld (build 2 ev_nodes ev_jobs acct_tasks) ∅ 1.

Example acct_world_ok : world_ok 2 acct_world /\ nodes_acct (nodes (w_sess acct_world)).
Proof. split; [apply world_ok_b_sound; [lia|vm_compute; reflexivity]|apply nodes_acct_b_sound; vm_compute; reflexivity]. Qed.

(* the skeleton pipelines t3 (1000) onto Idle 500 + Releasing 500; t4 (500) then fits Idle but not the
   FutureIdle that is left (0) and is refused: the situation of seeded mutant C02-r4-2 *)
Example acct_world_places :
  match nodes (w_sess (run 2 acct_world [CAttempt 2 [(3, 1); (4, 1)]]%positive)) !! 1%positive with
  | Some n => map (fun kv => (fst kv, skey (t_status (snd kv)))) (map_to_list (n_tasks n))
  | None => []
  end ≡ₚ [(1, 6); (2, 7); (3, 3)]%positive.
Proof. vm_compute. reflexivity. Qed.

(* ---------- base case: the constructor of initial states establishes the
   accounting invariant, for every cluster spec whose requests are non-negative ---------- *)

Lemma mk_req_nonneg c m g : 0 <= c -> 0 <= m -> 0 <= g -> nonneg (mk_req c m g).
Proof.
  intros Hc Hm Hg d. unfold mk_req, grid. destruct d as [| |k]; simpl; [lia|lia|].
  unfold sget, scm. simpl. case_bool_decide.
  - destruct (<[4%positive := g * 1000 * 16]> {[1%positive := 16]} !! k) as [v|] eqn:E; simpl; [|lia].
    apply lookup_insert_Some in E as [[_ <-]|[_ E]]; [lia|]. apply lookup_singleton_Some in E as [_ <-]. lia.
  - destruct (({[1%positive := 16]} : gmap positive Z) !! k) as [v|] eqn:E; simpl; [|lia].
    apply lookup_singleton_Some in E as [_ <-]. lia.
Qed.

Lemma empty_node_acct ns : node_acct (empty_node ns).
Proof.
  apply node_acct_empty; [reflexivity|]. simpl. intros Hh. rewrite Hh. unfold mk_alloc. simpl. split; [discriminate|].
  intros d. rewrite amt_empty_res. auto.
Qed.

Lemma fold_add_acct eps (cond : task -> bool) l : forall acc,
  node_acct acc -> (forall t, t ∈ l -> nonneg (t_req t)) ->
  node_acct (fold_left (fun acc t => if cond t then match node_add eps acc t with inl (acc', _) => acc' | inr _ => acc end else acc) l acc).
Proof.
  induction l as [|t l IH]; intros acc Ha Hl; [exact Ha|]. simpl. apply IH; [|intros u Hu; apply Hl; right; exact Hu].
  destruct (cond t); [|exact Ha]. destruct (node_add eps acc t) as [[acc' t']|e] eqn:E; [|exact Ha].
  eapply node_add_acct; [exact Ha|apply Hl; left|exact E].
Qed.

Theorem build_nodes_acct eps ns js ts :
  (forall t, t ∈ ts -> 0 <= ts_cpu t /\ 0 <= ts_mem t /\ 0 <= ts_gpu t) ->
  nodes_acct (nodes (build eps ns js ts)).
Proof.
  intros Hts i n Hl. unfold build in Hl. simpl in Hl.
  apply elem_of_list_to_map_2 in Hl. apply elem_of_list_fmap in Hl as (spec & Heq & _). inversion Heq; subst. clear Heq.
  apply (fold_add_acct eps (fun t => bool_decide (t_node t = Some (ns_id spec)) && on_node_status (t_status t))); [apply empty_node_acct|].
  intros t Ht. apply elem_of_list_fmap in Ht as (tsp & -> & Hin). simpl. destruct (Hts tsp Hin) as (H1 & H2 & H3). apply mk_req_nonneg; assumption.
Qed.
