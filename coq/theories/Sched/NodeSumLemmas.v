(* Property C02 in its own words: the node ledger IS the sum of the requests of the
   copies the node holds, and stays so under AddTask / RemoveTask, hence along every cycle of the
   action skeleton; together with "within capacity" this gives, for every reached state,
       sum of the requests of the held non-pipelined copies  <  allocatable + eps
       sum of the pipelined requests  <  (allocatable - staying) + eps
   per guarded dimension (<= exactly on a grid of step >= eps). *)
From stdpp Require Import gmap.
From Coq Require Import ZArith Lia.
From V Require Import Sched.LedgerLemmasA Sched.LedgerLemmasNode Base.Res Base.ResLemmas Sched.LedgerModel Sched.StmtModel Sched.GangModel Sched.CycleModel
                      Sched.LedgerInvP Sched.NodeCapLemmas Sched.NodeCapLemmasCycle.
Open Scope Z_scope.

Definition csum (f : task -> Z) (m : gmap positive task) : Z := sum_amt f (map snd (map_to_list m)).

Lemma csum_copies f n : sum_amt f (copies n) = csum f (n_tasks n).
Proof. reflexivity. Qed.

Lemma csum_insert f m k c : m !! k = None -> csum f (<[k := c]> m) = f c + csum f m.
Proof.
  intros H. unfold csum. rewrite (sum_amt_perm f _ (map snd ((k, c) :: map_to_list m))); [reflexivity|].
  apply fmap_Permutation. apply map_to_list_insert. exact H.
Qed.

Lemma csum_delete f m k c : m !! k = Some c -> csum f m = f c + csum f (delete k m).
Proof.
  intros H. unfold csum. rewrite (sum_amt_perm f _ (map snd ((k, c) :: map_to_list (delete k m)))); [reflexivity|].
  apply fmap_Permutation. symmetry. apply map_to_list_delete. exact H.
Qed.

(* what holds of 0 and is kept by adding the amount of a held copy holds of the sum *)
Lemma csum_ind (Q : Z -> Prop) f m :
  Q 0 -> (forall k c z, m !! k = Some c -> Q z -> Q (f c + z)) -> Q (csum f m).
Proof.
  intros H0 Hstep. unfold csum.
  assert (Hall : Forall (fun c => exists k, m !! k = Some c) (map snd (map_to_list m))).
  { apply Forall_forall. intros c Hc. apply elem_of_list_fmap in Hc as ([k c'] & -> & Hin). apply elem_of_map_to_list in Hin. eauto. }
  induction Hall as [|c l [k Hc] _ IH]; simpl; [exact H0|apply (Hstep k); assumption].
Qed.

Lemma csum_nonneg f m : (forall k c, m !! k = Some c -> 0 <= f c) -> 0 <= csum f m.
Proof. intros H. apply csum_ind; [lia|]. intros k c z Hl Hz. specialize (H k c Hl). lia. Qed.

(* Resource.sub is exact when the subtrahend is one of the summands the receiver consists of: the
   nil-map exception only bites at scalars the receiver does not have, where a summand is 0.
   rel_amt / pip_amt are [f Releasing] / [f Pipelined] *)
Lemma amt_sub_summand st x (m : gmap positive task) tid c :
  let f d c := if bool_decide (t_status c = st) then amt (t_req c) d else 0 in
  m !! tid = Some c -> t_status c = st -> (forall k c', m !! k = Some c' -> nonneg (t_req c')) ->
  (forall d, amt x d = csum (f d) m) ->
  forall d, amt (sub x (t_req c)) d = amt x d - amt (t_req c) d.
Proof.
  intros f Hl Hst Hnn Hx. apply amt_sub_part. intros d. rewrite Hx, (csum_delete (f d) m tid c Hl).
  assert (0 <= csum (f d) (delete tid m)).
  { apply csum_nonneg. intros k c' Hl'. apply lookup_delete_Some in Hl' as [_ Hl']. unfold f.
    case_bool_decide; [apply (Hnn _ _ Hl')|lia]. }
  unfold f in *. rewrite (bool_decide_eq_true_2 _ Hst). pose proof (Hnn _ _ Hl d). lia.
Qed.

Definition node_sums (n : node) : Prop :=
  n_has_node n = true ->
  forall d, amt (n_idle n) d = amt (n_alloc n) d - csum (used_amt d) (n_tasks n) /\
            amt (n_releasing n) d = csum (rel_amt d) (n_tasks n) /\
            amt (n_pipelined n) d = csum (pip_amt d) (n_tasks n).

(* accounting invariant of a node: Idle has a scalar map (NewResource of the allocatable), the
   copies request non-negative amounts, and the ledger is the sum over the copies *)
Definition node_acct (n : node) : Prop :=
  (n_has_node n = true -> sc (n_idle n) <> None) /\
  (forall k c, n_tasks n !! k = Some c -> nonneg (t_req c)) /\
  node_sums n.

Lemma amts_of_copy d t i :
  used_amt d (set_node t i) = used_amt d t /\ rel_amt d (set_node t i) = rel_amt d t /\ pip_amt d (set_node t i) = pip_amt d t.
Proof. repeat split. Qed.

(* a node that holds no copy accounts for them when Idle = Allocatable and nothing is releasing or pipelined *)
Lemma node_acct_empty n :
  n_tasks n = ∅ ->
  (n_has_node n = true -> sc (n_idle n) <> None /\
     forall d, amt (n_idle n) d = amt (n_alloc n) d /\ amt (n_releasing n) d = 0 /\ amt (n_pipelined n) d = 0) ->
  node_acct n.
Proof.
  intros Ht H. unfold node_acct, node_sums. rewrite Ht. split; [intros Hh; apply (H Hh)|]. split; [intros k c Hl; rewrite lookup_empty in Hl; discriminate|].
  intros Hh d. destruct (proj2 (H Hh) d) as (-> & -> & ->). unfold csum. rewrite map_to_list_empty. simpl. lia.
Qed.

Section Sums.
Variable eps : Z.

(* the allocatable is never touched *)
Lemma node_add_alloc n t n' t' : node_add eps n t = inl (n', t') -> n_alloc n' = n_alloc n /\ n_has_node n' = n_has_node n.
Proof. intros Ha. destruct (node_add_spec eps n t n' t' Ha) as (_ & _ & _ & _ & H1 & H2 & _). auto. Qed.

Lemma node_remove_alloc n tid : n_alloc (node_remove n tid) = n_alloc n /\ n_has_node (node_remove n tid) = n_has_node n.
Proof. destruct (node_remove_fields n tid) as (_ & H1 & H2 & _). auto. Qed.

Theorem node_add_acct n t n' t' :
  node_acct n -> nonneg (t_req t) -> node_add eps n t = inl (n', t') -> node_acct n'.
Proof.
  intros (Hsc & Hnn & Hsum) Ht Ha.
  destruct (node_add_spec eps n t n' t' Ha) as (_ & Hfresh & Htasks & _ & Hh' & Halloc & _).
  unfold node_acct, node_sums. rewrite Hh', Htasks, Halloc. split; [|split].
  - intros Hh. apply (node_add_amounts eps n t n' t' Ha Hh (Hsc Hh)).
  - intros k c Hl. apply lookup_insert_Some in Hl as [[_ <-]|[_ Hl]]; [exact Ht|apply (Hnn _ _ Hl)].
  - intros Hh d. destruct (node_add_amounts eps n t n' t' Ha Hh (Hsc Hh)) as [_ Hamt].
    destruct (Hamt d) as (-> & -> & ->). destruct (Hsum Hh d) as (-> & -> & ->).
    rewrite !csum_insert by exact Hfresh. destruct (amts_of_copy d t (Some (n_id n))) as (-> & -> & ->). lia.
Qed.

Theorem node_remove_acct n tid : node_acct n -> node_acct (node_remove n tid).
Proof.
  intros (Hsc & Hnn & Hsum).
  destruct (n_tasks n !! tid) as [c|] eqn:Hl; [|rewrite node_remove_none by exact Hl; exact (conj Hsc (conj Hnn Hsum))].
  destruct (node_remove_fields n tid) as (_ & Hh' & Halloc & Htasks).
  pose proof (node_remove_ledger n tid c Hl) as HL.
  unfold node_acct, node_sums in *. rewrite Hh', Htasks, Halloc.
  assert (Hnn' : forall k c', delete tid (n_tasks n) !! k = Some c' -> nonneg (t_req c')).
  { intros k c' Hl'. apply lookup_delete_Some in Hl' as [_ Hl']. apply (Hnn _ _ Hl'). }
  destruct (n_has_node n); [|split; [discriminate|split; [exact Hnn'|discriminate]]].
  destruct HL as (Ei & _ & Er & Ep). rewrite Ei, Er, Ep. specialize (Hsc eq_refl). specialize (Hsum eq_refl).
  split; [intros _; case_bool_decide; [exact Hsc|apply add_sc_some, Hsc]|split; [exact Hnn'|intros _]].
  assert (Hrel : t_status c = Releasing -> forall d, amt (sub (n_releasing n) (t_req c)) d = amt (n_releasing n) d - amt (t_req c) d).
  { intros Est. apply (amt_sub_summand Releasing _ (n_tasks n) tid c Hl Est Hnn). intros d. apply (Hsum d). }
  assert (Hpip : t_status c = Pipelined -> forall d, amt (sub (n_pipelined n) (t_req c)) d = amt (n_pipelined n) d - amt (t_req c) d).
  { intros Est. apply (amt_sub_summand Pipelined _ (n_tasks n) tid c Hl Est Hnn). intros d. apply (Hsum d). }
  intros d. destruct (Hsum d) as (S1 & S2 & S3). rewrite (csum_delete (used_amt d) _ _ _ Hl) in S1.
  rewrite (csum_delete (rel_amt d) _ _ _ Hl) in S2. rewrite (csum_delete (pip_amt d) _ _ _ Hl) in S3.
  revert S1 S2 S3. unfold used_amt at 1, rel_amt at 1, pip_amt at 1.
  repeat case_bool_decide; intros S1 S2 S3; rewrite ?amt_add, ?Hrel, ?Hpip by assumption; lia.
Qed.

Definition nodes_acct (ns : gmap positive node) : Prop := forall i n, ns !! i = Some n -> node_acct n.

(* a sequence of RemoveTask / AddTask calls keeps the accounting of every node *)
Theorem nsteps_acct a b : nsteps eps a b -> nodes_acct a -> nodes_acct b.
Proof.
  refine (nsteps_keeps eps node_acct node_remove_acct _ a b).
  intros n t n' t' Hn Ht _. apply node_add_acct; assumption.
Qed.

(* what a node that is within capacity and accounts for its copies holds *)
Theorem sums_within_allocatable n d :
  node_within_capacity eps n -> node_acct n -> n_has_node n = true -> guarded_dim d ->
  csum (used_amt d) (n_tasks n) < amt (n_alloc n) d + eps /\
  csum (pip_amt d) (n_tasks n) < (amt (n_alloc n) d - (csum (used_amt d) (n_tasks n) - csum (rel_amt d) (n_tasks n))) + eps.
Proof.
  intros [_ Hc] (_ & _ & Hsum) Hh Hd. destruct (Hc d Hd) as [H1 H2]. destruct (Hsum Hh d) as (S1 & S2 & S3). lia.
Qed.

Section Run.
Hypothesis eps_pos : 0 < eps.

Lemma run_acct ops : forall w, world_ok eps w -> nodes_acct (nodes (w_sess w)) -> nodes_acct (nodes (w_sess (run eps w ops))).
Proof.
  induction ops as [|o ops IH]; intros w Hw Ha; [exact Ha|]. simpl. apply IH; [apply step_world_ok; assumption|].
  eapply nsteps_acct; [apply (step_nodes eps eps_pos w o Hw)|exact Ha].
Qed.

(* cycles: in every state reached by any list of allocate attempts and backfill placements,
   from a world within capacity whose node ledgers account for their copies: the summed requests of
   the tasks a node holds (all but the pipelined ones) stay below allocatable + eps, and the
   pipelined requests below what will be free once the terminating tasks are gone + eps *)
Theorem cycle_sums_within_allocatable w ops k i n d :
  world_ok eps w -> nodes_acct (nodes (w_sess w)) ->
  nodes (w_sess (run eps w (take k ops))) !! i = Some n -> n_has_node n = true -> guarded_dim d ->
  csum (used_amt d) (n_tasks n) < amt (n_alloc n) d + eps /\
  csum (pip_amt d) (n_tasks n) < (amt (n_alloc n) d - (csum (used_amt d) (n_tasks n) - csum (rel_amt d) (n_tasks n))) + eps.
Proof.
  intros Hw Ha Hl Hh Hd. apply sums_within_allocatable; [|apply (run_acct (take k ops) w Hw Ha _ _ Hl)|exact Hh|exact Hd].
  apply (cycle_no_overcommit eps eps_pos w ops k i n Hw Hl).
Qed.

End Run.
End Sums.

(* on the integer grid the tolerance disappears ([node_on_grid] is NodeCapLemmasCycle.on_grid read off
   the task map instead of the list of copies) *)
Definition node_on_grid (g : Z) (n : node) (d : dim) : Prop :=
  (g | amt (n_alloc n) d) /\ forall k c, n_tasks n !! k = Some c -> (g | amt (t_req c) d).

(* only the ledger identity is used of the accounting invariant *)
Lemma sums_grid eps g n d :
  0 < eps -> eps <= g ->
  node_within_capacity eps n -> node_sums n -> n_has_node n = true -> guarded_dim d -> node_on_grid g n d ->
  csum (used_amt d) (n_tasks n) <= amt (n_alloc n) d /\
  csum (pip_amt d) (n_tasks n) <= amt (n_alloc n) d - (csum (used_amt d) (n_tasks n) - csum (rel_amt d) (n_tasks n)).
Proof.
  intros He Hg [_ Hc] Hsum Hh Hd [Galloc Gc]. destruct (Hc d Hd) as [H1 H2]. destruct (Hsum Hh d) as (S1 & S2 & S3).
  assert (Hdiv : forall f : task -> Z, (forall c, f c = 0 \/ f c = amt (t_req c) d) -> (g | csum f (n_tasks n))).
  { intros f Hf. apply csum_ind; [apply Z.divide_0_r|]. intros k c z Hl Hz. apply Z.divide_add_r; [|exact Hz].
    destruct (Hf c) as [-> | ->]; [apply Z.divide_0_r|apply (Gc _ _ Hl)]. }
  assert (Du : (g | csum (used_amt d) (n_tasks n))) by (apply Hdiv; intros c; unfold used_amt; case_bool_decide; auto).
  assert (Dr : (g | csum (rel_amt d) (n_tasks n))) by (apply Hdiv; intros c; unfold rel_amt; case_bool_decide; auto).
  assert (Dp : (g | csum (pip_amt d) (n_tasks n))) by (apply Hdiv; intros c; unfold pip_amt; case_bool_decide; auto).
  assert (D1 : (g | amt (n_idle n) d)) by (rewrite S1; apply Z.divide_sub_r; assumption).
  assert (D2 : (g | amt (n_idle n) d + amt (n_releasing n) d - amt (n_pipelined n) d)).
  { rewrite S2, S3. apply Z.divide_sub_r; [apply Z.divide_add_r|]; assumption. }
  pose proof (above_minus_eps_nonneg eps g He Hg _ D1 H1). pose proof (above_minus_eps_nonneg eps g He Hg _ D2 H2). lia.
Qed.

Theorem sums_within_allocatable_grid eps g n d :
  0 < eps -> eps <= g ->
  node_within_capacity eps n -> node_acct n -> n_has_node n = true -> guarded_dim d -> node_on_grid g n d ->
  csum (used_amt d) (n_tasks n) <= amt (n_alloc n) d /\
  csum (pip_amt d) (n_tasks n) <= amt (n_alloc n) d - (csum (used_amt d) (n_tasks n) - csum (rel_amt d) (n_tasks n)).
Proof. intros He Hg Hc (_ & _ & Hsum). apply (sums_grid eps); assumption. Qed.
