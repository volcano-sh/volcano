(* C07 proofs: boolean forms of the side conditions with their soundness, the Commit facts
   (an accepted bind, a refused bind rolled back), and what the non-vacuity examples of
   Props/C07.v need of the concrete session of C07/Example.v (it satisfies the standing
   assumption; the transaction ex_txn; the session held_sess on which a node refuses). *)
From stdpp Require Import gmap.
From Coq Require Import ZArith.
From V Require Import Base.Res Base.ResLemmas Sched.LedgerModel Sched.StmtModel Sched.GangModel
  Sched.LedgerInvP Sched.LedgerInv Sched.LedgerLemmasA Sched.LedgerLemmasJob Sched.LedgerLemmasNode
  Sched.LedgerLemmasSess Sched.LedgerLemmasSk Sched.LedgerLemmasTxn Sched.LedgerLemmasTxnN Sched.LedgerLemmasSound C07.Example C07.Refuted.
Open Scope Z_scope.

Global Instance task_eq_dec : EqDecision task.
Proof. solve_decision. Defined.

Definition sess_wfb (s : sess) : bool :=
  gmap_allb (fun _ n => negb (n_has_node n) || negb (bool_decide (sc (n_idle n) = None))) (nodes s).

Lemma sess_wfb_sound s : sess_wfb s = true -> sess_wf s.
Proof.
  unfold sess_wfb. rewrite gmap_allb_spec. intros H i n Hn Hhas. specialize (H i n Hn).
  rewrite Hhas in H. simpl in H. apply negb_true_iff, bool_decide_eq_false in H. exact H.
Qed.

Lemma saved_ok_empty s : saved s = ∅ -> saved_ok s.
Proof. intros H slot l. rewrite H, lookup_empty. discriminate. Qed.

(* the executable invariant, the idle-map condition and an empty save area give the standing
   assumption of every C07 theorem *)
Lemma sess_ok_of_bools s :
  heap_nonnegb (heap s) && ledger_okb (heap s) (jobs s) (nodes s) = true -> sess_wfb s = true -> saved s = ∅ ->
  sess_ok s.
Proof.
  intros H1 H2 H3. split; [apply ledger_okb_sound_b, H1|]. split; [apply sess_wfb_sound, H2|apply saved_ok_empty, H3].
Qed.

Definition jknownb (s : sess) (p : task) : bool :=
  match jobs s !! t_job p with
  | Some j => bool_decide (t_id p ∈ j_tasks j) && bool_decide (j_task_sub j !! t_id p = Some (t_sub p)) &&
              bool_decide (t_sub p ∈ dom (j_subs j))
  | None => true
  end.
Lemma jknownb_sound s p : jknownb s p = true -> jknown s p.
Proof.
  unfold jknownb, jknown, jmember. destruct (jobs s !! t_job p); [|auto].
  rewrite !andb_true_iff, !bool_decide_eq_true. tauto.
Qed.

Definition placeableb (s : sess) (p : task) (nid : positive) : bool :=
  bool_decide (heap s !! t_id p = Some p) && bool_decide (t_status p = Pending) &&
  bool_decide (t_node p = None) && jknownb s p &&
  match nodes s !! nid with Some n => bool_decide (n_tasks n !! t_id p = None) | None => true end.
Lemma placeableb_sound s p nid : placeableb s p nid = true -> placeable s p nid.
Proof.
  unfold placeableb, placeable. rewrite !andb_true_iff, !bool_decide_eq_true.
  intros ((((H1 & H2) & H3) & H4) & H5). repeat split; try assumption; [apply jknownb_sound, H4|].
  intros n Hn. rewrite Hn in H5. apply bool_decide_eq_true in H5. exact H5.
Qed.

Definition evictableb (s : sess) (p : task) (nid : positive) : bool :=
  bool_decide (heap s !! t_id p = Some p) &&
  (bool_decide (t_status p = Running) || bool_decide (t_status p = Bound)) &&
  bool_decide (t_node p = Some nid) && jknownb s p &&
  match nodes s !! nid with
  | Some n => match n_tasks n !! t_id p with Some c => bool_decide (hview c = hview p) | None => false end
  | None => false end &&
  negb (bool_decide (sc (default empty_res (hshare s !! t_job p)) = None)).
Lemma evictableb_sound s p nid : evictableb s p nid = true -> evictable s p nid.
Proof.
  unfold evictableb, evictable. rewrite !andb_true_iff, orb_true_iff, !bool_decide_eq_true, negb_true_iff, bool_decide_eq_false.
  intros (((((H1 & H2) & H3) & H4) & H5) & H6). repeat split; try assumption; [apply jknownb_sound, H4| |left; exact H6].
  destruct (nodes s !! nid) as [n|]; [|discriminate]. destruct (n_tasks n !! t_id p) as [c|] eqn:E; [|discriminate].
  apply bool_decide_eq_true in H5. exists n, c. auto.
Qed.

Theorem commit_accepted_bind eps s p prev :
  heap s !! t_id p = Some p -> t_id p ∉ refuse_bind s -> is_Some (jobs s !! t_job p) ->
  let s2 := commit_op eps s (mkOp KAllocate (t_id p) prev) in
  binds s2 = (t_id p, t_node p) :: binds s /\ evicts s2 = evicts s /\
  heap s2 !! t_id p = Some (set_status p Binding).
Proof.
  intros Hl Hr [j Hj]. unfold commit_op. cbn [op_task op_kind]. rewrite Hl.
  rewrite bool_decide_eq_false_2 by exact Hr. unfold ssn_update_status. cbn [jobs upd_logs]. rewrite Hj.
  unfold job_update. simpl. rewrite lookup_insert. repeat split.
Qed.

Definition ex_task (i : positive) : task :=
  default (mkTask 1 1 1 1 0 empty_res empty_res false false Pending None) (heap ex_sess !! i).

Lemma ex_sess_ok : sess_ok ex_sess.
Proof. apply sess_ok_of_bools; [vm_compute; reflexivity|vm_compute; reflexivity|reflexivity]. Qed.

(* the idle-map side condition is necessary: a node whose Idle has a nil scalar map loses
   idle + used = allocatable when a task with a scalar request is placed on it *)
Definition nil_idle_sess : sess :=
  let s := ex_sess in
  upd_nodes s (<[1%positive := mkNode 1 true (mkRes 1000 1000 None) empty_res empty_res empty_res (mkRes 1000 1000 None) ∅]> (nodes s)).
Lemma sess_wf_necessary_refuted :
  exists s o, ledger_okb (heap s) (jobs s) (nodes s) = true /\ sess_wfb s = false /\
              let s' := fst (step ex_eps s o) in ledger_okb (heap s') (jobs s') (nodes s') = false.
Proof. exists nil_idle_sess, (OAllocate 1 1 1). vm_compute. repeat split. Qed.

Theorem commit_refused_bind_rolls_back eps s sid p nid s1 :
  sess_ok s -> placeable s p nid -> default [] (stmts s !! sid) = [] ->
  place_with eps s sid KAllocate p nid = (s1, ROk) -> t_id p ∈ refuse_bind s ->
  let s2 := commit_op eps s1 (mkOp KAllocate (t_id p) Pending) in
  sess_eqv s s2 /\ binds s2 = binds s /\ evicts s2 = evicts s.
Proof.
  intros Hok Hpl Hemp Hplace Hr. cbv zeta.
  destruct (discard_restores_place eps s sid KAllocate p nid s1 Hok Hpl ltac:(discriminate) Hemp Hplace)
    as (_ & Heqv & _ & _ & Hc).
  rewrite (Hc Hr eq_refl). split; [exact Heqv|].
  assert (Hlg : lg (undo_op eps s1 (mkOp KAllocate (t_id p) Pending)) = lg s).
  { apply cache_lg. rewrite cache_undo. change s1 with (fst (s1, ROk)). rewrite <- Hplace. apply cache_place. }
  unfold lg in Hlg. inversion Hlg. auto.
Qed.

(* the n-operation Discard theorem is not vacuous *)
Definition evictable_withb (s : sess) (p c : task) (nid : positive) : bool :=
  bool_decide (heap s !! t_id p = Some p) &&
  (bool_decide (t_status p = Running) || bool_decide (t_status p = Bound)) &&
  bool_decide (t_node p = Some nid) && bool_decide (t_id c = t_id p) && bool_decide (t_job c = t_job p) &&
  bool_decide (t_sub c = t_sub p) && bool_decide (hview c = hview p) && jknownb s p &&
  bool_decide (nvcopy (nv s) nid (t_id p) = Some (hview p)) &&
  negb (bool_decide (sc (default empty_res (hshare s !! t_job p)) = None)).
Lemma evictable_withb_sound s p c nid : evictable_withb s p c nid = true -> evictable_with s p c nid.
Proof.
  unfold evictable_withb, evictable_with.
  rewrite !andb_true_iff, orb_true_iff, !bool_decide_eq_true, negb_true_iff, bool_decide_eq_false.
  intros (((((((((H1 & H2) & H3) & H4) & H5) & H6) & H7) & H8) & H9) & H10).
  repeat (split; [assumption|]). split; [apply jknownb_sound, H8|]. split; [exact H9|left; exact H10].
Qed.

Definition ex_copy (nid i : positive) : task := default (ex_task i) (ncopy ex_sess nid i).
Definition ex_txn : list txop := [TPlace KAllocate 1 1; TPlace KPipeline 4 2; TEvict false 2; TEvict true 3].

Lemma ex_txn_all_recorded :
  map snd (map (fun k => step ex_eps (run ex_eps ex_sess (map (tx_op 1) (firstn k ex_txn))) (tx_op 1 (nth k ex_txn (TEvict false 1)))) [0; 1; 2; 3]%nat)
  = [ROk; ROk; ROk; ROk].
Proof. vm_compute. reflexivity. Qed.

(* the refused-dispatch case of C07_failed_ssn_place_no_trace is not vacuous *)
Lemma ex_d_sess_ok : sess_ok d_sess.
Proof. apply sess_ok_of_bools; [vm_compute; reflexivity|vm_compute; reflexivity|reflexivity]. Qed.

(* the "node refusing the task" disjunct of failed_ssn_place_no_trace_cause is satisfiable: t4 is
   Pending with an empty NodeName while node 2 still holds a copy of it (the state a failed
   Session.Allocate of a Pipelined task leaves, finding ...-outside-precondition...) *)
Definition held_sess : sess := fst (step ex_eps (run ex_eps ex_sess [OPipeline 1 4 2]) (OSsnAllocate 4 2)).
