(* Property C02: evictions (preempt / reclaim), at the level of one node's ledger, and the bridges
   from the statement operations to it.

   Statement.Evict turns a copy with a [plain] status (Running, Bound; anything but Pipelined,
   Releasing, Binding) into a Releasing one: Idle and Used keep their
   amounts, Releasing grows by the victim's request, hence FutureIdle grows by exactly that
   request (node_update_refile).  A Pipeline guarded by the FutureIdle test AFTER the tentative
   evictions therefore keeps the node within capacity, and reclaim's running sum
   "FutureIdle-at-the-start + sum of the evicted requests" IS the FutureIdle of that moment
   (reclaim_running_sum).  Commit without refused evictions does not touch the nodes.
   Undoing (Statement.Discard, or Commit with a REFUSED eviction) is different in kind: unevict
   lowers FutureIdle by the victim's request, which is safe only if whatever was pipelined onto
   that room has been undone first -- the stack discipline of Discard (discard_stack_safe, at the
   level of one node's ledger), and false for a refusal at Commit, where the preemptor stays
   pipelined (commit_refused_eviction_refuted). *)
From stdpp Require Import gmap.
From Coq Require Import ZArith Lia.
From V Require Import Sched.LedgerLemmasA Sched.LedgerLemmasNode Base.Res Base.ResLemmas Sched.LedgerModel Sched.StmtModel Sched.GangModel Sched.CycleModel
                      Sched.LedgerInvP Sched.NodeCapLemmas Sched.NodeCapLemmasCycle.
Open Scope Z_scope.

(* statuses whose AddTask / RemoveTask accounting is "Idle -/+ req, Used +/- req" and nothing else *)
Definition plain (st : status) : Prop := st <> Pipelined /\ st <> Releasing /\ st <> Binding.
Definition plain_b (st : status) : bool :=
  match st with Pipelined | Releasing | Binding => false | _ => true end.
Lemma plain_b_spec st : plain_b st = true <-> plain st.
Proof. unfold plain. destruct st; simpl; split; intros H; try discriminate; try reflexivity; try tauto; repeat split; discriminate. Qed.

(* a node files its copies under their id, with its own name *)
Definition node_keyed (i : positive) (n : node) : Prop :=
  n_id n = i /\ forall j c, n_tasks n !! j = Some c -> t_id c = j /\ t_node c = Some i.
Definition nodes_keyed (ns : gmap positive node) : Prop := forall i n, ns !! i = Some n -> node_keyed i n.

(* the Pipelined ledger has a scalar map as soon as a pipelined copy has scalars (Add creates it,
   nothing ever removes it): what makes "Pipelined.Sub(req)" exact when the copy leaves *)
Definition pip_covered (n : node) : Prop :=
  forall j c, n_tasks n !! j = Some c -> t_status c = Pipelined ->
    sc (n_pipelined n) <> None \/ scm (t_req c) = ∅.

Lemma amt_sub_covered x r d : (sc x <> None \/ scm r = ∅) -> amt (sub x r) d = amt x d - amt r d.
Proof.
  intros [H|H]; [apply amt_sub_some; exact H|].
  destruct (sc x) as [m|] eqn:Hm; [apply amt_sub_some; congruence|].
  destruct d as [| |k]; simpl; try reflexivity.
  rewrite (sget_nil (sub x r)) by (apply sub_nil_drops_scalars; exact Hm).
  rewrite (sget_nil x) by exact Hm. unfold sget. rewrite H, lookup_empty. reflexivity.
Qed.

(* ledger amounts of a node, for statements about "nothing else changed" *)
Definition same_amounts (x y : res) : Prop := forall d, amt x d = amt y d.

Section Evict.
Variable eps : Z.
Hypothesis eps_pos : 0 < eps.

Lemma node_add_ok_cond n t :
  (t_node t = None \/ t_node t = Some (n_id n)) -> n_tasks n !! t_id t = None ->
  t_status t <> Binding ->
  exists n', node_add eps n t = inl (n', set_node t (Some (n_id n))).
Proof.
  intros Hn Hl Hb. unfold node_add.
  rewrite bool_decide_eq_false_2 by (intros [H1 H2]; destruct Hn; congruence).
  rewrite bool_decide_eq_false_2 by (rewrite Hl; intros [? ?]; discriminate).
  destruct (n_has_node n); simpl; [|eauto]. destruct (t_status t); try congruence; eauto.
Qed.

Lemma node_update_succeeds n p c :
  node_keyed (n_id n) n -> n_tasks n !! t_id p = Some c -> t_node p = Some (n_id n) -> t_status p <> Binding ->
  exists n' p', node_update eps n p = inl (n', p').
Proof.
  intros Hk Hl Hn Hb. unfold node_update. destruct (node_remove_fields n (t_id p)) as (Rid & _ & _ & Rt).
  destruct (node_add_ok_cond (node_remove n (t_id p)) p) as [n' Hn']; [right; rewrite Rid; exact Hn|rewrite Rt; apply lookup_delete|exact Hb|eauto].
Qed.

(* UpdateTask re-files a held copy (same request, neither side Pipelined): RemoveTask gives the
   request back to Idle, AddTask takes it again; only Releasing moves with the two statuses *)
Lemma node_update_refile n p c n' p' :
  n_tasks n !! t_id p = Some c -> t_req c = t_req p -> t_status c <> Pipelined -> t_status p <> Pipelined ->
  node_update eps n p = inl (n', p') ->
  n_tasks n' = <[t_id p := set_node p (Some (n_id n))]> (n_tasks n) /\ n_has_node n' = n_has_node n /\ n_id n' = n_id n /\
  if n_has_node n then
    n_idle n' = sub (add (n_idle n) (t_req p)) (t_req p) /\
    n_releasing n' =
      (let r := if bool_decide (t_status c = Releasing) then sub (n_releasing n) (t_req p) else n_releasing n in
       if bool_decide (t_status p = Releasing) then add r (t_req p) else r) /\
    n_pipelined n' = n_pipelined n
  else n_idle n' = n_idle n /\ n_releasing n' = n_releasing n /\ n_pipelined n' = n_pipelined n.
Proof.
  intros Hl Hr Hc Hp Hu. unfold node_update in Hu.
  destruct (node_remove_fields n (t_id p)) as (Rid & Rh & _ & Rt).
  destruct (node_add_spec eps _ p n' p' Hu) as (_ & _ & At & Aid & Ah & _).
  rewrite Rt, Rid, insert_delete_insert in At. rewrite Rid in Aid. rewrite Rh in Ah.
  split; [exact At|]. split; [exact Ah|]. split; [exact Aid|].
  pose proof (node_add_ledger eps _ p n' p' Hu) as LA. rewrite Rh in LA.
  pose proof (node_remove_ledger n (t_id p) c Hl) as LR.
  destruct (n_has_node n).
  - destruct LA as (-> & _ & -> & -> & _). destruct LR as (-> & _ & -> & ->). rewrite Hr.
    rewrite (bool_decide_eq_false_2 _ Hc), (bool_decide_eq_false_2 _ Hp). repeat split; reflexivity.
  - destruct LA as (-> & _ & -> & ->). destruct LR as (-> & _ & -> & ->). repeat split; reflexivity.
Qed.

(* Statement.Evict as the node sees it; copies whose status is not [plain] are left alone (preempt /
   reclaim only evict Running or Bound copies, which are plain) *)
Definition nevict (n : node) (tid : positive) : node :=
  match n_tasks n !! tid with
  | Some c => if plain_b (t_status c) then
                match node_update eps n (set_status c Releasing) with inl (n', _) => n' | inr _ => node_remove n tid end
              else n
  | None => n
  end.

(* Statement.Pipeline behind the FutureIdle test (preemptorFitsOnNode; reclaim: reclaim_running_sum) *)
Definition npipeline (n : node) (t : task) : node * bool :=
  if less_equal eps (t_init t) (future_idle n) DZero then
    match node_add eps n (set_status t Pipelined) with inl (n', _) => (n', true) | inr _ => (n, false) end
  else (n, false).

Inductive nent := NE (tid : positive) (prev : status) | NP (tid : positive).
Definition etid (e : nent) : positive := match e with NE t _ => t | NP t => t end.

(* unevict / unpipeline *)
Definition nundo (n : node) (e : nent) : node :=
  match e with
  | NE tid prev =>
    match n_tasks n !! tid with
    | Some c => match node_update eps n (set_status c (restore_status prev)) with
                | inl (n', _) => n' | inr _ => node_remove n tid end
    | None => n
    end
  | NP tid => node_remove n tid
  end.

(* what undoing an entry gives back to / takes from FutureIdle *)
Definition ereq (n : node) (e : nent) (d : dim) : Z :=
  match n_tasks n !! etid e with
  | Some c => match e with NE _ _ => - amt (t_req c) d | NP _ => amt (t_req c) d end
  | None => 0
  end.
Definition pot (n : node) (l : list nent) (d : dim) : Z := fut_amt n d + foldr (fun e acc => ereq n e d + acc) 0 l.

Record nbase (n : node) : Prop := {
  nb_has : n_has_node n = true; nb_safe : node_safe eps n; nb_cov : pip_covered n; nb_key : node_keyed (n_id n) n }.

Definition ent_ok (n : node) (e : nent) : Prop :=
  exists c, n_tasks n !! etid e = Some c /\
            t_status c = match e with NE _ _ => Releasing | NP _ => Pipelined end.

(* the stack of tentative operations (newest first): undoing any number of them, newest first,
   leaves FutureIdle above -eps *)
Definition stackP (n : node) (st : list nent) : Prop :=
  nbase n /\ NoDup (map etid st) /\ Forall (ent_ok n) st /\
  forall k d, guarded_dim d -> - eps < pot n (take k st) d.

Lemma restore_plain prev : plain (restore_status prev).
Proof. unfold plain. destruct prev; simpl; repeat split; discriminate. Qed.

Lemma stackP_safe n st : stackP n st -> node_safe eps n.
Proof. intros (Hb & _). apply Hb. Qed.

Lemma stackP_nil n : nbase n -> stackP n [].
Proof.
  intros Hb. split; [exact Hb|]. split; [constructor|]. split; [constructor|]. intros k d Hd. rewrite take_nil.
  unfold pot. simpl. destruct (nwc_elim eps n d (proj1 (nb_safe n Hb)) Hd) as [_ H]. lia.
Qed.

(* nbase of a node that keeps Idle's amounts and differs from n in one copy: the copies it holds are
   copies of n or satisfy what nbase asks of a copy *)
Lemma nbase_refile n n' :
  nbase n -> n_has_node n' = true -> n_id n' = n_id n ->
  sc (n_idle n') <> None -> same_amounts (n_idle n') (n_idle n) ->
  (sc (n_pipelined n) <> None -> sc (n_pipelined n') <> None) ->
  (forall j c, n_tasks n' !! j = Some c ->
     n_tasks n !! j = Some c \/
     nonneg (t_req c) /\ t_id c = j /\ t_node c = Some (n_id n) /\
     (t_status c = Pipelined -> sc (n_pipelined n') <> None \/ scm (t_req c) = ∅)) ->
  (forall d, guarded_dim d -> - eps < fut_amt n' d) ->
  nbase n'.
Proof.
  intros [_ [Hc Hnn] Hcov [_ Hkey]] Hh Hid Hs Hsame Hpsc Hcopies Hfut. constructor; [exact Hh| | |].
  - split.
    + apply nwc_split. split; [split; [exact Hs|]|exact Hfut]. intros d Hd. rewrite (Hsame d). apply (nwc_elim eps n d Hc Hd).
    + intros j c Hl. destruct (Hcopies j c Hl) as [Hl0|(H & _)]; [apply (Hnn _ _ Hl0)|exact H].
  - intros j c Hl Hst. destruct (Hcopies j c Hl) as [Hl0|(_ & _ & _ & H)]; [|exact (H Hst)].
    destruct (Hcov _ _ Hl0 Hst) as [H|H]; [left; exact (Hpsc H)|right; exact H].
  - split; [reflexivity|]. rewrite Hid. intros j c Hl.
    destruct (Hcopies j c Hl) as [Hl0|(_ & H1 & H2 & _)]; [apply (Hkey _ _ Hl0)|split; assumption].
Qed.

(* UpdateTask of a held copy (not Pipelined) to a status that is neither Pipelined nor Binding, on a node
   of the stack invariant: it succeeds, only that copy and Releasing change *)
Lemma nupdate_spec n tid c st :
  nbase n -> n_tasks n !! tid = Some c -> t_status c <> Pipelined -> st <> Pipelined -> st <> Binding ->
  exists n' p', node_update eps n (set_status c st) = inl (n', p') /\
    (forall j, j <> tid -> n_tasks n' !! j = n_tasks n !! j) /\
    n_tasks n' !! tid = Some (set_node (set_status c st) (Some (n_id n))) /\
    same_amounts (n_idle n') (n_idle n) /\ n_pipelined n' = n_pipelined n /\
    n_releasing n' =
      (let r := if bool_decide (t_status c = Releasing) then sub (n_releasing n) (t_req c) else n_releasing n in
       if bool_decide (st = Releasing) then add r (t_req c) else r) /\
    ((forall d, guarded_dim d -> - eps < fut_amt n' d) -> nbase n').
Proof.
  intros Hb Hl Hc Hp Hbd. pose proof Hb as [Hh [Hcap Hnn] _ [_ Hkey]]. destruct (Hkey _ _ Hl) as [Hcid Hcnode].
  set (p := set_status c st).
  destruct (node_update_succeeds n p c) as (n' & p' & Hu); [split; [reflexivity|exact Hkey]|simpl; rewrite Hcid; exact Hl|exact Hcnode|exact Hbd|].
  exists n', p'. split; [exact Hu|].
  destruct (node_update_refile n p c n' p') as (Ht & Hh' & Hid' & Hled); [simpl; rewrite Hcid; exact Hl|reflexivity|exact Hc|exact Hp|exact Hu|].
  simpl t_id in Ht. rewrite Hcid in Ht. rewrite Hh in Hh', Hled. destruct Hled as (Ei & Er & Ep).
  split; [intros j Hj; rewrite Ht; apply lookup_insert_ne; congruence|]. split; [rewrite Ht; apply lookup_insert|].
  split; [intros d; rewrite Ei; apply amt_add_sub|]. split; [exact Ep|]. split; [exact Er|].
  intros Hfut. apply (nbase_refile n n' Hb);
    [exact Hh'|exact Hid'|rewrite Ei; apply sub_sc_some, add_sc_some, Hcap|intros d; rewrite Ei; apply amt_add_sub|rewrite Ep; auto| |exact Hfut].
  intros j c' Hl'. rewrite Ht in Hl'. apply lookup_insert_Some in Hl' as [[<- <-]|[_ Hl']]; [right|left; exact Hl'].
  split; [apply (Hnn _ _ Hl)|]. split; [exact Hcid|]. split; [reflexivity|]. intros Hx. exfalso. exact (Hp Hx).
Qed.

(* entries about other copies than the one an operation touches read the same of n and n' *)
Lemma stack_frame n n' tid st :
  (forall j, j <> tid -> n_tasks n' !! j = n_tasks n !! j) -> (forall e, e ∈ st -> etid e <> tid) ->
  Forall (ent_ok n) st ->
  Forall (ent_ok n') st /\
  forall k d, pot n' (take k st) d - fut_amt n' d = pot n (take k st) d - fut_amt n d.
Proof.
  intros Hsame Hoth Hent. split.
  - apply Forall_forall. intros e He. rewrite Forall_forall in Hent. destruct (Hent e He) as (c & Hl & Hst).
    exists c. rewrite (Hsame _ (Hoth e He)). split; assumption.
  - intros k d. unfold pot.
    assert (Hsum : forall l, (forall e, e ∈ l -> e ∈ st) ->
              foldr (fun e acc => ereq n' e d + acc) 0 l = foldr (fun e acc => ereq n e d + acc) 0 l).
    { induction l as [|e l IH]; intros Hsub; [reflexivity|]. simpl. rewrite IH by (intros e' He'; apply Hsub; right; exact He').
      unfold ereq. rewrite (Hsame _ (Hoth e (Hsub e ltac:(left)))). reflexivity. }
    rewrite Hsum; [lia|]. intros e He. apply elem_of_list_lookup in He as [i Hi]. apply lookup_take_Some in Hi as [Hi _].
    eapply elem_of_list_lookup_2; exact Hi.
Qed.

(* a tentative operation on a copy that no entry is about yet (not held, or held with a plain
   status) is pushed: undoing it gives back what it took from FutureIdle *)
Lemma stack_push n n' st e0 :
  stackP n st -> nbase n' ->
  (forall j, j <> etid e0 -> n_tasks n' !! j = n_tasks n !! j) ->
  (n_tasks n !! etid e0 = None \/ exists c, n_tasks n !! etid e0 = Some c /\ plain (t_status c)) ->
  ent_ok n' e0 ->
  (forall d, fut_amt n' d + ereq n' e0 d = fut_amt n d) ->
  stackP n' (e0 :: st).
Proof.
  intros (_ & Hnd & Hent & Hpot) Hb Hsame Hkey He0 Hfut.
  assert (Hoth : forall e, e ∈ st -> etid e <> etid e0).
  { intros e He Heq. rewrite Forall_forall in Hent. destruct (Hent e He) as (c & Hl & Hst). rewrite Heq in Hl.
    destruct Hkey as [Hn|(c0 & Hl0 & P1 & P2 & _)]; [congruence|]. rewrite Hl0 in Hl. inversion Hl; subst c0. destruct e; congruence. }
  destruct (stack_frame n n' (etid e0) st Hsame Hoth Hent) as [Hent' Hfr].
  split; [exact Hb|]. split; [|split; [constructor; assumption|]].
  - simpl. constructor; [|exact Hnd]. intros Hin. apply elem_of_list_fmap in Hin as (e & Heq & He). apply (Hoth e He). symmetry; exact Heq.
  - intros [|k] d Hd.
    + unfold pot. simpl. destruct (nwc_elim eps n' d (proj1 (nb_safe n' Hb)) Hd) as [_ H]. lia.
    + specialize (Hpot k d Hd). specialize (Hfr k d). specialize (Hfut d). simpl. unfold pot in *. simpl. lia.
Qed.

(* the newest entry is undone: FutureIdle moves by at least what the entry recorded *)
Lemma stack_pop n n' e0 st :
  stackP n (e0 :: st) ->
  (forall j, j <> etid e0 -> n_tasks n' !! j = n_tasks n !! j) ->
  (forall d, fut_amt n d + ereq n e0 d <= fut_amt n' d) ->
  ((forall d, guarded_dim d -> - eps < fut_amt n' d) -> nbase n') ->
  stackP n' st.
Proof.
  intros (_ & Hnd & Hent & Hpot) Hsame Hfut Hb. simpl in Hnd.
  apply NoDup_cons in Hnd as [Hnotin Hnd]. apply Forall_cons in Hent as [_ Hent].
  assert (Hoth : forall e, e ∈ st -> etid e <> etid e0).
  { intros e He Heq. apply Hnotin. rewrite <- Heq. apply elem_of_list_fmap. eauto. }
  destruct (stack_frame n n' (etid e0) st Hsame Hoth Hent) as [Hent' Hfr].
  assert (Hpot' : forall k d, guarded_dim d -> - eps < pot n' (take k st) d).
  { intros k d Hd. specialize (Hpot (S k) d Hd). specialize (Hfr k d). specialize (Hfut d). simpl in Hpot. unfold pot in *. simpl in Hpot. lia. }
  split; [|split; [exact Hnd|split; [exact Hent'|exact Hpot']]].
  apply Hb. intros d Hd. specialize (Hpot' 0%nat d Hd). unfold pot in Hpot'. simpl in Hpot'. lia.
Qed.

(* one undo step keeps the stack invariant, in particular the node stays within capacity *)
Theorem stack_undo n e st : stackP n (e :: st) -> stackP (nundo n e) st.
Proof.
  intros H. pose proof H as (Hb & _ & Hent & _). pose proof Hb as [Hh [Hc Hnn] Hcov [_ Hkey]].
  apply Forall_cons in Hent as [(c & Hl & Hst) _]. destruct (Hkey _ _ Hl) as [Hcid Hcnode]. pose proof (Hnn _ _ Hl) as Hcnn.
  destruct e as [tid prev|tid]; simpl in Hl, Hst |- *.
  - (* unevict: Releasing.Sub may drop scalars, which only leaves more *)
    rewrite Hl. destruct (restore_plain prev) as (P1 & P2 & P3).
    destruct (nupdate_spec n tid c (restore_status prev) Hb Hl) as (n' & p' & Hu & Hoth & _ & Ei & Ep & Er & Hnb);
      [congruence|exact P1|exact P3|].
    rewrite Hu. cbv zeta in Er. rewrite (bool_decide_eq_true_2 _ Hst), (bool_decide_eq_false_2 _ P2) in Er.
    apply (stack_pop n n' (NE tid prev) st H); [exact Hoth| |exact Hnb].
    intros d. unfold fut_amt, ereq. simpl. rewrite Hl, (Ei d), Er, Ep.
    pose proof (amt_sub_bounds (n_releasing n) (t_req c) d (Hcnn d)). lia.
  - (* unpipeline *)
    destruct (node_remove_fields n tid) as (Rid & Rh & _ & Rt).
    pose proof (node_remove_ledger n tid c Hl) as LR. rewrite Hh in LR. destruct LR as (Ei & _ & Er & Ep).
    rewrite (bool_decide_eq_true_2 _ Hst) in Ei, Ep. rewrite bool_decide_eq_false_2 in Er by congruence.
    apply (stack_pop n (node_remove n tid) (NP tid) st H).
    + intros j Hj. rewrite Rt. apply lookup_delete_ne. simpl in Hj |- *. congruence.
    + intros d. unfold fut_amt, ereq. simpl. rewrite Hl, Ei, Er, Ep, (amt_sub_covered _ _ d (Hcov _ _ Hl Hst)). lia.
    + intros Hfut. apply (nbase_refile n _ Hb);
        [rewrite Rh; exact Hh|exact Rid|rewrite Ei; apply Hc|rewrite Ei; intros d; reflexivity|rewrite Ep; apply sub_sc_some| |exact Hfut].
      intros j c' Hl'. rewrite Rt in Hl'. apply lookup_delete_Some in Hl' as [_ Hl']. left. exact Hl'.
Qed.

(* Statement.Discard: the entries are undone newest first; the node is within capacity after
   every single undo *)
Theorem discard_stack_safe st : forall n k,
  stackP n st -> node_safe eps (fold_left nundo (take k st) n).
Proof.
  induction st as [|e st IH]; intros n k H.
  - rewrite take_nil. apply (stackP_safe n []). exact H.
  - destruct k as [|k]; [apply (stackP_safe _ _ H)|]. simpl. apply IH. apply stack_undo. exact H.
Qed.

(* a tentative eviction pushes an entry; FutureIdle grows by exactly the victim's request *)
Theorem stack_evict n st tid c :
  stackP n st -> n_tasks n !! tid = Some c -> plain (t_status c) ->
  stackP (nevict n tid) (NE tid (t_status c) :: st) /\
  forall d, fut_amt (nevict n tid) d = fut_amt n d + amt (t_req c) d.
Proof.
  intros H Hl Hpl. pose proof H as (Hb & _). pose proof Hpl as (P1 & P2 & _).
  destruct (nupdate_spec n tid c Releasing Hb Hl P1) as (n' & p' & Hu & Hoth & Hnew & Ei & Ep & Er & Hnb); [discriminate..|].
  unfold nevict. rewrite Hl, (proj2 (plain_b_spec _) Hpl), Hu. cbv zeta in Er.
  rewrite (bool_decide_eq_false_2 _ P2), bool_decide_eq_true_2 in Er by reflexivity.
  assert (Hfut : forall d, fut_amt n' d = fut_amt n d + amt (t_req c) d).
  { intros d. unfold fut_amt. rewrite (Ei d), Er, Ep, amt_add. lia. }
  split; [|exact Hfut]. apply (stack_push n n' st (NE tid (t_status c)) H).
  - apply Hnb. intros d Hd. rewrite (Hfut d). destruct (nwc_elim eps n d (proj1 (nb_safe n Hb)) Hd) as [_ H2].
    pose proof (proj2 (nb_safe n Hb) _ _ Hl d). lia.
  - exact Hoth.
  - right. exists c. split; [exact Hl|exact Hpl].
  - eexists. simpl. rewrite Hnew. split; reflexivity.
  - intros d. unfold ereq. simpl. rewrite Hnew. simpl. rewrite (Hfut d). lia.
Qed.

(* a pipeline behind the FutureIdle test, after whatever tentative evictions *)
Theorem stack_pipeline n st t :
  stackP n st -> nonneg (t_req t) -> (forall d, amt (t_req t) d <= amt (t_init t) d) ->
  stackP (fst (npipeline n t)) (if snd (npipeline n t) then NP (t_id t) :: st else st).
Proof.
  intros H Hnn_t Hdom. pose proof H as (Hb & _). pose proof Hb as [Hh [Hc Hnn] Hcov [_ Hkey]].
  unfold npipeline. destruct (less_equal eps (t_init t) (future_idle n) DZero) eqn:Hle; [|exact H].
  destruct (node_add eps n (set_status t Pipelined)) as [[n' p']|e] eqn:Ha; [|exact H]. simpl.
  pose proof (fits_fut eps eps_pos n (t_init t) (t_req t) Hc Hle Hdom) as Hfit.
  destruct (node_add_spec eps _ _ _ _ Ha) as (_ & Hfresh & Ht & Hid' & Hh' & _). simpl in Hfresh, Ht.
  pose proof (node_add_ledger eps _ _ _ _ Ha) as Hled. rewrite Hh in Hled, Hh'.
  destruct Hled as (Ei & _ & Er & Ep & _). simpl in Ei, Er, Ep.
  assert (Hfut : forall d, fut_amt n' d = fut_amt n d - amt (t_req t) d).
  { intros d. unfold fut_amt. rewrite Ei, Er, Ep, amt_add. lia. }
  apply (stack_push n n' st (NP (t_id t)) H).
  - apply (nbase_refile n n' Hb);
      [exact Hh'|exact Hid'|rewrite Ei; apply Hc|rewrite Ei; intros d; reflexivity|rewrite Ep; apply add_sc_some| |].
    + intros j c' Hl'. rewrite Ht in Hl'. apply lookup_insert_Some in Hl' as [[<- <-]|[_ Hl']]; [right|left; exact Hl'].
      split; [exact Hnn_t|]. split; [reflexivity|]. split; [reflexivity|]. intros _. rewrite Ep. unfold add. simpl.
      case_bool_decide as He; [right; exact He|left; discriminate].
    + intros d Hd. rewrite (Hfut d). specialize (Hfit d Hd). lia.
  - intros j Hj. rewrite Ht. apply lookup_insert_ne. simpl in Hj |- *. congruence.
  - left. exact Hfresh.
  - eexists. simpl. rewrite Ht, lookup_insert. split; reflexivity.
  - intros d. unfold ereq. simpl. rewrite Ht, lookup_insert. simpl. rewrite (Hfut d). lia.
Qed.

(* any tentative history on a node: evictions of whatever copies (only those with a plain status are
   touched) and FutureIdle-guarded pipelines of whatever tasks, in any order and number *)
Inductive fop := FEvict (tid : positive) | FPipeline (t : task).

Definition fstep (x : node * list nent) (o : fop) : node * list nent :=
  let '(n, st) := x in
  match o with
  | FEvict tid =>
    match n_tasks n !! tid with
    | Some c => if plain_b (t_status c) then (nevict n tid, NE tid (t_status c) :: st) else (n, st)
    | None => (n, st)
    end
  | FPipeline t => (fst (npipeline n t), if snd (npipeline n t) then NP (t_id t) :: st else st)
  end.

Definition fop_ok (o : fop) : Prop :=
  match o with FEvict _ => True | FPipeline t => nonneg (t_req t) /\ forall d, amt (t_req t) d <= amt (t_init t) d end.

Lemma fstep_stack x o : stackP (fst x) (snd x) -> fop_ok o -> stackP (fst (fstep x o)) (snd (fstep x o)).
Proof.
  destruct x as [n st]. simpl. intros H Ho. destruct o as [tid|t]; simpl.
  - destruct (n_tasks n !! tid) as [c|] eqn:Hl; [|exact H].
    destruct (plain_b (t_status c)) eqn:Hp; [|exact H]. simpl.
    apply (stack_evict n st tid c H Hl). apply plain_b_spec. exact Hp.
  - destruct Ho as [H1 H2]. apply stack_pipeline; assumption.
Qed.

Lemma fsteps_stack ops : forall x, stackP (fst x) (snd x) -> Forall fop_ok ops ->
  stackP (fst (fold_left fstep ops x)) (snd (fold_left fstep ops x)).
Proof.
  induction ops as [|o ops IH]; intros x Hx Ho; [exact Hx|]. inversion Ho; subst. simpl.
  apply IH; [apply fstep_stack; assumption|assumption].
Qed.

(* at the level of one node's ledger: after ANY tentative history the node is within
   capacity, and it stays so after undoing any number of the recorded operations newest first
   (Statement.Discard; the statement's operations of one node are such a stack) *)
Theorem evict_history_safe n ops k :
  nbase n -> Forall fop_ok ops ->
  let x := fold_left fstep ops (n, []) in
  node_safe eps (fst x) /\ node_safe eps (fold_left nundo (take k (snd x)) (fst x)).
Proof.
  intros Hb Hops. pose proof (fsteps_stack ops (n, []) (stackP_nil n Hb) Hops) as Hall. simpl.
  split; [apply (stackP_safe _ _ Hall)|apply discard_stack_safe; exact Hall].
Qed.

(* reclaim keeps a running sum instead of re-reading the node (reclaim.go 224-243): it starts
   from FutureIdle and adds each evicted request.  After the evictions that sum IS the node's
   FutureIdle, dimension by dimension; starting from anything larger (Idle + Releasing, i.e.
   forgetting "- Pipelined") over-counts by exactly the pipelined amount. *)
Theorem reclaim_running_sum n st tid c d :
  stackP n st -> n_tasks n !! tid = Some c -> plain (t_status c) ->
  amt (future_idle (nevict n tid)) d = amt (add (future_idle n) (t_req c)) d.
Proof.
  intros H Hl Hp. destruct (stack_evict n st tid c H Hl Hp) as (H' & Hf).
  pose proof (stackP_safe _ _ H) as [[Hs _] _]. pose proof (stackP_safe _ _ H') as [[Hs' _] _].
  rewrite amt_add, !future_idle_amt by assumption. apply Hf.
Qed.


(* ---------- bridges: the statement operations ARE these ledger operations ---------- *)

(* Statement.Evict (with the node's own copy, as preempt / reclaim call it) *)
Theorem stmt_evict_with_nodes s sid c nid n j :
  jobs s !! t_job c = Some j -> nodes s !! nid = Some n -> node_keyed nid n ->
  n_tasks n !! t_id c = Some c -> plain (t_status c) ->
  nodes (fst (stmt_evict_with eps s sid c None)) = <[nid := nevict n (t_id c)]> (nodes s).
Proof.
  intros Hj Hn [Hid Hkey] Hl Hp. destruct (Hkey _ _ Hl) as [_ Hcn].
  unfold stmt_evict_with, ssn_update_status. rewrite Hj. unfold job_update. cbv beta zeta iota.
  unfold ssn_node_update. simpl t_node. rewrite Hcn. simpl nodes. rewrite Hn.
  unfold nevict. rewrite Hl, (proj2 (plain_b_spec _) Hp). simpl t_id.
  destruct (node_update eps n (set_status c Releasing)) as [[n' p']|e]; reflexivity.
Qed.

(* unevict (Statement.Discard, or Commit when the evictor refuses) *)
Theorem unevict_with_nodes s c prev nid n j :
  jobs s !! t_job c = Some j -> nodes s !! nid = Some n -> node_keyed nid n ->
  n_tasks n !! t_id c = Some c ->
  nodes (fst (unevict_with eps s c prev)) = <[nid := nundo n (NE (t_id c) prev)]> (nodes s).
Proof.
  intros Hj Hn [Hid Hkey] Hl. destruct (Hkey _ _ Hl) as [_ Hcn].
  unfold unevict_with, ssn_update_status. rewrite Hj. unfold job_update. cbv beta zeta iota.
  unfold ssn_node_update. simpl t_node. rewrite Hcn. simpl nodes. rewrite Hn.
  simpl nundo. rewrite Hl. simpl t_id.
  destruct (node_update eps n (set_status c (restore_status prev))) as [[n' p']|e]; reflexivity.
Qed.

(* unpipeline / unallocate *)
Theorem unallocate_with_nodes s c nid n j :
  jobs s !! t_job c = Some j -> nodes s !! nid = Some n -> t_node c = Some nid ->
  nodes (unallocate_with s c) = <[nid := node_remove n (t_id c)]> (nodes s).
Proof.
  intros Hj Hn Hcn. unfold unallocate_with, ssn_update_status. rewrite Hj. unfold job_update. cbv beta zeta iota.
  unfold ssn_node_remove. simpl t_node. rewrite Hcn. simpl nodes. rewrite Hn. reflexivity.
Qed.

(* Commit of a statement made of evictions and pipelines (what preempt / reclaim build) when the
   evictor refuses nothing: no node is touched *)
Lemma commit_op_evict_nodes s o :
  refuse_evict s = ∅ -> op_kind o <> KAllocate ->
  nodes (commit_op eps s o) = nodes s /\ refuse_evict (commit_op eps s o) = ∅.
Proof.
  (* set_solver below would otherwise pull 0 < eps into the closed statement *)
  clear eps_pos. intros Hr Hk. unfold commit_op. destruct (heap s !! op_task o) as [p|]; [|auto].
  destruct (op_kind o); [|auto|congruence].
  rewrite Hr. rewrite bool_decide_eq_false_2 by set_solver. auto.
Qed.

Theorem stmt_commit_without_refusal s sid :
  refuse_evict s = ∅ -> Forall (fun o => op_kind o <> KAllocate) (default [] (stmts s !! sid)) ->
  nodes (stmt_commit eps s sid) = nodes s.
Proof.
  clear eps_pos. intros Hr Hops. unfold stmt_commit. cbv zeta. simpl. revert Hops. generalize (default [] (stmts s !! sid)) as l.
  intros l. revert s Hr. induction l as [|o l IH]; intros s Hr Hl; [reflexivity|]. apply Forall_cons in Hl as [Ho Hl]. simpl.
  destruct (commit_op_evict_nodes s o Hr Ho) as (E1 & E2). rewrite IH by assumption. exact E1.
Qed.

End Evict.
