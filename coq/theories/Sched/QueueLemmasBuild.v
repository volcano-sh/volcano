(* C03: the session the harness -- like the plugins' OnSessionOpen --
   builds from a cluster description satisfies `cover` (in fact phi = 0: the ledger IS the sum of
   the requests of the pods in an allocated status), provided the task ids are distinct and no
   task is Pipelined when the session opens.  The guard matters: `build`, proportion.go:146 and
   capacity.go:1115 all sum api.AllocatedStatus only, while a Pipelined task holds quota; with a
   Pipelined task in the input the ledger starts one request short (C03_build_pipelined_not_covered).
   No session opens with a Pipelined task in Go (the status only exists inside a session). *)
From stdpp Require Import gmap.
From Coq Require Import ZArith Lia List.
From V Require Import Base.Res Base.ResLemmas Sched.LedgerModel Sched.StmtModel Sched.GangModel
                      Sched.CycleModel Sched.LedgerInvP Sched.LedgerLemmasA Sched.LedgerInv Sched.LedgerCodec Sched.CycleCodec
                      Sched.LedgerLemmasSound Sched.LedgerLemmasSess Sched.LedgerLemmasTxn Sched.LedgerLemmasEx
                      Sched.QueueLemmasBase Sched.QueueLemmasReach Sched.QueueLemmas Sched.QueueLemmasHeld
                      Sched.QueueLemmasEx.
Open Scope Z_scope.

Lemma zsum_map {A B} (g : B -> Z) (h : A -> B) l : zsum g (map h l) = zsum (fun x => g (h x)) l.
Proof. induction l as [|x l IH]; simpl; [reflexivity|rewrite IH; reflexivity]. Qed.

Lemma zsum_ext_in {A} (g h : A -> Z) l : (forall x, In x l -> g x = h x) -> zsum g l = zsum h l.
Proof.
  induction l as [|x l IH]; intros H; simpl; [reflexivity|].
  rewrite (H x) by (left; reflexivity). rewrite IH; [reflexivity|]. intros y Hy. apply H. right. exact Hy.
Qed.

Section Build.
Variable J : gmap positive job.
Variable f : positive -> option positive.
Hypothesis f_known : forall j q, f j = Some q -> is_Some (J !! j).

(* the body of the fold by which `build` (LedgerCodec.v) sets up the ledger, written out so that
   cover_build can [change] the built ledger into a fold of it *)
Definition share_step (acc : gmap positive res) (t : task) : gmap positive res :=
  if allocated_status (t_status t) && bool_decide (is_Some (J !! t_job t)) then
    <[t_job t := add (default empty_res (acc !! t_job t)) (t_req t)]> acc
  else acc.

Definition share_term (q : positive) (d : dim) (t : task) : Z :=
  if allocated_status (t_status t) && bool_decide (is_Some (J !! t_job t)) then
    (if bool_decide (f (t_job t) = Some q) then amt (t_req t) d else 0)
  else 0.

Lemma fold_share q d ts : forall acc,
  msum f (fold_left share_step ts acc) q d = msum f acc q d + zsum (share_term q d) ts.
Proof.
  induction ts as [|t ts IH]; intros acc; simpl; [lia|].
  rewrite IH. unfold share_step, share_term at 2.
  destruct (allocated_status (t_status t) && bool_decide (is_Some (J !! t_job t))); [|lia].
  rewrite msum_insert. destruct (bool_decide (f (t_job t) = Some q)); [rewrite amt_add|]; lia.
Qed.

Lemma held_term_share q d t :
  t_status t <> Pipelined -> hterm f q d (t_id t, t) = share_term q d t.
Proof.
  intros Hp. unfold hterm, share_term. simpl. case_bool_decide as Hf.
  - destruct (f_known _ _ Hf) as [j Hj]. rewrite bool_decide_eq_true_2 by eauto. rewrite andb_true_r.
    unfold hol. destruct (t_status t); simpl; try lia. contradiction.
  - destruct (_ && _); lia.
Qed.
End Build.

Theorem cover_build eps ns js tsp :
  base.NoDup (map ts_id tsp) -> Forall (fun t => ts_status t <> Pipelined) tsp ->
  forall q d, phi (build eps ns js tsp) q d = 0.
Proof.
  intros Hnd Hnp q d. set (s := build eps ns js tsp). set (ts := map (task_of_spec eps) tsp).
  unfold phi. rewrite share_of_amt.
  assert (Hknown : forall j q0, jq s j = Some q0 -> is_Some (jobs s !! j)).
  { intros j q0 H. unfold jq in H. destruct (jobs s !! j); [eauto|discriminate]. }
  change (hshare s) with (fold_left (share_step (jobs s)) ts ∅).
  rewrite (fold_share (jobs s) (jq s) q d ts ∅).
  unfold msum at 1. rewrite map_to_list_empty. simpl.
  unfold held. change (heap s) with (list_to_map (map (fun t => (t_id t, t)) ts) : gmap positive task).
  assert (Hfst : (map (fun t => (t_id t, t)) ts).*1 = map ts_id tsp).
  { unfold ts. clear. induction tsp as [|t l IH]; simpl; [reflexivity|]. f_equal. exact IH. }
  rewrite (zsum_perm _ _ _ (map_to_list_to_map _ ltac:(rewrite Hfst; exact Hnd))).
  rewrite zsum_map. rewrite (zsum_ext_in (fun x => hterm (jq s) q d (t_id x, x)) (share_term (jobs s) (jq s) q d) ts); [rewrite Z.add_0_l; apply Z.sub_diag|].
  intros t Ht. apply (held_term_share (jobs s) (jq s) Hknown).
  unfold ts in Ht. apply in_map_iff in Ht as (tp & <- & Htp). rewrite Forall_forall in Hnp.
  apply (Hnp tp Htp).
Qed.

(* the decidable guard under which a cycle input is inside the main theorem *)
Definition hyp_guardb (c : cycle_case) : bool :=
  let w := world_of c in
  bool_decide (base.NoDup (map ts_id (cc_tasks c))) &&
  forallb (fun t => negb (bool_decide (ts_status t = Pipelined))) (cc_tasks c) &&
  world_okb w &&
  heap_nonnegb (heap (w_sess w)) && ledger_okb (heap (w_sess w)) (jobs (w_sess w)) (nodes (w_sess w)) &&
  sess_wfb (w_sess w).

(* every session built from a cluster description that passes the guard satisfies every
   hypothesis of C03_placed_pods_within_limit (law 121 evaluates the guard on every generated
   cycle case) *)
Theorem built_sessions_satisfy_hypotheses (c : cycle_case) :
  hyp_guardb c = true -> world_ok_held (world_of c).
Proof.
  unfold hyp_guardb. cbv zeta. rewrite !andb_true_iff, bool_decide_eq_true, forallb_forall.
  intros (((((Hnd & Hnp) & Hw) & Hnn) & Hl) & Hwf).
  assert (Hs : sess_ok (w_sess (world_of c))).
  { apply sess_ok_of_bools; [rewrite Hnn, Hl; reflexivity|exact Hwf|reflexivity]. }
  destruct Hs as (Hli & Hwfs & Hsv).
  split; [apply world_okb_ok, Hw|]. split; [exact Hli|]. split; [exact Hwfs|]. split; [exact Hsv|]. split.
  - intros sid _. reflexivity.
  - intros q d. simpl. rewrite (cover_build (cc_eps c) (cc_nodes c) (cc_jobs c) (cc_tasks c) Hnd); [lia|].
    apply Forall_forall. intros t Ht. specialize (Hnp t Ht).
    apply negb_true_iff, bool_decide_eq_false in Hnp. exact Hnp.
Qed.

(* the guard is needed: a Pipelined task at session open is not covered (C03_build_pipelined_not_covered) *)
Definition ex_case_pip : cycle_case :=
  mkCycle 2
    [mkNodeSpec 1 true 4000 100000 10 0]
    [mkQSpec 1 true 1 0 0]
    [mkJobSpec 1 1 1 []]
    [mkTaskSpec 1 1 1 0 600 100 0 Pipelined (Some 1%positive) false;
     mkTaskSpec 2 1 1 0 600 100 0 Pending None false]
    true [1] [(1%positive, mkRes 16000 1600000 None)] [].

(* a session that OPENS with a Running pod, and a second pod placed on top *)
Definition ex_case_run (lim : Z) : cycle_case :=
  mkCycle 2
    [mkNodeSpec 1 true 4000 100000 10 0]
    [mkQSpec 1 true 1 0 0]
    [mkJobSpec 1 1 1 []]
    [mkTaskSpec 1 1 1 0 600 100 0 Running (Some 1%positive) false;
     mkTaskSpec 2 1 1 0 600 100 0 Pending None false]
    true [1] [(1%positive, mkRes lim 1600000 None)] [].
Definition ops5 : list cop := [CAttempt 1 [(2%positive, 1%positive)]].

Example ex_run_ok_held : world_ok_held (world_of (ex_case_run 32000)).
Proof. apply built_sessions_satisfy_hypotheses. vm_compute. reflexivity. Qed.

(* limit 2 cpu: the second 600m pod is placed next to the running one; 19200 <= 32000 *)
Example ex_second_pod_placed :
  let w := world_of (ex_case_run 32000) in
  let s' := w_sess (CycleModel.run 2 w ops5) in
  held (w_sess w) 1 DCpu = 9600 /\ verdicts 2 w ops5 = [VOk] /\
  hlog s' = [mkHev true 2 Allocated (Some 1%positive)] /\ held s' 1 DCpu = 19200.
Proof. vm_compute. repeat split; reflexivity. Qed.

(* the main theorem instantiated there: a non-vacuous instance on top of a holding pod *)
Example ex_second_pod_within_limit :
  held (w_sess (CycleModel.run 2 (world_of (ex_case_run 32000)) ops5)) 1 DCpu <= 32000.
Proof.
  set (w := world_of (ex_case_run 32000)). set (s' := w_sess (CycleModel.run 2 w ops5)).
  set (e := mkHev true 2 Allocated (Some 1%positive)).
  assert (H : exists t, heap s' !! 2%positive = Some t /\ hlog s' = [e] ++ hlog (w_sess w) /\
                        queue_of s' t = Some 1%positive /\
                        w_queues w !! 1%positive = Some (mkQ true (mkRes 32000 1600000 None) true) /\
                        requested (t_req t) DCpu)
    (* w and s' are unfolded first: an evar created under them would carry their bodies in its
       instance, and vm_compute normalises evar instances -- the whole session *)
    by (subst s' w; eexists; split; [vm_compute; reflexivity|]; vm_compute; repeat split).
  destruct H as (t & Hh & Hl & Hq & HQ & Hr).
  exact (proj2 (placed_pods_within_limit 2 w ops5 ex_run_ok_held [e] Hl e t 1%positive _
                  ltac:(left) eq_refl Hh Hq HQ eq_refl) DCpu Hr).
Qed.

(* with limit 1 cpu the same choice is refused: 19200 > 16000 *)
Example ex_second_pod_refused :
  verdicts 2 (world_of (ex_case_run 16000)) ops5 = [VQueueRefuses 2].
Proof. vm_compute. reflexivity. Qed.

