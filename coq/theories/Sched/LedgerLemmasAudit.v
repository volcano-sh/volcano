(* C07 proofs: what a Commit hands to the binder and the evictor (at most the recorded
   operation's own task, and only if the cache does not refuse it) and what the dispatch loop of
   Session.Allocate hands to the binder. *)
From stdpp Require Import gmap.
From Coq Require Import ZArith.
From V Require Import Base.Res Base.ResLemmas Sched.LedgerModel Sched.StmtModel Sched.GangModel
  Sched.LedgerInvP Sched.LedgerInv Sched.LedgerLemmasA Sched.LedgerLemmasJob Sched.LedgerLemmasNode
  Sched.LedgerLemmasSess Sched.LedgerLemmasSk Sched.LedgerLemmasTxn Sched.LedgerLemmasTxnN.
Open Scope Z_scope.

Definition heap_ids (s : sess) : Prop := forall i t, heap s !! i = Some t -> t_id t = i.
Lemma sess_ok_ids s : sess_ok s -> heap_ids s.
Proof. intros ((Hh & _) & _) i t Ht. apply (Hh i t Ht). Qed.

Lemma sess_ok_commit_op eps s o : sess_ok s -> sess_ok (commit_op eps s o).
Proof.
  intros (Hl & Hw & Hs). pose proof (good_commit_op eps _ s o (good_init s Hl Hw Hs)) as Hg.
  split; [exact (proj1 Hg)|]. split; [exact (proj1 (proj2 Hg))|]. eapply good_saved_ok; eauto.
Qed.

(* one operation: at most one new entry, of the operation's own task, and only if not refused *)
Lemma commit_op_logs eps s o :
  heap_ids s ->
  rf (commit_op eps s o) = rf s /\
  exists lb le, binds (commit_op eps s o) = lb ++ binds s /\ evicts (commit_op eps s o) = le ++ evicts s /\
    (forall b, b ∈ lb -> op_kind o = KAllocate /\ fst b = op_task o /\ op_task o ∉ refuse_bind s) /\
    (forall e, e ∈ le -> op_kind o = KEvict /\ e = op_task o /\ op_task o ∉ refuse_evict s).
Proof.
  intros Hids. unfold commit_op.
  (* a state with the cache of s has the refusal scripts of s and nothing new in the logs *)
  assert (Hnone : forall s', cache s' = cache s -> rf s' = rf s /\
            exists lb le, binds s' = lb ++ binds s /\ evicts s' = le ++ evicts s /\
            (forall b, b ∈ lb -> op_kind o = KAllocate /\ fst b = op_task o /\ op_task o ∉ refuse_bind s) /\
            (forall e, e ∈ le -> op_kind o = KEvict /\ e = op_task o /\ op_task o ∉ refuse_evict s)).
  { intros s' H. split; [exact (cache_rf _ _ H)|]. apply cache_lg in H. injection H as H1 H2.
    exists [], []. rewrite H1, H2. split; [reflexivity|]. split; [reflexivity|]. split; intros ? Hx; inversion Hx. }
  destruct (heap s !! op_task o) as [p|] eqn:E; [|apply Hnone; reflexivity].
  pose proof (Hids _ _ E) as Hid. destruct (op_kind o) eqn:Ek.
  - case_bool_decide as Hr; [apply Hnone, cache_unevict|].
    split; [reflexivity|]. exists [], [t_id p]. split; [reflexivity|]. split; [reflexivity|].
    split; [intros ? Hx; inversion Hx|]. intros e He. apply elem_of_list_singleton in He. subst e.
    rewrite Hid in *. auto.
  - apply Hnone. reflexivity.
  - case_bool_decide as Hr; [apply Hnone, cache_unallocate|].
    set (s1 := upd_logs s ((t_id p, t_node p) :: binds s) (evicts s)).
    destruct (ssn_update_status s1 p Binding) as [[f s2] p2] eqn:E2. apply cache_update in E2.
    (* a state with the cache of s2 has the one new bind *)
    assert (Hfin : forall s', cache s' = cache s2 -> rf s' = rf s /\ exists lb le,
              binds s' = lb ++ binds s /\ evicts s' = le ++ evicts s /\
              (forall b, b ∈ lb -> KAllocate = KAllocate /\ fst b = op_task o /\ op_task o ∉ refuse_bind s) /\
              (forall e, e ∈ le -> KAllocate = KEvict /\ e = op_task o /\ op_task o ∉ refuse_evict s)).
    { intros s' H. rewrite E2 in H. split; [exact (cache_rf _ _ H)|]. apply cache_lg in H. injection H as Hb He.
      exists [(t_id p, t_node p)], []. rewrite Hb, He. split; [reflexivity|]. split; [reflexivity|].
      split; [|intros ? Hx; inversion Hx]. intros b Hb'. apply elem_of_list_singleton in Hb'. subst b.
      simpl. rewrite Hid in *. auto. }
    destruct f; apply Hfin; [reflexivity|apply cache_unallocate].
Qed.

Lemma commit_fold_logs eps ops : forall s,
  sess_ok s ->
  let s' := fold_left (commit_op eps) ops s in
  sess_ok s' /\ rf s' = rf s /\
  exists lb le, binds s' = lb ++ binds s /\ evicts s' = le ++ evicts s /\
    (forall b, b ∈ lb -> exists o, o ∈ ops /\ op_kind o = KAllocate /\ fst b = op_task o /\ op_task o ∉ refuse_bind s) /\
    (forall e, e ∈ le -> exists o, o ∈ ops /\ op_kind o = KEvict /\ e = op_task o /\ op_task o ∉ refuse_evict s).
Proof.
  induction ops as [|o r IH]; intros s Hok; cbv zeta.
  - split; [exact Hok|]. split; [reflexivity|]. exists [], []. split; [reflexivity|]. split; [reflexivity|]. split; intros ? Hx; inversion Hx.
  - simpl. destruct (commit_op_logs eps s o (sess_ok_ids s Hok)) as (Hrf1 & lb1 & le1 & Hb1 & He1 & HB1 & HE1).
    destruct (IH (commit_op eps s o) (sess_ok_commit_op eps s o Hok)) as (Hok' & Hrf' & lb & le & Hb & He & HB & HE).
    pose proof Hrf1 as [= Hrb Hre]. rewrite Hrb in HB. rewrite Hre in HE.
    split; [exact Hok'|]. split; [rewrite Hrf'; exact Hrf1|].
    exists (lb ++ lb1), (le ++ le1). rewrite Hb, He, Hb1, He1, !app_assoc.
    split; [reflexivity|]. split; [reflexivity|]. split.
    + intros b Hin. apply elem_of_app in Hin as [Hin|Hin].
      * destruct (HB b Hin) as (o' & Ho' & H). exists o'. split; [right; exact Ho'|exact H].
      * exists o. split; [left|apply HB1, Hin].
    + intros e Hin. apply elem_of_app in Hin as [Hin|Hin].
      * destruct (HE e Hin) as (o' & Ho' & H). exists o'. split; [right; exact Ho'|exact H].
      * exists o. split; [left|apply HE1, Hin].
Qed.

Lemma dispatch_logs s t :
  rf (fst (dispatch s t)) = rf s /\
  exists lb, binds (fst (dispatch s t)) = lb ++ binds s /\ evicts (fst (dispatch s t)) = evicts s /\
    (forall b, b ∈ lb -> fst b = t /\ t ∉ refuse_bind s).
Proof.
  unfold dispatch. destruct (heap s !! t) as [p|].
  2: { split; [reflexivity|]. exists []. split; [reflexivity|]. split; [reflexivity|]. intros ? Hx; inversion Hx. }
  case_bool_decide as Hr.
  { split; [reflexivity|]. exists []. split; [reflexivity|]. split; [reflexivity|]. intros ? Hx; inversion Hx. }
  set (s1 := upd_logs s ((t, t_node p) :: binds s) (evicts s)).
  destruct (ssn_update_status s1 p Binding) as [[f s2] p2] eqn:E2. cbn [fst].
  apply cache_update in E2. split; [exact (cache_rf _ _ E2)|]. apply cache_lg in E2. injection E2 as Hb He.
  exists [(t, t_node p)]. split; [exact Hb|]. split; [exact He|].
  intros b Hb'. apply elem_of_list_singleton in Hb'. subst b. auto.
Qed.

Lemma dispatch_all_logs l : forall s,
  rf (fst (dispatch_all s l)) = rf s /\
  exists lb, binds (fst (dispatch_all s l)) = lb ++ binds s /\ evicts (fst (dispatch_all s l)) = evicts s /\
    (forall b, b ∈ lb -> fst b ∈ l /\ fst b ∉ refuse_bind s).
Proof.
  induction l as [|t r IH]; intros s.
  - split; [reflexivity|]. exists []. split; [reflexivity|]. split; [reflexivity|]. intros ? Hx; inversion Hx.
  - simpl. destruct (dispatch_logs s t) as (Hrf1 & lb1 & Hb1 & He1 & HB1).
    destruct (dispatch s t) as [s1 ok]. cbn [fst] in *.
    assert (Hrb : refuse_bind s1 = refuse_bind s) by (unfold rf in Hrf1; congruence).
    destruct ok.
    + destruct (IH s1) as (Hrf & lb & Hb & He & HB). split; [congruence|].
      exists (lb ++ lb1). rewrite Hb, He, Hb1, He1, app_assoc. split; [reflexivity|]. split; [reflexivity|].
      intros b Hin. apply elem_of_app in Hin as [Hin|Hin].
      * destruct (HB b Hin) as [H1 H2]. split; [right; exact H1|congruence].
      * destruct (HB1 b Hin) as [H1 H2]. split; [rewrite H1; left|rewrite H1; exact H2].
    + cbn [fst]. assert (Hfin : forall s', cache s' = cache s1 -> rf s' = rf s /\
               exists lb, binds s' = lb ++ binds s /\ evicts s' = evicts s /\
                 (forall b, b ∈ lb -> fst b ∈ t :: r /\ fst b ∉ refuse_bind s)).
      { intros s' H. split; [rewrite (cache_rf _ _ H); exact Hrf1|]. apply cache_lg in H. injection H as Hb He.
        exists lb1. rewrite Hb, He. split; [exact Hb1|]. split; [exact He1|].
        intros b Hin. destruct (HB1 b Hin) as [Hx Hy]. split; [rewrite Hx; left|rewrite Hx; exact Hy]. }
      destruct (heap s1 !! t) as [p|]; apply Hfin; [apply cache_unallocate|reflexivity].
Qed.

Lemma idx_set_del_subset ix st t s' : idx_set (idx_del ix st t) s' ⊆ idx_set ix s'.
Proof. rewrite idx_set_del. destruct (decide (st = s')) as [->|]; set_solver. Qed.

Lemma job_update_alloc_index h j p :
  idx_set (j_index (fst (job_update h j p Allocated))) Allocated ⊆ {[t_id p]} ∪ idx_set (j_index j) Allocated.
Proof.
  unfold job_update. cbn [fst]. unfold job_add at 1. cbn [j_index]. rewrite idx_set_add.
  destruct (decide (Allocated = Allocated)) as [_|Hne]; [|congruence]. cbn [t_status set_status t_id].
  apply union_mono_l.
  case_bool_decide; [|reflexivity]. destruct (h !! t_id p); [|reflexivity].
  unfold job_del. cbn [j_index]. apply idx_set_del_subset.
Qed.

