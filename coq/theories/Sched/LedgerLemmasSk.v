(* C07 proofs: "restored exactly".  The state equivalence sess_eqv (same task statuses
   and node names, same task sets and indexes, ledgers equal in every amount, same node-held
   copies, same handler shares) and the determinacy theorem: under the ledger invariant the
   ledgers and indexes are FUNCTIONS of the skeleton of the session (which task has which
   status / node name / request, which job holds which tasks, which node holds which copies),
   so two invariant-satisfying sessions with the same skeleton are sess_eqv. *)
From stdpp Require Import gmap.
From Coq Require Import ZArith Lia.
From V Require Import Base.Res Base.ResLemmas Sched.LedgerModel Sched.StmtModel Sched.GangModel
  Sched.LedgerInvP Sched.LedgerInv Sched.LedgerLemmasA Sched.LedgerLemmasJob Sched.LedgerLemmasNode.
Open Scope Z_scope.

Definition task_same (a b : task) : Prop :=
  t_id a = t_id b /\ t_status a = t_status b /\ t_node a = t_node b.
Definition map_same {A} (R : A -> A -> Prop) (a b : gmap positive A) : Prop :=
  forall i, option_Forall2 R (a !! i) (b !! i).
Definition sub_same (a b : subjob) : Prop := sj_tasks a = sj_tasks b /\ sj_index a = sj_index b.
Definition job_same (a b : job) : Prop :=
  j_tasks a = j_tasks b /\ j_index a = j_index b /\
  res_eqv (j_alloc a) (j_alloc b) /\ res_eqv (j_total a) (j_total b) /\
  j_task_sub a = j_task_sub b /\ map_same sub_same (j_subs a) (j_subs b).
Definition node_same (a b : node) : Prop :=
  res_eqv (n_idle a) (n_idle b) /\ res_eqv (n_used a) (n_used b) /\
  res_eqv (n_releasing a) (n_releasing b) /\ res_eqv (n_pipelined a) (n_pipelined b) /\
  map_same task_same (n_tasks a) (n_tasks b).
Definition share_same (a b : gmap positive res) : Prop :=
  forall k, res_eqv (default empty_res (a !! k)) (default empty_res (b !! k)).

Definition sess_eqv (s s' : sess) : Prop :=
  map_same task_same (heap s) (heap s') /\ map_same job_same (jobs s) (jobs s') /\
  map_same node_same (nodes s) (nodes s') /\ share_same (hshare s) (hshare s').

Definition hview (t : task) : status * option positive * res := (t_status t, t_node t, t_req t).
Definition jview (j : job) : gset positive * gmap positive positive * gset positive :=
  (j_tasks j, j_task_sub j, dom (j_subs j)).
(* a NodeInfo without Node keeps its ledgers untouched: they are part of its skeleton *)
Definition nview (n : node) :=
  (n_has_node n, n_alloc n, hview <$> n_tasks n,
   if n_has_node n then None else Some (n_idle n, n_used n, n_releasing n, n_pipelined n)).

Definition hv (s : sess) := hview <$> heap s.
Definition jv (s : sess) := jview <$> jobs s.
Definition nv (s : sess) := nview <$> nodes s.

Lemma index_ok_functional h h' S ix ix' :
  (forall i, i ∈ S -> (t_status <$> h !! i) = (t_status <$> h' !! i)) ->
  index_ok h S ix -> index_ok h' S ix' -> ix = ix'.
Proof.
  intros Hag H1 H2. apply (index_ok_ext h h' S ix Hag) in H1.
  destruct H1 as [Ha Ka], H2 as [Hb Kb].
  assert (Hset : forall s, idx_set ix s = idx_set ix' s).
  { intros s. apply set_eq. intros i. rewrite Ha, Hb. reflexivity. }
  apply map_eq. intros k. destruct (status_of_key k) as [s|] eqn:Ek.
  - apply status_key_inv in Ek. subst k. specialize (Hset s). unfold idx_set in Hset.
    destruct (ix !! skey s) as [x|] eqn:E1, (ix' !! skey s) as [y|] eqn:E2; simpl in Hset.
    + congruence.
    + destruct (Ka _ _ E1) as [Hne _]. congruence.
    + destruct (Kb _ _ E2) as [Hne _]. congruence.
    + reflexivity.
  - destruct (ix !! k) as [x|] eqn:E1.
    + destruct (Ka _ _ E1) as [_ [? Hs]]. congruence.
    + destruct (ix' !! k) as [y|] eqn:E2; [|reflexivity].
      destruct (Kb _ _ E2) as [_ [? Hs]]. congruence.
Qed.

Lemma fmap_eq_lookup {A B} (f : A -> B) (m m' : gmap positive A) i :
  f <$> m = f <$> m' -> f <$> m !! i = f <$> m' !! i.
Proof. intros H. rewrite <- !lookup_fmap, H. reflexivity. Qed.

(* maps with equal views: at every key both are absent, or both present with equal views *)
Lemma map_same_view {A B} (f : A -> B) (R : A -> A -> Prop) (m m' : gmap positive A) :
  f <$> m = f <$> m' ->
  (forall i a a', m !! i = Some a -> m' !! i = Some a' -> f a = f a' -> R a a') -> map_same R m m'.
Proof.
  intros H HR i. pose proof (fmap_eq_lookup f m m' i H) as E.
  destruct (m !! i) eqn:E1, (m' !! i) eqn:E2; try discriminate E; constructor. injection E. eauto.
Qed.

Lemma copies_fmap {V} (v : task -> V) n : v <$> copies n ≡ₚ (map_to_list (v <$> n_tasks n)).*2.
Proof.
  unfold copies. change (map snd (map_to_list (n_tasks n))) with ((map_to_list (n_tasks n)).*2).
  rewrite map_to_list_fmap, <- !list_fmap_compose. reflexivity.
Qed.

(* the index and the two sums of a job are determined by its skeleton and the views of the tasks *)
Lemma job_determined h h' j j' :
  (forall i, hview <$> h !! i = hview <$> h' !! i) ->
  job_inv h j -> job_inv h' j' -> jview j = jview j' -> job_same j j'.
Proof.
  intros Hv (Hm & Hix & Htot & Hal & Hd & Hts & Hsj) (Hm' & Hix' & Htot' & Hal' & Hd' & Hts' & Hsj') [= HT HS HD].
  assert (Hst : forall i, t_status <$> h !! i = t_status <$> h' !! i).
  { intros i. specialize (Hv i). destruct (h !! i), (h' !! i); try discriminate Hv; [|reflexivity].
    injection Hv as H1 _ _. simpl. congruence. }
  assert (Hsum : forall f : task -> Z, (forall t t', hview t = hview t' -> f t = f t') ->
            sum_amt f (tasks_in h (j_tasks j)) = sum_amt f (tasks_in h' (j_tasks j'))).
  { intros f Hf. apply (sum_amt_fmap hview); [exact Hf|].
    rewrite <- HT, (tasks_in_fmap hview h h'); [reflexivity|]. intros i _. apply Hv. }
  split; [exact HT|]. split; [|split; [|split; [|split; [exact HS|]]]].
  - eapply index_ok_functional; [|exact Hix|rewrite HT; exact Hix']. intros; apply Hst.
  - apply res_eqv_amt. intros d. rewrite Hal, Hal'. apply Hsum.
    intros t t' [= H1 _ H3]. unfold alloc_amt. rewrite H1, H3. reflexivity.
  - apply res_eqv_amt. intros d. rewrite Htot, Htot'. apply Hsum.
    intros t t' [= _ _ H3]. unfold req_amt. rewrite H3. reflexivity.
  - intros sid. destruct (j_subs j !! sid) as [sj|] eqn:Es, (j_subs j' !! sid) as [sj'|] eqn:Es'.
    + constructor. destruct (Hsj _ _ Es) as [Hmem Hi], (Hsj' _ _ Es') as [Hmem' Hi'].
      assert (Hset : sj_tasks sj = sj_tasks sj').
      { apply set_eq. intros i. rewrite Hmem, Hmem', HS. reflexivity. }
      split; [exact Hset|]. eapply index_ok_functional; [|exact Hi|rewrite Hset; exact Hi']. intros; apply Hst.
    + exfalso. apply not_elem_of_dom in Es'. apply Es'. rewrite <- HD. apply elem_of_dom. eauto.
    + exfalso. apply not_elem_of_dom in Es. apply Es. rewrite HD. apply elem_of_dom. eauto.
    + constructor.
Qed.

(* the four ledgers of a node with a Node object are determined by its allocatable and its copies *)
Lemma node_determined h h' n n' :
  node_inv h n -> node_inv h' n' -> nview n = nview n' -> node_same n n'.
Proof.
  intros [Hc Hs] [Hc' Hs'] [= Hhas Hal Hcv Hled].
  assert (Hcopies : map_same task_same (n_tasks n) (n_tasks n')).
  { apply (map_same_view hview); [exact Hcv|]. intros i c c' E E' [= H1 H2 _].
    destruct (Hc _ _ E) as [He _], (Hc' _ _ E') as [He' _]. split; [congruence|]. split; assumption. }
  assert (Hsum : forall f : task -> Z, (forall t t', hview t = hview t' -> f t = f t') ->
            sum_amt f (copies n) = sum_amt f (copies n')).
  { intros f Hf. apply (sum_amt_fmap hview); [exact Hf|]. rewrite !copies_fmap, Hcv. reflexivity. }
  destruct (n_has_node n) eqn:Hn.
  - rewrite <- Hhas in *. destruct (Hs eq_refl) as (Hu & Hr & Hp & Hi), (Hs' eq_refl) as (Hu' & Hr' & Hp' & Hi').
    assert (Eu : forall d, amt (n_used n) d = amt (n_used n') d).
    { intros d. rewrite Hu, Hu'. apply Hsum. intros t t' [= H1 _ H3]. unfold used_amt. rewrite H1, H3. reflexivity. }
    split; [|split; [|split; [|split; [|exact Hcopies]]]]; apply res_eqv_amt; intros d.
    + specialize (Hi d). specialize (Hi' d). rewrite Hal, Eu in Hi. lia.
    + apply Eu.
    + rewrite Hr, Hr'. apply Hsum. intros t t' [= H1 _ H3]. unfold rel_amt. rewrite H1, H3. reflexivity.
    + rewrite Hp, Hp'. apply Hsum. intros t t' [= H1 _ H3]. unfold pip_amt. rewrite H1, H3. reflexivity.
  - rewrite <- Hhas in Hled. injection Hled as H1 H2 H3 H4.
    split; [|split; [|split; [|split; [|exact Hcopies]]]]; apply res_eqv_amt; intros d; congruence.
Qed.

Theorem sk_determines s s' :
  ledger_inv s -> ledger_inv s' -> hv s = hv s' -> jv s = jv s' -> nv s = nv s' ->
  map_same task_same (heap s) (heap s') /\ map_same job_same (jobs s) (jobs s') /\
  map_same node_same (nodes s) (nodes s').
Proof.
  intros (Hh & Hjobs & Hnodes) (Hh' & Hjobs' & Hnodes') Hhv Hjv Hnv. split; [|split].
  - apply (map_same_view hview); [exact Hhv|]. intros i t t' E E' [= H1 H2 _].
    destruct (Hh _ _ E) as [He _], (Hh' _ _ E') as [He' _]. split; [congruence|]. split; assumption.
  - apply (map_same_view jview); [exact Hjv|]. intros k j j' E E' Hv.
    apply (job_determined (heap s) (heap s')); [intros i; apply (fmap_eq_lookup hview), Hhv|apply (Hjobs _ _ E)|apply (Hjobs' _ _ E')|exact Hv].
  - apply (map_same_view nview); [exact Hnv|]. intros k n n' E E' Hv.
    apply (node_determined (heap s) (heap s')); [apply (Hnodes _ _ E)|apply (Hnodes' _ _ E')|exact Hv].
Qed.

Corollary sk_sess_eqv s s' :
  ledger_inv s -> ledger_inv s' -> hv s = hv s' -> jv s = jv s' -> nv s = nv s' ->
  share_same (hshare s) (hshare s') -> sess_eqv s s'.
Proof.
  intros H1 H2 H3 H4 H5 H6. destruct (sk_determines s s' H1 H2 H3 H4 H5) as (A & B & C).
  split; [exact A|]. split; [exact B|]. split; [exact C|exact H6].
Qed.

Definition shamt (sh : gmap positive res) (k : positive) (d : dim) : Z := amt (default empty_res (sh !! k)) d.

Lemma share_same_amt a b : share_same a b <-> forall k d, shamt a k d = shamt b k d.
Proof. unfold share_same, shamt. split; intros H k; [apply res_eqv_amt, H|apply res_eqv_amt; intros d; apply H]. Qed.

(* subtraction is exact when the minuend has a scalar map or the subtrahend has no scalars *)
Definition covers (r x : res) : Prop := sc r <> None \/ scm x = ∅.

Lemma amt_sub_covers r x d : covers r x -> amt (sub r x) d = amt r d - amt x d.
Proof.
  intros [H|H]; [apply amt_sub_some, H|].
  destruct (sc r) eqn:E; [apply amt_sub_some; congruence|].
  destruct d as [| |k]; simpl; [reflexivity|reflexivity|].
  rewrite (sget_nil (sub r x) k) by (apply sub_nil_drops_scalars; exact E).
  rewrite (sget_nil r k E). unfold sget. rewrite H, lookup_empty. reflexivity.
Qed.

Lemma covers_add r x : covers (add r x) x.
Proof.
  unfold covers, add. simpl. case_bool_decide as He; [right; exact He|left; discriminate].
Qed.
