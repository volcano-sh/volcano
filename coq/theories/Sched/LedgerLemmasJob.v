(* C07 proofs: JobInfo.AddTaskInfo / DeleteTaskInfo / UpdateTaskStatus preserve the
   job invariant (sums, status index, sub-job bookkeeping). *)
From stdpp Require Import gmap.
From Coq Require Import ZArith Lia.
From V Require Import Base.Res Base.ResLemmas Sched.LedgerModel Sched.StmtModel Sched.GangModel
  Sched.LedgerInvP Sched.LedgerInv Sched.LedgerLemmasA.
Open Scope Z_scope.

(* what the job invariant reads of a task object *)
Definition tview (t : task) : status * res * positive := (t_status t, t_req t, t_job t).
Definition agree_on (S : gset positive) (h h' : gmap positive task) : Prop :=
  forall i, i ∈ S -> (tview <$> h !! i) = (tview <$> h' !! i).

Lemma agree_on_insert_notin S h i t : i ∉ S -> agree_on S h (<[i := t]> h).
Proof. intros Hni k Hk. rewrite lookup_insert_ne; [reflexivity|]. intros ->. contradiction. Qed.

Lemma agree_on_mono S S' h h' : S' ⊆ S -> agree_on S h h' -> agree_on S' h h'.
Proof. intros Hs H i Hi. apply H. set_solver. Qed.

Lemma agree_view S h h' i t :
  agree_on S h h' -> i ∈ S -> h !! i = Some t -> exists t', h' !! i = Some t' /\ tview t' = tview t.
Proof.
  intros H Hi Ht. specialize (H i Hi). rewrite Ht in H. simpl in H.
  destruct (h' !! i) as [t'|]; [|discriminate]. simpl in H. exists t'. split; [reflexivity|congruence].
Qed.

Lemma agree_on_sym S h h' : agree_on S h h' -> agree_on S h' h.
Proof. intros H i Hi. symmetry. apply H, Hi. Qed.

Lemma sum_view_agree (f : task -> Z) S h h' :
  (forall t t', tview t = tview t' -> f t = f t') ->
  agree_on S h h' -> sum_amt f (tasks_in h S) = sum_amt f (tasks_in h' S).
Proof.
  intros Hf Hag. apply (sum_amt_fmap tview); [exact Hf|]. rewrite (tasks_in_fmap tview h h' S Hag). reflexivity.
Qed.

Lemma sub_tasks_subset h j sid sj : sub_inv h j -> j_subs j !! sid = Some sj -> sj_tasks sj ⊆ j_tasks j.
Proof.
  intros (Hdom & _ & Hsj) Hl i Hi. destruct (Hsj sid sj Hl) as [Hmem _].
  apply Hmem in Hi. rewrite <- Hdom. apply elem_of_dom. eauto.
Qed.

Lemma job_inv_ext h h' j : agree_on (j_tasks j) h h' -> job_inv h j -> job_inv h' j.
Proof.
  intros Hag (Hm & Hix & Htot & Hal & Hsub).
  assert (Hst : forall S, S ⊆ j_tasks j -> forall i, i ∈ S -> (t_status <$> h !! i) = (t_status <$> h' !! i)).
  { intros S HS i Hi. specialize (Hag i (HS i Hi)).
    destruct (h !! i), (h' !! i); simpl in *; try discriminate; [|reflexivity]. unfold tview in Hag. congruence. }
  split; [|split; [|split; [|split]]].
  - intros i Hi. destruct (Hm i Hi) as (t & Ht & Hj).
    destruct (agree_view _ _ _ _ _ Hag Hi Ht) as (t' & Ht' & Hv). exists t'. split; [exact Ht'|].
    unfold tview in Hv. congruence.
  - eapply index_ok_ext; [|exact Hix]. apply (Hst (j_tasks j)). reflexivity.
  - intros d. rewrite Htot. apply sum_view_agree; [|exact Hag].
    intros t t' Hv. unfold req_amt, tview in *. congruence.
  - intros d. rewrite Hal. apply sum_view_agree; [|exact Hag].
    intros t t' Hv. unfold alloc_amt, tview in *. inversion Hv as [[H1 H2 H3]]. rewrite H1, H2. reflexivity.
  - pose proof Hsub as (Hdom & Hts & Hsj). split; [exact Hdom|]. split; [exact Hts|].
    intros sid sj Hl. destruct (Hsj sid sj Hl) as [Hmem Hi]. split; [exact Hmem|].
    eapply index_ok_ext; [|exact Hi]. apply Hst. eapply sub_tasks_subset; eauto.
Qed.

Lemma index_ok_empty h : index_ok h ∅ ∅.
Proof.
  split.
  - intros s i. unfold idx_set. rewrite lookup_empty. simpl. set_solver.
  - intros k x. rewrite lookup_empty. discriminate.
Qed.

Lemma job_add_id j t : j_id (job_add j t) = j_id j.
Proof. reflexivity. Qed.
Lemma job_del_id j t : j_id (job_del j t) = j_id j.
Proof. reflexivity. Qed.
Lemma job_add_tasks j t : j_tasks (job_add j t) = {[t_id t]} ∪ j_tasks j.
Proof. reflexivity. Qed.
Lemma job_del_tasks j t : j_tasks (job_del j t) = j_tasks j ∖ {[t_id t]}.
Proof. reflexivity. Qed.

(* the sub-job bookkeeping under AddTaskInfo of a task the job does not hold yet *)
Lemma sub_inv_add h j t :
  sub_inv h j -> h !! t_id t = Some t -> t_id t ∉ j_tasks j -> sub_inv h (job_add j t).
Proof.
  intros (Hdom & Hts & Hsj) Hl Hni.
  assert (Hfresh : j_task_sub j !! t_id t = None) by (apply not_elem_of_dom; rewrite Hdom; exact Hni).
  (* the sub-job the task goes to, found or created empty, satisfies the clauses of a held one *)
  set (sj := default (empty_sub j) (j_subs j !! t_sub t)).
  assert (Hsj0 : (forall i, i ∈ sj_tasks sj <-> j_task_sub j !! i = Some (t_sub t)) /\
                 index_ok h (sj_tasks sj) (sj_index sj)).
  { unfold sj. destruct (j_subs j !! t_sub t) as [sj0|] eqn:E; simpl; [exact (Hsj _ _ E)|].
    split; [|apply index_ok_empty]. intros i. split; [intros Hi; apply elem_of_empty in Hi as []|].
    intros Hs. destruct (Hts i _ Hs) as (? & Hx & _). congruence. }
  destruct Hsj0 as [Hmem0 Hix0].
  split; [|split]; simpl; fold sj.
  - rewrite dom_insert_L, Hdom. reflexivity.
  - intros i sid. destruct (decide (i = t_id t)) as [->|Hne].
    + rewrite lookup_insert. intros [= <-]. rewrite lookup_insert. eexists. split; [reflexivity|].
      simpl. apply elem_of_union_l, elem_of_singleton. reflexivity.
    + rewrite lookup_insert_ne by congruence. intros Hs. destruct (decide (sid = t_sub t)) as [->|Hns].
      * rewrite lookup_insert. eexists. split; [reflexivity|]. simpl. apply elem_of_union_r, Hmem0, Hs.
      * rewrite lookup_insert_ne by congruence. apply Hts, Hs.
  - intros sid sj'. destruct (decide (sid = t_sub t)) as [->|Hns].
    + rewrite lookup_insert. intros [= <-]. simpl. split.
      * intros i. rewrite elem_of_union, elem_of_singleton, Hmem0. destruct (decide (i = t_id t)) as [->|Hne].
        -- rewrite lookup_insert. tauto.
        -- rewrite lookup_insert_ne by congruence. tauto.
      * apply index_ok_add; [exact Hix0| |exact Hl]. intros Hin. apply Hmem0 in Hin. congruence.
    + rewrite lookup_insert_ne by congruence. intros Hs. destruct (Hsj _ _ Hs) as [Hmem Hi0].
      split; [|exact Hi0]. intros i. rewrite Hmem. destruct (decide (i = t_id t)) as [->|Hne].
      * rewrite lookup_insert, Hfresh. split; [discriminate|intros [= Hx]; congruence].
      * rewrite lookup_insert_ne by congruence. reflexivity.
Qed.

(* ... and under DeleteTaskInfo of a member *)
Lemma sub_inv_del h j t :
  sub_inv h j -> h !! t_id t = Some t -> t_id t ∈ j_tasks j -> sub_inv h (job_del j t).
Proof.
  intros (Hdom & Hts & Hsj) Hl Hin.
  assert (Hsome : is_Some (j_task_sub j !! t_id t)) by (apply elem_of_dom; rewrite Hdom; exact Hin).
  destruct Hsome as [sid Hsid]. destruct (Hts _ _ Hsid) as (sj & Hsj1 & Hin1).
  destruct (Hsj _ _ Hsj1) as [Hmem Hi0].
  unfold sub_inv, job_del. simpl. rewrite Hsid, Hsj1.
  split; [|split].
  - rewrite dom_delete_L, Hdom. reflexivity.
  - intros i sid'. destruct (decide (i = t_id t)) as [->|Hne].
    + rewrite lookup_delete. discriminate.
    + rewrite lookup_delete_ne by congruence. intros Hs. destruct (decide (sid' = sid)) as [->|Hns].
      * rewrite lookup_insert. eexists. split; [reflexivity|]. simpl.
        apply elem_of_difference. split; [apply Hmem, Hs|apply not_elem_of_singleton, Hne].
      * rewrite lookup_insert_ne by congruence. apply Hts, Hs.
  - intros sid' sj'. destruct (decide (sid' = sid)) as [->|Hns].
    + rewrite lookup_insert. intros [= <-]. simpl. split.
      * intros i. rewrite elem_of_difference, elem_of_singleton. destruct (decide (i = t_id t)) as [->|Hne].
        -- rewrite lookup_delete. split; [tauto|discriminate].
        -- rewrite lookup_delete_ne by congruence. rewrite Hmem. tauto.
      * apply index_ok_del; assumption.
    + rewrite lookup_insert_ne by congruence. intros Hs. destruct (Hsj _ _ Hs) as [Hmem' Hi'].
      split; [|exact Hi']. intros i. rewrite Hmem'. destruct (decide (i = t_id t)) as [->|Hne].
      * rewrite lookup_delete, Hsid. split; [intros [= Hx]; congruence|discriminate].
      * rewrite lookup_delete_ne by congruence. reflexivity.
Qed.

(* AddTaskInfo of a task that the heap holds and the job does not yet *)
Lemma job_add_inv h j t :
  job_inv h j -> h !! t_id t = Some t -> t_id t ∉ j_tasks j -> t_job t = j_id j ->
  job_inv h (job_add j t).
Proof.
  intros (Hm & Hix & Htot & Hal & Hsub) Hl Hni Hj.
  split; [|split; [|split; [|split]]].
  - intros i Hi. rewrite job_add_tasks in Hi. apply elem_of_union in Hi as [Hi|Hi]; [|apply Hm, Hi].
    apply elem_of_singleton in Hi. subst i. exists t. split; [exact Hl|exact Hj].
  - apply index_ok_add; assumption.
  - intros d. simpl. rewrite amt_add, Htot.
    rewrite (sum_amt_perm _ _ _ (tasks_in_union_singleton h _ _ _ Hni Hl)). simpl. unfold req_amt at 2. lia.
  - intros d. simpl.
    rewrite (sum_amt_perm _ _ _ (tasks_in_union_singleton h _ _ _ Hni Hl)). simpl. unfold alloc_amt at 1.
    destruct (allocated_status (t_status t)); [rewrite amt_add, Hal; lia|rewrite Hal; lia].
  - apply sub_inv_add; assumption.
Qed.

(* DeleteTaskInfo of a member, keyed by the stored object *)
Lemma job_del_inv h j t :
  heap_ok h -> job_inv h j -> h !! t_id t = Some t -> t_id t ∈ j_tasks j ->
  job_inv h (job_del j t).
Proof.
  intros Hh (Hm & Hix & Htot & Hal & Hsub) Hl Hin.
  assert (Hmem_t : t ∈ tasks_in h (j_tasks j)) by (apply elem_of_tasks_in; eauto).
  assert (Hnn : forall x, x ∈ tasks_in h (j_tasks j) -> nonneg (t_req x)).
  { intros x Hx. apply elem_of_tasks_in in Hx as (i & _ & Hi). apply (Hh i x Hi). }
  assert (Hp := tasks_in_difference_singleton h _ _ _ Hin Hl).
  split; [|split; [|split; [|split]]].
  - intros i Hi. rewrite job_del_tasks in Hi. apply elem_of_difference in Hi as [Hi _]. apply Hm, Hi.
  - apply index_ok_del; assumption.
  - intros d. simpl. rewrite amt_sub_part.
    + rewrite Htot, (sum_amt_perm _ _ _ Hp). simpl. unfold req_amt at 1. lia.
    + intros d'. split; [apply (Hnn t Hmem_t)|]. rewrite Htot.
      apply (sum_amt_ge_elem (req_amt d')); [|exact Hmem_t]. intros x Hx. apply (Hnn x Hx).
  - intros d. simpl. destruct (allocated_status (t_status t)) eqn:Ea.
    + assert (Hal' : forall d', amt (j_alloc j) d' =
                amt (t_req t) d' + sum_amt (alloc_amt d') (tasks_in h (j_tasks j ∖ {[t_id t]}))).
      { intros d'. rewrite Hal, (sum_amt_perm _ _ _ Hp). simpl. unfold alloc_amt at 1. rewrite Ea. reflexivity. }
      rewrite amt_sub_part; [rewrite Hal'; lia|].
      intros d'. split; [apply (Hnn t Hmem_t)|]. rewrite Hal'.
      assert (0 <= sum_amt (alloc_amt d') (tasks_in h (j_tasks j ∖ {[t_id t]}))); [|lia].
      apply sum_amt_nonneg. intros x Hx. unfold alloc_amt. destruct (allocated_status (t_status x)); [|lia].
      apply Hnn. rewrite Hp. right. exact Hx.
    + rewrite Hal, (sum_amt_perm _ _ _ Hp). simpl. unfold alloc_amt at 1. rewrite Ea. lia.
  - apply sub_inv_del; assumption.
Qed.

Lemma pos_set_status p st : t_id (set_status p st) = t_id p /\ t_job (set_status p st) = t_job p /\
  t_req (set_status p st) = t_req p /\ t_node (set_status p st) = t_node p /\ t_status (set_status p st) = st.
Proof. repeat split. Qed.

Lemma pos_set_node p n : t_id (set_node p n) = t_id p /\ t_job (set_node p n) = t_job p /\
  t_req (set_node p n) = t_req p /\ t_node (set_node p n) = n /\ t_status (set_node p n) = t_status p.
Proof. repeat split. Qed.

Lemma heap_ok_insert h p : heap_ok h -> nonneg (t_req p) -> heap_ok (<[t_id p := p]> h).
Proof.
  intros Hh Hnn i t. destruct (decide (i = t_id p)) as [->|Hne].
  - rewrite lookup_insert. intros [= <-]. split; [reflexivity|exact Hnn].
  - rewrite lookup_insert_ne by congruence. apply Hh.
Qed.

(* UpdateTaskStatus with ANY object of the task (the stored one or a clone with another
   status / node name): the job invariant holds over the heap in which the passed object,
   with its new status, has become the stored one *)
Theorem job_update_inv h j p st j' p' :
  heap_ok h -> job_inv h j -> t_job p = j_id j -> nonneg (t_req p) ->
  job_update h j p st = (j', p') ->
  p' = set_status p st /\ j_id j' = j_id j /\ t_id p ∈ j_tasks j' /\
  heap_ok (<[t_id p := p']> h) /\ job_inv (<[t_id p := p']> h) j'.
Proof.
  intros Hh Hj Hjob Hnn. unfold job_update. intros [= <- <-].
  set (q := set_status p st). set (h' := <[t_id p := q]> h).
  assert (Hq : h' !! t_id q = Some q) by (unfold h'; simpl; apply lookup_insert).
  split; [reflexivity|].
  assert (Hh' : heap_ok h') by (apply (heap_ok_insert h q Hh Hnn)).
  case_bool_decide as Hin.
  - pose proof Hj as (Hm & _). destruct (Hm _ Hin) as (stored & Hs & _). rewrite Hs.
    assert (Hid : t_id stored = t_id p) by (apply (Hh _ _ Hs)).
    assert (Hs' : h !! t_id stored = Some stored) by (rewrite Hid; exact Hs).
    assert (Hin' : t_id stored ∈ j_tasks j) by (rewrite Hid; exact Hin).
    pose proof (job_del_inv h j stored Hh Hj Hs' Hin') as Hd.
    assert (Hni : t_id p ∉ j_tasks (job_del j stored)) by (rewrite job_del_tasks, Hid; set_solver).
    split; [reflexivity|]. split; [rewrite job_add_tasks; set_solver|]. split; [exact Hh'|].
    apply job_add_inv; [|exact Hq|exact Hni|simpl; exact Hjob].
    eapply job_inv_ext; [|exact Hd]. apply agree_on_insert_notin. exact Hni.
  - split; [reflexivity|]. split; [rewrite job_add_tasks; set_solver|]. split; [exact Hh'|].
    apply job_add_inv; [|exact Hq|exact Hin|simpl; exact Hjob].
    eapply job_inv_ext; [|exact Hj]. apply agree_on_insert_notin. exact Hin.
Qed.
