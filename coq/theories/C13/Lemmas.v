(* C13 — proofs about the model of the queue controller.  Every statement is about
   [step] from an ARBITRARY state (any forest, any lister view, any index, any work
   queue), hence about every step of every history from every initial state; the
   history forms ([run]) are derived at the end.  The observations the statements use
   ([sst], [scbp]: state and closed-by-parent marker of a queue in a map; [proc_of]: the
   request a step processes; [target]: the state tables; [parent_blocks], [root_ok],
   [caught_up] and the [law_*] checkers) are defined in C13/Laws.v. *)
From stdpp Require Import gmap.
From Coq Require Import ZArith List Lia.
From V Require Import C13.Model C13.Laws.
Import ListNotations.
Open Scope Z_scope.

Lemma sst_insert m q o c :
  sst (<[q:=o]> m) c = if decide (c = q) then Some (q_state o) else sst m c.
Proof.
  unfold sst. destruct (decide (c = q)) as [->|].
  - by rewrite lookup_insert.
  - by rewrite lookup_insert_ne.
Qed.

Lemma scbp_insert m q o c :
  scbp (<[q:=o]> m) c = if decide (c = q) then cbp_of (q_ann o) else scbp m c.
Proof.
  unfold scbp. destruct (decide (c = q)) as [->|].
  - by rewrite lookup_insert.
  - by rewrite lookup_insert_ne.
Qed.

Lemma patch_ann_sst m q view v m' :
  patch_ann m q view v = Some m' -> forall c, sst m' c = sst m c.
Proof.
  unfold patch_ann. intros H c. repeat case_match; simplify_eq; try done;
  rewrite sst_insert; destruct (decide (c = q)); subst; unfold sst; simplify_map_eq; done.
Qed.

Lemma patch_ann_dom m q view v m' :
  patch_ann m q view v = Some m' -> forall c, is_Some (m' !! c) <-> is_Some (m !! c).
Proof.
  unfold patch_ann. intros H c. repeat case_match; simplify_eq; try done;
  destruct (decide (c = q)); subst; simplify_map_eq; split; eauto.
Qed.

Lemma patch_ann_scbp m q view v m' :
  patch_ann m q view v = Some m' ->
  forall c, scbp m' c = scbp m c \/ (c = q /\ scbp m' c = Some v /\ cbp_of view <> Some v).
Proof.
  unfold patch_ann. intros H c.
  destruct (bool_decide (cbp_of view = Some v)) eqn:E; simplify_eq; [by left|].
  apply bool_decide_eq_false in E.
  repeat case_match; simplify_eq; rewrite scbp_insert;
  (destruct (decide (c = q)); [right|left]; done).
Qed.

Lemma patch_ann_done m q view v m' :
  patch_ann m q view v = Some m' -> cbp_of view = Some v \/ scbp m' q = Some v.
Proof.
  unfold patch_ann. intros H.
  destruct (bool_decide (cbp_of view = Some v)) eqn:E; [apply bool_decide_eq_true in E; by left|].
  right. repeat case_match; simplify_eq; rewrite scbp_insert; destruct (decide (q = q)); done.
Qed.

Lemma apply_state_spec m q x m' o' :
  apply_state m q x = Some (m', o') ->
  is_Some (m !! q) /\ q_state o' = x /\
  (forall c, sst m' c = if decide (c = q) then Some x else sst m c) /\
  (forall c, scbp m' c = scbp m c) /\
  (forall c, is_Some (m' !! c) <-> is_Some (m !! c)).
Proof.
  unfold apply_state. intros H. destruct (m !! q) as [o|] eqn:E; simplify_eq.
  split; [eauto|]. split; [done|]. split; [|split].
  - intros c. rewrite sst_insert. done.
  - intros c. rewrite scbp_insert. destruct (decide (c = q)); subst; unfold scbp; rewrite ?E; done.
  - intros c. destruct (decide (c = q)); subst; simplify_map_eq; split; eauto.
Qed.

(* what a handler never touches, and that the work queue only grows *)
Definition frame (s s' : st) : Prop :=
  lst s' = lst s /\ pgl s' = pgl s /\ maxrq s' = maxrq s /\ (exists l, wq s' = wq s ++ l).

Lemma frame_refl s : frame s s.
Proof. repeat split; exists []; by rewrite app_nil_r. Qed.
Lemma frame_trans a b c : frame a b -> frame b c -> frame a c.
Proof.
  intros (?&?&?&l1&?) (?&?&?&l2&?). repeat split; try congruence.
  exists (l1 ++ l2). rewrite app_assoc. congruence.
Qed.
Lemma frame_push s r : frame s (push s r).
Proof. repeat split. by exists [r]. Qed.
Lemma frame_set_srv s m : frame s (set_srv s m).
Proof. repeat split. exists []. by rewrite app_nil_r. Qed.
Lemma frame_set_idx s l : frame s (set_idx s l).
Proof. repeat split. exists []. by rewrite app_nil_r. Qed.
Local Hint Resolve frame_refl frame_push frame_set_srv frame_set_idx : core.

(* states of all queues unchanged *)
Definition same_states (s s' : st) : Prop := forall c, sst (srv s') c = sst (srv s) c.

(* the server's queue states after a handler for q: those before, except that with [w] the
   state of q, which existed, has been overwritten with x *)
Definition writes (s s' : st) (q : positive) (x : qstate) (w : bool) : Prop :=
  (forall c, sst (srv s') c = if w && bool_decide (c = q) then Some x else sst (srv s) c) /\
  (w = true -> is_Some (sst (srv s) q)).

(* ... where the write happens only if x differs from the state [v] the handler was chosen
   for, and success without a write means that v is x already *)
Definition effect (s s' : st) (q : positive) (x v : qstate) (ok : bool) : Prop :=
  exists w : bool, writes s s' q x w /\ (w = true -> x <> v) /\ (w = false -> ok = true -> x = v).

(* pruning the index keeps the keys of PodGroups that exist *)
Definition idx_kept (s s' : st) : Prop :=
  forall x, In x (idx s) -> is_Some (pgl s !! snd x) -> In x (idx s').

Lemma writes_same s s' q x : same_states s s' -> writes s s' q x false.
Proof. intros H. split; [apply H|done]. Qed.

Lemma writes_pre s0 s s' q x w : same_states s0 s -> writes s s' q x w -> writes s0 s' q x w.
Proof. intros H [W I]. split; [intros c; by rewrite W, H|by rewrite <- H]. Qed.

Lemma is_Some_sst m q : is_Some (m !! q) -> is_Some (sst m q).
Proof. unfold sst. intros [o ->]. by eexists. Qed.

Lemma writes_apply s m q x o' s' :
  apply_state (srv s) q x = Some (m, o') -> same_states (set_srv s m) s' -> writes s s' q x true.
Proof.
  intros (I&_&A&_)%apply_state_spec S. split; [|intros _; by apply is_Some_sst].
  intros c. rewrite S. simpl. rewrite A. by destruct (decide (c = q)); [rewrite bool_decide_true|rewrite bool_decide_false].
Qed.

(* a request born of parent/child propagation while a request for queue q is processed
   (L = the lister at that moment): Event "", Open / Close, no retries yet, and its target
   is q itself (q's own sync reacting to the state the lister shows for q's parent) or a
   queue the lister shows as a CHILD of q (q's close / re-open propagating downwards) *)
Definition prop_req_at (L : qmap) (q : positive) (x : req) : Prop :=
  r_ev x = EvNone /\ r_tries x = 0%nat /\ (r_act x = AOpen \/ r_act x = AClose) /\
  (r_q x = q \/ exists co, L !! r_q x = Some co /\ q_parent co = Some q).

(* a handler for queue q that reads lister L: [frame], and what it appends to the work queue
   are propagation requests for q or its L-children *)
Definition handles (L : qmap) (q : positive) (s s' : st) : Prop :=
  frame s s' /\ exists l, wq s' = wq s ++ l /\ Forall (prop_req_at L q) l.

Lemma handles_quiet L q s s' : frame s s' -> wq s' = wq s -> handles L q s s'.
Proof. intros F H. split; [done|]. exists []. split; [by rewrite app_nil_r|constructor]. Qed.
Lemma handles_refl L q s : handles L q s s.
Proof. by apply handles_quiet. Qed.
Lemma handles_set_srv L q s m : handles L q s (set_srv s m).
Proof. by apply handles_quiet. Qed.
Lemma handles_set_idx L q s l : handles L q s (set_idx s l).
Proof. by apply handles_quiet. Qed.
Lemma handles_trans L q a b c : handles L q a b -> handles L q b c -> handles L q a c.
Proof.
  intros [F1 (l1&H1&P1)] [F2 (l2&H2&P2)]. split; [by eapply frame_trans|].
  exists (l1 ++ l2). split; [rewrite H2, H1; by rewrite app_assoc|by apply Forall_app].
Qed.
Lemma handles_push L q s c a :
  a = AOpen \/ a = AClose -> (c = q \/ exists co, L !! c = Some co /\ q_parent co = Some q) ->
  handles L q s (push s (mkReq c a EvNone 0)).
Proof. intros Ha Hc. split; [done|]. exists [mkReq c a EvNone 0]. split; [done|]. constructor; [|constructor]. by repeat split. Qed.
Local Hint Resolve handles_refl handles_set_srv handles_set_idx : core.

Lemma sync_hier_spec L s q view s' ok :
  sync_hier s q view = (s', ok) ->
  handles L q s s' /\ same_states s s' /\ idx s' = idx s.
Proof.
  unfold sync_hier. intros H.
  repeat case_match; simplify_eq; try (split; [eauto|split; [by intros c|done]]).
  - apply handles_push; [auto|by left].
  - split; [eapply handles_trans; [apply handles_set_srv|apply handles_push; [auto|by left]]|].
    split; [|done]. intros c. simpl. eapply patch_ann_sst; eauto.
  - split; [eapply handles_trans; [apply handles_set_srv|apply handles_push; [auto|by left]]|].
    split; [|done]. intros c. simpl. eapply patch_ann_sst; eauto.
Qed.

Lemma ins_pos_In k l x : In x (ins_pos k l) <-> x = k \/ In x l.
Proof.
  induction l as [|k' l IH]; simpl; [naive_solver|].
  destruct (Pos.leb k k'); simpl; [naive_solver|]. rewrite IH. naive_solver.
Qed.
Lemma sort_pos_In l x : In x (sort_pos l) <-> In x l.
Proof.
  induction l as [|k l IH]; simpl; [done|]. rewrite ins_pos_In, IH. naive_solver.
Qed.

Lemma children_In s q c co :
  In (c, co) (children s q) <-> lst s !! c = Some co /\ q_parent co = Some q.
Proof.
  unfold children. rewrite in_flat_map. split.
  - intros (x&_&Hx). destruct (lst s !! x) as [o|] eqn:E; [|done].
    destruct (bool_decide (q_parent o = Some q)) eqn:E1; [|done].
    apply bool_decide_eq_true in E1. destruct Hx as [Hx|[]]. by simplify_eq.
  - intros [Hc Hp]. exists c. split.
    + unfold lister_names. rewrite sort_pos_In. apply in_map_iff. exists (c, co). split; [done|].
      apply elem_of_list_In, elem_of_map_to_list. done.
    + rewrite Hc. rewrite bool_decide_true by done. by left.
Qed.

Definition child_list (L : qmap) (q : positive) (l : list (positive * qobj)) : Prop :=
  forall cc, In cc l -> L !! fst cc = Some (snd cc) /\ q_parent (snd cc) = Some q.

Lemma children_child_list s q : child_list (lst s) q (children s q).
Proof. intros [c co] H. apply children_In in H. done. Qed.

Lemma child_list_tl L q cc l : child_list L q (cc :: l) -> child_list L q l.
Proof. intros Hl x Hx. apply Hl. by right. Qed.

Lemma fold_open_spec L q (l : list (positive * qobj)) : child_list L q l -> forall s,
  let s' := fold_left (fun s' cc => if cbp_true (q_ann (snd cc)) then push s' (mkReq (fst cc) AOpen EvNone 0) else s') l s in
  handles L q s s' /\ srv s' = srv s /\ idx s' = idx s.
Proof.
  induction l as [|cc l IH]; intros Hl s; simpl; [eauto|].
  specialize (IH (child_list_tl _ _ _ _ Hl)). destruct (cbp_true (q_ann cc.2)); [|apply IH].
  destruct (IH (push s (mkReq cc.1 AOpen EvNone 0))) as (F&?&?). split; [|done].
  eapply handles_trans; [|exact F]. apply handles_push; [auto|]. right. exists cc.2. apply Hl. by left.
Qed.

Lemma open_hier_spec s q view s' ok :
  open_hier s q view = (s', ok) -> handles (lst s) q s s' /\ srv s' = srv s /\ idx s' = idx s.
Proof.
  unfold open_hier. intros H. case_match; simplify_eq; [eauto|].
  apply fold_open_spec, children_child_list.
Qed.

Lemma close_children_spec L q l : child_list L q l -> forall s s' ok,
  close_children s l = (s', ok) -> handles L q s s' /\ same_states s s' /\ idx s' = idx s.
Proof.
  induction l as [|[c co] l IH]; intros Hl s s' ok H; simpl in H; simplify_eq; [by eauto|].
  specialize (IH (child_list_tl _ _ _ _ Hl)). destruct (is_closedish (q_state co)); [by eapply IH|].
  destruct (patch_ann (srv s) c (q_ann co) true) as [m|] eqn:E; simplify_eq; [|by eauto].
  apply IH in H as (F&S&I). split; [|split].
  - eapply handles_trans; [|exact F]. eapply handles_trans; [apply handles_set_srv|].
    apply handles_push; [auto|]. right. exists co. apply (Hl (c, co)). by left.
  - intros x. rewrite S. simpl. eapply patch_ann_sst; eauto.
  - rewrite I. done.
Qed.

(* [sync_queue] after its optional patch of spec.parent: s1 is the state and v1 the object it
   continues with *)
Definition sync_tail (s1 : st) (q : positive) (view v1 : qobj) (fn : nat -> qstate) : st * bool :=
  let s2 := set_idx s1 (filter (fun qp => negb (bool_decide (fst qp = q) &&
                                                  bool_decide (pgl s1 !! snd qp = None))) (idx s1)) in
  let new := fn (length (pgs_of (idx s1) q)) in
  if bool_decide (new = q_state view) then sync_hier s2 q v1
  else match apply_state (srv s2) q new with
       | None => (s2, false)
       | Some (m, o') => sync_hier (set_srv s2 m) q o'
       end.

Lemma sync_queue_tail s q view fn :
  sync_queue s q view fn =
  if bool_decide (q = root) || bool_decide (is_Some (q_parent view)) then sync_tail s q view view fn
  else match srv s !! q with
       | None => (s, false)
       | Some o => let o' := with_parent o (Some root) in sync_tail (set_srv s (<[q := o']> (srv s))) q view o' fn
       end.
Proof. unfold sync_queue. destruct (_ || _); [done|]. by destruct (srv s !! q). Qed.

Lemma sync_tail_spec L s1 q view v1 fn s' ok :
  sync_tail s1 q view v1 fn = (s', ok) ->
  handles L q s1 s' /\ effect s1 s' q (fn (length (pgs_of (idx s1) q))) (q_state view) ok /\ idx_kept s1 s'.
Proof.
  unfold sync_tail. intros H.
  assert (K : idx_kept s1 (set_idx s1 (filter (fun qp => negb (bool_decide (fst qp = q) &&
                bool_decide (pgl s1 !! snd qp = None))) (idx s1)))).
  { intros x Hx [y Hy]. apply filter_In. split; [done|]. rewrite Hy.
    rewrite (bool_decide_false (Some y = None)) by done. by rewrite andb_false_r. }
  destruct (bool_decide _) eqn:E1.
  - apply bool_decide_eq_true in E1. apply (sync_hier_spec L) in H as (F&S&I).
    split; [eapply handles_trans; [apply handles_set_idx|done]|]. split; [|intros x Hx Hy; rewrite I; by apply K].
    exists false. split; [by apply writes_same|done].
  - apply bool_decide_eq_false in E1. destruct (apply_state _ _ _) as [[m o']|] eqn:E2; simplify_eq.
    + apply (sync_hier_spec L) in H as (F&S&I). split.
      { eapply handles_trans; [apply handles_set_idx|]. eapply handles_trans; [apply handles_set_srv|done]. }
      split; [|intros x Hx Hy; rewrite I; by apply K]. exists true. split; [|done]. by eapply writes_apply.
    + split; [apply handles_set_idx|]. split; [|done]. exists false. split; [by apply writes_same|done].
Qed.

Lemma sync_queue_spec L s q view fn s' ok :
  sync_queue s q view fn = (s', ok) ->
  handles L q s s' /\ effect s s' q (fn (length (pgs_of (idx s) q))) (q_state view) ok /\ idx_kept s s'.
Proof.
  rewrite sync_queue_tail. intros H. destruct (_ || _); [by apply (sync_tail_spec L) in H|].
  destruct (srv s !! q) as [o|] eqn:E; simplify_eq.
  2:{ split; [done|]. split; [|by intros x]. exists false. split; [by apply writes_same|done]. }
  apply (sync_tail_spec L) in H as (F&(w&W&?)&K).
  split; [eapply handles_trans; [apply handles_set_srv|done]|]. split; [|done].
  exists w. split; [|done]. eapply writes_pre; [|exact W].
  intros c. simpl. rewrite sst_insert. destruct (decide (c = q)) as [->|]; [|done]. unfold sst. by rewrite E.
Qed.

Lemma open_queue_spec s q view s' ok :
  open_queue s q view = (s', ok) ->
  handles (lst s) q s s' /\ effect s s' q SOpen (q_state view) ok /\ idx s' = idx s.
Proof.
  unfold open_queue. intros H.
  destruct (bool_decide (q_state view = SOpen)) eqn:E0.
  - apply bool_decide_eq_true in E0. simpl in H.
    assert (same_states s s' /\ handles (lst s) q s s' /\ idx s' = idx s) as (S&F&I).
    { destruct (patch_ann (srv s) q (q_ann view) false) as [m|] eqn:E1; simplify_eq; [|by eauto].
      split; [|by eauto]. intros c. simpl. eapply patch_ann_sst; eauto. }
    split; [done|]. split; [|done]. exists false. split; [by apply writes_same|done].
  - apply bool_decide_eq_false in E0.
    destruct (open_hier s q view) as [s1 ok1] eqn:E1. apply open_hier_spec in E1 as (F1&S1&I1).
    assert (S1' : same_states s s1) by (intros c; by rewrite S1).
    destruct ok1; simpl in H; simplify_eq.
    2:{ split; [done|]. split; [|done]. exists false. split; [by apply writes_same|done]. }
    destruct (apply_state (srv s1) q SOpen) as [[m o']|] eqn:E2; simplify_eq.
    2:{ split; [done|]. split; [|done]. exists false. split; [by apply writes_same|done]. }
    assert (same_states (set_srv s1 m) s' /\ handles (lst s) q s1 s' /\ idx s' = idx s) as (S&F&I).
    { destruct (patch_ann (srv (set_srv s1 m)) q (q_ann view) false) as [m2|] eqn:E3; simplify_eq.
      - split; [|split; [eapply handles_trans; apply handles_set_srv|done]].
        intros c. simpl. eapply patch_ann_sst; eauto.
      - split; [by intros c|]. split; [apply handles_set_srv|done]. }
    split; [by eapply handles_trans|]. split; [|done]. exists true. split; [|done].
    eapply writes_pre; [exact S1'|]. by eapply writes_apply.
Qed.

(* the root is not closed: the request succeeds without a call *)
Lemma close_queue_spec s q view fn s' ok :
  close_queue s q view fn = (s', ok) ->
  handles (lst s) q s s' /\ idx s' = idx s /\
  if negb (is_closedish (q_state view)) && bool_decide (q = root) then same_states s s'
  else effect s s' q (fn (length (pgs_of (idx s) q))) (q_state view) ok.
Proof.
  unfold close_queue. intros H.
  destruct (negb (is_closedish (q_state view)) && bool_decide (q = root)); simplify_eq; [by eauto|].
  destruct (if is_closedish (q_state view) then (s, true) else close_children s (children s q)) as [s1 ok1] eqn:E1.
  assert (handles (lst s) q s s1 /\ same_states s s1 /\ idx s1 = idx s) as (F1&S1&I1).
  { destruct (is_closedish (q_state view)); simplify_eq; [by eauto|]. eapply close_children_spec; [apply children_child_list|done]. }
  rewrite I1 in H. destruct ok1; simpl in H; simplify_eq.
  2:{ split; [done|]. split; [done|]. exists false. split; [by apply writes_same|done]. }
  destruct (bool_decide _) eqn:E2; simplify_eq.
  { apply bool_decide_eq_true in E2. split; [done|]. split; [done|]. exists false. split; [by apply writes_same|done]. }
  apply bool_decide_eq_false in E2.
  destruct (apply_state (srv s1) q _) as [[m o']|] eqn:E3; simplify_eq.
  2:{ split; [done|]. split; [done|]. exists false. split; [by apply writes_same|done]. }
  split; [eapply handles_trans; [exact F1|apply handles_set_srv]|]. split; [done|]. exists true. split; [|done].
  eapply writes_pre; [exact S1|]. eapply writes_apply; [exact E3|by intros c].
Qed.

Lemma effect_exec s s' q x v ok (R : Prop) :
  effect s s' q x v ok -> R ->
  exists w : bool, writes s s' q x w /\ (w = true -> x <> v /\ R) /\ (w = false -> ok = true -> q <> root -> x = v).
Proof. intros (w&W&H1&H2) HR. exists w. split; [done|]. split; [by auto|by auto]. Qed.

(* The handler the state tables choose for a request with action a for queue q, whose lister
   object is [view]: the server's states are as before except that q's may be overwritten
   with the tables' target x; it is overwritten only if x differs from the lister's state,
   never when the root is to be closed, and success without a write means that the lister's
   state is x already. *)
Lemma exec_spec s q view a s' ok :
  exec s q view a = (s', ok) ->
  let x := target (q_state view) a (length (pgs_of (idx s) q)) in
  handles (lst s) q s s' /\ idx_kept s s' /\
  exists w : bool, writes s s' q x w /\
    (w = true -> x <> q_state view /\ (q = root -> a = AClose -> is_closedish (q_state view) = true)) /\
    (w = false -> ok = true -> q <> root -> x = q_state view).
Proof.
  assert (KI : forall s', idx s' = idx s -> idx_kept s s') by (intros ? I x Hx _; by rewrite I).
  unfold exec. intros H. destruct (q_state view) eqn:Ex, a; simpl;
  try (apply (sync_queue_spec (lst s)) in H as (F&E&K); rewrite Ex in E; split; [done|]; split; [done|]; by apply (effect_exec _ _ _ _ _ _ _ E));
  try (apply open_queue_spec in H as (F&E&I); rewrite Ex in E; split; [done|]; split; [by apply KI|]; by apply (effect_exec _ _ _ _ _ _ _ E));
  try (simplify_eq; split; [done|]; split; [by intros x|]; exists false; split; [by apply writes_same|done]).
  all: apply close_queue_spec in H as (F&I&E); rewrite Ex in E; simpl in E; split; [done|]; split; [by apply KI|].
  all: destruct (bool_decide (q = root)) eqn:Er;
    [apply bool_decide_eq_true in Er; exists false; split; [by apply writes_same|done]|].
  all: apply bool_decide_eq_false in Er; by apply (effect_exec _ _ _ _ _ _ _ E).
Qed.

Lemma srv_set_wq s l : srv (set_wq s l) = srv s. Proof. done. Qed.

(* the same of a processing step and its request *)
Lemma proc_spec s i : let s' := (proc s i).1 in
  lst s' = lst s /\
  match proc_of s (EProc i) with
  | None => srv s' = srv s
  | Some (r, v) =>
    let x := target (q_state v) (r_act r) (length (pgs_of (idx s) (r_q r))) in
    exists w : bool, writes s s' (r_q r) x w /\
      (w = true -> x <> q_state v /\ (r_q r = root -> r_act r = AClose -> is_closedish (q_state v) = true)) /\
      (w = false -> (proc s i).2 = OOk -> r_q r <> root -> x = q_state v)
  end.
Proof.
  unfold proc. simpl. destruct (nth_error (wq s) i) as [r|] eqn:E; simpl; [|done].
  destruct (lst s !! r_q r) as [v|] eqn:E1; simpl; [|done].
  destruct (exec _ _ _ _) as [s1 ok] eqn:E2.
  apply exec_spec in E2 as (((L&_)&_)&_&w&W&H1&H2). simpl in *.
  destruct ok; [by eauto 6|]. split; [by destruct (_ || _)|]. exists w.
  split; [by destruct (_ || _)|]. split; [done|]. intros _ Ho. by destruct (_ || _).
Qed.

(* an injected API fault: the step on the state that hides the queue *)
Lemma sst_hide s c q : sst (srv (hide s c)) q = if decide (q = c) then None else sst (srv s) q.
Proof.
  unfold hide, sst. simpl. destruct (decide (q = c)) as [->|].
  - by rewrite lookup_delete.
  - by rewrite lookup_delete_ne.
Qed.

Lemma hide_absent s c : srv s !! c = None -> srv (hide s c) = srv s.
Proof. intros H. unfold hide. simpl. by apply delete_notin. Qed.

Lemma procF_fst s i c : (proc_f s i c).1 = restore s c (proc (hide s c) i).1.
Proof. unfold proc_f. by destruct (proc (hide s c) i). Qed.
Lemma procF_snd s i c : (proc_f s i c).2 = (proc (hide s c) i).2.
Proof. unfold proc_f. by destruct (proc (hide s c) i). Qed.

Lemma restore_fields s c s1 :
  lst (restore s c s1) = lst s1 /\ pgl (restore s c s1) = pgl s1 /\ idx (restore s c s1) = idx s1 /\
  wq (restore s c s1) = wq s1 /\ maxrq (restore s c s1) = maxrq s1.
Proof. unfold restore. by destruct (srv s !! c). Qed.

Lemma sst_restore s c s1 q :
  sst (srv (restore s c s1)) q =
  if decide (q = c) then (match srv s !! c with Some o => Some (q_state o) | None => sst (srv s1) q end)
  else sst (srv s1) q.
Proof.
  unfold restore. destruct (srv s !! c) as [o|] eqn:E; simpl.
  - rewrite sst_insert. destruct (decide (q = c)); done.
  - by destruct (decide (q = c)).
Qed.

(* what the step on the hiding state writes is what the faulted step writes: the hidden
   queue cannot be the one written, and it comes back with its state *)
Lemma writes_fault s c s1 q x w : writes (hide s c) s1 q x w -> writes s (restore s c s1) q x w.
Proof.
  intros [W I].
  assert (Hq : w = true -> is_Some (sst (srv s) q) /\ q <> c).
  { intros [y Hy]%I. rewrite sst_hide in Hy. destruct (decide (q = c)); [done|eauto]. }
  split; [|by intros (?&_)%Hq]. intros c'. rewrite sst_restore. destruct (decide (c' = c)) as [->|Hne].
  - rewrite W, sst_hide, decide_True by done.
    replace (w && bool_decide (c = q)) with false.
    2:{ destruct w; [|done]. destruct (Hq eq_refl) as [_ ?]. by rewrite bool_decide_false. }
    unfold sst. by destruct (srv s !! c).
  - by rewrite W, sst_hide, decide_False.
Qed.

(* an event that processes no request (a handler; a processing step, faulted or not, that
   finds no request or no lister object) leaves the state of every existing queue alone, and
   a queue it creates is "" *)
Lemma step_idle s e c b :
  proc_of s e = None -> sst (srv (step s e).1) c = Some b ->
  match sst (srv s) c with Some a => a = b | None => b = SEmpty end.
Proof.
  intros P Hb.
  assert (X : forall s', srv s' = srv s -> sst (srv s') c = Some b -> match sst (srv s) c with Some a => a = b | None => b = SEmpty end).
  { intros s' -> ->. done. }
  destruct e as [q a|pg q ph|pg q ph|pg|pg|pg q|q p|q p|q|q|q|i|i c0]; simpl in Hb;
    try (by apply (X _ eq_refl)); try (eapply X; [|exact Hb]; by repeat case_match).
  - destruct (srv s !! q) eqn:E; simpl in Hb; [by apply (X _ eq_refl)|].
    rewrite sst_insert in Hb. destruct (decide (c = q)) as [->|]; [|by apply (X _ eq_refl)].
    unfold sst. rewrite E. simpl in Hb. congruence.
  - destruct (srv s !! q) eqn:E; simpl in Hb; [|by apply (X _ eq_refl)].
    rewrite sst_insert in Hb. destruct (decide (c = q)) as [->|]; [|by apply (X _ eq_refl)].
    unfold sst. rewrite E. simpl in *. congruence.
  - unfold sst in *. destruct (decide (c = q)) as [->|].
    + by rewrite lookup_delete in Hb.
    + rewrite lookup_delete_ne in Hb by done. by rewrite Hb.
  - pose proof (proc_spec s i) as (_&Q). rewrite P in Q. by apply (X _ Q).
  - rewrite procF_fst, sst_restore in Hb. pose proof (proc_spec (hide s c0) i) as (_&Q).
    change (proc_of (hide s c0) (EProc i)) with (proc_of s (EProcF i c0)) in Q. rewrite P in Q.
    rewrite Q, sst_hide in Hb. destruct (decide (c = c0)) as [->|]; [|by rewrite Hb].
    unfold sst. destruct (srv s !! c0); simpl in *; congruence.
Qed.

(* a processing step, faulted or not: [exec_spec] read on the server *)
Lemma step_writes s e r v :
  proc_of s e = Some (r, v) ->
  let x := target (q_state v) (r_act r) (length (pgs_of (idx s) (r_q r))) in
  exists w : bool, writes s (step s e).1 (r_q r) x w /\
    (w = true -> x <> q_state v /\ (r_q r = root -> r_act r = AClose -> is_closedish (q_state v) = true)).
Proof.
  intros P. destruct e; try done; simpl in *.
  - pose proof (proc_spec s i) as (_&Q). simpl in Q. rewrite P in Q. destruct Q as (w&W&H1&_). eauto.
  - rewrite procF_fst. pose proof (proc_spec (hide s c) i) as (_&Q). simpl in Q. rewrite P in Q.
    destruct Q as (w&W&H1&_). exists w. split; [by apply writes_fault|done].
Qed.

Theorem only_by_request s e q a b :
  sst (srv s) q = Some a -> sst (srv (step s e).1) q = Some b -> a <> b ->
  exists r v, proc_of s e = Some (r, v) /\ r_q r = q /\
              b = target (q_state v) (r_act r) (length (pgs_of (idx s) q)).
Proof.
  intros Ha Hb Hab. destruct (proc_of s e) as [[r v]|] eqn:P.
  - destruct (step_writes s e r v P) as (w&[W _]&_). rewrite W, Ha in Hb.
    destruct w; simpl in Hb; [|congruence]. case_bool_decide; [subst|congruence]. exists r, v. split; [done|]. split; congruence.
  - pose proof (step_idle s e q b P Hb) as X. by rewrite Ha in X.
Qed.

Lemma proc_of_inv s e r v :
  proc_of s e = Some (r, v) ->
  exists i, (e = EProc i \/ exists c, e = EProcF i c) /\ nth_error (wq s) i = Some r /\ lst s !! r_q r = Some v.
Proof.
  unfold proc_of. intros H. destruct e; try done;
  (destruct (nth_error (wq s) i) as [r'|] eqn:E; [|done];
   destruct (lst s !! r_q r') as [v'|] eqn:E1; [|done]; simplify_eq; eauto 6).
Qed.

Lemma proc_of_clean_inv s e r v :
  proc_of_clean s e = Some (r, v) ->
  exists i, e = EProc i /\ nth_error (wq s) i = Some r /\ lst s !! r_q r = Some v.
Proof.
  unfold proc_of_clean. intros H. destruct e; try done.
  apply proc_of_inv in H as (j&[[= ->]|[c [=]]]&?&?). eauto.
Qed.

Lemma closeish_closed n : closeish n = SClosed -> n = 0%nat.
Proof. by destruct n. Qed.

(* Since the repair of syncQueue (compare with the state the update function was chosen for)
   this holds WITHOUT any freshness hypothesis on the lister. *)
Theorem closed_only_when_empty s e q a :
  sst (srv s) q = Some a -> a <> SClosed -> sst (srv (step s e).1) q = Some SClosed ->
  pgs_of (idx s) q = [].
Proof.
  intros Ha Hne Hb.
  destruct (only_by_request s e q a SClosed) as (r&v&P&<-&T); try done.
  destruct (decide (q_state v = SClosed)) as [Hx|Hx].
  { (* the lister shows Closed: nothing is written *)
    destruct (step_writes s e r v P) as (w&[W _]&H1). rewrite <- T in H1. rewrite W, Ha in Hb.
    destruct w; [by destruct (H1 eq_refl)|]. simpl in Hb. congruence. }
  destruct (r_act r), (q_state v); simpl in T; try done;
  symmetry in T; apply closeish_closed in T; by apply nil_length_inv.
Qed.

Definition root_okP (s : st) : Prop :=
  (forall x, sst (srv s) root = Some x -> is_closedish x = false) /\
  (forall x, sst (lst s) root = Some x -> is_closedish x = false).

Lemma root_ok_iff s : root_ok s = true <-> root_okP s.
Proof.
  unfold root_ok, root_okP. split.
  - intros [H1 H2]%andb_true_iff. split; intros x Hx; rewrite Hx in *; by apply negb_true_iff.
  - intros [H1 H2]. apply andb_true_iff. split.
    + destruct (sst (srv s) root) as [x|]; [|done]. apply negb_true_iff. by apply H1.
    + destruct (sst (lst s) root) as [x|]; [|done]. apply negb_true_iff. by apply H2.
Qed.

(* the lister changes only by a delivery *)
Lemma step_lst s e x :
  sst (lst (step s e).1) root = Some x ->
  sst (lst s) root = Some x \/ sst (srv s) root = Some x.
Proof.
  destruct e as [q a|pg q ph|pg q ph|pg|pg|pg q|q p|q p|q|q|q|i|i c]; simpl;
    try (repeat case_match; simpl; by left).
  - destruct (srv s !! q) as [o|] eqn:E, (lst s !! q) as [o0|] eqn:E0; simpl; [| | |by left].
    + destruct (_ && _); simpl; rewrite sst_insert; destruct (decide (root = q)); subst; try (by left);
      intros; right; unfold sst; rewrite E; done.
    + rewrite sst_insert; destruct (decide (root = q)); subst; try (by left).
      intros; right; unfold sst; rewrite E; done.
    + unfold sst. destruct (decide (root = q)); subst.
      * by rewrite lookup_delete.
      * rewrite lookup_delete_ne by done. by left.
  - pose proof (proc_spec s i) as (->&_). by left.
  - rewrite procF_fst. destruct (restore_fields s c (proc (hide s c) i).1) as (->&_).
    pose proof (proc_spec (hide s c) i) as (->&_). by left.
Qed.

Lemma step_absent s e q x :
  sst (srv s) q = None -> sst (srv (step s e).1) q = Some x -> x = SEmpty.
Proof.
  intros Ha Hx. destruct (proc_of s e) as [[r v]|] eqn:P.
  - destruct (step_writes s e r v P) as (w&[W I]&_). rewrite W, Ha in Hx.
    destruct w; [|done]. simpl in Hx. case_bool_decide; [subst|done]. destruct (I eq_refl). congruence.
  - pose proof (step_idle s e q x P Hx) as X. by rewrite Ha in X.
Qed.

Theorem root_never_closed_step s e : root_okP s -> root_okP (step s e).1.
Proof.
  intros [Hs Hl]. split.
  2:{ intros x Hx. apply step_lst in Hx as [?|?]; eauto. }
  intros x Hx.
  destruct (sst (srv s) root) as [a|] eqn:Ha.
  2:{ assert (x = SEmpty) as -> by (eapply step_absent; eauto). done. }
  destruct (decide (a = x)) as [->|Hax]; [by apply Hs|].
  destruct (only_by_request s e root a x) as (r&v&P&Hr&T); try done.
  assert (Hc : is_closedish (q_state v) = false).
  { apply proc_of_inv in P as (i&_&Hn&Hv). apply Hl. unfold sst. rewrite <- Hr, Hv. done. }
  destruct (r_act r) eqn:Ea; [by subst| |subst; by destruct (q_state v)..].
  (* the root is not closed: nothing is written *)
  destruct (step_writes s e r v P) as (w&[W _]&H1). rewrite Hr in W. rewrite W, Ha in Hx.
  destruct w; [|simpl in Hx; congruence]. destruct (H1 eq_refl) as [_ R]. rewrite R in Hc; done.
Qed.

Theorem root_never_closed s h : root_okP s -> root_okP (run s h).
Proof.
  unfold run. revert s. induction h as [|e h IH]; intros s H; simpl; [done|].
  apply IH. by apply root_never_closed_step.
Qed.

Theorem no_open_under_closed_parent s i r v :
  nth_error (wq s) i = Some r -> lst s !! r_q r = Some v -> r_act r = AOpen ->
  parent_blocks s v = true -> q_state v <> SOpen -> q_state v <> SEmpty ->
  (proc s i).2 = OErr /\ srv (proc s i).1 = srv s.
Proof.
  intros Hn Hv Ha Hp H1 H2. unfold proc. rewrite Hn, Hv, Ha.
  assert (Hoh : forall s0, lst s0 = lst s -> open_hier s0 (r_q r) v = (s0, false)).
  { intros s0 Hl. unfold open_hier. unfold parent_blocks in Hp. rewrite Hl.
    destruct (q_parent v) as [p|]; [|done].
    destruct (bool_decide (p = root)); [done|].
    destruct (lst s !! p) as [po|]; [|done]. rewrite Hp. done. }
  unfold exec, open_queue.
  destruct (q_state v) eqn:Ex; try done;
  try (rewrite bool_decide_false by done; rewrite Hoh by done; simpl;
       destruct (_ || _); done).
  simpl. destruct (_ || _); done.
Qed.

Theorem close_result s i r v :
  nth_error (wq s) i = Some r -> lst s !! r_q r = Some v -> r_act r = AClose ->
  (proc s i).2 = OOk -> r_q r <> root -> q_state v <> SClosed -> q_state v <> SInvalid ->
  sst (srv s) (r_q r) = Some (q_state v) ->
  sst (srv (proc s i).1) (r_q r) = Some (closeish (length (pgs_of (idx s) (r_q r)))).
Proof.
  intros Hn Hv Ha Ho Hr H1 _ Hf. pose proof (proc_spec s i) as (_&Q). simpl in Q. rewrite Hn, Hv, Ha in Q.
  replace (target (q_state v) AClose _) with (closeish (length (pgs_of (idx s) (r_q r)))) in Q by (by destruct (q_state v)).
  destruct Q as (w&[W _]&_&H3). rewrite W. destruct w; simpl; [by rewrite bool_decide_true|].
  rewrite Hf. f_equal. symmetry. by apply H3.
Qed.

Lemma fold_open_wq (l : list (positive * qobj)) : forall s,
  wq (fold_left (fun s' cc => if cbp_true (q_ann (snd cc)) then push s' (mkReq (fst cc) AOpen EvNone 0) else s') l s) =
  wq s ++ map (fun cc => mkReq (fst cc) AOpen EvNone 0) (filter (fun cc => cbp_true (q_ann (snd cc))) l).
Proof.
  induction l as [|cc l IH]; intros s; simpl; [by rewrite app_nil_r|].
  rewrite IH. destruct (cbp_true (q_ann cc.2)) eqn:E; [|done].
  simpl. by rewrite <- app_assoc.
Qed.

Definition reopen_reqs (s : st) (q : positive) : list req :=
  map (fun cc => mkReq (fst cc) AOpen EvNone 0)
      (filter (fun cc : positive * qobj => cbp_true (q_ann (snd cc))) (children s q)).

Lemma close_children_keeps_true l : forall s s' ok c,
  close_children s l = (s', ok) -> scbp (srv s) c = Some true -> scbp (srv s') c = Some true.
Proof.
  induction l as [|[c1 co1] l IH]; intros s s' ok c H Hs; simpl in H; [by simplify_eq|].
  destruct (is_closedish (q_state co1)); [by eapply IH|].
  destruct (patch_ann (srv s) c1 (q_ann co1) true) as [m1|] eqn:E; [|by simplify_eq].
  eapply IH; [exact H|]. simpl.
  destruct (patch_ann_scbp _ _ _ _ _ E c) as [->|(_&->&_)]; done.
Qed.

Lemma close_children_ok L q l : child_list L q l -> forall s s',
  close_children s l = (s', true) ->
  forall c co, In (c, co) l -> is_closedish (q_state co) = false ->
    (cbp_of (q_ann co) = Some true \/ scbp (srv s') c = Some true) /\
    In (mkReq c AClose EvNone 0) (wq s').
Proof.
  induction l as [|[c0 co0] l IH]; intros Hl s s' H c co Hin Hc; simpl in *; [done|].
  apply child_list_tl in Hl. specialize (IH Hl).
  destruct (is_closedish (q_state co0)) eqn:E0.
  - destruct Hin as [Heq|Hin]; [simplify_eq; congruence|]. eapply IH; eauto.
  - destruct (patch_ann (srv s) c0 (q_ann co0) true) as [m|] eqn:E1; [|done].
    destruct Hin as [Heq|Hin]; [|eapply IH; eauto]. simplify_eq.
    pose proof (close_children_spec L q _ Hl _ _ _ H) as (((_&_&_&l'&Hw)&_)&_&_).
    split.
    + destruct (patch_ann_done _ _ _ _ _ E1) as [?|Hm]; [by left|]. right.
      eapply close_children_keeps_true; [exact H|]. done.
    + rewrite Hw. simpl. apply in_or_app. left. apply in_or_app. right. by left.
Qed.

Lemma law_only_by_request_holds s e : law_only_by_request s e (step s e).1 = true.
Proof.
  unfold law_only_by_request. apply forallb_forall. intros q _. unfold changed.
  destruct (sst (srv s) q) as [a|] eqn:Ha; [|done].
  destruct (sst (srv (step s e).1) q) as [b|] eqn:Hb; [|done].
  destruct (decide (a = b)); [by rewrite bool_decide_true|].
  rewrite bool_decide_false by done. simpl.
  destruct (only_by_request s e q a b) as (r&v&->&<-&->); try done.
  rewrite !bool_decide_true; done.
Qed.

Lemma law_closed_only_when_empty_holds s e : law_closed_only_when_empty s e (step s e).1 = true.
Proof.
  unfold law_closed_only_when_empty. apply forallb_forall. intros q _. unfold changed.
  destruct (sst (srv s) q) as [a|] eqn:Ha; [|done].
  destruct (sst (srv (step s e).1) q) as [b|] eqn:Hb; [|done].
  destruct (decide (a = b)); [by rewrite bool_decide_true|].
  rewrite bool_decide_false by done. simpl.
  destruct (decide (b = SClosed)) as [->|]; [|by rewrite bool_decide_false by congruence].
  rewrite bool_decide_true by done. simpl.
  rewrite bool_decide_true; [done|]. by apply (closed_only_when_empty s e q a).
Qed.

Lemma law_root_never_closed_holds s e : law_root_never_closed s e (step s e).1 = true.
Proof.
  unfold law_root_never_closed. destruct (root_ok s) eqn:E; [|done]. simpl.
  apply root_ok_iff, root_never_closed_step, root_ok_iff. done.
Qed.

Lemma law_no_open_under_closed_parent_holds s e :
  law_no_open_under_closed_parent s e (step s e).1 (step s e).2 = true.
Proof.
  unfold law_no_open_under_closed_parent. destruct (proc_of_clean s e) as [[r v]|] eqn:P; [|done].
  apply proc_of_clean_inv in P as (i&->&Hn&Hv). simpl.
  destruct (parent_blocks s v) eqn:E2; [|by rewrite andb_false_r].
  repeat case_bool_decide; try done; destruct (no_open_under_closed_parent s i r v); done.
Qed.

Lemma law_close_result_holds s e : law_close_result s e (step s e).1 (step s e).2 = true.
Proof.
  unfold law_close_result. destruct (proc_of_clean s e) as [[r v]|] eqn:P; [|done].
  apply proc_of_clean_inv in P as (i&->&Hn&Hv). simpl.
  repeat case_bool_decide; try done. exfalso.
  apply H5, (close_result s i r v); try done. rewrite <- H4. unfold sst. by rewrite Hv.
Qed.

(* non-vacuity: a forest on which the hypotheses of the theorems hold *)
Definition ex_state : st :=
  mkSt (list_to_map [(1%positive, mkQ None SOpen None); (2%positive, mkQ (Some 1%positive) SOpen None);
                     (3%positive, mkQ (Some 2%positive) SOpen None); (4%positive, mkQ (Some 2%positive) SClosed None)])
       (list_to_map [(1%positive, mkQ None SOpen None); (2%positive, mkQ (Some 1%positive) SOpen None);
                     (3%positive, mkQ (Some 2%positive) SOpen None); (4%positive, mkQ (Some 2%positive) SClosed None)])
       (list_to_map [(1%positive, (2%positive, 1))]) [(2%positive, 1%positive)] [] 3.

(* close q2 (one PodGroup): Closing, child q3 marked and closed, q4 (closed by hand)
   untouched; delete the PodGroup: Closed; re-open: q3 re-opened, q4 stays closed.
   After every processed request the informer delivers all queues. *)
Definition sync_all : list ev := [ELSync 1; ELSync 2; ELSync 3; ELSync 4].
Definition drain1 : list ev := EProc 0 :: sync_all.
Definition ex_phase1 : list ev := [ECmd 2 AClose] ++ drain1 ++ drain1 ++ drain1 ++ drain1.
Definition ex_phase2 : list ev := ex_phase1 ++ [EPgDel 1] ++ drain1 ++ drain1 ++ drain1.
Definition ex_history : list ev := ex_phase2 ++ [ECmd 2 AOpen] ++ drain1 ++ drain1 ++ drain1 ++ drain1.

Example ex_nonvacuous :
  root_okP ex_state /\
  (let s := run ex_state ex_phase1 in
   sst (srv s) 2 = Some SClosing /\ sst (srv s) 3 = Some SClosed /\ scbp (srv s) 3 = Some true /\
   scbp (srv s) 4 = None /\ wq s = []) /\
  sst (srv (run ex_state ex_phase2)) 2 = Some SClosed /\
  let s := run ex_state ex_history in
  sst (srv s) 2 = Some SOpen /\ sst (srv s) 3 = Some SOpen /\ sst (srv s) 4 = Some SClosed /\
  scbp (srv s) 3 = Some false /\ wq s = [].
Proof. split; [split; intros x Hx; vm_compute in Hx; by simplify_eq|]. vm_compute. repeat split. Qed.

Definition q2 : positive := 2%positive.
Definition q3 : positive := 3%positive.

(* race A (known finding C13-stale-lister-sync-overwrites-open): q2 Closing with one
   PodGroup; Open processed; lister not delivered; PodGroup deleted; Sync processed
   (witness of C13_sync_never_opens_or_closes_full_refuted) *)
Definition raceA_init : st :=
  let m : qmap := list_to_map [(1%positive, mkQ None SOpen None); (q2, mkQ (Some 1%positive) SClosing None)] in
  mkSt m m (list_to_map [(1%positive, (q2, 1))]) [(q2, 1%positive)] [] 3.
Definition raceA_state : st := run raceA_init [ECmd q2 AOpen; EProc 0; EPgDel 1].

(* race C: parent q2 closed and re-opened before the lister shows q3's marker
   (witness of C13_reopen_server_marked_children_refuted) *)
Definition raceC_init : st :=
  let m : qmap := list_to_map [(1%positive, mkQ None SOpen None); (q2, mkQ (Some 1%positive) SOpen None);
                               (q3, mkQ (Some q2) SOpen None)] in
  mkSt m m ∅ [] [] 3.
Definition raceC_history : list ev := [ECmd q2 AClose; EProc 0; ELSync q2; ECmd q2 AOpen; EProc 0].
Definition raceC_state : st := run raceC_init raceC_history.

(* since b628b4b (updateQueue re-syncs on a marker change) a marked child is re-opened as
   soon as the lister shows its marker: the delivery enqueues a Sync, and that Sync enqueues
   the Open (C13_marked_child_heals) *)
Lemma sync_hier_reopens s q view p po :
  q <> root -> q_parent view = Some p -> lst s !! p = Some po -> q_state po = SOpen ->
  is_closedish (q_state view) = true -> cbp_true (q_ann view) = true ->
  sync_hier s q view = (push s (mkReq q AOpen EvNone 0), true).
Proof.
  intros Hr Hp Hl Ho Hc Hm. unfold sync_hier. rewrite bool_decide_false by done.
  rewrite Hp, Hl, Ho, Hc, Hm. done.
Qed.

Lemma sync_queue_reopens s q view fn p po :
  q <> root -> q_parent view = Some p -> lst s !! p = Some po -> q_state po = SOpen ->
  srv s !! q = Some view -> cbp_true (q_ann view) = true -> is_closedish (q_state view) = true ->
  (forall n, is_closedish (fn n) = true) ->
  exists s', sync_queue s q view fn = (s', true) /\ In (mkReq q AOpen EvNone 0) (wq s').
Proof.
  intros Hr Hp Hl Ho Hs Hm Hc Hfn. unfold sync_queue.
  rewrite (bool_decide_true (is_Some (q_parent view))) by (rewrite Hp; eauto). rewrite orb_true_r.
  cbn zeta. destruct (bool_decide _) eqn:E.
  - rewrite (sync_hier_reopens _ q view p po) by done.
    eexists. split; [reflexivity|]. simpl. apply in_or_app. right. by left.
  - unfold apply_state. simpl. rewrite Hs.
    rewrite (sync_hier_reopens _ q _ p po) by (try done; simpl; apply Hfn).
    eexists. split; [reflexivity|]. simpl. apply in_or_app. right. by left.
Qed.

(* every PodGroup object of the PodGroup lister is indexed under its queue *)
Definition idx_complete (s : st) : Prop :=
  forall pg q ph, pgl s !! pg = Some (q, ph) -> In (q, pg) (idx s).

(* events under which completeness is kept: everything except a PodGroup that changes its
   queue (updatePodGroup: "we have no use case update PodGroup.Spec.Queue") and the delivery
   of a queue DELETION (deleteQueue drops the queue's index) *)
Definition benign (s : st) (e : ev) : Prop :=
  match e with
  | EPgUpd pg q _ => forall q0 ph0, pgl s !! pg = Some (q0, ph0) -> q0 = q
  | ELSync q => is_Some (srv s !! q) \/ lst s !! q = None
  | EPgDelLate pg q => forall ph, pgl s !! pg <> Some (q, ph)   (* the store really dropped it *)
  | _ => True
  end.
Fixpoint benign_hist (s : st) (h : list ev) : Prop :=
  match h with
  | [] => True
  | e :: r => benign s e /\ benign_hist (step s e).1 r
  end.

Lemma pgs_of_In l q pg : In (q, pg) l -> In pg (pgs_of l q).
Proof.
  intros H. unfold pgs_of. apply in_map_iff. exists (q, pg). split; [done|].
  apply filter_In. split; [done|]. simpl. by apply bool_decide_eq_true.
Qed.

Lemma idx_add_In l q pg x : In x (idx_add l q pg) <-> In x l \/ x = (q, pg).
Proof.
  unfold idx_add. destruct (bool_decide ((q, pg) ∈ l)) eqn:E.
  - apply bool_decide_eq_true in E. apply elem_of_list_In in E. split; [by left|]. intros [?| ->]; done.
  - rewrite in_app_iff. simpl. naive_solver.
Qed.

Lemma idx_complete_proc s i : idx_complete s -> idx_complete (proc s i).1.
Proof.
  intros C. unfold proc. destruct (nth_error (wq s) i) as [r|]; [|exact C].
  destruct (lst s !! r_q r) as [v|]; [|exact C].
  destruct (exec _ _ _ _) as [s1 ok] eqn:E. apply exec_spec in E as (((_&P&_)&_)&I&_). simpl in *.
  assert (C1 : idx_complete s1).
  { intros pg q ph H. rewrite P in H. apply I; [eauto|]. simpl. rewrite H. eauto. }
  destruct ok; [exact C1|]. destruct (_ || _); exact C1.
Qed.

Lemma idx_complete_step s e : idx_complete s -> benign s e -> idx_complete (step s e).1.
Proof.
  intros C B. destruct e as [q a|pg q ph|pg q ph|pg|pg|pg q|q p|q p|q|q|q|i|i c]; simpl in *;
    try (by repeat case_match).
  - intros pg' q' ph' H. simpl in *. apply idx_add_In.
    destruct (decide (pg' = pg)) as [->|Hne].
    + rewrite lookup_insert in H. simplify_eq. by right.
    + rewrite lookup_insert_ne in H by done. left. eauto.
  - destruct (pgl s !! pg) as [[q0 ph0]|] eqn:E; [|exact C].
    assert (q0 = q) as -> by (eapply B; eauto).
    assert (X : forall l, (forall x, In x (idx s) -> In x l) ->
              forall pg' q' ph', <[pg:=(q, ph)]> (pgl s) !! pg' = Some (q', ph') -> In (q', pg') l).
    { intros l Hl pg' q' ph' H. apply Hl. destruct (decide (pg' = pg)) as [->|Hne].
      - rewrite lookup_insert in H. simplify_eq. eauto.
      - rewrite lookup_insert_ne in H by done. eauto. }
    destruct (bool_decide (ph0 = ph)); simpl; intros pg' q' ph' H; simpl in *.
    + eapply X; eauto.
    + eapply (X (idx_add (idx s) q pg)); eauto. intros x Hx. apply idx_add_In. by left.
  - destruct (pgl s !! pg) as [[q0 ph0]|] eqn:E; [|exact C].
    intros pg' q' ph' H. simpl in *. destruct (decide (pg' = pg)) as [->|Hne].
    + by rewrite lookup_delete in H.
    + rewrite lookup_delete_ne in H by done. unfold idx_del. apply filter_In. split; [eauto|].
      rewrite bool_decide_false; [done|]. congruence.
  - intros pg' q' ph' H. simpl in *. destruct (decide (pg' = pg)) as [->|Hne].
    + by rewrite lookup_delete in H.
    + rewrite lookup_delete_ne in H by done. eauto.
  - intros pg' q' ph' H. simpl in *. unfold idx_del. apply filter_In. split; [eauto|].
    rewrite bool_decide_false; [done|]. intros [= -> ->]. by apply (B ph').
  - destruct (srv s !! q) as [o|] eqn:E1, (lst s !! q) as [o0|] eqn:E2; simpl; try exact C.
    + destruct (_ && _); exact C.
    + destruct B as [[? ?]|?]; congruence.
  - by apply idx_complete_proc.
  - rewrite procF_fst. destruct (restore_fields s c (proc (hide s c) i).1) as (_&Hp&Hi&_).
    assert (C1 : idx_complete (proc (hide s c) i).1) by (apply idx_complete_proc; exact C).
    intros pg q ph H. rewrite Hp in H. rewrite Hi. by eapply C1.
Qed.

Theorem idx_complete_run h : forall s, idx_complete s -> benign_hist s h -> idx_complete (run s h).
Proof.
  unfold run. induction h as [|e h IH]; intros s C B; simpl in *; [done|].
  destruct B as [B1 B2]. apply IH; [by apply idx_complete_step|done].
Qed.

(* Closed is entered only when no PodGroup of the queue exists (not merely: when the
   controller's index is empty) *)
Theorem closed_only_when_really_empty s e q a :
  idx_complete s ->
  sst (srv s) q = Some a -> a <> SClosed -> sst (srv (step s e).1) q = Some SClosed ->
  forall pg ph, pgl s !! pg <> Some (q, ph).
Proof.
  intros C Ha Hne Hb pg ph H. apply C in H. apply pgs_of_In in H.
  rewrite (closed_only_when_empty s e q a) in H by done. done.
Qed.

(* what a processing step appends to the work queue (the Prop form of law 108): propagation
   requests for the processed queue itself or for its lister-children, then at most the
   retry of the processed request *)
Theorem proc_emits s i r :
  nth_error (wq s) i = Some r ->
  exists l t, wq (proc s i).1 = remove_nth i (wq s) ++ l ++ t /\
              Forall (prop_req_at (lst s) (r_q r)) l /\ (t = [] \/ t = [retry r]) /\
              (l = [] \/ is_Some (lst s !! r_q r)).
Proof.
  intros Hn. unfold proc. rewrite Hn.
  destruct (lst s !! r_q r) as [v|]; simpl.
  2:{ exists [], []. rewrite !app_nil_r. split; [done|]. split; [constructor|]. split; by left. }
  destruct (exec _ _ _ _) as [s1 ok] eqn:E. apply exec_spec in E as ((_&l&Hw&Hl)&_). simpl in Hw, Hl.
  destruct ok; simpl.
  - exists l, []. rewrite app_nil_r. split; [done|]. split; [done|]. split; [by left|right; eauto].
  - destruct (_ || _); simpl.
    + exists l, [retry r]. rewrite Hw. rewrite <- app_assoc. split; [done|]. split; [done|]. split; [by right|right; eauto].
    + exists l, []. rewrite app_nil_r. split; [done|]. split; [done|]. split; [by left|right; eauto].
Qed.

(* handler-born requests (Event OutOfSync) are Sync requests: an invariant of every history *)
Definition wq_wf (s : st) : Prop := Forall (fun r => r_ev r = EvOutOfSync -> r_act r = ASync) (wq s).

Lemma Forall_remove_nth {A} (P : A -> Prop) i : forall l, Forall P l -> Forall P (remove_nth i l).
Proof.
  induction i as [|i IH]; intros [|x l] H; simpl; try done; inversion H; subst; [done|].
  constructor; [done|by apply IH].
Qed.

Lemma wq_wf_proc s i : wq_wf s -> wq_wf (proc s i).1.
Proof.
  intros W.
  destruct (nth_error (wq s) i) as [r|] eqn:Hn; [|unfold proc; by rewrite Hn].
  destruct (proc_emits s i r Hn) as (l&t&Hw&Hl&Ht&_). unfold wq_wf. rewrite Hw.
  assert (Hr : r_ev r = EvOutOfSync -> r_act r = ASync).
  { unfold wq_wf in W. rewrite Forall_forall in W. apply W. eapply nth_error_In; eauto. }
  apply Forall_app. split; [by apply Forall_remove_nth|]. apply Forall_app. split.
  + eapply Forall_impl; [|exact Hl]. intros x (Hx&_). simpl. congruence.
  + destruct Ht as [->| ->]; [constructor|]. constructor; [done|constructor].
Qed.

(* an informer or command handler appends at most one request: a Sync, or the command's *)
Lemma handler_wq s e :
  match e with
  | EProc _ | EProcF _ _ => True
  | _ => wq (step s e).1 = wq s \/ (exists q, wq (step s e).1 = wq s ++ [sync_req q]) \/
         (exists q a, e = ECmd q a /\ wq (step s e).1 = wq s ++ [mkReq q a EvCmd 0])
  end.
Proof. destruct e; simpl; repeat case_match; simpl; eauto 6. Qed.

Lemma wq_wf_step s e : wq_wf s -> wq_wf (step s e).1.
Proof.
  intros W. pose proof (handler_wq s e) as H. unfold wq_wf.
  destruct e; try (destruct H as [->|[[? ->]|(?&?&_&->)]]; [done|apply Forall_app; split; [done|by constructor]..]).
  - by apply wq_wf_proc.
  - simpl. rewrite procF_fst. destruct (restore_fields s c (proc (hide s c) i).1) as (_&_&_&->&_).
    apply (wq_wf_proc (hide s c) i). exact W.
Qed.

Lemma wq_wf_run h : forall s, wq_wf s -> wq_wf (run s h).
Proof.
  unfold run. induction h as [|e h IH]; intros s W; simpl; [done|]. apply IH. by apply wq_wf_step.
Qed.

(* HISTORY THEOREM (induction over the event list): along every history from a start
   state whose pending handler-born requests are Syncs, a queue's state moves only while
   a request for it is processed that stems from a command (Event CommandIssued), from
   parent/child propagation (Event ""), or is a handler's Sync — and a handler's Sync moves
   the state only to the Sync target of the state tables ("" -> Open, Closing -> Closed
   when the index is empty, otherwise the state the lister shows) *)
Theorem moves_only_on_command_or_parent s0 h e q a b : let s := run s0 h in
  wq_wf s0 ->
  sst (srv s) q = Some a -> sst (srv (step s e).1) q = Some b -> a <> b ->
  exists r v, proc_of s e = Some (r, v) /\ r_q r = q /\
    b = target (q_state v) (r_act r) (length (pgs_of (idx s) q)) /\
    (r_ev r = EvCmd \/ r_ev r = EvNone \/ (r_ev r = EvOutOfSync /\ r_act r = ASync)).
Proof.
  intros s W Ha Hb Hab. destruct (only_by_request s e q a b) as (r&v&P&Hq&T); try done.
  exists r, v. repeat split; try done.
  pose proof (wq_wf_run h s0 W) as Wf. fold s in Wf.
  apply proc_of_inv in P as (i&_&Hn&_).
  unfold wq_wf in Wf. rewrite Forall_forall in Wf. specialize (Wf r (nth_error_In _ _ Hn)).
  destruct (r_ev r); auto.
Qed.

Lemma run_snoc s h e : run s (h ++ [e]) = (step (run s h) e).1.
Proof. unfold run. by rewrite fold_left_app. Qed.

(* x was appended while event e (a processing step) was handled in state s: the processed
   request was for x's own queue, or for the queue the lister then showed as its parent *)
Definition from_step (s : st) (e : ev) (x : req) : Prop :=
  exists r v, proc_of s e = Some (r, v) /\
    (r_q x = r_q r \/ exists co, lst s !! r_q x = Some co /\ q_parent co = Some (r_q r)).

(* where a pending request comes from, in terms of the history h from s0:
   - Event CommandIssued: an [ECmd] for that queue with that action occurs in h;
   - Event OutOfSync (informer handler): it is a Sync;
   - Event "" (propagation): it is an Open / Close that was appended at some earlier point
     of h while a request for the queue itself (its own sync reacting to the parent's state in
     the lister) or for its lister-parent (the parent's close / re-open) was being processed *)
Definition origin (s0 : st) (h : list ev) (x : req) : Prop :=
  match r_ev x with
  | EvCmd => In (ECmd (r_q x) (r_act x)) h
  | EvOutOfSync => r_act x = ASync
  | EvNone => (r_act x = AOpen \/ r_act x = AClose) /\
              exists h1 e h2, h = h1 ++ e :: h2 /\ from_step (run s0 h1) e x
  end.

Lemma origin_mono s0 h e x : origin s0 h x -> origin s0 (h ++ [e]) x.
Proof.
  unfold origin. destruct (r_ev x); [|done|].
  - intros H. apply in_or_app. by left.
  - intros (Ha&h1&e1&h2&->&F). split; [done|]. exists h1, e1, (h2 ++ [e]). split; [|done].
    by rewrite <- app_assoc.
Qed.

Lemma origin_retry s0 h r : origin s0 h r -> origin s0 h (retry r).
Proof. unfold origin, from_step, retry. simpl. done. Qed.

Lemma In_remove_nth {A} (x : A) i : forall l, In x (remove_nth i l) -> In x l.
Proof.
  induction i as [|i IH]; intros [|y l] H; simpl in *; try done; [by right|].
  destruct H as [->|H]; [by left|right; by apply IH].
Qed.

(* what is in the work queue after a step: what was there, a retry of what was there, or
   something born in this step *)
Definition born (s : st) (e : ev) (x : req) : Prop :=
  (exists q a, e = ECmd q a /\ x = mkReq q a EvCmd 0) \/
  (r_ev x = EvOutOfSync /\ r_act x = ASync) \/
  (r_ev x = EvNone /\ (r_act x = AOpen \/ r_act x = AClose) /\ from_step s e x).

Lemma proc_wq_in s i x :
  In x (wq (proc s i).1) ->
  In x (wq s) \/ (exists r, In r (wq s) /\ x = retry r) \/
  (r_ev x = EvNone /\ (r_act x = AOpen \/ r_act x = AClose) /\ from_step s (EProc i) x).
Proof.
  intros H. destruct (nth_error (wq s) i) as [r|] eqn:Hn.
  2:{ unfold proc in H. rewrite Hn in H. by left. }
  destruct (proc_emits s i r Hn) as (l&t&Hw&Hl&Ht&Hv). rewrite Hw in H.
  apply in_app_or in H as [H|H]; [left; by eapply In_remove_nth|].
  apply in_app_or in H as [H|H].
  - right. right. rewrite Forall_forall in Hl. destruct (Hl x H) as (E&_&A&T).
    split; [done|]. split; [done|].
    destruct Hv as [->|[v Hv]]; [done|]. exists r, v. split; [|done]. simpl. by rewrite Hn, Hv.
  - destruct Ht as [->| ->]; [done|]. destruct H as [<-|[]]. right. left. exists r. split; [|done].
    eapply nth_error_In; eauto.
Qed.

Lemma step_wq_in s e x :
  In x (wq (step s e).1) ->
  In x (wq s) \/ (exists r, In r (wq s) /\ x = retry r) \/ born s e x.
Proof.
  intros Hx. pose proof (handler_wq s e) as H.
  destruct e; try (destruct H as [H|[[? H]|(?&?&?&H)]]; rewrite H in Hx; [by left|apply in_app_or in Hx as [?|[<-|[]]]; [by left|right; right]..];
                   [right; by left|left; eauto]).
  - apply proc_wq_in in Hx as [?|[?|?]]; [by left|by right; left|]. right. right. right. by right.
  - simpl in Hx. rewrite procF_fst in Hx. destruct (restore_fields s c (proc (hide s c) i).1) as (_&_&_&Hw&_). rewrite Hw in Hx.
    apply proc_wq_in in Hx as [?|[?|?]]; [by left|by right; left|]. right. right. right. by right.
Qed.

Lemma origin_inv s0 h : wq s0 = [] -> Forall (origin s0 h) (wq (run s0 h)).
Proof.
  intros H0. induction h as [|e h IH] using rev_ind.
  - unfold run. simpl. rewrite H0. constructor.
  - rewrite run_snoc. apply Forall_forall. intros x Hx. rewrite Forall_forall in IH.
    apply step_wq_in in Hx as [Hx|[(r&Hr&->)|B]].
    + apply origin_mono. by apply IH.
    + apply origin_mono, origin_retry. by apply IH.
    + destruct B as [(q&a&->&->)|[[E A]|(E&A&F)]]; unfold origin.
      * simpl. apply in_or_app. right. by left.
      * rewrite E. done.
      * rewrite E. split; [done|]. exists h, e, []. done.
Qed.

(* quiescent end states: the histories that refute the quiescence statements of Props/C13.v *)
Definition open3_init (st3 : qstate) (ann3 : ann) : st :=
  let m : qmap := list_to_map [(1%positive, mkQ None SOpen None); (q2, mkQ (Some 1%positive) SOpen None);
                               (q3, mkQ (Some q2) st3 ann3)] in
  mkSt m m ∅ [] [] 3.
(* close the parent and re-open it at once; strictly FIFO; the child's Open is processed
   while the lister still shows the child Open (C13_quiescent_no_stuck_child_refuted) *)
Definition stuckW1_history : list ev :=
  [ECmd q2 AClose; ECmd q2 AOpen; EProc 0; ELSync q3; ELSync q2; EProc 0; ELSync q2;
   EProc 0; EProc 0; EProc 0; EProc 0; ELSync q3; ELSync q2; ELSync 1].
(* the same without any lag, two workers: the child's Open overtakes its Close *)
Definition stuckW1_nolag_history : list ev :=
  let S := [ELSync 1; ELSync q2; ELSync q3] in
  [ECmd q2 AClose; EProc 0] ++ S ++ [ECmd q2 AOpen; EProc 2] ++ S ++ [EProc 2] ++ S ++ [EProc 1] ++ S ++
  [EProc 0] ++ S ++ [EProc 0] ++ S.
(* D: the child is opened while the lister still shows its just-closed parent Open;
   E: the parent is closed while the lister still shows the just-opened child Closed
   (C13_quiescent_children_follow_closed_parent_refuted, quiescent_open_child_both_orders) *)
Definition openD_history : list ev :=
  [ECmd q2 AClose; EProc 0; ECmd q3 AOpen; EProc 0; ELSync q3; ELSync q2; ELSync 1].
Definition openE_history : list ev :=
  [ECmd q3 AOpen; EProc 0; ECmd q2 AClose; EProc 0; ELSync q3; ELSync q2; ELSync 1].

Example quiescent_stuck_child_without_lag :
  let s := run (open3_init SOpen None) stuckW1_nolag_history in
  caught_up s = true /\ law_no_stuck_child s = false /\
  sst (srv s) q2 = Some SOpen /\ sst (srv s) q3 = Some SClosed /\ scbp (srv s) q3 = Some true.
Proof. vm_compute. repeat split. Qed.

Example quiescent_open_child_both_orders :
  let sD := run (open3_init SClosed (Some (false, Some false))) openD_history in
  let sE := run (open3_init SClosed (Some (false, Some false))) openE_history in
  caught_up sD = true /\ sst (srv sD) q2 = Some SClosed /\ sst (srv sD) q3 = Some SOpen /\
  caught_up sE = true /\ sst (srv sE) q2 = Some SClosed /\ sst (srv sE) q3 = Some SOpen /\
  law_children_follow_closed_parent sE = false.
Proof. vm_compute. repeat split. Qed.

(* the start-state hypothesis cannot be dropped: a pending propagation request of unknown
   origin closes an unrelated queue *)
Example cause_needs_empty_start :
  let s0 := mkSt (srv (open3_init SOpen None)) (lst (open3_init SOpen None)) ∅ [] [mkReq q3 AClose EvNone 0] 3 in
  sst (srv (run s0 [EProc 0])) q3 = Some SClosed.
Proof. vm_compute. reflexivity. Qed.

(* non-vacuity: the three kinds of cause occur (command on q2; propagated Close of q3 born
   while q2's close was processed; a handler's Sync completing Closing -> Closed is in ex_nonvacuous) *)
Example causes_occur :
  let s0 := open3_init SOpen None in
  origin s0 [ECmd q2 AClose] (mkReq q2 AClose EvCmd 0) /\
  wq (run s0 [ECmd q2 AClose; EProc 0]) = [mkReq q3 AClose EvNone 0] /\
  origin s0 [ECmd q2 AClose; EProc 0] (mkReq q3 AClose EvNone 0).
Proof.
  split; [by left|]. split; [vm_compute; reflexivity|].
  split; [by right|]. exists [ECmd q2 AClose], (EProc 0), []. split; [done|].
  exists (mkReq q2 AClose EvCmd 0), (mkQ (Some 1%positive) SOpen None). split; [vm_compute; reflexivity|].
  right. exists (mkQ (Some q2) SOpen None). split; [vm_compute; reflexivity|done].
Qed.

(* non-vacuity for faults: closing q2 fails twice at the patch of its only open child q3
   (q4 was closed by hand); the request is retried, the third attempt succeeds: q2 Closed,
   q3 Closed and marked, caught up, no quiescent law violated *)
Definition fault_init : st :=
  let m : qmap := list_to_map [(1%positive, mkQ None SOpen None); (q2, mkQ (Some 1%positive) SOpen None);
                               (q3, mkQ (Some q2) SOpen None); (4%positive, mkQ (Some q2) SClosed None)] in
  mkSt m m ∅ [] [] (-1).
Definition fault_history : list ev :=
  let S := [ELSync 1; ELSync q2; ELSync q3; ELSync 4] in
  [ECmd q2 AClose; EProcF 0 q3] ++ S ++ [EProcF 0 q3] ++ S ++ [EProc 0] ++ S ++ [EProc 0] ++ S ++ [EProc 0] ++ S ++ [EProc 0] ++ S.
Example fault_retried_then_consistent :
  let s1 := run fault_init (firstn 2 fault_history) in
  let s := run fault_init fault_history in
  sst (srv s1) q2 = Some SOpen /\ scbp (srv s1) q3 = None /\ wq s1 = [mkReq q2 AClose EvCmd 1] /\
  caught_up s = true /\ sst (srv s) q2 = Some SClosed /\ sst (srv s) q3 = Some SClosed /\ scbp (srv s) q3 = Some true /\
  law_no_stuck_child s = true /\ law_children_follow_closed_parent s = true.
Proof. vm_compute. repeat split. Qed.

(* the premises of the history theorems hold of a controller that starts with nothing:
   no PodGroups known, an Open root *)
Example start_state_premises :
  let s0 := open3_init SOpen None in
  idx_complete s0 /\ root_okP s0 /\ wq s0 = [].
Proof.
  split; [|split; [|done]].
  - intros pg q ph H. vm_compute in H. done.
  - split; intros x Hx; vm_compute in Hx; by simplify_eq.
Qed.

