(* C13 — the model of the queue controller BEFORE the two repairs committed in /repo
   (5018129 "fix: syncQueue compares the computed queue state with the state its update
   function was chosen for", b628b4b "fix: re-sync a queue when its closed-by-parent
   marker changes"), kept for the record together with the histories on which the
   full-strength statements fail on that code (the refutations themselves are in
   Props/C13.v: C13_prefix_closed_with_podgroups_refuted,
   C13_prefix_marked_child_not_reopened_refuted) and their runs on the repaired code.
   Only [sync_queue] (comparison against the object returned by updateQueueParent) and the
   ELSync case of [step] (updateQueue re-syncs on a parent change only) differ from Model.v. *)
From stdpp Require Import gmap.
From Coq Require Import ZArith List.
From V Require Import C13.Model C13.Laws C13.Lemmas.
Import ListNotations.
Open Scope Z_scope.

Definition sync_queue0 (s : st) (q : positive) (view : qobj) (fn : nat -> qstate) : st * bool :=
  let r1 :=
    if bool_decide (q = root) || bool_decide (is_Some (q_parent view)) then Some (s, view)
    else match srv s !! q with                  (* updateQueueParent: patch spec.parent=root *)
         | None => None
         | Some o => let o' := with_parent o (Some root) in
                     Some (set_srv s (<[q := o']> (srv s)), o')   (* continues with the SERVER's object *)
         end in
  match r1 with
  | None => (s, false)
  | Some (s1, v1) =>
    let n := length (pgs_of (idx s1) q) in
    let s2 := set_idx s1 (filter (fun qp => negb (bool_decide (fst qp = q) &&
                                                    bool_decide (pgl s1 !! snd qp = None))) (idx s1)) in
    let new := fn n in
    if bool_decide (new = q_state v1) then sync_hier s2 q v1
    else match apply_state (srv s2) q new with
         | None => (s2, false)
         | Some (m, o') => sync_hier (set_srv s2 m) q o'
         end
  end.

Definition exec0 (s : st) (q : positive) (view : qobj) (a : act) : st * bool :=
  match q_state view, a with
  | (SEmpty | SOpen), AOpen => sync_queue0 s q view (fun _ => SOpen)
  | (SEmpty | SOpen), AClose => close_queue s q view closeish
  | (SEmpty | SOpen), _ => sync_queue0 s q view (fun _ => SOpen)
  | SClosing, AOpen => open_queue s q view
  | SClosing, _ => sync_queue0 s q view closeish
  | SClosed, AOpen => open_queue s q view
  | SClosed, _ => sync_queue0 s q view (fun _ => SClosed)
  | SUnknown, AOpen => open_queue s q view
  | SUnknown, AClose => close_queue s q view closeish
  | SUnknown, _ => sync_queue0 s q view (fun _ => SUnknown)
  | SInvalid, _ => (s, false)                  (* NewState returns nil *)
  end.

Definition proc0 (s : st) (i : nat) : st * outcome :=
  match nth_error (wq s) i with
  | None => (s, OIdle)
  | Some r =>
    let s0 := set_wq s (remove_nth i (wq s)) in
    match lst s !! r_q r with
    | None => (s0, OGone)                     (* deleted queue: request forgotten *)
    | Some view =>
      let '(s1, ok) := exec0 s0 (r_q r) view (r_act r) in
      if ok then (s1, OOk)
      else if bool_decide (maxrq s = -1) || bool_decide (Z.of_nat (r_tries r) < maxrq s)
           then (push s1 (retry r), OErr)
           else (s1, OErr)                     (* dropped *)
    end
  end.

Definition step0 (s : st) (e : ev) : st * outcome :=
  match e with
  | ECmd q a => (push s (mkReq q a EvCmd 0), ONone)
  | EPgAdd pg q ph =>
      (push (set_idx (set_pgl s (<[pg := (q, ph)]> (pgl s))) (idx_add (idx s) q pg)) (sync_req q), ONone)
  | EPgUpd pg q ph =>
      match pgl s !! pg with
      | None => (s, ONone)
      | Some (_, ph0) =>
        let s1 := set_pgl s (<[pg := (q, ph)]> (pgl s)) in
        if bool_decide (ph0 = ph) then (s1, ONone)
        else (push (set_idx s1 (idx_add (idx s) q pg)) (sync_req q), ONone)
      end
  | EPgDel pg =>
      match pgl s !! pg with
      | None => (s, ONone)
      | Some (q0, _) =>
        (push (set_idx (set_pgl s (delete pg (pgl s))) (idx_del (idx s) q0 pg)) (sync_req q0), ONone)
      end
  | EPgGone pg => (set_pgl s (delete pg (pgl s)), ONone)
  | EPgDelLate pg q => (push (set_idx s (idx_del (idx s) q pg)) (sync_req q), ONone)
  | EQCreate q p =>
      match srv s !! q with
      | Some _ => (s, ONone)
      | None => (set_srv s (<[q := mkQ p SEmpty None]> (srv s)), ONone)
      end
  | EQReparent q p =>
      match srv s !! q with
      | None => (s, ONone)
      | Some o => (set_srv s (<[q := with_parent o p]> (srv s)), ONone)
      end
  | EQDelete q => (set_srv s (delete q (srv s)), ONone)
  | ELSync q =>
      match srv s !! q, lst s !! q with
      | Some o, None => (push (set_lst s (<[q := o]> (lst s))) (sync_req q), ONone)          (* addQueue *)
      | Some o, Some o0 =>
          let s1 := set_lst s (<[q := o]> (lst s)) in
          if bool_decide (q_parent o0 = q_parent o) then (s1, ONone) else (push s1 (sync_req q), ONone)  (* updateQueue *)
      | None, Some _ =>
          (set_idx (set_lst s (delete q (lst s))) (filter (fun qp => negb (bool_decide (fst qp = q))) (idx s)), ONone) (* deleteQueue *)
      | None, None => (s, ONone)
      end
  | EResync q =>
      match lst s !! q with
      | Some _ => (push s (sync_req q), ONone)
      | None => (s, ONone)
      end
  | EProc i => proc0 s i
  | EProcF i _ => proc0 s i      (* API faults are not part of the pre-fix record *)
  end.

Definition run0 (s : st) (h : list ev) : st := fold_left (fun s e => fst (step0 s e)) h s.

(* race B (finding C13-stale-lister-closed-with-podgroups, fixed by 5018129) *)
Definition raceB_init : st :=
  let m : qmap := list_to_map [(1%positive, mkQ None SOpen None); (q2, mkQ None SClosed None)] in
  mkSt m m ∅ [] [] 3.
Definition raceB_history : list ev := [ECmd q2 AOpen; EProc 0; EPgAdd 1 q2 1].

(* the same history on the repaired code: the queue stays Open *)
Example raceB_repaired :
  sst (srv (run raceB_init (raceB_history ++ [EProc 0]))) q2 = Some SOpen.
Proof. vm_compute. reflexivity. Qed.

(* race C (finding C13-marked-child-not-reopened, fixed by b628b4b) *)
Definition sync3 : list ev := [ELSync 1; ELSync q2; ELSync q3].
Definition raceC_full : list ev :=
  raceC_history ++ [EProc 0] ++ sync3 ++ [EProc 0; EProc 0] ++ sync3 ++ [EProc 0; EProc 0] ++ sync3 ++ [EProc 0; EProc 0].

Example raceC_prefix_outcome :
  let s := run0 raceC_init raceC_full in
  caught_up s = true /\ sst (srv s) q2 = Some SOpen /\ sst (srv s) q3 = Some SClosed /\ scbp (srv s) q3 = Some true.
Proof. vm_compute. repeat split. Qed.

(* the same history on the repaired code: the child is re-opened *)
Example raceC_repaired :
  let s := run raceC_init raceC_full in
  caught_up s = true /\ law_no_stuck_child s = true /\
  sst (srv s) q2 = Some SOpen /\ sst (srv s) q3 = Some SOpen /\ scbp (srv s) q3 = Some false.
Proof. vm_compute. repeat split. Qed.
