(* C13 — executable forms of the property, evaluated on what the IMPLEMENTATION did:
   each law takes the state before an event, the event, and the state / outcome the
   real controller produced.  None of them calls the model's step function; they are
   declarative tables and quantified checks over the observed objects.  Lemmas.v
   proves every one of them of the model's own step, for all states and events. *)
From stdpp Require Import gmap.
From Coq Require Import ZArith List.
From V Require Import C13.Model.
Import ListNotations.
Open Scope Z_scope.

Definition sst (m : qmap) (q : positive) : option qstate := q_state <$> m !! q.
Definition scbp (m : qmap) (q : positive) : option bool :=
  match m !! q with Some o => cbp_of (q_ann o) | None => None end.
Definition names (s s' : st) : list positive :=
  map fst (map_to_list (srv s)) ++ map fst (map_to_list (srv s')) ++ map fst (map_to_list (lst s)).

(* the request a processing event (with or without an injected API fault) processes, with
   the lister's object for its queue *)
Definition proc_of (s : st) (e : ev) : option (req * qobj) :=
  match e with
  | EProc i | EProcF i _ =>
      match nth_error (wq s) i with
      | Some r => match lst s !! r_q r with Some v => Some (r, v) | None => None end
      | None => None end
  | _ => None
  end.
(* the same for a step WITHOUT an injected fault (the laws that promise a result) *)
Definition proc_of_clean (s : st) (e : ev) : option (req * qobj) :=
  match e with
  | EProc _ => proc_of s e
  | _ => None
  end.

(* the state/*.go tables read as "target state": Open/Close/other action on a queue
   whose lister state is x and whose PodGroup index holds n keys *)
Definition target (x : qstate) (a : act) (n : nat) : qstate :=
  match a with
  | AOpen => SOpen
  | AClose => match x with SClosed => SClosed | _ => closeish n end
  | _ => match x with
         | SEmpty | SOpen => SOpen
         | SClosing => closeish n
         | other => other
         end
  end.

(* a server-side state change of an existing queue *)
Definition changed (s s' : st) (q : positive) : bool :=
  match sst (srv s) q, sst (srv s') q with
  | Some a, Some b => negb (bool_decide (a = b))
  | _, _ => false
  end.

Definition fresh (s : st) (q : positive) : bool := bool_decide (lst s !! q = srv s !! q).

(* L1: the state of a queue changes only while a request FOR THAT QUEUE is processed,
   and then to the table's target; an Open/Close target needs an Open/Close request,
   a Sync request only completes "" -> Open and Closing -> Closed (empty index) or
   re-asserts the state the lister shows *)
Definition law_only_by_request (s : st) (e : ev) (s' : st) : bool :=
  forallb (fun q =>
    implb (changed s s' q)
      match proc_of s e with
      | Some (r, v) =>
          bool_decide (r_q r = q) &&
          bool_decide (sst (srv s') q = Some (target (q_state v) (r_act r) (length (pgs_of (idx s) q))))
      | None => false
      end) (names s s').

(* L1 under freshness: with an up-to-date lister, a request that is not an Open/Close
   request only moves "" -> Open and Closing -> Closed *)
Definition law_sync_moves (s : st) (e : ev) (s' : st) : bool :=
  forallb (fun q =>
    implb (changed s s' q && fresh s q)
      match proc_of s e with
      | Some (r, v) =>
          match r_act r with
          | AOpen | AClose => true
          | _ => (bool_decide (sst (srv s) q = Some SEmpty) && bool_decide (sst (srv s') q = Some SOpen)) ||
                 (bool_decide (sst (srv s) q = Some SClosing) && bool_decide (sst (srv s') q = Some SClosed))
          end
      | None => false
      end) (names s s').

(* L2: processing a Close request on an up-to-date, not yet closed, non-root queue
   without error leaves it Closing when the index has PodGroups, Closed when empty *)
Definition law_close_result (s : st) (e : ev) (s' : st) (o : outcome) : bool :=
  match proc_of_clean s e with
  | Some (r, v) =>
      let q := r_q r in
      implb (bool_decide (r_act r = AClose) && bool_decide (o = OOk) && negb (bool_decide (q = root)) &&
             negb (bool_decide (q_state v = SClosed)) && negb (bool_decide (q_state v = SInvalid)) &&
             bool_decide (sst (lst s) q = sst (srv s) q))
            (bool_decide (sst (srv s') q = Some (closeish (length (pgs_of (idx s) q)))))
  | None => true
  end.

(* L3: Closed is entered only with an empty PodGroup index (full strength: no
   freshness precondition since the repair of syncQueue) *)
Definition law_closed_only_when_empty (s : st) (e : ev) (s' : st) : bool :=
  forallb (fun q =>
    implb (changed s s' q && bool_decide (sst (srv s') q = Some SClosed))
          (bool_decide (pgs_of (idx s) q = []))) (names s s').

Definition emitted (s s' : st) : list req := skipn (length (wq s) - 1) (wq s').

(* L4: closing a parent marks and closes its (lister) children that are not closed *)
Definition law_close_propagates (s : st) (e : ev) (s' : st) (o : outcome) : bool :=
  match proc_of_clean s e with
  | Some (r, v) =>
      let q := r_q r in
      implb (bool_decide (r_act r = AClose) && bool_decide (o = OOk) && negb (bool_decide (q = root)) &&
             negb (is_closedish (q_state v)) && negb (bool_decide (q_state v = SInvalid)))
        (forallb (fun cco =>
           implb (bool_decide (q_parent (snd cco) = Some q) && negb (is_closedish (q_state (snd cco))))
                 ((cbp_true (q_ann (snd cco)) || bool_decide (scbp (srv s') (fst cco) = Some true)) &&
                  bool_decide (mkReq (fst cco) AClose EvNone 0 ∈ emitted s s')))
           (map_to_list (lst s)))
  | None => true
  end.

(* L5: re-opening enqueues Open for exactly the (lister) children marked
   closed-by-parent, opens the queue and clears its own marker *)
Definition law_reopen_exact (s : st) (e : ev) (s' : st) (o : outcome) : bool :=
  match proc_of_clean s e with
  | Some (r, v) =>
      let q := r_q r in
      implb (bool_decide (r_act r = AOpen) && bool_decide (o = OOk) &&
             (is_closedish (q_state v) || bool_decide (q_state v = SUnknown)))
        (forallb (fun cco =>
           bool_decide (bool_decide (mkReq (fst cco) AOpen EvNone 0 ∈ emitted s s') =
                        (bool_decide (q_parent (snd cco) = Some q) && cbp_true (q_ann (snd cco)))))
           (map_to_list (lst s)) &&
         forallb (fun x => bool_decide (r_act x = AOpen) && bool_decide (r_ev x = EvNone) &&
                           bool_decide (is_Some (lst s !! r_q x))) (emitted s s') &&
         bool_decide (sst (srv s') q = Some SOpen) &&
         (bool_decide (cbp_of (q_ann v) = Some false) || bool_decide (scbp (srv s') q = Some false)))
  | None => true
  end.

(* L5b: the closed-by-parent marker is written only by propagation (true: on a
   lister-child of a queue being closed, or on the queue itself when the lister shows
   its parent closed/closing) and cleared only by an Open request for the queue *)
Definition law_marker_discipline (s : st) (e : ev) (s' : st) : bool :=
  forallb (fun c =>
    implb (bool_decide (is_Some (srv s !! c)) && bool_decide (is_Some (srv s' !! c)) &&
           negb (bool_decide (scbp (srv s) c = scbp (srv s') c)))
      match proc_of s e with
      | Some (r, v) =>
          (bool_decide (scbp (srv s') c = Some false) && bool_decide (r_q r = c) && bool_decide (r_act r = AOpen)) ||
          (bool_decide (scbp (srv s') c = Some true) &&
           ((bool_decide (r_q r = c) && negb (bool_decide (r_act r = AOpen) && negb (bool_decide (q_state v = SOpen)) && negb (bool_decide (q_state v = SEmpty)))) ||
            (bool_decide (r_act r = AClose) &&
             (* only a child the lister shows as NOT closed / closing is marked by its parent's close *)
             match lst s !! c with
             | Some co => bool_decide (q_parent co = Some (r_q r)) && negb (is_closedish (q_state co))
             | None => false end)))
      | None => false
      end) (names s s').

(* L6: the root queue is never closed or closing *)
Definition root_ok (s : st) : bool :=
  match sst (srv s) root with Some x => negb (is_closedish x) | None => true end &&
  match sst (lst s) root with Some x => negb (is_closedish x) | None => true end.
Definition law_root_never_closed (s : st) (e : ev) (s' : st) : bool :=
  implb (root_ok s) (root_ok s').

(* L7: a closed / closing / unknown queue is not opened while the lister shows its
   parent (other than root) closed or closing, or shows no such parent *)
Definition parent_blocks (s : st) (v : qobj) : bool :=
  match q_parent v with
  | None => false
  | Some p => if bool_decide (p = root) then false else
              match lst s !! p with Some po => is_closedish (q_state po) | None => true end
  end.
Definition law_no_open_under_closed_parent (s : st) (e : ev) (s' : st) (o : outcome) : bool :=
  match proc_of_clean s e with
  | Some (r, v) =>
      implb (bool_decide (r_act r = AOpen) && parent_blocks s v &&
             negb (bool_decide (q_state v = SOpen)) && negb (bool_decide (q_state v = SEmpty)))
            (bool_decide (o = OErr) && bool_decide (srv s' = srv s))
  | None => true
  end.

(* L8: work-queue discipline and provenance of requests: informer handlers enqueue
   only Sync requests, a command enqueues exactly its own request, and processing
   appends only propagation requests (Event "", Open/Close, for the queue itself or a
   lister-child) followed by at most the retry of the processed request *)
Definition law_workqueue (s : st) (e : ev) (s' : st) (o : outcome) : bool :=
  match e with
  | EProc i | EProcF i _ =>
      match nth_error (wq s) i with
      | None => bool_decide (wq s' = wq s) && bool_decide (o = OIdle)
      | Some r =>
          bool_decide (firstn (length (wq s) - 1) (wq s') = remove_nth i (wq s)) &&
          forallb (fun x =>
            (bool_decide (x = retry r) && bool_decide (o = OErr)) ||
            (bool_decide (r_ev x = EvNone) && bool_decide (r_tries x = 0%nat) &&
             (bool_decide (r_act x = AOpen) || bool_decide (r_act x = AClose)) &&
             ((bool_decide (r_q x = r_q r) &&
               (* the queue re-opens itself only when it carries the marker *)
               (negb (bool_decide (r_act x = AOpen)) ||
                match lst s !! r_q r with Some v => cbp_true (q_ann v) | None => false end ||
                bool_decide (scbp (srv s) (r_q r) = Some true))) ||
              (* a child gets a Close only if the lister shows it not closed / closing, an Open
                 only if the lister shows its marker *)
              match lst s !! r_q x with
              | Some co => bool_decide (q_parent co = Some (r_q r)) &&
                           (if bool_decide (r_act x = AClose) then negb (is_closedish (q_state co))
                            else cbp_true (q_ann co))
              | None => false end)))
            (emitted s s')
      end
  | ECmd q a => bool_decide (wq s' = wq s ++ [mkReq q a EvCmd 0])
  | _ => bool_decide (wq s' = wq s) ||
         match wq s' with
         | [] => false
         | _ => bool_decide (firstn (length (wq s)) (wq s') = wq s) &&
                forallb (fun x => bool_decide (r_act x = ASync) && bool_decide (r_ev x = EvOutOfSync))
                        (skipn (length (wq s)) (wq s')) &&
                bool_decide (length (wq s') = S (length (wq s)))
         end
  end.

(* ---------- FULL-STRENGTH forms (no freshness precondition), evaluated on the
   stale-lister stream, and the exact shapes of the known lag races.  For a law F and
   a race shape R the check evaluates  X = (F \/ R)  without a signature (every other
   failure is reported) and  Y = ~(R /\ ~F)  with the finding's signature. ---------- *)
Definition sync_like (a : act) : bool := match a with ASync | AOther => true | _ => false end.

(* race B: a request that is not Open, on a queue the lister shows Closed with
   spec.parent unset, while the index holds PodGroups *)
Definition shape_B (s : st) (e : ev) (q : positive) : bool :=
  match proc_of s e with
  | Some (r, v) =>
      bool_decide (r_q r = q) && negb (bool_decide (r_act r = AOpen)) &&
      bool_decide (q_state v = SClosed) && bool_decide (q_parent v = None) &&
      negb (bool_decide (q = root)) && negb (bool_decide (pgs_of (idx s) q = []))
  | None => false
  end.
(* race A and its mirror images (finding C13-stale-lister-sync-overwrites-open): a request
   that is neither Open nor Close is processed for a queue whose lister object is NOT the
   server's object — the state computed from the stale view is applied without any
   precondition (Closing+empty index -> Closed over an Open; "" -> Open over a Closed; ...).
   With an up-to-date lister F_A cannot fail (theorem C13_sync_never_opens_or_closes), so this is exactly the
   mechanism *)
Definition shape_A (s : st) (e : ev) (q : positive) : bool :=
  match proc_of s e with
  | Some (r, v) =>
      bool_decide (r_q r = q) && sync_like (r_act r) && negb (bool_decide (lst s !! q = srv s !! q))
  | None => false
  end.

(* F_B: Closed is entered only with an empty PodGroup index *)
Definition full_closed_empty_at (s s' : st) (q : positive) : bool :=
  implb (changed s s' q && bool_decide (sst (srv s') q = Some SClosed))
        (bool_decide (pgs_of (idx s) q = [])).
(* F_A: a request that is neither Open nor Close moves the SERVER's state only
   "" -> Open and Closing -> Closed (so it never undoes a processed Open command) *)
Definition full_sync_moves_at (s : st) (e : ev) (s' : st) (q : positive) : bool :=
  implb (changed s s' q)
    match proc_of s e with
    | Some (r, v) =>
        negb (sync_like (r_act r)) ||
        (bool_decide (sst (srv s) q = Some SEmpty) && bool_decide (sst (srv s') q = Some SOpen)) ||
        (bool_decide (sst (srv s) q = Some SClosing) && bool_decide (sst (srv s') q = Some SClosed))
    | None => true
    end.

Definition law_full_closed_empty_X (s : st) (e : ev) (s' : st) : bool :=
  forallb (fun q => full_closed_empty_at s s' q || shape_B s e q) (names s s').
Definition law_full_closed_empty_Y (s : st) (e : ev) (s' : st) : bool :=
  forallb (fun q => negb (shape_B s e q && negb (full_closed_empty_at s s' q))) (names s s').
Definition law_full_sync_moves_X (s : st) (e : ev) (s' : st) : bool :=
  forallb (fun q => full_sync_moves_at s e s' q || shape_A s e q || shape_B s e q) (names s s').
Definition law_full_sync_moves_Y (s : st) (e : ev) (s' : st) : bool :=
  forallb (fun q => negb (shape_A s e q && negb (full_sync_moves_at s e s' q))) (names s s').

(* F_C: once the lister has caught up and nothing is pending, no child is left closed
   with closed-by-parent=true under an Open parent (the parent's re-open reached it) *)
Definition stuck_child (s : st) (c : positive) : bool :=
  match srv s !! c with
  | Some co =>
      is_closedish (q_state co) && cbp_true (q_ann co) &&
      match q_parent co with
      | Some p => bool_decide (sst (srv s) p = Some SOpen)
      | None => false
      end
  | None => false
  end.
Definition caught_up (s : st) : bool :=
  bool_decide (wq s = []) && forallb (fun q => bool_decide (lst s !! q = srv s !! q)) (names s s).
Definition law_no_stuck_child (s' : st) : bool :=
  implb (caught_up s') (forallb (fun c => negb (stuck_child s' c)) (map fst (map_to_list (srv s')))).

(* ---------- laws against the PodGroups that REALLY exist (the PodGroup objects, [pgl]),
   not the controller's index; evaluated on the directed family "PodGroup events before
   the queue is in the lister", whose histories keep the index complete (no queue
   deletion, no PodGroup moved between queues without an event the handlers act on) ---------- *)
Definition real_pgs (s : st) (q : positive) : list positive :=
  map fst (filter (fun x : positive * (positive * Z) => bool_decide (fst (snd x) = q)) (map_to_list (pgl s))).

(* Closed is entered only when no PodGroup of the queue exists *)
Definition law_closed_only_when_really_empty (s : st) (e : ev) (s' : st) : bool :=
  forallb (fun q =>
    implb (changed s s' q && bool_decide (sst (srv s') q = Some SClosed))
          (bool_decide (real_pgs s q = []))) (names s s').

(* closing an up-to-date, not yet closed, non-root queue that still has PodGroups yields Closing *)
Definition law_close_with_real_pgs (s : st) (e : ev) (s' : st) (o : outcome) : bool :=
  match proc_of_clean s e with
  | Some (r, v) =>
      let q := r_q r in
      implb (bool_decide (r_act r = AClose) && bool_decide (o = OOk) && negb (bool_decide (q = root)) &&
             negb (bool_decide (q_state v = SClosed)) && negb (bool_decide (q_state v = SInvalid)) &&
             bool_decide (sst (lst s) q = sst (srv s) q) && negb (bool_decide (real_pgs s q = [])))
            (bool_decide (sst (srv s') q = Some SClosing))
  | None => true
  end.

(* ---------- quiescent end states: the lister has caught up and nothing is pending ---------- *)
(* a child that is not closed / closing although its parent (on the server) is *)
Definition open_child_under_closed_parent (s : st) (c : positive) : bool :=
  match srv s !! c with
  | Some co =>
      negb (is_closedish (q_state co)) &&
      match q_parent co with
      | Some p => match sst (srv s) p with Some x => is_closedish x | None => false end
      | None => false
      end
  | None => false
  end.
(* "closing a parent closes its children" / "a child cannot be opened under a closed or
   closing parent", as a statement about every quiescent state *)
Definition law_children_follow_closed_parent (s' : st) : bool :=
  implb (caught_up s')
        (forallb (fun c => negb (open_child_under_closed_parent s' c)) (map fst (map_to_list (srv s')))).

(* ---------- which quiescent failures belong to the two KNOWN classes ----------
   A quiescent failure is attributed to a known finding only if the history contains the
   step that is the finding's mechanism; every other quiescent failure is reported. *)
Definition mem_pos (c : positive) (l : list positive) : bool := existsb (Pos.eqb c) l.

(* C13-quiescent-marked-child-stuck — the steps that are its mechanism, per child:
   (a) a propagated Open for c is processed while the lister shows c open (plain sync:
       nothing written, marker kept);
   (b) the Sync that should heal c (enqueued when c's marker / parent changed) is processed
       while the lister shows c closed and marked but still shows the re-opened parent closed /
       closing: nothing happens and nothing re-syncs c later;
   (c) c's Open is refused because the lister still shows the re-opened parent closed /
       closing (retried; given up when the retry budget is exhausted).
   "p re-opened before the lister shows c's marker" alone is NOT an excuse: since b628b4b the
   delivery of the marker re-syncs c, so a stuck child after that shape alone is a regression. *)
Definition stale_closed_parent (s : st) (v : qobj) : bool :=
  match q_parent v with
  | Some p => match sst (lst s) p with Some x => is_closedish x | None => false end &&
              negb (match sst (srv s) p with Some x => is_closedish x | None => true end)
  | None => false
  end.
Definition exc_stuck (s : st) (e : ev) : list positive :=
  match proc_of s e with
  | Some (r, v) =>
      match r_act r with
      | AOpen =>
          if (bool_decide (r_ev r = EvNone) && (bool_decide (q_state v = SOpen) || bool_decide (q_state v = SEmpty))) ||
             stale_closed_parent s v
          then [r_q r] else []
      | AClose => []
      | _ => if is_closedish (q_state v) && cbp_true (q_ann v) && stale_closed_parent s v then [r_q r] else []
      end
  | None => []
  end.

(* C13-quiescent-open-child-under-closed-parent: (D) c is really opened while the server
   shows its parent closed / closing but the lister does not; (E) p is closed while a
   server-child is not closed but the lister shows it closed / closing (or not at all) *)
Definition exc_open (s : st) (e : ev) : list positive :=
  match proc_of s e with
  | Some (r, v) =>
      match r_act r with
      | AOpen =>
          if negb (bool_decide (q_state v = SOpen)) && negb (bool_decide (q_state v = SEmpty)) &&
             match q_parent v with
             | Some p => match sst (srv s) p with Some x => is_closedish x | None => false end &&
                         negb (match sst (lst s) p with Some x => is_closedish x | None => false end)
             | None => false
             end
          then [r_q r] else []
      | AClose =>
          if is_closedish (q_state v) then [] else
          flat_map (fun cco : positive * qobj =>
                      if bool_decide (q_parent (snd cco) = Some (r_q r)) && negb (is_closedish (q_state (snd cco))) &&
                         match lst s !! fst cco with Some lo => is_closedish (q_state lo) | None => true end
                      then [fst cco] else [])
                   (map_to_list (srv s))
      | _ => []
      end
  | None => []
  end.

(* an excuse expires: once a caught-up state is reached in which the child is NOT in the bad
   shape, the mechanism that occurred earlier no longer explains anything *)
Definition prune_stuck (exc : list positive) (s' : st) : list positive :=
  if caught_up s' then filter (stuck_child s') exc else exc.
Definition prune_open (exc : list positive) (s' : st) : list positive :=
  if caught_up s' then filter (open_child_under_closed_parent s') exc else exc.

(* X = every quiescent failure is one of the known class; Y = no quiescent failure of the known class *)
Definition law_stuck_X (exc : list positive) (s' : st) : bool :=
  implb (caught_up s') (forallb (fun c => negb (stuck_child s' c) || mem_pos c exc) (map fst (map_to_list (srv s')))).
Definition law_stuck_Y (exc : list positive) (s' : st) : bool :=
  implb (caught_up s') (forallb (fun c => negb (stuck_child s' c && mem_pos c exc)) (map fst (map_to_list (srv s')))).
Definition law_openchild_X (exc : list positive) (s' : st) : bool :=
  implb (caught_up s') (forallb (fun c => negb (open_child_under_closed_parent s' c) || mem_pos c exc) (map fst (map_to_list (srv s')))).
Definition law_openchild_Y (exc : list positive) (s' : st) : bool :=
  implb (caught_up s') (forallb (fun c => negb (open_child_under_closed_parent s' c && mem_pos c exc)) (map fst (map_to_list (srv s')))).

(* liveness half of "becomes Closed only when none remain", at the END of a caught-up history
   whose PodGroup events have all been handled: no queue is left Closing although no PodGroup
   object names it and nothing is pending *)
Definition law_no_idle_closing (s' : st) : bool :=
  implb (caught_up s')
        (forallb (fun q => negb (bool_decide (sst (srv s') q = Some SClosing) && bool_decide (real_pgs s' q = [])))
                 (map fst (map_to_list (srv s')))).
