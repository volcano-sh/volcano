(* Proofs about the admission model: soundness of CREATE admission. *)
From Coq Require Import ZArith List Bool Lia.
From V Require Import C09.Model C09.Laws C09.TopoLemmas.
Import ListNotations.
Open Scope Z_scope.

Ltac splits := repeat match goal with |- _ /\ _ => split end.

Lemma wrap32_ge x : min32 <= wrap32 x.
Proof. unfold wrap32, min32. pose proof (Z.mod_pos_bound (x + 2147483648) 4294967296). lia. Qed.
Lemma wrap32_le x : min32 <= x -> wrap32 x <= x.
Proof. unfold wrap32, min32. intros H. pose proof (Z.mod_le (x + 2147483648) 4294967296). lia. Qed.
Lemma wrap32_id x : min32 <= x <= max32 -> wrap32 x = x.
Proof. unfold wrap32, min32, max32. intros H. rewrite Z.mod_small; lia. Qed.

Lemma fold_wrap_le : forall l a, min32 <= a -> (forall x, In x l -> 0 <= x) ->
  fold_left (fun a x => wrap32 (a + x)) l a <= a + sumZ l.
Proof.
  induction l as [|x l IH]; simpl; intros a Ha H; [lia|].
  assert (0 <= x) by auto.
  pose proof (IH (wrap32 (a + x)) (wrap32_ge _) (fun y Hy => H y (or_intror Hy))).
  pose proof (wrap32_le (a + x)). unfold min32 in *. lia.
Qed.
Lemma sum32_le_sumZ l : (forall x, In x l -> 0 <= x) -> sum32 l <= sumZ l.
Proof. intros H. unfold sum32. pose proof (fold_wrap_le l 0 ltac:(unfold min32; lia) H). lia. Qed.

(* what the code compares is the int32 running total; with the CRD's lower bound on replicas
   it is below the mathematical total *)
Lemma replicas32_le_sumZ ts m :
  m <= sum32 (map t_replicas ts) -> (forall t, In t ts -> 0 <= t_replicas t) -> m <= sumZ (map t_replicas ts).
Proof.
  intros H Hr. eapply Z.le_trans; [exact H|]. apply sum32_le_sumZ.
  intros x Hx. apply in_map_iff in Hx. destruct Hx as (t & <- & Ht). auto.
Qed.

Lemma sumZ_nonneg l : (forall x, In x l -> 0 <= x) -> 0 <= sumZ l.
Proof.
  induction l as [|a l IH]; simpl; intros H; [lia|].
  assert (0 <= a) by (apply H; auto). assert (0 <= sumZ l) by (apply IH; intros; apply H; auto). lia.
Qed.

Lemma fold_wrap_exact : forall l a, 0 <= a -> (forall x, In x l -> 0 <= x) -> a + sumZ l <= max32 ->
  fold_left (fun a x => wrap32 (a + x)) l a = a + sumZ l.
Proof.
  induction l as [|x l IH]; simpl; intros a Ha H L; [lia|].
  assert (0 <= x) by auto.
  assert (0 <= sumZ l) by (apply sumZ_nonneg; intros; apply H; simpl; auto).
  rewrite wrap32_id by (unfold min32, max32 in *; lia).
  rewrite IH; auto; lia.
Qed.
Lemma sum32_exact l : (forall x, In x l -> 0 <= x) -> sumZ l <= max32 -> sum32 l = sumZ l.
Proof. intros. unfold sum32. rewrite fold_wrap_exact; auto; lia. Qed.

Record policy_wf (p : policy) : Prop := {
  pw_excl : has_event p = true -> p_exit p = None;                  (* no event together with an exit code *)
  pw_some : has_event p = true \/ exists c, p_exit p = Some c /\ c <> 0;   (* not empty; exit code <> 0 *)
  pw_events : has_event p = true ->
              (forall e, In e (pol_events p) -> event_allowed e = true) /\
              action_allowed (p_action p) = true }.

Fixpoint disjoint_pols (ps : list policy) : Prop :=
  match ps with
  | [] => True
  | p :: r => (forall q e, In q r -> In e (pol_events p) -> ~ In e (pol_events q)) /\ disjoint_pols r
  end.

Record policies_wf (ps : list policy) : Prop := {
  pws_each : Forall policy_wf ps;
  pws_disjoint : disjoint_pols ps;              (* no event in two different policies *)
  pws_codes : NoDup (pol_codes ps);             (* no exit code twice *)
  pws_any : forall p q e, In p ps -> In EV_ANY (pol_events p) -> In q ps -> In e (pol_events q) -> e = EV_ANY }.

Lemma event_list_In p e : In e (event_list p) <-> In e (pol_events p).
Proof. unfold event_list, pol_events. rewrite dedup_In. simpl. tauto. Qed.

Lemma has_event_nonempty p : has_event p = true -> event_list p <> [].
Proof.
  unfold has_event, event_list. destruct (p_events p); simpl; [|intros _; discriminate].
  destruct (p_event p =? 0); simpl; [discriminate|]. intros _. discriminate.
Qed.
Lemma no_event_empty p : has_event p = false -> pol_events p = [].
Proof.
  unfold has_event, pol_events. destruct (p_event p =? 0); simpl; [|discriminate].
  destruct (p_events p); simpl; [auto|discriminate].
Qed.

Lemma ev_loop_spec : forall es a seen seen',
  ev_loop es a seen = Some seen' ->
  (es <> [] -> action_allowed a = true) /\
  (forall e, In e es -> event_allowed e = true /\ ~ In e seen) /\
  (forall x, In x seen' <-> In x seen \/ In x es).
Proof.
  induction es as [|e r IH]; intros a seen seen' H; simpl in H.
  - inversion H; subst. splits.
    + intros C. exfalso. apply C. reflexivity.
    + intros e [].
    + intros x. simpl. tauto.
  - destruct (event_allowed e) eqn:E1; simpl in H; [|discriminate].
    destruct (action_allowed a) eqn:E2; simpl in H; [|discriminate].
    destruct (memb e seen) eqn:E3; [discriminate|]. apply memb_false in E3.
    apply IH in H. destruct H as (_ & H2 & H3). splits.
    + intros _. auto.
    + intros e' [<-|He]; [split; auto|]. destruct (H2 _ He) as [X Y]. split; auto.
      intros C. apply Y. simpl. auto.
    + intros x. rewrite H3. simpl. tauto.
Qed.

Lemma pol_loop_spec : forall ps evs codes evs',
  pol_loop ps evs codes = Some evs' ->
  Forall policy_wf ps /\ disjoint_pols ps /\ NoDup (pol_codes ps) /\
  (forall c, In c (pol_codes ps) -> ~ In c codes) /\
  (forall p e, In p ps -> In e (pol_events p) -> ~ In e evs) /\
  (forall x, In x evs' <-> In x evs \/ In x (flat_map pol_events ps)).
Proof.
  induction ps as [|p r IH]; intros evs codes evs' H; simpl in H.
  - inversion H; subst. splits.
    + constructor.
    + exact I.
    + constructor.
    + intros c [].
    + intros p e [].
    + intros x. simpl. tauto.
  - destruct (has_event p) eqn:HE; simpl in H.
    + destruct (p_exit p) eqn:EX; simpl in H; [discriminate|].
      destruct (ev_loop (event_list p) (p_action p) evs) as [evs1|] eqn:EL; [|discriminate].
      apply ev_loop_spec in EL. destruct EL as (A1 & A2 & A3).
      apply IH in H. destruct H as (B1 & B2 & B3 & B4 & B5 & B6).
      splits.
      * constructor; auto. constructor.
        -- intros _. auto.
        -- left. auto.
        -- intros _. split; [|apply A1, has_event_nonempty, HE]. intros e He. apply event_list_In in He. apply A2; auto.
      * simpl. split; auto. intros q e Hq He Hc. apply (B5 q e Hq Hc). apply A3. right.
        now apply event_list_In.
      * simpl. rewrite EX. simpl. auto.
      * simpl. rewrite EX. simpl. auto.
      * intros q e [<-|Hq] He.
        -- apply event_list_In in He. apply A2; auto.
        -- intros Hc. apply (B5 q e Hq He). apply A3. auto.
      * intros x. pose proof (B6 x) as X. pose proof (A3 x) as Y. pose proof (event_list_In p x) as Z.
        simpl. rewrite in_app_iff. clear - X Y Z. tauto.
    + destruct (p_exit p) as [c|] eqn:EX; simpl in H; [|discriminate].
      destruct (c =? 0) eqn:C0; [discriminate|]. apply Z.eqb_neq in C0.
      destruct (memb c codes) eqn:MC; [discriminate|]. apply memb_false in MC.
      apply IH in H. destruct H as (B1 & B2 & B3 & B4 & B5 & B6).
      pose proof (no_event_empty p HE) as EE.
      splits.
      * constructor; auto. constructor.
        -- intros C. congruence.
        -- right. eauto.
        -- intros C. congruence.
      * simpl. split; auto. intros q e _ He. rewrite EE in He. destruct He.
      * simpl. rewrite EX. simpl. constructor; auto. intros Hc. apply (B4 c Hc). simpl. auto.
      * simpl. rewrite EX. simpl. intros c' [<-|Hc]; auto. intros Hc'. apply (B4 c' Hc). simpl. auto.
      * intros q e [<-|Hq] He; [rewrite EE in He; destruct He|]. eapply B5; eauto.
      * intros x. pose proof (B6 x) as X. simpl. rewrite EE. simpl. clear - X. tauto.
Qed.

Lemma policies_ok_sound ps : policies_ok ps = true -> policies_wf ps.
Proof.
  unfold policies_ok. destruct (pol_loop ps [] []) as [evs|] eqn:E; [|discriminate].
  intros H. apply pol_loop_spec in E. destruct E as (B1 & B2 & B3 & _ & _ & B6).
  constructor; auto.
  intros p q e Hp Hany Hq He.
  assert (I1 : In EV_ANY evs) by (apply B6; right; apply in_flat_map; eauto).
  assert (I2 : In e evs) by (apply B6; right; apply in_flat_map; eauto).
  apply memb_In in I1. rewrite I1 in H. simpl in H. apply negb_true_iff in H. apply Z.ltb_ge in H.
  apply memb_In in I1.
  destruct evs as [|x [|y l]]; simpl in *; try tauto; try lia.
Qed.

Definition volume_wf (O : oracles) (v : volume) : Prop :=
  v_mount v <> 0 /\
  ((exists c, v_claim v = Some c /\ v_cname v = 0) \/
   (v_claim v = None /\ v_cname v <> 0 /\ o_pv O (v_cname v) = true)).
Definition volumes_wf (O : oracles) (vs : list volume) : Prop :=
  Forall (volume_wf O) vs /\ NoDup (map v_mount vs).

(* one round of a loop that rejects a key already in its seen-map *)
Lemma seen_step {A} (f : A -> Z) v r seen :
  ~ In (f v) seen -> (forall w, In w r -> ~ In (f w) (f v :: seen)) ->
  ~ In (f v) (map f r) /\ forall w, In w (v :: r) -> ~ In (f w) seen.
Proof.
  intros MS H3. split.
  - intros Hc. apply in_map_iff in Hc. destruct Hc as (w & E & Hw). apply (H3 w Hw). rewrite E. simpl. auto.
  - intros w [<-|Hw]; auto. intros Hc. apply (H3 w Hw). simpl. auto.
Qed.

Lemma vol_loop_spec O : forall vs seen, vol_loop O vs seen = true ->
  Forall (volume_wf O) vs /\ NoDup (map v_mount vs) /\ forall v, In v vs -> ~ In (v_mount v) seen.
Proof.
  induction vs as [|v r IH]; intros seen H; simpl in H.
  - splits; [constructor|constructor|intros v []].
  - destruct (v_mount v =? 0) eqn:M0; [discriminate|]. apply Z.eqb_neq in M0.
    destruct (memb (v_mount v) seen) eqn:MS; [discriminate|]. apply memb_false in MS.
    pose proof (seen_step v_mount v r seen MS) as K.
    destruct (v_claim v) as [c|] eqn:CL; simpl in H.
    + destruct (v_cname v =? 0) eqn:CN; simpl in H; [|discriminate]. apply Z.eqb_eq in CN.
      apply IH in H. destruct H as (H1 & H2 & H3). destruct (K H3) as [K1 K2]. splits; auto.
      * constructor; auto. split; auto. left. eauto.
      * simpl. constructor; auto.
    + destruct (v_cname v =? 0) eqn:CN; simpl in H; [discriminate|]. apply Z.eqb_neq in CN.
      destruct (o_pv O (v_cname v)) eqn:PV; simpl in H; [|discriminate].
      apply IH in H. destruct H as (H1 & H2 & H3). destruct (K H3) as [K1 K2]. splits; auto.
      * constructor; auto. split; auto.
      * simpl. constructor; auto.
Qed.

Definition part_wf (t : task) : Prop :=
  forall p, t_part t = Some p ->
    0 < pp_total p /\ 0 < pp_size p /\ t_replicas t = wrap32 (pp_total p * pp_size p) /\
    (forall m, t_minavail t = Some m -> 0 < pp_min p -> m = wrap32 (pp_min p * pp_size p)) /\
    pp_nt p <> NT_CONFLICT.

Record task_wf (O : oracles) (jn : Z) (idx : nat) (t : task) : Prop := {
  tw_minavail : forall m, t_minavail t = Some m -> m <= t_replicas t;
  tw_tmpl : o_tmpl O (t_name t) (tm_id (t_tmpl t)) = true;
  tw_pod : o_pod O jn (t_name t) idx = true;
  tw_policies : policies_wf (t_policies t);
  tw_part : part_wf t }.

Lemma partition_ok_sound t : partition_ok t = true -> part_wf t.
Proof.
  unfold partition_ok, part_wf. intros H p E. rewrite E in H.
  apply andb_true_iff in H. destruct H as [H1 H2]. unfold part_arith_ok in H1.
  destruct (pp_total p <=? 0) eqn:A; [discriminate|]. apply Z.leb_gt in A.
  destruct (pp_size p <=? 0) eqn:B; [discriminate|]. apply Z.leb_gt in B.
  destruct (t_replicas t =? wrap32 (pp_total p * pp_size p)) eqn:C; simpl in H1; [|discriminate].
  apply Z.eqb_eq in C. repeat split; auto.
  - intros m Em Hm. rewrite Em in H1. apply Z.ltb_lt in Hm. rewrite Hm in H1. simpl in H1.
    destruct (wrap32 (pp_min p * pp_size p) =? m) eqn:D; simpl in H1; [|discriminate].
    apply Z.eqb_eq in D. auto.
  - apply negb_true_iff in H2. now apply Z.eqb_neq.
Qed.

Lemma task_loop_spec O jn : forall ts idx st,
  tl_bad (task_loop O jn idx ts st) = false ->
  tl_bad st = false /\ NoDup (map t_name ts) /\
  (forall t, In t ts -> ~ In (t_name t) (tl_seen st)) /\
  (forall k t, nth_error ts k = Some t -> task_wf O jn (idx + k) t) /\
  tl_total (task_loop O jn idx ts st) =
    fold_left (fun a x => wrap32 (a + x)) (map t_replicas ts) (tl_total st) /\
  tl_hasdeps (task_loop O jn idx ts st) =
    tl_hasdeps st || existsb (fun t => is_some (t_deps t)) ts.
Proof.
  induction ts as [|t r IH]; intros idx st H; simpl in *.
  - splits; auto.
    + constructor.
    + intros k t Hk. destruct k; discriminate.
    + now rewrite orb_false_r.
  - destruct (memb (t_name t) (tl_seen st)) eqn:MS; [simpl in H; discriminate|].
    apply memb_false in MS. apply IH in H. simpl in H.
    destruct H as (H1 & H2 & H3 & H4 & H5 & H6).
    apply orb_false_iff in H1. destruct H1 as [H1 Hb]. apply orb_false_iff in H1. destruct H1 as [H0 Hm].
    apply negb_false_iff in Hb, Hm. destruct (seen_step t_name t r _ MS H3) as [K1 K2]. splits; auto.
    + constructor; auto.
    + intros k w Hk. destruct k as [|k]; simpl in Hk.
      * inversion Hk; subst w. replace (idx + 0)%nat with idx by lia.
        unfold task_body_ok in Hb.
        apply andb_true_iff in Hb. destruct Hb as [Hb Hb4].
        apply andb_true_iff in Hb. destruct Hb as [Hb Hb3].
        apply andb_true_iff in Hb. destruct Hb as [Hb1 Hb2].
        constructor; auto.
        -- intros m Em. unfold minavail_le_replicas in Hm. rewrite Em in Hm. now apply Z.leb_le.
        -- now apply policies_ok_sound.
        -- now apply partition_ok_sound.
      * replace (idx + S k)%nat with (S idx + k)%nat by lia. exact (H4 _ _ Hk).
    + rewrite H6. simpl. now rewrite orb_assoc.
Qed.

Definition queue_wf (qs : list queue) (qn : Z) : Prop :=
  exists q, In q qs /\ q_name q = qn /\ q_state q = ST_OPEN /\ qn <> Q_ROOT /\
            forall c, In c qs -> q_parent c <> qn.

Lemma queue_ok_sound qs qn : queue_ok qs qn = true -> queue_wf qs qn.
Proof.
  unfold queue_ok. destruct (find _ qs) as [q|] eqn:F; [|discriminate].
  apply find_some in F. destruct F as [F1 F2]. apply Z.eqb_eq in F2.
  intros H. apply andb_true_iff in H. destruct H as [H H3]. apply andb_true_iff in H. destruct H as [H1 H2].
  apply Z.eqb_eq in H1. apply negb_true_iff in H2, H3. apply Z.eqb_neq in H2.
  exists q. repeat split; auto; try congruence.
  intros c Hc E. rewrite <- not_true_iff_false in H3. apply H3. apply existsb_exists. exists c. split; auto.
  apply Z.eqb_eq. congruence.
Qed.

Definition has_deps (ts : list task) : Prop := exists t, In t ts /\ t_deps t <> None.

Record create_spec (O : oracles) (qs : list queue) (j : job) : Prop := {
  cs_tasks : j_tasks j <> [];
  cs_names : NoDup (map t_name (j_tasks j));
  cs_task : forall k t, nth_error (j_tasks j) k = Some t -> task_wf O (j_name j) k t;
  (* what the code compares: the int32 running total *)
  cs_minavail32 : j_minavail j <= sum32 (map t_replicas (j_tasks j));
  (* with the CRD's lower bound on replicas this is the mathematical total *)
  cs_minavail : (forall t, In t (j_tasks j) -> 0 <= t_replicas t) ->
                j_minavail j <= sumZ (map t_replicas (j_tasks j));
  cs_deps : has_deps (j_tasks j) -> exists order, topo_order (graph_of (j_tasks j)) order;
  cs_policies : policies_wf (j_policies j);
  cs_volumes : volumes_wf O (j_volumes j);
  cs_plugins : forall p, In p (plugins_of j) -> plugin_known (pl_name p) = true;
  cs_mpi : forall p, mpi_plugin j = Some p ->
           exists t, In t (j_tasks j) /\ t_name t = mpi_master_name p;
  cs_queue : queue_wf qs (j_queue j);
  cs_nt : j_nt j <> NT_CONFLICT;
  cs_jobname : o_job O (j_name j) = true }.

Theorem admit_create_sound : forall O qs j,
  validate_create O qs j = true -> create_spec O qs j.
Proof.
  intros O qs j H. unfold validate_create in H.
  destruct (is_nil (j_tasks j)) eqn:NIL; [discriminate|].
  destruct (mpi_ok j) eqn:MPI; [|discriminate]. cbn [negb] in H.
  set (st := task_loop O (j_name j) 0 (j_tasks j) (mkTl false 0 false [])) in *.
  repeat (apply andb_true_iff in H; let H' := fresh "C" in destruct H as [H H']).
  apply negb_true_iff in H, C6, C4. apply Z.eqb_neq in H. apply Z.ltb_ge in C4.
  destruct (task_loop_spec O (j_name j) (j_tasks j) 0 (mkTl false 0 false []) C6)
    as (_ & T2 & _ & T4 & T5 & T6). fold st in T5, T6. simpl in T5, T6.
  assert (S32 : j_minavail j <= sum32 (map t_replicas (j_tasks j))) by (unfold sum32; rewrite <- T5; lia).
  constructor; auto.
  - intros Cn. rewrite Cn in NIL. discriminate.
  - now apply replicas32_le_sumZ.
  - intros (t & Ht & Hd).
    assert (HD : tl_hasdeps st = true).
    { rewrite T6. apply existsb_exists. exists t. split; auto. destruct (t_deps t); [auto|congruence]. }
    rewrite HD in C. simpl in C. unfold is_dag in C.
    destruct (topo (graph_of (j_tasks j))) as [order| |] eqn:TP; try discriminate.
    exists order. now apply toposort_sound.
  - now apply policies_ok_sound.
  - unfold volumes_ok in C1. apply vol_loop_spec in C1. destruct C1 as (V1 & V2 & _). split; auto.
  - intros p Hp. rewrite forallb_forall in C2. auto.
  - intros p Hp. unfold mpi_ok in MPI. rewrite Hp in MPI. apply existsb_exists in MPI.
    destruct MPI as (t & Ht & E). apply Z.eqb_eq in E. eauto.
  - now apply queue_ok_sound.
Qed.

(* the names in the accepted dependency graph are the task names: so the
   order of cs_deps is an order of the tasks *)
Lemma gnames_graph_of ts : gnames (graph_of ts) = map t_name ts.
Proof. unfold gnames, graph_of. rewrite map_map. reflexivity. Qed.

(* Oracles that accept everything and a one-task job aimed at queue q: the witnesses of the Props
   examples about terminating queue objects (C09_create_terminating_child_still_blocks,
   C09_create_admits_terminating_target).  "Leaf" in cs_queue means that no queue OBJECT names the
   queue as parent: it quantifies over every element of the table, terminating ones included, so a
   child that is only terminating still makes its parent a non-leaf. *)
Definition tq_oracles := mkOracles (fun _ _ => true) (fun _ _ _ => true) (fun _ => true) (fun _ => true).
Definition tq_job (q : Z) : job :=
  mkJob 7 [mkTask 4 1 (Some 1) (mkTmpl 1 false 0) [] 3 None None] 1 [] [] None q 1 3 0 0 0 false.
