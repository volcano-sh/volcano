(* What the executable laws MEAN: law ... = true implies the property clause as a
   Prop (the same Prop records the admission theorems conclude), and for the leaf
   checkers the converse, so that the failing-input search and the theorems speak
   about the same predicates. *)
From Coq Require Import ZArith List Bool Lia Permutation.
From V Require Import C09.Model C09.Laws C09.TopoLemmas C09.Lemmas C09.Lemmas2.
Import ListNotations.
Open Scope Z_scope.

Ltac bsplit H :=
  repeat match type of H with
         | (_ && _ = true) => let H2 := fresh "B" in apply andb_true_iff in H; destruct H as [H H2]
         end.

Lemma nodupb_NoDup l : nodupb l = true <-> NoDup l.
Proof.
  induction l as [|a l IH]; simpl.
  - split; [constructor|reflexivity].
  - rewrite andb_true_iff, negb_true_iff, IH, memb_false. split.
    + intros [A B]. now constructor.
    + intros H. inversion H; subst. auto.
Qed.

Lemma pol_shape_ok_iff p : pol_shape_ok p = true <-> policy_wf p.
Proof.
  unfold pol_shape_ok. destruct (has_event p) eqn:HE.
  - split.
    + intros H. bsplit H. apply negb_true_iff in H. rewrite forallb_forall in B0.
      constructor.
      * intros _. destruct (p_exit p); [discriminate|reflexivity].
      * left. exact HE.
      * intros _. split; auto.
    + intros [A B C]. rewrite (A HE). destruct (C HE) as [C1 C2]. simpl.
      rewrite C2, andb_true_r. apply forallb_forall. exact C1.
  - split.
    + intros H. destruct (p_exit p) as [c|] eqn:E; [|discriminate]. apply negb_true_iff in H.
      apply Z.eqb_neq in H. constructor.
      * intros C. congruence.
      * right. eauto.
      * intros C. congruence.
    + intros [A [B|(c & E & N)] C]; [congruence|]. rewrite E. apply negb_true_iff. now apply Z.eqb_neq.
Qed.

Lemma pol_disjoint_iff ps : pol_disjoint ps = true <-> disjoint_pols ps.
Proof.
  induction ps as [|p r IH]; simpl; [tauto|].
  rewrite andb_true_iff, IH, forallb_forall. split.
  - intros [A B]. split; auto. intros q e Hq He Hc. specialize (A q Hq). rewrite forallb_forall in A.
    specialize (A e He). apply negb_true_iff in A. apply memb_false in A. contradiction.
  - intros [A B]. split; auto. intros q Hq. apply forallb_forall. intros e He.
    apply negb_true_iff. apply memb_false. eapply A; eauto.
Qed.

Theorem policies_wf_b_iff ps : policies_wf_b ps = true <-> policies_wf ps.
Proof.
  unfold policies_wf_b. split.
  - intros H. bsplit H. rewrite forallb_forall in H. constructor.
    + apply Forall_forall. intros p Hp. apply pol_shape_ok_iff. auto.
    + now apply pol_disjoint_iff.
    + now apply nodupb_NoDup.
    + intros p q e Hp Hany Hq He.
      assert (I1 : In EV_ANY (flat_map pol_events ps)) by (apply in_flat_map; eauto).
      assert (I2 : In e (flat_map pol_events ps)) by (apply in_flat_map; eauto).
      apply memb_In in I1. rewrite I1 in B. simpl in B. rewrite forallb_forall in B.
      specialize (B e I2). apply Z.eqb_eq in B. auto.
  - intros [A B C D]. rewrite Forall_forall in A.
    repeat (apply andb_true_iff; split).
    + apply forallb_forall. intros p Hp. apply pol_shape_ok_iff. auto.
    + now apply pol_disjoint_iff.
    + now apply nodupb_NoDup.
    + destruct (memb EV_ANY (flat_map pol_events ps)) eqn:M; [|reflexivity]. simpl.
      apply memb_In in M. apply in_flat_map in M. destruct M as (p & Hp & Hany).
      apply forallb_forall. intros e He. apply in_flat_map in He. destruct He as (q & Hq & He).
      apply Z.eqb_eq. symmetry. exact (D p q e Hp Hany Hq He).
Qed.

Lemma vol_shape_ok_iff O v : vol_shape_ok O v = true <-> volume_wf O v.
Proof.
  unfold vol_shape_ok, volume_wf. rewrite andb_true_iff, negb_true_iff, Z.eqb_neq.
  destruct (v_claim v) as [c|].
  - rewrite Z.eqb_eq. split.
    + intros [A B]. split; auto. left. eauto.
    + intros [A [(c' & _ & B)|(B & _)]]; [auto|discriminate].
  - rewrite andb_true_iff, negb_true_iff, Z.eqb_neq. split.
    + intros [A [B C]]. split; auto.
    + intros [A [(c' & B & _)|(_ & B & C)]]; [discriminate|auto].
Qed.
Lemma vol_shape_weak_iff O v : vol_shape_weak O v = true <-> volume_wf_weak O v.
Proof.
  unfold vol_shape_weak, volume_wf_weak. rewrite andb_true_iff, negb_true_iff, Z.eqb_neq.
  destruct (v_claim v) as [c|].
  - split; [intros [A _]; split; auto; intros C; discriminate|intros [A _]; auto].
  - rewrite andb_true_iff, negb_true_iff, Z.eqb_neq. split.
    + intros [A [B C]]. split; auto.
    + intros [A B]. destruct (B eq_refl). auto.
Qed.
Theorem volumes_wf_b_iff O strong vs : volumes_wf_b O strong vs = true <->
  Forall (if strong then volume_wf O else volume_wf_weak O) vs /\ NoDup (map v_mount vs).
Proof.
  unfold volumes_wf_b. rewrite andb_true_iff, nodupb_NoDup, forallb_forall, Forall_forall.
  split; intros [A B]; split; auto; intros v Hv; destruct strong;
    [apply vol_shape_ok_iff|apply vol_shape_weak_iff|apply vol_shape_ok_iff|apply vol_shape_weak_iff]; auto.
Qed.

Theorem queue_wf_b_iff qs qn : queue_wf_b qs qn = true <-> queue_wf qs qn.
Proof.
  unfold queue_wf_b, queue_wf. split.
  - intros H. bsplit H. apply existsb_exists in H. destruct H as (q & Hq & E).
    apply andb_true_iff in E. destruct E as [E1 E2]. apply Z.eqb_eq in E1. apply Z.eqb_eq in E2.
    apply negb_true_iff in B0. apply Z.eqb_neq in B0. rewrite forallb_forall in B.
    exists q. repeat split; auto. intros c Hc. specialize (B c Hc). apply negb_true_iff in B.
    now apply Z.eqb_neq.
  - intros (q & Hq & E1 & E2 & N & C). repeat (apply andb_true_iff; split).
    + apply existsb_exists. exists q. split; auto. apply andb_true_iff. split; now apply Z.eqb_eq.
    + apply negb_true_iff. now apply Z.eqb_neq.
    + apply forallb_forall. intros c Hc. apply negb_true_iff. apply Z.eqb_neq. auto.
Qed.

Lemma part_wf_b_sound t : part_wf_b t = true -> part_wf t.
Proof.
  unfold part_wf_b, part_wf. intros H p E. rewrite E in H. bsplit H.
  apply Z.ltb_lt in H. apply Z.ltb_lt in B2. apply Z.eqb_eq in B1. apply negb_true_iff in B.
  apply Z.eqb_neq in B. repeat split; auto.
  intros m Em Hm. rewrite Em in B0. apply Z.ltb_lt in Hm. rewrite Hm in B0. simpl in B0. now apply Z.eqb_eq.
Qed.

Lemma task_wf_b_sound O jn i t : task_wf_b O jn (i, t) = true -> task_wf O jn i t.
Proof.
  unfold task_wf_b. cbn [fst snd]. intros H. bsplit H. constructor; auto.
  - intros m Em. rewrite Em in H. now apply Z.leb_le.
  - now apply policies_wf_b_iff.
  - now apply part_wf_b_sound.
Qed.

Lemma indexed_nth {A} : forall (l : list A) i k x, nth_error l k = Some x -> In ((i + k)%nat, x) (indexed i l).
Proof.
  induction l as [|a l IH]; intros i k x H; destruct k; simpl in *; try discriminate.
  - inversion H; subst. left. f_equal. lia.
  - right. replace (i + S k)%nat with (S i + k)%nat by lia. auto.
Qed.

Lemma partition_facts {A} (f : A -> bool) : forall l a b, partition f l = (a, b) ->
  (forall x, In x a -> f x = true /\ In x l) /\ (forall x, In x b -> In x l) /\ Permutation l (a ++ b).
Proof.
  induction l as [|x l IH]; intros a b H; simpl in H.
  - inversion H; subst. split; [intros x []|split; [intros x []|constructor]].
  - destruct (partition f l) as [a0 b0]. destruct (IH _ _ eq_refl) as (I1 & I2 & I3).
    destruct (f x) eqn:F; inversion H; subst; (split; [|split]).
    + intros y [<-|Hy]; [split; simpl; auto|]. destruct (I1 _ Hy). simpl. auto.
    + intros y Hy. simpl. auto.
    + simpl. constructor. exact I3.
    + intros y Hy. destruct (I1 _ Hy). simpl. auto.
    + intros y [<-|Hy]; simpl; auto.
    + rewrite <- Permutation_middle. constructor. exact I3.
Qed.

Section Peel.
Variable G : graph.
Hypothesis NDG : NoDup (gnames G).

Lemma resp_ready : forall r done,
  (forall nd, In nd r -> In nd G /\ incl (snd nd) done) -> resp G done -> resp G (map fst r ++ done).
Proof.
  induction r as [|[n ds] r IH]; intros done H R; simpl; auto.
  split.
  - intros ds' Hd. destruct (H (n, ds) (or_introl eq_refl)) as [H1 H2]. simpl in H2.
    rewrite (node_unique G NDG _ _ _ Hd H1). intros x Hx. apply in_or_app. right. auto.
  - apply IH; auto. intros nd Hnd. apply H. right. exact Hnd.
Qed.

Lemma peel_sound : forall n g' done,
  incl g' G -> resp G done -> Permutation (gnames G) (gnames g' ++ done) ->
  peel n g' done = true -> exists rs, resp G rs /\ Permutation (gnames G) rs.
Proof.
  induction n as [|n IH]; intros g' done I R P H; simpl in H.
  - destruct g'; [|discriminate]. exists done. auto.
  - destruct g' as [|x g'']; [exists done; auto|].
    destruct (partition (ready done) (x :: g'')) as [r w] eqn:E.
    destruct (partition_facts _ _ _ _ E) as (F1 & F2 & F3).
    destruct r as [|y r']; [discriminate|].
    apply IH in H; auto.
    + intros z Hz. apply I. apply F2. exact Hz.
    + apply resp_ready; auto. intros nd Hnd. destruct (F1 _ Hnd) as [Rd Hin]. split; [apply I; exact Hin|].
      unfold ready in Rd. rewrite forallb_forall in Rd. intros d Hd. apply memb_In. auto.
    + rewrite P. unfold gnames at 1. rewrite (Permutation_map fst F3), map_app. fold (gnames w).
      rewrite (app_assoc (gnames w)). apply Permutation_app_tail. apply Permutation_app_comm.
Qed.
End Peel.

Theorem deps_ok_b_sound g : NoDup (gnames g) -> deps_ok_b g = true -> exists order, topo_order g order.
Proof.
  intros ND H. unfold deps_ok_b in H.
  destruct (peel_sound g ND (length g) g [] (fun x Hx => Hx) I) as (rs & R & P); auto.
  { rewrite app_nil_r. reflexivity. }
  exists (rev rs). apply resp_topo_order; auto. now symmetry.
Qed.

Record intrinsic_clauses (O : oracles) (strong : bool) (j : job) : Prop := {
  ic_tasks : j_tasks j <> [];
  ic_names : NoDup (map t_name (j_tasks j));
  ic_task : forall k t, nth_error (j_tasks j) k = Some t -> task_wf O (j_name j) k t;
  ic_minavail : (forall t, In t (j_tasks j) -> 0 <= t_replicas t) ->
                j_minavail j <= sumZ (map t_replicas (j_tasks j));
  ic_deps : has_deps (j_tasks j) -> exists order, topo_order (graph_of (j_tasks j)) order;
  ic_policies : policies_wf (j_policies j);
  ic_volumes : if strong then volumes_wf O (j_volumes j)
               else Forall (volume_wf_weak O) (j_volumes j) /\ NoDup (map v_mount (j_volumes j));
  ic_plugins : forall p, In p (plugins_of j) -> plugin_known (pl_name p) = true;
  ic_mpi : forall p, mpi_plugin j = Some p ->
           exists t, In t (j_tasks j) /\ t_name t = mpi_master_name p;
  ic_nt : j_nt j <> NT_CONFLICT;
  ic_jobname : o_job O (j_name j) = true }.

Theorem holds_intrinsic_sound O strong j :
  holds_intrinsic O strong j = true -> intrinsic_clauses O strong j.
Proof.
  unfold holds_intrinsic. intros H. bsplit H.
  apply negb_true_iff in H. apply nodupb_NoDup in B8. rewrite forallb_forall in B7.
  constructor; auto.
  - intros C. rewrite C in H. discriminate.
  - intros k t Hk. apply task_wf_b_sound. apply B7. apply (indexed_nth _ 0%nat k t Hk).
  - intros Hr. destruct (forallb _ (j_tasks j)) eqn:F in B6.
    + simpl in B6. now apply Z.leb_le.
    + exfalso. rewrite <- not_true_iff_false in F. apply F. apply forallb_forall.
      intros t Ht. apply Z.leb_le. auto.
  - intros (t & Ht & Hd).
    assert (E : existsb (fun t => is_some (t_deps t)) (j_tasks j) = true).
    { apply existsb_exists. exists t. split; auto. destruct (t_deps t); [reflexivity|congruence]. }
    rewrite E in B5. simpl in B5. apply deps_ok_b_sound; auto. now rewrite gnames_graph_of.
  - now apply policies_wf_b_iff.
  - destruct strong; [now apply (volumes_wf_b_iff O true)|now apply (volumes_wf_b_iff O false)].
  - intros p Hp. rewrite forallb_forall in B2. auto.
  - intros p Hp. rewrite Hp in B1. apply memb_In in B1. apply in_map_iff in B1.
    destruct B1 as (t & E & Ht). eauto.
  - apply negb_true_iff in B0. now apply Z.eqb_neq.
Qed.

Lemma task_update_ok_sound o n : task_update_ok o n = true ->
  same_immutable o n /\ 0 <= t_replicas n /\
  (forall m, t_minavail n = Some m -> 0 <= m <= t_replicas n) /\ part_wf n.
Proof.
  unfold task_update_ok. intros H. bsplit H. unfold sb in H.
  destruct (task_eq_dec _ n) as [E|]; [|discriminate]. apply Z.leb_le in B1.
  split; [|split; [auto|split; [|now apply part_wf_b_sound]]].
  - unfold same_immutable. rewrite <- E. simpl. tauto.
  - intros m Em. rewrite Em in B0. apply andb_true_iff in B0. destruct B0 as [X Y].
    apply Z.leb_le in X. apply Z.leb_le in Y. lia.
Qed.
Lemma tasks_update_ok_sound : forall os ns, tasks_update_ok os ns = true ->
  Forall2 same_immutable os ns /\
  forall t, In t ns -> 0 <= t_replicas t /\ (forall m, t_minavail t = Some m -> 0 <= m <= t_replicas t) /\ part_wf t.
Proof.
  induction os as [|o r IH]; intros [|n nr] H; simpl in H; try discriminate.
  - split; [constructor|intros t []].
  - apply andb_true_iff in H. destruct H as [H1 H2]. apply task_update_ok_sound in H1.
    destruct H1 as (S & R). destruct (IH _ H2) as [F A]. split; [constructor; auto|].
    intros t [<-|Ht]; auto.
Qed.
Lemma vols_update_ok_sound : forall os ns, vols_update_ok os ns = true -> map norm_vol ns = map norm_vol os.
Proof.
  induction os as [|o r IH]; intros [|n nr] H; simpl in H; try discriminate; [reflexivity|].
  apply andb_true_iff in H. destruct H as [H1 H2]. simpl. rewrite (IH _ H2). f_equal.
  unfold vol_update_ok in H1. apply andb_true_iff in H1. destruct H1 as [M C]. apply Z.eqb_eq in M.
  destruct o as [mo co [ao|]], n as [mn cn [an|]]; simpl in *; try discriminate; apply Z.eqb_eq in C; subst; reflexivity.
Qed.

Lemma before_all_spec g : forall order seen, before_all order seen g = true ->
  forall l1 n l2, order = l1 ++ n :: l2 -> forall ds d, In (n, ds) g -> In d ds -> In d seen \/ In d l1.
Proof.
  induction order as [|a r IH]; intros seen H l1 n l2 E ds d Hn Hd.
  - destruct l1; discriminate.
  - simpl in H. apply andb_true_iff in H. destruct H as [H1 H2]. destruct l1 as [|b l1]; simpl in E.
    + inversion E; subst. rewrite forallb_forall in H1. specialize (H1 _ Hn). simpl in H1.
      rewrite Z.eqb_refl in H1. simpl in H1. rewrite forallb_forall in H1. left. apply memb_In. auto.
    + inversion E; subst. destruct (IH _ H2 _ _ _ eq_refl _ _ Hn Hd) as [[<-|X]|X]; simpl; auto.
Qed.

(* the two shapes of a defaulted number field in laws 102: b is a with 0 replaced by something else,
   or b is a unless a is 0 *)
Lemma filled_field a b : (if a =? 0 then negb (b =? 0) else b =? a) = true -> b <> 0 /\ (a <> 0 -> b = a).
Proof.
  destruct (a =? 0) eqn:E; intros H.
  - apply negb_true_iff, Z.eqb_neq in H. apply Z.eqb_eq in E. split; [auto|congruence].
  - apply Z.eqb_eq in H. apply Z.eqb_neq in E. split; [congruence|auto].
Qed.
Lemma kept_field a b : (if a =? 0 then true else b =? a) = true -> a <> 0 -> b = a.
Proof. intros H N. apply Z.eqb_neq in N. rewrite N in H. now apply Z.eqb_eq. Qed.

Lemma tasks_defaulted_sound : forall ts ms i, tasks_defaulted i ts ms = true ->
  length ms = length ts /\
  forall m, In m ms -> t_name m <> 0 /\ t_minavail m <> None /\ t_maxretry m <> 0.
Proof.
  induction ts as [|t r IH]; intros [|m mr] i H; simpl in H; try discriminate.
  - split; [reflexivity|intros m []].
  - apply andb_true_iff in H. destruct H as [H1 H2]. destruct (IH _ _ H2) as [L A].
    split; [simpl; congruence|]. intros x [<-|Hx]; auto.
    unfold task_defaulted in H1. bsplit H1. repeat split.
    + destruct (t_name t =? 0) eqn:E.
      * apply Z.eqb_eq in H1. rewrite H1. unfold default_name. lia.
      * apply Z.eqb_eq in H1. apply Z.eqb_neq in E. congruence.
    + unfold opt_filled in B6. destruct (t_minavail t), (t_minavail m); try discriminate; congruence.
    + now destruct (filled_field _ _ B2).
Qed.

(* law 103 *)
Theorem law_default_valid_sound j v0 v1 :
  law_default_valid j v0 v1 = true -> v0 = true -> request_in_range j = true -> v1 = true.
Proof. unfold law_default_valid. intros H -> R. rewrite R in H. exact H. Qed.

Definition claimname_step_ok (O : oracles) (o n : volume) : Prop :=
  forall a b, v_claim o = Some a -> v_claim n = Some b ->
    v_cname n = v_cname o \/ (v_cname o = 0 /\ o_pv O (v_cname n) = true).

Lemma vols_fill_ok_sound O : forall os ns, length os = length ns -> vols_fill_ok O os ns = true ->
  Forall2 (claimname_step_ok O) os ns.
Proof.
  induction os as [|o r IH]; intros [|n nr] L H; simpl in *; try discriminate; constructor.
  - apply andb_true_iff in H. destruct H as [H _]. unfold vol_fill_ok in H. intros a b Ea Eb.
    rewrite Ea, Eb in H. apply orb_true_iff in H. destruct H as [H|H].
    + left. now apply Z.eqb_eq.
    + right. apply andb_true_iff in H. destruct H as [H1 H2]. apply Z.eqb_eq in H1. auto.
  - apply andb_true_iff in H. destruct H as [_ H]. apply IH; auto.
Qed.

(* The webhook does NOT guarantee claimname_step_ok (validateJobUpdate blanks the claim name of every
   volume with an inline claim on both sides before comparing and never runs validateIO).  The
   witnesses of Props C09_update_only_three_fields_refuted: an oracle that rejects claim name 10 and
   a one-task job with one volume; an admitted CREATE followed by an admitted UPDATE stores a claim
   name that CREATE's validator rejects, law 107 answers false while laws 104 and 106 answer true. *)
Definition cn_oracles := mkOracles (fun _ _ => true) (fun _ _ _ => true) (fun _ => true) (fun c => negb (c =? 10)).
Definition cn_job (v : volume) : job :=
  mkJob 7 [mkTask 4 1 (Some 1) (mkTmpl 1 false 0) [] 3 None None] 1 [] [v] None 2 1 3 0 0 0 false.
