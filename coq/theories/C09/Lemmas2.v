(* Proofs about defaulting (mutate) and UPDATE admission. *)
From Coq Require Import ZArith List Bool Lia.
From V Require Import C09.Model C09.Laws C09.TopoLemmas C09.Lemmas.
Import ListNotations.
Open Scope Z_scope.

Arguments default_name : simpl never.

Lemma default_name_nonzero i : (default_name i =? 0) = false.
Proof. unfold default_name. apply Z.eqb_neq. lia. Qed.

Lemma mutate_task_idem i t : mutate_task i (mutate_task i t) = mutate_task i t.
Proof.
  destruct t as [n r m [tid hn dns] ps mr dp pp]. unfold mutate_task. cbn.
  f_equal.
  - destruct (n =? 0) eqn:E; [now rewrite default_name_nonzero|now rewrite E].
  - destruct m as [m|]; [reflexivity|]. destruct pp as [p|]; [|reflexivity].
    destruct (0 <? pp_min p); reflexivity.
  - destruct hn; cbn; [|reflexivity]. destruct (dns =? 0) eqn:E; cbn; [reflexivity|now rewrite E].
  - destruct (mr =? 0) eqn:E; [reflexivity|now rewrite E].
Qed.

Lemma mutate_tasks_idem : forall ts i, mutate_tasks i (mutate_tasks i ts) = mutate_tasks i ts.
Proof. induction ts as [|t r IH]; intros i; simpl; [reflexivity|]. now rewrite mutate_task_idem, IH. Qed.

Lemma has_add n m l : has_plugin n (add_plugin m l) = (n =? m) || has_plugin n l.
Proof.
  unfold add_plugin. destruct (has_plugin m l) eqn:E.
  - destruct (n =? m) eqn:E2; [|reflexivity]. apply Z.eqb_eq in E2. subst. now rewrite E.
  - unfold has_plugin. rewrite existsb_app. simpl. rewrite orb_false_r.
    rewrite Z.eqb_sym. apply orb_comm.
Qed.
Lemma add_present n l : has_plugin n l = true -> add_plugin n l = l.
Proof. unfold add_plugin. now intros ->. Qed.

Definition Tb (l : list plugin) : bool :=
  has_plugin PL_TF l || has_plugin PL_MPI l || has_plugin PL_PYTORCH l || has_plugin PL_RAY l.
Lemma mutate_plugins_eq l : mutate_plugins l =
  let l1 := if Tb l then add_plugin PL_SVC l else l in
  if has_plugin PL_MPI l then add_plugin PL_SSH l1 else l1.
Proof. reflexivity. Qed.

Lemma has_mutate n l : has_plugin n (mutate_plugins l) =
  has_plugin n l || (Tb l && (n =? PL_SVC)) || (has_plugin PL_MPI l && (n =? PL_SSH)).
Proof.
  rewrite mutate_plugins_eq. cbv zeta.
  destruct (Tb l), (has_plugin PL_MPI l); rewrite ?has_add;
    destruct (has_plugin n l), (n =? PL_SVC), (n =? PL_SSH); reflexivity.
Qed.

Lemma mutate_plugins_idem l : mutate_plugins (mutate_plugins l) = mutate_plugins l.
Proof.
  rewrite (mutate_plugins_eq (mutate_plugins l)). cbv zeta.
  assert (ET : Tb (mutate_plugins l) = Tb l).
  { unfold Tb. rewrite !has_mutate. cbn [Z.eqb PL_TF PL_MPI PL_PYTORCH PL_RAY PL_SVC PL_SSH Pos.eqb].
    rewrite !andb_false_r, !orb_false_r. reflexivity. }
  assert (EM : has_plugin PL_MPI (mutate_plugins l) = has_plugin PL_MPI l).
  { rewrite has_mutate. cbn [Z.eqb PL_MPI PL_SVC PL_SSH Pos.eqb].
    rewrite !andb_false_r, !orb_false_r. reflexivity. }
  rewrite ET, EM.
  destruct (Tb l) eqn:T, (has_plugin PL_MPI l) eqn:M.
  - rewrite (add_present PL_SVC) by (rewrite has_mutate, T; cbn; now rewrite orb_true_r).
    apply add_present. rewrite has_mutate, M. cbn. now rewrite !orb_true_r.
  - apply add_present. rewrite has_mutate, T. cbn. now rewrite orb_true_r.
  - apply add_present. rewrite has_mutate, M. cbn. now rewrite !orb_true_r.
  - reflexivity.
Qed.

Theorem default_idempotent : forall d j, mutate d (mutate d j) = mutate d j.
Proof.
  intros d j. unfold mutate. cbn [j_name j_tasks j_minavail j_policies j_volumes j_plugins j_queue j_sched j_maxretry j_prio j_nt j_rest j_term].
  rewrite mutate_tasks_idem. f_equal.
  - destruct (j_minavail j =? 0) eqn:E.
    + (* the defaulted total is kept whether it is 0 or not *)
      now destruct (sum32 _ =? 0).
    + now rewrite E.
  - destruct (j_plugins j) as [l|]; [|reflexivity]. now rewrite mutate_plugins_idem.
  - destruct (j_queue j =? 0) eqn:E; [reflexivity|now rewrite E].
  - (* an unset scheduler name becomes d; if d itself is 0 the second pass writes d = 0 again *)
    destruct (j_sched j =? 0) eqn:E; [|now rewrite E]. destruct (d =? 0) eqn:E2; [|reflexivity].
    apply Z.eqb_eq in E2. auto.
  - destruct (j_maxretry j =? 0) eqn:E; [reflexivity|now rewrite E].
Qed.

(* everything in a task except replicas and minAvailable *)
Definition same_immutable (o n : task) : Prop :=
  t_name n = t_name o /\ t_tmpl n = t_tmpl o /\ t_policies n = t_policies o /\
  t_maxretry n = t_maxretry o /\ t_deps n = t_deps o /\ t_part n = t_part o.

Definition plugins_view (j : job) : option (list plugin) :=
  match j_plugins j with Some [] => None | x => x end.

Record update_spec (old new : job) : Prop := {
  us_tasks : Forall2 same_immutable (j_tasks old) (j_tasks new);
  us_policies : j_policies new = j_policies old;
  us_volumes : map norm_vol (j_volumes new) = map norm_vol (j_volumes old);
  us_plugins : plugins_view new = plugins_view old;
  us_queue : j_queue new = j_queue old;
  us_sched : j_sched new = j_sched old;
  us_maxretry : j_maxretry new = j_maxretry old;
  us_nt : j_nt new = j_nt old /\ j_nt new <> NT_CONFLICT;
  us_rest : j_rest new = j_rest old;
  (* the replica invariants hold for the new values, lower bounds included *)
  us_replicas : forall t, In t (j_tasks new) ->
      0 <= t_replicas t /\ (forall m, t_minavail t = Some m -> 0 <= m <= t_replicas t) /\ part_wf t;
  us_minavail : 0 <= j_minavail new <= sumZ (map t_replicas (j_tasks new)) }.

Lemma norm_tasks_eq : forall olds news,
  length olds = length news -> norm_tasks olds news = olds -> Forall2 same_immutable olds news.
Proof.
  induction olds as [|o r IH]; intros [|n nr] L H; simpl in *; try discriminate; [constructor|].
  injection L as L. injection H as H1 H2. constructor; auto.
  destruct o; simpl in *. inversion H1; subst. unfold same_immutable. simpl. tauto.
Qed.

Theorem update_only_allowed_fields : forall old new,
  validate_update old new = true -> update_spec old new.
Proof.
  intros old new H. unfold validate_update in H.
  repeat (apply andb_true_iff in H; let H' := fresh "U" in destruct H as [H H']).
  destruct (job_eq_dec _ _) as [E|]; [|discriminate]. clear U.
  apply Nat.eqb_eq in U0. apply negb_true_iff in U1, U3. apply Z.eqb_neq in U1.
  apply Z.leb_le in U2. apply Z.ltb_ge in U3. rewrite forallb_forall in H.
  unfold spec_view, normalize_new, normalize_old in E. cbn in E.
  injection E as Et Ep Ev Epl Eq Es Emr En Er.
  assert (R : forall t, In t (j_tasks new) ->
      0 <= t_replicas t /\ (forall m, t_minavail t = Some m -> 0 <= m <= t_replicas t) /\ part_wf t).
  { intros t Ht. apply H in Ht. unfold update_task_ok in Ht.
    apply andb_true_iff in Ht. destruct Ht as [Ht P]. apply andb_true_iff in Ht. destruct Ht as [A B].
    apply Z.leb_le in A. split; auto. split; [|now apply partition_ok_sound].
    intros m Em. rewrite Em in B. apply andb_true_iff in B. destruct B as [B1 B2].
    apply Z.leb_le in B1. apply Z.leb_le in B2. lia. }
  constructor; try assumption.
  - now apply norm_tasks_eq.
  - now split.
  - split; [assumption|]. apply replicas32_le_sumZ; [exact U3|]. intros t Ht. now destruct (R t Ht).
Qed.

Definition volume_wf_weak (O : oracles) (v : volume) : Prop :=
  v_mount v <> 0 /\ (v_claim v = None -> v_cname v <> 0 /\ o_pv O (v_cname v) = true).

Record job_inv (O : oracles) (j : job) : Prop := {
  ji_tasks : j_tasks j <> [];
  ji_names : NoDup (map t_name (j_tasks j));
  ji_task : forall k t, nth_error (j_tasks j) k = Some t -> task_wf O (j_name j) k t;
  ji_minavail32 : j_minavail j <= sum32 (map t_replicas (j_tasks j));
  ji_deps : has_deps (j_tasks j) -> exists order, topo_order (graph_of (j_tasks j)) order;
  ji_policies : policies_wf (j_policies j);
  ji_volumes : Forall (volume_wf_weak O) (j_volumes j) /\ NoDup (map v_mount (j_volumes j));
  ji_plugins : forall p, In p (plugins_of j) -> plugin_known (pl_name p) = true;
  ji_mpi : forall p, mpi_plugin j = Some p ->
           exists t, In t (j_tasks j) /\ t_name t = mpi_master_name p;
  ji_nt : j_nt j <> NT_CONFLICT;
  ji_jobname : o_job O (j_name j) = true }.

Lemma create_spec_inv O qs j : create_spec O qs j -> job_inv O j.
Proof.
  intros C. destruct C. constructor; auto.
  destruct cs_volumes as [V1 V2]. split; auto.
  eapply Forall_impl; [|exact V1]. intros v [M [(c & E1 & E2)|(E1 & E2 & E3)]]; split; auto.
  intros C. congruence.
Qed.

Lemma Forall2_nth {A B} (R : A -> B -> Prop) : forall l l', Forall2 R l l' ->
  forall k b, nth_error l' k = Some b -> exists a, nth_error l k = Some a /\ R a b.
Proof.
  induction 1 as [|a b l l' H F IH]; intros k x Hk; destruct k; simpl in *; try discriminate.
  - inversion Hk; subst. eauto.
  - eauto.
Qed.
Lemma Forall2_names : forall l l', Forall2 same_immutable l l' ->
  map t_name l' = map t_name l /\ graph_of l' = graph_of l /\ length l' = length l.
Proof.
  induction 1 as [|a b l l' H F IH]; simpl; auto.
  destruct IH as (I1 & I2 & I3). destruct H as (H1 & _ & _ & _ & H5 & _).
  unfold deps_of. rewrite H1, H5, I1, I2, I3. auto.
Qed.
Lemma Forall2_In {A B} (R : A -> B -> Prop) : forall l l', Forall2 R l l' ->
  (forall b, In b l' -> exists a, In a l /\ R a b) /\ (forall a, In a l -> exists b, In b l' /\ R a b).
Proof.
  induction 1 as [|a b l l' H F [IH1 IH2]]; simpl; [split; intros ? []|].
  split; intros x [<-|Hx]; eauto; [destruct (IH1 _ Hx) as (y & ? & ?)|destruct (IH2 _ Hx) as (y & ? & ?)]; eauto.
Qed.

Lemma plugins_view_of j : plugins_of j = match plugins_view j with Some l => l | None => [] end.
Proof. unfold plugins_of, plugins_view. destruct (j_plugins j) as [[|]|]; reflexivity. Qed.
Lemma mpi_plugin_view j : mpi_plugin j =
  match plugins_view j with Some l => find (fun p => pl_name p =? PL_MPI) l | None => None end.
Proof. unfold mpi_plugin, plugins_view. destruct (j_plugins j) as [[|]|]; reflexivity. Qed.

Lemma norm_vol_facts v w : norm_vol v = norm_vol w ->
  v_mount v = v_mount w /\ v_claim v = v_claim w /\ (v_claim v = None -> v_cname v = v_cname w).
Proof.
  unfold norm_vol. destruct v as [m1 n1 [c1|]], w as [m2 n2 [c2|]]; simpl; intros E; inversion E; subst;
    repeat split; auto; discriminate.
Qed.

(* volumes equal up to the claim names under an inline claim: mount paths and the weak form are kept *)
Lemma norm_vols_eq O : forall vs ws, map norm_vol vs = map norm_vol ws ->
  map v_mount vs = map v_mount ws /\ (Forall (volume_wf_weak O) ws -> Forall (volume_wf_weak O) vs).
Proof.
  induction vs as [|v r IH]; intros [|w wr] E; simpl in E; try discriminate; [auto|].
  injection E as E1 E2. apply norm_vol_facts in E1. destruct E1 as (A & B & C).
  destruct (IH _ E2) as [I1 I2]. split; [simpl; congruence|].
  intros F. inversion F as [|? ? [M K] F']; subst. constructor; [|auto].
  split; [congruence|]. intros Hn. rewrite C by auto. apply K. congruence.
Qed.

(* metadata.name is immutable at the API server; the webhook never sees it change *)
Theorem update_preserves_inv : forall O old new,
  j_name new = j_name old -> job_inv O old -> validate_update old new = true -> job_inv O new.
Proof.
  intros O old new EN I H. pose proof H as H0.
  (* ji_minavail32 is about the int32 total the code compares, which update_spec does not keep: U3 *)
  unfold validate_update in H0.
  repeat (apply andb_true_iff in H0; let H' := fresh "U" in destruct H0 as [H0 H']).
  apply negb_true_iff in U3. apply Z.ltb_ge in U3. clear U U0 U1 U2 H0.
  apply update_only_allowed_fields in H. destruct H. destruct I.
  destruct (Forall2_names _ _ us_tasks0) as (N1 & N2 & N3).
  constructor.
  - intros C. rewrite C in N3. destruct (j_tasks old); [auto|discriminate].
  - now rewrite N1.
  - intros k t Hk. destruct (Forall2_nth _ _ _ us_tasks0 _ _ Hk) as (o & Ho & (S1 & S2 & S3 & _ & _ & _)).
    destruct (ji_task0 _ _ Ho). destruct (us_replicas0 t (nth_error_In _ _ Hk)) as (R1 & R2 & R3).
    constructor; rewrite ?EN, ?S1, ?S2, ?S3; auto. intros m Em. apply R2 in Em. lia.
  - exact U3.
  - intros (t & Ht & Hd). rewrite N2. apply ji_deps0.
    destruct (proj1 (Forall2_In _ _ _ us_tasks0) _ Ht) as (o & Ho & (_ & _ & _ & _ & S5 & _)).
    exists o. split; auto. congruence.
  - now rewrite us_policies0.
  - destruct ji_volumes0 as [V1 V2]. destruct (norm_vols_eq O _ _ us_volumes0) as [E F].
    split; [auto|now rewrite E].
  - intros p. rewrite plugins_view_of, us_plugins0, <- plugins_view_of. auto.
  - intros p. rewrite mpi_plugin_view, us_plugins0, <- mpi_plugin_view. intros Hp.
    destruct (ji_mpi0 _ Hp) as (o & Ho & E).
    destruct (proj2 (Forall2_In _ _ _ us_tasks0) _ Ho) as (t & Ht & (S1 & _)). exists t. split; auto. congruence.
  - apply us_nt0.
  - now rewrite EN.
Qed.

(* all histories of UPDATE requests: the stored object keeps the invariant *)
Theorem updates_preserve_inv : forall O us cur,
  Forall (fun u => j_name u = j_name cur) us -> job_inv O cur -> job_inv O (apply_updates cur us).
Proof.
  induction us as [|u r IH]; intros cur F I; simpl; auto.
  inversion F; subst. destruct (validate_update cur u) eqn:V.
  - apply IH.
    + eapply Forall_impl; [|exact H2]. intros a Ha. simpl in Ha. congruence.
    + eapply update_preserves_inv; eauto.
  - apply IH; auto.
Qed.

(* the request with only the fields filled in that validation itself needs
   (task names, queue): "valid modulo defaults" = prefill j is admitted *)
Fixpoint prefill_tasks (i : nat) (ts : list task) : list task :=
  match ts with
  | [] => []
  | t :: r => mkTask (if t_name t =? 0 then default_name i else t_name t) (t_replicas t) (t_minavail t)
                     (t_tmpl t) (t_policies t) (t_maxretry t) (t_deps t) (t_part t)
              :: prefill_tasks (S i) r
  end.
Definition prefill (j : job) : job :=
  mkJob (j_name j) (prefill_tasks 0 (j_tasks j)) (j_minavail j) (j_policies j) (j_volumes j)
        (j_plugins j) (if j_queue j =? 0 then Q_DEFAULT else j_queue j) (j_sched j) (j_maxretry j)
        (j_prio j) (j_nt j) (j_rest j) (j_term j).

Lemma tl_bad_mono O jn : forall ts i st, tl_bad st = true -> tl_bad (task_loop O jn i ts st) = true.
Proof.
  induction ts as [|t r IH]; intros i st H; simpl; auto.
  destruct (memb (t_name t) (tl_seen st)); [reflexivity|]. apply IH. simpl. now rewrite H.
Qed.

Lemma partition_ok_mutate i t : partition_ok t = true -> partition_ok (mutate_task i t) = true.
Proof.
  unfold partition_ok, mutate_task. cbn [t_part]. destruct (t_part t) as [p|]; auto.
  intros H. apply andb_true_iff in H. destruct H as [H1 H2]. apply andb_true_iff. split; auto.
  unfold part_arith_ok in *. cbn [t_replicas t_minavail].
  destruct (pp_total p <=? 0); auto. destruct (pp_size p <=? 0); auto.
  destruct (negb (t_replicas t =? wrap32 (pp_total p * pp_size p))); auto.
  destruct (t_minavail t) as [m|]; auto.
  destruct (0 <? pp_min p) eqn:E; [|reflexivity].
  now rewrite Z.eqb_refl.
Qed.

Lemma loop_transfer O jn : forall ts i st,
  (forall t, In t (mutate_tasks i ts) -> task_min t <= t_replicas t) ->
  tl_bad (task_loop O jn i (prefill_tasks i ts) st) = false ->
  task_loop O jn i (mutate_tasks i ts) st = task_loop O jn i (prefill_tasks i ts) st.
Proof.
  induction ts as [|t r IH]; intros i st G H; [reflexivity|].
  cbn [prefill_tasks mutate_tasks] in *.
  remember (mkTask (if t_name t =? 0 then default_name i else t_name t) (t_replicas t) (t_minavail t)
                    (t_tmpl t) (t_policies t) (t_maxretry t) (t_deps t) (t_part t)) as tp eqn:Etp.
  remember (mutate_task i t) as tm eqn:Etm.
  assert (EN : t_name tm = t_name tp) by (subst; reflexivity).
  assert (ER : t_replicas tm = t_replicas tp) by (subst; reflexivity).
  assert (ED : t_deps tm = t_deps tp) by (subst; reflexivity).
  assert (EP : t_policies tm = t_policies tp) by (subst; reflexivity).
  assert (EI : tm_id (t_tmpl tm) = tm_id (t_tmpl tp)).
  { subst. unfold mutate_task. cbn [t_tmpl].
    destruct (tm_hostnet (t_tmpl t) && (tm_dns (t_tmpl t) =? 0)); reflexivity. }
  assert (EPa : partition_ok tp = true -> partition_ok tm = true).
  { subst. intros X. apply partition_ok_mutate. exact X. }
  cbn [task_loop] in *. rewrite EN, ER, ED.
  destruct (memb (t_name tp) (tl_seen st)) eqn:MS; [cbn in H; discriminate|].
  match type of H with tl_bad (task_loop _ _ _ _ ?s) = false =>
    destruct (tl_bad s) eqn:B; [rewrite tl_bad_mono in H by exact B; discriminate|] end.
  cbn [tl_bad] in B. apply orb_false_iff in B. destruct B as [B Bb]. apply orb_false_iff in B.
  destruct B as [B0 Bm]. apply negb_false_iff in Bb, Bm.
  assert (Mm : minavail_le_replicas tm = true).
  { pose proof (G tm (or_introl eq_refl)) as Gm. unfold minavail_le_replicas, task_min in *.
    destruct (t_minavail tm); [now apply Z.leb_le|reflexivity]. }
  assert (Mb : task_body_ok O jn i tm = true).
  { unfold task_body_ok in *. rewrite EN, EP, EI.
    apply andb_true_iff in Bb. destruct Bb as [Bb P4]. apply andb_true_iff in Bb. destruct Bb as [Bb P3].
    apply andb_true_iff in Bb. destruct Bb as [P1 P2].
    rewrite P1, P2, P3. cbn [andb]. auto. }
  rewrite B0, Bm, Bb, Mm, Mb. cbn [negb orb].
  rewrite B0, Bm, Bb in H. cbn [negb orb] in H.
  apply IH; auto. intros x Hx. apply G. right. exact Hx.
Qed.

Lemma names_mutate_prefill : forall ts i,
  map t_name (mutate_tasks i ts) = map t_name (prefill_tasks i ts) /\
  graph_of (mutate_tasks i ts) = graph_of (prefill_tasks i ts) /\
  map t_replicas (mutate_tasks i ts) = map t_replicas (prefill_tasks i ts).
Proof.
  induction ts as [|t r IH]; intros i; simpl; auto.
  destruct (IH (S i)) as (A & B & C). rewrite A, B, C. auto.
Qed.

Lemma existsb_names x (l l' : list task) : map t_name l = map t_name l' ->
  existsb (fun t => t_name t =? x) l = existsb (fun t => t_name t =? x) l'.
Proof.
  revert l'. induction l as [|a l IH]; intros [|b l'] H; simpl in *; try discriminate; auto.
  injection H as H1 H2. rewrite H1. f_equal. auto.
Qed.

Lemma find_add n l : (n =? PL_MPI) = false ->
  find (fun p => pl_name p =? PL_MPI) (add_plugin n l) = find (fun p => pl_name p =? PL_MPI) l.
Proof.
  intros Hn. unfold add_plugin. destruct (has_plugin n l); auto.
  induction l as [|a l IH]; simpl; [now rewrite Hn|]. destruct (pl_name a =? PL_MPI); auto.
Qed.
Lemma find_mutate l : find (fun p => pl_name p =? PL_MPI) (mutate_plugins l) = find (fun p => pl_name p =? PL_MPI) l.
Proof.
  rewrite mutate_plugins_eq. cbv zeta.
  destruct (has_plugin PL_MPI l), (Tb l); rewrite ?find_add; auto.
Qed.
Lemma known_add n l : plugin_known n = true ->
  forallb (fun p => plugin_known (pl_name p)) l = true ->
  forallb (fun p => plugin_known (pl_name p)) (add_plugin n l) = true.
Proof.
  intros Hn H. unfold add_plugin. destruct (has_plugin n l); auto.
  rewrite forallb_app, H. simpl. now rewrite Hn.
Qed.
Lemma known_mutate l : forallb (fun p => plugin_known (pl_name p)) l = true ->
  forallb (fun p => plugin_known (pl_name p)) (mutate_plugins l) = true.
Proof.
  intros H. rewrite mutate_plugins_eq. cbv zeta.
  destruct (has_plugin PL_MPI l), (Tb l); repeat apply known_add; auto.
Qed.

Lemma sumZ_map_le {A} (f g : A -> Z) l : (forall x, In x l -> f x <= g x) -> sumZ (map f l) <= sumZ (map g l).
Proof.
  induction l as [|a l IH]; simpl; intros H; [lia|].
  assert (f a <= g a) by auto. assert (sumZ (map f l) <= sumZ (map g l)) by auto. lia.
Qed.

Lemma mpi_ok_mutate d j : mpi_ok (mutate d j) = mpi_ok (prefill j).
Proof.
  unfold mpi_ok, mpi_plugin, mutate, prefill. cbn [j_plugins j_tasks].
  destruct (j_plugins j) as [l|]; [|reflexivity]. rewrite find_mutate.
  destruct (find _ l); [|reflexivity]. apply existsb_names, names_mutate_prefill.
Qed.

Lemma plugins_known_mutate d j :
  forallb (fun p => plugin_known (pl_name p)) (plugins_of (prefill j)) = true ->
  forallb (fun p => plugin_known (pl_name p)) (plugins_of (mutate d j)) = true.
Proof. unfold plugins_of, mutate, prefill. cbn [j_plugins]. destruct (j_plugins j); auto. apply known_mutate. Qed.

(* defaulting produces an object that passes validation whenever the request
   was valid modulo defaults and the defaulted numbers are in range
   (per-task minAvailable within [0, replicas], int32 total): the task loop takes the
   same course on both objects, and only the minAvailable conjunct needs the range *)
Theorem default_preserves_validity : forall O qs d j,
  validate_create O qs (prefill j) = true ->
  defaults_in_range (mutate d j) = true ->
  validate_create O qs (mutate d j) = true.
Proof.
  intros O qs d j V G.
  unfold defaults_in_range in G. apply andb_true_iff in G. destruct G as [G1 G2].
  rewrite forallb_forall in G1. apply Z.leb_le in G2.
  assert (R : forall t, In t (j_tasks (mutate d j)) -> 0 <= task_min t <= t_replicas t).
  { intros t Ht. apply G1 in Ht. apply andb_true_iff in Ht. destruct Ht as [A B].
    apply Z.leb_le in A. apply Z.leb_le in B. auto. }
  destruct (names_mutate_prefill (j_tasks j) 0) as (N1 & N2 & N3).
  unfold validate_create in *. rewrite mpi_ok_mutate.
  replace (is_nil (j_tasks (mutate d j))) with (is_nil (j_tasks (prefill j)))
    by (simpl; now destruct (j_tasks j)).
  destruct (is_nil (j_tasks (prefill j))); [discriminate|].
  destruct (mpi_ok (prefill j)); [|discriminate]. cbn [negb] in *.
  set (stp := task_loop O (j_name (prefill j)) 0 (j_tasks (prefill j)) (mkTl false 0 false [])) in *.
  repeat (apply andb_true_iff in V; let H' := fresh "C" in destruct V as [V H']).
  assert (BAD : tl_bad stp = false) by (now apply negb_true_iff in C6).
  replace (task_loop O (j_name (mutate d j)) 0 (j_tasks (mutate d j)) (mkTl false 0 false [])) with stp
    by (symmetry; apply loop_transfer; [intros t Ht; now apply R|exact BAD]).
  repeat (apply andb_true_iff; split); try assumption.
  - cbn [mutate prefill j_minavail j_tasks] in *. destruct (j_minavail j =? 0); [|exact C4].
    apply negb_true_iff, Z.ltb_ge.
    destruct (task_loop_spec O _ _ 0 (mkTl false 0 false []) BAD) as (_ & _ & _ & _ & T5 & _).
    fold stp in T5. cbn [tl_total prefill j_tasks] in T5. rewrite T5, <- N3.
    fold (sum32 (map t_replicas (mutate_tasks 0 (j_tasks j)))).
    set (M := mutate_tasks 0 (j_tasks j)) in *.
    assert (R0 : forall x, In x (map t_replicas M) -> 0 <= x).
    { intros x Hx. apply in_map_iff in Hx. destruct Hx as (t & <- & Ht). apply R in Ht. lia. }
    assert (M0 : forall x, In x (map task_min M) -> 0 <= x).
    { intros x Hx. apply in_map_iff in Hx. destruct Hx as (t & <- & Ht). now apply R in Ht. }
    assert (LE : sumZ (map task_min M) <= sumZ (map t_replicas M)).
    { apply sumZ_map_le. intros t Ht. now apply R in Ht. }
    rewrite (sum32_exact (map t_replicas M)) by auto.
    rewrite (sum32_exact (map task_min M)) by (auto; lia). exact LE.
  - now apply plugins_known_mutate.
  - cbn [mutate prefill j_tasks] in *. rewrite N2. exact C.
Qed.

Lemma In_le_sumZ l : (forall x, In x l -> 0 <= x) -> forall x, In x l -> x <= sumZ l.
Proof.
  induction l as [|a l IH]; simpl; intros H x Hx; [tauto|].
  assert (0 <= a) by auto. assert (0 <= sumZ l) by (apply sumZ_nonneg; auto).
  destruct Hx as [<-|Hx]; [lia|]. assert (x <= sumZ l) by (apply IH; auto). lia.
Qed.

Lemma replicas_mutate : forall ts i, map t_replicas (mutate_tasks i ts) = map t_replicas ts.
Proof. induction ts as [|t r IH]; intros i; simpl; [reflexivity|]. now rewrite IH. Qed.

Lemma In_mutate_tasks : forall ts i t', In t' (mutate_tasks i ts) -> exists k t, In t ts /\ t' = mutate_task k t.
Proof.
  induction ts as [|t r IH]; intros i t' H; simpl in H; [tauto|].
  destruct H as [<-|H]; [exists i, t; simpl; auto|].
  destruct (IH _ _ H) as (k & t0 & H1 & H2). exists k, t0. simpl. auto.
Qed.

Lemma prefill_minavail_facts (P : option Z -> Z -> Prop) : forall ts i,
  (forall k t', nth_error (prefill_tasks i ts) k = Some t' -> P (t_minavail t') (t_replicas t')) ->
  forall t, In t ts -> P (t_minavail t) (t_replicas t).
Proof.
  induction ts as [|t r IH]; intros i H x Hx; simpl in *; [tauto|].
  destruct Hx as [<-|Hx].
  - apply (H O _ eq_refl).
  - apply (IH (S i)); auto. intros k t' Hk. apply (H (S k) t' Hk).
Qed.

Lemma mutate_task_in_range k t :
  task_in_range t = true -> t_replicas t <= max32 ->
  (forall m, t_minavail t = Some m -> m <= t_replicas t) ->
  0 <= task_min (mutate_task k t) <= t_replicas (mutate_task k t).
Proof.
  unfold task_in_range, task_min, mutate_task. cbn [t_minavail t_replicas].
  intros H Hmax Hle. apply andb_true_iff in H. destruct H as [H0 H1]. apply Z.leb_le in H0.
  destruct (t_minavail t) as [m|].
  - apply Z.leb_le in H1. specialize (Hle m eq_refl). lia.
  - destruct (t_part t) as [p|]; [|lia].
    destruct (0 <? pp_min p); [|lia].
    apply andb_true_iff in H1. destruct H1 as [A B]. apply Z.leb_le in A. apply Z.leb_le in B.
    rewrite wrap32_id by (unfold min32, max32 in *; lia). lia.
Qed.

Lemma request_range_defaults O qs d j :
  validate_create O qs (prefill j) = true -> request_in_range j = true ->
  defaults_in_range (mutate d j) = true.
Proof.
  intros V R. unfold request_in_range in R. apply andb_true_iff in R. destruct R as [R1 R2].
  rewrite forallb_forall in R1. apply Z.leb_le in R2.
  unfold defaults_in_range. change (j_tasks (mutate d j)) with (mutate_tasks 0 (j_tasks j)).
  rewrite replicas_mutate. apply andb_true_iff. split; [|now apply Z.leb_le].
  assert (NN : forall x, In x (map t_replicas (j_tasks j)) -> 0 <= x).
  { intros x Hx. apply in_map_iff in Hx. destruct Hx as (t & <- & Ht). apply R1 in Ht.
    unfold task_in_range in Ht. apply andb_true_iff in Ht. destruct Ht as [A _]. now apply Z.leb_le. }
  assert (LE : forall t, In t (j_tasks j) -> forall m, t_minavail t = Some m -> m <= t_replicas t).
  { apply admit_create_sound in V. destruct V.
    apply (prefill_minavail_facts (fun o r => forall m, o = Some m -> m <= r) (j_tasks j) 0).
    intros k t' Hk. change (j_tasks (prefill j)) with (prefill_tasks 0 (j_tasks j)) in cs_task.
    destruct (cs_task _ _ Hk). auto. }
  apply forallb_forall. intros t' Ht'. apply In_mutate_tasks in Ht'. destruct Ht' as (k & t & Ht & ->).
  assert (t_replicas t <= max32).
  { eapply Z.le_trans; [|exact R2]. apply In_le_sumZ; auto. apply in_map. auto. }
  destruct (mutate_task_in_range k t (R1 _ Ht) H (LE _ Ht)) as [A B].
  apply andb_true_iff. split; now apply Z.leb_le.
Qed.

(* a three-step history with a refused update in the middle *)
Example history_with_refusal :
  let t r m := mkTask 4 r (Some m) (mkTmpl 1 false 0) [] 3 None None in
  let jb r m ma pr q := mkJob 7 [t r m] ma [] [] None q 1 3 pr 0 0 true in
  let j0 := jb 2 1 1 0 2 in
  let us := [jb 5 3 4 1 2; jb 5 3 4 1 5; jb 3 3 3 2 2] in
  validate_create tq_oracles [mkQueue 1 1 0 false; mkQueue 2 1 1 false] j0 = true /\
  update_verdicts j0 us = [true; false; true] /\
  apply_updates j0 us = jb 3 3 3 2 2 /\
  Forall (fun u => j_name u = j_name j0) us.
Proof. vm_compute. repeat split; try reflexivity. repeat constructor. Qed.

(* Terminating jobs (metadata.deletionTimestamp set): AdmitJobs' Update case decodes both objects
   and runs validateJobUpdate whatever the deletionTimestamp of either object is; the model
   therefore never reads j_term, and every theorem above is quantified over terminating objects as
   well.  As a statement: the verdict does not depend on the flags (true by computation). *)
Definition set_term (b : bool) (j : job) : job :=
  mkJob (j_name j) (j_tasks j) (j_minavail j) (j_policies j) (j_volumes j) (j_plugins j) (j_queue j)
        (j_sched j) (j_maxretry j) (j_prio j) (j_nt j) (j_rest j) b.
Lemma validate_update_ignores_term a b old new :
  validate_update (set_term a old) (set_term b new) = validate_update old new.
Proof. reflexivity. Qed.

