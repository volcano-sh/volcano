(* Soundness of topoSort (Kahn's algorithm with in-degree counting, as written
   in util.go) for every graph and every iteration order of its maps; kahn_fuel is the
   lemma from which Props derives that the fuel suffices. *)
From Coq Require Import ZArith List Bool Lia Permutation Relations.
From V Require Import C09.Model.
Import ListNotations.
Open Scope Z_scope.

Lemma memb_In x l : memb x l = true <-> In x l.
Proof.
  unfold memb. rewrite existsb_exists. split.
  - intros (y & Hy & E). apply Z.eqb_eq in E. now subst.
  - intros H. exists x. split; auto. apply Z.eqb_refl.
Qed.
Lemma memb_false x l : memb x l = false <-> ~ In x l.
Proof. rewrite <- memb_In. destruct (memb x l); split; congruence. Qed.

Lemma dedup_In l : forall seen x, In x (dedup l seen) <-> In x l /\ ~ In x seen.
Proof.
  induction l as [|a l IH]; intros seen x; simpl.
  - tauto.
  - destruct (memb a seen) eqn:E.
    + apply memb_In in E. rewrite IH.
      assert (a = x -> In x seen) by (intros <-; auto). tauto.
    + apply memb_false in E. simpl. rewrite IH. simpl.
      assert (a = x -> ~ In x seen) by (intros <-; auto).
      destruct (Z.eq_dec a x); tauto.
Qed.
Lemma dedup_NoDup l : forall seen, NoDup (dedup l seen).
Proof.
  induction l as [|a l IH]; intros seen; simpl; [constructor|].
  destruct (memb a seen); auto. constructor; auto.
  rewrite dedup_In. simpl. tauto.
Qed.

Lemma NoDup_app_intro {A} (a b : list A) :
  NoDup a -> NoDup b -> (forall x, In x a -> ~ In x b) -> NoDup (a ++ b).
Proof.
  induction a as [|x a IH]; simpl; intros Ha Hb H; auto.
  inversion Ha; subst. constructor.
  - rewrite in_app_iff. intros [?|?]; [auto|]. eapply H; eauto.
  - apply IH; auto.
Qed.
Lemma NoDup_app_l {A} (a b : list A) : NoDup (a ++ b) -> NoDup a.
Proof. induction a; simpl; intros H; [constructor|]. inversion H; subst. constructor; auto. rewrite in_app_iff in *. tauto. Qed.

Lemma relax_spec : forall ss st dg st' dg',
  NoDup ss -> relax ss st dg = (st', dg') ->
  st' = rev (filter (fun i => dg i =? 1) ss) ++ st /\
  forall n, dg' n = if memb n ss then dg n - 1 else dg n.
Proof.
  induction ss as [|i r IH]; intros st dg st' dg' ND H; simpl in H.
  - inversion H; subst. split; auto.
  - inversion ND as [|? ? Hi NDr]; subst.
    apply IH in H; auto. destruct H as [Hs Hd]. split.
    + subst st'. simpl.
      assert (E : filter (fun k => upd dg i (dg i - 1) k =? 1) r = filter (fun k => dg k =? 1) r).
      { apply filter_ext_in. intros a Ha. unfold upd.
        destruct (a =? i) eqn:Eai; auto. apply Z.eqb_eq in Eai. subst. contradiction. }
      rewrite E.
      replace (dg i - 1 =? 0) with (dg i =? 1)
        by (destruct (Z.eqb_spec (dg i) 1), (Z.eqb_spec (dg i - 1) 0); auto; lia).
      destruct (dg i =? 1); simpl; auto. rewrite <- app_assoc. auto.
    + intros n. rewrite Hd. simpl. unfold upd.
      destruct (n =? i) eqn:Eni.
      * apply Z.eqb_eq in Eni. subst n.
        rewrite (proj2 (memb_false i r) Hi). simpl. auto.
      * simpl. destruct (memb n r); auto.
Qed.

Section Kahn.
Variable g : graph.
Let names := gnames g.

(* rs (the output, latest first) respects the dependencies: all of a task's dependencies were output before it *)
Fixpoint resp (rs : list Z) : Prop :=
  match rs with
  | [] => True
  | n :: r => (forall ds, In (n, ds) g -> incl ds r) /\ resp r
  end.

(* how many of the tasks output so far n depends on (each once: succs is a set) *)
Definition npred (rs : list Z) (n : Z) : nat :=
  length (filter (fun p => memb n (succs g p)) rs).

(* The invariant of the outer loop.  The counters are the initial in-degrees minus the dependencies
   already output (inv_deg); they are <= 0 on everything output or stacked (inv_le), which is what
   makes a task whose counter has just reached 1 -> 0 fresh.  With unique names (inv_resp) a task is
   stacked only when all its listed dependencies are out: a counter that reaches 0 has been
   decremented once per DISTINCT dependency, so there are as many of those as list entries. *)
Record Inv (stack : list Z) (deg : Z -> Z) (rs : list Z) : Prop := {
  inv_nodup : NoDup (rs ++ stack);
  inv_names : forall n, In n (rs ++ stack) -> In n names;
  inv_deg : forall n, deg n = deg0 g n - Z.of_nat (npred rs n);
  inv_le : forall n, In n (rs ++ stack) -> deg n <= 0;
  inv_resp : NoDup names ->
             resp rs /\ forall n, In n stack -> forall ds, In (n, ds) g -> incl ds rs }.

Lemma succs_In out n : In n (succs g out) <-> exists ds, In (n, ds) g /\ In out ds.
Proof.
  unfold succs. rewrite dedup_In. rewrite in_map_iff. split.
  - intros [([n' ds] & E & H) _]. simpl in E. subst. apply filter_In in H.
    destruct H as [H1 H2]. simpl in H2. apply memb_In in H2. eauto.
  - intros (ds & H1 & H2). split; [|simpl; tauto]. exists (n, ds). split; auto.
    apply filter_In. split; auto. simpl. now apply memb_In.
Qed.
Lemma succs_names out n : In n (succs g out) -> In n names.
Proof. rewrite succs_In. intros (ds & H & _). unfold names, gnames. apply in_map_iff. exists (n, ds). auto. Qed.
Lemma succs_NoDup out : NoDup (succs g out).
Proof. apply dedup_NoDup. Qed.

Lemma node_unique : NoDup names -> forall n ds ds', In (n, ds) g -> In (n, ds') g -> ds = ds'.
Proof.
  unfold names, gnames. induction g as [|[m d] g' IH]; simpl; intros ND n ds ds' H1 H2; [tauto|].
  inversion ND; subst.
  assert (F : forall x, In (m, x) g' -> False).
  { intros x Hx. apply H3. apply in_map_iff. exists (m, x). auto. }
  destruct H1 as [E1|H1], H2 as [E2|H2].
  - congruence.
  - inversion E1; subst. exfalso; eauto.
  - inversion E2; subst. exfalso; eauto.
  - eauto.
Qed.

Lemma deg0_unique : NoDup names -> forall n ds, In (n, ds) g -> deg0 g n = Z.of_nat (length ds).
Proof.
  intros ND n ds H. unfold deg0.
  destruct (find (fun nd => fst nd =? n) (rev g)) as [[m d]|] eqn:E.
  - apply find_some in E. destruct E as [E1 E2]. simpl in E2. apply Z.eqb_eq in E2. subst m.
    apply in_rev in E1. simpl. rewrite (node_unique ND _ _ _ H E1). auto.
  - exfalso. eapply find_none in E; [|apply in_rev; rewrite rev_involutive; exact H].
    simpl in E. rewrite Z.eqb_refl in E. discriminate.
Qed.

Lemma Inv_init :
  Inv (filter (fun n => deg0 g n =? 0) (dedup names [])) (deg0 g) [].
Proof.
  constructor; simpl.
  - apply NoDup_filter, dedup_NoDup.
  - intros n H. apply filter_In in H. destruct H as [H _]. apply dedup_In in H. tauto.
  - intros n. unfold npred. simpl. lia.
  - intros n H. apply filter_In in H. destruct H as [_ H]. apply Z.eqb_eq in H. lia.
  - intros ND. split; auto. intros n H ds Hd. apply filter_In in H. destruct H as [_ H].
    apply Z.eqb_eq in H. rewrite (deg0_unique ND _ _ Hd) in H.
    destruct ds; simpl in H; [intros x []|lia].
Qed.

Lemma Inv_step out rest deg rs st' dg' :
  Inv (out :: rest) deg rs -> relax (succs g out) rest deg = (st', dg') ->
  Inv st' dg' (out :: rs).
Proof.
  intros I H. apply relax_spec in H; [|apply succs_NoDup]. destruct H as [Hs Hd]. subst st'.
  set (new := filter (fun i => deg i =? 1) (succs g out)).
  assert (Hnew : forall x, In x new -> deg x = 1 /\ In x (succs g out)).
  { intros x Hx. apply filter_In in Hx. destruct Hx as [H1 H2]. apply Z.eqb_eq in H2. auto. }
  assert (Hfresh : forall x, In x new -> ~ In x (rs ++ out :: rest)).
  { intros x Hx Hin. apply Hnew in Hx. apply (inv_le _ _ _ I) in Hin. lia. }
  assert (Hperm : Permutation ((out :: rs) ++ rev new ++ rest) (new ++ rs ++ out :: rest)).
  { simpl. transitivity (out :: (new ++ rs) ++ rest).
    - constructor. rewrite app_assoc. apply Permutation_app_tail.
      rewrite Permutation_app_comm. apply Permutation_app_tail. symmetry. apply Permutation_rev.
    - rewrite (app_assoc new rs (out :: rest)). apply Permutation_middle. }
  constructor.
  - eapply Permutation_NoDup; [symmetry; exact Hperm|].
    apply NoDup_app_intro; [apply NoDup_filter, succs_NoDup|apply (inv_nodup _ _ _ I)|exact Hfresh].
  - intros n Hn. eapply Permutation_in in Hn; [|exact Hperm]. apply in_app_iff in Hn.
    destruct Hn as [Hn|Hn]; [apply Hnew in Hn; eapply succs_names; apply Hn|apply (inv_names _ _ _ I); auto].
  - intros n. rewrite Hd, (inv_deg _ _ _ I). unfold npred. simpl.
    destruct (memb n (succs g out)); simpl; lia.
  - intros n Hn. eapply Permutation_in in Hn; [|exact Hperm]. apply in_app_iff in Hn.
    rewrite Hd. destruct Hn as [Hn|Hn].
    + apply Hnew in Hn. destruct Hn as [H1 H2]. rewrite (proj2 (memb_In _ _) H2). lia.
    + apply (inv_le _ _ _ I) in Hn. destruct (memb n (succs g out)); lia.
  - intros ND. destruct (inv_resp _ _ _ I ND) as [R S]. split.
    + simpl. split; auto. intros ds Hds. apply (S out); simpl; auto.
    + intros n Hn ds Hds. apply in_app_iff in Hn. destruct Hn as [Hn|Hn].
      * apply in_rev in Hn. destruct (Hnew _ Hn) as [Hdeg Hsucc].
        (* counting: all of ds has been output *)
        assert (Hmem : forall p, memb n (succs g p) = memb p ds).
        { intros p. destruct (memb p ds) eqn:E.
          - apply memb_In. apply succs_In. exists ds. split; auto. now apply memb_In.
          - apply memb_false. intros Hc. apply succs_In in Hc. destruct Hc as (ds' & H1 & H2).
            rewrite (node_unique ND _ _ _ H1 Hds) in H2. apply memb_false in E. contradiction. }
        pose proof (inv_deg _ _ _ I n) as Hdg. rewrite Hdeg, (deg0_unique ND _ _ Hds) in Hdg.
        unfold npred in Hdg.
        rewrite (filter_ext _ (fun p => memb p ds) Hmem) in Hdg.
        set (F := filter (fun p => memb p ds) (out :: rs)).
        assert (Hout : In out ds).
        { apply succs_In in Hsucc. destruct Hsucc as (ds' & H1 & H2).
          now rewrite <- (node_unique ND _ _ _ H1 Hds). }
        assert (LF : length F = length ds).
        { unfold F. simpl. rewrite (proj2 (memb_In _ _) Hout). simpl. lia. }
        assert (NDF : NoDup F).
        { apply NoDup_filter. pose proof (inv_nodup _ _ _ I) as N.
          apply NoDup_app_l with (b := rest). eapply Permutation_NoDup; [|exact N].
          rewrite <- Permutation_middle. simpl. reflexivity. }
        assert (IF : incl F ds).
        { intros x Hx. apply filter_In in Hx. now apply memb_In. }
        assert (ID : incl ds F).
        { apply NoDup_length_incl; auto. lia. }
        intros x Hx. apply ID in Hx. apply filter_In in Hx. tauto.
      * intros x Hx. right. eapply S; eauto. simpl. auto.
Qed.

Lemma Inv_length stack deg rs : Inv stack deg rs -> (length rs + length stack <= length g)%nat.
Proof.
  intros I. rewrite <- app_length.
  replace (length g) with (length names) by apply map_length.
  apply NoDup_incl_length; [apply (inv_nodup _ _ _ I)|]. intros x. apply (inv_names _ _ _ I).
Qed.

Lemma kahn_fuel : forall fuel stack deg rs,
  Inv stack deg rs -> (length g < length rs + fuel)%nat -> kahn fuel g stack deg rs <> None.
Proof.
  induction fuel as [|f IH]; intros stack deg rs I L; destruct stack as [|out rest]; simpl; try discriminate.
  - apply Inv_length in I. simpl in I. lia.
  - destruct (relax (succs g out) rest deg) as [st' dg'] eqn:E.
    apply IH; [eapply Inv_step; eauto|simpl; lia].
Qed.
(* ---- any iteration order (Go ranges over maps: the initial stack and the
   successors of a popped task come in an unspecified order) ---- *)
Lemma Inv_ext st st2 dg dg2 rs :
  Permutation st st2 -> (forall n, dg n = dg2 n) -> Inv st dg rs -> Inv st2 dg2 rs.
Proof.
  intros P E I. constructor.
  - eapply Permutation_NoDup; [|apply (inv_nodup _ _ _ I)]. now apply Permutation_app_head.
  - intros n Hn. apply (inv_names _ _ _ I). eapply Permutation_in; [|exact Hn].
    apply Permutation_app_head. now symmetry.
  - intros n. rewrite <- E. apply (inv_deg _ _ _ I).
  - intros n Hn. rewrite <- E. apply (inv_le _ _ _ I). eapply Permutation_in; [|exact Hn].
    apply Permutation_app_head. now symmetry.
  - intros ND. destruct (inv_resp _ _ _ I ND) as [R S]. split; auto.
    intros n Hn. apply S. eapply Permutation_in; [symmetry; exact P|exact Hn].
Qed.

Lemma Permutation_filter_Z (f : Z -> bool) l l' : Permutation l l' -> Permutation (filter f l) (filter f l').
Proof.
  induction 1; simpl; auto.
  - destruct (f x); auto.
  - destruct (f x), (f y); auto. constructor.
  - etransitivity; eauto.
Qed.
Lemma memb_perm n l l' : Permutation l l' -> memb n l = memb n l'.
Proof.
  intros P. destruct (memb n l') eqn:E.
  - apply memb_In. apply memb_In in E. eapply Permutation_in; [symmetry; exact P|exact E].
  - apply memb_false. apply memb_false in E. intros C. apply E. eapply Permutation_in; eauto.
Qed.

Lemma Inv_step_any s1 out s2 deg rs ss st' dg' :
  Inv (s1 ++ out :: s2) deg rs -> Permutation ss (succs g out) ->
  relax ss (s1 ++ s2) deg = (st', dg') -> Inv st' dg' (out :: rs).
Proof.
  intros I P H.
  assert (I1 : Inv (out :: s1 ++ s2) deg rs).
  { eapply Inv_ext; [|reflexivity|exact I]. symmetry. apply Permutation_middle. }
  destruct (relax (succs g out) (s1 ++ s2) deg) as [st0 dg0] eqn:E0.
  pose proof (Inv_step _ _ _ _ _ _ I1 E0) as I2.
  apply relax_spec in E0; [|apply succs_NoDup]. destruct E0 as [S0 D0].
  apply relax_spec in H; [|eapply Permutation_NoDup; [symmetry; exact P|apply succs_NoDup]].
  destruct H as [S1 D1].
  eapply Inv_ext; [| |exact I2].
  - subst. apply Permutation_app_tail. rewrite <- !Permutation_rev.
    apply Permutation_filter_Z. now symmetry.
  - intros n. rewrite D0, D1. now rewrite (memb_perm n _ _ P).
Qed.
End Kahn.

(* a run of topoSort with every choice left open: which stack element is popped
   next (covers every initial order and every push order) and in which order the
   successors are visited *)
Inductive krun (g : graph) : list Z -> (Z -> Z) -> list Z -> list Z -> Prop :=
| kr_done deg rs : krun g [] deg rs rs
| kr_step s1 out s2 deg rs ss st' dg' final :
    Permutation ss (succs g out) -> relax ss (s1 ++ s2) deg = (st', dg') ->
    krun g st' dg' (out :: rs) final -> krun g (s1 ++ out :: s2) deg rs final.

(* the model's deterministic run is one of them: it pops the head and visits succs in order *)
Lemma kahn_is_krun g : forall fuel st deg rs final,
  kahn fuel g st deg rs = Some final -> krun g st deg rs final.
Proof.
  induction fuel as [|f IH]; intros st deg rs final H; destruct st as [|out rest]; simpl in H; try discriminate.
  - inversion H; subst. constructor.
  - inversion H; subst. constructor.
  - destruct (relax (succs g out) rest deg) as [st' dg'] eqn:E.
    apply (kr_step g [] out rest deg rs (succs g out) st' dg' final); auto.
Qed.

Lemma krun_inv g : forall st deg rs final, krun g st deg rs final ->
  Inv g st deg rs -> exists deg', Inv g [] deg' final.
Proof.
  induction 1 as [deg rs|s1 out s2 deg rs ss st' dg' final P R K IH]; intros I; eauto.
  apply IH. eapply Inv_step_any; eauto.
Qed.

Definition before (l : list Z) (a b : Z) : Prop :=
  exists l1 l2, l = l1 ++ b :: l2 /\ In a l1.

(* order lists every task once and every task after all its dependencies,
   which are tasks themselves *)
Definition topo_order (g : graph) (order : list Z) : Prop :=
  NoDup (gnames g) /\ Permutation order (gnames g) /\
  forall n ds d, In (n, ds) g -> In d ds -> In d (gnames g) /\ before order d n.

Lemma resp_before g : forall rs, resp g rs ->
  forall n ds d, In (n, ds) g -> In n rs -> In d ds -> In d rs /\ before (rev rs) d n.
Proof.
  induction rs as [|m r IH]; simpl; intros R n ds d Hn Hin Hd; [tauto|].
  destruct R as [R1 R2]. destruct (Z.eq_dec m n) as [->|Ne].
  - pose proof (R1 _ Hn _ Hd) as Hr. split; auto.
    exists (rev r), []. split; auto. now apply -> in_rev.
  - destruct Hin as [?|Hin]; [contradiction|].
    destruct (IH R2 _ _ _ Hn Hin Hd) as [H1 (l1 & l2 & E & Hl)]. split; auto.
    exists l1, (l2 ++ [m]). rewrite E, <- app_assoc. simpl. auto.
Qed.

Lemma resp_topo_order g rs :
  NoDup (gnames g) -> resp g rs -> Permutation rs (gnames g) -> topo_order g (rev rs).
Proof.
  intros ND R P. split; auto. split.
  - rewrite <- P. symmetry. apply Permutation_rev.
  - intros n ds d Hn Hd.
    assert (Hin : In n rs).
    { eapply Permutation_in; [symmetry; exact P|]. apply in_map_iff. exists (n, ds). auto. }
    destruct (resp_before g rs R _ _ _ Hn Hin Hd) as [H1 H2]. split; auto.
    eapply Permutation_in; eauto.
Qed.

Lemma Inv_final_order g deg' rs :
  Inv g [] deg' rs -> length rs = length g -> topo_order g (rev rs).
Proof.
  intros I L.
  pose proof (inv_nodup _ _ _ _ I) as ND. rewrite app_nil_r in ND.
  assert (Incl : incl rs (gnames g)).
  { intros x Hx. apply (inv_names _ _ _ _ I). rewrite app_nil_r. auto. }
  assert (Len : length (gnames g) = length rs) by (unfold gnames; rewrite map_length; auto).
  assert (NDn : NoDup (gnames g)) by (eapply NoDup_incl_NoDup; eauto; lia).
  assert (P : Permutation rs (gnames g)) by (apply NoDup_Permutation_bis; auto; lia).
  destruct (inv_resp _ _ _ _ I NDn) as [R _]. now apply resp_topo_order.
Qed.

(* for EVERY iteration order the Go maps may produce: whatever order the
   initial zero-in-degree tasks are stacked in, whichever stack element is taken and in
   whatever order successors are visited, a run that outputs as many tasks as the job
   has (isDag = true) outputs a topological order *)
Theorem toposort_sound_any_order : forall g st0 final,
  Permutation st0 (filter (fun n => deg0 g n =? 0) (dedup (gnames g) [])) ->
  krun g st0 (deg0 g) [] final -> length final = length g ->
  topo_order g (rev final).
Proof.
  intros g st0 final P K L.
  apply krun_inv in K.
  - destruct K as [deg' I]. now apply (Inv_final_order g deg' final).
  - eapply Inv_ext; [symmetry; exact P|reflexivity|apply Inv_init].
Qed.

Theorem toposort_sound : forall g order, topo g = TopoOk order -> topo_order g order.
Proof.
  intros g order H. unfold topo in H.
  destruct (kahn _ g _ _ []) as [rs|] eqn:K; [|discriminate].
  destruct (Nat.eqb (length rs) (length g)) eqn:L; [|discriminate].
  inversion H; subst order. apply Nat.eqb_eq in L. apply kahn_is_krun in K.
  now apply (toposort_sound_any_order g _ rs (Permutation_refl _)).
Qed.

Definition edge (g : graph) (a b : Z) : Prop := exists ds, In (b, ds) g /\ In a ds.  (* b dependsOn a *)

Fixpoint idx (x : Z) (l : list Z) : nat :=
  match l with [] => O | y :: r => if x =? y then O else S (idx x r) end.
Lemma idx_in x l r : In x l -> idx x (l ++ r) = idx x l /\ (idx x l < length l)%nat.
Proof.
  induction l as [|y l IH]; simpl; [tauto|]. intros H.
  destruct (x =? y) eqn:E; [split; auto; lia|].
  destruct H as [->|H]; [rewrite Z.eqb_refl in E; discriminate|].
  destruct (IH H). split; lia.
Qed.
Lemma idx_notin x l r : ~ In x l -> idx x (l ++ x :: r) = length l.
Proof.
  induction l as [|y l IH]; simpl; intros H; [now rewrite Z.eqb_refl|].
  destruct (x =? y) eqn:E; [apply Z.eqb_eq in E; subst; tauto|]. rewrite IH; auto.
Qed.
Lemma before_idx l a b : NoDup l -> before l a b -> (idx a l < idx b l)%nat.
Proof.
  intros ND (l1 & l2 & -> & Ha).
  destruct (idx_in a l1 (b :: l2) Ha) as [E1 E2]. rewrite E1.
  rewrite idx_notin; auto. apply NoDup_remove_2 in ND. rewrite in_app_iff in ND. tauto.
Qed.

(* what an order with these properties means for the graph: every reference
   exists and there is no cycle *)
Lemma topo_order_closed_acyclic g order : topo_order g order ->
  (forall n ds d, In (n, ds) g -> In d ds -> In d (gnames g)) /\
  (forall x, ~ clos_trans Z (edge g) x x).
Proof.
  intros (NDn & P & T). split.
  - intros n ds d Hn Hd. apply (T _ _ _ Hn Hd).
  - intros x C.
    assert (NDo : NoDup order) by (eapply Permutation_NoDup; [symmetry; exact P|auto]).
    assert (L : forall a b, clos_trans Z (edge g) a b -> (idx a order < idx b order)%nat).
    { induction 1 as [a b (ds & H1 & H2)|a b c _ IH1 _ IH2]; [|lia].
      apply before_idx; auto. apply (T _ _ _ H1 H2). }
    apply L in C. lia.
Qed.

Theorem toposort_rejects_dangling : forall g n ds d,
  In (n, ds) g -> In d ds -> ~ In d (gnames g) -> is_dag g = false.
Proof.
  intros g n ds d Hn Hd Hnot. unfold is_dag. destruct (topo g) as [order| |] eqn:T; auto.
  apply toposort_sound, topo_order_closed_acyclic in T. destruct T as [T _]. now destruct (Hnot (T _ _ _ Hn Hd)).
Qed.

Theorem toposort_rejects_cycle : forall g x,
  clos_trans Z (edge g) x x -> is_dag g = false.
Proof.
  intros g x C. unfold is_dag. destruct (topo g) as [order| |] eqn:T; auto.
  apply toposort_sound, topo_order_closed_acyclic in T. destruct T as [_ T]. now destruct (T x).
Qed.

(* a dependency listed twice makes the graph rejected, the in-degree counting list entries while
   the edge map is a set (one instance) *)
Example toposort_duplicate_dependency_rejected :
  is_dag [(1, []); (2, [1; 1])] = false /\ is_dag [(1, []); (2, [1])] = true.
Proof. vm_compute. auto. Qed.
