(* C07 entry: selector 1 = run a history of statement/session operations on a
   session built from a cluster spec, dumping the whole projected state after
   every operation; selectors >= 100 = laws on the implementation's dumps. *)
From stdpp Require Import gmap.
From Coq Require Import ZArith List.
From V Require Import Base.Codec Base.Res Base.ResCodec Sched.LedgerModel Sched.StmtModel Sched.LedgerCodec Sched.LedgerInv Sched.DumpCodec.
Import ListNotations.
Open Scope Z_scope.

Definition new_prefix {A} (newl oldl : list A) : list A := firstn (length newl - length oldl) newl.

Definition eStep (s s' : sess) (r : result) : list Z :=
  [-101; eResult r] ++
  eList (fun e : hev => [if he_alloc e then 1 else 0; Zpos (he_task e); Zpos (skey (he_status e))] ++ eNodeRef (he_node e))
        (rev (new_prefix (hlog s') (hlog s))) ++
  eList (fun b : positive * option positive => Zpos (fst b) :: eNodeRef (snd b))
        (sort_kv (new_prefix (binds s') (binds s))) ++
  eList ePos (sort_pos (new_prefix (evicts s') (evicts s))) ++
  eState s'.

Fixpoint run_dump (eps : Z) (s : sess) (ops : list op) : list Z :=
  match ops with
  | [] => []
  | o :: r => let '(s', res) := step eps s o in eStep s s' res ++ run_dump eps s' r
  end.

Definition dCase : dec (Z * list node_spec * list job_spec * list task_spec * list op) :=
  let* e := dZ in let* ns := dList dNodeSpec in let* js := dList dJobSpec in
  let* ts := dList dTaskSpec in let* ops := dList dOp in ret (e, ns, js, ts, ops).

Definition pending_off_node (d : dump) (tid : Z) : bool :=
  match d_heap d !! Z.to_pos tid with
  | Some t => bool_decide (t_status t = Pending) && bool_decide (t_node t = None) &&
              gmap_allb (fun _ n => bool_decide (n_tasks n !! Z.to_pos tid = None)) (d_nodes d)
  | None => false
  end.

(* [tid]: the task the operation was applied to (0 if none).  The no-trace
   clause is stated, like the theorem, under the call sites' precondition:
   Allocate / Pipeline are applied to a Pending task that is on no node. *)
Definition law_step (opc res tid : Z) (before after : dump) (nbinds nevicts : Z) : bool :=
  ledger_okb (d_heap after) (d_jobs after) (d_nodes after) &&
  (if (res =? 1) && (((opc =? 1) || (opc =? 2) || (opc =? 11) || (opc =? 12)) && pending_off_node before tid
                     || (opc =? 13))
   then dump_sameb before after else true) &&
  (if (opc =? 7) || (opc =? 11) || (opc =? 13) then true else (nbinds =? 0) && (nevicts =? 0)).

(* law of a discarded transaction: everything is back to the values before its first operation *)
Definition law_discard (before after : dump) : bool := dump_sameb before after.

(* law of a Commit step (theorem 6 on the dumps).  Per operation recorded in the committed
   statement: kind (0 evict, 1 pipeline, 2 allocate), task, whether the cache refused it,
   the pre-eviction status, and whether the placement met the call sites' precondition
   (Pending task on no node).  A refused bind leaves the task Pending, NodeName empty, off the
   node it was placed on (off every node under the precondition); an accepted one is Binding,
   still on its node and logged; a refused eviction leaves the victim in its pre-eviction
   status on its node and is not logged; an accepted one is logged and the task unchanged;
   a pipeline is left alone; the binder / evictor saw exactly the accepted operations; the
   handler shares moved by exactly the requests of the rolled-back operations. *)
Record cop := mkCop { c_kind : Z; c_tid : positive; c_refused : bool; c_prev : status; c_pre : bool }.
Definition dCop : dec cop :=
  let* k := dZ in let* t := dPos in let* r := dBool in let* p := dStatus in let* q := dBool in ret (mkCop k t r p q).

Definition job_known (d : dump) (t : task) : bool := bool_decide (is_Some (d_jobs d !! t_job t)).
Definition held_or_gone (d : dump) (nid tid : positive) (want : option status) : bool :=
  match d_nodes d !! nid with
  | Some n => match n_tasks n !! tid, want with
              | Some c, Some st => bool_decide (t_status c = st)
              | Some _, None => true
              | None, _ => false
              end
  | None => true
  end.
Definition not_held (d : dump) (nid tid : positive) : bool :=
  match d_nodes d !! nid with Some n => bool_decide (n_tasks n !! tid = None) | None => true end.
Definition on_none (d : dump) (tid : positive) : bool :=
  gmap_allb (fun _ n => bool_decide (n_tasks n !! tid = None)) (d_nodes d).

Definition law_commit_op (b a : dump) (binds : list (positive * option positive)) (evs : list positive) (o : cop) : bool :=
  match d_heap b !! c_tid o, d_heap a !! c_tid o with
  | Some tb, Some ta =>
    if c_kind o =? 2 then
      if c_refused o then
        bool_decide (t_node ta = None) &&
        (if job_known a ta then bool_decide (t_status ta = Pending) else true) &&
        match t_node tb with Some nid => not_held a nid (c_tid o) | None => true end &&
        (if c_pre o then on_none a (c_tid o) else true)
      else
        bool_decide ((c_tid o, t_node tb) ∈ binds) &&
        (if job_known a ta then
           bool_decide (t_status ta = Binding) && bool_decide (t_node ta = t_node tb) &&
           match t_node tb with Some nid => held_or_gone a nid (c_tid o) None | None => true end
         else bool_decide (t_node ta = None))
    else if c_kind o =? 0 then
      if c_refused o then
        negb (bool_decide (c_tid o ∈ evs)) && bool_decide (t_node ta = t_node tb) &&
        (if job_known a ta then bool_decide (t_status ta = restore_status (c_prev o)) else true) &&
        match t_node tb with Some nid => held_or_gone a nid (c_tid o) (Some (t_status ta)) | None => true end
      else bool_decide (c_tid o ∈ evs) && task_sameb tb ta
    else task_sameb tb ta
  | _, _ => false
  end.

(* requests of the operations of job k that Commit rolled back: refused ones, and accepted binds
   whose job the session no longer knows (Statement.allocate fails after AddBindTask) *)
Definition cop_req (b a : dump) (k : positive) (want_kind : Z) (ops : list cop) : res :=
  sum_req (omap (fun o => match d_heap b !! c_tid o with
                          | Some t =>
                            if (c_kind o =? want_kind) && bool_decide (t_job t = k) &&
                               (c_refused o || ((want_kind =? 2) && negb (job_known a t)))
                            then Some t else None
                          | None => None end) ops).

Definition law_commit (ops : list cop) (b a : dump) (binds : list (positive * option positive)) (evs : list positive) : bool :=
  forallb (law_commit_op b a binds evs) ops &&
  Nat.eqb (length binds) (length (List.filter (fun o => (c_kind o =? 2) && negb (c_refused o)) ops)) &&
  Nat.eqb (length evs) (length (List.filter (fun o => (c_kind o =? 0) && negb (c_refused o)) ops)) &&
  forallb (fun k => res_eqvb (add (default empty_res (d_share a !! k)) (cop_req b a k 2 ops))
                             (add (default empty_res (d_share b !! k)) (cop_req b a k 0 ops)))
          (elements (dom (d_share a) ∪ dom (d_share b))).

(* ---- the dispatch loop of Session.Allocate (directed "gang" family, selector 2 / law 105) ----
   Go ranges over the map TaskStatusIndex[Allocated] in random order and returns at the first
   refused bind, so WHICH members were dispatched before the refused one is order dependent.
   Selector 2 therefore compares the history exactly up to its last operation and only the
   result code of the last one; the last step is judged by the order-insensitive law below. *)
Fixpoint run_dump_last (eps : Z) (s : sess) (ops : list op) : list Z :=
  match ops with
  | [] => []
  | [o] => let '(_, res) := step eps s o in [-101; eResult res]
  | o :: r => let '(s', res) := step eps s o in eStep s s' res ++ run_dump_last eps s' r
  end.

Definition held_on (d : dump) (nd : option positive) (tid : positive) : bool :=
  match nd with
  | Some nid => match d_nodes d !! nid with Some n => bool_decide (is_Some (n_tasks n !! tid)) | None => false end
  | None => false
  end.

(* outcome of one member of the dispatched set: 0 = left Allocated where it was (not attempted),
   1 = handed to the binder (Binding, same node, still held, logged), 2 = its placement undone
   (Pending, NodeName empty, off the node); 3 = anything else *)
Definition member_outcome (a : dump) (binds : list (positive * option positive)) (tid : positive) (nd : option positive) : Z :=
  match d_heap a !! tid with
  | Some ta =>
    let logged := bool_decide ((tid, nd) ∈ binds) in
    if bool_decide (t_status ta = Allocated) && bool_decide (t_node ta = nd) && held_on a nd tid && negb logged then 0
    else if bool_decide (t_status ta = Binding) && bool_decide (t_node ta = nd) && held_on a nd tid && logged then 1
    else if bool_decide (t_status ta = Pending) && bool_decide (t_node ta = None) && negb (held_on a nd tid) && negb logged then 2
    else 3
  | None => 3
  end.

(* [arg] was Pending off-node and is placed on [nid] by the call; the members are [arg] and the
   tasks the job's Allocated index held before the call.
   - the invariant holds afterwards;
   - a refused member is either not attempted (still Allocated on its node) or undone, never bound;
   - an accepted member is either bound and logged or not attempted, never undone;
   - if some member is refused exactly one (refused) member is undone and the call fails, otherwise
     every member is bound and the call succeeds;
   - the binder saw exactly the bound members; every other task is unchanged;
   - the handler shares moved by the request of [arg] minus the requests of the undone member. *)
Definition law_dispatch (arg nid : positive) (res : Z) (rb : list positive) (b a : dump)
    (binds : list (positive * option positive)) : bool :=
  match d_heap b !! arg with
  | Some targ =>
    match d_jobs b !! t_job targ with
    | Some j =>
      let others := List.filter (fun i => negb (Pos.eqb i arg)) (elements (default ∅ (j_index j !! skey Allocated))) in
      let node_of i := match d_heap b !! i with Some t => t_node t | None => None end in
      let outs := (arg, member_outcome a binds arg (Some nid)) ::
                  map (fun i => (i, member_outcome a binds i (node_of i))) others in
      let refused i := bool_decide (i ∈ rb) in
      let undone := List.filter (fun io => snd io =? 2) outs in
      let bound := List.filter (fun io => snd io =? 1) outs in
      ledger_okb (d_heap a) (d_jobs a) (d_nodes a) &&
      forallb (fun io => if refused (fst io) then (snd io =? 0) || (snd io =? 2)
                         else (snd io =? 0) || (snd io =? 1)) outs &&
      (if existsb (fun io => refused (fst io)) outs
       then Nat.eqb (length undone) 1 && (res =? 1)
       else Nat.eqb (length undone) 0 && forallb (fun io => snd io =? 1) outs && (res =? 0)) &&
      Nat.eqb (length binds) (length bound) &&
      gmap_allb (fun i tb => if existsb (fun io => Pos.eqb (fst io) i) outs then true
                             else match d_heap a !! i with Some ta => task_sameb tb ta | None => false end) (d_heap b) &&
      forallb (fun k =>
         let req_of l := sum_req (omap (fun io => match d_heap b !! fst io with
                                                  | Some t => if bool_decide (t_job t = k) then Some t else None
                                                  | None => None end) l) in
         res_eqvb (add (default empty_res (d_share a !! k)) (req_of undone))
                  (add (default empty_res (d_share b !! k)) (req_of [(arg, 0)])))
        (elements (dom (d_share a) ∪ dom (d_share b)))
    | None => false
    end
  | None => false
  end.

(* ---- audit round: three clauses of the property text evaluated at FULL strength; the failing
        classes are documented known findings (the harness attaches the sig) ---- *)

(* "nothing of an undecided transaction reaches the binder": no task handed to the binder by a
   Session.Allocate is recorded in a statement that is still open at that moment *)
Definition law_undecided (recorded : list positive) (binds : list (positive * option positive)) : bool :=
  forallb (fun b => negb (bool_decide (fst b ∈ recorded))) binds.

(* "a failed operation leaves no trace" for the task the failed Session.Allocate was called with:
   it is Pending again, NodeName empty, off the node *)
Definition law_arg_restored (arg nid : positive) (a : dump) : bool :=
  match d_heap a !! arg with
  | Some ta => bool_decide (t_status ta = Pending) && bool_decide (t_node ta = None) &&
               negb (held_on a (Some nid) arg)
  | None => false
  end.

(* ---- second audit round ---- *)

(* the dumps agree on everything that does not concern task [tid]: every other task, every
   node-held copy keyed otherwise, the task sets / TaskToSubJob of every job, the handler shares.
   Together with ledger_okb of law 101 (the ledgers are functions of this skeleton) a failed
   placement outside the call sites' precondition may only have moved task [tid] itself. *)
Definition law_same_except (tid : positive) (b a : dump) : bool :=
  map_sameb task_sameb (delete tid (d_heap b)) (delete tid (d_heap a)) &&
  map_sameb (fun x y => map_sameb task_sameb (delete tid (n_tasks x)) (delete tid (n_tasks y))) (d_nodes b) (d_nodes a) &&
  map_sameb (fun x y => bool_decide (j_tasks x = j_tasks y) && bool_decide (j_task_sub x = j_task_sub y)) (d_jobs b) (d_jobs a) &&
  share_sameb (d_share b) (d_share a).

(* base case: the model's own initial session of a generated case satisfies the hypotheses of
   the history theorem (ledger_okb, non-negative requests, idle ledgers with a scalar map, empty
   save area): see C07_init_okb_sess_ok in Props/C07.v *)
Definition res_nonnegb' (r : res) : bool :=
  bool_decide (0 <= cpu r) && bool_decide (0 <= mem r) && gmap_allb (fun _ v => bool_decide (0 <= v)) (scm r).
Definition init_okb (s : sess) : bool :=
  gmap_allb (fun _ t => res_nonnegb' (t_req t)) (heap s) &&
  ledger_okb (heap s) (jobs s) (nodes s) &&
  gmap_allb (fun _ n => negb (n_has_node n) || negb (bool_decide (sc (n_idle n) = None))) (nodes s) &&
  bool_decide (saved s = ∅).

(* ---- Session.Evict (directed "evict" family, law 113) ----
   the recorder's per-job ledger equals the requests of the job's tasks that hold resources
   (allocated statuses and Pipelined), for every job the session knows *)
Definition holds_share (t : task) : bool :=
  allocated_status (t_status t) || bool_decide (t_status t = Pipelined).
Definition share_okb (d : dump) : bool :=
  gmap_allb (fun k _ =>
      res_eqvb (default empty_res (d_share d !! k))
               (sum_req (List.filter (fun t => holds_share t && bool_decide (t_job t = k))
                                     (map snd (map_to_list (d_heap d)))))) (d_jobs d).

(* after every Session.Evict, whatever it returns: the invariant; the handler ledger still equals
   the sum over the job's tasks (if it did before); an Evict that RETURNS an error changed nothing
   in the session; a successful one left the task Releasing and reached the evictor exactly once *)
Definition law_ssn_evict (tid : positive) (res : Z) (b a : dump) (evs : list positive) : bool :=
  ledger_okb (d_heap a) (d_jobs a) (d_nodes a) &&
  (if share_okb b then share_okb a else true) &&
  (if res =? 0 then
     match d_heap a !! tid with Some ta => bool_decide (t_status ta = Releasing) | None => false end &&
     bool_decide (evs = [tid])
   else dump_sameb b a).

Definition entry (sel : Z) (toks : list Z) : list Z :=
  match sel with
  | 1 => match run_dec dCase toks with
         | Some (e, ns, js, ts, ops) =>
           let s0 := build e ns js ts in
           [-100] ++ eState s0 ++ run_dump e s0 ops
         | None => bad_input end
  | 2 => match run_dec dCase toks with
         | Some (e, ns, js, ts, ops) =>
           let s0 := build e ns js ts in
           [-100] ++ eState s0 ++ run_dump_last e s0 ops
         | None => bad_input end
  | 105 => match run_dec (let* ar := dPos in let* nd := dPos in let* r := dZ in let* rb := dList dPos in
                          let* b := dDump in let* a := dDump in let* bs := dList (dPair dPos dNodeRef) in
                          ret (ar, nd, r, rb, b, a, bs)) toks with
           | Some (ar, nd, r, rb, b, a, bs) => eBool (law_dispatch ar nd r rb b a bs)
           | None => bad_input end
  | 106 => match run_dec (let* rec := dList dPos in let* bs := dList (dPair dPos dNodeRef) in ret (rec, bs)) toks with
           | Some (rec, bs) => eBool (law_undecided rec bs)
           | None => bad_input end
  (* a failed Allocate / Pipeline (Statement or Session) on a task OUTSIDE the call sites'
     precondition (not Pending, or already on a node): no trace either *)
  | 107 => match run_dec (dPair dDump dDump) toks with
           | Some (b, a) => eBool (law_discard b a)
           | None => bad_input end
  | 108 => match run_dec (let* ar := dPos in let* nd := dPos in let* a := dDump in ret (ar, nd, a)) toks with
           | Some (ar, nd, a) => eBool (law_arg_restored ar nd a)
           | None => bad_input end
  | 109 => match run_dec (let* t := dPos in let* b := dDump in let* a := dDump in ret (t, b, a)) toks with
           | Some (t, b, a) => eBool (law_same_except t b a)
           | None => bad_input end
  (* a value a failed / discarded operation must leave as it was (Pod.Spec.NodeName) *)
  | 110 => match run_dec (dPair dZ dZ) toks with
           | Some (x, y) => eBool (x =? y)
           | None => bad_input end
  | 112 => match run_dec dCase toks with
           | Some (e, ns, js, ts, _) => eBool (init_okb (build e ns js ts))
           | None => bad_input end
  | 113 => match run_dec (let* t := dPos in let* r := dZ in let* b := dDump in let* a := dDump in
                          let* es := dList dPos in ret (t, r, b, a, es)) toks with
           | Some (t, r, b, a, es) => eBool (law_ssn_evict t r b a es)
           | None => bad_input end
  | 101 => match run_dec (let* o := dZ in let* r := dZ in let* t := dZ in let* b := dDump in let* a := dDump in
                          let* nb := dZ in let* ne := dZ in ret (o, r, t, b, a, nb, ne)) toks with
           | Some (o, r, t, b, a, nb, ne) => eBool (law_step o r t b a nb ne)
           | None => bad_input end
  | 201 => match run_dec (let* o := dZ in let* r := dZ in let* b := dDump in let* a := dDump in
                          let* nb := dZ in let* ne := dZ in ret (o, r, b, a, nb, ne)) toks with
           | Some (o, r, b, a, nb, ne) =>
             eBool (ledger_okb (d_heap b) (d_jobs b) (d_nodes b)) ++
             eBool (ledger_okb (d_heap a) (d_jobs a) (d_nodes a)) ++
             eBool (map_sameb task_sameb (d_heap b) (d_heap a)) ++
             eBool (map_sameb job_sameb (d_jobs b) (d_jobs a)) ++
             eBool (map_sameb node_sameb (d_nodes b) (d_nodes a)) ++
             eBool (share_sameb (d_share b) (d_share a)) ++
             eBool (gmap_allb (fun i t => bool_decide (t_id t = i)) (d_heap a)) ++
             flat_map (fun kv => Zpos (fst kv) :: eBool (job_okb (d_heap a) (snd kv))) (map_to_list (d_jobs a)) ++ [-1] ++
             flat_map (fun kv => Zpos (fst kv) :: eBool (node_okb (d_heap a) (snd kv))) (map_to_list (d_nodes a))
           | None => bad_input end
  | 102 => match run_dec (dPair dDump dDump) toks with
           | Some (b, a) => eBool (law_discard b a)
           | None => bad_input end
  | 103 => match run_dec (let* ops := dList dCop in let* b := dDump in let* a := dDump in
                          let* bs := dList (dPair dPos dNodeRef) in let* es := dList dPos in ret (ops, b, a, bs, es)) toks with
           | Some (ops, b, a, bs, es) => eBool (law_commit ops b a bs es)
           | None => bad_input end
  (* a committed transaction all of whose operations the cache refused: everything is back *)
  | 104 => match run_dec (dPair dDump dDump) toks with
           | Some (b, a) => eBool (law_discard b a)
           | None => bad_input end
  | _ => bad_input
  end.
