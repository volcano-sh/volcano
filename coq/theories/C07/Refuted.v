(* C07: the record of four repaired defects.

   Each repaired defect is kept as an executable PRE-fix variant of the model
   function the fix changed, with a witness on the concrete session of
   C07/Example.v showing the behaviour the fix removed and that the current
   model does not have it (the [_refuted] statements over these variants are in
   Props/C07.v).

     (a) /repo 3dda375  Statement.unevict restored Running whatever the victim's status was
     (b) /repo bde0fb5  JobInfo.DeleteTaskInfo deleted the task from the sub-job's status index
                        under the caller's object's status, not the stored object's
     (c) /repo 70f999a  Session.Allocate / Pipeline returned the error of an unknown / refusing
                        node but left the task Allocated / Pipelined with NodeName set
     (d) /repo c8b10ae  Session.Allocate returned the error of a refused dispatch (AddBindTask) but
                        kept the task Allocated on the node (finding
                        C07-session-allocate-dispatch-refused-keeps-allocation)

     (e) OPEN           three known findings (undecided task reaches the binder;
                        failed placement outside the call sites' precondition; failed
                        Session.Allocate keeps its argument Allocated)

   Everything is evaluated by vm_compute. *)
From stdpp Require Import gmap.
From Coq Require Import ZArith List.
From V Require Import Base.Res Sched.LedgerModel Sched.StmtModel Sched.LedgerInv Sched.LedgerCodec.
From V Require Import C07.Example.
Import ListNotations.
Open Scope Z_scope.

(* on no node of the session *)
Definition on_no_node (s : sess) (tid : positive) : bool :=
  gmap_allb (fun _ n => bool_decide (n_tasks n !! tid = None)) (nodes s).

(* ====================================================================== *)
(* (a) 3dda375: unevict always restored Running                            *)
(*     pre-fix pkg/scheduler/framework/statement.go:                       *)
(*       123-127  func (s *Statement) unevict(reclaimee) ...               *)
(*                  job.UpdateTaskStatus(reclaimee, api.Running)           *)
(*       382      Discard:  err := s.unevict(op.task)                      *)
(*       114      evict (Commit, cache.Evict refused): s.unevict(reclaimee)*)
(* ====================================================================== *)
Section PrefixA.
Variable eps : Z.

(* = unevict_with, with Running instead of [restore_status prev] *)
Definition unevict_prefix (s : sess) (p : task) : sess * bool :=
  let '(_, s1, p1) := ssn_update_status s p Running in
  let '(s2, p2, fatal) := ssn_node_update eps s1 p1 in
  let '(_, s3) := h_alloc s2 p2 in
  (s3, fatal).

Definition undo_op_prefix (s : sess) (o : oprec) : sess :=
  match heap s !! op_task o with
  | None => s
  | Some p =>
    match op_kind o with
    | KEvict => fst (unevict_prefix s p)
    | KPipeline => unpipeline_with s p
    | KAllocate => unallocate_with s p
    end
  end.

Definition stmt_discard_prefix (s : sess) (sid : positive) : sess :=
  let ops := default [] (stmts s !! sid) in
  let s' := fold_left undo_op_prefix (rev ops) s in
  upd_stmts s' (<[sid := []]> (stmts s')).

(* Commit: a refused cache.Evict un-evicts the victim the same way *)
Definition commit_op_prefix (s : sess) (o : oprec) : sess :=
  match heap s !! op_task o with
  | None => s
  | Some p =>
    match op_kind o with
    | KEvict =>
      if bool_decide (t_id p ∈ refuse_evict s) then fst (unevict_prefix s p)
      else upd_logs s (binds s) (t_id p :: evicts s)
    | _ => commit_op eps s o
    end
  end.

Definition stmt_commit_prefix (s : sess) (sid : positive) : sess :=
  let ops := default [] (stmts s !! sid) in
  let s' := fold_left commit_op_prefix ops s in
  upd_stmts s' (<[sid := []]> (stmts s')).

End PrefixA.

(* the variant differs from the current function only in the restored status *)
Lemma unevict_prefix_running eps s p :
  unevict_prefix eps s p = unevict_with eps s p Running.
Proof. reflexivity. Qed.

(* witness: the Bound task 3 of ex_sess, evicted in statement 1, then discarded *)
Example unevict_prefix_witness :
  let s := ex_sess in let sid := 1%positive in let tid := 3%positive in
  ledger_okb (heap s) (jobs s) (nodes s) = true /\
  (t_status <$> heap s !! tid) = Some Bound /\
  snd (stmt_evict ex_eps s sid tid) = ROk /\
  let s1 := fst (stmt_evict ex_eps s sid tid) in
  (t_status <$> heap (stmt_discard_prefix ex_eps s1 sid) !! tid) = Some Running /\
  copy_status (stmt_discard_prefix ex_eps s1 sid) 2 tid = Some Running /\
  sess_sameb s (stmt_discard_prefix ex_eps s1 sid) = false /\
  (* the current model *)
  (t_status <$> heap (stmt_discard ex_eps s1 sid) !! tid) = Some Bound /\
  copy_status (stmt_discard ex_eps s1 sid) 2 tid = Some Bound /\
  sess_sameb s (stmt_discard ex_eps s1 sid) = true.
Proof. vm_compute. repeat split; reflexivity. Qed.


(* companion: with the current stmt_discard the same victim is Bound again, and the whole
   session is restored exactly *)
Theorem unevict_current_restores_bound :
  exists s sid tid,
    ledger_okb (heap s) (jobs s) (nodes s) = true /\
    (t_status <$> heap s !! tid) = Some Bound /\
    let s1 := fst (stmt_evict ex_eps s sid tid) in
    (t_status <$> heap (stmt_discard ex_eps s1 sid) !! tid) = Some Bound /\
    sess_sameb s (stmt_discard ex_eps s1 sid) = true.
Proof. exists ex_sess, 1%positive, 3%positive. vm_compute. repeat split; reflexivity. Qed.

(* the same defect through Commit with a refused eviction (clone passed, as preempt does) *)
Example unevict_prefix_commit_witness :
  let s := upd_faults ex_sess ∅ ∅ {[3%positive]} true in
  let s1 := fst (stmt_evict_clone ex_eps s 1 3) in
  (t_status <$> heap s !! 3%positive) = Some Bound /\
  (t_status <$> heap (stmt_commit_prefix ex_eps s1 1) !! 3%positive) = Some Running /\
  evicts (stmt_commit_prefix ex_eps s1 1) = [] /\
  (t_status <$> heap (stmt_commit ex_eps s1 1) !! 3%positive) = Some Bound /\
  sess_sameb s (stmt_commit ex_eps s1 1) = true.
Proof. vm_compute. repeat split; reflexivity. Qed.

(* ====================================================================== *)
(* (b) bde0fb5: sub-job index deletion under the caller's object's status  *)
(*     pre-fix pkg/scheduler/api/job_info.go:                              *)
(*       741-751  func (ji *JobInfo) DeleteTaskInfo(ti) ...               *)
(*       748        ji.deleteTaskIndex(task)        (stored object)        *)
(*       749        ji.deleteTaskFromSubJob(ti)     (CALLER's object)      *)
(*     sub_job_info.go deleteTask: TaskStatusIndex[ti.Status]              *)
(* ====================================================================== *)

(* = job_del, but the sub-job's idx_del uses the status of the passed object *)
Definition job_del_prefix (j : job) (stored passed : task) : job :=
  let subs :=
    match j_task_sub j !! t_id stored with
    | Some sid =>
      match j_subs j !! sid with
      | Some sj => <[sid := mkSub (sj_min sj) (sj_tasks sj ∖ {[t_id stored]})
                                  (idx_del (sj_index sj) (t_status passed) (t_id stored))]> (j_subs j)
      | None => j_subs j
      end
    | None => j_subs j
    end in
  mkJob (j_id j) (j_queue j) (j_min j) (j_role_min j) (j_role_total j)
    (j_tasks j ∖ {[t_id stored]})
    (idx_del (j_index j) (t_status stored) (t_id stored))
    (if allocated_status (t_status stored) then sub (j_alloc j) (t_req stored) else j_alloc j)
    (sub (j_total j) (t_req stored))
    subs
    (delete (t_id stored) (j_task_sub j)).

Definition job_update_prefix (heap : gmap positive task) (j : job) (passed : task) (s : status) : job * task :=
  let j1 :=
    if bool_decide (t_id passed ∈ j_tasks j) then
      match heap !! t_id passed with
      | Some stored => job_del_prefix j stored passed
      | None => j
      end
    else j in
  let p' := set_status passed s in
  (job_add j1 p', p').

(* when the caller passes the stored object itself the two agree *)
Lemma job_del_prefix_same_object j t : job_del_prefix j t t = job_del j t.
Proof. reflexivity. Qed.

(* The statement operations over an arbitrary UpdateTaskStatus [upd]: the chain needed to run
   Allocate / Pipeline / Evict / Discard / RecoverOperations.  With [upd := job_update] these
   are the functions of Sched/StmtModel.v (lemmas *_u_current below, by conversion). *)
Section WithUpdate.
Variable eps : Z.
Variable upd : gmap positive task -> job -> task -> status -> job * task.

Definition ssn_update_status_u (s : sess) (p : task) (st : status) : bool * sess * task :=
  match jobs s !! t_job p with
  | Some j =>
    let '(j', p') := upd (heap s) j p st in
    (true, put_task (upd_jobs s (<[t_job p := j']> (jobs s))) p', p')
  | None => (false, s, p)
  end.

Definition unallocate_u (s : sess) (p : task) : sess :=
  let '(_, s1, p1) := ssn_update_status_u s p Pending in
  let s2 := ssn_node_remove s1 p1 in
  let s3 := h_dealloc s2 p1 in
  put_task s3 (set_node p1 None).

Definition unevict_u (s : sess) (p : task) (prev : status) : sess * bool :=
  let '(_, s1, p1) := ssn_update_status_u s p (restore_status prev) in
  let '(s2, p2, fatal) := ssn_node_update eps s1 p1 in
  let '(_, s3) := h_alloc s2 p2 in
  (s3, fatal).

Definition place_u (s : sess) (sid : positive) (k : opkind) (p : task) (nid : positive) : sess * result :=
  let st := match k with KAllocate => Allocated | _ => Pipelined end in
  let '(found, s1, p1) := ssn_update_status_u s p st in
  let p2 := set_node p1 (Some nid) in
  let s2 := put_task s1 p2 in
  let '(s3, p3, nodeok) :=
    match nodes s2 !! nid with
    | Some n =>
      match node_add eps n p2 with
      | inl (n', p') => (put_task (upd_nodes s2 (<[nid := n']> (nodes s2))) p', p', true)
      | inr _ => (s2, p2, false)
      end
    | None => (s2, p2, false)
    end in
  let '(herr_, s4) := h_alloc s3 p3 in
  if found && nodeok && negb herr_ then (push_op s4 sid k (t_id p) Pending, ROk)
  else (unallocate_u s4 p3, RErr).

Definition stmt_evict_u (s : sess) (sid : positive) (p : task) (prev : option status) : sess * result :=
  let '(_, s1, p1) := ssn_update_status_u s p Releasing in
  let '(s2, p2, fatal) := ssn_node_update eps s1 p1 in
  let s3 := h_dealloc s2 p2 in
  (push_op s3 sid KEvict (t_id p) (default (t_status p) prev), if fatal then RFatal else ROk).

Definition undo_op_u (s : sess) (o : oprec) : sess :=
  match heap s !! op_task o with
  | None => s
  | Some p =>
    match op_kind o with
    | KEvict => fst (unevict_u s p (op_prev o))
    | KPipeline => unallocate_u s p
    | KAllocate => unallocate_u s p
    end
  end.

Definition stmt_discard_u (s : sess) (sid : positive) : sess :=
  let ops := default [] (stmts s !! sid) in
  let s' := fold_left undo_op_u (rev ops) s in
  upd_stmts s' (<[sid := []]> (stmts s')).

Fixpoint recover_ops_u (s : sess) (sid : positive) (l : list savedop) : sess * result :=
  match l with
  | [] => (s, ROk)
  | o :: r =>
    let p := so_task o in
    match so_kind o with
    | KEvict => let '(s1, _) := stmt_evict_u s sid p (Some (so_prev o)) in recover_ops_u s1 sid r
    | KPipeline =>
      match t_node p with
      | Some nid => let '(s1, res) := place_u s sid KPipeline p nid in
                    match res with ROk => recover_ops_u s1 sid r | _ => (s1, RErr) end
      | None => (s, RErr)
      end
    | KAllocate =>
      match t_node p with
      | Some nid => let '(s1, res) := place_u s sid KAllocate p nid in
                    match res with ROk => recover_ops_u s1 sid r | _ => (s1, RErr) end
      | None => (s, RErr)
      end
    end
  end.

Definition stmt_recover_u (s : sess) (sid slot : positive) : sess * result :=
  let l := default [] (saved s !! slot) in
  let '(s1, r) := recover_ops_u s sid l in
  (upd_saved s1 (delete slot (saved s1)), r).

(* the statement-level fragment of [step] (Commit / Session.* are not needed for the witness) *)
Definition step_u (s : sess) (o : op) : sess * result :=
  match o with
  | OAllocate sid tid nid => with_task s tid (fun p => place_u s sid KAllocate p nid)
  | OPipeline sid tid nid => with_task s tid (fun p => place_u s sid KPipeline p nid)
  | OEvict sid tid => with_task s tid (fun p => stmt_evict_u s sid p None)
  | ODiscard sid => (stmt_discard_u s sid, ROk)
  | OSave sid slot => (stmt_save s sid slot, ROk)
  | ORecover sid slot => stmt_recover_u s sid slot
  | OMerge sid src => (stmt_merge s sid src, ROk)
  | _ => (s, RNoTask)
  end.

Definition run_u (s : sess) (ops : list op) : sess := fold_left (fun s o => fst (step_u s o)) ops s.

End WithUpdate.

(* instantiated with the current UpdateTaskStatus the chain IS the model's *)
Lemma ssn_update_status_u_current s p st :
  ssn_update_status_u job_update s p st = ssn_update_status s p st.
Proof. reflexivity. Qed.
Lemma place_u_current eps s sid k p nid :
  place_u eps job_update s sid k p nid = place_with eps s sid k p nid.
Proof. reflexivity. Qed.
Lemma stmt_evict_u_current eps s sid p prev :
  stmt_evict_u eps job_update s sid p prev = stmt_evict_with eps s sid p prev.
Proof. reflexivity. Qed.
Lemma stmt_discard_u_current eps s sid :
  stmt_discard_u eps job_update s sid = stmt_discard eps s sid.
Proof. reflexivity. Qed.
Lemma stmt_recover_u_current eps s sid slot :
  stmt_recover_u eps job_update s sid slot = stmt_recover eps s sid slot.
Proof. reflexivity. Qed.

(* the pre-fix chain *)
Definition ssn_update_status_prefix := ssn_update_status_u job_update_prefix.
Definition unallocate_prefix := unallocate_u job_update_prefix.
Definition place_with_prefix (eps : Z) := place_u eps job_update_prefix.
Definition stmt_evict_with_prefix (eps : Z) := stmt_evict_u eps job_update_prefix.
Definition stmt_discard_b_prefix (eps : Z) := stmt_discard_u eps job_update_prefix.
Definition stmt_recover_prefix (eps : Z) := stmt_recover_u eps job_update_prefix.
Definition step_b_prefix (eps : Z) := step_u eps job_update_prefix.
Definition run_b_prefix (eps : Z) := run_u eps job_update_prefix.

(* the sub-job index of job [jid]'s sub-job 1, as sorted (status key, members) pairs *)
Definition sub_index_view (j : job) : list (positive * list positive) :=
  match j_subs j !! 1%positive with
  | Some sj => map (fun kv => (fst kv, elements (snd kv))) (map_to_list (sj_index sj))
  | None => []
  end.
Definition job_index_view (j : job) : list (positive * list positive) :=
  map (fun kv => (fst kv, elements (snd kv))) (map_to_list (j_index j)).

(* witness at the UpdateTaskStatus level: job 1 of ex_sess holds t1 (Pending); the caller
   passes a CLONE of t1 whose status is already Allocated (what RecoverOperations replays)
   and asks for Allocated. *)
Definition b_heap : gmap positive task := heap ex_sess.
Definition b_job : job := default (empty_job (mkJobSpec 1 1 1 [])) (jobs ex_sess !! 1%positive).
Definition b_stored : task := default (task_of_spec ex_eps (mkTaskSpec 1 1 1 0 0 0 0 Pending None true))
                                      (heap ex_sess !! 1%positive).
Definition b_passed : task := set_node (set_status b_stored Allocated) (Some 1%positive).

Example job_del_prefix_witness :
  job_okb b_heap b_job = true /\
  t_status b_stored = Pending /\ t_status b_passed = Allocated /\ t_id b_passed = t_id b_stored /\
  (let '(j', p') := job_update_prefix b_heap b_job b_passed Allocated in
   job_okb (<[t_id p' := p']> b_heap) j' = false /\
   sub_okb (<[t_id p' := p']> b_heap) j' = false /\
   (* t1 is in the sub-job's index under Pending (1) AND under Allocated (2) *)
   sub_index_view j' = [(1, [1]); (2, [1]); (6, [2])]%positive /\
   job_index_view j' = [(2, [1]); (6, [2])]%positive) /\
  (let '(j', p') := job_update b_heap b_job b_passed Allocated in
   job_okb (<[t_id p' := p']> b_heap) j' = true /\
   sub_index_view j' = [(2, [1]); (6, [2])]%positive /\
   job_index_view j' = [(2, [1]); (6, [2])]%positive).
Proof. vm_compute. repeat split; reflexivity. Qed.

Theorem job_del_prefix_refuted :
  exists (h : gmap positive task) (j : job) (passed : task) (st : status),
    job_okb h j = true /\
    (exists stored, h !! t_id passed = Some stored /\ t_status stored <> t_status passed) /\
    (let '(j', p') := job_update_prefix h j passed st in job_okb (<[t_id p' := p']> h) j' = false) /\
    (let '(j', p') := job_update h j passed st in job_okb (<[t_id p' := p']> h) j' = true).
Proof.
  exists b_heap, b_job, b_passed, Allocated.
  split; [vm_compute; reflexivity|].
  split; [exists b_stored; split; [vm_compute; reflexivity | vm_compute; discriminate]|].
  split; vm_compute; reflexivity.
Qed.

(* the same defect at the session level: Allocate t1; SaveOperations; Discard; RecoverOperations *)
Definition b_hist : list op := [OAllocate 1 1 1; OSave 1 1; ODiscard 1; ORecover 2 1].

Example job_del_prefix_session_witness :
  (* up to the Discard every call passes the stored object: no difference *)
  okb (run_b_prefix ex_eps ex_sess (firstn 3 b_hist)) = true /\
  sess_sameb ex_sess (run_b_prefix ex_eps ex_sess (firstn 3 b_hist)) = true /\
  (* RecoverOperations passes the saved clone *)
  okb (run_b_prefix ex_eps ex_sess b_hist) = false /\
  (sub_index_view <$> jobs (run_b_prefix ex_eps ex_sess b_hist) !! 1%positive) =
    Some [(1, [1]); (2, [1]); (6, [2])]%positive /\
  (* the current model *)
  okb (run ex_eps ex_sess b_hist) = true /\
  (sub_index_view <$> jobs (run ex_eps ex_sess b_hist) !! 1%positive) =
    Some [(2, [1]); (6, [2])]%positive /\
  sess_sameb (run ex_eps ex_sess (firstn 1 b_hist)) (run ex_eps ex_sess b_hist) = true.
Proof. vm_compute. repeat split; reflexivity. Qed.


(* ====================================================================== *)
(* (c) 70f999a: Session.Allocate / Pipeline without revertPlacement        *)
(*     pre-fix pkg/scheduler/framework/session.go:                         *)
(*       717-753  Session.Pipeline: 734 `return err` (node.AddTask failed),*)
(*                741 `return fmt.Errorf("failed to find node ...")`       *)
(*       756-806  Session.Allocate: 776 `return err`, 783 `return ...`     *)
(* ====================================================================== *)
Section PrefixC.
Variable eps : Z.

(* = ssn_place_with without [revert] in the two node branches *)
Definition ssn_place_with_prefix (jr : sess -> job -> bool) (s : sess) (k : opkind) (tid nid : positive)
  : sess * result :=
  match heap s !! tid with
  | None => (s, RNoTask)
  | Some p =>
    let st := match k with KAllocate => Allocated | _ => Pipelined end in
    let '(found, s1, p1) := ssn_update_status s p st in
    if negb found then (s, RErr) else
    let p2 := set_node p1 (Some nid) in
    let s2 := put_task s1 p2 in
    match nodes s2 !! nid with
    | None => (s2, RErr)
    | Some n =>
      match node_add eps n p2 with
      | inr _ => (s2, RErr)
      | inl (n', p3) =>
        let s3 := put_task (upd_nodes s2 (<[nid := n']> (nodes s2))) p3 in
        let '(_, s4) := h_alloc s3 p3 in
        match k with
        | KAllocate =>
          match jobs s4 !! t_job p with
          | Some j =>
            if jr s4 j then
              let '(s5, ok) := dispatch_all s4 (elements (default ∅ (j_index j !! skey Allocated))) in
              (s5, if ok then ROk else RErr)
            else (s4, ROk)
          | None => (s4, ROk)
          end
        | _ => (s4, ROk)
        end
      end
    end
  end.

Definition ssn_place_prefix := ssn_place_with_prefix (fun s _ => job_ready s).

End PrefixC.

(* witness: the Pending off-node task 1 of ex_sess, Session.Allocate on the unknown node 9 *)
Example ssn_place_prefix_witness :
  let s := ex_sess in let tid := 1%positive in let nid := 9%positive in
  okb s = true /\ task_view s tid = Some (Pending, None) /\ on_no_node s tid = true /\
  nodes s !! nid = None /\
  snd (ssn_place_prefix ex_eps s KAllocate tid nid) = RErr /\
  (let s' := fst (ssn_place_prefix ex_eps s KAllocate tid nid) in
   task_view s' tid = Some (Allocated, Some nid) /\ on_no_node s' tid = true /\
   (job_index_view <$> jobs s' !! 1%positive) = Some [(2, [1]); (6, [2])]%positive /\
   map_sameb task_sameb (heap s) (heap s') = false /\
   map_sameb job_sameb (jobs s) (jobs s') = false) /\
  (* Pipeline likewise *)
  snd (ssn_place_prefix ex_eps s KPipeline tid nid) = RErr /\
  task_view (fst (ssn_place_prefix ex_eps s KPipeline tid nid)) tid = Some (Pipelined, Some nid) /\
  (* the current model: error and no trace *)
  snd (ssn_place ex_eps s KAllocate tid nid) = RErr /\
  sess_sameb s (fst (ssn_place ex_eps s KAllocate tid nid)) = true /\
  snd (ssn_place ex_eps s KPipeline tid nid) = RErr /\
  sess_sameb s (fst (ssn_place ex_eps s KPipeline tid nid)) = true.
Proof. vm_compute. repeat split; reflexivity. Qed.


Theorem ssn_place_current_no_trace :
  exists s tid nid,
    ledger_okb (heap s) (jobs s) (nodes s) = true /\
    (t_status <$> heap s !! tid) = Some Pending /\
    (heap s !! tid ≫= t_node) = None /\
    on_no_node s tid = true /\
    snd (ssn_place ex_eps s KAllocate tid nid) = RErr /\
    let s' := fst (ssn_place ex_eps s KAllocate tid nid) in
    map_sameb task_sameb (heap s) (heap s') &&
    map_sameb job_sameb (jobs s) (jobs s') &&
    map_sameb node_sameb (nodes s) (nodes s') &&
    share_sameb (hshare s) (hshare s') = true.
Proof. exists ex_sess, 1%positive, 9%positive. vm_compute. repeat split; reflexivity. Qed.

(* the other branch (node.AddTask refuses: the task is already on the node).  Outside the call
   sites' precondition (the task is Running on node 1), shown only to exercise line 734/776 *)
Example ssn_place_prefix_node_refuses :
  snd (ssn_place_prefix ex_eps ex_sess KPipeline 2 1) = RErr /\
  task_view (fst (ssn_place_prefix ex_eps ex_sess KPipeline 2 1)) 2 = Some (Pipelined, Some 1%positive) /\
  copy_status (fst (ssn_place_prefix ex_eps ex_sess KPipeline 2 1)) 1 2 = Some Running.
Proof. vm_compute. repeat split; reflexivity. Qed.

(* ====================================================================== *)
(* (d) fix c8b10ae: Session.Allocate kept the allocation of a task whose    *)
(*     dispatch was refused.  Pre-fix pkg/scheduler/framework/session.go,   *)
(*     Session.Allocate: `if ssn.JobReady(job) { for ... { if err :=        *)
(*     ssn.dispatch(task); err != nil { ...; return err } } }` returned the *)
(*     AddBindTask error with the task still Allocated, on the node, and    *)
(*     the handlers called.  The repaired loop calls ssn.undoAllocation.    *)
(* ====================================================================== *)
Section PrefixD.
Variable eps : Z.

Fixpoint dispatch_all_prefix (s : sess) (l : list positive) : sess * bool :=
  match l with
  | [] => (s, true)
  | t :: r => let '(s1, ok) := dispatch s t in if ok then dispatch_all_prefix s1 r else (s1, false)
  end.

(* ssn_place_with of Sched/StmtModel.v with the pre-fix dispatch loop *)
Definition ssn_place_with_dprefix (jr : sess -> job -> bool) (s : sess) (k : opkind) (tid nid : positive) : sess * result :=
  match heap s !! tid with
  | None => (s, RNoTask)
  | Some p =>
    let st := match k with KAllocate => Allocated | _ => Pipelined end in
    let '(found, s1, p1) := ssn_update_status s p st in
    if negb found then (s, RErr) else
    let p2 := set_node p1 (Some nid) in
    let s2 := put_task s1 p2 in
    let revert :=
      let '(_, sr, pr) := ssn_update_status s2 p2 Pending in
      put_task sr (set_node pr None) in
    match nodes s2 !! nid with
    | None => (revert, RErr)
    | Some n =>
      match node_add eps n p2 with
      | inr _ => (revert, RErr)
      | inl (n', p3) =>
        let s3 := put_task (upd_nodes s2 (<[nid := n']> (nodes s2))) p3 in
        let '(_, s4) := h_alloc s3 p3 in
        match k with
        | KAllocate =>
          match jobs s4 !! t_job p with
          | Some j =>
            if jr s4 j then
              let '(s5, ok) := dispatch_all_prefix s4 (elements (default ∅ (j_index j !! skey Allocated))) in
              (s5, if ok then ROk else RErr)
            else (s4, ROk)
          | None => (s4, ROk)
          end
        | _ => (s4, ROk)
        end
      end
    end
  end.

Definition ssn_place_dprefix := ssn_place_with_dprefix (fun s _ => job_ready s).
End PrefixD.

(* the two loops agree as long as every dispatch succeeds *)
Lemma dispatch_all_prefix_ok s l s' : dispatch_all_prefix s l = (s', true) -> dispatch_all s l = (s', true).
Proof.
  revert s. induction l as [|t r IH]; intros s; simpl; [auto|].
  destruct (dispatch s t) as [s1 ok]. destruct ok; [apply IH|discriminate].
Qed.

(* ex_sess with cache.AddBindTask refusing task 1 and ssn.JobReady = true *)
Definition d_sess : sess := upd_faults ex_sess ∅ {[1%positive]} ∅ true.

Example dispatch_all_prefix_witness :
  let s := d_sess in let tid := 1%positive in let nid := 1%positive in
  okb s = true /\ task_view s tid = Some (Pending, None) /\ on_no_node s tid = true /\
  snd (ssn_place_dprefix ex_eps s KAllocate tid nid) = RErr /\
  let s' := fst (ssn_place_dprefix ex_eps s KAllocate tid nid) in
  okb s' = true /\
  task_view s' tid = Some (Allocated, Some nid) /\
  copy_status s' nid tid = Some Allocated /\
  binds s' = [] /\
  map (fun e => (he_alloc e, he_task e, he_status e)) (hlog s') = [(true, tid, Allocated)] /\
  map_sameb task_sameb (heap s) (heap s') = false /\
  map_sameb job_sameb (jobs s) (jobs s') = false /\
  map_sameb node_sameb (nodes s) (nodes s') = false /\
  share_sameb (hshare s) (hshare s') = false.
Proof. vm_compute. repeat split; reflexivity. Qed.


(* companion: the repaired Session.Allocate returns the error and leaves no trace (the handler
   log shows the allocate and the deallocate callback) *)
Theorem ssn_allocate_dispatch_refused_no_trace :
  let s := d_sess in let tid := 1%positive in let nid := 1%positive in
  snd (ssn_place ex_eps s KAllocate tid nid) = RErr /\
  let s' := fst (ssn_place ex_eps s KAllocate tid nid) in
  okb s' = true /\ sess_sameb s s' = true /\ binds s' = [] /\ on_no_node s' tid = true /\
  map (fun e => (he_alloc e, he_task e, he_status e)) (hlog s') = [(false, tid, Pending); (true, tid, Allocated)].
Proof. vm_compute. repeat split; reflexivity. Qed.

(* the same situation reached through the operation alphabet (OSetFaults, OSsnAllocate) *)
Example ssn_allocate_dispatch_refused_hist :
  run_results ex_eps ex_sess [OSetFaults [] [1%positive] [] true; OSsnAllocate 1 1] = [ROk; RErr] /\
  task_view (run ex_eps ex_sess [OSetFaults [] [1%positive] [] true; OSsnAllocate 1 1]) 1
    = Some (Pending, None).
Proof. vm_compute. repeat split; reflexivity. Qed.

(* ====================================================================== *)
(* (e) OPEN known findings: three clauses of the property text that are    *)
(*     false on the faithful model AND on the Go code (laws 106 / 107 /    *)
(*     108 of C07/Entry.v reproduce them on the Go dumps).  The session    *)
(*     below carries their witnesses, C07_*_refuted in Props/C07.v.        *)
(* ====================================================================== *)

(* job 1 with two Pending tasks (t1, t5) and the Running t2; job 2 as in ex_sess *)
Definition w_tasks : list task_spec :=
  ex_tasks ++ [mkTaskSpec 5 1 1 0 500 500 0 Pending None true].
Definition w_sess : sess := build ex_eps ex_nodes ex_jobs w_tasks.

Print Assumptions unevict_current_restores_bound.
Print Assumptions job_del_prefix_refuted.
Print Assumptions ssn_place_current_no_trace.
Print Assumptions ssn_allocate_dispatch_refused_no_trace.
