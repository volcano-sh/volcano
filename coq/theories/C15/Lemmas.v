(* C15 proofs: volcano's pod request is upstream's, converted by NewResource,
   plus one "pods" — for every pod whose amounts lie on the conversion grid ([pod_ok]; main
   theorem [volcano_eq_upstream]).  Then what follows from it: the task and cache reservations,
   kube-scheduler's own units, the node ledger, the incoming-pod computation, the event
   histories of the cache; the decidability instances, and the pods of the refutation and
   non-vacuity theorems of Props/C15.v. *)
From stdpp Require Import gmap.
From Coq Require Import ZArith Lia.
From V Require Import Base.Res Base.ResLemmas C15.Model C15.Laws.
Open Scope Z_scope.

Lemma round_away_mul a u : 0 < u -> round_away (a * u) u = a.
Proof.
  intros Hu. unfold round_away. case_bool_decide.
  - replace (a * u + u - 1) with ((u - 1) + a * u) by lia.
    rewrite Z.div_add, Z.div_small by lia. lia.
  - replace (- (a * u) + u - 1) with ((u - 1) + (- a) * u) by lia.
    rewrite Z.div_add, Z.div_small by lia. lia.
Qed.

(* the grid on which a name's conversion is exact: whole units for memory and
   pods (Value()), milli-units for everything else (MilliValue()) *)
Definition unit_of (k : positive) : Z :=
  if bool_decide (k = mem_name) || bool_decide (k = pods_name) then nano_per_unit else nano_per_milli.

Lemma unit_of_pos k : 0 < unit_of k.
Proof. unfold unit_of, nano_per_unit, nano_per_milli. destruct (_ || _); lia. Qed.

Definition on_grid (k : positive) (q : Z) : Prop := 0 <= q /\ q mod unit_of k = 0.

Lemma on_grid_repr k q : on_grid k q -> exists a, 0 <= a /\ q = a * unit_of k.
Proof.
  intros [Hq Hm]. pose proof (unit_of_pos k) as Hu. exists (q / unit_of k). split.
  - apply Z.div_pos; lia.
  - rewrite (Z.div_mod q (unit_of k)) at 1 by lia. rewrite Hm. lia.
Qed.

Lemma on_grid_mul k a : 0 <= a -> on_grid k (a * unit_of k).
Proof.
  intros Ha. pose proof (unit_of_pos k). split; [nia|]. apply Z.mod_mul. lia.
Qed.

Lemma on_grid_0 k : on_grid k 0.
Proof. replace 0 with (0 * unit_of k) by lia. apply on_grid_mul. lia. Qed.

Lemma on_grid_add k x y : on_grid k x -> on_grid k y -> on_grid k (x + y).
Proof.
  intros (a & Ha & ->)%on_grid_repr (b & Hb & ->)%on_grid_repr.
  replace (a * unit_of k + b * unit_of k) with ((a + b) * unit_of k) by lia.
  apply on_grid_mul. lia.
Qed.

Lemma on_grid_max k x y : on_grid k x -> on_grid k y -> on_grid k (Z.max x y).
Proof. intros Hx Hy. destruct (Z.max_spec x y) as [[_ ->]|[_ ->]]; assumption. Qed.

(* the conversion of a name's amount *)
Definition cv (k : positive) (q : Z) : Z := round_away q (unit_of k).

Lemma cv_add k x y : on_grid k x -> on_grid k y -> cv k (x + y) = cv k x + cv k y.
Proof.
  intros (a & Ha & ->)%on_grid_repr (b & Hb & ->)%on_grid_repr. unfold cv.
  pose proof (unit_of_pos k).
  replace (a * unit_of k + b * unit_of k) with ((a + b) * unit_of k) by lia.
  rewrite !round_away_mul by lia. reflexivity.
Qed.

Lemma cv_max k x y : on_grid k x -> on_grid k y -> cv k (Z.max x y) = Z.max (cv k x) (cv k y).
Proof.
  intros (a & Ha & ->)%on_grid_repr (b & Hb & ->)%on_grid_repr. unfold cv.
  pose proof (unit_of_pos k).
  rewrite Z.mul_max_distr_nonneg_r by lia.
  rewrite !round_away_mul by lia. reflexivity.
Qed.

Lemma cv_0 k : cv k 0 = 0.
Proof. unfold cv. replace 0 with (0 * unit_of k) at 1 by lia. apply round_away_mul, unit_of_pos. Qed.

Lemma cv_nonneg k x : on_grid k x -> 0 <= cv k x.
Proof.
  intros (a & Ha & ->)%on_grid_repr. unfold cv. rewrite round_away_mul by apply unit_of_pos. lia.
Qed.

(* ---------- resource lists on the grid ---------- *)

Definition good (l : rl) : Prop := map_Forall on_grid l.

Lemma good_empty : good ∅.
Proof. apply map_Forall_empty. Qed.

Lemma good_default l k : good l -> on_grid k (default 0 (l !! k)).
Proof.
  intros Hg. destruct (l !! k) as [q|] eqn:E; simpl.
  - exact (Hg k q E).
  - apply on_grid_0.
Qed.

Lemma good_add a b : good a -> good b -> good (add_rl a b).
Proof.
  intros Ha Hb k q. unfold add_rl. rewrite lookup_union_with.
  destruct (a !! k) as [x|] eqn:Ea, (b !! k) as [y|] eqn:Eb; simpl; intros [= <-].
  - apply on_grid_add; [exact (Ha k x Ea)|exact (Hb k y Eb)].
  - exact (Ha k x Ea).
  - exact (Hb k y Eb).
Qed.

Lemma good_max a b : good a -> good b -> good (max_rl a b).
Proof.
  intros Ha Hb k q. unfold max_rl. rewrite lookup_union_with.
  destruct (a !! k) as [x|] eqn:Ea, (b !! k) as [y|] eqn:Eb; simpl; intros [= <-].
  - apply on_grid_max; [exact (Ha k x Ea)|exact (Hb k y Eb)].
  - exact (Ha k x Ea).
  - exact (Hb k y Eb).
Qed.

Lemma default_add a b k : default 0 (add_rl a b !! k) = default 0 (a !! k) + default 0 (b !! k).
Proof.
  unfold add_rl. rewrite lookup_union_with.
  destruct (a !! k), (b !! k); simpl; lia.
Qed.

Lemma default_max a b k : good a -> good b ->
  default 0 (max_rl a b !! k) = Z.max (default 0 (a !! k)) (default 0 (b !! k)).
Proof.
  intros Ha Hb. unfold max_rl. rewrite lookup_union_with.
  destruct (a !! k) as [x|] eqn:Ea, (b !! k) as [y|] eqn:Eb; simpl; try lia.
  - destruct (Ha k x Ea). lia.
  - destruct (Hb k y Eb). lia.
Qed.

(* ---------- equality of Resource vectors up to nil/empty scalar map ---------- *)

Definition req (r s : res) : Prop := cpu r = cpu s /\ mem r = mem s /\ scm r = scm s.

Lemma req_refl r : req r r.
Proof. repeat split. Qed.
Lemma req_sym r s : req r s -> req s r.
Proof. intros (?&?&?). repeat split; congruence. Qed.
Lemma req_trans r s t : req r s -> req s t -> req r t.
Proof. intros (?&?&?) (?&?&?). repeat split; congruence. Qed.

Lemma scm_add r s : scm (add r s) = union_with (fun a b => Some (a + b)) (scm r) (scm s).
Proof. apply map_eq. intros k. rewrite add_lookup, lookup_union_with. reflexivity. Qed.

Lemma scm_set_max r s : scm (set_max r s) = union_with (fun a b => Some (Z.max a b)) (scm r) (scm s).
Proof.
  apply map_eq. intros k. destruct (set_max_spec r s) as (_ & _ & H).
  rewrite H, lookup_union_with. reflexivity.
Qed.

Lemma req_add r r' s s' : req r r' -> req s s' -> req (add r s) (add r' s').
Proof.
  intros (?&?&?) (?&?&?). split; [|split].
  - rewrite !add_cpu. congruence.
  - rewrite !add_mem. congruence.
  - rewrite !scm_add. congruence.
Qed.

Lemma req_set_max r r' s s' : req r r' -> req s s' -> req (set_max r s) (set_max r' s').
Proof.
  intros (?&?&?) (?&?&?). split; [|split].
  - unfold set_max; simpl. congruence.
  - unfold set_max; simpl. congruence.
  - rewrite !scm_set_max. congruence.
Qed.

Lemma sget_scm r s k : scm r = scm s -> sget r k = sget s k.
Proof. unfold sget. intros ->. reflexivity. Qed.

Lemma scm_some c m x : scm (mkRes c m (Some x)) = x.
Proof. reflexivity. Qed.

Section Names.
Variable tracked : positive -> bool.
Variable plsup : positive -> bool.

Notation new_resource := (new_resource tracked).
Notation sc_conv := (sc_conv tracked).

(* ---------- NewResource as a homomorphism ---------- *)

Definition keep (k : positive) : bool :=
  negb (bool_decide (k = cpu_name) || bool_decide (k = mem_name)) &&
  (bool_decide (k = pods_name) || bool_decide (k = eph_name) || tracked k).

Lemma sc_conv_eq k q : sc_conv k q = if keep k then Some (cv k q) else None.
Proof.
  unfold Model.sc_conv, keep, cv, unit_of, unit_value, milli_value.
  repeat case_bool_decide; subst; simpl; try reflexivity; try discriminate;
    destruct (tracked k); reflexivity.
Qed.

Lemma scm_new l : scm (new_resource l) = map_imap sc_conv l.
Proof.
  unfold Model.new_resource. case_bool_decide as E.
  - rewrite E. reflexivity.
  - reflexivity.
Qed.

Lemma cpu_new l : cpu (new_resource l) = cv cpu_name (default 0 (l !! cpu_name)).
Proof. reflexivity. Qed.
Lemma mem_new l : mem (new_resource l) = cv mem_name (default 0 (l !! mem_name)).
Proof. reflexivity. Qed.

Lemma new_add a b : good a -> good b ->
  req (new_resource (add_rl a b)) (add (new_resource a) (new_resource b)).
Proof.
  intros Ha Hb. split; [|split].
  - rewrite add_cpu, !cpu_new, default_add. apply cv_add; apply good_default; assumption.
  - rewrite add_mem, !mem_new, default_add. apply cv_add; apply good_default; assumption.
  - rewrite scm_add, !scm_new. apply map_eq. intros k.
    rewrite lookup_union_with, !map_lookup_imap. unfold add_rl. rewrite lookup_union_with.
    destruct (a !! k) as [x|] eqn:Ea, (b !! k) as [y|] eqn:Eb; simpl; rewrite ?sc_conv_eq;
      destruct (keep k); simpl; try reflexivity.
    f_equal. apply cv_add; [exact (Ha k x Ea)|exact (Hb k y Eb)].
Qed.

Lemma new_max a b : good a -> good b ->
  req (new_resource (max_rl a b)) (set_max (new_resource a) (new_resource b)).
Proof.
  intros Ha Hb. split; [|split].
  - rewrite (proj1 (set_max_spec _ _)), !cpu_new, default_max by assumption.
    apply cv_max; apply good_default; assumption.
  - rewrite (proj1 (proj2 (set_max_spec _ _))), !mem_new, default_max by assumption.
    apply cv_max; apply good_default; assumption.
  - rewrite scm_set_max, !scm_new. apply map_eq. intros k.
    rewrite lookup_union_with, !map_lookup_imap. unfold max_rl. rewrite lookup_union_with.
    destruct (a !! k) as [x|] eqn:Ea, (b !! k) as [y|] eqn:Eb; simpl; rewrite ?sc_conv_eq;
      destruct (keep k); simpl; try reflexivity.
    f_equal. apply cv_max; [exact (Ha k x Ea)|exact (Hb k y Eb)].
Qed.

(* [sim r l]: the volcano vector r is NewResource of the upstream list l *)
Definition sim (r : res) (l : rl) : Prop := good l /\ req r (new_resource l).

Lemma sim_new l : good l -> sim (new_resource l) l.
Proof. intros. split; [assumption|apply req_refl]. Qed.

Lemma sim_empty : sim empty_res ∅.
Proof.
  split; [apply good_empty|]. split; [|split].
  - rewrite cpu_new, lookup_empty. simpl. rewrite cv_0. reflexivity.
  - rewrite mem_new, lookup_empty. simpl. rewrite cv_0. reflexivity.
  - rewrite scm_new, map_imap_empty. reflexivity.
Qed.

Lemma sim_add r a s b : sim r a -> sim s b -> sim (add r s) (add_rl a b).
Proof.
  intros [Ga Ra] [Gb Rb]. split; [apply good_add; assumption|].
  eapply req_trans; [apply req_add; eassumption|]. apply req_sym, new_add; assumption.
Qed.

Lemma sim_max r a s b : sim r a -> sim s b -> sim (set_max r s) (max_rl a b).
Proof.
  intros [Ga Ra] [Gb Rb]. split; [apply good_max; assumption|].
  eapply req_trans; [apply req_set_max; eassumption|]. apply req_sym, new_max; assumption.
Qed.

Definition good_status (cs : cstatus) : Prop :=
  good (default ∅ (cs_res cs)) /\ good (cs_alloc cs).

Lemma status_map_from_notin m l n :
  n ∉ map cs_name l -> status_map_from m l !! n = m !! n.
Proof.
  revert m. induction l as [|x l IH]; intros m Hn; [reflexivity|].
  simpl in Hn. apply not_elem_of_cons in Hn as [Hx Hl].
  unfold status_map_from. simpl. fold (status_map_from (<[cs_name x:=x]> m) l).
  rewrite IH by assumption. apply lookup_insert_ne. congruence.
Qed.

Lemma status_map_from_snoc m l x :
  status_map_from m (l ++ [x]) = <[cs_name x := x]> (status_map_from m l).
Proof. unfold status_map_from. rewrite fold_left_app. reflexivity. Qed.

Lemma status_map_from_lookup m l n :
  status_map_from m l !! n =
  match status_map l !! n with Some x => Some x | None => m !! n end.
Proof.
  induction l as [|x l IH] using rev_ind.
  - unfold status_map, status_map_from. simpl. rewrite lookup_empty. reflexivity.
  - unfold status_map. rewrite !status_map_from_snoc. fold (status_map l).
    destruct (decide (cs_name x = n)) as [->|Hne].
    + rewrite !lookup_insert. reflexivity.
    + rewrite !lookup_insert_ne by assumption. exact IH.
Qed.

Lemma status_map_from_good m l :
  map_Forall (fun _ cs => good_status cs) m -> Forall good_status l ->
  map_Forall (fun _ cs => good_status cs) (status_map_from m l).
Proof.
  revert m. induction l as [|x l IH]; intros m Hm Hl; [exact Hm|].
  inversion Hl; subst. unfold status_map_from. simpl. apply IH; [|assumption].
  apply map_Forall_insert_2; assumption.
Qed.

(* ---------- effective container requests ---------- *)

Lemma good_determine inf spec act alloc :
  good spec -> good act -> good alloc -> good (k8s_determine inf spec act alloc).
Proof.
  intros. unfold k8s_determine. destruct inf; repeat apply good_max; assumption.
Qed.

(* [vc_determine] and [k8s_determine] are the same text (both code bases have the same
   maxResourceList rule), so the two effective requests differ only in the status map they read *)
Lemma eff_eq ippvs o inf sm sm' c :
  o_status o = ippvs -> sm !! c_name c = sm' !! c_name c ->
  vc_eff_req ippvs inf sm c = k8s_eff_req o inf sm' c.
Proof.
  intros <- E. unfold vc_eff_req, k8s_eff_req. rewrite E. reflexivity.
Qed.

Lemma eff_good o inf sm c :
  good (c_req c) -> map_Forall (fun _ cs => good_status cs) sm -> good (k8s_eff_req o inf sm c).
Proof.
  intros Hc Hsm. unfold k8s_eff_req. destruct (o_status o); [|assumption].
  destruct (sm !! c_name c) as [cs|] eqn:E; [|assumption].
  destruct (Hsm _ _ E) as [Hr Ha]. destruct (cs_res cs) as [act|]; [|assumption].
  apply good_determine; assumption.
Qed.

Definition good_container (c : container) : Prop := good (c_req c).

(* Hypotheses of the main theorem.  Everything is about the INPUT pod:
   - every amount is non-negative and on its name's grid: milli for cpu,
     ephemeral-storage and scalars (guaranteed by the API server's defaulting),
     WHOLE units for memory and pods (stricter than the API, which admits
     fractional bytes: see C15_fractional_memory_refuted);
   - statuses are filed under their own list's names (container names are
     unique across containers and init containers in a valid pod);
   - a pod-level name other than cpu / memory (hugepages-...) is one NewResource
     keeps (it is not in volcano's IgnoredDevicesList). *)
Definition pod_ok (p : pod) : Prop :=
  Forall good_container (p_containers p) /\
  Forall good_container (p_inits p) /\
  Forall good_status (p_cstat p) /\
  Forall good_status (p_istat p) /\
  good (p_overhead p) /\
  good (default ∅ (p_plreq p)) /\
  good (default ∅ (p_pstat p)) /\
  good (p_palloc p) /\
  Forall good (p_claims p) /\
  Forall (fun c => c_name c ∉ map cs_name (p_istat p)) (p_containers p) /\
  Forall (fun c => c_name c ∉ map cs_name (p_cstat p)) (p_inits p) /\
  map_Forall (fun k _ => negb (fixed k) && plsup k && negb (tracked k) = false) (default ∅ (p_plreq p)).

Definition sim3 (st : res * res * res) (st' : rl * rl * rl) : Prop :=
  sim (st.1.1) (st'.1.1) /\ sim (st.1.2) (st'.1.2) /\ sim (st.2) (st'.2).

Lemma regular_sim ippvs o inf sm sm' cs : forall acc acc',
  o_status o = ippvs ->
  map_Forall (fun _ cs => good_status cs) sm' ->
  Forall good_container cs ->
  Forall (fun c => sm !! c_name c = sm' !! c_name c) cs ->
  sim acc acc' ->
  sim (fold_left (fun acc c => add acc (new_resource (vc_eff_req ippvs inf sm c))) cs acc)
      (fold_left (fun acc c => add_rl acc (k8s_eff_req o inf sm' c)) cs acc').
Proof.
  induction cs as [|c cs IH]; intros acc acc' Ho Hsm Hg Hn Hs; [exact Hs|].
  apply Forall_cons in Hg as [? ?]. apply Forall_cons in Hn as [? ?]. cbn [fold_left]. apply IH; try assumption.
  rewrite (eff_eq _ o inf sm sm' c) by (try reflexivity; assumption).
  apply sim_add; [assumption|]. apply sim_new, eff_good; assumption.
Qed.

Lemma init_step_sim ippvs o inf ism sm st st' c :
  o_status o = ippvs ->
  map_Forall (fun _ cs => good_status cs) sm ->
  good_container c ->
  ism !! c_name c = sm !! c_name c ->
  sim3 st st' ->
  sim3 (vc_init_step tracked ippvs inf ism st c) (k8s_init_step o inf sm st' c).
Proof.
  intros Ho Hsm Hc Hn. destruct st as [[a b] i], st' as [[a' b'] i'].
  intros (Ha & Hb & Hi). simpl in Ha, Hb, Hi.
  unfold vc_init_step, k8s_init_step. destruct (c_sidecar c).
  - rewrite (eff_eq _ o inf ism sm c) by assumption.
    assert (sim (new_resource (k8s_eff_req o inf sm c)) (k8s_eff_req o inf sm c)) as Hn'
      by (apply sim_new, eff_good; assumption).
    split; [|split]; simpl.
    + apply sim_add; assumption.
    + apply sim_add; assumption.
    + apply sim_max; [assumption|]. apply sim_add; assumption.
  - assert (sim (new_resource (c_req c)) (c_req c)) as Hn' by (apply sim_new; exact Hc).
    split; [|split]; simpl; try assumption.
    apply sim_max; [assumption|]. apply sim_add; [|assumption].
    apply sim_add; [apply sim_empty|assumption].
Qed.

Lemma init_loop_sim ippvs o inf ism sm cs : forall st st',
  o_status o = ippvs ->
  map_Forall (fun _ cs => good_status cs) sm ->
  Forall good_container cs ->
  Forall (fun c => ism !! c_name c = sm !! c_name c) cs ->
  sim3 st st' ->
  sim3 (fold_left (vc_init_step tracked ippvs inf ism) cs st)
       (fold_left (k8s_init_step o inf sm) cs st').
Proof.
  induction cs as [|c cs IH]; intros st st' Ho Hsm Hg Hn Hs; [exact Hs|].
  apply Forall_cons in Hg as [? ?]. apply Forall_cons in Hn as [? ?]. cbn [fold_left]. apply IH; try assumption.
  apply init_step_sim; assumption.
Qed.

Lemma claims_sim cls : forall r l,
  Forall good cls -> sim r l ->
  sim (fold_left (fun acc cl => add acc (new_resource cl)) cls r) (fold_left add_rl cls l).
Proof.
  induction cls as [|c cls IH]; intros r l Hg Hs; [exact Hs|].
  apply Forall_cons in Hg as [? ?]. cbn [fold_left]. apply IH; [assumption|].
  apply sim_add; [assumption|apply sim_new; assumption].
Qed.

(* aggregateAllContainerResourceRequests = AggregateContainerRequests, converted, + pods *)
Lemma aggregate_sim ippvs dra o p :
  pod_ok p -> o_status o = ippvs -> o_dra o = dra ->
  exists X, vc_aggregate tracked ippvs dra p = add_scalar X pods_name 1 /\ sim X (k8s_aggregate o p).
Proof.
  intros (Hcs & His & Hcst & Hist & _ & _ & _ & _ & Hcl & Hs1 & Hs2 & _) Ho Hdra.
  unfold vc_aggregate, k8s_aggregate.
  set (inf := resize_infeasible (p_conds p)).
  set (sm := status_map_from (status_map (p_cstat p)) (p_istat p)).
  assert (map_Forall (fun _ cs => good_status cs) sm) as Hsm.
  { apply status_map_from_good; [|assumption]. apply status_map_from_good; [|assumption].
    apply map_Forall_empty. }
  set (reg := fold_left (fun acc c => add_rl acc (k8s_eff_req o inf sm c)) (p_containers p) ∅).
  assert (sim (vc_regular tracked ippvs p) reg) as Hreg.
  { unfold vc_regular. apply regular_sim; try assumption; [|apply sim_empty].
    eapply Forall_impl; [exact Hs1|]. intros c Hc. simpl in Hc.
    unfold sm. rewrite status_map_from_notin by exact Hc. reflexivity. }
  pose proof (init_loop_sim ippvs o inf (status_map (p_istat p)) sm (p_inits p)
                (vc_regular tracked ippvs p, empty_res, empty_res) (reg, ∅, ∅) Ho Hsm His) as Hloop.
  destruct (fold_left (vc_init_step tracked ippvs inf (status_map (p_istat p))) (p_inits p) _) as [[a b] i].
  destruct (fold_left (k8s_init_step o inf sm) (p_inits p) _) as [[a' b'] i'].
  destruct Hloop as (Ha & _ & Hi).
  { eapply Forall_impl; [exact Hs2|]. intros c Hc. simpl in Hc.
    unfold sm. rewrite status_map_from_lookup.
    destruct (status_map (p_istat p) !! c_name c); [reflexivity|].
    unfold status_map. rewrite status_map_from_notin by exact Hc. rewrite lookup_empty. reflexivity. }
  { split; [|split]; simpl; try assumption; apply sim_empty. }
  simpl in Ha, Hi.
  assert (sim (set_max a i) (max_rl a' i')) as Hm by (apply sim_max; assumption).
  rewrite Hdra. destruct dra.
  - eexists. split; [reflexivity|]. apply claims_sim; assumption.
  - eexists. split; [reflexivity|]. exact Hm.
Qed.

(* ---------- pod-level resources and overhead ---------- *)

Lemma opt_union_None_l {A} (x : option A) : union_with (fun a _ : A => Some a) None x = x.
Proof. destruct x; reflexivity. Qed.

Lemma good_pod_level_reqs ippvs ippl p :
  good (default ∅ (p_plreq p)) -> good (default ∅ (p_pstat p)) -> good (p_palloc p) ->
  good (vc_pod_level_reqs ippvs ippl p).
Proof.
  intros Hl Hs Ha. unfold vc_pod_level_reqs. destruct (ippl && ippvs); [|assumption].
  destruct (p_pstat p) as [act|]; [|assumption]. apply good_determine; assumption.
Qed.

Lemma amend_sim ippvs plr ippl o p X L :
  pod_ok p -> o_skip_pl o = negb plr -> o_ippl o = ippl -> o_status o = ippvs ->
  sim X L -> sim (vc_amend tracked plsup ippvs plr ippl X p) (k8s_finish plsup o p L).
Proof.
  intros (_ & _ & _ & _ & Hoh & Hpl & Hpst & Hpal & _ & _ & _ & Htr) Hskip Hoi Hos [GL (Rc & Rm & Rs)].
  unfold vc_amend, k8s_finish. rewrite Hskip, negb_involutive, Hoi, Hos.
  apply sim_add; [|apply sim_new; exact Hoh].
  destruct (plr && pl_requests_set plsup p) eqn:Eset.
  2: { split; [exact GL|]. repeat split; simpl; assumption. }
  pose proof (good_pod_level_reqs ippvs ippl p Hpl Hpst Hpal) as GE.
  set (E := vc_pod_level_reqs ippvs ippl p) in *.
  set (l := default ∅ (p_plreq p)) in *.
  set (eff := if ippl && ippvs
              then match p_pstat p with
                   | Some act => Some (k8s_determine (resize_infeasible (p_conds p)) l act (p_palloc p))
                   | None => None
                   end
              else None).
  (* upstream's per-name value is the lookup in volcano's effective list *)
  assert (forall k q, l !! k = Some q ->
            match eff with Some e => default 0 (e !! k) | None => q end = default 0 (E !! k)) as Heff.
  { intros k q El. unfold eff, E, vc_pod_level_reqs. fold l. destruct (ippl && ippvs).
    - destruct (p_pstat p); [reflexivity|]. rewrite El. reflexivity.
    - rewrite El. reflexivity. }
  set (ov := map_imap (fun k q => if supported plsup k
                                  then Some (match eff with Some e => default 0 (e !! k) | None => q end)
                                  else None) l).
  (* the amended list: a supported pod-level name takes the effective pod-level amount *)
  assert (forall k, (ov ∪ L) !! k = match l !! k with
                                    | Some _ => if supported plsup k then Some (default 0 (E !! k)) else L !! k
                                    | None => L !! k end) as HM.
  { intros k. unfold ov. rewrite lookup_union, map_lookup_imap. destruct (l !! k) as [q|] eqn:El; simpl.
    - rewrite (Heff k q El). destruct (supported plsup k); [destruct (L !! k)|destruct (L !! k)]; reflexivity.
    - destruct (L !! k); reflexivity. }
  clearbody ov eff. clear Heff.
  split.
  - intros k q. rewrite HM. destruct (l !! k); [destruct (supported plsup k)|]; try apply GL.
    intros [= <-]. apply good_default. exact GE.
  - split; [|split].
    + cbn [cpu]. rewrite !cpu_new, HM. destruct (l !! cpu_name) as [x|] eqn:El.
      * rewrite bool_decide_eq_true_2 by eauto. reflexivity.
      * rewrite bool_decide_eq_false_2 by (intros [? ?]; discriminate). rewrite Rc. reflexivity.
    + cbn [mem]. rewrite !mem_new, HM. destruct (l !! mem_name) as [x|] eqn:El.
      * rewrite bool_decide_eq_true_2 by eauto. reflexivity.
      * rewrite bool_decide_eq_false_2 by (intros [? ?]; discriminate). rewrite Rm. reflexivity.
    + rewrite !scm_some, scm_new, Rs, scm_new. apply map_eq. intros k.
      rewrite lookup_union, !map_lookup_imap, HM.
      destruct (l !! k) as [x|] eqn:El; simpl; [|rewrite opt_union_None_l; reflexivity].
      unfold supported. destruct (decide (k = cpu_name)) as [->|Hc].
      { simpl. destruct (L !! cpu_name); reflexivity. }
      destruct (decide (k = mem_name)) as [->|Hm].
      { simpl. destruct (L !! mem_name); reflexivity. }
      rewrite !(bool_decide_eq_false_2 (k = cpu_name)), !(bool_decide_eq_false_2 (k = mem_name)) by assumption.
      simpl. destruct (negb (fixed k) && plsup k) eqn:Esup; simpl; [|rewrite opt_union_None_l; reflexivity].
      (* a pod-level scalar (hugepages-...): tracked by hypothesis *)
      pose proof (Htr k x El) as Ht. simpl in Ht. rewrite Esup in Ht. simpl in Ht.
      apply negb_false_iff in Ht.
      assert (forall y, sc_conv k y = Some (cv k y)) as Hk.
      { intros y. rewrite sc_conv_eq. unfold keep.
        rewrite !(bool_decide_eq_false_2 (k = cpu_name)), !(bool_decide_eq_false_2 (k = mem_name)) by assumption.
        rewrite Ht, !orb_true_r. reflexivity. }
      unfold sget. rewrite scm_new, map_lookup_imap.
      destruct (E !! k) as [y|], (L !! k); simpl; rewrite ?Hk; simpl; rewrite ?cv_0; reflexivity.
Qed.

(* AddScalar("pods", 1) before the amendment = after it *)
Lemma sc_add_some c m x oh :
  sc (add (mkRes c m (Some x)) oh) = Some (union_with (fun a b => Some (a + b)) x (scm oh)).
Proof.
  unfold add. cbn [sc scm default cpu mem]. case_bool_decide as E; [|reflexivity].
  fold (scm oh) in E. rewrite E. f_equal. apply map_eq. intros k.
  rewrite lookup_union_with, lookup_empty. destruct (x !! k); reflexivity.
Qed.

Lemma sc_add_scalar r k q : sc (add_scalar r k q) = Some (<[k := sget r k + q]> (scm r)).
Proof. reflexivity. Qed.
Lemma scm_add_scalar r k q : scm (add_scalar r k q) = <[k := sget r k + q]> (scm r).
Proof. reflexivity. Qed.

Lemma amend_add_scalar ippvs plr ippl X p :
  vc_amend tracked plsup ippvs plr ippl (add_scalar X pods_name 1) p =
  add_scalar (vc_amend tracked plsup ippvs plr ippl X p) pods_name 1.
Proof.
  unfold vc_amend.
  set (oh := new_resource (p_overhead p)). set (l := default ∅ (p_plreq p)).
  set (pr := new_resource (vc_pod_level_reqs ippvs ippl p)).
  set (ov := map_imap (fun (k : positive) (_ : Z) =>
                  if supported plsup k && negb (bool_decide (k = cpu_name)) && negb (bool_decide (k = mem_name))
                  then Some (sget pr k) else None) l).
  assert (ov !! pods_name = None) as Hovp.
  { unfold ov. rewrite map_lookup_imap. destruct (l !! pods_name); reflexivity. }
  (* the scalar map of X, seen as a map that already has a "pods" entry *)
  assert (forall (o' : smap), o' !! pods_name = None ->
            union_with (fun a b => Some (a + b)) (o' ∪ <[pods_name := sget X pods_name + 1]> (scm X)) (scm oh) =
            <[pods_name := default 0 (union_with (fun a b => Some (a + b)) (o' ∪ scm X) (scm oh) !! pods_name) + 1]>
              (union_with (fun a b => Some (a + b)) (o' ∪ scm X) (scm oh))) as Hcomm.
  { intros o' Ho'. apply map_eq. intros k. destruct (decide (k = pods_name)) as [->|Hk].
    - rewrite lookup_insert, !lookup_union_with, !lookup_union, Ho', !opt_union_None_l, lookup_insert.
      unfold sget. destruct (scm X !! pods_name), (scm oh !! pods_name); simpl; f_equal; lia.
    - rewrite lookup_insert_ne by congruence.
      rewrite !lookup_union_with, !lookup_union, lookup_insert_ne by congruence. reflexivity. }
  destruct (plr && pl_requests_set plsup p).
  - apply res_eq; [reflexivity|reflexivity|].
    rewrite sc_add_scalar, sc_add_some, !scm_some, scm_add_scalar. f_equal.
    unfold sget. rewrite scm_add, scm_some. apply Hcomm. exact Hovp.
  - apply res_eq; [reflexivity|reflexivity|].
    rewrite sc_add_scalar, sc_add_some, scm_add_scalar. f_equal.
    unfold sget. rewrite scm_add, scm_some.
    pose proof (Hcomm ∅ (lookup_empty _)) as H. rewrite !(left_id_L ∅ (∪)) in H. exact H.
Qed.

Lemma add_scalar_req r s k q : req r s -> add_scalar r k q = add_scalar s k q.
Proof.
  intros (Hc & Hm & Hs). unfold add_scalar. rewrite Hc, Hm, Hs, (sget_scm r s k Hs). reflexivity.
Qed.

Theorem volcano_eq_upstream ippvs plr ippl dra p :
  pod_ok p ->
  vc_pod_request tracked plsup ippvs plr ippl dra p =
  add_scalar (new_resource (k8s_pod_requests plsup (opts_of ippvs plr ippl dra) p)) pods_name 1.
Proof.
  intros Hok. unfold vc_pod_request, k8s_pod_requests.
  destruct (aggregate_sim ippvs dra (opts_of ippvs plr ippl dra) p Hok eq_refl eq_refl) as (X & -> & HX).
  rewrite amend_add_scalar. apply add_scalar_req.
  destruct (amend_sim ippvs plr ippl (opts_of ippvs plr ippl dra) p X _ Hok eq_refl eq_refl eq_refl HX) as [_ H].
  exact H.
Qed.

(* per dimension, as the property text says it *)
Corollary volcano_eq_upstream_amounts ippvs plr ippl dra p :
  pod_ok p ->
  let vc := vc_pod_request tracked plsup ippvs plr ippl dra p in
  let up := new_resource (k8s_pod_requests plsup (opts_of ippvs plr ippl dra) p) in
  cpu vc = cpu up /\ mem vc = mem up /\
  sget vc pods_name = sget up pods_name + 1 /\
  (forall k, k <> pods_name -> scm vc !! k = scm up !! k).
Proof.
  intros Hok vc up. unfold vc. rewrite (volcano_eq_upstream _ _ _ _ _ Hok). fold up.
  repeat split.
  - change (sget (add_scalar up pods_name 1) pods_name)
      with (default 0 (scm (add_scalar up pods_name 1) !! pods_name)).
    rewrite scm_add_scalar, lookup_insert. reflexivity.
  - intros k Hk. rewrite scm_add_scalar, lookup_insert_ne by congruence. reflexivity.
Qed.

(* the same node fits under either count: every comparison of the scheduler's
   Resource order gives the same answer on the two vectors *)
Corollary fits_iff ippvs plr ippl dra p :
  pod_ok p ->
  forall eps free d,
  less_equal eps (vc_pod_request tracked plsup ippvs plr ippl dra p) free d =
  less_equal eps (add_scalar (new_resource (k8s_pod_requests plsup (opts_of ippvs plr ippl dra) p)) pods_name 1) free d.
Proof. intros Hok eps free d. rewrite (volcano_eq_upstream _ _ _ _ _ Hok). reflexivity. Qed.

Lemma law_same_request_refl up : law_same_request up (add_scalar up pods_name 1) = true.
Proof. unfold law_same_request, add_scalar. cbn [cpu mem sc]. now rewrite !bool_decide_eq_true_2. Qed.

(* the executable law accepts the two models' own outputs *)
Corollary law_accepts_models ippvs plr ippl dra p :
  pod_ok p ->
  let vc := vc_pod_request tracked plsup ippvs plr ippl dra p in
  law_task_request (new_resource (k8s_pod_requests plsup (opts_of ippvs plr ippl dra) p)) vc vc vc = true.
Proof.
  intros Hok vc. unfold vc. rewrite (volcano_eq_upstream _ _ _ _ _ Hok).
  unfold law_task_request. now rewrite law_same_request_refl.
Qed.

(* ---------- what the scheduler reserves for a task, in every phase ---------- *)

(* api.NewTaskInfo's Resreq / InitResreq / BestEffort are the one value
   GetPodResourceRequest returns.  [m] is unused by the definitions: the
   quantifier over it has no proof content (see Props/C15.v). *)
Theorem task_reservation_eq_upstream ippvs plr ippl dra m p :
  pod_ok p ->
  let up1 := add_scalar (new_resource (k8s_pod_requests plsup (opts_of ippvs plr ippl dra) p)) pods_name 1 in
  task_resreq tracked plsup ippvs plr ippl dra m p = up1 /\
  task_init_resreq tracked plsup ippvs plr ippl dra m p = up1 /\
  task_best_effort tracked plsup ippvs plr ippl dra m p = is_empty 1 up1.
Proof.
  intros Hok up1. unfold task_best_effort, task_resreq, task_init_resreq.
  rewrite (volcano_eq_upstream _ _ _ _ _ Hok). fold up1. repeat split.
Qed.

(* the reservation does not depend on the lifecycle position at all *)
Lemma task_reservation_phase_independent ippvs plr ippl dra m m' p :
  task_resreq tracked plsup ippvs plr ippl dra m p = task_resreq tracked plsup ippvs plr ippl dra m' p /\
  task_init_resreq tracked plsup ippvs plr ippl dra m p = task_init_resreq tracked plsup ippvs plr ippl dra m' p.
Proof. split; reflexivity. Qed.

(* the executable law accepts the models' own outputs, for every phase *)
Corollary law_reservation_accepts_models ippvs plr ippl dra m p :
  pod_ok p ->
  law_task_reservation (new_resource (k8s_pod_requests plsup (opts_of ippvs plr ippl dra) p))
    (vc_pod_request tracked plsup ippvs plr ippl dra p)
    (task_resreq tracked plsup ippvs plr ippl dra m p)
    (task_init_resreq tracked plsup ippvs plr ippl dra m p)
    (task_best_effort tracked plsup ippvs plr ippl dra m p) = true.
Proof.
  intros Hok. unfold law_task_reservation.
  destruct (task_reservation_eq_upstream ippvs plr ippl dra m p Hok) as (-> & -> & ->).
  rewrite (volcano_eq_upstream _ _ _ _ _ Hok).
  rewrite eqb_reflx, andb_true_r.
  unfold law_task_request. now rewrite law_same_request_refl.
Qed.

(* ---------- what the scheduler CACHE charges: SchedulerCache.NewTaskInfo ---------- *)

(* the vector charged to the node / queue ledgers is upstream's request + pods,
   PLUS the pod's CSI volume count on each attach-limit name; it is one object
   for Resreq and InitResreq; for every list [keys] of resolved names *)
Theorem cache_reservation_eq_upstream ippvs plr ippl dra keys m p :
  pod_ok p ->
  let up1 := add_scalar (new_resource (k8s_pod_requests plsup (opts_of ippvs plr ippl dra) p)) pods_name 1 in
  cache_task_resreq tracked plsup ippvs plr ippl dra keys m p = cache_add_csi up1 keys /\
  cache_task_init_resreq tracked plsup ippvs plr ippl dra keys m p = cache_add_csi up1 keys /\
  cache_task_best_effort tracked plsup ippvs plr ippl dra keys m p = is_empty 1 (cache_add_csi up1 keys).
Proof.
  intros Hok up1.
  unfold cache_task_best_effort, cache_task_init_resreq, cache_task_resreq, task_resreq, task_init_resreq.
  rewrite (volcano_eq_upstream _ _ _ _ _ Hok). fold up1. repeat split.
Qed.

End Names.

(* independent description of what the CSI step does to a vector: cpu and memory
   untouched, every name gains the number of its occurrences in [keys], names
   that do not occur keep their entry (or absence) *)
Lemma csi_fold_lookup keys : forall (c : smap) k,
  default 0 (fold_left (fun c k => <[k := default 0 (c !! k) + 1]> c) keys c !! k) =
  default 0 (c !! k) + Z.of_nat (count_occ Pos.eq_dec keys k).
Proof.
  induction keys as [|a keys IH]; intros c k; simpl; [lia|].
  rewrite IH. destruct (Pos.eq_dec a k) as [->|Hne].
  - rewrite lookup_insert. simpl. lia.
  - rewrite lookup_insert_ne by assumption. lia.
Qed.

Lemma csi_fold_notin keys : forall (c : smap) k,
  k ∉ keys -> fold_left (fun c k => <[k := default 0 (c !! k) + 1]> c) keys c !! k = c !! k.
Proof.
  induction keys as [|a keys IH]; intros c k Hk; simpl; [reflexivity|].
  apply not_elem_of_cons in Hk as [Hne Hk]. rewrite IH by assumption.
  apply lookup_insert_ne. congruence.
Qed.

(* ---------- the node ledger: induction over the pods resident on a node ---------- *)

(* NodeInfo.AddTask adds Resreq to Used for every resident task *)
Definition node_used (reqs : list res) : res := fold_left add reqs empty_res.

Lemma map_ext_Forall' {A B} (f g : A -> B) (P : A -> Prop) l :
  (forall x, P x -> f x = g x) -> Forall P l -> map f l = map g l.
Proof.
  intros H. induction 1 as [|x l Hx _ IH]; [reflexivity|]. simpl. rewrite (H x Hx), IH. reflexivity.
Qed.

(* ---------- kube-scheduler's own units ---------- *)

(* k8s.io/kubernetes/pkg/scheduler/framework Resource.Add: cpu by MilliValue(),
   everything else by Value() *)
Definition kube_cpu (l : rl) : Z := milli_value (default 0 (l !! cpu_name)).
Definition kube_value (l : rl) (k : positive) : Z := unit_value (default 0 (l !! k)).

Definition whole_units (q : Z) : Prop := 0 <= q /\ q mod nano_per_unit = 0.

Lemma milli_of_whole q : whole_units q -> milli_value q = 1000 * unit_value q.
Proof.
  intros [Hq Hm]. unfold milli_value, unit_value.
  assert (q = (q / nano_per_unit) * nano_per_unit) as E.
  { rewrite (Z.div_mod q nano_per_unit) at 1 by (unfold nano_per_unit; lia). rewrite Hm. lia. }
  set (a := q / nano_per_unit) in *. rewrite E.
  rewrite (round_away_mul a nano_per_unit) by (unfold nano_per_unit; lia).
  replace (a * nano_per_unit) with ((1000 * a) * nano_per_milli) by (unfold nano_per_unit, nano_per_milli; lia).
  apply round_away_mul. unfold nano_per_milli. lia.
Qed.

Section Units.
Variable tracked : positive -> bool.

(* NewResource against kube's conversion: same cpu, same memory, same pods, and
   a tracked scalar (or ephemeral-storage) in whole units is 1000 x kube's amount *)
Theorem new_resource_kube_units l :
  cpu (new_resource tracked l) = kube_cpu l /\
  mem (new_resource tracked l) = kube_value l mem_name /\
  sget (new_resource tracked l) pods_name = kube_value l pods_name /\
  (forall k, k <> cpu_name -> k <> mem_name -> k <> pods_name ->
     bool_decide (k = eph_name) || tracked k = true ->
     whole_units (default 0 (l !! k)) ->
     sget (new_resource tracked l) k = 1000 * kube_value l k) /\
  (forall k, k <> cpu_name -> k <> mem_name -> k <> pods_name -> k <> eph_name -> tracked k = false ->
     scm (new_resource tracked l) !! k = None).
Proof.
  split; [reflexivity|]. split; [reflexivity|]. split; [|split].
  - unfold sget, kube_value. rewrite scm_new, map_lookup_imap.
    destruct (l !! pods_name) as [q|]; simpl; [reflexivity|]. vm_compute. reflexivity.
  - intros k Hc Hm Hp Ht Hw. unfold sget, kube_value. rewrite scm_new, map_lookup_imap.
    destruct (l !! k) as [q|] eqn:E; simpl in *.
    + unfold sc_conv.
      rewrite (bool_decide_eq_false_2 (k = cpu_name)), (bool_decide_eq_false_2 (k = mem_name)),
              (bool_decide_eq_false_2 (k = pods_name)) by assumption. simpl.
      case_bool_decide; simpl in *; [apply milli_of_whole; assumption|].
      rewrite Ht. simpl. apply milli_of_whole; assumption.
    + vm_compute. reflexivity.
  - intros k Hc Hm Hp He Ht. rewrite scm_new, map_lookup_imap.
    destruct (l !! k) as [q|]; simpl; [|reflexivity]. unfold sc_conv.
    rewrite (bool_decide_eq_false_2 (k = cpu_name)), (bool_decide_eq_false_2 (k = mem_name)),
            (bool_decide_eq_false_2 (k = pods_name)), (bool_decide_eq_false_2 (k = eph_name)) by assumption.
    simpl. rewrite Ht. reflexivity.
Qed.

End Units.

Section Node.
Variable tracked : positive -> bool.
Variable plsup : positive -> bool.

(* the node ledger: for EVERY list of resident pods (with their resolved CSI
   volume names and lifecycle positions) the sum volcano's cache charges equals
   the sum of upstream's requests (+ pods + volumes); induction over the list *)
Theorem node_used_eq_upstream ippvs plr ippl dra (rs : list (list positive * pod_meta * pod)) :
  Forall (fun x => pod_ok tracked plsup x.2) rs ->
  node_used (map (fun x => cache_task_resreq tracked plsup ippvs plr ippl dra x.1.1 x.1.2 x.2) rs) =
  node_used (map (fun x => cache_add_csi
                 (add_scalar (new_resource tracked (k8s_pod_requests plsup (opts_of ippvs plr ippl dra) x.2)) pods_name 1)
                 x.1.1) rs).
Proof.
  intros H. f_equal. eapply map_ext_Forall'; [|exact H]. intros x Hx. simpl.
  apply (cache_reservation_eq_upstream tracked plsup ippvs plr ippl dra x.1.1 x.1.2 x.2 Hx).
Qed.

(* consequently the comparison "the new pod's InitResreq fits into allocatable
   minus what the residents are charged" has the same answer on volcano's
   vectors and on upstream's.  This is a corollary by congruence: kubelet
   admission itself is NOT modelled. *)
Corollary node_fits_iff ippvs plr ippl dra rs alloc eps d keys m p :
  Forall (fun x => pod_ok tracked plsup x.2) rs -> pod_ok tracked plsup p ->
  less_equal eps (cache_task_init_resreq tracked plsup ippvs plr ippl dra keys m p)
    (sub alloc (node_used (map (fun x => cache_task_resreq tracked plsup ippvs plr ippl dra x.1.1 x.1.2 x.2) rs))) d =
  less_equal eps
    (cache_add_csi (add_scalar (new_resource tracked (k8s_pod_requests plsup (opts_of ippvs plr ippl dra) p)) pods_name 1) keys)
    (sub alloc (node_used (map (fun x => cache_add_csi
                 (add_scalar (new_resource tracked (k8s_pod_requests plsup (opts_of ippvs plr ippl dra) x.2)) pods_name 1)
                 x.1.1) rs))) d.
Proof.
  intros Hrs Hp. rewrite (node_used_eq_upstream _ _ _ _ _ Hrs).
  destruct (cache_reservation_eq_upstream tracked plsup ippvs plr ippl dra keys m p Hp) as (_ & -> & _).
  reflexivity.
Qed.

(* ---------- which upstream computation applies at which point ---------- *)

(* the pod carries no resize information: what holds for a pod that has not
   been started by a kubelet yet (statuses are written by the kubelet) *)
Definition no_resize_info (p : pod) : Prop :=
  p_cstat p = [] /\ p_istat p = [] /\ p_pstat p = None.

Global Instance no_resize_info_dec p : Decision (no_resize_info p).
Proof. unfold no_resize_info. apply _. Defined.

Lemma k8s_eff_req_empty o inf c : k8s_eff_req o inf ∅ c = c_req c.
Proof. unfold k8s_eff_req. destruct (o_status o); [rewrite lookup_empty|]; reflexivity. Qed.

Lemma k8s_regular_empty o inf cs : forall a,
  fold_left (fun acc c => add_rl acc (k8s_eff_req o inf ∅ c)) cs a =
  fold_left (fun acc c => add_rl acc (c_req c)) cs a.
Proof. induction cs as [|c cs IH]; intros a; [reflexivity|]. simpl. rewrite k8s_eff_req_empty. apply IH. Qed.

Lemma k8s_init_empty o o' inf cs : forall st,
  fold_left (k8s_init_step o inf ∅) cs st = fold_left (k8s_init_step o' inf ∅) cs st.
Proof.
  induction cs as [|c cs IH]; intros st; [reflexivity|]. cbn [fold_left].
  replace (k8s_init_step o inf ∅ st c) with (k8s_init_step o' inf ∅ st c); [apply IH|].
  unfold k8s_init_step. destruct st as [[a b] i]. rewrite !k8s_eff_req_empty. reflexivity.
Qed.

(* without resize information PodRequests does not depend on the status options *)
Lemma k8s_no_resize_info_opts o o' p :
  no_resize_info p -> o_skip_pl o = o_skip_pl o' -> o_dra o = o_dra o' ->
  k8s_pod_requests plsup o p = k8s_pod_requests plsup o' p.
Proof.
  intros (Hc & Hi & Hp) Hs Hd. unfold k8s_pod_requests.
  assert (k8s_aggregate o p = k8s_aggregate o' p) as ->.
  { unfold k8s_aggregate. rewrite Hc, Hi, Hd. cbn [status_map status_map_from fold_left].
    rewrite !k8s_regular_empty, (k8s_init_empty o o'). reflexivity. }
  unfold k8s_finish. rewrite Hs, Hp.
  destruct (o_ippl o && o_status o), (o_ippl o' && o_status o'); reflexivity.
Qed.

(* THE POD BEING PLACED (fit plugin / kubelet admission compute its request with
   the status options off): volcano's InitResreq equals that request for every
   pod that carries no resize information ... *)
Theorem incoming_request_eq_upstream ippvs plr ippl dra keys m p :
  pod_ok tracked plsup p -> no_resize_info p ->
  cache_task_init_resreq tracked plsup ippvs plr ippl dra keys m p =
  cache_add_csi (add_scalar (new_resource tracked (k8s_pod_requests plsup (opts_incoming plr dra) p)) pods_name 1) keys.
Proof.
  intros Hok Hn.
  destruct (cache_reservation_eq_upstream tracked plsup ippvs plr ippl dra keys m p Hok) as (_ & -> & _).
  rewrite (k8s_no_resize_info_opts (opts_of ippvs plr ippl dra) (opts_incoming plr dra) p Hn); reflexivity.
Qed.

End Node.

(* ---------- the hypotheses are decidable: concrete pods are checked by computation ---------- *)

Global Instance on_grid_dec k q : Decision (on_grid k q).
Proof. unfold on_grid. apply _. Defined.
Global Instance good_dec l : Decision (good l).
Proof. unfold good. apply _. Defined.
Global Instance good_container_dec c : Decision (good_container c).
Proof. unfold good_container. apply _. Defined.
Global Instance good_status_dec c : Decision (good_status c).
Proof. unfold good_status. apply _. Defined.
Global Instance pod_ok_dec tracked plsup p : Decision (pod_ok tracked plsup p).
Proof. unfold pod_ok. apply _. Defined.

Definition all_tracked (k : positive) : bool := true.
Definition huge_only (k : positive) : bool := bool_decide (k = 7%positive).

(* The pods of the refutation theorems of Props/C15.v (witness k below is the pod of:
   1 C15_pod_level_resize_refuted_before_fix, 2 C15_dra_claims_refuted_before_fix,
   3 C15_off_grid_refuted, 4 C15_status_name_collision_refuted, 5 C15_untracked_pod_level_refuted),
   under the name classification [all_tracked] / [huge_only] (name 7 is the one hugepages size).
   1. and 2. are the two divergences the check found on the real code; both were
   repaired in /repo by fix: commits.  The code BEFORE the fixes never read the
   gates InPlacePodLevelResourcesVerticalScaling and DRANodeAllocatableResources,
   i.e. it is this model with ippl = false and dra = false on volcano's side:
   the witnesses are kept in that form, next to the value after the fix. *)

(* 1. pod-level in-place resize (gate InPlacePodLevelResourcesVerticalScaling,
      on by default in Kubernetes 1.36): upstream counts
      max(spec, status.resources, status.allocatedResources) of the pod-level
      request, the unfixed code counted the spec only.
      containers [{cpu 100m}], spec.resources.requests.cpu = 1,
      status.resources.requests.cpu = 2  ->  before 1000m, upstream and after 2000m. *)
Definition witness_pod_level_resize : pod :=
  mkPod [mkC 1 false {[cpu_name := 100 * nano_per_milli]}] [] [] [] ∅
        (Some {[cpu_name := 1 * nano_per_unit]}) []
        (Some {[cpu_name := 2 * nano_per_unit]}) ∅ [].

(* 2. DRA node-allocatable claims (alpha gate DRANodeAllocatableResources, off by default) *)
Definition witness_dra_claims : pod :=
  mkPod [mkC 1 false {[cpu_name := 1 * nano_per_unit]}] [] [] [] ∅ None [] None ∅
        [{[cpu_name := 1 * nano_per_unit]}].

(* the remaining three show that each hypothesis of [pod_ok] is necessary *)

(* 3. amounts finer than the grid: two containers of 500 micro-cpu each.
      volcano rounds each up to 1m and adds (2m); upstream adds (1m) and the
      conversion rounds once (1m). *)
Definition witness_fine : pod :=
  mkPod [mkC 1 false {[cpu_name := 500000]}; mkC 2 false {[cpu_name := 500000]}] [] [] [] ∅ None [] None ∅ [].

(* 4. a status filed under the other list's name (impossible for a valid pod):
      upstream keeps ONE map for both status lists, volcano one per list *)
Definition witness_collision : pod :=
  mkPod [mkC 1 false {[cpu_name := 1 * nano_per_unit]}] []
        [] [mkCS 1 (Some {[cpu_name := 5 * nano_per_unit]}) ∅] ∅ None [] None ∅ [].

(* 5. a pod-level name NewResource ignores (a hugepages size put into
      IgnoredDevicesList): same amounts, but volcano's map gains a 0 entry *)
Definition none_tracked (k : positive) : bool := false.
Definition witness_untracked : pod :=
  mkPod [mkC 1 false {[cpu_name := 1 * nano_per_unit]}] [] [] [] ∅
        (Some {[7%positive := 2 * nano_per_unit]}) [] None ∅ [].

(* the pod of the non-vacuity example (C15_nonvacuous):
   one regular container, init containers  I S I S  (sidecars at positions 2 and 4),
   a resize status on the first sidecar, pod-level memory + hugepages with a
   pending pod-level resize (actuated memory 200 > spec 128), one DRA claim, overhead *)
Definition example_pod : pod :=
  mkPod
    [mkC 1 false {[cpu_name := 2 * nano_per_unit; mem_name := 64 * nano_per_unit; 5%positive := 1 * nano_per_unit]}]
    [mkC 2 false {[cpu_name := 3 * nano_per_unit]};
     mkC 3 true  {[cpu_name := 500 * nano_per_milli; 7%positive := 4 * nano_per_unit]};
     mkC 4 false {[cpu_name := 2 * nano_per_unit; mem_name := 100 * nano_per_unit]};
     mkC 5 true  {[cpu_name := 250 * nano_per_milli]}]
    [mkCS 1 None ∅]
    [mkCS 3 (Some {[cpu_name := 750 * nano_per_milli]}) {[cpu_name := 600 * nano_per_milli]}]
    {[cpu_name := 100 * nano_per_milli; mem_name := 8 * nano_per_unit]}
    (Some {[mem_name := 128 * nano_per_unit; 7%positive := 6 * nano_per_unit]})
    [(false, true); (true, false)]
    (Some {[mem_name := 200 * nano_per_unit]}) {[mem_name := 150 * nano_per_unit]}
    [{[cpu_name := 1 * nano_per_unit]}].

Example example_pod_ok : pod_ok all_tracked huge_only example_pod.
Proof. apply (bool_decide_unpack _). vm_compute. exact I. Qed.

Example example_pod_value :
  let vc := vc_pod_request all_tracked huge_only true true true true example_pod in
  let up := new_resource all_tracked (k8s_pod_requests huge_only (opts_of true true true true) example_pod) in
  (cpu vc, mem vc, sget vc pods_name, sget vc 5, sget vc 7, size (scm vc)) = (4100, 208, 1, 1000, 6000, 3%nat) /\
  (cpu up, mem up, sget up pods_name, sget up 5, sget up 7, size (scm up)) = (4100, 208, 0, 1000, 6000, 2%nat).
Proof. split; vm_compute; reflexivity. Qed.

(* witness of C15_incoming_request_refuted (Props/C15.v): [incoming_request_eq_upstream] fails
   without [no_resize_info].  A pod_ok pod whose container status reports more than
   its spec (a pod that was started before and is being re-admitted, or a
   Pending pod object that still carries statuses) has InitResreq 2000m while the
   fit plugin / kubelet compute 1000m for the pod being placed: volcano may deny
   a node on which upstream would place it.  For such a pod the status-aware
   value is the one upstream uses once the pod is ON the node (main theorem). *)
Definition witness_incoming : pod :=
  mkPod [mkC 1 false {[cpu_name := 1 * nano_per_unit]}] []
        [mkCS 1 (Some {[cpu_name := 2 * nano_per_unit]}) ∅] [] ∅ None [] None ∅ [].

(* pod of C15_fractional_memory_refuted: fractional bytes of memory are admitted by the API
   server (with a warning):
   two containers of memory 500m: volcano Value() per container 1 + 1 = 2,
   upstream 1000m -> 1.  Outside pod_ok. *)
Definition witness_fractional_memory : pod :=
  mkPod [mkC 1 false {[mem_name := 500 * nano_per_milli]}; mkC 2 false {[mem_name := 500 * nano_per_milli]}]
        [] [] [] ∅ None [] None ∅ [].

(* pod of C15_kube_units_fractional_refuted: a pod_ok pod (milli-granular ephemeral-storage 1500m) on which
   volcano's milli amount is NOT 1000 x kube's Value(): kube rounds each pod up
   to whole units (2), volcano keeps 1500; the whole_units premise of
   C15_volcano_in_kube_units is necessary *)
Definition witness_fractional_eph : pod :=
  mkPod [mkC 1 false {[eph_name := 1500 * nano_per_milli]}] [] [] [] ∅ None [] None ∅ [].

(* ---------- events: the cached task and the node's Used after every AddPod / UpdatePod ---------- *)

Definition same_amounts (a b : res) : Prop :=
  cpu a = cpu b /\ mem a = mem b /\ forall k, sget a k = sget b k.

Definition ev_inv (st : cache_st) : Prop :=
  same_amounts (st_used st) (st_task st) /\ sc (st_used st) <> None.

Lemma sc_add_nonempty r x : scm x <> ∅ -> sc (add r x) <> None.
Proof. intros H. unfold add. cbn [sc]. fold (scm x). rewrite bool_decide_eq_false_2 by exact H. discriminate. Qed.

Lemma ev_add_inv r : scm r <> ∅ -> ev_inv (ev_add r).
Proof.
  intros H. split; [|apply sc_add_nonempty; exact H]. unfold ev_add; cbn [st_used st_task].
  split; [rewrite add_cpu; reflexivity|]. split; [rewrite add_mem; reflexivity|].
  intros k. rewrite add_sget. reflexivity.
Qed.

Lemma ev_update_inv st r : ev_inv st -> scm r <> ∅ -> ev_inv (ev_update st r).
Proof.
  intros [(Hc & Hm & Hs) Hn] H. split; [|apply sc_add_nonempty; exact H].
  unfold ev_update; cbn [st_used st_task].
  split; [rewrite add_cpu, sub_cpu; lia|]. split; [rewrite add_mem, sub_mem; lia|].
  intros k. rewrite add_sget, sub_sget by exact Hn. rewrite Hs. lia.
Qed.

(* induction over the event history: after EVERY event the cached task is the
   request of the pod object of that event and the node's Used carries exactly
   its amounts - whatever the earlier versions were *)
Lemma ev_trace_from_spec reqs : forall st,
  ev_inv st -> Forall (fun r => scm r <> ∅) reqs ->
  Forall2 (fun st' r => st_task st' = r /\ same_amounts (st_used st') r) (ev_trace_from st reqs) reqs.
Proof.
  induction reqs as [|r rs IH]; intros st Hi Hr; [constructor|].
  apply Forall_cons in Hr as [Hr Hrs]. cbn [ev_trace_from].
  pose proof (ev_update_inv st r Hi Hr) as Hi'. constructor; [|apply IH; assumption].
  split; [reflexivity|]. exact (proj1 Hi').
Qed.

Theorem ev_trace_spec reqs :
  Forall (fun r => scm r <> ∅) reqs ->
  Forall2 (fun st r => st_task st = r /\ same_amounts (st_used st) r) (ev_trace reqs) reqs.
Proof.
  destruct reqs as [|r rs]; intros Hr; [constructor|].
  apply Forall_cons in Hr as [Hr Hrs]. cbn [ev_trace].
  pose proof (ev_add_inv r Hr) as Hi. constructor; [|apply ev_trace_from_spec; assumption].
  split; [reflexivity|]. exact (proj1 Hi).
Qed.

Lemma want_nonempty (up : res) keys : scm (cache_add_csi (add_scalar up pods_name 1) keys) <> ∅.
Proof.
  intros E. apply (f_equal (fun x => x !! pods_name)) in E.
  unfold cache_add_csi in E. rewrite add_lookup, scm_add_scalar, lookup_insert, lookup_empty in E.
  destruct (scm _ !! pods_name); discriminate.
Qed.

(* ---------- updatePod with its guard: the state after event i depends on version i alone ---------- *)

Lemma ev_hist_from_no_keep {V} (keeps : V -> V -> bool) (req : V -> res) (vs : list V) : forall prev st,
  (forall a b, b ∈ vs -> keeps a b = false) ->
  ev_hist_from keeps req prev st vs = ev_trace_from st (map req vs).
Proof.
  induction vs as [|v r IH]; intros prev st H; [reflexivity|].
  cbn [ev_hist_from map ev_trace_from]. rewrite (H prev v) by (left).
  f_equal. apply IH. intros a b Hb. apply H. right. exact Hb.
Qed.

Lemma ev_hist_no_keep {V} (keeps : V -> V -> bool) (req : V -> res) (vs : list V) :
  (forall a b, b ∈ vs -> keeps a b = false) -> ev_hist keeps req vs = ev_trace (map req vs).
Proof.
  destruct vs as [|v r]; intros H; [reflexivity|]. cbn [ev_hist map ev_trace]. f_equal.
  apply ev_hist_from_no_keep. intros a b Hb. apply H. right. exact Hb.
Qed.

(* the variant of seed C15-r8-1 as a model: updatePod keeps the stored task when a
   Running pod's update leaves the SPEC unchanged.  It violates the specification:
   v0 = spec 6 cpu, resize Infeasible, status / allocated 1 cpu (request 1000m);
   v1 = the same spec, condition gone, allocated 6 cpu (request 6000m): the kept
   task still says 1000m. *)
Global Instance container_eq_dec : EqDecision container.
Proof. solve_decision. Defined.

Definition r81_keeps (a b : list positive * pod_meta * pod) : bool :=
  bool_decide (m_phase a.1.2 = 2) && bool_decide (m_phase b.1.2 = 2) &&
  bool_decide (p_containers a.2 = p_containers b.2) && bool_decide (p_inits a.2 = p_inits b.2) &&
  bool_decide (p_overhead a.2 = p_overhead b.2) && bool_decide (p_plreq a.2 = p_plreq b.2).

Definition resize_v0 : pod :=
  mkPod [mkC 1 false {[cpu_name := 6 * nano_per_unit]}] []
        [mkCS 1 (Some {[cpu_name := 1 * nano_per_unit]}) {[cpu_name := 1 * nano_per_unit]}] [] ∅ None
        [(true, true)] None ∅ [].
Definition resize_v1 : pod :=
  mkPod [mkC 1 false {[cpu_name := 6 * nano_per_unit]}] []
        [mkCS 1 (Some {[cpu_name := 1 * nano_per_unit]}) {[cpu_name := 6 * nano_per_unit]}] [] ∅ None
        [] None ∅ [].
Definition resize_history : list (list positive * pod_meta * pod) :=
  [([], mkMeta 2 true false, resize_v0); ([], mkMeta 2 true false, resize_v1)].

