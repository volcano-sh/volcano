(* Property C02, bind admission: no sequence of AddBindTask calls -- whatever jobs, tasks and
   nodes they name, whatever the tasks request -- overcommits a node, and a refused call leaves
   the cache as it was (bind_outcome); the same for histories that interleave the calls with cache
   events (cinv, cache_event_keeps, bind_events_safe), for the agent scheduler's cache, and for the
   execution of accepted binds in batches (flow_batch_ledger, law_batch_sound). *)
From stdpp Require Import gmap.
From Coq Require Import ZArith Lia.
From V Require Import Sched.LedgerLemmasA Sched.LedgerLemmasNode Base.Res Base.ResLemmas Sched.LedgerModel Sched.GangModel Sched.LedgerInvP
                      Sched.NodeCapLemmas Sched.NodeSumLemmas C02.BindModel.
Open Scope Z_scope.

Section Bind.
Variable eps : Z.
Hypothesis eps_pos : 0 < eps.

Lemma set_status_roundtrip t s : set_status (set_status t s) (t_status t) = t.
Proof. destruct t; reflexivity. Qed.

(* the three ways a call ends: refused before anything is touched; accepted (the task is Binding,
   filed on the node); or status set to Binding and set back because the decision or AddTask failed *)
Inductive bind_outcome (c : cache) (r : bind_req) : cache * bind_res -> Prop :=
| bo_untouched e : e <> BOk -> bind_outcome c r (c, e)
| bo_accept j t n n' t2 :
    c_jobs c !! b_job r = Some j -> c_heap c !! b_task r = Some t ->
    c_nodes c !! b_node r = Some n -> n_has_node n = true ->
    node_add eps n (set_status t Binding) = inl (n', t2) ->
    bind_outcome c r (mkCache (<[b_task r := t2]> (<[b_task r := set_status t Binding]> (c_heap c)))
                              (<[b_job r := fst (job_update (c_heap c) j t Binding)]> (c_jobs c))
                              (<[b_node r := n']> (c_nodes c)), BOk)
| bo_revert j t n e :
    c_jobs c !! b_job r = Some j -> b_task r ∈ j_tasks j -> c_heap c !! b_task r = Some t ->
    c_nodes c !! b_node r = Some n -> n_has_node n = true -> e <> BOk ->
    bind_outcome c r
      (mkCache (<[b_task r := t]> (<[b_task r := set_status t Binding]> (c_heap c)))
               (<[b_job r := fst (job_update (<[b_task r := set_status t Binding]> (c_heap c))
                                             (fst (job_update (c_heap c) j t Binding)) (set_status t Binding) (t_status t))]> (c_jobs c))
               (c_nodes c), e).

Lemma add_bind_task_outcome c r : bind_outcome c r (add_bind_task eps c r).
Proof.
  unfold add_bind_task.
  destruct (c_jobs c !! b_job r) as [j|] eqn:Ej; [|apply bo_untouched; discriminate].
  destruct (bool_decide (b_task r ∈ j_tasks j)) eqn:Ein; simpl negb; cbv iota; [|apply bo_untouched; discriminate].
  apply bool_decide_eq_true in Ein.
  destruct (c_heap c !! b_task r) as [t|] eqn:Et; [|apply bo_untouched; discriminate].
  destruct (c_nodes c !! b_node r) as [n|] eqn:En; [|apply bo_untouched; discriminate].
  destruct (n_has_node n) eqn:Hhas; simpl negb; cbv iota; [|apply bo_untouched; discriminate].
  unfold job_update. cbv beta zeta iota. rewrite set_status_roundtrip.
  destruct (b_decision_fails r); [apply (bo_revert c r j t n); auto; discriminate|].
  destruct (node_add eps n (set_status t Binding)) as [[n' t2]|e] eqn:Ea.
  - apply (bo_accept c r j t n n' t2); auto.
  - apply (bo_revert c r j t n); auto; discriminate.
Qed.

(* after fix 8dab8c3: a target without Node object (the placeholder of a removed node, or of pods seen
   before their node) is refused and nothing is touched *)
Theorem bind_needs_node_object c r n :
  c_nodes c !! b_node r = Some n -> n_has_node n = false ->
  fst (add_bind_task eps c r) = c /\ snd (add_bind_task eps c r) <> BOk.
Proof.
  intros Hn Hh.
  destruct (add_bind_task_outcome c r) as [e He|j t n0 n' t' _ _ Hn0 Hh0 _|j t n0 e _ _ _ Hn0 Hh0 _]; [split; [reflexivity|exact He]| |];
    rewrite Hn in Hn0; inversion Hn0; congruence.
Qed.

(* an accepted call passed the Idle re-check of NodeInfo.AddTask (on a node that has a Node) *)
Theorem accepted_bind_was_checked c r :
  snd (add_bind_task eps c r) = BOk ->
  exists n t, c_nodes c !! b_node r = Some n /\ c_heap c !! b_task r = Some t /\
    (n_has_node n = true -> less_equal_names eps (t_req t) (n_idle n) DZero = true).
Proof.
  intros Hok. destruct (add_bind_task_outcome c r) as [e He|j t n n' t' _ Ht Hn _ Ha|j t n e _ _ _ _ _ He]; try (simpl in Hok; congruence).
  exists n, t. repeat split; try assumption. intros Hh.
  pose proof (node_add_ledger eps n _ n' t' Ha) as Hl. rewrite Hh in Hl. apply Hl. reflexivity.
Qed.

Definition nodes_all (P : node -> Prop) (ns : gmap positive node) : Prop := forall i n, ns !! i = Some n -> P n.

Lemma all_insert {A} (P : A -> Prop) (m : gmap positive A) i x :
  (forall k y, m !! k = Some y -> P y) -> P x -> forall k y, <[i := x]> m !! k = Some y -> P y.
Proof. intros H Hx k y Hl. apply lookup_insert_Some in Hl as [[_ <-]|[_ Hl]]; [exact Hx|apply (H k y Hl)]. Qed.

Lemma nodes_all_insert P ns i n : nodes_all P ns -> P n -> nodes_all P (<[i := n]> ns).
Proof. exact (all_insert P ns i n). Qed.

(* a sequence of calls keeps any per-node property that a passing Binding AddTask keeps *)
Lemma bind_state_keeps (P : node -> Prop) :
  (forall n t n' t', P n -> t_status t = Binding -> node_add eps n t = inl (n', t') -> P n') ->
  forall l c, nodes_all P (c_nodes c) -> nodes_all P (c_nodes (bind_state eps c l)).
Proof.
  intros HP l. induction l as [|r l IH]; intros c Hall; [exact Hall|]. simpl. apply IH.
  destruct (add_bind_task_outcome c r) as [e _|j t n n' t' _ Ht Hn _ Ha|j t n e _ _ _ _ _ _]; simpl; try exact Hall.
  apply nodes_all_insert; [exact Hall|]. apply (HP n (set_status t Binding) n' t'); [apply (Hall _ _ Hn)|reflexivity|exact Ha].
Qed.

(* main theorem: every interleaving of concurrent AddBindTask callers is a sequence of requests (the
   function holds sc.Mutex from its first to its last statement).  For every such sequence,
   computed from views however stale -- i.e. for arbitrary requests -- and every prefix of it:
   no node's Idle goes below -eps ... *)
Theorem bind_admission_safe c l k :
  nodes_all (idle_ok eps) (c_nodes c) ->
  nodes_all (idle_ok eps) (c_nodes (bind_state eps c (take k l))).
Proof.
  apply bind_state_keeps. intros n t n' t' Hn Hst Ha. eapply node_add_binding_keeps_idle; eauto.
Qed.

(* the same over EVERY dimension, 'pods' included: the Binding re-check compares every key of the
   request (for binds only -- the event theorems below are over guarded dimensions) *)
Theorem bind_admission_all_dims c l k :
  nodes_all (idle_all_ok eps) (c_nodes c) ->
  nodes_all (idle_all_ok eps) (c_nodes (bind_state eps c (take k l))).
Proof.
  apply bind_state_keeps. intros n t n' t' Hn Hst Ha. eapply node_add_binding_keeps_idle_all; eauto.
Qed.

(* what C02_bind_admission_safe_full carries per node: within capacity in the full sense (future idle
   too) when nothing is pipelined beyond what is releasing, as on every node of the scheduler cache *)
Definition cache_node_ok (n : node) : Prop := node_within_capacity eps n /\ pip_le_rel n.

Lemma agent_add_bind_task_keeps (P : node -> Prop) ns t nid :
  (forall n n' t', P n -> node_add eps n (set_status t Binding) = inl (n', t') -> P n') ->
  nodes_all P ns -> nodes_all P (fst (agent_add_bind_task eps ns t nid)).
Proof.
  intros HP Hall. unfold agent_add_bind_task.
  destruct (ns !! nid) as [n|] eqn:En; [|exact Hall].
  destruct (n_has_node n); simpl; [|exact Hall].
  destruct (node_add eps n (set_status t Binding)) as [[n' t']|e] eqn:Ea; [|exact Hall].
  apply nodes_all_insert; [exact Hall|]. apply (HP n n' t'); [apply (Hall _ _ En)|exact Ea].
Qed.

(* the agent scheduler's AddBindTask: the same theorem; nothing in it mentions BindGeneration,
   i.e. safety does not rest on the conflict-aware binder's generation check *)
Theorem agent_bind_admission_safe ns l k :
  nodes_all (idle_ok eps) ns -> nodes_all (idle_ok eps) (agent_state eps ns (take k l)).
Proof.
  generalize (take k l). clear l k. intros l. revert ns. induction l as [|[t nid] l IH]; intros ns Hall; [exact Hall|].
  simpl. apply IH, agent_add_bind_task_keeps; [|exact Hall]. intros n n' t' Hn Ha.
  exact (node_add_binding_keeps_idle eps eps_pos n (set_status t Binding) n' t' Hn eq_refl Ha).
Qed.

End Bind.

Section Refused.
Variable eps : Z.

(* moving a task to Binding and back files it where it was *)
Lemma idx_roundtrip ix o t s' :
  t ∈ idx_set ix o -> (forall s, s <> o -> t ∉ idx_set ix s) ->
  idx_set (idx_add (idx_del (idx_add (idx_del ix o t) Binding t) Binding t) o t) s' = idx_set ix s'.
Proof.
  intros Hin Hout. repeat (rewrite idx_set_add || rewrite idx_set_del).
  pose proof (Hout Binding) as HB.
  repeat case_decide; subst; try congruence. all: try (clear Hout; set_solver).
  all: rewrite <- !(union_difference_singleton_L t _ Hin); reflexivity.
Qed.

(* the job after UpdateTaskStatus(task, Binding); UpdateTaskStatus(task, original) *)
Definition job_roundtrip (h : gmap positive task) (j : job) (t : task) : job :=
  let '(j1, t1) := job_update h j t Binding in
  fst (job_update (<[t_id t := t1]> h) j1 t1 (t_status t)).

Definition heap_keyed (h : gmap positive task) : Prop := forall i t, h !! i = Some t -> t_id t = i.

End Refused.

(* ---------- cache events between the binds ---------- *)

Section Events.
Variable eps : Z.
Hypothesis eps_pos : 0 < eps.

(* setNode recomputes the ledger: Idle = Allocatable - sum of the requests of the held copies
   that are not Pipelined (the mirror of C08_set_node_recomputes_ledger, for Idle) *)
Lemma fold_set_acc_idle l : forall n,
  sc (n_idle n) <> None ->
  let n' := fold_left node_set_acc l n in
  sc (n_idle n') <> None /\ n_tasks n' = n_tasks n /\ n_has_node n' = n_has_node n /\ n_alloc n' = n_alloc n /\
  forall d, amt (n_idle n') d = amt (n_idle n) d - sum_amt (used_amt d) l /\
            amt (n_releasing n') d = amt (n_releasing n) d + sum_amt (rel_amt d) l /\
            amt (n_pipelined n') d = amt (n_pipelined n) d + sum_amt (pip_amt d) l.
Proof.
  induction l as [|t l IH]; intros n Hs; simpl; [repeat split; auto; lia|].
  assert (H1 : sc (n_idle (node_set_acc n t)) <> None /\ n_tasks (node_set_acc n t) = n_tasks n /\
               n_has_node (node_set_acc n t) = n_has_node n /\ n_alloc (node_set_acc n t) = n_alloc n /\
               forall d, amt (n_idle (node_set_acc n t)) d = amt (n_idle n) d - used_amt d t /\
                         amt (n_releasing (node_set_acc n t)) d = amt (n_releasing n) d + rel_amt d t /\
                         amt (n_pipelined (node_set_acc n t)) d = amt (n_pipelined n) d + pip_amt d t).
  { unfold node_set_acc, used_amt, rel_amt, pip_amt. destruct (t_status t); simpl; repeat split; auto; try (apply sub_sc_some; exact Hs);
      try (rewrite amt_sub_some by exact Hs); try rewrite amt_add; lia. }
  destruct H1 as (A1 & A2 & A3 & A4 & A5). destruct (IH (node_set_acc n t) A1) as (B1 & B2 & B3 & B4 & B5).
  repeat split; [exact B1|rewrite B2; exact A2|rewrite B3; exact A3|rewrite B4; exact A4| | |];
    destruct (B5 d) as (X1 & X2 & X3); destruct (A5 d) as (Y1 & Y2 & Y3); lia.
Qed.

Theorem node_set_idle n alloc :
  sc alloc <> None ->
  sc (n_idle (node_set n alloc)) <> None /\ n_tasks (node_set n alloc) = n_tasks n /\ n_has_node (node_set n alloc) = true /\
  forall d, amt (n_idle (node_set n alloc)) d = amt alloc d - sum_amt (used_amt d) (copies n).
Proof.
  intros Hs. unfold node_set, copies.
  destruct (fold_set_acc_idle (map snd (map_to_list (n_tasks n))) (mkNode (n_id n) true alloc empty_res empty_res empty_res alloc (n_tasks n)) Hs)
    as (H1 & H2 & H3 & _ & H5).
  repeat split; [exact H1|exact H2|exact H3|]. intros d. apply (H5 d).
Qed.

(* ... and the whole ledger: after SetNode the node accounts for exactly the copies it holds *)
Theorem node_set_acct n alloc :
  sc alloc <> None -> (forall k c, n_tasks n !! k = Some c -> nonneg (t_req c)) ->
  node_acct (node_set n alloc) /\ n_alloc (node_set n alloc) = alloc.
Proof.
  intros Hs Hnn. unfold node_set.
  destruct (fold_set_acc_idle (map snd (map_to_list (n_tasks n))) (mkNode (n_id n) true alloc empty_res empty_res empty_res alloc (n_tasks n)) Hs)
    as (H1 & H2 & H3 & H4 & H5).
  split; [|exact H4]. split; [intros _; exact H1|]. split; [rewrite H2; exact Hnn|].
  intros _ d. rewrite H2, H4. simpl. destruct (H5 d) as (X1 & X2 & X3). simpl n_idle in X1. simpl n_releasing in X2. simpl n_pipelined in X3.
  unfold csum. repeat split; [exact X1| |].
  - rewrite X2, amt_empty_res. lia.
  - rewrite X3, amt_empty_res. lia.
Qed.

(* what the sequence theorem carries per node: Idle above -eps when the node keeps a ledger, and
   copies with non-negative requests none of which is Pipelined (the cache never pipelines) *)
Definition bnode_ok (n : node) : Prop :=
  (n_has_node n = true -> idle_ok eps n) /\
  (forall j c, n_tasks n !! j = Some c -> nonneg (t_req c) /\ t_status c <> Pipelined) /\
  node_acct n.

Definition cinv (c : cache) : Prop :=
  (forall i t, c_heap c !! i = Some t -> nonneg (t_req t) /\ t_status t <> Pipelined) /\
  nodes_all bnode_ok (c_nodes c).

(* what bnode_ok asks of a held copy and cinv of a task object *)
Definition held_ok (t : task) : Prop := nonneg (t_req t) /\ t_status t <> Pipelined.

Lemma bnode_remove n tid : bnode_ok n -> bnode_ok (node_remove n tid).
Proof.
  intros (Hi & Hc & Hacct). destruct (node_remove_fields n tid) as (_ & Rh & _ & Rt). split; [|split].
  - rewrite Rh. intros Hh. apply node_remove_keeps_idle; [apply Hi; exact Hh|]. intros c Hl. apply (Hc _ _ Hl).
  - intros j c. rewrite Rt. intros Hl. apply lookup_delete_Some in Hl as [_ Hl]. apply (Hc _ _ Hl).
  - apply node_remove_acct. exact Hacct.
Qed.

(* AddTask of a non-pipelined task whose request fits what is idle (or is re-checked: Binding) *)
Lemma bnode_add n t n' t' :
  bnode_ok n -> nonneg (t_req t) -> t_status t <> Pipelined ->
  (t_status t = Binding \/ (n_has_node n = true -> fits eps (t_req t) (amt (n_idle n)))) ->
  node_add eps n t = inl (n', t') -> bnode_ok n'.
Proof.
  intros (Hi & Hc & Hacct) Hnn Hnp Hg Ha. destruct (node_add_spec eps n t n' t' Ha) as (_ & _ & At & _ & Ah & _).
  split; [|split; [|eapply node_add_acct; eauto]].
  - rewrite Ah. intros Hh. specialize (Hi Hh).
    destruct Hg as [Hb|Hf]; [eapply node_add_binding_keeps_idle; eauto|]. specialize (Hf Hh). destruct Hi as [Hs Hidle].
    destruct (node_add_amounts eps n t n' t' Ha Hh Hs) as [Hs' Hamt]. split; [exact Hs'|].
    intros d Hd. destruct (Hamt d) as (-> & _). unfold used_amt. rewrite bool_decide_eq_false_2 by exact Hnp. specialize (Hf d Hd). lia.
  - intros j c. rewrite At. apply (all_insert held_ok); [exact Hc|split; assumption].
Qed.

(* a copy (not Pipelined) taken off its node leaves room for its own request: what a re-filing
   (deletePod + addPod) of the same pod needs *)
Lemma removed_fits n tid cp :
  bnode_ok n -> n_tasks n !! tid = Some cp -> n_has_node n = true ->
  fits eps (t_req cp) (amt (n_idle (node_remove n tid))).
Proof.
  intros (Hi & Hc & _) Hl Hh d Hd. destruct (Hc _ _ Hl) as [Hnn Hnp]. destruct (Hi Hh) as [_ Hidle].
  destruct (node_remove_amounts n tid cp Hl Hh Hnn) as [_ Hamt]. destruct (Hamt d) as (-> & _).
  unfold used_amt. rewrite bool_decide_eq_false_2 by exact Hnp. specialize (Hidle d Hd). lia.
Qed.

(* UpdatePod with a deletionTimestamp on the node: the copy (not Pipelined) is removed and re-added
   as Releasing with the same request: Idle keeps its amounts *)
Lemma bnode_reterminate n t cp n' t' :
  bnode_ok n -> n_tasks n !! t_id t = Some cp -> t_req cp = t_req t -> t_status t = Releasing ->
  node_add eps (node_remove n (t_id t)) t = inl (n', t') -> bnode_ok n'.
Proof.
  intros Hb Hl Hr Hst Ha. destruct (proj1 (proj2 Hb) _ _ Hl) as [Hnn _]. rewrite Hr in Hnn.
  apply (bnode_add (node_remove n (t_id t)) t n' t'); [apply bnode_remove; exact Hb|exact Hnn|rewrite Hst; discriminate| |exact Ha].
  right. rewrite (proj1 (proj2 (node_remove_fields _ _))). intros Hh. rewrite <- Hr. apply removed_fits; assumption.
Qed.

(* side conditions of an event: the cluster state it delivers is itself within capacity and
   consistent with what the cache holds (C08 proves the latter as its Rep invariant) *)
Definition ev_ok (c : cache) (e : cache_ev) : Prop :=
  match e with
  | EvNode nid alloc =>
    (* The delivered object carries a scalar map (NewResource: at least "pods") and, for a node
       the cache already accounts for (it has its Node object), EITHER its allocatable did not
       shrink in any dimension -- then nothing else is asked: the new Idle is the old one plus the
       growth, by the ledger identity of the invariant -- OR (a shrinking node, and the first Node
       object of a placeholder) the environment guarantees that the new allocatable still covers
       what the node holds: the pods bound to it, of which the cache's held set consists apart
       from binds in flight.  A node shrunk below what is placed on it is an overcommitted cluster
       state by itself, outside the property's quantifier. *)
    sc alloc <> None /\
    match c_nodes c !! nid with
    | Some n =>
      (n_has_node n = true /\ forall d, amt (n_alloc n) d <= amt alloc d) \/
      (forall d, guarded_dim d -> csum (used_amt d) (n_tasks n) < amt alloc d + eps)
    | None => forall d, guarded_dim d -> - eps < amt alloc d
    end
  | EvTerminating tid =>
    forall st i, c_heap c !! tid = Some st -> t_node st = Some i ->
      t_id st = tid /\ terminated (t_status st) = false /\
      forall n, c_nodes c !! i = Some n -> exists cp, n_tasks n !! tid = Some cp /\ t_req cp = t_req st
  | EvDelete _ => True
  | EvPodAdd t =>
    nonneg (t_req t) /\ t_status t <> Pipelined /\ t_status t <> Binding /\
    forall i n, t_node t = Some i -> c_nodes c !! i = Some n -> n_has_node n = true -> fits eps (t_req t) (amt (n_idle n))
  | EvUpdateUnbound _ _ => True
  | EvBoundArrives tid =>
    forall st i, c_heap c !! tid = Some st -> t_status st = Binding -> t_node st = Some i ->
      t_id st = tid /\
      forall n, c_nodes c !! i = Some n -> exists cp, n_tasks n !! tid = Some cp /\ t_req cp = t_req st
  | EvRemoveNode _ => True
  | EvUnbind _ _ => True
  end.

(* a node without Node object keeps no ledger: only its copies are looked at *)
Lemma bnode_no_ledger n :
  n_has_node n = false -> (forall j c, n_tasks n !! j = Some c -> nonneg (t_req c) /\ t_status c <> Pipelined) -> bnode_ok n.
Proof.
  intros Hh Hc. unfold bnode_ok, node_acct, node_sums. rewrite Hh. split; [discriminate|]. split; [exact Hc|].
  split; [discriminate|]. split; [intros k c Hl; apply (Hc _ _ Hl)|discriminate].
Qed.

Lemma bnode_placeholder i : bnode_ok (placeholder i).
Proof. apply bnode_no_ledger; [reflexivity|]. intros j c Hl. simpl in Hl. rewrite lookup_empty in Hl. discriminate. Qed.

Lemma add_to_node_ok ns t :
  nodes_all bnode_ok ns -> nonneg (t_req t) -> t_status t <> Pipelined ->
  (forall i n, t_node t = Some i -> ns !! i = Some n ->
     t_status t = Binding \/ (n_has_node n = true -> fits eps (t_req t) (amt (n_idle n)))) ->
  nodes_all bnode_ok (add_to_node eps ns t).
Proof.
  intros Hall Hnn Hnp Hg. unfold add_to_node. destruct (t_node t) as [i|] eqn:Hn; [|exact Hall].
  assert (Hn0 : bnode_ok (default (placeholder i) (ns !! i))).
  { destruct (ns !! i) as [n|] eqn:E; simpl; [apply (Hall _ _ E)|apply bnode_placeholder]. }
  destruct (terminated (t_status t)); [apply nodes_all_insert; assumption|].
  destruct (node_add eps (default (placeholder i) (ns !! i)) t) as [[n' t']|e] eqn:Ea; [|apply nodes_all_insert; assumption].
  apply nodes_all_insert; [exact Hall|]. apply (bnode_add _ t n' t' Hn0 Hnn Hnp); [|exact Ea].
  destruct (ns !! i) as [n|] eqn:E; simpl; [apply (Hg i n eq_refl E)|right; simpl; discriminate].
Qed.

Lemma remove_from_node_ok ns t : nodes_all bnode_ok ns -> nodes_all bnode_ok (remove_from_node ns t).
Proof.
  intros Hall. unfold remove_from_node. destruct (t_node t) as [i|]; [|exact Hall].
  destruct (ns !! i) as [n|] eqn:E; [|exact Hall]. destruct (terminated (t_status t)); [exact Hall|].
  apply nodes_all_insert; [exact Hall|]. apply bnode_remove. apply (Hall _ _ E).
Qed.

(* deletePod + addPod of a pod: the node it names holds its copy, which is removed and re-filed with
   the same request (nothing happens for a pod without node name) *)
Lemma readd_ok ns st t' :
  nodes_all bnode_ok ns -> t_req t' = t_req st -> t_node t' = t_node st -> t_status t' <> Pipelined ->
  (forall i, t_node st = Some i -> nonneg (t_req st) /\ terminated (t_status st) = false /\
     forall n, ns !! i = Some n -> exists cp, n_tasks n !! t_id st = Some cp /\ t_req cp = t_req st) ->
  nodes_all bnode_ok (add_to_node eps (remove_from_node ns st) t').
Proof.
  intros Hall Hreq Hnode Hnp Hcp.
  destruct (t_node st) as [i|] eqn:Hi; [|unfold add_to_node, remove_from_node; rewrite Hnode, Hi; exact Hall].
  destruct (Hcp i eq_refl) as (Hnn & Hterm & Hheld).
  apply add_to_node_ok; [apply remove_from_node_ok; exact Hall|rewrite Hreq; exact Hnn|exact Hnp|].
  rewrite Hnode. intros k n Hk Hl. inversion Hk; subst k. right. intros Hh.
  unfold remove_from_node in Hl. rewrite Hi in Hl. destruct (ns !! i) as [n0|] eqn:E0; [|rewrite E0 in Hl; discriminate].
  rewrite Hterm, lookup_insert in Hl. inversion Hl; subst n. clear Hl.
  destruct (Hheld n0 eq_refl) as (cp & Hlcp & Hrcp). rewrite (proj1 (proj2 (node_remove_fields _ _))) in Hh.
  rewrite Hreq, <- Hrcp. apply removed_fits; [apply (Hall _ _ E0)|exact Hlcp|exact Hh].
Qed.

(* a bind in flight keeps its reservation: an update whose object has no nodeName yet is ignored
   for a pod the cache holds in an allocated status (updatePod's guard; seeded mutant C02-r3-1
   restricts it to resyncs) *)
Theorem update_unbound_keeps_reservation c tid deleting st :
  c_heap c !! tid = Some st -> allocated_status (t_status st) = true ->
  cache_event eps c (EvUpdateUnbound tid deleting) = c.
Proof. intros Hl Ha. simpl. rewrite Hl, Ha. reflexivity. Qed.

(* every cache event keeps the invariant *)
Theorem cache_event_keeps c e : cinv c -> ev_ok c e -> cinv (cache_event eps c e).
Proof.
  intros [Hheap Hall] Hev. destruct e as [nid alloc|tid|tid|t|tid deleting|tid|nid|tid nid]; simpl.
  - (* node add / update: the ledger is recomputed *)
    destruct Hev as [Hs Hsum]. split; [exact Hheap|]. simpl. unfold node_event. apply nodes_all_insert; [exact Hall|].
    destruct (c_nodes c !! nid) as [n|] eqn:E.
    + destruct (Hall _ _ E) as (Hi0 & Hc0 & Hacct0).
      assert (Hnn0 : forall k cp, n_tasks n !! k = Some cp -> nonneg (t_req cp)) by (intros k cp Hl; apply (Hc0 _ _ Hl)).
      destruct (node_set_idle n alloc Hs) as (S1 & S2 & S3 & S4).
      destruct (node_set_acct n alloc Hs Hnn0) as [Hacct' Halloc'].
      split; [|split; [intros j cp; rewrite S2; apply Hc0|exact Hacct']].
      intros _. split; [exact S1|]. intros d Hd. rewrite (S4 d), csum_copies.
      destruct Hsum as [[Hh Hgrow]|Hcov]; [|specialize (Hcov d Hd); lia].
      (* no shrink: derived from the invariant *)
      destruct (Hi0 Hh) as [_ Hidle]. specialize (Hidle d Hd). destruct Hacct0 as (_ & _ & Hsums). destruct (Hsums Hh d) as (X1 & _ & _).
      specialize (Hgrow d). lia.
    + split; [|split; [intros j cp Hl; simpl in Hl; rewrite lookup_empty in Hl; discriminate|]].
      * intros _. split; [exact Hs|]. intros d Hd. simpl. apply (Hsum d Hd).
      * apply node_acct_empty; [reflexivity|]. simpl. intros _. split; [exact Hs|]. intros d. rewrite amt_empty_res. auto.
  - (* pod turned terminating *)
    destruct (c_heap c !! tid) as [st|] eqn:Eh; [|split; assumption]. destruct (Hheap _ _ Eh) as [Hnn Hnp].
    split; simpl; [apply (all_insert held_ok); [exact Hheap|split; [exact Hnn|discriminate]]|].
    apply readd_ok; [exact Hall|reflexivity|reflexivity|discriminate|].
    intros i Hi. destruct (Hev st i Eh Hi) as (Hid & Hterm & Hcp). rewrite Hid. auto.
  - (* pod deleted *)
    destruct (c_heap c !! tid) as [st|] eqn:Eh; [|split; assumption]. split; simpl.
    + intros i u Hl. apply lookup_delete_Some in Hl as [_ Hl]. apply (Hheap _ _ Hl).
    + apply remove_from_node_ok. exact Hall.
  - (* pod arrives *)
    destruct Hev as (Hnn & Hnp & Hnb & Hfit). split; simpl; [apply (all_insert held_ok); [exact Hheap|split; assumption]|].
    apply add_to_node_ok; try assumption. intros i n Hi Hl. right. apply (Hfit i n Hi Hl).
  - (* update of a pod whose object is still unbound *)
    destruct (c_heap c !! tid) as [st|] eqn:Eh; [|split; assumption].
    destruct (allocated_status (t_status st)); [split; assumption|]. destruct (Hheap _ _ Eh) as [Hnn Hnp].
    split; simpl; [apply (all_insert held_ok); [exact Hheap|split; [exact Hnn|destruct deleting; discriminate]]|].
    apply remove_from_node_ok. exact Hall.
  - (* the bound pod arrives *)
    destruct (c_heap c !! tid) as [st|] eqn:Eh; [|split; assumption].
    destruct (t_status st) eqn:Est; try (split; assumption).
    destruct (t_node st) as [i|] eqn:En; [|split; assumption]. destruct (Hheap _ _ Eh) as [Hnn Hnp].
    destruct (Hev st i Eh Est En) as [Hid Hcp].
    split; simpl; [apply (all_insert held_ok); [exact Hheap|split; [exact Hnn|discriminate]]|].
    apply readd_ok; [exact Hall|reflexivity|reflexivity|discriminate|].
    intros k Hk. rewrite En in Hk. inversion Hk; subst k. rewrite Est, Hid. auto.
  - (* node removed: its pods are parked on a placeholder that keeps no ledger *)
    destruct (c_nodes c !! nid) as [n|] eqn:E; [|split; assumption]. split; [exact Hheap|]. simpl.
    case_bool_decide.
    + intros i m Hl. apply lookup_delete_Some in Hl as [_ Hl]. apply (Hall _ _ Hl).
    + apply nodes_all_insert; [exact Hall|]. apply bnode_no_ledger; [reflexivity|]. apply (Hall _ _ E).
  - (* a failed bind execution takes the task off its node *)
    destruct (c_nodes c !! nid) as [n|] eqn:E; [|split; assumption]. split; [exact Hheap|]. simpl.
    apply nodes_all_insert; [exact Hall|]. apply bnode_remove. apply (Hall _ _ E).
Qed.

(* AddBindTask keeps it too *)
Theorem add_bind_task_keeps_cinv c r : cinv c -> cinv (fst (add_bind_task eps c r)).
Proof.
  intros [Hheap Hall].
  destruct (add_bind_task_outcome eps c r) as [e _|j t n n' t' _ Ht Hn _ Ha|j t n e _ _ Ht _ _ _]; simpl; [split; assumption| |];
    destruct (Hheap _ _ Ht) as [Hnn Hnp].
  - split.
    + repeat apply (all_insert held_ok); [exact Hheap|split; [exact Hnn|discriminate]|].
      rewrite (proj1 (node_add_spec eps _ _ _ _ Ha)). split; [exact Hnn|discriminate].
    + apply nodes_all_insert; [exact Hall|].
      apply (bnode_add n (set_status t Binding) n' t'); [apply (Hall _ _ Hn)|exact Hnn|discriminate|left; reflexivity|exact Ha].
  - split; [|exact Hall]. repeat apply (all_insert held_ok); [exact Hheap|split; [exact Hnn|discriminate]|split; assumption].
Qed.

Definition op_ok (c : cache) (o : cache_op) : Prop := match o with OpBind _ => True | OpEv e => ev_ok c e end.
Fixpoint ops_ok (c : cache) (l : list cache_op) : Prop :=
  match l with [] => True | o :: l' => op_ok c o /\ ops_ok (fst (cache_step eps c o)) l' end.

(* histories that interleave AddBindTask calls (arbitrary, as before) with cache
   events -- node updates that recompute the ledger, pods turning terminating, pods deleted,
   pods (and their node) arriving -- keep every node's Idle above -eps after every prefix,
   provided the delivered cluster states are themselves within capacity (ev_ok) *)
Theorem bind_events_safe l : forall c k,
  cinv c -> ops_ok c l -> cinv (ops_state eps c (take k l)).
Proof.
  induction l as [|o l IH]; intros c k Hc Hok; [rewrite take_nil; exact Hc|].
  destruct k as [|k]; [exact Hc|]. destruct Hok as [Ho Hok]. simpl. apply IH; [|exact Hok].
  destruct o as [r|e]; simpl; [apply add_bind_task_keeps_cinv; exact Hc|apply cache_event_keeps; assumption].
Qed.


(* in the property's words: in every state reached by any history of AddBindTask
   calls and cache events, on every node that has its Node object, the summed requests of the
   tasks the node holds (none is Pipelined in the cache) stay below allocatable + eps *)
Theorem bind_events_sums l c k i n d :
  cinv c -> ops_ok c l -> c_nodes (ops_state eps c (take k l)) !! i = Some n -> n_has_node n = true -> guarded_dim d ->
  csum (used_amt d) (n_tasks n) < amt (n_alloc n) d + eps /\
  csum (used_amt d) (n_tasks n) = csum (req_amt d) (n_tasks n).
Proof.
  intros Hc Hok Hl Hh Hd. destruct (bind_events_safe l c k Hc Hok) as [_ Hall]. destruct (Hall _ _ Hl) as (Hi & Hcp & Hacct).
  split.
  - destruct (Hi Hh) as [_ Hidle]. specialize (Hidle d Hd). destruct Hacct as (_ & _ & Hsums). destruct (Hsums Hh d) as (X1 & _ & _). lia.
  - unfold csum. assert (Hall' : Forall (fun cp => t_status cp <> Pipelined) (map snd (map_to_list (n_tasks n)))).
    { apply Forall_forall. intros cp Hin. apply elem_of_list_fmap in Hin as ([j cp'] & -> & Hin). apply elem_of_map_to_list in Hin. apply (Hcp _ _ Hin). }
    induction Hall' as [|cp l' Hnp _ IH]; simpl; [reflexivity|]. rewrite IH. unfold used_amt, req_amt. rewrite bool_decide_eq_false_2 by exact Hnp. reflexivity.
Qed.

(* ---------- the agent scheduler's cache: binds interleaved with the same events ---------- *)

Lemma add_to_node_held ns t i n :
  t_node t = Some i -> ns !! i = Some n -> is_Some (n_tasks n !! t_id t) -> add_to_node eps ns t = <[i := n]> ns.
Proof.
  intros H1 H2 H3. unfold add_to_node. rewrite H1, H2. simpl. destruct (terminated (t_status t)); [reflexivity|].
  assert (Hrej : exists er, node_add eps n t = inr er).
  { unfold node_add. case_bool_decide; [eauto|]. rewrite bool_decide_eq_true_2 by exact H3. eauto. }
  destruct Hrej as [er ->]. reflexivity.
Qed.

Inductive agent_op := AOpBind (t : task) (nid : positive) | AOpEv (e : cache_ev).

Definition agent_step (tasks : positive -> option task) (ns : gmap positive node) (o : agent_op) : gmap positive node :=
  match o with
  | AOpBind t nid => fst (agent_add_bind_task eps ns t nid)
  | AOpEv e => agent_event eps tasks ns e
  end.

Definition agent_ev_ok (tasks : positive -> option task) (ns : gmap positive node) (e : cache_ev) : Prop :=
  match e with
  | EvNode nid alloc => ev_ok (mkCache ∅ ∅ ns) (EvNode nid alloc)
  | EvTerminating tid =>
    forall st i, tasks tid = Some st -> t_node st = Some i ->
      nonneg (t_req st) /\ terminated (t_status st) = false /\
      forall n, ns !! i = Some n -> exists cp, n_tasks n !! t_id st = Some cp /\ t_req cp = t_req st
  | EvDelete _ => True
  | EvPodAdd t => ev_ok (mkCache ∅ ∅ ns) (EvPodAdd t)
  | EvUpdateUnbound _ _ => True
  | EvBoundArrives tid =>
    forall st i, tasks tid = Some st -> find_binding ns tid = Some i ->
      nonneg (t_req st) /\ forall n, ns !! i = Some n -> is_Some (n_tasks n !! t_id st)
  | EvRemoveNode _ => True
  | EvUnbind _ _ => True
  end.

Definition agent_op_ok (tasks : positive -> option task) (ns : gmap positive node) (o : agent_op) : Prop :=
  match o with AOpBind t _ => nonneg (t_req t) | AOpEv e => agent_ev_ok tasks ns e end.

Lemma agent_step_keeps tasks ns o :
  nodes_all bnode_ok ns -> agent_op_ok tasks ns o -> nodes_all bnode_ok (agent_step tasks ns o).
Proof.
  intros Hall Hok. destruct o as [t nid|e]; simpl.
  - apply agent_add_bind_task_keeps; [|exact Hall]. intros n n' t' Hn Ha.
    apply (bnode_add n (set_status t Binding) n' t'); [exact Hn|exact Hok|discriminate|left; reflexivity|exact Ha].
  - (* node events and arriving pods: the cache theorem on a cache without task objects *)
    assert (Hc : cinv (mkCache ∅ ∅ ns)) by (split; [intros i t Hl; simpl in Hl; rewrite lookup_empty in Hl; discriminate|exact Hall]).
    destruct e as [nid alloc|tid|tid|t|tid deleting|tid|nid|tid nid]; simpl in *.
    + exact (proj2 (cache_event_keeps _ (EvNode nid alloc) Hc Hok)).
    + destruct (tasks tid) as [st|] eqn:Et; [|exact Hall].
      apply readd_ok; [exact Hall|reflexivity|reflexivity|discriminate|]. intros i Hi. apply (Hok st i eq_refl Hi).
    + destruct (tasks tid) as [st|]; [apply remove_from_node_ok; exact Hall|exact Hall].
    + exact (proj2 (cache_event_keeps _ (EvPodAdd t) Hc Hok)).
    + exact Hall.
    + destruct (tasks tid) as [st|] eqn:Et; [|exact Hall]. destruct (find_binding ns tid) as [i|] eqn:Ef; [|exact Hall].
      destruct (Hok st i eq_refl eq_refl) as [Hnn Hheld].
      destruct (ns !! i) as [n|] eqn:E.
      * rewrite (add_to_node_held ns _ i n); [|reflexivity|exact E|apply (Hheld n eq_refl)].
        apply nodes_all_insert; [exact Hall|apply (Hall _ _ E)].
      * apply add_to_node_ok; [exact Hall|exact Hnn|simpl; discriminate|].
        intros k n Hk Hl. simpl in Hk. inversion Hk; subst k. rewrite E in Hl. discriminate.
    + intros i m Hl. apply lookup_delete_Some in Hl as [_ Hl]. apply (Hall _ _ Hl).
    + destruct (ns !! nid) as [n|] eqn:E; [|exact Hall]. apply nodes_all_insert; [exact Hall|]. apply bnode_remove. apply (Hall _ _ E).
Qed.

Fixpoint agent_ops_ok (tasks : positive -> option task) (ns : gmap positive node) (l : list agent_op) : Prop :=
  match l with [] => True | o :: l' => agent_op_ok tasks ns o /\ agent_ops_ok tasks (agent_step tasks ns o) l' end.

Theorem agent_events_safe tasks l : forall ns k,
  nodes_all bnode_ok ns -> agent_ops_ok tasks ns l ->
  nodes_all bnode_ok (fold_left (agent_step tasks) (take k l) ns).
Proof.
  induction l as [|o l IH]; intros ns k Hall Hok; [rewrite take_nil; exact Hall|].
  destruct k as [|k]; [exact Hall|]. destruct Hok as [Ho Hok]. simpl. apply IH; [apply agent_step_keeps; assumption|exact Hok].
Qed.

(* ---- bind execution over a batch (BindModel.flow_batch) ---- *)

(* whatever the pre-binders and the binder answer, a batch keeps every node's ledger sound: each of
   its resyncs is an EvUnbind step of the agent history *)
Theorem flow_batch_safe tasks pf bf ns pending :
  nodes_all bnode_ok ns -> nodes_all bnode_ok (fst (flow_batch eps tasks pf bf ns pending)).
Proof.
  assert (Hph : forall fails l ns0,
            nodes_all bnode_ok ns0 -> nodes_all bnode_ok (fold_left (flow_unbind eps tasks fails) l ns0)).
  { intros fails l. induction l as [|p l IH]; intros ns0 H0; [exact H0|]. simpl. apply IH. unfold flow_unbind.
    case_bool_decide; [|exact H0]. exact (agent_step_keeps tasks ns0 (AOpEv (EvUnbind p.1 p.2)) H0 I). }
  intros Hall. unfold flow_batch. simpl. apply Hph, Hph, Hall.
Qed.

Definition on_ledger (ns : gmap positive node) (tid nid : positive) : option task :=
  match ns !! nid with Some n => n_tasks n !! tid | None => None end.

(* one resync takes exactly its own context off the ledger *)
Lemma on_ledger_unbind tasks fails ns p tid nid :
  on_ledger (flow_unbind eps tasks fails ns p) tid nid =
  if bool_decide (p.1 ∈ fails /\ p = (tid, nid)) then None else on_ledger ns tid nid.
Proof.
  unfold flow_unbind. destruct p as [t i]. simpl. case_bool_decide as Hin; [|rewrite bool_decide_eq_false_2 by tauto; reflexivity].
  simpl. unfold on_ledger. destruct (ns !! i) as [n|] eqn:E.
  - destruct (base.decide (i = nid)) as [->|Hn]; [|rewrite lookup_insert_ne, bool_decide_eq_false_2 by (try intros [_ Heq]; congruence); reflexivity].
    rewrite lookup_insert, E, (proj2 (proj2 (proj2 (node_remove_fields _ _)))).
    destruct (base.decide (t = tid)) as [->|Ht]; [rewrite lookup_delete, bool_decide_eq_true_2 by auto; reflexivity|].
    rewrite lookup_delete_ne, bool_decide_eq_false_2 by (try intros [_ Heq]; congruence). reflexivity.
  - case_bool_decide as Hc; [|reflexivity]. destruct Hc as [_ Heq]. inversion Heq; subst. rewrite E. reflexivity.
Qed.

Lemma on_ledger_phase tasks fails l tid nid : forall ns,
  on_ledger (fold_left (flow_unbind eps tasks fails) l ns) tid nid =
  if bool_decide (tid ∈ fails /\ (tid, nid) ∈ l) then None else on_ledger ns tid nid.
Proof.
  induction l as [|p l IH]; intros ns; simpl.
  - rewrite bool_decide_eq_false_2; [reflexivity|]. intros [_ H]. inversion H.
  - rewrite IH, on_ledger_unbind. repeat case_bool_decide; try reflexivity; exfalso; rewrite elem_of_cons in *; naive_solver.
Qed.

Lemma elem_of_flow_pass fails pending (p : positive * positive) :
  p ∈ flow_pass fails pending <-> p ∈ pending /\ p.1 ∉ fails.
Proof. unfold flow_pass. rewrite elem_of_list_In, filter_In, negb_true_iff, bool_decide_eq_false, <- elem_of_list_In. reflexivity. Qed.

(* the mechanism in one statement: after the batch a context is off its node's ledger exactly when
   it belongs to the batch and a failure -- of its PreBind, or of its Binding -- names it; every
   other context, of this batch or not, is on the ledger exactly as before *)
Theorem flow_batch_ledger tasks pf bf ns pending tid nid :
  on_ledger (fst (flow_batch eps tasks pf bf ns pending)) tid nid =
  if bool_decide ((tid, nid) ∈ pending /\ (tid ∈ pf \/ tid ∈ bf)) then None else on_ledger ns tid nid.
Proof.
  unfold flow_batch. simpl. rewrite !on_ledger_phase.
  repeat case_bool_decide; try reflexivity; exfalso; rewrite ?elem_of_flow_pass in *; simpl in *; tauto.
Qed.

Theorem flow_batch_keeps_bound tasks pf bf ns pending tid nid :
  tid ∉ pf -> tid ∉ bf ->
  on_ledger (fst (flow_batch eps tasks pf bf ns pending)) tid nid = on_ledger ns tid nid.
Proof. intros H1 H2. rewrite flow_batch_ledger, bool_decide_eq_false_2 by tauto. reflexivity. Qed.

Theorem flow_batch_drops_named tasks pf bf ns pending tid nid :
  (tid, nid) ∈ pending -> tid ∈ pf \/ tid ∈ bf ->
  on_ledger (fst (flow_batch eps tasks pf bf ns pending)) tid nid = None.
Proof. intros Hin Hf. rewrite flow_batch_ledger, bool_decide_eq_true_2 by tauto. reflexivity. Qed.

(* and a context that no failure names is among the contexts reported bound *)
Lemma flow_batch_reports_bound tasks pf bf ns pending tid nid :
  (tid, nid) ∈ pending -> tid ∉ pf -> tid ∉ bf -> (tid, nid) ∈ snd (flow_batch eps tasks pf bf ns pending).
Proof. intros Hin H1 H2. unfold flow_batch. simpl. rewrite !elem_of_flow_pass. auto. Qed.

(* ---- law 117: per batch, the fault script and per context (task, node, on the ledger before,
   after): after = before, unless a failure names the task ---- *)
Definition law_batch (x : list positive * list positive * list (positive * positive * bool * bool)) : bool :=
  let '(pf, bf, cs) := x in
  forallb (fun c => let '(t, _, before, after) := c in
             Bool.eqb after (before && negb (bool_decide (t ∈ pf)) && negb (bool_decide (t ∈ bf)))) cs.

Definition held_b (ns : gmap positive node) (p : positive * positive) : bool :=
  match on_ledger ns p.1 p.2 with Some _ => true | None => false end.

(* the law holds of the model's batch: what law 117 asks of the real cache is what flow_batch does *)
Theorem law_batch_sound tasks pf bf ns pending :
  law_batch (pf, bf, map (fun p => (p.1, p.2, held_b ns p, held_b (fst (flow_batch eps tasks pf bf ns pending)) p)) pending) = true.
Proof.
  unfold law_batch. apply forallb_forall. intros c Hc. apply in_map_iff in Hc as ([t n] & <- & Hin).
  apply elem_of_list_In in Hin. unfold held_b. cbn [fst snd]. rewrite flow_batch_ledger.
  destruct (on_ledger ns t n); repeat case_bool_decide; try reflexivity; exfalso; tauto.
Qed.

End Events.
