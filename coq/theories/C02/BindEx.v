(* Witnesses for the bind admission theorems: executable forms of bnode_ok / cinv (law 115), non-vacuity
   of bind_events_safe, the pre-fix placeholder bind, the agent cache's remove + re-add, and the
   definitions of the batch-wide failure example. *)
From stdpp Require Import gmap.
From Coq Require Import ZArith Lia List.
From V Require Import Base.Res Base.ResLemmas Sched.LedgerModel Sched.StmtModel Sched.LedgerCodec Sched.GangModel
                      Sched.CycleModel Sched.LedgerInvP Sched.NodeCapLemmas Sched.NodeCapLemmasCycle Sched.NodeCapCheck
                      Sched.NodeSumLemmas Sched.NodeSumCheck C02.BindModel C02.BindLemmas.
Import ListNotations.
Open Scope Z_scope.

(* one node of 3000 milli-cpu holding running t1 (2000); t2 (2000) and t3 (500) pending *)
Definition bx_nodes : list node_spec := [mkNodeSpec 1 true 3000 1024 10 0].
Definition bx_jobs : list job_spec := [mkJobSpec 1 1 0 []].
Definition bx_tasks : list task_spec :=
  [mkTaskSpec 1 1 1 0 2000 256 0 Running (Some 1%positive) true; mkTaskSpec 2 1 1 0 2000 256 0 Pending None true;
   mkTaskSpec 3 1 1 0 500 256 0 Pending None true].
Definition bx_cache : cache := let s := build 2 bx_nodes bx_jobs bx_tasks in mkCache (heap s) (jobs s) (nodes s).
Definition bx_alloc : res := mk_alloc 3000 1024 10 0.
Definition bx_node (c : cache) : node := default (placeholder 1) (c_nodes c !! 1%positive).

Definition bnode_ok_b (eps : Z) (n : node) : bool :=
  (negb (n_has_node n) || nwc_b eps n) &&
  bool_decide (map_Forall (fun _ c => nonneg_b (t_req c) = true /\ t_status c <> Pipelined) (n_tasks n)) && node_acct_b n.

Lemma bnode_ok_b_sound eps n : 0 < eps -> bnode_ok_b eps n = true -> bnode_ok eps n.
Proof.
  intros He. unfold bnode_ok_b. rewrite !andb_true_iff, bool_decide_eq_true. intros [[Hi Hc] Ha]. split; [|split].
  - intros Hh. rewrite Hh in Hi. simpl in Hi. apply (nwc_b_sound eps n He) in Hi. apply nwc_split in Hi. apply Hi.
  - intros j c Hl. destruct (Hc j c Hl) as [H1 H2]. split; [apply nonneg_b_sound; exact H1|exact H2].
  - apply node_acct_b_sound. exact Ha.
Qed.

Definition cinv_b (eps : Z) (c : cache) : bool :=
  bool_decide (map_Forall (fun _ t => nonneg_b (t_req t) = true /\ t_status t <> Pipelined) (c_heap c)) &&
  bool_decide (map_Forall (fun _ n => bnode_ok_b eps n = true) (c_nodes c)).

Lemma cinv_b_sound eps c : 0 < eps -> cinv_b eps c = true -> cinv eps c.
Proof.
  intros He. unfold cinv_b. rewrite andb_true_iff, !bool_decide_eq_true. intros [Hh Hn]. split.
  - intros i t Hl. destruct (Hh i t Hl) as [H1 H2]. split; [apply nonneg_b_sound; exact H1|exact H2].
  - intros i n Hl. apply bnode_ok_b_sound; [exact He|apply (Hn i n Hl)].
Qed.

(* non-vacuity of bind_events_safe: an accepted bind, then a node update with the SAME allocatable:
   the side condition of the event is "the allocatable did not shrink", nothing about Idle *)
Definition bx_ops : list cache_op := [OpBind (mkBind 1 3 1 false); OpEv (EvNode 1 bx_alloc); OpBind (mkBind 1 2 1 false)]%positive.

Example bx_hypotheses : cinv 2 bx_cache /\ ops_ok 2 bx_cache bx_ops.
Proof.
  split; [apply cinv_b_sound; [lia|vm_compute; reflexivity]|].
  simpl. split; [exact I|]. split; [|split; [exact I|exact I]].
  split; [discriminate|].
  destruct (c_nodes (fst (add_bind_task 2 bx_cache (mkBind 1 3 1 false))) !! 1%positive) as [n|] eqn:E; [|vm_compute in E; discriminate].
  left.
  assert (Hn : n_has_node n = true /\ n_alloc n = bx_alloc).
  { assert (H : match c_nodes (fst (add_bind_task 2 bx_cache (mkBind 1 3 1 false))) !! 1%positive with
                | Some n => bool_decide (n_has_node n = true) && bool_decide (n_alloc n = bx_alloc) | None => false end = true) by (vm_compute; reflexivity).
    rewrite E in H. apply andb_true_iff in H as [H1 H2]. apply bool_decide_eq_true in H1, H2. split; assumption. }
  destruct Hn as [Hh Ha]. split; [exact Hh|]. intros d. rewrite Ha. lia.
Qed.

Example bx_results :
  ops_results 2 bx_cache bx_ops = [Some BOk; None; Some (BRefused ErrInsufficient)].
Proof. vm_compute. reflexivity. Qed.

(* pre-fix witness: before fix 8dab8c3 "the bind admission rejects the placement instead of
   overcommitting" was FALSE for a target that has no Node object.  The node is removed (its running
   pod stays on a placeholder), a bind from a view that predates the removal was ADMITTED without any
   check, the node comes back with the same allocatable: it then held 4000 against 3000.
   Reproduced on the real cache before the fix (harness family bind/cache/placeholder). *)
Definition bx_bad_ops : list cache_op := [OpEv (EvRemoveNode 1); OpBind (mkBind 1 2 1 false); OpEv (EvNode 1 bx_alloc)]%positive.

Theorem bind_to_placeholder_unchecked_refuted :
  cinv_b 2 bx_cache = true /\
  ops_results_prefix 2 bx_cache bx_bad_ops = [None; Some BOk; None] /\
  n_has_node (bx_node (ops_state_prefix 2 bx_cache bx_bad_ops)) = true /\
  n_alloc (bx_node (ops_state_prefix 2 bx_cache bx_bad_ops)) = bx_alloc /\
  csum (used_amt DCpu) (n_tasks (bx_node (ops_state_prefix 2 bx_cache bx_bad_ops))) = 64000 /\ amt bx_alloc DCpu = 48000 /\
  ~ idle_ok 2 (bx_node (ops_state_prefix 2 bx_cache bx_bad_ops)).
Proof.
  split; [vm_compute; reflexivity|]. split; [vm_compute; reflexivity|]. split; [vm_compute; reflexivity|].
  split; [vm_compute; reflexivity|]. split; [vm_compute; reflexivity|]. split; [vm_compute; reflexivity|].
  intros [_ H]. specialize (H DCpu). assert (E : amt (n_idle (bx_node (ops_state_prefix 2 bx_cache bx_bad_ops))) DCpu = -16000) by (vm_compute; reflexivity).
  rewrite E in H. assert (guarded_dim DCpu) by discriminate. specialize (H H0). lia.
Qed.

(* the same history with the repaired AddBindTask: the call is refused, and the history satisfies the
   hypotheses of bind_events_safe (the re-added node covers the pod parked on the placeholder) *)
Example bx_bad_ops_now_refused :
  ops_results 2 bx_cache bx_bad_ops = [None; Some BNotReady; None] /\
  nwc_b 2 (bx_node (ops_state 2 bx_cache bx_bad_ops)) = true /\
  csum (used_amt DCpu) (n_tasks (bx_node (ops_state 2 bx_cache bx_bad_ops))) = 32000.
Proof. vm_compute. repeat split; reflexivity. Qed.

(* the agent scheduler cache forgets what a node held across RemoveNode + re-add.
   agent_events_safe holds of this history -- it speaks about the copies the CACHE holds -- but what is
   placed on the node is more: t1 (running, never deleted) and t2.  Reproduced on the real agent cache
   (harness family bind/agent/readd, known finding C02-agent-remove-node-forgets-held-tasks). *)
Definition ag_tasks (i : positive) : option task := c_heap bx_cache !! i.
Definition ag_t2 : task := default (mkTask 2 1 1 1 0 empty_res empty_res false false Pending None) (ag_tasks 2).
Definition ag_ops : list agent_op := [AOpEv (EvRemoveNode 1); AOpEv (EvNode 1 bx_alloc); AOpBind ag_t2 1]%positive.
Definition ag_final : gmap positive node := fold_left (agent_step 2 ag_tasks) ag_ops (c_nodes bx_cache).

Theorem agent_remove_readd_forgets_refuted :
  (* the node held the running t1 (2000m of 3000m) *)
  map fst (map_to_list (n_tasks (bx_node bx_cache))) = [1%positive] /\
  (* after remove + re-add + bind of t2 (2000m): accepted, the cache's node holds t2 only ... *)
  match ag_final !! 1%positive with
  | Some n => (map fst (map_to_list (n_tasks n)), csum (used_amt DCpu) (n_tasks n), nwc_b 2 n)
  | None => ([], 0, false)
  end = ([2%positive], 32000, true) /\
  (* ... although t1 was never deleted: 2000m + 2000m are placed on 3000m *)
  amt (t_req ag_t2) DCpu + csum (used_amt DCpu) (n_tasks (bx_node bx_cache)) = 64000 /\ amt bx_alloc DCpu = 48000.
Proof. vm_compute. repeat split; reflexivity. Qed.

(* ---- bind execution over a batch: a failure of ONE Binding must not be applied batch-wide
   (seeded mutant C02-r8-2: `bindOK := len(errMsg) == 0` for every context of the batch) ---- *)
Definition fb_specs : list task_spec :=
  [mkTaskSpec 1 1 1 0 1000 256 0 Pending None true; mkTaskSpec 2 1 1 0 1500 256 0 Pending None true;
   mkTaskSpec 3 1 1 0 2000 256 0 Pending None true].
Definition fb_cache : cache := let s := build 2 bx_nodes bx_jobs fb_specs in mkCache (heap s) (jobs s) (nodes s).
Definition fb_tasks (i : positive) : option task := c_heap fb_cache !! i.
Definition fb_t (i : positive) : task := default (mkTask i 1 1 1 0 empty_res empty_res false false Pending None) (fb_tasks i).
(* t1 (1000m) and t2 (1500m) admitted to n1 (3000m): the batch *)
Definition fb_admitted : gmap positive node :=
  fold_left (agent_step 2 fb_tasks) [AOpBind (fb_t 1) 1; AOpBind (fb_t 2) 1]%positive (c_nodes fb_cache).
Definition fb_pending : list (positive * positive) := [(1, 1); (2, 1)]%positive.
(* the batch-wide reading: any reported failure sends EVERY handed context through the failure path *)
Definition flow_batch_wide (eps : Z) (tasks : positive -> option task) (pf bf : list positive)
    (ns : gmap positive node) (pending : list (positive * positive)) : gmap positive node :=
  let handed := flow_pass pf pending in
  let all := match bf with [] => [] | _ => map fst handed end in
  fold_left (flow_unbind eps tasks all) handed (fold_left (flow_unbind eps tasks pf) pending ns).
Definition cpu_held (ns : gmap positive node) : Z :=
  match ns !! 1%positive with Some n => csum (used_amt DCpu) (n_tasks n) | None => 0 end.

