(* C17 — the property stated against the CONFIGURATION (the policy entries an
   accepted ShardingConfig carries after applyPolicyDefaults), not against the
   manager's initialised chain. *)
From Coq Require Import ZArith List Bool QArith Lia Permutation Sorted.
From V Require Import C17.Model C17.Laws C17.Lemmas C17.LawLemmas.
Import ListNotations.
Open Scope Z_scope.

(* every policy entry of an accepted configuration IS in the chain its scheduler runs *)
Lemma configured_policy_in_chain specs sp p :
  valid_config specs = true -> In sp specs -> In p (apply_defaults sp) ->
  exists rp, init_policy (to_ref p) = Some rp /\ In rp (chain_of specs (ss_name sp)).
Proof.
  intros Hv Hsp Hp. destruct (valid_config_facts specs Hv) as [_ [Hall Hnd]].
  exact (init_chain_In _ _ _ (chain_of_init specs sp Hnd Hall Hsp) (in_map to_ref _ _ Hp)).
Qed.

(* clause 2 against the configuration: every node-limit entry of the scheduler's
   configured chain (explicit, or synthesized from the deprecated scalars) caps its shard *)
Theorem shard_bounded_config nodes m specs res sp p l :
  assignments nodes m specs = Some res -> In sp specs ->
  In p (apply_defaults sp) -> ps_name p = P_LIMIT -> 0 < arg_or (ps_args p) 4 0 ->
  In (ss_name sp, l) res -> Z.of_nat (length l) <= arg_or (ps_args p) 4 0.
Proof.
  intros Ha Hsp Hp Hn Hmx Hin.
  destruct (configured_policy_in_chain specs sp p (assignments_valid _ _ _ _ Ha) Hsp Hp) as [rp [Hi Hc]].
  rewrite (init_policy_limit (to_ref p) rp Hn Hi) in Hc.
  exact (shard_bounded nodes m specs res _ l _ _ Ha Hin Hc Hmx).
Qed.

(* clause 3 against the configuration: every allocation-rate entry of the
   scheduler's configured chain is passed by every node of its shard *)
Theorem shard_eligible_config nodes m specs res sp p l x :
  assignments nodes m specs = Some res -> In sp specs ->
  In p (apply_defaults sp) -> ps_name p = P_ALLOC ->
  In (ss_name sp, l) res -> In x l ->
  exists n, In n nodes /\ nname n = x /\
    alloc_filter (mlookup m) (round_util (arg_or (ps_args p) 1 0)) (round_util (arg_or (ps_args p) 2 0)) n = true.
Proof.
  intros Ha Hsp Hp Hn Hin Hx.
  destruct (configured_policy_in_chain specs sp p (assignments_valid _ _ _ _ Ha) Hsp Hp) as [rp [Hi Hc]].
  rewrite (init_policy_alloc (to_ref p) rp Hn Hi) in Hc.
  destruct (shard_eligible nodes m specs res (ss_name sp) l x Ha Hin Hx) as [n [H1 [H2 H3]]].
  exists n. split; [assumption|]. split; [assumption|]. exact (H3 _ _ _ Hc).
Qed.

(* input of C17_uninitialisable_chain_refuted (Props/C17.v): allocation-rate with min > max cannot
   be initialised; ParseShardingConfig now rejects it, the manager before fix 4209844 ran it
   with an EMPTY chain (no filter, no cap) *)
Definition bad_chain_spec : sspec :=
  {| ss_name := 1; ss_cpumin := 0; ss_cpumax := 1000; ss_prefer := false; ss_minn := 0; ss_maxn := 0;
     ss_args := [];
     ss_policies := [ {| ps_name := P_ALLOC; ps_weight := 1; ps_args := [(1, 800); (2, 200)] |};
                      {| ps_name := P_LIMIT; ps_weight := 0; ps_args := [(4, 1)] |} ] |}.
