(* C17 — the pipeline of one scheduler, the scheduler loop and the assignments map;
   what an accepted configuration guarantees and which chain the manager runs;
   the witnesses for the pre-fix batched path.  [caps], [min_cap], [disjointb] and
   the law_* checks the statements speak of are defined in C17/Laws.v. *)
From Coq Require Import ZArith List Bool QArith Lia Permutation Sorted.
From V Require Import C17.Model C17.Laws.
Import ListNotations.
Open Scope Z_scope.

Lemma memb_In x l : memb x l = true <-> In x l.
Proof.
  unfold memb. rewrite existsb_exists. split.
  - intros [y [Hy He]]. apply Pos.eqb_eq in He. now subst.
  - intros H. exists x. split; [assumption | apply Pos.eqb_refl].
Qed.

Lemma memb_false x l : memb x l = false <-> ~ In x l.
Proof. rewrite <- memb_In. destruct (memb x l); split; congruence. Qed.

Lemma existsb_Zeqb x l : existsb (Z.eqb x) l = true <-> In x l.
Proof.
  rewrite existsb_exists. split.
  - intros [y [Hy He]]. apply Z.eqb_eq in He. now subst.
  - intros H. exists x. split; [assumption | apply Z.eqb_refl].
Qed.

Lemma filter_all_true {A} (p : A -> bool) l : (forall x, p x = true) -> filter p l = l.
Proof. intros H. induction l as [|a l IH]; simpl; [reflexivity|]. now rewrite H, IH. Qed.

Lemma flat_map_filter {A} (p : A -> bool) (ls : list (list A)) :
  flat_map (filter p) ls = filter p (concat ls).
Proof.
  induction ls as [|l ls IH]; simpl; [reflexivity|].
  now rewrite IH, filter_app.
Qed.

Definition is_prefix {A} (a b : list A) : Prop := exists t, b = a ++ t.

Lemma is_prefix_refl {A} (a : list A) : is_prefix a a.
Proof. exists []. now rewrite app_nil_r. Qed.

Lemma is_prefix_trans {A} (a b c : list A) : is_prefix a b -> is_prefix b c -> is_prefix a c.
Proof. intros [t ->] [u ->]. exists (t ++ u). now rewrite app_assoc. Qed.

Lemma is_prefix_nil {A} (b : list A) : is_prefix [] b.
Proof. now exists b. Qed.

Lemma is_prefix_incl {A} (a b : list A) : is_prefix a b -> incl a b.
Proof. intros [t ->] x Hx. apply in_or_app. now left. Qed.

Lemma is_prefix_length {A} (a b : list A) : is_prefix a b -> (length a <= length b)%nat.
Proof. intros [t ->]. rewrite app_length. lia. Qed.

Lemma is_prefix_sorted {A} (R : A -> A -> Prop) (a b : list A) :
  is_prefix a b -> StronglySorted R b -> StronglySorted R a.
Proof.
  intros [t ->]. induction a as [|x a IH]; simpl; intros H; [constructor|].
  inversion H; subst. constructor; [now apply IH|].
  rewrite Forall_app in H3. tauto.
Qed.

Lemma fold_left_inv {S C} (step : S -> C -> S) (P : S -> Prop) cs :
  forall s, P s -> (forall s c, In c cs -> P s -> P (step s c)) -> P (fold_left step cs s).
Proof.
  induction cs as [|c cs IH]; simpl; intros s Hs Hstep; [assumption|].
  apply IH; [apply Hstep; auto | intros; apply Hstep; auto].
Qed.

Section PipelineFacts.
  Context {A : Type}.
  Variable name : A -> positive.
  Implicit Types (sc : A -> Q).

  (* a Selector obeying its interface contract ("returns the input slice
     unchanged or a prefix thereof", policy/interface.go) *)
  Definition prefix_sel (s : list A -> list A) : Prop := forall l, is_prefix (s l) l.

  Lemma drop_assigned_In nodes assigned n :
    In n (drop_assigned name nodes assigned) <-> In n nodes /\ ~ In (name n) assigned.
  Proof.
    unfold drop_assigned. rewrite filter_In, negb_true_iff, memb_false. tauto.
  Qed.

  Lemma filter_stage_spec (ch : gchain A) c :
    filter_stage ch c = filter (pass_all (g_filters ch)) c.
  Proof.
    unfold filter_stage. destruct (g_filters ch) as [|f fs]; [|reflexivity].
    symmetry. apply filter_all_true. reflexivity.
  Qed.

  (* --- the stable descending sort --- *)

  Lemma qgt_true a b : qgt a b = true <-> (b < a)%Q.
  Proof.
    unfold qgt. rewrite negb_true_iff. split.
    - intros H. apply Qnot_le_lt. intros Hle. apply Qle_bool_iff in Hle. congruence.
    - intros H. destruct (Qle_bool a b) eqn:E; [|reflexivity].
      apply Qle_bool_iff in E. exfalso. eapply Qlt_not_le; eauto.
  Qed.

  Lemma qgt_false a b : qgt a b = false <-> (a <= b)%Q.
  Proof.
    unfold qgt. rewrite negb_false_iff. apply Qle_bool_iff.
  Qed.

  Lemma insert_desc_perm sc x l : Permutation (insert_desc sc x l) (x :: l).
  Proof.
    induction l as [|y r IH]; simpl; [reflexivity|].
    destruct (qgt (sc y) (sc x)); [|reflexivity].
    rewrite IH. apply perm_swap.
  Qed.

  Lemma sort_desc_perm sc l : Permutation (sort_desc sc l) l.
  Proof.
    induction l as [|x l IH]; simpl; [reflexivity|].
    rewrite insert_desc_perm. now constructor.
  Qed.

  (* a before b in the output => score a >= score b *)
  Definition ge_sc (sc : A -> Q) (a b : A) : Prop := (sc b <= sc a)%Q.

  Lemma insert_desc_sorted sc x l :
    StronglySorted (ge_sc sc) l -> StronglySorted (ge_sc sc) (insert_desc sc x l).
  Proof.
    induction l as [|y r IH]; simpl; intros H.
    - repeat constructor.
    - inversion H as [|? ? Hr Hy]; subst.
      destruct (qgt (sc y) (sc x)) eqn:E.
      + constructor; [now apply IH|].
        eapply Permutation_Forall; [symmetry; apply insert_desc_perm|].
        constructor; [|assumption].
        apply qgt_true in E. unfold ge_sc. now apply Qlt_le_weak.
      + apply qgt_false in E. constructor; [assumption|].
        constructor; [exact E|].
        eapply Forall_impl; [|exact Hy]. intros z Hz. unfold ge_sc in *.
        eapply Qle_trans; eauto.
  Qed.

  Lemma sort_desc_sorted sc l : StronglySorted (ge_sc sc) (sort_desc sc l).
  Proof.
    induction l as [|x l IH]; simpl; [constructor|]. now apply insert_desc_sorted.
  Qed.

  (* stability: the nodes of any one score value keep their input order *)
  Lemma insert_desc_stable sc v x l :
    filter (fun y => Qeq_bool (sc y) v) (insert_desc sc x l) =
    filter (fun y => Qeq_bool (sc y) v) (x :: l).
  Proof.
    induction l as [|y r IH]; [reflexivity|].
    simpl insert_desc. destruct (qgt (sc y) (sc x)) eqn:E; [|reflexivity].
    cbn [filter] in *. rewrite IH.
    destruct (Qeq_bool (sc y) v) eqn:Ey; [|reflexivity].
    destruct (Qeq_bool (sc x) v) eqn:Ex; [|reflexivity].
    exfalso. apply Qeq_bool_iff in Ey, Ex. apply qgt_true in E.
    rewrite Ey, Ex in E. eapply Qlt_irrefl; eauto.
  Qed.

  Lemma sort_desc_stable sc v l :
    filter (fun y => Qeq_bool (sc y) v) (sort_desc sc l) = filter (fun y => Qeq_bool (sc y) v) l.
  Proof.
    induction l as [|x l IH]; [reflexivity|].
    simpl sort_desc. rewrite insert_desc_stable. cbn [filter]. now rewrite IH.
  Qed.

  Lemma insert_desc_ext sc sc' x l :
    (forall y, sc y = sc' y) -> insert_desc sc x l = insert_desc sc' x l.
  Proof.
    intros H. induction l as [|y r IH]; simpl; [reflexivity|]. now rewrite !H, IH.
  Qed.

  Lemma sort_desc_ext sc sc' l : (forall y, sc y = sc' y) -> sort_desc sc l = sort_desc sc' l.
  Proof.
    intros H. induction l as [|x l IH]; simpl; [reflexivity|].
    rewrite IH. now apply insert_desc_ext.
  Qed.

  Lemma sort_desc_const q (l : list A) : sort_desc (fun _ => q) l = l.
  Proof.
    induction l as [|x l IH]; simpl; [reflexivity|]. rewrite IH.
    destruct l as [|y r]; simpl; [reflexivity|].
    replace (qgt q q) with false; [reflexivity|].
    symmetry. apply qgt_false. apply Qle_refl.
  Qed.

  (* the score the sort phase effectively uses *)
  Definition eff_score (ch : gchain A) : A -> Q :=
    if g_anyscorer ch then g_score ch else fun _ => 0%Q.

  Lemma sort_stage_spec (ch : gchain A) c : sort_stage ch c = sort_desc (eff_score ch) c.
  Proof.
    unfold sort_stage, eff_score. destruct (g_anyscorer ch).
    - rewrite andb_true_r. destruct (1 <? length c)%nat eqn:E; [reflexivity|].
      apply Nat.ltb_ge in E. destruct c as [|x [|y r]]; simpl in *; try reflexivity. lia.
    - rewrite andb_false_r. now rewrite sort_desc_const.
  Qed.

  (* --- runPipeline = drop assigned -> AND of filters -> stable descending sort -> selectors --- *)
  Theorem pipeline_spec (ch : gchain A) nodes assigned :
    run_pipeline name ch nodes assigned =
    map name (run_selectors (g_selectors ch)
               (sort_desc (eff_score ch)
                 (filter (pass_all (g_filters ch)) (drop_assigned name nodes assigned)))).
  Proof.
    unfold run_pipeline, select_stage. now rewrite sort_stage_spec, filter_stage_spec.
  Qed.

  (* --- selectors --- *)
  Lemma run_selectors_prefix sels : Forall prefix_sel sels ->
    forall c, is_prefix (run_selectors sels c) c.
  Proof.
    induction 1 as [|s sels Hs _ IH]; intros c; simpl; [apply is_prefix_refl|].
    destruct (s c) as [|a c'] eqn:E; [apply is_prefix_nil|].
    eapply is_prefix_trans; [apply IH|]. rewrite <- E. apply Hs.
  Qed.

  Lemma run_selectors_bound sels s k : Forall prefix_sel sels -> In s sels ->
    (forall l, (length (s l) <= k)%nat) -> forall c, (length (run_selectors sels c) <= k)%nat.
  Proof.
    intros Hall. induction Hall as [|s0 sels Hs0 Hall IH]; intros Hin Hk c; [destruct Hin|].
    simpl. destruct (s0 c) as [|a c'] eqn:E; [simpl; lia|].
    destruct Hin as [-> | Hin].
    - pose proof (is_prefix_length _ _ (run_selectors_prefix sels Hall (a :: c'))) as H1.
      specialize (Hk c). rewrite E in Hk. lia.
    - now apply IH.
  Qed.

  (* every selected name belongs to an unassigned node that passed ALL filters *)
  Theorem pipeline_filtered (ch : gchain A) nodes assigned x :
    Forall prefix_sel (g_selectors ch) ->
    In x (run_pipeline name ch nodes assigned) ->
    exists n, In n nodes /\ name n = x /\ ~ In x assigned /\ pass_all (g_filters ch) n = true.
  Proof.
    intros Hsel. rewrite pipeline_spec, in_map_iff. intros [n [Hn Hin]].
    apply (is_prefix_incl _ _ (run_selectors_prefix _ Hsel _)) in Hin.
    apply (Permutation_in _ (sort_desc_perm _ _)) in Hin.
    apply filter_In in Hin. destruct Hin as [Hin Hp].
    apply drop_assigned_In in Hin. destruct Hin as [Hin Hna].
    exists n. subst x. tauto.
  Qed.

  (* the selected nodes are a prefix of the candidates in stable descending score order *)
  Theorem pipeline_prefix (ch : gchain A) nodes assigned :
    Forall prefix_sel (g_selectors ch) ->
    exists cand, run_pipeline name ch nodes assigned = map name cand /\
      is_prefix cand (sort_desc (eff_score ch)
                       (filter (pass_all (g_filters ch)) (drop_assigned name nodes assigned))).
  Proof.
    intros Hsel. rewrite pipeline_spec. eexists. split; [reflexivity|].
    now apply run_selectors_prefix.
  Qed.

  Theorem pipeline_sorted (ch : gchain A) nodes assigned :
    Forall prefix_sel (g_selectors ch) ->
    exists cand, run_pipeline name ch nodes assigned = map name cand /\
      StronglySorted (ge_sc (eff_score ch)) cand.
  Proof.
    intros Hsel. destruct (pipeline_prefix ch nodes assigned Hsel) as [cand [E P]].
    exists cand. split; [assumption|].
    eapply is_prefix_sorted; [exact P | apply sort_desc_sorted].
  Qed.

  (* a Selector that never returns more than k candidates bounds the whole selection *)
  Theorem pipeline_bound (ch : gchain A) nodes assigned s k :
    Forall prefix_sel (g_selectors ch) -> In s (g_selectors ch) ->
    (forall l, (length (s l) <= k)%nat) ->
    (length (run_pipeline name ch nodes assigned) <= k)%nat.
  Proof.
    intros Hall Hin Hk. rewrite pipeline_spec, map_length.
    now apply (run_selectors_bound _ s k).
  Qed.

  (* --- batching --- *)
  Lemma chunks_acc_concat n (l : list A) : forall cur room,
    concat (chunks_acc n cur room l) = rev cur ++ l.
  Proof.
    induction l as [|x r IH]; intros cur room; simpl.
    - destruct cur; simpl; [reflexivity|]. now rewrite !app_nil_r.
    - destruct room; simpl; rewrite IH; simpl; [reflexivity|].
      now rewrite <- app_assoc.
  Qed.

  Lemma chunks_concat n (l : list A) : concat (chunks n l) = l.
  Proof. unfold chunks. now rewrite chunks_acc_concat. Qed.

  (* the batched pipeline computes exactly what the unbatched one computes, for every cluster size *)
  Theorem batched_eq (ch : gchain A) nodes assigned :
    run_pipeline_batched name ch nodes assigned = run_pipeline name ch nodes assigned.
  Proof.
    unfold run_pipeline_batched, run_pipeline. do 3 f_equal.
    rewrite (flat_map_ext _ (filter (fun n => negb (memb (name n) assigned) && pass_all (g_filters ch) n))).
    - rewrite flat_map_filter, chunks_concat, filter_stage_spec.
      unfold drop_assigned. clear. induction nodes as [|a l IH]; simpl; [reflexivity|].
      destruct (negb (memb (name a) assigned)); simpl; [|assumption].
      destruct (pass_all (g_filters ch) a); now rewrite IH.
    - intros b. rewrite filter_stage_spec. unfold drop_assigned.
      induction b as [|a l IH]; simpl; [reflexivity|].
      destruct (negb (memb (name a) assigned)); simpl; [|assumption].
      destruct (pass_all (g_filters ch) a); now rewrite IH.
  Qed.

  Lemma calc_step_batched b nodes st c :
    calc_step name b nodes st c = calc_step name false nodes st c.
  Proof. unfold calc_step. destruct b; [|reflexivity]. now rewrite batched_eq. Qed.

  Theorem calc_unbatched nodes cfgs : calc name nodes cfgs = calc_with name false nodes cfgs.
  Proof.
    unfold calc, calc_with. generalize ({| st_assigned := []; st_results := [] |}).
    induction cfgs as [|c cfgs IH]; intros st; simpl; [reflexivity|].
    now rewrite calc_step_batched, IH.
  Qed.

  (* --- the scheduler loop --- *)
  Definition good_cfgs (cfgs : list (Z * gchain A)) : Prop :=
    Forall (fun c => Forall prefix_sel (g_selectors (snd c))) cfgs.

  Definition disj (a b : list positive) : Prop := forall x, In x a -> In x b -> False.

  Definition calc_inv (st : cstate) : Prop :=
    (forall e, In e (st_results st) -> incl (snd e) (st_assigned st)) /\
    ForallOrdPairs (fun a b => disj (snd a) (snd b)) (st_results st).

  Lemma calc_step_inv nodes st c :
    Forall prefix_sel (g_selectors (snd c)) -> calc_inv st -> calc_inv (calc_step name false nodes st c).
  Proof.
    intros Hsel [Hincl Hfop]. unfold calc_step; cbn [st_assigned st_results]. split.
    - intros e [<- | He]; cbn [snd]; intros x Hx; apply in_or_app; [now left|].
      right. eapply Hincl; eauto.
    - constructor; [|assumption].
      apply Forall_forall. intros e He x Hx Hx'. cbn [snd] in Hx.
      destruct (pipeline_filtered _ _ _ _ Hsel Hx) as [n [_ [_ [Hna _]]]].
      apply Hna. eapply Hincl; eauto.
  Qed.

  Lemma calc_inv_holds nodes cfgs : good_cfgs cfgs -> calc_inv (calc name nodes cfgs).
  Proof.
    intros Hg. rewrite calc_unbatched. unfold calc_with. apply fold_left_inv.
    - split; [intros e []|constructor].
    - intros s c Hc Hs. apply calc_step_inv; [|assumption].
      unfold good_cfgs in Hg. rewrite Forall_forall in Hg. now apply Hg.
  Qed.

  (* two different runs of the loop never select a common node: for ALL node
     lists (duplicate names included), all chains, batched or not *)
  Theorem calc_disjoint nodes cfgs e1 e2 :
    good_cfgs cfgs ->
    In e1 (st_results (calc name nodes cfgs)) -> In e2 (st_results (calc name nodes cfgs)) ->
    e1 <> e2 -> disj (snd e1) (snd e2).
  Proof.
    intros Hg H1 H2 Hne. destruct (calc_inv_holds nodes cfgs Hg) as [_ Hfop].
    destruct (ForallOrdPairs_In Hfop _ _ H1 H2) as [E | [D | D]]; [contradiction | exact D |].
    intros x Ha Hb. exact (D x Hb Ha).
  Qed.

  (* whatever holds of every possible pipeline outcome of every configured
     scheduler holds of every entry of the assignments map *)
  Lemma calc_results_forall (Q : Z * list positive -> Prop) nodes cfgs :
    (forall c a, In c cfgs -> Q (fst c, run_pipeline name (snd c) nodes a)) ->
    forall e, In e (st_results (calc name nodes cfgs)) -> Q e.
  Proof.
    intros HQ. rewrite calc_unbatched. unfold calc_with.
    apply (fold_left_inv (calc_step name false nodes) (fun st => forall e, In e (st_results st) -> Q e)).
    - intros e [].
    - intros s c Hc Hs e [<- | He]; [now apply HQ | now apply Hs].
  Qed.
End PipelineFacts.

Lemma zinsert_In x y l : In y (zinsert x l) <-> y = x \/ In y l.
Proof.
  induction l as [|z r IH]; simpl; [intuition auto|].
  destruct (x <? z) eqn:E1; simpl; [intuition auto|].
  destruct (x =? z) eqn:E2; simpl.
  - apply Z.eqb_eq in E2. subst. intuition auto.
  - rewrite IH. intuition auto.
Qed.
Lemma zsort_dedup_In y l : In y (zsort_dedup l) <-> In y l.
Proof.
  induction l as [|x l IH]; simpl; [tauto|]. rewrite zinsert_In, IH. intuition auto.
Qed.

Lemma rlookup_In r s : In s (map fst r) -> In (s, rlookup r s) r.
Proof.
  induction r as [|[k v] t IH]; simpl; [tauto|].
  destruct (k =? s) eqn:E.
  - apply Z.eqb_eq in E. subst. now left.
  - intros [H | H]; [apply Z.eqb_neq in E; contradiction | right; now apply IH].
Qed.

Lemma final_map_In r e : In e (final_map r) -> In e r.
Proof.
  unfold final_map. rewrite in_map_iff. intros [s [<- Hs]].
  rewrite zsort_dedup_In in Hs. now apply rlookup_In.
Qed.

Lemma final_map_names r : map fst (final_map r) = zsort_dedup (map fst r).
Proof. unfold final_map. rewrite map_map. apply map_id. Qed.

Lemma limit_select_prefix mx : prefix_sel (@limit_select node mx).
Proof.
  intros l. unfold limit_select.
  destruct ((0 <? mx) && (mx <? Z.of_nat (length l))); [|apply is_prefix_refl].
  exists (skipn (Z.to_nat mx) l). symmetry. apply firstn_skipn.
Qed.

Lemma selectors_of_prefix ch : Forall prefix_sel (selectors_of ch).
Proof.
  unfold selectors_of. induction ch as [|rp ch IH]; simpl; [constructor|].
  destruct rp; simpl; try assumption. constructor; [apply limit_select_prefix | assumption].
Qed.

(* the positive maxNodes of a chain's node-limit policies *)
Lemma caps_In ch mx : In mx (caps ch) <-> 0 < mx /\ exists mn, In (RLimit mn mx) ch.
Proof.
  unfold caps. rewrite in_flat_map. split.
  - intros [rp [Hrp Hin]]. destruct rp as [| |mn mx']; try destruct Hin.
    destruct (0 <? mx') eqn:E; [|destruct Hin]. destruct Hin as [<- | []].
    apply Z.ltb_lt in E. split; [assumption|]. now exists mn.
  - intros [Hmx [mn Hin]]. exists (RLimit mn mx). split; [assumption|].
    rewrite (proj2 (Z.ltb_lt _ _) Hmx). now left.
Qed.

Lemma fold_min_le l : forall n, fold_left Z.min l n <= n.
Proof. induction l as [|y l IH]; intros n; simpl; [lia|]. specialize (IH (Z.min n y)). lia. Qed.

Lemma min_cap_le ch n mx : In mx (caps ch) -> min_cap ch n <= mx.
Proof.
  unfold min_cap. generalize n. induction (caps ch) as [|y l IH]; intros n0 Hin; [destruct Hin|].
  simpl. destruct Hin as [-> | Hin]; [|now apply IH].
  pose proof (fold_min_le l (Z.min n0 mx)). lia.
Qed.

Lemma fold_min_zero l : Forall (fun x => 0 < x) l -> fold_left Z.min l 0 = 0.
Proof. induction 1 as [|x l Hx _ IH]; simpl; [reflexivity|]. now rewrite Z.min_l by lia. Qed.

Lemma caps_pos ch : Forall (fun x => 0 < x) (caps ch).
Proof. apply Forall_forall. intros x Hx. now apply caps_In in Hx. Qed.

Lemma limit_select_len mx (c : list node) :
  Z.of_nat (length (limit_select mx c)) = if 0 <? mx then Z.min mx (Z.of_nat (length c)) else Z.of_nat (length c).
Proof.
  unfold limit_select. destruct (0 <? mx) eqn:E1; simpl; [|reflexivity].
  apply Z.ltb_lt in E1. destruct (mx <? Z.of_nat (length c)) eqn:E2.
  - apply Z.ltb_lt in E2. rewrite firstn_length, Nat.min_l by lia. lia.
  - apply Z.ltb_ge in E2. lia.
Qed.

(* the node-limit selectors of a chain keep exactly min(caps, |candidates|) candidates *)
Lemma run_selectors_limit_length ch : forall c : list node,
  Z.of_nat (length (run_selectors (selectors_of ch) c)) = min_cap ch (Z.of_nat (length c)).
Proof.
  unfold min_cap. induction ch as [|rp ch IH]; intros c; [reflexivity|].
  destruct rp as [w lo hi|w|mn mx]; try (exact (IH c)).
  change (selectors_of (RLimit mn mx :: ch)) with (limit_select mx :: selectors_of ch).
  change (caps (RLimit mn mx :: ch)) with ((if 0 <? mx then [mx] else []) ++ caps ch).
  cbn [run_selectors]. pose proof (limit_select_len mx c) as Hl.
  destruct (limit_select mx c) as [|x c'] eqn:Ec.
  - (* nothing left: the chain stops, and every later cap leaves 0 *)
    simpl in Hl. revert Hl. destruct (0 <? mx); simpl; intros Hl.
    + rewrite Z.min_comm, <- Hl. symmetry. apply fold_min_zero, caps_pos.
    + rewrite <- Hl. symmetry. apply fold_min_zero, caps_pos.
  - rewrite <- Ec in Hl |- *. rewrite IH, Hl. destruct (0 <? mx); simpl; [|reflexivity].
    now rewrite Z.min_comm.
Qed.

(* passing all Filterers of a chain = passing the filter of each of its allocation-rate policies *)
Lemma pass_all_filters_of look ch n :
  pass_all (filters_of look ch) n = true <->
  forall w lo hi, In (RAlloc w lo hi) ch -> alloc_filter look lo hi n = true.
Proof.
  unfold pass_all, filters_of. rewrite forallb_forall. split.
  - intros H w lo hi Hin. apply H, in_flat_map. exists (RAlloc w lo hi). split; [assumption | now left].
  - intros H f Hf. apply in_flat_map in Hf. destruct Hf as [[w lo hi|w|mn mx] [Hrp Hf]]; [|destruct Hf..].
    destruct Hf as [<- | []]. eapply H; eauto.
Qed.

Lemma manager_chains_good look specs : good_cfgs (manager_chains look specs).
Proof.
  unfold good_cfgs, manager_chains. apply Forall_forall. intros c Hc.
  apply in_map_iff in Hc. destruct Hc as [s [<- _]]. cbn. apply selectors_of_prefix.
Qed.

Lemma total_score_noscorer look ch n : existsb is_scorer ch = false -> total_score look ch n = 0%Q.
Proof.
  unfold total_score. generalize 0%Q. induction ch as [|rp ch IH]; intros q H; simpl; [reflexivity|].
  simpl in H. apply orb_false_iff in H. destruct H as [H1 H2].
  destruct rp; simpl in H1; try discriminate. now apply IH.
Qed.

Lemma eff_score_total look ch n : eff_score (to_gchain look ch) n = total_score look ch n.
Proof.
  unfold eff_score. cbn. destruct (existsb is_scorer ch) eqn:E; [reflexivity|].
  symmetry. now apply total_score_noscorer.
Qed.

Lemma assignments_In nodes m specs res e :
  assignments nodes m specs = Some res -> In e res ->
  In e (st_results (calc nname nodes (manager_chains (mlookup m) specs))).
Proof.
  unfold assignments. destruct (valid_config specs); [|discriminate].
  intros [= <-]. apply final_map_In.
Qed.

(* shards of different schedulers never overlap — every node list, every
   metric map, every scheduler list, above and below the batching threshold *)
Theorem shards_disjoint nodes m specs res s1 l1 s2 l2 x :
  assignments nodes m specs = Some res ->
  In (s1, l1) res -> In (s2, l2) res -> s1 <> s2 -> In x l1 -> In x l2 -> False.
Proof.
  intros Ha H1 H2 Hne.
  apply (assignments_In _ _ _ _ _ Ha) in H1. apply (assignments_In _ _ _ _ _ Ha) in H2.
  assert (Hd : (s1, l1) <> (s2, l2)) by congruence.
  exact (calc_disjoint nname nodes _ _ _ (manager_chains_good _ specs) H1 H2 Hd x).
Qed.

(* every entry of the assignments map is the outcome of its scheduler's chain on
   the node list, for some set of already assigned names *)
Lemma assignments_forall (Q : Z -> list positive -> Prop) nodes m specs res :
  assignments nodes m specs = Some res ->
  (forall s a, Q s (run_pipeline nname (to_gchain (mlookup m) (chain_of specs s)) nodes a)) ->
  forall s l, In (s, l) res -> Q s l.
Proof.
  intros Ha HQ s l Hin. apply (assignments_In _ _ _ _ _ Ha) in Hin. revert Hin.
  apply (calc_results_forall nname (fun e => Q (fst e) (snd e))).
  intros c a Hc. unfold manager_chains in Hc. apply in_map_iff in Hc. destruct Hc as [sp [<- _]]. apply HQ.
Qed.

(* a shard never exceeds the maxNodes of any node-limit policy of its scheduler, for every cluster size *)
Theorem shard_bounded nodes m specs res s l mn mx :
  assignments nodes m specs = Some res -> In (s, l) res ->
  In (RLimit mn mx) (chain_of specs s) -> 0 < mx -> Z.of_nat (length l) <= mx.
Proof.
  intros Ha Hin. revert s l Hin mn mx. refine (assignments_forall _ _ _ _ _ Ha _).
  intros s a mn mx Hl Hmx. rewrite pipeline_spec, map_length. cbn [to_gchain g_selectors].
  rewrite run_selectors_limit_length. apply min_cap_le, caps_In. eauto.
Qed.

(* every assigned node exists and passed ALL filter policies of its scheduler *)
Theorem shard_passes_filters nodes m specs res s l x :
  assignments nodes m specs = Some res -> In (s, l) res -> In x l ->
  exists n, In n nodes /\ nname n = x /\ pass_all (filters_of (mlookup m) (chain_of specs s)) n = true.
Proof.
  intros Ha Hin. revert s l Hin x. refine (assignments_forall _ _ _ _ _ Ha _).
  intros s a x Hx. apply pipeline_filtered in Hx; [|cbn; apply selectors_of_prefix].
  destruct Hx as [n [Hn [Hname [_ Hp]]]]. now exists n.
Qed.

Theorem shard_eligible nodes m specs res s l x :
  assignments nodes m specs = Some res -> In (s, l) res -> In x l ->
  exists n, In n nodes /\ nname n = x /\
    forall w lo hi, In (RAlloc w lo hi) (chain_of specs s) -> alloc_filter (mlookup m) lo hi n = true.
Proof.
  intros Ha Hin Hx. destruct (shard_passes_filters _ _ _ _ _ _ _ Ha Hin Hx) as [n [Hn [Hname Hp]]].
  exists n. split; [assumption|]. split; [assumption|]. now apply pass_all_filters_of.
Qed.

(* a shard is a prefix of the still-unassigned eligible nodes in stable
   descending order of the weighted score — in particular it is sorted *)
Theorem shard_order nodes m specs res s l :
  assignments nodes m specs = Some res -> In (s, l) res ->
  exists assigned cand,
    l = map nname cand /\
    is_prefix cand
      (sort_desc (total_score (mlookup m) (chain_of specs s))
         (filter (pass_all (filters_of (mlookup m) (chain_of specs s))) (drop_assigned nname nodes assigned))) /\
    StronglySorted (ge_sc (total_score (mlookup m) (chain_of specs s))) cand.
Proof.
  intros Ha Hin. revert s l Hin. refine (assignments_forall _ _ _ _ _ Ha _). intros s a.
  destruct (pipeline_prefix nname (to_gchain (mlookup m) (chain_of specs s)) nodes a) as [cand [E P]];
    [cbn; apply selectors_of_prefix|].
  exists a, cand. split; [exact E|].
  rewrite (sort_desc_ext _ (total_score (mlookup m) (chain_of specs s))) in P by apply eff_score_total.
  split; [exact P|].
  eapply is_prefix_sorted; [exact P | apply sort_desc_sorted].
Qed.

Lemma assignments_pointwise nodes nodes' m m' specs :
  (forall s a, In s specs ->
     run_pipeline nname (to_gchain (mlookup m) (chain_of specs (ss_name s))) nodes a =
     run_pipeline nname (to_gchain (mlookup m') (chain_of specs (ss_name s))) nodes' a) ->
  assignments nodes m specs = assignments nodes' m' specs.
Proof.
  unfold assignments. destruct (valid_config specs); [|reflexivity]. intros H.
  do 3 f_equal. rewrite !calc_unbatched. unfold calc_with, manager_chains.
  generalize {| st_assigned := []; st_results := [] |}. revert H. generalize (chain_of specs). intros f H.
  induction specs as [|s specs' IH]; intros st; simpl; [reflexivity|].
  rewrite IH by (intros; apply H; now right). f_equal.
  unfold calc_step. cbn [fst snd]. now rewrite H by now left.
Qed.

(* the metrics enter only through lookups (not through the order in which the provider's map is listed) *)
Lemma total_score_ext look look' ch n :
  (forall k, look k = look' k) -> total_score look ch n = total_score look' ch n.
Proof.
  intros H. unfold total_score. generalize 0%Q.
  induction ch as [|rp ch IH]; intros q; simpl; [reflexivity|].
  rewrite IH. do 2 f_equal. destruct rp; try reflexivity.
  unfold alloc_score. now rewrite H.
Qed.

Lemma run_pipeline_look_ext look look' ch nodes a :
  (forall k, look k = look' k) ->
  run_pipeline nname (to_gchain look ch) nodes a = run_pipeline nname (to_gchain look' ch) nodes a.
Proof.
  intros H. rewrite !pipeline_spec. cbn [to_gchain g_filters g_selectors]. do 2 f_equal.
  rewrite 2!(sort_desc_ext (eff_score (to_gchain _ ch)) _ _ (eff_score_total _ ch)).
  rewrite (sort_desc_ext _ _ _ (fun n => total_score_ext look look' ch n H)). f_equal.
  apply filter_ext. intros n. unfold pass_all, filters_of.
  induction ch as [|[w lo hi|w|mn mx] ch IH]; simpl; [reflexivity| |assumption..].
  rewrite IH. unfold alloc_filter. now rewrite H.
Qed.

Lemma zdistinct_NoDup l : zdistinct l = true -> NoDup l.
Proof.
  induction l as [|x l IH]; simpl; intros H; [constructor|].
  apply andb_true_iff in H. destruct H as [H1 H2]. constructor; [|now apply IH].
  rewrite <- existsb_Zeqb. now destruct (existsb (Z.eqb x) l).
Qed.

(* every policy chain initialises (no unknown policy, no rejected arguments) *)
Definition all_init (specs : list sspec) : Prop :=
  Forall (fun c => init_chain (snd c) <> None) (sched_configs specs).

(* ParseShardingConfig after fix 4209844 *)
Lemma valid_config_facts specs :
  valid_config specs = true ->
  (forall s, In s specs -> valid_spec s = true) /\ all_init specs /\ NoDup (map ss_name specs).
Proof.
  unfold valid_config. intros H. apply andb_prop in H. destruct H as [H H3].
  apply andb_prop in H. destruct H as [H1 H2]. repeat split.
  - unfold valid_specs in H1. destruct specs; [discriminate|]. rewrite forallb_forall in H1. exact H1.
  - unfold all_init, sched_configs. apply Forall_forall. intros c Hc. apply in_map_iff in Hc.
    destruct Hc as [s [<- Hs]]. cbn [snd]. rewrite forallb_forall in H2. specialize (H2 s Hs).
    unfold chain_inits in H2. now destruct (init_chain (map to_ref (apply_defaults s))).
  - now apply zdistinct_NoDup.
Qed.

Lemma assignments_valid nodes m specs res :
  assignments nodes m specs = Some res -> valid_config specs = true.
Proof. unfold assignments. destruct (valid_config specs); [reflexivity | discriminate]. Qed.

Lemma init_chain_In ps : forall ch p,
  init_chain ps = Some ch -> In p ps -> exists rp, init_policy p = Some rp /\ In rp ch.
Proof.
  induction ps as [|q ps IH]; intros ch p Hc Hin; [destruct Hin|].
  simpl in Hc. destruct (init_policy q) as [rq|] eqn:Eq; [|discriminate].
  destruct (init_chain ps) as [ch'|] eqn:Ec; [|discriminate]. injection Hc as <-.
  destruct Hin as [-> | Hin].
  - exists rq. split; [assumption | now left].
  - destruct (IH ch' p eq_refl Hin) as [r [H1 H2]]. exists r. split; [assumption | now right].
Qed.

Lemma init_all_other n cfgs : forall cache,
  ~ In n (map fst cfgs) -> clookup (init_all cfgs cache) n = clookup cache n.
Proof.
  induction cfgs as [|[k qs] cfgs IH]; intros cache Hn; simpl; [reflexivity|].
  destruct (init_chain qs); [|reflexivity]. rewrite IH by (simpl in Hn; tauto).
  simpl. destruct (k =? n) eqn:E; [|reflexivity]. apply Z.eqb_eq in E. simpl in Hn. tauto.
Qed.

Lemma init_all_lookup cfgs : forall cache n ps,
  NoDup (map fst cfgs) -> Forall (fun c => init_chain (snd c) <> None) cfgs ->
  In (n, ps) cfgs -> init_chain ps = Some (clookup (init_all cfgs cache) n).
Proof.
  induction cfgs as [|[k qs] cfgs IH]; intros cache n ps Hnd Hall Hin; [destruct Hin|].
  simpl in Hnd. inversion Hnd as [|? ? Hk Hnd']; subst. inversion Hall as [|? ? Hq Hall']; subst.
  simpl in Hq. simpl. destruct (init_chain qs) as [cq|] eqn:Eq; [|congruence].
  destruct Hin as [E | Hin]; [|now apply IH].
  injection E as -> ->. rewrite init_all_other by assumption. simpl. now rewrite Z.eqb_refl.
Qed.

(* with distinct scheduler names and chains that all initialise, the chain the
   manager caches for a scheduler is its configured chain, initialised *)
Lemma chain_of_init specs sp :
  NoDup (map ss_name specs) -> all_init specs -> In sp specs ->
  init_chain (map to_ref (apply_defaults sp)) = Some (chain_of specs (ss_name sp)).
Proof.
  intros Hnd Hall Hsp. unfold chain_of, policy_cache. apply init_all_lookup; [|exact Hall|].
  - unfold sched_configs. now rewrite map_map.
  - unfold sched_configs. apply in_map_iff. now exists sp.
Qed.

(* what Initialize makes of a node-limit / an allocation-rate entry, when it accepts it *)
Lemma init_policy_limit p rp : ps_name p = P_LIMIT -> init_policy p = Some rp ->
  rp = RLimit (arg_or (ps_args p) 3 0) (arg_or (ps_args p) 4 0).
Proof. unfold init_policy. intros ->. cbn. destruct (_ || _); congruence. Qed.

Lemma init_policy_alloc p rp : ps_name p = P_ALLOC -> init_policy p = Some rp ->
  rp = RAlloc (ps_weight p) (round_util (arg_or (ps_args p) 1 0)) (round_util (arg_or (ps_args p) 2 0)).
Proof. unfold init_policy. intros ->. cbn. destruct (_ || _); congruence. Qed.

(* the node-limit entry applyPolicyDefaults synthesises from the deprecated scheduler-level minNodes / maxNodes *)
Definition legacy_limit (s : sspec) : pspec :=
  {| ps_name := P_LIMIT; ps_weight := 0; ps_args := [(3, ss_minn s); (4, ss_maxn s)] |}.

Lemma apply_defaults_limit s :
  0 < ss_maxn s -> has_policy (ss_policies s) P_LIMIT = false -> In (legacy_limit s) (apply_defaults s).
Proof.
  intros Hmx Hno. unfold apply_defaults.
  set (p1 := match ss_policies s with [] => _ | _ => _ end).
  assert (Hp1 : has_policy p1 P_LIMIT = false).
  { subst p1. destruct (ss_policies s) as [|p ps]; [|exact Hno].
    destruct (ss_prefer s); reflexivity. }
  rewrite Hp1. replace (0 <? ss_maxn s) with true by (symmetry; now apply Z.ltb_lt).
  rewrite orb_true_r. simpl. apply in_or_app. right. now left.
Qed.

(* the deprecated maxNodes caps the shard whenever that entry is synthesised (no node-limit
   policy of the scheduler's own).  The second and third hypothesis follow from the first
   (valid_config_facts); C17_legacy_max_nodes_bound is stated without them. *)
Theorem legacy_max_nodes_bound nodes m specs res sp l :
  assignments nodes m specs = Some res ->
  NoDup (map ss_name specs) -> all_init specs ->
  In sp specs -> has_policy (ss_policies sp) P_LIMIT = false -> 0 < ss_maxn sp ->
  In (ss_name sp, l) res -> Z.of_nat (length l) <= ss_maxn sp.
Proof.
  intros Ha Hnd Hall Hsp Hno Hmx Hin.
  destruct (init_chain_In _ _ _ (chain_of_init specs sp Hnd Hall Hsp)
              (in_map to_ref _ _ (apply_defaults_limit sp Hmx Hno))) as [rp [Hi Hc]].
  rewrite (init_policy_limit (to_ref (legacy_limit sp)) rp eq_refl Hi) in Hc.
  exact (shard_bounded nodes m specs res _ l _ _ Ha Hin Hc Hmx).
Qed.

(* inputs of the witnesses in Props/C17.v (pre-fix batched path: C17_bounded_old_batched_refuted,
   C17_order_old_batched_refuted; node order: C17_node_order_refuted): n unlabelled nodes named 1..n *)
Definition plain_nodes (n : nat) : list node :=
  map (fun i => {| nname := Pos.of_nat i; nwarm := false |}) (seq 1 n).

Definition spec_limit1 : sspec :=
  {| ss_name := 1; ss_cpumin := 0; ss_cpumax := 1000; ss_prefer := false; ss_minn := 0; ss_maxn := 0;
     ss_args := []; ss_policies := [{| ps_name := P_LIMIT; ps_weight := 0; ps_args := [(3, 0); (4, 1)] |}] |}.

Definition spec_legacy3 : sspec :=
  {| ss_name := 1; ss_cpumin := 0; ss_cpumax := 1000; ss_prefer := false; ss_minn := 0; ss_maxn := 3;
     ss_args := []; ss_policies := [] |}.

Definition rising_metrics (n : nat) : metrics :=
  map (fun i => (Pos.of_nat i, Some (10 * Z.of_nat i))) (seq 1 n).

(* non-vacuity: a configuration that is accepted, initialises, and yields non-empty, capped shards *)
Definition demo_specs : list sspec :=
  [ {| ss_name := 2; ss_cpumin := 0; ss_cpumax := 600; ss_prefer := true; ss_minn := 1; ss_maxn := 2;
       ss_args := []; ss_policies := [] |};
    {| ss_name := 1; ss_cpumin := 0; ss_cpumax := 1000; ss_prefer := false; ss_minn := 0; ss_maxn := 0;
       ss_args := [];
       ss_policies := [ {| ps_name := P_ALLOC; ps_weight := 2; ps_args := [(1, 300); (2, 1000)] |};
                        {| ps_name := P_WARM; ps_weight := 1; ps_args := [] |};
                        {| ps_name := P_LIMIT; ps_weight := 0; ps_args := [(4, 2)] |} ] |} ].

Definition demo_nodes : list node :=
  [ {| nname := 1; nwarm := false |}; {| nname := 2; nwarm := true |}; {| nname := 3; nwarm := false |};
    {| nname := 4; nwarm := true |}; {| nname := 5; nwarm := false |}; {| nname := 6; nwarm := false |} ].

Definition demo_metrics : metrics :=
  [ (1%positive, Some 100); (2%positive, Some 500); (3%positive, Some 550); (4%positive, Some 900);
    (5%positive, Some 904); (6%positive, None) ].

Example demo_assignments :
  assignments demo_nodes demo_metrics demo_specs = Some [(1, [4; 5]%positive); (2, [2; 3]%positive)] /\ NoDup (map ss_name demo_specs) /\ all_init demo_specs.
Proof.
  split; [vm_compute; reflexivity|]. split.
  - repeat constructor; simpl; intuition discriminate.
  - unfold all_init. vm_compute. repeat constructor; discriminate.
Qed.

Lemma disjointb_spec a b : disjointb a b = true <-> disj a b.
Proof.
  unfold disjointb, disj. rewrite forallb_forall. split.
  - intros H x Ha Hb. specialize (H x Ha). apply negb_true_iff, memb_false in H. contradiction.
  - intros H x Ha. apply negb_true_iff, memb_false. intros Hb. exact (H x Ha Hb).
Qed.

Lemma law_disjoint_complete (r : result) :
  (forall e1 e2, In e1 r -> In e2 r -> fst e1 <> fst e2 -> disj (snd e1) (snd e2)) ->
  law_disjoint r = true.
Proof.
  induction r as [|[s l] t IH]; intros H; simpl; [reflexivity|].
  apply andb_true_iff. split.
  - apply forallb_forall. intros e He. destruct (fst e =? s) eqn:E; [reflexivity|]. simpl.
    apply disjointb_spec. apply Z.eqb_neq in E.
    apply (H (s, l) e); simpl; auto.
  - apply IH. intros e1 e2 H1 H2. apply H; now right.
Qed.

Lemma pos_list_eqb_refl l : pos_list_eqb l l = true.
Proof. induction l as [|x l IH]; simpl; [reflexivity|]. now rewrite Pos.eqb_refl, IH. Qed.

Lemma law_deterministic_refl (r : result) : law_deterministic r r = true.
Proof.
  unfold law_deterministic. induction r as [|[s l] r IH]; simpl; [reflexivity|].
  now rewrite Z.eqb_refl, pos_list_eqb_refl, IH.
Qed.
