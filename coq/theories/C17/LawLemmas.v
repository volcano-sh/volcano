(* C17 — the order and count laws accept the model's results for ALL inputs;
   the selected list of every scheduler, as a whole object: which nodes, in
   which order, nothing better skipped; independence from Go map iteration order. *)
From Coq Require Import ZArith List Bool QArith Lia Permutation Sorted.
From V Require Import C17.Model C17.Laws C17.Lemmas.
Import ListNotations.
Open Scope Z_scope.

Lemma nodupb_NoDup l : nodupb l = true <-> NoDup l.
Proof.
  induction l as [|x l IH]; simpl; [split; [constructor | reflexivity]|].
  rewrite andb_true_iff, negb_true_iff, memb_false, IH. split; [intros []; now constructor | now inversion 1].
Qed.

Lemma znodupb_NoDup l : znodupb l = true <-> NoDup l.
Proof.
  induction l as [|x l IH]; simpl; [split; [constructor | reflexivity]|].
  rewrite andb_true_iff, negb_true_iff, <- not_true_iff_false, existsb_Zeqb, IH.
  split; [intros []; now constructor | now inversion 1].
Qed.

Lemma sorted_app_cross {A} (R : A -> A -> Prop) (a b : list A) x y :
  StronglySorted R (a ++ b) -> In x a -> In y b -> R x y.
Proof.
  induction a as [|h a IH]; simpl; intros H Hx Hy; [destruct Hx|].
  inversion H as [|? ? Hs Hf]; subst. destruct Hx as [-> | Hx].
  - rewrite Forall_forall in Hf. apply Hf. apply in_or_app. now right.
  - now apply IH.
Qed.

Lemma sorted_app_l {A} (R : A -> A -> Prop) (a b : list A) :
  StronglySorted R (a ++ b) -> StronglySorted R a.
Proof. intros H. eapply is_prefix_sorted; [|exact H]. now exists b. Qed.

Lemma fold_left_ext {S C} (g h : S -> C -> S) l : (forall s c, g s c = h s c) ->
  forall s, fold_left g l s = fold_left h l s.
Proof. intros H. induction l as [|c l IH]; intros s; simpl; [reflexivity|]. now rewrite H, IH. Qed.

(* the (index, element) pairs of a list *)
Lemma indexed_from_snd {A} (l : list A) : forall k, map snd (combine (seq k (length l)) l) = l.
Proof. induction l as [|x l IH]; intros k; simpl; [reflexivity|]. now rewrite IH. Qed.

Definition idx_lt {A} (a b : nat * A) : Prop := (fst a < fst b)%nat.

Lemma indexed_from_sorted {A} (l : list A) : forall k,
  StronglySorted idx_lt (combine (seq k (length l)) l) /\
  Forall (fun p => (k <= fst p)%nat) (combine (seq k (length l)) l).
Proof.
  induction l as [|x l IH]; intros k; simpl; [split; constructor|].
  destruct (IH (S k)) as [Hs Hf]. split.
  - constructor; [assumption|]. eapply Forall_impl; [|exact Hf]. intros p Hp. unfold idx_lt. simpl in *. lia.
  - constructor; [simpl; lia|]. eapply Forall_impl; [|exact Hf]. intros p Hp. simpl in *. lia.
Qed.

Lemma filter_sorted {A} (R : A -> A -> Prop) (p : A -> bool) l :
  StronglySorted R l -> StronglySorted R (filter p l).
Proof.
  induction 1 as [|x l Hs IH Hf]; simpl; [constructor|].
  destruct (p x); [|assumption]. constructor; [assumption|].
  apply Forall_forall. intros y Hy. apply filter_In in Hy. rewrite Forall_forall in Hf. now apply Hf.
Qed.

Lemma map_filter_snd {A I} (p : A -> bool) (l : list (I * A)) :
  map snd (filter (fun q => p (snd q)) l) = filter p (map snd l).
Proof.
  induction l as [|q l IH]; simpl; [reflexivity|]. destruct (p (snd q)); simpl; now rewrite IH.
Qed.

(* sorting pairs by a score of the second component sorts the second components *)
Lemma insert_desc_map_snd {A I} (sc : A -> Q) (x : I * A) l :
  map snd (insert_desc (fun q => sc (snd q)) x l) = insert_desc sc (snd x) (map snd l).
Proof.
  induction l as [|y r IH]; simpl; [reflexivity|].
  destruct (qgt (sc (snd y)) (sc (snd x))); simpl; [now rewrite IH | reflexivity].
Qed.

Lemma sort_desc_map_snd {A I} (sc : A -> Q) (l : list (I * A)) :
  map snd (sort_desc (fun q => sc (snd q)) l) = sort_desc sc (map snd l).
Proof.
  induction l as [|x l IH]; simpl; [reflexivity|]. now rewrite insert_desc_map_snd, IH.
Qed.

(* the sort orders (index, node) pairs lexicographically: higher score first, equal scores by position in the node list *)

Definition lexP (sc : node -> Q) (a b : inode) : Prop := precedes sc a b = true.

Lemma lexP_intro sc (a b : inode) :
  (sc (snd b) <= sc (snd a))%Q -> (fst a < fst b)%nat -> lexP sc a b.
Proof.
  intros Hle Hlt. unfold lexP, precedes.
  destruct (qgt (sc (snd a)) (sc (snd b))) eqn:E; [reflexivity|]. simpl.
  apply qgt_false in E. apply andb_true_iff. split.
  - apply Qeq_bool_iff. now apply Qle_antisym.
  - now apply Nat.ltb_lt.
Qed.

Lemma lexP_le sc (a b : inode) : lexP sc a b -> (sc (snd b) <= sc (snd a))%Q.
Proof.
  unfold lexP, precedes. intros H. apply orb_true_iff in H. destruct H as [H | H].
  - apply qgt_true in H. now apply Qlt_le_weak.
  - apply andb_true_iff in H. destruct H as [H _]. apply Qeq_bool_iff in H. rewrite H. apply Qle_refl.
Qed.

Lemma insert_desc_lex sc (x : inode) l :
  StronglySorted (lexP sc) l -> Forall (fun z => (fst x < fst z)%nat) l ->
  StronglySorted (lexP sc) (insert_desc (fun q => sc (snd q)) x l).
Proof.
  induction l as [|y r IH]; simpl; intros Hs Hf; [repeat constructor|].
  inversion Hs as [|? ? Hr Hy]; subst. inversion Hf as [|? ? Hxy Hxr]; subst.
  destruct (qgt (sc (snd y)) (sc (snd x))) eqn:E.
  - constructor; [now apply IH|].
    eapply Permutation_Forall; [symmetry; apply insert_desc_perm|].
    constructor; [|assumption]. unfold lexP, precedes. now rewrite E.
  - apply qgt_false in E. constructor; [assumption|].
    constructor; [now apply lexP_intro|].
    rewrite Forall_forall in Hy, Hxr. apply Forall_forall. intros z Hz.
    apply lexP_intro; [|now apply Hxr].
    eapply Qle_trans; [apply lexP_le; now apply Hy | exact E].
Qed.

Lemma sort_desc_lex sc (l : list inode) :
  StronglySorted idx_lt l -> StronglySorted (lexP sc) (sort_desc (fun q => sc (snd q)) l).
Proof.
  induction 1 as [|x l Hs IH Hf]; simpl; [constructor|].
  apply insert_desc_lex; [assumption|].
  eapply Permutation_Forall; [symmetry; apply sort_desc_perm|]. exact Hf.
Qed.

Lemma chain_ok_sorted sc l : StronglySorted (lexP sc) l -> chain_ok sc l = true.
Proof.
  induction 1 as [|a l Hs IH Hf]; [reflexivity|].
  destruct l as [|b t]; [reflexivity|]. cbn [chain_ok].
  inversion Hf; subst. apply andb_true_iff. split; assumption.
Qed.

Lemma filter_filter_andb {A} (p q : A -> bool) l :
  filter q (filter p l) = filter (fun x => p x && q x) l.
Proof.
  induction l as [|x l IH]; simpl; [reflexivity|].
  destruct (p x); simpl; [|assumption]. destruct (q x); now rewrite IH.
Qed.

Definition nm (p : inode) : positive := nname (snd p).

Lemma indexed_snd nodes : map snd (indexed nodes) = nodes.
Proof. unfold indexed. apply indexed_from_snd. Qed.

Lemma indexed_names nodes : map nm (indexed nodes) = map nname nodes.
Proof. rewrite <- (indexed_snd nodes) at 2. now rewrite map_map. Qed.

Lemma eligible_snd look ch nodes a :
  map snd (eligible_of look ch (indexed nodes) a) =
  filter (pass_all (filters_of look ch)) (drop_assigned nname nodes a).
Proof.
  unfold eligible_of, drop_assigned.
  rewrite (map_filter_snd (fun n => negb (memb (nname n) a) && pass_all (filters_of look ch) n)).
  now rewrite indexed_snd, filter_filter_andb.
Qed.

Lemma eligible_sorted look ch nodes a : StronglySorted idx_lt (eligible_of look ch (indexed nodes) a).
Proof. unfold eligible_of. apply filter_sorted. unfold indexed. apply indexed_from_sorted. Qed.

Lemma find_unique (L : list inode) p :
  NoDup (map nm L) -> In p L -> find (fun q => Pos.eqb (nm q) (nm p)) L = Some p.
Proof.
  induction L as [|q L IH]; simpl; intros Hnd Hin; [destruct Hin|].
  inversion Hnd as [|? ? Hq Hnd']; subst. destruct Hin as [-> | Hin].
  - now rewrite Pos.eqb_refl.
  - destruct (Pos.eqb (nm q) (nm p)) eqn:E; [|now apply IH].
    apply Pos.eqb_eq in E. exfalso. apply Hq. rewrite E. now apply in_map.
Qed.

Lemma find_all_names (L T : list inode) :
  NoDup (map nm L) -> incl T L -> find_all L (map nm T) = Some T.
Proof.
  intros Hnd. induction T as [|p T IH]; intros Hin; simpl; [reflexivity|].
  change (fun p0 : inode => Pos.eqb (nname (snd p0)) (nm p)) with (fun q : inode => Pos.eqb (nm q) (nm p)).
  rewrite find_unique; [|assumption | apply Hin; now left].
  rewrite IH; [reflexivity|]. intros x Hx. apply Hin. now right.
Qed.

(* the tolerant order (law 108): the exact order implies it *)
(* nodes of one class (same utilisation entry, same warmup flag) have the same weighted score *)
Lemma same_class_score look ch a b :
  same_class look a b = true -> total_score look ch a = total_score look ch b.
Proof.
  unfold same_class. intros H. apply andb_true_iff in H. destruct H as [H1 H2]. apply Bool.eqb_prop in H2.
  assert (H1' : look (nname a) = look (nname b)).
  { unfold opt_z_eqb in H1. destruct (look (nname a)), (look (nname b)); try discriminate; [|reflexivity].
    apply Z.eqb_eq in H1. now subst. }
  unfold total_score. apply fold_left_ext. intros q rp.
  destruct rp as [w lo hi|w|mn mx]; [| |reflexivity].
  - unfold alloc_score. now rewrite H1'.
  - unfold warm_score. now rewrite H2.
Qed.

Lemma precedes_tol_of_precedes look ch (a b : inode) :
  precedes (total_score look ch) a b = true -> precedes_tol look (total_score look ch) a b = true.
Proof.
  set (sc := total_score look ch). unfold precedes, precedes_tol. intros H.
  apply orb_true_iff. right. apply orb_true_iff in H. apply andb_true_iff.
  assert (Hle : forall x y : Q, (x <= y)%Q -> (x <= y + tol)%Q).
  { intros x y Hxy. rewrite <- (Qplus_0_r x). apply Qplus_le_compat; [assumption | now unfold tol, Qle]. }
  destruct H as [H | H].
  - apply qgt_true in H. split.
    + apply negb_true_iff, qgt_false, Hle. now apply Qlt_le_weak.
    + destruct (same_class look (snd a) (snd b)) eqn:E; [|reflexivity].
      exfalso. apply (same_class_score look ch) in E. fold sc in E. rewrite E in H. eapply Qlt_irrefl; eauto.
  - apply andb_true_iff in H. destruct H as [H1 H2]. apply Qeq_bool_iff in H1. split.
    + apply negb_true_iff, qgt_false, Hle. rewrite H1. apply Qle_refl.
    + rewrite H2. apply orb_true_r.
Qed.

Lemma chain_ok_tol_sorted look ch l :
  StronglySorted (lexP (total_score look ch)) l -> chain_ok_tol look (total_score look ch) l = true.
Proof.
  induction 1 as [|a l Hs IH Hf]; [reflexivity|].
  destruct l as [|b t]; [reflexivity|]. cbn [chain_ok_tol].
  inversion Hf; subst. apply andb_true_iff. split; [now apply precedes_tol_of_precedes | assumption].
Qed.

Section OneScheduler.
  Variable look : positive -> option Z.
  Variable ch : list rpol.
  Variable nodes : list node.
  Hypothesis Hnd : NoDup (map nname nodes).
  Variable a : list positive.

  Let sc := total_score look ch.
  Let E := eligible_of look ch (indexed nodes) a.
  Let S := sort_desc (fun q : inode => sc (snd q)) E.
  Let sel := run_pipeline nname (to_gchain look ch) nodes a.

  Lemma S_perm : Permutation S E.
  Proof. apply sort_desc_perm. Qed.

  Lemma S_lex : StronglySorted (lexP sc) S.
  Proof. apply sort_desc_lex, eligible_sorted. Qed.

  Lemma sel_spec : sel = map nname (run_selectors (selectors_of ch) (map snd S)).
  Proof.
    unfold sel, S. rewrite pipeline_spec. cbn [to_gchain g_filters g_selectors].
    do 2 f_equal. etransitivity; [|symmetry; apply (sort_desc_map_snd sc E)].
    unfold E. rewrite eligible_snd. apply sort_desc_ext. apply eff_score_total.
  Qed.

  (* the selection is the first k entries of the sorted eligible (index, node) list *)
  Lemma sel_split : exists T rest, S = T ++ rest /\ sel = map nm T /\
    map snd T = run_selectors (selectors_of ch) (map snd S).
  Proof.
    destruct (run_selectors_prefix _ (selectors_of_prefix ch) (map snd S)) as [t Ht].
    set (c := run_selectors (selectors_of ch) (map snd S)) in *.
    exists (firstn (length c) S), (skipn (length c) S).
    assert (Hc : map snd (firstn (length c) S) = c).
    { rewrite <- firstn_map. transitivity (firstn (length c) (c ++ t)); [f_equal; exact Ht|].
      rewrite firstn_app, Nat.sub_diag, firstn_all. simpl. apply app_nil_r. }
    split; [symmetry; apply firstn_skipn|]. split; [|exact Hc].
    transitivity (map nname (map snd (firstn (length c) S))); [|apply map_map].
    rewrite sel_spec. f_equal. symmetry. exact Hc.
  Qed.

  Lemma indexed_nodup : NoDup (map nm (indexed nodes)).
  Proof. now rewrite indexed_names. Qed.

  (* what any such split T ++ rest of the sorted list gives *)
  Section Split.
    Variables T rest : list inode.
    Hypothesis HS : S = T ++ rest.

    Lemma T_incl : incl T (indexed nodes).
    Proof.
      intros p Hp. assert (Hin : In p E) by (apply (Permutation_in _ S_perm); rewrite HS; apply in_or_app; now left).
      unfold E, eligible_of in Hin. now apply filter_In in Hin.
    Qed.

    Lemma T_found : find_all (indexed nodes) (map nm T) = Some T.
    Proof. apply find_all_names; [apply indexed_nodup | apply T_incl]. Qed.

    (* an eligible node that was not taken comes after every taken one *)
    Lemma left_behind p y : In p E -> ~ In (nm p) (map nm T) -> In y T -> lexP sc y p.
    Proof.
      intros Hp Hn Hy. pose proof S_lex as Hlex. rewrite HS in Hlex.
      apply (Permutation_in _ (Permutation_sym S_perm)) in Hp. rewrite HS in Hp.
      apply in_app_or in Hp. destruct Hp as [Hp | Hp]; [elim Hn; now apply in_map|].
      exact (sorted_app_cross _ _ _ _ _ Hlex Hy Hp).
    Qed.

    Lemma T_sorted : StronglySorted (lexP sc) T.
    Proof. apply (sorted_app_l _ T rest). rewrite <- HS. apply S_lex. Qed.
  End Split.

  Theorem sched_order_ok_model : sched_order_ok look ch (indexed nodes) a sel = true.
  Proof.
    destruct sel_split as [T [rest [HS [Hsel _]]]]. unfold sched_order_ok. fold sc E.
    rewrite Hsel, (T_found T rest HS).
    apply andb_true_iff. split; [apply chain_ok_sorted, (T_sorted T rest HS)|].
    destruct (rev T) as [|y t] eqn:Er; [reflexivity|].
    apply forallb_forall. intros p Hp. apply orb_true_iff.
    destruct (memb (nm p) (map nm T)) eqn:Em; [now left | right]. apply memb_false in Em.
    apply (left_behind T rest HS p y Hp Em). apply in_rev. rewrite Er. now left.
  Qed.

  Theorem sched_order_tol_ok_model : sched_order_tol_ok look ch (indexed nodes) a sel = true.
  Proof.
    destruct sel_split as [T [rest [HS [Hsel _]]]]. unfold sched_order_tol_ok. fold sc E.
    rewrite Hsel, (T_found T rest HS).
    apply andb_true_iff. split; [apply chain_ok_tol_sorted, (T_sorted T rest HS)|].
    apply forallb_forall. intros p Hp. apply orb_true_iff.
    destruct (memb (nm p) (map nm T)) eqn:Em; [now left | right]. apply memb_false in Em.
    apply forallb_forall. intros y Hy. apply precedes_tol_of_precedes, (left_behind T rest HS p y Hp Em Hy).
  Qed.

  Theorem sched_count_ok_model : sched_count_ok look ch (indexed nodes) a sel = true.
  Proof.
    destruct sel_split as [T [rest [HS [Hsel Hc]]]]. unfold sched_count_ok. fold E.
    apply andb_true_iff. split.
    - apply forallb_forall. intros x Hx. rewrite Hsel in Hx. apply in_map_iff in Hx.
      destruct Hx as [p [<- Hp]]. apply existsb_exists. exists p. split; [|apply Pos.eqb_refl].
      apply (Permutation_in _ S_perm). rewrite HS. apply in_or_app. now left.
    - apply Z.eqb_eq.
      assert (H1 : length (map nm T) = length (run_selectors (selectors_of ch) (map snd S))).
      { rewrite <- Hc. transitivity (length T); [apply map_length | symmetry; apply map_length]. }
      assert (H2 : length (map snd S) = length E).
      { transitivity (length S); [apply map_length | apply Permutation_length, S_perm]. }
      rewrite Hsel, H1, run_selectors_limit_length, H2. reflexivity.
  Qed.

  (* nothing better was skipped: every eligible unassigned node that was not
     taken comes after every taken node in (score desc, node-list position) order *)
  Theorem sel_no_skip p y :
    In p E -> ~ In (nm p) sel -> In y (indexed nodes) -> In (nm y) sel -> lexP sc y p.
  Proof.
    destruct sel_split as [T [rest [HS [Hsel _]]]]. rewrite Hsel. intros Hp Hnp Hy Hny.
    apply (left_behind T rest HS p y Hp Hnp).
    apply in_map_iff in Hny. destruct Hny as [q [Hq HqT]].
    pose proof (find_unique _ y indexed_nodup Hy) as H1.
    pose proof (find_unique _ q indexed_nodup (T_incl T rest HS q HqT)) as H2.
    rewrite Hq in H2. congruence.
  Qed.
End OneScheduler.

Lemma calc_results_app {A} (name : A -> positive) nodes (cfgs : list (Z * gchain A)) : forall st,
  exists new, st_results (fold_left (calc_step name false nodes) cfgs st) = new ++ st_results st /\
              map fst new = rev (map fst cfgs).
Proof.
  induction cfgs as [|c cfgs IH]; intros st; simpl; [now exists []|].
  destruct (IH (calc_step name false nodes st c)) as [new [H1 H2]].
  exists (new ++ [(fst c, run_pipeline name (snd c) nodes (st_assigned st))]). split.
  - rewrite H1. unfold calc_step. cbn [st_results]. now rewrite <- app_assoc.
  - rewrite map_app, H2. reflexivity.
Qed.

Lemma rlookup_app_notin (new rest : list (Z * list positive)) n :
  ~ In n (map fst new) -> rlookup (new ++ rest) n = rlookup rest n.
Proof.
  induction new as [|[k v] new IH]; simpl; intros H; [reflexivity|].
  destruct (k =? n) eqn:E; [apply Z.eqb_eq in E; tauto|]. apply IH. tauto.
Qed.

Lemma rlookup_notin (R : list (Z * list positive)) n : ~ In n (map fst R) -> rlookup R n = [].
Proof. intros H. rewrite <- (app_nil_r R). now apply rlookup_app_notin. Qed.

Lemma rlookup_final_map R n : rlookup (final_map R) n = rlookup R n.
Proof.
  destruct (in_dec Z.eq_dec n (map fst R)) as [Hin | Hn].
  - unfold final_map. apply zsort_dedup_In in Hin.
    induction (zsort_dedup (map fst R)) as [|k ks IH]; [destruct Hin|]. simpl.
    destruct (k =? n) eqn:E; [apply Z.eqb_eq in E; now subst|]. apply Z.eqb_neq in E.
    apply IH. now destruct Hin.
  - rewrite !rlookup_notin; [reflexivity | exact Hn | now rewrite final_map_names, zsort_dedup_In].
Qed.

Definition cfg_of (look : positive -> option Z) (f : Z -> list rpol) (s : sspec) : Z * gchain node :=
  (ss_name s, to_gchain look (f (ss_name s))).

(* what the schedulers before this one took, read off the result map *)
Definition taken_from (R : list (Z * list positive)) (pre : list sspec) (t0 : list positive) : list positive :=
  fold_left (fun t s => rlookup R (ss_name s) ++ t) pre t0.

Lemma taken_from_ext R R' pre : (forall n, rlookup R n = rlookup R' n) ->
  forall t0, taken_from R pre t0 = taken_from R' pre t0.
Proof.
  intros H. unfold taken_from. induction pre as [|s pre IH]; intros t0; simpl; [reflexivity|].
  now rewrite H, IH.
Qed.

Section Loop.
  Variable look : positive -> option Z.
  Variable f : Z -> list rpol.
  Variable nodes : list node.

  Let step := calc_step nname false nodes.
  Let pipe (s : sspec) (a : list positive) := run_pipeline nname (to_gchain look (f (ss_name s))) nodes a.

  Lemma core_head s tl st :
    NoDup (map ss_name (s :: tl)) ->
    rlookup (st_results (fold_left step (map (cfg_of look f) (s :: tl)) st)) (ss_name s) = pipe s (st_assigned st).
  Proof.
    intros Hnd. simpl. destruct (calc_results_app nname nodes (map (cfg_of look f) tl) (step st (cfg_of look f s))) as [new [H1 H2]].
    fold step in H1. rewrite H1. rewrite rlookup_app_notin.
    - unfold step, calc_step. cbn [st_results cfg_of fst snd rlookup]. now rewrite Z.eqb_refl.
    - rewrite H2, map_map. cbn [cfg_of fst]. rewrite <- in_rev. now inversion Hnd.
  Qed.

  Lemma core : forall suffix st pre sp post,
    NoDup (map ss_name suffix) -> suffix = pre ++ sp :: post ->
    let R := st_results (fold_left step (map (cfg_of look f) suffix) st) in
    rlookup R (ss_name sp) = pipe sp (taken_from R pre (st_assigned st)).
  Proof.
    induction suffix as [|s tl IH]; intros st pre sp post Hnd Heq R; [now destruct pre|].
    destruct pre as [|s' pre'].
    - simpl in Heq. injection Heq as -> ->. unfold R. now apply core_head.
    - simpl in Heq. injection Heq as <- ->.
      pose proof (core_head s (pre' ++ sp :: post) st Hnd) as Hh. fold R in Hh.
      inversion Hnd as [|? ? _ Hnd']; subst.
      pose proof (IH (step st (cfg_of look f s)) pre' sp post Hnd' eq_refl) as Ht.
      simpl in R. fold R in Ht. rewrite Ht. unfold taken_from at 2. simpl. fold (taken_from R pre').
      rewrite Hh. reflexivity.
  Qed.
End Loop.

Lemma assignments_results nodes m specs res :
  assignments nodes m specs = Some res ->
  res = final_map (st_results (fold_left (calc_step nname false nodes)
                                 (map (cfg_of (mlookup m) (chain_of specs)) specs)
                                 {| st_assigned := []; st_results := [] |})).
Proof.
  unfold assignments. destruct (valid_config specs); [|discriminate]. intros [= <-].
  now rewrite calc_unbatched.
Qed.

(* every configured scheduler has its entry in the assignments map *)
Lemma assignments_entry nodes m specs res sp :
  assignments nodes m specs = Some res -> In sp specs -> In (ss_name sp, rlookup res (ss_name sp)) res.
Proof.
  intros Ha Hsp. apply rlookup_In. rewrite (assignments_results _ _ _ _ Ha), final_map_names, zsort_dedup_In.
  destruct (calc_results_app nname nodes (map (cfg_of (mlookup m) (chain_of specs)) specs)
              {| st_assigned := []; st_results := [] |}) as [new [H1 H2]].
  cbn [st_results] in H1. rewrite app_nil_r in H1. rewrite H1, H2, <- in_rev, map_map.
  now apply (in_map ss_name).
Qed.

(* the entry of a scheduler is its pipeline run on the nodes that the result
   itself gives to the schedulers configured before it (names are distinct in
   an accepted configuration) *)
Lemma assignments_core nodes m specs res pre sp post :
  assignments nodes m specs = Some res -> specs = pre ++ sp :: post ->
  rlookup res (ss_name sp) =
  run_pipeline nname (to_gchain (mlookup m) (chain_of specs (ss_name sp))) nodes (taken_from res pre []).
Proof.
  intros Ha Heq. destruct (valid_config_facts specs (assignments_valid _ _ _ _ Ha)) as [_ [_ Hnd]].
  pose proof (assignments_results _ _ _ _ Ha) as Hres. set (R := st_results _) in Hres.
  assert (Hr : forall n, rlookup res n = rlookup R n) by (intros n; now rewrite Hres, rlookup_final_map).
  rewrite (taken_from_ext res R pre Hr), Hr.
  exact (core (mlookup m) (chain_of specs) nodes specs _ pre sp post Hnd Heq).
Qed.

(* any per-scheduler check that every pipeline outcome passes is passed by the law built from it *)
Lemma per_sched_model ok nodes m specs res :
  (forall ch a, NoDup (map nname nodes) ->
     ok (mlookup m) ch (indexed nodes) a (run_pipeline nname (to_gchain (mlookup m) ch) nodes a) = true) ->
  assignments nodes m specs = Some res -> per_sched ok nodes m specs res = true.
Proof.
  intros Hok Ha. unfold per_sched.
  destruct (nodupb (map nname nodes) && znodupb (map ss_name specs)) eqn:G; [|reflexivity].
  apply andb_true_iff in G. destruct G as [G _]. apply nodupb_NoDup in G.
  match goal with |- fst (fold_left ?F _ _) = _ =>
    assert (H : forall pre post, specs = pre ++ post -> fold_left F pre (true, []) = (true, taken_from res pre [])) end.
  { induction pre as [|sp pre IH] using rev_ind; intros post Heq; [reflexivity|].
    rewrite <- app_assoc in Heq. unfold taken_from. rewrite !fold_left_app, (IH _ Heq). cbn [fold_left fst snd].
    fold (taken_from res pre []). rewrite (assignments_core _ _ _ _ _ _ _ Ha Heq) at 1. now rewrite Hok. }
  now rewrite (H specs [] (eq_sym (app_nil_r specs))).
Qed.

(* conversely, on ANY result (e.g. a Go result): acceptance means the per-scheduler
   check holds for EVERY scheduler, with exactly the nodes the result gives to the schedulers before it *)
Lemma per_sched_fold (ok : (positive -> option Z) -> list rpol -> list inode -> list positive -> list positive -> bool)
      (look : positive -> option Z) (f : Z -> list rpol) (inodes : list inode) (r : result) specs : forall acc,
  fst (fold_left (fun (acc : bool * list positive) s =>
                    let l := rlookup r (ss_name s) in
                    (fst acc && ok look (f (ss_name s)) inodes (snd acc) l, l ++ snd acc))
                 specs acc) = true ->
  fst acc = true /\
  forall pre sp post, specs = pre ++ sp :: post ->
    ok look (f (ss_name sp)) inodes (taken_from r pre (snd acc)) (rlookup r (ss_name sp)) = true.
Proof.
  induction specs as [|s specs IH]; intros acc H; simpl in H.
  - split; [assumption|]. intros pre sp post Heq. now destruct pre.
  - destruct (IH _ H) as [H1 H2]. cbn [fst snd] in H1, H2. apply andb_true_iff in H1. destruct H1 as [Ha Hs].
    split; [assumption|]. intros pre sp post Heq. destruct pre as [|s' pre].
    + simpl in Heq. injection Heq as <- <-. exact Hs.
    + simpl in Heq. injection Heq as <- ->. exact (H2 pre sp post eq_refl).
Qed.

(* the node-metric map: any listing order of the same map gives the same assignments *)
Lemma mlookup_notin (m : metrics) k : ~ In k (map fst m) -> mlookup m k = None.
Proof.
  induction m as [|[k' v] m IH]; simpl; intros H; [reflexivity|].
  destruct (Pos.eqb k' k) eqn:E; [apply Pos.eqb_eq in E; tauto | apply IH; tauto].
Qed.

Lemma mlookup_perm (m m' : metrics) :
  Permutation m m' -> NoDup (map fst m) -> forall k, mlookup m k = mlookup m' k.
Proof.
  induction 1 as [| [k v] m m' Hp IH | [k1 v1] [k2 v2] m | m m' m'' H1 IH1 H2 IH2]; intros Hnd n.
  - reflexivity.
  - simpl. inversion Hnd; subst. now rewrite IH.
  - simpl. destruct (Pos.eqb k1 n) eqn:E1, (Pos.eqb k2 n) eqn:E2; try reflexivity.
    apply Pos.eqb_eq in E1, E2. subst. inversion Hnd as [|? ? Hx _]; subst. simpl in Hx. tauto.
  - rewrite IH1 by assumption. apply IH2.
    eapply Permutation_NoDup; [|exact Hnd]. now apply Permutation_map.
Qed.

(* the order of the node list: when no two nodes of a scheduler tie in score the sorted
   list, hence every shard, is the same for every order of the node list *)
Lemma Permutation_filter' {A} (p : A -> bool) l l' : Permutation l l' -> Permutation (filter p l) (filter p l').
Proof.
  induction 1 as [| x l l' _ IH | x y l | l l' l'' _ IH1 _ IH2]; simpl.
  - constructor.
  - destruct (p x); [now constructor | assumption].
  - destruct (p x), (p y); try reflexivity. apply perm_swap.
  - now transitivity (filter p l').
Qed.

Lemma strict_sorted_unique {A} (R : A -> A -> Prop) (l1 : list A) : forall l2,
  (forall x y, R x y -> R y x -> False) -> (forall x, R x x -> False) ->
  StronglySorted R l1 -> StronglySorted R l2 -> Permutation l1 l2 -> l1 = l2.
Proof.
  induction l1 as [|h1 t1 IH]; intros l2 Has Hir S1 S2 Hp.
  - apply Permutation_nil in Hp. now subst.
  - destruct l2 as [|h2 t2]; [apply Permutation_sym, Permutation_nil in Hp; discriminate|].
    inversion S1 as [|? ? S1' F1]; subst. inversion S2 as [|? ? S2' F2]; subst.
    rewrite Forall_forall in F1, F2.
    assert (Hh : h1 = h2).
    { assert (I1 : In h1 (h2 :: t2)) by (eapply Permutation_in; [exact Hp | now left]).
      assert (I2 : In h2 (h1 :: t1)) by (eapply Permutation_in; [apply Permutation_sym; exact Hp | now left]).
      destruct I1 as [E | I1]; [now symmetry|]. destruct I2 as [E | I2]; [assumption|].
      exfalso. exact (Has h1 h2 (F1 _ I2) (F2 _ I1)). }
    subst h2. f_equal. apply IH; auto. eapply Permutation_cons_inv; eauto.
Qed.

Definition tie_free (sc : node -> Q) (l : list node) : Prop :=
  forall x y, In x l -> In y l -> (sc x == sc y)%Q -> x = y.

Lemma tie_free_perm sc l l' : Permutation l l' -> tie_free sc l -> tie_free sc l'.
Proof. intros Hp H x y Hx Hy. apply H; eapply Permutation_in; try eassumption; now symmetry. Qed.

(* without repeated elements and without ties, descending is strictly descending *)
Lemma sorted_strict (sc : node -> Q) t :
  StronglySorted (ge_sc sc) t -> NoDup t -> tie_free sc t -> StronglySorted (fun a b => (sc b < sc a)%Q) t.
Proof.
  induction 1 as [|a t Ht IH Hf]; intros Hnd Htf; [constructor|].
  inversion Hnd as [|? ? Ha Hnt]; subst. constructor.
  - apply IH; [assumption|]. intros x y Hx Hy. apply Htf; now right.
  - rewrite Forall_forall in *. intros b Hb. destruct (Qle_lt_or_eq _ _ (Hf b Hb)) as [Hlt | Heq]; [assumption|].
    elim Ha. rewrite (Htf a b); [assumption | now left | now right | now symmetry].
Qed.

(* so the sorted list does not depend on the order of the input *)
Lemma sort_desc_perm_invariant (sc : node -> Q) l l' :
  NoDup l -> tie_free sc l -> Permutation l l' -> sort_desc sc l = sort_desc sc l'.
Proof.
  intros Hnd Htf Hp.
  assert (Hs : forall k, Permutation k l -> StronglySorted (fun a b => (sc b < sc a)%Q) (sort_desc sc k)).
  { intros k Hk. assert (Hk' : Permutation l (sort_desc sc k)) by (now rewrite sort_desc_perm).
    apply sorted_strict; [apply sort_desc_sorted | exact (Permutation_NoDup Hk' Hnd) | exact (tie_free_perm _ _ _ Hk' Htf)]. }
  apply (strict_sorted_unique (fun a b => (sc b < sc a)%Q)).
  - intros x y H1 H2. exact (Qlt_irrefl _ (Qlt_trans _ _ _ H1 H2)).
  - intros x. apply Qlt_irrefl.
  - apply Hs. reflexivity.
  - apply Hs. now symmetry.
  - rewrite !sort_desc_perm. exact Hp.
Qed.

Lemma run_pipeline_node_perm look ch nodes nodes' a :
  NoDup nodes -> tie_free (total_score look ch) nodes -> Permutation nodes nodes' ->
  run_pipeline nname (to_gchain look ch) nodes a = run_pipeline nname (to_gchain look ch) nodes' a.
Proof.
  intros Hnd Htf Hp. rewrite !pipeline_spec. cbn [to_gchain g_filters g_selectors]. do 2 f_equal.
  rewrite 2!(sort_desc_ext (eff_score (to_gchain look ch)) (total_score look ch)) by apply eff_score_total.
  apply sort_desc_perm_invariant.
  - unfold drop_assigned. now apply NoDup_filter, NoDup_filter.
  - intros x y Hx Hy. apply Htf.
    + apply filter_In in Hx. destruct Hx as [Hx _]. apply drop_assigned_In in Hx. tauto.
    + apply filter_In in Hy. destruct Hy as [Hy _]. apply drop_assigned_In in Hy. tauto.
  - unfold drop_assigned. now apply Permutation_filter', Permutation_filter'.
Qed.

(* the repaired listing (fix f5a4653): nodes sorted by name *)

Lemma ins_node_perm x l : Permutation (ins_node x l) (x :: l).
Proof.
  induction l as [|y r IH]; simpl; [reflexivity|].
  destruct (Pos.leb (nname x) (nname y)); [reflexivity|]. rewrite IH. apply perm_swap.
Qed.

Lemma list_nodes_perm l : Permutation (list_nodes l) l.
Proof. induction l as [|x l IH]; simpl; [reflexivity|]. rewrite ins_node_perm. now constructor. Qed.

Definition name_le (a b : node) : Prop := (nname a <= nname b)%positive.

Lemma ins_node_sorted x l : StronglySorted name_le l -> StronglySorted name_le (ins_node x l).
Proof.
  induction l as [|y r IH]; simpl; intros H; [repeat constructor|].
  inversion H as [|? ? Hr Hy]; subst. destruct (Pos.leb (nname x) (nname y)) eqn:E.
  - apply Pos.leb_le in E. constructor; [assumption|]. constructor; [exact E|].
    eapply Forall_impl; [|exact Hy]. intros z Hz. unfold name_le in *. lia.
  - apply Pos.leb_gt in E. constructor; [now apply IH|].
    eapply Permutation_Forall; [symmetry; apply ins_node_perm|].
    constructor; [unfold name_le; lia | assumption].
Qed.

Lemma list_nodes_sorted l : StronglySorted name_le (list_nodes l).
Proof. induction l as [|x l IH]; simpl; [constructor | now apply ins_node_sorted]. Qed.

Definition name_lt (a b : node) : Prop := (nname a < nname b)%positive.

Lemma sorted_le_lt l : NoDup (map nname l) -> StronglySorted name_le l -> StronglySorted name_lt l.
Proof.
  induction l as [|a l IH]; intros Hnd Hs; [constructor|].
  simpl in Hnd. inversion Hnd as [|? ? Ha Hnd']; subst. inversion Hs as [|? ? Hs' Hf]; subst.
  constructor; [now apply IH|]. rewrite Forall_forall in Hf. apply Forall_forall. intros b Hb.
  specialize (Hf b Hb). unfold name_le, name_lt in *.
  assert (nname a <> nname b) by (intros E; apply Ha; rewrite E; now apply in_map). lia.
Qed.

(* whatever order the lister returns the nodes in, the controller works on the same list *)
Theorem list_nodes_order_independent nodes nodes' :
  Permutation nodes nodes' -> NoDup (map nname nodes) -> list_nodes nodes = list_nodes nodes'.
Proof.
  intros Hp Hnd. apply (strict_sorted_unique name_lt).
  - unfold name_lt. intros x y H1 H2. lia.
  - unfold name_lt. intros x H. lia.
  - apply sorted_le_lt; [|apply list_nodes_sorted].
    eapply Permutation_NoDup; [|exact Hnd]. apply Permutation_map. symmetry. apply list_nodes_perm.
  - apply sorted_le_lt; [|apply list_nodes_sorted].
    eapply Permutation_NoDup; [|exact Hnd]. apply Permutation_map.
    transitivity nodes'; [exact Hp | symmetry; apply list_nodes_perm].
  - rewrite !list_nodes_perm. exact Hp.
Qed.

Lemma reconcile_fresh specs mg nodes m :
  new_manager specs = Some mg ->
  fst (reconcile mg nodes m) = mg /\ assignments nodes m specs = Some (snd (reconcile mg nodes m)).
Proof.
  unfold new_manager, assignments. destruct (valid_config specs); [|discriminate].
  intros [= <-]. split; [reflexivity|]. unfold reconcile, manager_chains. cbn [snd].
  now rewrite map_map.
Qed.

