(* C17 — the publication step (applyAssignment / assignmentNeedsUpdate): what
   holds of the published NodeShards for all histories, and what does not. *)
From Coq Require Import ZArith List Bool QArith Lia.
From V Require Import C17.Model C17.Laws C17.Lemmas C17.LawLemmas.
Import ListNotations.
Open Scope Z_scope.

Lemma plookup_In pub s v : plookup pub s = Some v -> In (s, v) pub.
Proof.
  induction pub as [|[k w] t IH]; simpl; [discriminate|].
  destruct (k =? s) eqn:E; [|intros H; right; now apply IH].
  apply Z.eqb_eq in E. intros [= ->]. subst. now left.
Qed.

Lemma publish_In pub calc e : In e (publish pub calc) -> In e calc \/ In e pub.
Proof.
  unfold publish. rewrite in_map_iff. intros [[s l] [<- Hin]]. unfold publish_entry. cbn [fst snd].
  destruct (plookup pub s) as [cur|] eqn:E; [|now left].
  destruct (needs_update cur l); [now left|]. right. now apply plookup_In.
Qed.

Lemma publish_names pub calc : map fst (publish pub calc) = map fst calc.
Proof. unfold publish. rewrite map_map. reflexivity. Qed.

(* a shard that is (re)published shows the current calculation; one that is not keeps its old content *)
Lemma publish_current pub calc s l :
  In (s, l) calc ->
  plookup pub s = None \/ (exists cur, plookup pub s = Some cur /\ needs_update cur l = true) ->
  In (s, l) (publish pub calc).
Proof.
  intros Hin H. unfold publish. apply in_map_iff. exists (s, l). split; [|assumption].
  unfold publish_entry. cbn [fst snd]. destruct H as [-> | [cur [-> ->]]]; reflexivity.
Qed.

Lemma publish_kept pub calc s l cur :
  In (s, l) calc -> plookup pub s = Some cur -> needs_update cur l = false -> In (s, cur) (publish pub calc).
Proof.
  intros Hin H1 H2. unfold publish. apply in_map_iff. exists (s, l). split; [|assumption].
  unfold publish_entry. cbn [fst snd]. now rewrite H1, H2.
Qed.

(* every published shard is the calculated shard of the same scheduler at this
   or an earlier sync of the same history — never anything else *)
Lemma pub_history_origin mg steps : forall pub0 k pubk e,
  nth_error (pub_history mg pub0 steps) k = Some pubk -> In e pubk ->
  In e pub0 \/
  exists j ns m, (j <= k)%nat /\ nth_error steps j = Some (ns, m) /\
                 In e (snd (reconcile mg (list_nodes ns) m)).
Proof.
  induction steps as [|[ns0 m0] steps IH]; intros pub0 k pubk e Hk He; [now destruct k|].
  assert (H0 : In e (publish pub0 (snd (reconcile mg (list_nodes ns0) m0))) ->
               In e pub0 \/ exists j ns m, (j <= k)%nat /\ nth_error ((ns0, m0) :: steps) j = Some (ns, m) /\
                                           In e (snd (reconcile mg (list_nodes ns) m))).
  { intros H. apply publish_In in H. destruct H as [H | H]; [|now left].
    right. exists 0%nat, ns0, m0. split; [lia|]. now split. }
  simpl in Hk. destruct k as [|k]; simpl in Hk.
  - injection Hk as <-. auto.
  - destruct (IH _ _ _ _ Hk He) as [H | [j [ns [m [Hj [Hn Hin]]]]]]; [auto|].
    right. exists (S j), ns, m. split; [lia|]. now split.
Qed.

(* --- assignmentNeedsUpdate, exactly --- *)
Lemma needs_update_spec p c :
  needs_update p c = true <->
  length p <> length c \/ (Nat.max 1 (length c / 10) <= new_count p c)%nat.
Proof.
  unfold needs_update. destruct (length p =? length c)%nat eqn:E; simpl.
  - apply Nat.eqb_eq in E. rewrite Nat.leb_le. intuition.
  - apply Nat.eqb_neq in E. intuition.
Qed.

(* input of C17_published_disjoint_eligible_refuted (Props/C17.v; known finding
   C17-publish-hysteresis-keeps-stale-node): schedulers 1 = allocation-rate
   [0, 0.6], 2 = allocation-rate [0.7, 1.0]; nodes 1..20 at 0.30, node 21 at
   0.65, node 22 at 0.90; then node 1 rises to 0.90 and node 21 falls to 0.30.
   Scheduler 1's calculation swaps one node of twenty: not published.
   Scheduler 2's grows: published.  Node 1 is in both NodeShards, and fails
   scheduler 1's filter. *)
Definition hyst_specs : list sspec :=
  [ {| ss_name := 1; ss_cpumin := 0; ss_cpumax := 1000; ss_prefer := false; ss_minn := 0; ss_maxn := 0;
       ss_args := []; ss_policies := [{| ps_name := P_ALLOC; ps_weight := 1; ps_args := [(1, 0); (2, 600)] |}] |};
    {| ss_name := 2; ss_cpumin := 0; ss_cpumax := 1000; ss_prefer := false; ss_minn := 0; ss_maxn := 0;
       ss_args := []; ss_policies := [{| ps_name := P_ALLOC; ps_weight := 1; ps_args := [(1, 700); (2, 1000)] |}] |} ].

Definition hyst_metrics (u1 u21 : Z) : metrics :=
  map (fun i => (Pos.of_nat i, Some (if (i =? 1)%nat then u1 else if (i =? 21)%nat then u21
                                       else if (i =? 22)%nat then 900 else 300)))
      (seq 1 22).

Definition hyst_steps : list (list node * metrics) :=
  [ (plain_nodes 22, hyst_metrics 300 650); (plain_nodes 22, hyst_metrics 900 300) ].

(* the worker's fallback (calculateAndApplyAssignment after 3dd3dc2) *)

Lemma fallback_loop_spec nodes cfgs : forall st s l,
  NoDup (map fst cfgs) -> fallback_loop nodes cfgs (st_assigned st) s = Some l ->
  rlookup (st_results (fold_left (calc_step nname false nodes) cfgs st)) s = l.
Proof.
  induction cfgs as [|c r IH]; intros st s l Hnd H; [discriminate|].
  simpl in Hnd. inversion Hnd as [|? ? Hc Hnd']; subst. simpl in H. simpl fold_left.
  destruct (fst c =? s) eqn:E.
  - apply Z.eqb_eq in E. injection H as <-.
    destruct (calc_results_app nname nodes r (calc_step nname false nodes st c)) as [new [H1 H2]].
    rewrite H1, rlookup_app_notin by (rewrite H2, <- in_rev; now rewrite <- E).
    unfold calc_step. cbn [st_results rlookup]. now rewrite E, Z.eqb_refl.
  - apply (IH (calc_step nname false nodes st c)); assumption.
Qed.

Lemma fallback_loop_some nodes cfgs : forall assigned s,
  In s (map fst cfgs) -> exists l, fallback_loop nodes cfgs assigned s = Some l.
Proof.
  induction cfgs as [|c r IH]; intros assigned s Hin; [destruct Hin|]. simpl.
  destruct (fst c =? s) eqn:E; [eexists; reflexivity|].
  destruct Hin as [H | H]; [apply Z.eqb_neq in E; contradiction | now apply IH].
Qed.

Lemma fallback_loop_In nodes cfgs : forall assigned s l,
  fallback_loop nodes cfgs assigned s = Some l -> In s (map fst cfgs).
Proof.
  induction cfgs as [|c r IH]; intros assigned s l H; [discriminate|]. simpl in H.
  destruct (fst c =? s) eqn:E; [apply Z.eqb_eq in E; now left | right; eapply IH; eauto].
Qed.

Lemma mg_cfgs_names specs mg m : new_manager specs = Some mg -> map fst (mg_cfgs mg m) = map ss_name specs.
Proof.
  unfold new_manager, mg_cfgs. destruct (valid_config specs); [|discriminate]. intros [= <-]. now rewrite !map_map.
Qed.

(* for every scheduler the fallback computes exactly the scheduler's component of
   the global calculation on the same (listed) nodes and metrics — nothing else
   enters: not the NodeShard lister's content, not the order in which keys are processed *)
Theorem fallback_eq_global specs mg nodes m s :
  new_manager specs = Some mg -> In s (map ss_name specs) ->
  fallback mg nodes m s = Some (rlookup (snd (reconcile mg (list_nodes nodes) m)) s).
Proof.
  intros Hmg Hs. pose proof (mg_cfgs_names specs mg m Hmg) as Hcn.
  assert (Hnd : NoDup (map ss_name specs)).
  { unfold new_manager in Hmg. destruct (valid_config specs) eqn:Ev; [|discriminate]. apply (valid_config_facts specs Ev). }
  unfold fallback.
  destruct (fallback_loop_some (list_nodes nodes) (mg_cfgs mg m) [] s) as [l Hl]; [now rewrite Hcn|].
  rewrite Hl. f_equal. unfold reconcile. cbn [snd]. rewrite rlookup_final_map, calc_unbatched.
  unfold calc_with. symmetry.
  apply (fallback_loop_spec (list_nodes nodes) (mg_cfgs mg m) {| st_assigned := []; st_results := [] |} s l);
    [now rewrite Hcn | exact Hl].
Qed.

(* ... so whatever the fallback returns is an entry of that calculation *)
Lemma fallback_In specs mg nodes m s l :
  new_manager specs = Some mg -> fallback mg nodes m s = Some l ->
  In (s, l) (snd (reconcile mg (list_nodes nodes) m)).
Proof.
  intros Hmg Hf. assert (Hs : In s (map ss_name specs)).
  { rewrite <- (mg_cfgs_names specs mg m Hmg). exact (fallback_loop_In _ _ _ _ _ Hf). }
  rewrite (fallback_eq_global specs mg nodes m s Hmg Hs) in Hf. injection Hf as <-.
  apply in_map_iff in Hs. destruct Hs as [sp [<- Hsp]].
  exact (assignments_entry _ _ _ _ sp (proj2 (reconcile_fresh specs mg _ m Hmg)) Hsp).
Qed.

(* the op-level controller model (selector 8): what holds *)

Lemma plookup_pinsert api s l t :
  plookup (pinsert api s l) t = if s =? t then Some l else plookup api t.
Proof.
  induction api as [|[k v] r IH]; simpl.
  - destruct (s =? t); reflexivity.
  - destruct (s <? k) eqn:E1; simpl.
    + destruct (s =? t); reflexivity.
    + destruct (s =? k) eqn:E2; simpl.
      * apply Z.eqb_eq in E2. subst k. destruct (s =? t); reflexivity.
      * rewrite IH. destruct (k =? t) eqn:E3; [|reflexivity].
        apply Z.eqb_eq in E3. subst k. now rewrite E2.
Qed.

(* applyAssignment for one scheduler, entry by entry *)
Lemma apply6_lookup api hidden s l t :
  plookup (apply6 api hidden s l) t =
  if s =? t then
    match plookup api s with
    | None => Some l
    | Some cur => if existsb (Z.eqb s) hidden then Some cur
                  else if needs_update cur l then Some l else Some cur
    end
  else plookup api t.
Proof.
  unfold apply6. destruct (plookup api s) as [cur|] eqn:E.
  - destruct (existsb (Z.eqb s) hidden).
    + destruct (s =? t) eqn:Et; [apply Z.eqb_eq in Et; now subst|reflexivity].
    + destruct (needs_update cur l).
      * apply plookup_pinsert.
      * destruct (s =? t) eqn:Et; [apply Z.eqb_eq in Et; now subst|reflexivity].
  - apply plookup_pinsert.
Qed.

Lemma plookup_notin (r : list (Z * list positive)) s : ~ In s (map fst r) -> plookup r s = None.
Proof.
  induction r as [|[k v] r IH]; simpl; intros H; [reflexivity|].
  destruct (k =? s) eqn:E; [apply Z.eqb_eq in E; tauto | apply IH; tauto].
Qed.

(* a global sync with nothing hidden: every NodeShard of the calculation shows the
   calculated shard unless the damping threshold refuses the update — entry by entry *)
Lemma sync_fold_lookup (calc : list (Z * list positive)) : forall api t,
  NoDup (map fst calc) ->
  plookup (fold_left (fun a e => apply6 a [] (fst e) (snd e)) calc api) t =
  match plookup calc t with
  | None => plookup api t
  | Some l => match plookup api t with
              | None => Some l
              | Some cur => if needs_update cur l then Some l else Some cur
              end
  end.
Proof.
  induction calc as [|[s l] r IH]; intros api t Hnd; [reflexivity|].
  simpl in Hnd. inversion Hnd as [|? ? Hs Hnd']; subst. simpl fold_left. rewrite IH by assumption.
  cbn [fst snd plookup]. rewrite apply6_lookup. cbn [existsb].
  destruct (s =? t) eqn:E.
  - apply Z.eqb_eq in E. subst t.
    rewrite (plookup_notin r s Hs). destruct (plookup api s) as [cur|]; [|reflexivity].
    destruct (needs_update cur l); reflexivity.
  - reflexivity.
Qed.

Lemma zinsert_sorted x l : Sorted.StronglySorted Z.lt l -> Sorted.StronglySorted Z.lt (zinsert x l).
Proof.
  induction l as [|y r IH]; simpl; intros H; [repeat constructor|].
  inversion H as [|? ? Hr Hy]; subst.
  destruct (x <? y) eqn:E1.
  - apply Z.ltb_lt in E1. constructor; [assumption|]. constructor; [assumption|].
    eapply Forall_impl; [|exact Hy]. intros z Hz. lia.
  - destruct (x =? y) eqn:E2; [assumption|].
    apply Z.ltb_ge in E1. apply Z.eqb_neq in E2. constructor; [now apply IH|].
    apply Forall_forall. intros z Hz. apply zinsert_In in Hz. destruct Hz as [-> | Hz]; [lia|].
    rewrite Forall_forall in Hy. now apply Hy.
Qed.

Lemma zsort_dedup_sorted l : Sorted.StronglySorted Z.lt (zsort_dedup l).
Proof. induction l as [|x l IH]; simpl; [constructor | now apply zinsert_sorted]. Qed.

Lemma sorted_lt_nodup l : Sorted.StronglySorted Z.lt l -> NoDup l.
Proof.
  induction 1 as [|x l Hs IH Hf]; constructor; [|assumption].
  intros Hin. rewrite Forall_forall in Hf. specialize (Hf x Hin). lia.
Qed.

Lemma final_map_names_nodup r : NoDup (map fst (final_map r)).
Proof. rewrite final_map_names. apply sorted_lt_nodup, zsort_dedup_sorted. Qed.

Lemma plookup_rlookup_final r s l : plookup (final_map r) s = Some l -> In (s, l) (final_map r).
Proof. apply plookup_In. Qed.

Lemma In_plookup (calc : list (Z * list positive)) s l :
  NoDup (map fst calc) -> In (s, l) calc -> plookup calc s = Some l.
Proof.
  induction calc as [|[k v] r IH]; simpl; intros Hnd Hin; [destruct Hin|].
  inversion Hnd as [|? ? Hk Hnd']; subst. destruct Hin as [E | Hin].
  - injection E as -> ->. now rewrite Z.eqb_refl.
  - destruct (k =? s) eqn:E; [|now apply IH]. apply Z.eqb_eq in E. subst k.
    exfalso. apply Hk. change s with (fst (s, l)). now apply in_map.
Qed.

(* OSync with nothing hidden, entry by entry: the model's syncShards + workers *)
Theorem sync_step_lookup mg ns m st t :
  let calc := snd (reconcile mg (list_nodes ns) m) in
  plookup (c_api (step6 mg ns m st (OSync []))) t =
  match plookup calc t with
  | None => plookup (c_api st) t
  | Some l => match plookup (c_api st) t with
              | None => Some l
              | Some cur => if needs_update cur l then Some l else Some cur
              end
  end.
Proof.
  intros calc. cbn [step6 c_api]. apply sync_fold_lookup. apply final_map_names_nodup.
Qed.

(* the fallback on a concrete controller (non-vacuity of C17_fallback_eq_global):
   two schedulers [0,1] capped at 2, four nodes at 0.1 .. 0.4 *)
Definition two_caps : list sspec :=
  map (fun k => {| ss_name := k; ss_cpumin := 0; ss_cpumax := 1000; ss_prefer := false; ss_minn := 0; ss_maxn := 0;
                   ss_args := [];
                   ss_policies := [ {| ps_name := P_ALLOC; ps_weight := 1; ps_args := [(1, 0); (2, 1000)] |};
                                    {| ps_name := P_LIMIT; ps_weight := 0; ps_args := [(4, 2)] |} ] |}) [1; 2].
Definition m_up : metrics := map (fun i => (Pos.of_nat i, Some (100 * Z.of_nat i))) (seq 1 4).
Definition m_down : metrics := map (fun i => (Pos.of_nat i, Some (100 * Z.of_nat (5 - i)))) (seq 1 4).

Example fallback_demo :
  exists mg, new_manager two_caps = Some mg /\
    fallback mg (plain_nodes 4) m_up 1 = Some [4; 3]%positive /\
    fallback mg (plain_nodes 4) m_up 2 = Some [2; 1]%positive /\
    fallback mg (plain_nodes 4) m_up 7 = None.
Proof. eexists. split; [vm_compute; reflexivity|]. vm_compute. repeat split; reflexivity. Qed.

(* the invariant of the op-level controller: every NodeShard on the API server and every
   entry of the assignment cache satisfies P.  With P = "is an entry of the global
   calculation of this or an earlier step" (ops_history_origin) this is
   C17_published_ops_is_earlier_calculation — through a sync, a cached assignment or the
   fallback, with deleted and lister-hidden NodeShards *)
Definition inv6 (P : Z * list positive -> Prop) (st : cstate6) : Prop :=
  (forall e, In e (c_api st) -> P e) /\
  (forall c e, c_cache st = Some c -> In e c -> P e).

Lemma pinsert_In api s l e : In e (pinsert api s l) -> e = (s, l) \/ In e api.
Proof.
  induction api as [|[k v] r IH]; simpl; [intuition|].
  destruct (s <? k); simpl; [intuition|]. destruct (s =? k); simpl; [intuition|].
  intros [H | H]; [now right; left|]. destruct (IH H); [now left | now right; right].
Qed.

Lemma premove_In api s e : In e (premove api s) -> In e api.
Proof.
  induction api as [|[k v] r IH]; simpl; [tauto|].
  destruct (k =? s); simpl; [intros H; right; now apply IH|]. intros [H | H]; [now left | right; now apply IH].
Qed.

Lemma apply6_In api h s l e : In e (apply6 api h s l) -> e = (s, l) \/ In e api.
Proof.
  unfold apply6. destruct (plookup api s); [|apply pinsert_In].
  destruct (existsb (Z.eqb s) h); [now right|]. destruct (needs_update l0 l); [apply pinsert_In | now right].
Qed.

(* a sync applies the calculated entries one by one, each application adding at most its entry *)
Lemma fold_apply_In (F : list (Z * list positive) -> Z * list positive -> list (Z * list positive)) :
  (forall api c e, In e (F api c) -> e = c \/ In e api) ->
  forall calc api e, In e (fold_left F calc api) -> In e calc \/ In e api.
Proof.
  intros HF. induction calc as [|c r IH]; intros api e He; [now right|].
  simpl in He. apply IH in He. destruct He as [He | He]; [left; now right|].
  apply HF in He. destruct He as [-> | He]; [left; now left | now right].
Qed.

Lemma step6_inv specs mg ns m (P : Z * list positive -> Prop) st o :
  new_manager specs = Some mg ->
  (forall e, In e (snd (reconcile mg (list_nodes ns) m)) -> P e) ->
  inv6 P st -> inv6 P (step6 mg ns m st o).
Proof.
  intros Hmg Hcalc [Hapi Hcache].
  assert (Hsync : forall F, (forall api c e, In e (F api c) -> e = c \/ In e api) ->
            forall e, In e (fold_left F (snd (reconcile mg (list_nodes ns) m)) (c_api st)) -> P e).
  { intros F HF e He. apply (fold_apply_In F HF) in He. destruct He; auto. }
  destruct o as [hidden | s hidden | | s | failed]; cbn [step6].
  - split; cbn [c_api c_cache]; [|intros c e [= <-]; apply Hcalc].
    apply Hsync. intros api [k v] e He. now apply apply6_In in He.
  - set (desired := match c_cache st with Some c => _ | None => _ end).
    assert (Hd : forall l, desired = Some l -> P (s, l)).
    { unfold desired. intros l H.
      destruct (c_cache st) as [c|]; [destruct (plookup c s) as [l0|] eqn:El|];
        [|apply Hcalc, (fallback_In specs), H; exact Hmg..].
      injection H as <-. apply (Hcache c _ eq_refl). now apply plookup_In. }
    destruct desired as [l|]; [|now split].
    split; cbn [c_api c_cache]; [|assumption].
    intros e He. apply apply6_In in He. destruct He as [-> | He]; auto.
  - split; cbn [c_api c_cache]; [assumption | discriminate].
  - split; cbn [c_api c_cache]; [|assumption]. intros e He. apply Hapi. eapply premove_In; eauto.
  - split; cbn [c_api c_cache]; [|intros c e [= <-]; apply Hcalc].
    apply Hsync. intros api [k v] e He. cbn [fst snd] in He.
    destruct (existsb (Z.eqb k) failed); [now right | now apply apply6_In in He].
Qed.

Lemma fold_step6_inv specs mg ns m (P : Z * list positive -> Prop) ops : forall st,
  new_manager specs = Some mg ->
  (forall e, In e (snd (reconcile mg (list_nodes ns) m)) -> P e) ->
  inv6 P st -> inv6 P (fold_left (step6 mg ns m) ops st).
Proof.
  induction ops as [|o ops IH]; intros st Hmg Hc H0; [exact H0|].
  simpl. apply IH; auto. eapply step6_inv; eauto.
Qed.

Lemma inv6_weaken (P Q : Z * list positive -> Prop) st : (forall e, P e -> Q e) -> inv6 P st -> inv6 Q st.
Proof. intros H [H1 H2]. split; [intros e He; apply H, H1, He | intros c e Hc He; apply H; eapply H2; eauto]. Qed.

Definition from_step (mg : manager) (steps : list (list node * metrics * list op6)) (k : nat) (e : Z * list positive) : Prop :=
  exists j ns m ops, (j <= k)%nat /\ nth_error steps j = Some (ns, m, ops) /\
                     In e (snd (reconcile mg (list_nodes ns) m)).

Lemma ops_history_origin specs mg : new_manager specs = Some mg ->
  forall steps st (P : Z * list positive -> Prop) k api e,
  inv6 P st -> nth_error (ops_history mg st steps) k = Some api -> In e api ->
  P e \/ from_step mg steps k e.
Proof.
  intros Hmg. induction steps as [|[[ns m] ops] steps IH]; intros st P k api e Hinv Hk He; [now destruct k|].
  set (P1 := fun e => P e \/ In e (snd (reconcile mg (list_nodes ns) m))).
  assert (Hst' : inv6 P1 (fold_left (step6 mg ns m) ops st)).
  { apply (fold_step6_inv specs); [exact Hmg | now right|].
    eapply inv6_weaken; [|exact Hinv]. now left. }
  assert (H1 : P1 e -> P e \/ from_step mg ((ns, m, ops) :: steps) k e).
  { intros [H | H]; [now left|]. right. exists 0%nat, ns, m, ops. split; [lia|]. now split. }
  simpl in Hk. destruct k as [|k]; simpl in Hk.
  - injection Hk as <-. apply H1, Hst', He.
  - destruct (IH _ P1 k api e Hst' Hk He) as [H | [j [ns' [m' [ops' [Hj [Hn Hin]]]]]]]; [auto|].
    right. exists (S j), ns', m', ops'. split; [lia|]. now split.
Qed.
