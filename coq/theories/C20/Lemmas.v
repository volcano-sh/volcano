(* C20 — proofs.  The controller theorems quantify over ALL event lists: any number of
   workers, any number of (re-)deliveries, any interleaving of deliver / delete / enqueue
   steps, any Delete answers the oracle allows. *)
From stdpp Require Import gmap.
From Coq Require Import ZArith List Lia.
From V Require Import C20.Model C20.Laws.
Import ListNotations.
Open Scope Z_scope.

Theorem cli_command_shape v ns t :
  exists c, cli_create v ns t = [c] /\
    c_target c = mkRef (verb_kind v) (t_name t) (t_uid t) true /\
    c_owners c = [c_target c] /\ c_action c = verb_action v /\ c_ns c = cmd_ns v ns /\
    req_of c = (cmd_ns v ns, t_name t, verb_action v).
Proof. eexists. split; [reflexivity|]. repeat split. Qed.

Lemma oracle_ok_snoc l : forall b o,
  oracle_ok b (l ++ [o]) =
  oracle_ok b l && match o with DOk => final_present b l | DNotFound => negb (final_present b l) | _ => true end.
Proof.
  induction l as [|x l IH]; intros b o; simpl.
  - destruct o, b; done.
  - destruct x; rewrite IH; simpl; try done; by rewrite andb_assoc.
Qed.
Lemma final_present_snoc l : forall b o,
  final_present b (l ++ [o]) = match o with DErr => final_present b l | _ => false end.
Proof.
  induction l as [|x l IH]; intros b o; simpl; [by destruct o|]. destruct x; by rewrite IH.
Qed.
Lemma count_out_snoc x l o :
  count_out x (l ++ [o]) = (count_out x l + (if bool_decide (o = x) then 1 else 0))%nat.
Proof.
  unfold count_out. rewrite filter_app, app_length. simpl. destruct (bool_decide (o = x)); done.
Qed.
Lemma count_out_cons x o l :
  count_out x (o :: l) = ((if bool_decide (o = x) then 1 else 0) + count_out x l)%nat.
Proof. unfold count_out. simpl. destruct (bool_decide (o = x)); done. Qed.

(* The oracle alone allows at most one OK, and none for a command that is absent at the
   start or still present at the end. *)
Lemma oracle_ok_count l : forall p, oracle_ok p l = true ->
  (count_out DOk l + Nat.b2n (final_present p l) <= Nat.b2n p)%nat.
Proof.
  induction l as [|x l IH]; intros p H; [done|].
  rewrite count_out_cons. destruct x; simpl in H |- *.
  - apply andb_true_iff in H as [-> H]. apply IH in H. simpl in *. lia.
  - apply andb_true_iff in H as [_ H]. apply IH in H. simpl in H. lia.
  - by apply IH.
  - apply IH in H. simpl in H. lia.
Qed.

Lemma prefix_ok_snoc l : forall acc sn o n,
  prefix_ok acc (l ++ [o]) (sn ++ [n]) = prefix_ok acc l sn && bool_decide (n <= acc + count_out DOk l)%nat.
Proof.
  induction l as [|a l IH]; intros acc sn o n.
  - destruct sn as [|x sn]; simpl.
    + unfold count_out. simpl. rewrite Nat.add_0_r. by rewrite andb_true_r.
    + destruct sn; simpl; by rewrite ?andb_false_r.
  - destruct sn as [|x sn]; simpl.
    + destruct l; simpl; by rewrite andb_false_r.
    + rewrite IH, count_out_cons. rewrite <- andb_assoc. do 2 f_equal.
      apply bool_decide_ext. lia.
Qed.

Notation cok s := (count_out DOk (log s)).
Notation cerr s := (count_out DErr (log s) + count_out DErrApplied (log s))%nat.

(* 1 while the worker whose Delete succeeded has not enqueued yet *)
Definition in_flight (s : sys) : nat :=
  match holder s with Some w => if decide (wget s w = WDeleted) then 1 else 0 | None => 0 end.

(* successful deletes = requests enqueued + the one still in flight *)
Record Inv (c : command) (b : bool) (s : sys) : Prop := {
  i_oracle : oracle_ok b (log s) = true;
  i_final : final_present b (log s) = present s;
  i_holder : forall w, wget s w = WDeleted -> holder s = Some w;
  i_count : cok s = (length (enq s) + in_flight s)%nat;
  i_reqs : Forall (fun r => r = req_of c) (enq s);
  i_retries : (retries s + drops s = cerr s)%nat;
  i_seen : prefix_ok 0 (log s) (seen s) = true
}.

Lemma wget_wset s w x w' p e h l sn r d :
  wget (mkSys p (wset s w x) e h l sn r d) w' = if decide (w' = w) then x else wget s w'.
Proof.
  unfold wget, wset. simpl. destruct (decide (w' = w)) as [->|].
  - by rewrite lookup_insert.
  - by rewrite lookup_insert_ne.
Qed.

Lemma wget_wset_eq s w x p e h l sn r d : wget (mkSys p (wset s w x) e h l sn r d) w = x.
Proof. rewrite wget_wset. by rewrite decide_True. Qed.

Lemma in_flight_wset s w x p e l sn r d :
  wget s w <> WDeleted -> x <> WDeleted ->
  in_flight (mkSys p (wset s w x) e (holder s) l sn r d) = in_flight s.
Proof.
  intros Hw Hx. unfold in_flight. simpl. destruct (holder s) as [h|]; [|done].
  rewrite wget_wset. destruct (decide (h = w)) as [->|]; [|done]. by rewrite !decide_False.
Qed.

Lemma inv_init c b : Inv c b (init b).
Proof. split; try done. constructor. Qed.

(* What a step of worker [w] can do, the retry budget abstracted away: take a delivery; have
   its Delete succeed; have it fail (NotFound, or an error that is retried or given up);
   enqueue. *)
Inductive move (c : command) (s : sys) (w : nat) : sys -> Prop :=
| m_deliver : wget s w = WIdle ->
    move c s w (mkSys (present s) (wset s w (WGot 0)) (enq s) (holder s) (log s) (seen s) (retries s) (drops s))
| m_ok n : wget s w = WGot n -> present s = true ->
    move c s w (mkSys false (wset s w WDeleted) (enq s) (Some w) (log s ++ [DOk])
                  (seen s ++ [length (enq s)]) (retries s) (drops s))
| m_fail n o x r d : wget s w = WGot n -> x <> WDeleted -> o <> DOk ->
    (o = DNotFound -> present s = false) ->
    (r + d = retries s + drops s + (if bool_decide (o = DNotFound) then 0 else 1))%nat ->
    move c s w (mkSys (match o with DErr => present s | _ => false end) (wset s w x) (enq s) (holder s)
                  (log s ++ [o]) (seen s ++ [length (enq s)]) r d)
| m_enqueue : wget s w = WDeleted ->
    move c s w (mkSys (present s) (wset s w WIdle) (enq s ++ [req_of c]) (holder s) (log s) (seen s)
                  (retries s) (drops s)).

Definition worker_of (e : cev) : nat := match e with CDeliver w | CDelete w _ | CEnqueue w => w end.

Lemma cstep_move mx c s e : cstep mx c s e = s \/ move c s (worker_of e) (cstep mx c s e).
Proof.
  destruct e as [w|w o|w]; simpl; destruct (wget s w) as [|n|] eqn:Ew; auto.
  - right. by constructor.
  - destruct o.
    + destruct (present s) eqn:Ep; [right; by apply (m_ok c s w n)|by left].
    + destruct (present s) eqn:Ep; [by left|right].
      by apply (m_fail c s w n DNotFound).
    + right. destruct (budget mx n); apply (m_fail c s w n DErr); try done; simpl; lia.
    + right. destruct (budget mx n); apply (m_fail c s w n DErrApplied); try done; simpl; lia.
  - right. by constructor.
Qed.

Lemma inv_move c b s w s' : Inv c b s -> move c s w s' -> Inv c b s'.
Proof.
  intros [Or F H C R Rt Sn] M.
  assert (B : present s = true -> cok s = 0%nat).
  { intros Ep. pose proof (oracle_ok_count _ _ Or) as B. rewrite F, Ep in B. destruct b; simpl in B; lia. }
  destruct M as [Ew | n Ew Ep | n o x r d Ew Hx Ho Hnf Hr | Ew]; split; simpl; try done.
  - intros w'. rewrite wget_wset. destruct (decide (w' = w)); [done|auto].
  - rewrite in_flight_wset; [done|congruence|done].
  - by rewrite oracle_ok_snoc, Or, F, Ep.
  - by rewrite final_present_snoc.
  - (* no other worker is in flight: nothing has been deleted while the command is present *)
    intros w'. rewrite wget_wset. destruct (decide (w' = w)) as [->|]; [done|].
    intros Hd. unfold in_flight in C. rewrite (H _ Hd), decide_True in C by done.
    apply B in Ep. lia.
  - rewrite count_out_snoc. unfold in_flight. simpl. rewrite wget_wset_eq, decide_True by done.
    apply B in Ep. destruct (enq s); simpl in *; lia.
  - rewrite !count_out_snoc. simpl. lia.
  - rewrite prefix_ok_snoc, Sn. apply bool_decide_eq_true. lia.
  - rewrite oracle_ok_snoc, Or, F. destruct o; try done. by rewrite Hnf.
  - rewrite final_present_snoc, F. by destruct o.
  - intros w'. rewrite wget_wset. destruct (decide (w' = w)); [done|auto].
  - rewrite count_out_snoc, bool_decide_false, in_flight_wset by congruence. lia.
  - rewrite !count_out_snoc. destruct o; simpl in *; try done; lia.
  - rewrite prefix_ok_snoc, Sn. apply bool_decide_eq_true. lia.
  - intros w'. rewrite wget_wset. destruct (decide (w' = w)); [done|auto].
  - (* the holder's delete leaves flight and is enqueued *)
    unfold in_flight in *. simpl. rewrite (H _ Ew), decide_True in C by done.
    rewrite (H _ Ew), wget_wset_eq, decide_False, app_length by done. simpl. lia.
  - apply Forall_app. split; [done|]. by constructor.
Qed.

Lemma inv_step mx c b s e : Inv c b s -> Inv c b (cstep mx c s e).
Proof. intros I. destruct (cstep_move mx c s e) as [->|M]; [done|]. by apply (inv_move c b s _ _ I M). Qed.

Lemma inv_run mx c b evs : Inv c b (crun mx c b evs).
Proof.
  unfold crun. generalize (inv_init c b). generalize (init b).
  induction evs as [|e evs IH]; intros s I; simpl; [done|]. apply IH. by apply inv_step.
Qed.

(* at most once, for all interleavings, retry budgets and drops *)
Theorem at_most_once mx c b evs : let s := crun mx c b evs in
  (length (enq s) <= 1)%nat /\                                  (* executed at most once *)
  (length (enq s) <= count_out DOk (log s) <= 1)%nat /\          (* triggered <= deleted <= 1, after EVERY prefix (evs is arbitrary) *)
  prefix_ok 0 (log s) (seen s) = true /\                          (* ... and at every Delete call *)
  Forall (fun r => r = req_of c) (enq s) /\                      (* naming the command's namespace, target and action *)
  (enq s <> [] -> present s = false) /\                          (* the command is not retained *)
  (b = false -> enq s = []) /\                                   (* a command that is not there is never executed *)
  (retries s + drops s = count_out DErr (log s) + count_out DErrApplied (log s))%nat /\  (* every error is retried or given up *)
  (quiescent s -> length (enq s) = count_out DOk (log s)).        (* a successful Delete is followed by its execution *)
Proof.
  intros s. destruct (inv_run mx c b evs) as [Or F _ C R Rt Sn]. fold s in Or, F, C, R, Rt, Sn.
  pose proof (oracle_ok_count _ _ Or) as B. rewrite F in B.
  assert (B1 : (cok s + Nat.b2n (present s) <= 1)%nat) by (destruct b; simpl in B; lia).
  split; [lia|]. split; [lia|]. split; [done|]. split; [done|]. split; [|split; [|split; [done|]]].
  - intros Hne. destruct (present s); [|done]. destruct (enq s); [done|]. simpl in *. lia.
  - intros ->. destruct (enq s); [done|]. simpl in *. lia.
  - intros Q. unfold in_flight in C. destruct (holder s) as [w|]; [|lia].
    rewrite Q, decide_False in C by done. lia.
Qed.

(* with unlimited retries nothing is ever dropped *)
Lemma no_drop_unlimited c b evs : drops (crun (-1) c b evs) = 0%nat.
Proof.
  unfold crun. assert (H : drops (init b) = 0%nat) by done. revert H. generalize (init b).
  induction evs as [|e evs IH]; intros s H; simpl; [done|]. apply IH.
  destruct e as [w|w o|w]; simpl; destruct (wget s w); try done.
  destruct o, (present s); simpl; done.
Qed.

(* the executable law accepts every reachable state of the model; at quiescence also with
   its "every successful Delete was followed by its execution" clause switched on *)
Theorem law_amo_holds mx c b evs (quiet : bool) : let s := crun mx c b evs in
  (quiet = true -> quiescent s) ->
  law_amo mx c b (log s) (seen s) (enq s) (present s) (retries s) quiet = true.
Proof.
  intros s Hq. destruct (at_most_once mx c b evs) as (A1&A2&Sn&A3&A4&A5&A6&A7). fold s in A1, A2, Sn, A3, A4, A5, A6, A7.
  destruct (inv_run mx c b evs) as [Or F _ _ _ _ _]. fold s in Or, F.
  unfold law_amo. rewrite Or, Sn. simpl.
  rewrite (bool_decide_true (length (enq s) <= 1)%nat) by done.
  rewrite (bool_decide_true (length (enq s) <= count_out DOk (log s))%nat) by lia. simpl.
  rewrite (bool_decide_true (present s = _)) by done.
  rewrite (bool_decide_true (retries s <= _)%nat) by lia.
  assert (X : negb (bool_decide (mx = -1)) || bool_decide (retries s = count_out DErr (log s) + count_out DErrApplied (log s))%nat = true).
  { destruct (decide (mx = -1)) as [Hm|Hm]; [|by rewrite (bool_decide_false (mx = -1))].
    rewrite (bool_decide_true (mx = -1)) by done. simpl. apply bool_decide_eq_true.
    assert (drops s = 0%nat) by (unfold s; rewrite Hm; apply no_drop_unlimited). lia. }
  assert (Y : negb quiet || bool_decide (length (enq s) = count_out DOk (log s)) = true).
  { destruct quiet; [|done]. simpl. apply bool_decide_eq_true. by apply A7, Hq. }
  rewrite X, Y. rewrite !andb_true_r.
  apply andb_true_iff. split; [apply andb_true_iff; split|].
  - apply forallb_forall. intros r Hr. rewrite Forall_forall in A3. apply bool_decide_eq_true.
    apply A3. first [exact Hr | apply (proj2 (elem_of_list_In _ _)); exact Hr].
  - destruct (enq s) eqn:E; [done|]. rewrite A4 by done. by rewrite orb_true_r.
  - destruct b; [done|]. rewrite A5 by done. done.
Qed.

(* what the executable law MEANS (soundness at the Prop level): if it answers true on
   observed Delete answers / requests, then the property's clauses hold of them *)
Lemma prefix_ok_spec outs : forall sn acc,
  prefix_ok acc outs sn = true ->
  length outs = length sn /\
  forall k n, nth_error sn k = Some n -> (n <= acc + count_out DOk (firstn k outs))%nat.
Proof.
  induction outs as [|o outs IH]; intros [|x sn] acc H; simpl in H; try done.
  - split; [done|]. intros [|k] n Hn; done.
  - apply andb_true_iff in H as [H1 H2]. apply bool_decide_eq_true in H1.
    destruct (IH _ _ H2) as [Hl Hk]. split; [simpl; lia|].
    intros [|k] n Hn; simpl in Hn.
    + simplify_eq. unfold count_out. simpl. lia.
    + simpl. rewrite count_out_cons. specialize (Hk k n Hn). lia.
Qed.

Lemma seq_run_reach mx c : forall fuel queue sched s s' rest,
  seq_run mx c fuel queue sched s = Some (s', rest) -> exists evs, s' = fold_left (cstep mx c) evs s.
Proof.
  induction fuel as [|fuel IH]; intros [|d q] sched s s' rest H; simpl in H; simplify_eq;
    try (by exists []).
  destruct (wget _ d); apply IH in H as [evs ->];
    exists (CDelete d (answer (hd 0 sched) (present s)) :: CEnqueue d :: evs); done.
Qed.

Lemma fold_deliver mx c ids : forall s,
  fold_left (fun s d => cstep mx c s (CDeliver d)) ids s = fold_left (cstep mx c) (map CDeliver ids) s.
Proof. induction ids as [|d ids IH]; intros s; simpl; [done|apply IH]. Qed.

Lemma seq_phase_reach mx c n sched s s' rest :
  seq_phase mx c n sched s = Some (s', rest) -> exists evs, s' = fold_left (cstep mx c) evs s.
Proof.
  unfold seq_phase. intros H. apply seq_run_reach in H as [evs ->]. rewrite fold_deliver.
  exists (map CDeliver (seq 0 n) ++ evs). by rewrite fold_left_app.
Qed.

(* the two phases of selector 2 (first batch, relist) end in a state of [crun]: every
   clause of [at_most_once] applies to what the extracted model prints *)
Theorem seq_two_phases_reach mx c b n1 n2 sched s1 r1 s2 r2 :
  seq_phase mx c n1 sched (init b) = Some (s1, r1) -> seq_phase mx c n2 r1 s1 = Some (s2, r2) ->
  exists evs, s2 = crun mx c b evs.
Proof.
  intros H1 H2. apply seq_phase_reach in H1 as [e1 ->]. apply seq_phase_reach in H2 as [e2 ->].
  exists (e1 ++ e2). unfold crun. by rewrite fold_left_app.
Qed.

(* non-vacuity: two deliveries race for a present command, an injected error first; and a
   delivery whose Delete fails 3 times with maxRequeueNum = 2 is dropped without executing,
   the relisted delivery then deletes and executes once *)
Definition ex_cmd : command := mkCommand 7 (3, 1) (mkRef 1 3 9 true) [mkRef 1 3 9 true] 1.
Example ex_race :
  let s := crun (-1) ex_cmd true [CDeliver 0; CDeliver 1; CDelete 0 DErr; CDelete 1 DOk;
                             CDelete 0 DNotFound; CEnqueue 1; CDeliver 2; CDelete 2 DOk] in
  enq s = [(7, 3, 1)] /\ present s = false /\ log s = [DErr; DOk; DNotFound] /\ retries s = 1%nat /\
  wget s 2 = WGot 0.
Proof. vm_compute. repeat split. Qed.

Example ex_drop :
  let s1 := crun 2 ex_cmd true [CDeliver 0; CDelete 0 DErr; CDelete 0 DErr; CDelete 0 DErr] in
  enq s1 = [] /\ present s1 = true /\ drops s1 = 1%nat /\ retries s1 = 2%nat /\ wget s1 0 = WIdle /\
  let s2 := fold_left (cstep 2 ex_cmd) [CDeliver 0; CDelete 0 DOk; CEnqueue 0] s1 in
  enq s2 = [(7, 3, 1)] /\ present s2 = false /\ seen s2 = [0; 0; 0; 0]%nat.
Proof. vm_compute. repeat split. Qed.

Theorem cli_at_most_one_command i : let r := cli_invoke i in
  (length (r_new r) <= 1)%nat /\ (r_posts r <= 1)%nat /\
  (forall c, In c (r_new r) -> [c] = cli_create (i_verb i) (i_ns i) (i_target i)) /\
  (r_ok r = true -> i_get i = GOk /\ r_new r = cli_create (i_verb i) (i_ns i) (i_target i)) /\
  (i_get i <> GOk -> r_ok r = false /\ r_posts r = 0%nat /\ r_new r = []) /\
  (i_get i = GOk -> succeeds (hd COk (i_script i)) = false -> r_ok r = false) /\
  length (r_new r) = length (filter persists (answers (r_posts r) (i_script i))).
Proof.
  unfold cli_invoke. destruct (i_get i) eqn:G; simpl.
  - destruct (hd COk (i_script i)) eqn:H; simpl; repeat split; try done; try lia; intros c [<-|[]]; done.
  - repeat split; try done; lia.
  - repeat split; try done; lia.
Qed.

Lemma accepts_exclusive d : accepts 1 d = true -> accepts 2 d = true -> False.
Proof.
  unfold accepts. destruct (d_target d) as [[k v]|]; [|done].
  intros [H1 _]%andb_true_iff [H2 _]%andb_true_iff. apply Z.eqb_eq in H1, H2. lia.
Qed.

(* A Command of the CLI model as the informer filter sees it ([accepts], [dreq]);
   C20_cli_commands_are_accepted (Props/C20.v) is stated through it.
   Convention: the kind code of a reference (1 Job, 2 Queue) stands for the (Kind, APIVersion)
   pair that metav1.NewControllerRef writes from the GroupVersionKind constant
   (helpers.JobKind / helpers.V1beta1QueueKind); the harness maps a reference to 1 / 2 only
   if BOTH strings are the expected ones (refTokens).
   The model writes a controller's request in three forms: [req_of c] = (namespace, target,
   action), used by the workers ([cstep], [law_amo]); [dreq ctrl d], the same with namespace 0
   for the queue controller ([dreq 1 (dcmd_of c)] is [req_of c] by computation); [ctl_req c],
   which adds the kind and writes -1 for the queue controller's namespace (end to end). *)
Definition dcmd_of (c : command) : dcmd :=
  mkDcmd (Some (o_kind (c_target c), o_kind (c_target c))) (c_ns c) (o_name (c_target c)) (c_action c).

Lemma cstep_other mx c s e w : worker_of e <> w -> wget (cstep mx c s e) w = wget s w.
Proof.
  intros Hne. destruct (cstep_move mx c s e) as [->|M]; [done|].
  destruct M; rewrite wget_wset; destruct (decide (w = worker_of e)); congruence.
Qed.

Lemma after_delete_enqueue mx c s d o :
  wget (cstep mx c (cstep mx c s (CDelete d o)) (CEnqueue d)) d <> WDeleted.
Proof.
  set (s1 := cstep mx c s (CDelete d o)). simpl.
  destruct (wget s1 d) eqn:E; try (rewrite E; done).
  rewrite wget_wset. destruct (decide (d = d)); done.
Qed.

(* every delivery that is not in the queue any more is idle *)
Definition parked (queue : list nat) (s : sys) : Prop := forall w, ~ In w queue -> wget s w = WIdle.

Lemma seq_run_quiescent mx c : forall fuel queue sched s s' rest,
  parked queue s -> seq_run mx c fuel queue sched s = Some (s', rest) -> quiescent s'.
Proof.
  induction fuel as [|fuel IH]; intros [|d q] sched s s' rest Hp H; cbn [seq_run] in H; simplify_eq;
    try (intros w; apply Hp; intros []).
  set (o := answer (hd 0 sched) (present s)) in *.
  set (s2 := cstep mx c (cstep mx c s (CDelete d o)) (CEnqueue d)) in *.
  assert (Hother : forall w, w <> d -> wget s2 w = wget s w).
  { intros w Hw. unfold s2. by rewrite !cstep_other by (simpl; congruence). }
  destruct (wget s2 d) eqn:E; [| |by destruct (after_delete_enqueue mx c s d o)];
    eapply IH; try exact H; intros w Hw.
  - destruct (decide (w = d)) as [->|]; [done|]. rewrite Hother by done. apply Hp. intros [->|?]; done.
  - rewrite in_app_iff in Hw. rewrite Hother by (intros ->; apply Hw; right; by left).
    apply Hp. intros [->|?]; apply Hw; [right|]; by left.
Qed.

Lemma deliver_parked mx c ids s :
  quiescent s -> parked ids (fold_left (fun s d => cstep mx c s (CDeliver d)) ids s).
Proof.
  intros Hq w Hw. rewrite <- (Hq w). clear Hq. revert s.
  induction ids as [|d ids IH]; intros s; cbn [fold_left]; [done|].
  rewrite IH by (intros ?; apply Hw; by right). apply cstep_other. intros Hd. apply Hw. by left.
Qed.

Lemma seq_phase_quiescent mx c n sched s s' rest :
  quiescent s -> seq_phase mx c n sched s = Some (s', rest) -> quiescent s'.
Proof. intros Hq H. eapply seq_run_quiescent; [|exact H]. by apply deliver_parked. Qed.

Example seq_example :
  exists s1 r1 s2 r2,
    seq_phase 2 ex_cmd 1 [1; 1; 1] (init true) = Some (s1, r1) /\ seq_phase 2 ex_cmd 1 r1 s1 = Some (s2, r2) /\
    log s2 = [DErr; DErr; DErr; DOk] /\ enq s2 = [(7, 3, 1)] /\ drops s2 = 1%nat /\
    law_amo 2 ex_cmd true (log s2) (seen s2) (enq s2) (present s2) (retries s2) true = true.
Proof.
  set (p1 := default (init true, []) (seq_phase 2 ex_cmd 1 [1; 1; 1] (init true))).
  set (p2 := default (init true, []) (seq_phase 2 ex_cmd 1 (snd p1) (fst p1))).
  exists (fst p1), (snd p1), (fst p2), (snd p2). vm_compute. repeat split.
Qed.

