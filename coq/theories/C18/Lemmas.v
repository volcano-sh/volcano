(* C18 — the specification notions the property theorems are stated with
   (gc_due, sched, bounded, uid_ok, state_ok, inv_live, names_unique, zone_spec
   ...), the lemmas about C18/Model.v behind Props/C18.v, what the executable
   laws of C18/Laws.v mean, and the worked examples (ex_state, ex_tbl).
   [sched] here is the predicate "s is a schedule point of next on the window",
   not the schedule type [Model.sched]. *)
From Coq Require Import ZArith List Bool Lia ZifyBool.
From V Require Import C18.Model C18.Laws.
Import ListNotations.
Open Scope Z_scope.

Lemma sec_pos : 0 < sec.
Proof. reflexivity. Qed.

(* a job is due at [now]: finished, TTL set, not being deleted, finish time
   recorded and finish + ttl <= now *)
Definition gc_due (j : gjob) (now : Z) : Prop :=
  finished (g_phase j) = true /\ g_deleting j = false /\
  exists ttl fin, g_ttl j = Some ttl /\ g_finish j = Some fin /\ fin + ttl * sec <= now.

(* what processTTL answers on each class of input *)
Lemma process_ttl_ineligible : forall j now,
  finished (g_phase j) = false \/ g_ttl j = None \/ g_deleting j = true ->
  process_ttl j now = TtlIgnore.
Proof.
  intros j now H. unfold process_ttl, needs_cleanup.
  destruct (g_deleting j); [reflexivity|]. destruct (g_ttl j); [|reflexivity].
  destruct (finished (g_phase j)); [|reflexivity]. destruct H as [H|[H|H]]; discriminate.
Qed.

Lemma process_ttl_no_finish : forall j now,
  finished (g_phase j) = true -> g_deleting j = false -> g_ttl j <> None -> g_finish j = None ->
  process_ttl j now = TtlErr.
Proof.
  intros j now Hp Hd Ht Hf. unfold process_ttl, time_left, needs_cleanup.
  rewrite Hd, Hf. destruct (g_ttl j); [|congruence]. now rewrite Hp.
Qed.

Lemma process_ttl_finish : forall j now ttl fin,
  finished (g_phase j) = true -> g_deleting j = false -> g_ttl j = Some ttl -> g_finish j = Some fin ->
  process_ttl j now =
  if fin + ttl * sec - now <=? 0 then TtlExpired else TtlRequeue (fin + ttl * sec - now).
Proof.
  intros j now ttl fin Hp Hd Ht Hf. unfold process_ttl, time_left, needs_cleanup.
  now rewrite Hd, Ht, Hf, Hp.
Qed.

Lemma process_ttl_expired : forall j now,
  process_ttl j now = TtlExpired <-> gc_due j now.
Proof.
  intros j now. split.
  - intros E. destruct (finished (g_phase j)) eqn:Hp, (g_deleting j) eqn:Hd, (g_ttl j) as [ttl|] eqn:Ht;
      try (rewrite process_ttl_ineligible in E by auto; discriminate).
    destruct (g_finish j) as [fin|] eqn:Hf.
    + rewrite (process_ttl_finish j now ttl fin) in E by assumption.
      destruct (Z.leb_spec (fin + ttl * sec - now) 0); [|discriminate].
      split; [exact Hp|]. split; [exact Hd|]. exists ttl, fin. split; [exact Ht|]. split; [exact Hf|lia].
    + rewrite process_ttl_no_finish in E by congruence. discriminate.
  - intros (Hp & Hd & ttl & fin & Ht & Hf & Hle).
    rewrite (process_ttl_finish j now ttl fin) by assumption.
    destruct (Z.leb_spec (fin + ttl * sec - now) 0); [reflexivity|lia].
Qed.

(* a delete is only issued for a fresh object that is due at the second
   clock reading, and it carries that object's UID; the lister's copy was due
   at the first reading *)
Theorem gc_only_when_due : forall lj fresh now1 now2 uid,
  go_delete (process_job lj fresh now1 now2) = Some uid ->
  exists j f, lj = Some j /\ fresh = Some f /\ gc_due j now1 /\ gc_due f now2 /\ uid = g_uid f /\
              go_requeues (process_job lj fresh now1 now2) = [] /\
              go_err (process_job lj fresh now1 now2) = false.
Proof.
  intros lj fresh now1 now2 uid. unfold process_job.
  destruct lj as [j|]; [|discriminate].
  destruct (process_ttl j now1) eqn:E1; try discriminate.
  destruct fresh as [f|]; [|discriminate].
  destruct (process_ttl f now2) eqn:E2; try discriminate.
  cbn. intros H; inversion H; subst.
  exists j, f. split; [reflexivity|]. split; [reflexivity|].
  split; [now apply process_ttl_expired|]. split; [now apply process_ttl_expired|]. auto.
Qed.

(* otherwise: an eligible object that is not yet due is re-queued after
   exactly finish + ttl - now, and nothing is deleted *)
Theorem gc_requeue_exact : forall j fresh now1 now2 ttl fin,
  finished (g_phase j) = true -> g_deleting j = false ->
  g_ttl j = Some ttl -> g_finish j = Some fin -> now1 < fin + ttl * sec ->
  process_job (Some j) fresh now1 now2 = mkGcOut [fin + ttl * sec - now1] None false.
Proof.
  intros j fresh now1 now2 ttl fin Hf Hd Ht Hfi Hlt. unfold process_job.
  rewrite (process_ttl_finish j now1 ttl fin) by assumption.
  destruct (Z.leb_spec (fin + ttl * sec - now1) 0); [lia|reflexivity].
Qed.

Lemma sec_div_exact : forall k, (k * sec) / sec = k.
Proof. intros. apply Z.div_mul. discriminate. Qed.

Lemma round_sec_exact : forall k, round_sec_s (k * sec) = k.
Proof.
  intros k. unfold round_sec_s.
  assert (Hs : sec / 2 = 500000000) by reflexivity. rewrite Hs.
  assert (Hs2 : sec = 1000000000) by reflexivity.
  destruct (Z.leb_spec 0 (k * sec)).
  - symmetry. apply (Z.div_unique _ _ _ 500000000); lia.
  - assert (E : (- (k * sec) + 500000000) / sec = - k).
    { symmetry. apply (Z.div_unique _ _ _ 500000000); lia. }
    rewrite E. lia.
Qed.

Lemma catch_up_start : forall t1 t2 now,
  (exists a, t1 = a * sec) -> (exists b, t2 = b * sec) -> t1 < t2 -> t2 <= now ->
  1 <= round_sec_s (t2 - t1) /\
  t1 <= t1 + ((now - t1) / sec / round_sec_s (t2 - t1) + 1 - 2) * round_sec_s (t2 - t1) * sec <= now.
Proof.
  intros t1 t2 now [a Ha] [b Hb] Hlt Hle. subst.
  replace (b * sec - a * sec) with ((b - a) * sec) by lia.
  rewrite round_sec_exact.
  pose proof sec_pos as Hs.
  assert (Hba : 1 <= b - a) by nia.
  split; [lia|].
  set (E := (now - a * sec) / sec).
  assert (HE : E * sec <= now - a * sec).
  { unfold E. pose proof (Z.mul_div_le (now - a * sec) sec Hs). lia. }
  assert (He : b - a <= E).
  { unfold E. apply Z.div_le_lower_bound; lia. }
  assert (Hq : 1 <= E / (b - a)).
  { apply Z.div_le_lower_bound; lia. }
  assert (Hq2 : E / (b - a) * (b - a) <= E).
  { pose proof (Z.mul_div_le E (b - a) ltac:(lia)). lia. }
  split; nia.
Qed.

(* the catch-up loop ends within [fuel] steps when a measure that starts at most
   [fuel] falls along [next] for as long as the loop runs *)
Lemma mr_loop_terminates : forall (next : Z -> Z) (P : Z -> Prop) (mu : Z -> nat) now,
  (forall t, P t -> t <= now -> P (next t) /\ (mu (next t) < mu t)%nat) ->
  forall fuel t most, P t -> (mu t <= fuel)%nat -> mr_loop next fuel now t most <> None.
Proof.
  intros next P mu now Hstep. induction fuel as [|f IH]; intros t most Ht Hmu; cbn [mr_loop];
    (destruct (Z.ltb_spec now t) as [|Hle]; [discriminate|]); destruct (Hstep t Ht Hle) as [HP Hlt]; [lia|].
  apply IH; [exact HP|lia].
Qed.

Lemma earliest_ge_base : forall created last deadline now incl,
  match last with Some l => l | None => created end <= earliest_time created last deadline now incl.
Proof.
  intros. unfold earliest_time. destruct incl; [|lia]. destruct deadline; [|lia].
  destruct (Z.ltb_spec (match last with Some l => l | None => created end) (now - z * sec)); lia.
Qed.

Lemma earliest_ge_created : forall created deadline now incl,
  created <= earliest_time created None deadline now incl.
Proof. intros. apply (earliest_ge_base created None). Qed.

Section Choice.
Variable next : Z -> Z.
(* the hypotheses on [next] are only needed up to an instant [hi] that bounds
   every argument the code passes to it (earliest time and now): a finite
   schedule table ([next_tbl], which answers the zero time past its last point)
   and robfig/cron (which gives up after five years) satisfy them on such a
   window although not for all t *)
Variable hi : Z.

Definition sched (s : Z) : Prop := exists u, u <= hi /\ next u = s.

(* next t is the LEAST schedule point after t; points are whole seconds *)
Hypothesis next_gt : forall t, t <= hi -> t < next t.
Hypothesis next_least : forall t s, t <= hi -> sched s -> t < s -> next t <= s.
Hypothesis next_sec : forall t, t <= hi -> exists k, next t = k * sec.

Lemma no_point_between : forall m now, m <= hi -> now < next m -> forall s, sched s -> m < s -> now < s.
Proof. intros m now Hm H s Hs Hms. pose proof (next_least m s Hm Hs Hms). lia. Qed.

(* the loop answers what it was handed when t is already after now, and
   otherwise the last iterate of [next] from t that is not after now *)
Lemma mr_loop_result : forall now, now <= hi -> forall fuel t most r,
  sched t -> mr_loop next fuel now t most = Some r ->
  (now < t /\ r = most) \/ (exists m, r = Some m /\ sched m /\ t <= m <= now /\ now < next m).
Proof.
  intros now Hnow. induction fuel as [|k IH]; intros t most r Ht; cbn [mr_loop];
    (destruct (Z.ltb_spec now t); [intros E; inversion E; auto|]); [discriminate|].
  intros E. apply IH in E; [|exists t; split; [lia|reflexivity]]. right.
  destruct E as [[H1 ->]|(m & -> & Hs & Hm & Hn)].
  - exists t. repeat split; auto; lia.
  - exists m. pose proof (next_gt t ltac:(lia)). repeat split; auto; lia.
Qed.

(* the three exits of mostRecentScheduleTime; in the third the two schedule
   times are whole seconds apart, so the "less than 1 second" error cannot
   occur and the loop starts from a point [pe] between the first schedule time
   and now *)
Lemma most_recent_cases : forall fuel created last deadline now incl,
  let e := earliest_time created last deadline now incl in
  e <= hi -> now <= hi ->
  (now < next e /\ most_recent next fuel created last deadline now incl = (e, MrOk None MNone)) \/
  (next e <= now < next (next e) /\
   most_recent next fuel created last deadline now incl = (e, MrOk (Some (next e)) MNone)) \/
  (exists pe m, next e <= pe <= now /\
     most_recent next fuel created last deadline now incl =
     (e, match mr_loop next fuel now (next pe) None with None => MrFuel | Some most => MrOk most m end)).
Proof.
  intros fuel created last deadline now incl e He Hnow. unfold most_recent. fold e.
  destruct (Z.ltb_spec now (next e)) as [|H1]; [left; auto|right].
  destruct (Z.ltb_spec now (next (next e))) as [|H2]; [left; auto|right].
  assert (Hlt : next e < next (next e)) by (apply next_gt; lia).
  destruct (catch_up_start _ _ now (next_sec e He) (next_sec (next e) ltac:(lia)) Hlt H2) as [Htb Hpe].
  destruct (Z.ltb_spec (round_sec_s (next (next e) - next e)) 1); [lia|].
  do 2 eexists. split; [exact Hpe|]. destruct (mr_loop _ _ _ _ _); reflexivity.
Qed.

(* the chosen time is a schedule point, after the earliest time, not after now,
   and the next schedule point is after now; leastness is not needed for this *)
Theorem most_recent_chosen : forall fuel created last deadline now incl e t m,
  earliest_time created last deadline now incl <= hi -> now <= hi ->
  most_recent next fuel created last deadline now incl = (e, MrOk (Some t) m) ->
  e = earliest_time created last deadline now incl /\ sched t /\ e < t /\ t <= now /\ now < next t.
Proof.
  intros fuel created last deadline now incl e t m He Hnow.
  pose proof (next_gt _ He) as Hgt.
  destruct (most_recent_cases fuel created last deadline now incl He Hnow)
    as [[H ->]|[[H ->]|(pe & m' & H & ->)]]; intros E.
  - discriminate.
  - inversion E; subst. repeat split; try lia. eexists; eauto.
  - destruct (mr_loop next fuel now (next pe) None) as [most|] eqn:EL; [|discriminate].
    inversion E; subst. apply mr_loop_result in EL; [|assumption|exists pe; split; [lia|reflexivity]].
    destruct EL as [[_ EL]|(t' & EL & Hs & Ht & Hn)]; [discriminate|]. inversion EL; subst t'.
    pose proof (next_gt pe ltac:(lia)). repeat split; auto; lia.
Qed.

Lemma next_schedule_time_some : forall fuel created last deadline now t,
  next_schedule_time next fuel created last deadline now = NsOk (Some t) ->
  exists e m, most_recent next fuel created last deadline now true = (e, MrOk (Some t) m).
Proof.
  intros fuel created last deadline now t. unfold next_schedule_time.
  destruct (most_recent next fuel created last deadline now true) as [e [| |[t'|] m]]; try discriminate.
  cbn [snd]. destruct (now <? t'); [discriminate|]. intros E; inversion E; subst. eauto.
Qed.

Lemma cron_choice_bounds : forall fuel created last deadline now t,
  earliest_time created last deadline now true <= hi -> now <= hi ->
  next_schedule_time next fuel created last deadline now = NsOk (Some t) ->
  sched t /\ earliest_time created last deadline now true < t /\ t <= now /\ now < next t.
Proof.
  intros fuel created last deadline now t He Hnow E.
  apply next_schedule_time_some in E. destruct E as (e & m & E).
  apply most_recent_chosen in E; auto. destruct E as (-> & E). exact E.
Qed.

(* the chosen time is a schedule point, after the earliest time, not
   after now, and no schedule point lies in (t, now] *)
Theorem cron_choice_sound : forall fuel created last deadline now t,
  earliest_time created last deadline now true <= hi -> now <= hi ->
  next_schedule_time next fuel created last deadline now = NsOk (Some t) ->
  let e := earliest_time created last deadline now true in
  sched t /\ e < t /\ t <= now /\ (forall s, sched s -> t < s -> now < s).
Proof.
  intros fuel created last deadline now t He Hnow E.
  destruct (cron_choice_bounds _ _ _ _ _ _ He Hnow E) as (Hs & Het & Hle & Hn).
  repeat split; auto. apply no_point_between; auto. lia.
Qed.

(* the loop fuel that suffices: one step per whole second between the start
   of the catch-up and now *)
Lemma mr_loop_fuel : forall now, now <= hi -> forall fuel t most,
  (exists k, t = k * sec) -> (Z.to_nat ((now - t) / sec + 1) <= fuel)%nat ->
  mr_loop next fuel now t most <> None.
Proof.
  intros now Hnow fuel t most Hk Hf.
  apply (mr_loop_terminates next (fun t => exists k, t = k * sec)
                            (fun t => Z.to_nat ((now - t) / sec + 1)) now); auto.
  intros u [k ->] Hle. pose proof sec_pos as Hs.
  destruct (next_sec (k * sec) ltac:(lia)) as [k' Hk']. pose proof (next_gt (k * sec) ltac:(lia)) as Hgt.
  split; [eauto|]. rewrite Hk' in *. assert (k + 1 <= k') by nia.
  assert (0 <= (now - k * sec) / sec) by (apply Z.div_pos; lia).
  replace (now - k * sec) with ((now - k' * sec) + (k' - k) * sec) in * by lia.
  rewrite Z.div_add in * by lia. lia.
Qed.

Section Regular.
Variable p : Z.   (* the period in seconds *)
Hypothesis p_pos : 0 < p.
Hypothesis next_regular : forall s, s <= hi -> sched s -> next s = s + p * sec.

Lemma regular_iter : forall s, sched s -> forall k, 0 <= k -> s + k * (p * sec) <= hi ->
  sched (s + k * (p * sec)) /\ next (s + k * (p * sec)) = s + (k + 1) * (p * sec).
Proof.
  intros s Hs k Hk. pattern k. apply natlike_ind; [| |assumption].
  - intros Hb. replace (s + 0 * (p * sec)) with s in * by lia. split; auto. rewrite next_regular; auto. lia.
  - intros x Hx IH Hb. unfold Z.succ in *. pose proof sec_pos.
    destruct IH as [IH1 IH2]; [nia|].
    assert (S1 : sched (s + (x + 1) * (p * sec))). { exists (s + x * (p * sec)). split; [nia|exact IH2]. }
    split; auto. rewrite next_regular; auto. lia.
Qed.

Theorem cron_choice_complete_regular : forall fuel created last deadline now,
  (2 <= fuel)%nat ->
  let e := earliest_time created last deadline now true in
  e <= hi -> now <= hi ->
  (exists s, sched s /\ e < s /\ s <= now) ->
  exists t, next_schedule_time next fuel created last deadline now = NsOk (Some t).
Proof.
  intros fuel created last deadline now Hfuel e Hehi Hnow (s & Hs & Hes & Hsn).
  unfold next_schedule_time, most_recent. fold e.
  set (t1 := next e). set (t2 := next t1).
  assert (Ht1 : t1 <= s) by (apply next_least; auto).
  destruct (Z.ltb_spec now t1); [lia|].
  destruct (Z.ltb_spec now t2).
  - cbn [snd]. destruct (Z.ltb_spec now t1); [lia|]. now exists t1.
  - assert (S1 : sched t1) by (exists e; auto).
    assert (E2 : t2 = t1 + p * sec) by (apply next_regular; auto; lia).
    pose proof sec_pos as Hsec.
    replace (t2 - t1) with (p * sec) by lia. rewrite round_sec_exact.
    destruct (Z.ltb_spec p 1); [lia|].
    set (E := (now - t1) / sec).
    assert (HE1 : E * sec <= now - t1 < (E + 1) * sec).
    { unfold E. pose proof (Z.mul_div_le (now - t1) sec Hsec).
      pose proof (Z.mul_succ_div_gt (now - t1) sec Hsec). lia. }
    assert (HEp : p <= E). { unfold E. apply Z.div_le_lower_bound; lia. }
    set (q := E / p).
    assert (Hq : q * p <= E < (q + 1) * p).
    { unfold q. pose proof (Z.mul_div_le E p p_pos). pose proof (Z.mul_succ_div_gt E p p_pos). lia. }
    assert (Hq1 : 1 <= q) by (unfold q; apply Z.div_le_lower_bound; lia).
    replace (t1 + (q + 1 - 2) * p * sec) with (t1 + (q - 1) * (p * sec)) by lia.
    destruct (regular_iter t1 S1 (q - 1)) as [Sp Np]; [lia|nia|].
    rewrite Np. replace (q - 1 + 1) with q by lia.
    destruct (regular_iter t1 S1 q) as [Sq Nq]; [lia|nia|].
    destruct fuel as [|[|f]]; [lia|lia|].
    cbn [mr_loop].
    destruct (Z.ltb_spec now (t1 + q * (p * sec))); [nia|].
    rewrite Nq.
    assert (Hgt : now < t1 + (q + 1) * (p * sec)) by nia.
    assert (Hb : (now <? t1 + (q + 1) * (p * sec)) = true) by (apply Z.ltb_lt; exact Hgt).
    destruct f; cbn [mr_loop]; rewrite Hb; cbn [snd];
      (destruct (Z.ltb_spec now (t1 + q * (p * sec))); [lia|]); eexists; reflexivity.
Qed.
End Regular.
End Choice.

Lemma fold_left_inv : forall {A B} (P : A -> Prop) (f : A -> B -> A) l a,
  P a -> (forall a b, P a -> P (f a b)) -> P (fold_left f l a).
Proof. intros A B P f l. induction l; cbn; auto. Qed.

Lemma del_active_incl : forall a u, incl (del_active a u) a.
Proof. intros a u x Hx. unfold del_active in Hx. apply filter_In in Hx. tauto. Qed.

Lemma del_active_keeps : forall a u r, In r a -> r_uid r <> u -> In r (del_active a u).
Proof.
  intros a u r Hr Hu. unfold del_active. apply filter_In. split; auto.
  destruct (Z.eqb_spec (r_uid r) u); [contradiction|reflexivity].
Qed.

Lemma remove_job_incl : forall js n, incl (remove_job js n) js.
Proof. intros js n x Hx. unfold remove_job in Hx. apply filter_In in Hx. tauto. Qed.

Lemma find_job_In : forall js n j, find_job js n = Some j -> In j js /\ j_name j = n.
Proof.
  induction js as [|k r IH]; cbn; [discriminate|]. intros n j.
  destruct (Z.eqb_spec (j_name k) n).
  - intros E; inversion E; subst. auto.
  - intros E. apply IH in E. tauto.
Qed.

Lemma insert_job_In : forall j js x, In x (insert_job j js) -> x = j \/ In x js.
Proof.
  induction js as [|k r IH]; cbn; intros x.
  - intros [H|[]]; auto.
  - destruct (j_name j <=? j_name k); cbn.
    + intros [H|H]; auto.
    + intros [H|H]; auto. apply IH in H. tauto.
Qed.

Lemma as_cur_del : forall s u,
  as_cur (as_del s u) = as_cur s \/
  as_cur (as_del s u) = filter (fun r => negb (r_uid r =? u)) (as_cur s).
Proof.
  intros s u. unfold as_del.
  set (kept := filter (fun r => negb (r_uid r =? u)) (as_cur s)).
  destruct (length kept <? alen s)%nat; [right|left; reflexivity].
  unfold as_cur at 1. cbn [bk alen].
  rewrite firstn_app, Nat.sub_diag, firstn_all. cbn. apply app_nil_r.
Qed.

Lemma as_del_incl : forall s u, incl (as_cur (as_del s u)) (as_cur s).
Proof.
  intros s u. destruct (as_cur_del s u) as [E|E]; rewrite E; [apply incl_refl|].
  intros x Hx. apply filter_In in Hx. tauto.
Qed.

Lemma as_cur_of : forall a, as_cur (as_of a) = a.
Proof. intros. unfold as_cur, as_of. cbn. apply firstn_all. Qed.

Lemma ins_sorted_incl : forall j l x, In x (ins_sorted j l) -> x = j \/ In x l.
Proof.
  induction l as [|k r IH]; cbn; intros x.
  - intros [H|[]]; auto.
  - destruct (job_less k j); cbn; intros [H|H]; auto. apply IH in H. tauto.
Qed.

Lemma sort_jobs_incl : forall l, incl (sort_jobs l) l.
Proof.
  induction l as [|j r IH]; cbn; [apply incl_refl|].
  intros x Hx. apply ins_sorted_incl in Hx. destruct Hx; [left; auto|right; auto].
Qed.

Lemma firstn_incl : forall {A} n (l : list A), incl (firstn n l) l.
Proof. intros A n l x Hx. rewrite <- (firstn_skipn n l). apply in_or_app. auto. Qed.

(* one reconcile is the clean-up, then the decision half on what it left, then the write-back rule *)
Lemma reconcile_parts : forall next lenient fuel s now fc s' o,
  reconcile next lenient fuel s now fc = (s', o) ->
  exists st1 jobs1 hd upd1 st2 jobs2 uid2,
    cleanup (s_spec s) (s_status s) (s_jobs s) = (st1, jobs1, hd, upd1) /\
    decide next lenient fuel (s_spec s) st1 jobs1 (s_next_uid s) now fc upd1 hd = (st2, jobs2, uid2, o) /\
    s' = mkState (s_spec s) (if (o_err o =? E_OK) && o_upd o then st2 else s_status s) jobs2 uid2.
Proof.
  intros until o. unfold reconcile.
  destruct (cleanup (s_spec s) (s_status s) (s_jobs s)) as [[[st1 jobs1] hd] upd1].
  destruct (decide next lenient fuel (s_spec s) st1 jobs1 (s_next_uid s) now fc upd1 hd)
    as [[[st2 jobs2] uid2] o2] eqn:ED.
  intros E; inversion E; subst. exists st1, jobs1, hd, upd1, st2, jobs2, uid2. auto.
Qed.

Section Controller.
Variable next : Z -> Z.
Variable lenient : bool.
(* as in Section Choice: only up to an instant [hi] that bounds the creation
   time, the last schedule time and every now of the history *)
Variable hi : Z.
Hypothesis next_gt : forall t, t <= hi -> t < next t.
Hypothesis next_sec : forall t, t <= hi -> exists k, next t = k * sec.

Lemma chosen_after_earliest : forall fuel created last deadline now t,
  earliest_time created last deadline now true <= hi -> now <= hi ->
  next_schedule_time next fuel created last deadline now = NsOk (Some t) ->
  earliest_time created last deadline now true < t /\ t <= now.
Proof. intros until t. intros He Hnow E. apply (cron_choice_bounds next hi next_gt next_sec) in E; tauto. Qed.

Lemma chosen_after_last : forall fuel created l deadline now t,
  earliest_time created (Some l) deadline now true <= hi -> now <= hi ->
  next_schedule_time next fuel created (Some l) deadline now = NsOk (Some t) -> l < t.
Proof.
  intros. apply chosen_after_earliest in H1; auto. pose proof (earliest_ge_base created (Some l) deadline now true) as G. cbv iota in G. lia.
Qed.

(* everything the controller passes to [next] stays below [hi] *)
Definition bounded (s : cstate) : Prop :=
  c_created (s_spec s) <= hi /\
  (forall l, st_last (s_status s) = Some l -> l <= hi) /\
  (forall d, c_deadline (s_spec s) = Some d -> 0 <= d).

Lemma earliest_le_hi : forall created last deadline now incl,
  created <= hi -> (forall l, last = Some l -> l <= hi) -> (forall d, deadline = Some d -> 0 <= d) ->
  now <= hi -> earliest_time created last deadline now incl <= hi.
Proof.
  intros created last deadline now incl Hc Hl Hd Hn. unfold earliest_time. pose proof sec_pos.
  assert (match last with Some l => l | None => created end <= hi).
  { destruct last as [l|]; auto. }
  destruct incl; [|assumption]. destruct deadline as [d|]; [|assumption].
  specialize (Hd d eq_refl). destruct (Z.ltb_spec (match last with Some l => l | None => created end) (now - d * sec)); nia.
Qed.

(* what every return of createJob and of the decision half has in common *)
Definition exit_ok (fuel : nat) (spec : cspec) (now : Z) (hd : list Z) (st' : cstatus) (o : rout) : Prop :=
  o_status o = st' /\ o_hist_deletes o = hd /\
  (o_err o = E_FUEL -> exists l, requeue_after next fuel (c_created spec) l (c_deadline spec) now = None).

Lemma fin_exit : forall fuel spec now hd st2 jobs2 uid2 upd2 cr rd st' jobs' uid' o,
  fin next fuel spec now hd st2 jobs2 uid2 upd2 cr rd = (st', jobs', uid', o) ->
  (o_err o = E_OK \/ o_err o = E_FUEL) /\
  exit_ok fuel spec now hd st' o /\ st' = st2 /\ jobs' = jobs2 /\ uid' = uid2 /\ o_creates o = cr /\ o_upd o = upd2.
Proof.
  intros until o. unfold fin, exit_ok.
  destruct (requeue_after next fuel (c_created spec) (st_last st2) (c_deadline spec) now) eqn:ER;
    intros E; inversion E; subst; cbn; repeat split; eauto; discriminate.
Qed.

Lemma direct_exit : forall fuel spec now hd st2 (jobs2 : list job) (uid2 : Z) upd2 e rd st' jobs' uid' o, e <> E_FUEL ->
  (st2, jobs2, uid2, mkOut None upd2 e [] hd rd st2) = (st', jobs', uid', o) ->
  exit_ok fuel spec now hd st' o /\ st' = st2 /\ jobs' = jobs2 /\ uid' = uid2 /\ o_creates o = [] /\ o_upd o = upd2.
Proof. intros until o. intros He E. inversion E; subst. unfold exit_ok. cbn. repeat split; auto. contradiction. Qed.

Lemma replace_loop_incl : forall idx s jobs dels upd s' jobs' dels' upd' ok,
  replace_loop idx s jobs dels upd = (s', jobs', dels', upd', ok) ->
  incl (as_cur s') (as_cur s) /\ incl jobs' jobs.
Proof.
  induction idx as [|i rest IH]; cbn; intros until ok.
  - intros E; inversion E; subst. split; apply incl_refl.
  - destruct (nth_error (bk s) i) as [r|]; [|intros E; inversion E; subst; split; apply incl_refl].
    destruct (find_job jobs (r_name r)) as [j|]; [|intros E; inversion E; subst; split; apply incl_refl].
    intros E. apply IH in E. destruct E as [E1 E2]. split.
    + eapply incl_tran; [exact E1|apply as_del_incl].
    + eapply incl_tran; [exact E2|apply remove_job_incl].
Qed.

Lemma apply_policy_spec : forall spec st jobs upd0 skip st1 jobs1 rd upd1 ok,
  apply_policy spec st jobs upd0 = (skip, st1, jobs1, rd, upd1, ok) ->
  incl (st_active st1) (st_active st) /\ incl jobs1 jobs /\ st_last st1 = st_last st /\
  (c_policy spec = Forbid -> skip = false -> st_active st = []).
Proof.
  intros until ok. unfold apply_policy. destruct (c_policy spec).
  - intros E; inversion E; subst. repeat split; try apply incl_refl. discriminate.
  - destruct (st_active st) eqn:Ea; intros E; inversion E; subst; rewrite ?Ea;
      repeat split; try apply incl_refl; auto. discriminate.
  - destruct (replace_loop (seq 0 (length (st_active st))) (as_of (st_active st)) jobs [] false)
      as [[[[s j'] d'] u'] o'] eqn:ER.
    intros E; inversion E; subst. apply replace_loop_incl in ER. rewrite as_cur_of in ER.
    cbn. repeat split; try tauto. discriminate.
Qed.

Definition uid_ok (n : Z) (a : list jref) (js : list job) : Prop :=
  Forall (fun r => r_uid r < n) a /\ Forall (fun j => j_uid j < n) js.

Lemma uid_ok_incl : forall n a js a' js', uid_ok n a js -> incl a' a -> incl js' js -> uid_ok n a' js'.
Proof. intros n a js a' js' [H1 H2] I1 I2. split; eapply incl_Forall; eauto. Qed.

Lemma uid_ok_mono : forall n m a js, uid_ok n a js -> n <= m -> uid_ok m a js.
Proof.
  intros n m a js [H1 H2] L. split; eapply Forall_impl; try eassumption; cbn; intros; lia.
Qed.

Lemma in_active_false : forall a n, Forall (fun r => r_uid r < n) a -> in_active a n = false.
Proof.
  intros a n H. unfold in_active. induction H; cbn; auto.
  rewrite IHForall. destruct (Z.eqb_spec (r_uid x) n); [lia|reflexivity].
Qed.

Definition starts (o : rout) (t : Z) : Prop := o_creates o = [(job_name_of t, t)].

(* the exits of createJob: nothing is created and the server is as it was (the
   status too, unless a job of that name is adopted into it), or the job is
   created under a free name and a fresh UID *)
Lemma create_job_cases : forall fuel spec now hd fc t st1 jobs1 uid upd1 rd st' jobs' uid' o,
  create_job next lenient fuel spec now hd fc t st1 jobs1 uid upd1 rd = (st', jobs', uid', o) ->
  exit_ok fuel spec now hd st' o /\
  ((o_creates o = [] /\ jobs' = jobs1 /\ uid' = uid /\
    ((st' = st1 /\ o_upd o = upd1) \/
     exists ex, find_job jobs1 (job_name_of t) = Some ex /\ o_upd o = true /\
       st' = mkStatus (Some t) (st_active st1 ++ [mkRef (job_name_of t) (j_uid ex)]) (st_last_success st1))) \/
   (starts o t /\ find_job jobs1 (job_name_of t) = None /\
    jobs' = insert_job (mkJob (job_name_of t) uid OwnThis PhOther (Some now) None) jobs1 /\ uid' = uid + 1 /\
    (o_err o = E_OK \/ o_err o = E_FUEL) /\
    ((in_active (st_active st1) uid = true /\ st' = st1 /\ o_upd o = upd1) \/
     (o_upd o = true /\
      st' = mkStatus (Some t) (st_active st1 ++ [mkRef (job_name_of t) uid]) (st_last_success st1))))).
Proof.
  intros until o. unfold create_job, starts. intros E.
  destruct fc; [apply (direct_exit fuel spec now) in E; [tauto|discriminate]|].
  destruct (find_job jobs1 (job_name_of t)) as [ex|].
  - destruct (negb lenient); [apply (direct_exit fuel spec now) in E; [tauto|discriminate]|].
    match goal with |- ?G =>
      assert (Same : fin next fuel spec now hd st1 jobs1 uid upd1 [] rd = (st', jobs', uid', o) -> G)
        by (intros E'; apply fin_exit in E'; tauto)
    end.
    destruct (j_owner ex), (finished (j_phase ex)), (in_active (st_active st1) (j_uid ex));
      try exact (Same E).
    apply fin_exit in E. destruct E as (_ & X & -> & -> & -> & Ec & Eu).
    split; [exact X|]. left. repeat split; auto. right. eauto.
  - destruct (in_active (st_active st1) uid); apply fin_exit in E; tauto.
Qed.

Lemma uid_ok_add_ref : forall n a js nm u, uid_ok n a js -> u < n -> uid_ok n (a ++ [mkRef nm u]) js.
Proof.
  intros n a js nm u [H1 H2] Hu. split; [|exact H2]. apply Forall_app. split; [exact H1|].
  constructor; [exact Hu|constructor].
Qed.

Lemma uid_ok_insert : forall n a js j, uid_ok n a js -> j_uid j < n -> uid_ok n a (insert_job j js).
Proof.
  intros n a js j [H1 H2] Hj. split; [exact H1|]. rewrite Forall_forall in *. intros x Hx.
  apply insert_job_In in Hx. destruct Hx as [->|Hx]; auto.
Qed.

(* the exits of the decision half of syncCronJob: nothing is attempted; or a
   time t is chosen and the policy applied, after which either nothing more
   happens or createJob runs.  The fuel error has two sources only. *)
Lemma decide_cases : forall fuel spec st jobs uid now fc upd0 hd st' jobs' uid' o,
  decide next lenient fuel spec st jobs uid now fc upd0 hd = (st', jobs', uid', o) ->
  o_status o = st' /\ o_hist_deletes o = hd /\
  (o_err o = E_FUEL ->
   next_schedule_time next fuel (c_created spec) (st_last st) (c_deadline spec) now = NsFuel \/
   exists l, requeue_after next fuel (c_created spec) l (c_deadline spec) now = None) /\
  ((o_creates o = [] /\ st' = st /\ jobs' = jobs /\ uid' = uid) \/
   exists t skip st1 jobs1 rd upd1 ok,
     c_suspend spec = false /\ c_tz_ok spec = true /\
     next_schedule_time next fuel (c_created spec) (st_last st) (c_deadline spec) now = NsOk (Some t) /\
     apply_policy spec st jobs upd0 = (skip, st1, jobs1, rd, upd1, ok) /\
     ((o_creates o = [] /\ st' = st1 /\ jobs' = jobs1 /\ uid' = uid) \/
      (skip = false /\
       create_job next lenient fuel spec now hd fc t st1 jobs1 uid upd1 rd = (st', jobs', uid', o)))).
Proof.
  intros until o. unfold decide. intros E.
  set (F := next_schedule_time next fuel (c_created spec) (st_last st) (c_deadline spec) now = NsFuel \/
            exists l, requeue_after next fuel (c_created spec) l (c_deadline spec) now = None).
  assert (Idle : forall st2 jobs2 upd2,
    exit_ok fuel spec now hd st' o /\ st' = st2 /\ jobs' = jobs2 /\ uid' = uid /\ o_creates o = [] /\ o_upd o = upd2 ->
    o_status o = st' /\ o_hist_deletes o = hd /\ (o_err o = E_FUEL -> F) /\
    o_creates o = [] /\ st' = st2 /\ jobs' = jobs2 /\ uid' = uid).
  { intros st2 jobs2 upd2 ((Es & Eh & Ef) & ? & ? & ? & ? & _). repeat split; auto. intros Hf. right. auto. }
  destruct (c_suspend spec) eqn:Hsus;
    [apply (direct_exit fuel spec now), Idle in E; [tauto|discriminate]|].
  destruct (c_tz_ok spec) eqn:Htz; cbn [negb] in E;
    [|apply (direct_exit fuel spec now), Idle in E; [tauto|discriminate]].
  destruct (next_schedule_time next fuel (c_created spec) (st_last st) (c_deadline spec) now) as [| |[t|]] eqn:EN.
  1: apply (direct_exit fuel spec now), Idle in E; [tauto|discriminate].
  1: inversion E; subst; cbn; repeat split; auto; left; auto.
  2: apply fin_exit, proj2, Idle in E; tauto.
  destruct (in_active_by_name (st_active st) (job_name_of t) || _); [apply fin_exit, proj2, Idle in E; tauto|].
  destruct (apply_policy spec st jobs upd0) as [[[[[skip st1] jobs1] rd] upd1] ok].
  destruct ok; cbn [negb] in E.
  2:{ apply (direct_exit fuel spec now), Idle in E; [|discriminate]. destruct E as (E1 & E2 & E3 & E).
      refine (conj E1 (conj E2 (conj E3 (or_intror _)))). exists t, skip, st1, jobs1, rd, upd1, false. intuition. }
  destruct skip.
  { apply fin_exit, proj2, Idle in E. destruct E as (E1 & E2 & E3 & E).
    refine (conj E1 (conj E2 (conj E3 (or_intror _)))). exists t, true, st1, jobs1, rd, upd1, true. intuition. }
  pose proof (create_job_cases _ _ _ _ _ _ _ _ _ _ _ _ _ _ _ E) as ((Cs & Ch & Cf) & _).
  refine (conj Cs (conj Ch (conj (fun Hf => or_intror (Cf Hf)) (or_intror _)))).
  exists t, false, st1, jobs1, rd, upd1, true. intuition.
Qed.

(* what a reconcile can start, and what it does to lastScheduleTime *)
Lemma decide_spec : forall fuel spec st jobs uid now fc upd0 hd st' jobs' uid' o,
  decide next lenient fuel spec st jobs uid now fc upd0 hd = (st', jobs', uid', o) ->
  uid_ok uid (st_active st) jobs ->
  o_status o = st' /\ o_hist_deletes o = hd /\ uid <= uid' /\ uid_ok uid' (st_active st') jobs' /\
  ((o_creates o = [] /\
    (st_last st' = st_last st \/
     exists t, next_schedule_time next fuel (c_created spec) (st_last st) (c_deadline spec) now = NsOk (Some t) /\
               st_last st' = Some t /\ o_upd o = true)) \/
   (exists t, starts o t /\
              next_schedule_time next fuel (c_created spec) (st_last st) (c_deadline spec) now = NsOk (Some t) /\
              c_suspend spec = false /\ (c_policy spec = Forbid -> st_active st = []) /\
              st_last st' = Some t /\ o_upd o = true /\ (o_err o = E_OK \/ o_err o = E_FUEL) /\
              (c_policy spec = Forbid -> st_active st' = [mkRef (job_name_of t) uid]))).
Proof.
  intros until o. intros E Hok.
  destruct (decide_cases _ _ _ _ _ _ _ _ _ _ _ _ _ E) as (Es & Eh & _ & D).
  split; [exact Es|]. split; [exact Eh|].
  destruct D as [(Ec & -> & -> & ->)|(t & skip & st1 & jobs1 & rd & upd1 & ok & Hsus & _ & EN & EP & D)].
  { split; [lia|]. split; [exact Hok|]. left. auto. }
  apply apply_policy_spec in EP. destruct EP as (I1 & I2 & EL & HF).
  assert (Hok1 : uid_ok uid (st_active st1) jobs1) by (eapply uid_ok_incl; eauto).
  destruct D as [(Ec & -> & -> & ->)|(-> & EC)].
  { split; [lia|]. split; [exact Hok1|]. left. auto. }
  apply create_job_cases in EC.
  destruct EC as (_ & [(Ec & -> & -> & HS)|(Hs & _ & -> & -> & He & HS)]).
  - split; [lia|]. destruct HS as [[-> _]|(ex & Hex & Hu & ->)].
    + split; [exact Hok1|]. left. auto.
    + split; [|left; split; [exact Ec|right; exists t; auto]].
      apply uid_ok_add_ref; [exact Hok1|]. apply find_job_In in Hex.
      destruct Hok1 as [_ H2]. rewrite Forall_forall in H2. apply H2, Hex.
  - destruct HS as [[Hin _]|[Hu ->]]; [rewrite in_active_false in Hin by apply Hok1; discriminate|].
    split; [lia|]. split.
    + apply uid_ok_insert; [|cbn; lia]. apply uid_ok_add_ref; [|lia]. eapply uid_ok_mono; [exact Hok1|lia].
    + right. exists t. repeat split; auto. intros HFb. cbn.
      destruct (st_active st1) as [|x r]; [reflexivity|].
      specialize (I1 x (or_introl eq_refl)). rewrite (HF HFb eq_refl) in I1. destruct I1.
Qed.

(* processFinishedJobs, one job: only a finished job changes anything; its reference leaves
   status.active and it joins the list of its phase *)
Lemma pf_step_cases : forall st upd succ failed j st' upd' succ' failed',
  pf_step (st, upd, succ, failed) j = (st', upd', succ', failed') ->
  st_last st' = st_last st /\
  (st_active st' = st_active st \/
   finished (j_phase j) = true /\ st_active st' = del_active (st_active st) (j_uid j)) /\
  (succ' = succ \/ j_phase j = PhCompleted /\ succ' = succ ++ [j]) /\
  (failed' = failed \/ j_phase j = PhFailed /\ failed' = failed ++ [j]).
Proof.
  intros until failed'. unfold pf_step.
  destruct (finished (j_phase j)) eqn:Hf; [|intros E; inversion E; subst; tauto].
  destruct (in_active (st_active st) (j_uid j)), (j_phase j) eqn:Hp; try discriminate Hf;
    try (intros E; inversion E; subst; cbn; tauto).
  all: destruct (st_last_success st) as [cur|] eqn:Els, (j_finish j) as [f|];
    cbn -[after_ls]; repeat (rewrite Els; cbn -[after_ls]); try destruct (after_ls f _);
    intros E; inversion E; subst; cbn; tauto.
Qed.

Lemma pf_fold_spec : forall l st upd succ failed st' upd' succ' failed',
  fold_left pf_step l (st, upd, succ, failed) = (st', upd', succ', failed') ->
  st_last st' = st_last st /\ incl (st_active st') (st_active st) /\
  (forall r, In r (st_active st) ->
     (forall j, In j l -> finished (j_phase j) = true -> j_uid j <> r_uid r) -> In r (st_active st')) /\
  (forall x, In x succ' -> In x succ \/ (In x l /\ j_phase x = PhCompleted)) /\
  (forall x, In x failed' -> In x failed \/ (In x l /\ j_phase x = PhFailed)).
Proof.
  induction l as [|j r IH]; cbn [fold_left]; intros until failed'; intros E.
  - inversion E; subst. repeat split; auto. apply incl_refl.
  - destruct (pf_step (st, upd, succ, failed) j) as [[[s1 u1] su1] fa1] eqn:EP.
    apply IH in E. destruct E as (H1 & H2 & H3 & H4 & H5).
    apply pf_step_cases in EP. destruct EP as (P1 & P2 & P3 & P4).
    split; [congruence|]. split; [|split; [|split]].
    + eapply incl_tran; [exact H2|]. destruct P2 as [->|[_ ->]]; [apply incl_refl|apply del_active_incl].
    + intros rf Hr Hsafe. apply H3.
      * destruct P2 as [->|[Hf ->]]; [exact Hr|]. apply del_active_keeps; auto.
        intro Heq. apply (Hsafe j (or_introl eq_refl) Hf). auto.
      * intros j' Hj'. apply Hsafe. right; auto.
    + intros x Hx. destruct (H4 x Hx) as [Hs|[Hi Hp]]; [|right; split; [right|]; auto].
      destruct P3 as [->|[Hp ->]]; [auto|]. apply in_app_or in Hs.
      destruct Hs as [Hs|[<-|[]]]; [auto|right; split; [left|]; auto].
    + intros x Hx. destruct (H5 x Hx) as [Hs|[Hi Hp]]; [|right; split; [right|]; auto].
      destruct P4 as [->|[Hp ->]]; [auto|]. apply in_app_or in Hs.
      destruct Hs as [Hs|[<-|[]]]; [auto|right; split; [left|]; auto].
Qed.

Lemma delete_each_spec : forall victims st jobs dels upd st' jobs' dels' upd',
  delete_each victims st jobs dels upd = (st', jobs', dels', upd') ->
  st_last st' = st_last st /\ incl (st_active st') (st_active st) /\ incl jobs' jobs /\
  dels' = dels ++ map j_name victims.
Proof.
  induction victims as [|v r IH]; cbn; intros until upd'.
  - intros E; inversion E; subst. repeat split; try apply incl_refl. now rewrite app_nil_r.
  - destruct (find_job jobs (j_name v)); intros E; apply IH in E;
      destruct E as (E1 & E2 & E3 & E4); subst; cbn in *; rewrite <- app_assoc; cbn; repeat split; auto.
    + eapply incl_tran; [exact E2|apply del_active_incl].
    + eapply incl_tran; [exact E3|apply remove_job_incl].
Qed.

Lemma remove_oldest_spec : forall js limit st jobs dels upd st' jobs' dels' upd',
  remove_oldest js limit st jobs dels upd = (st', jobs', dels', upd') ->
  st_last st' = st_last st /\ incl (st_active st') (st_active st) /\ incl jobs' jobs /\
  exists vs, incl vs js /\ dels' = dels ++ map j_name vs.
Proof.
  intros until upd'. unfold remove_oldest. destruct limit as [mx|].
  2:{ intros E; inversion E; subst. repeat split; try apply incl_refl. exists []. split; [intros ? []|now rewrite app_nil_r]. }
  destruct (Z.of_nat (length js) - mx <=? 0).
  { intros E; inversion E; subst. repeat split; try apply incl_refl. exists []. split; [intros ? []|now rewrite app_nil_r]. }
  intros E. apply delete_each_spec in E. destruct E as (E1 & E2 & E3 & E4). repeat split; auto.
  eexists. split; [|exact E4]. eapply incl_tran; [apply firstn_incl|apply sort_jobs_incl].
Qed.

Definition is_hist_victim (jobs : list job) (name : Z) : Prop :=
  exists j, In j jobs /\ j_name j = name /\ j_owner j = OwnThis /\
            (j_phase j = PhCompleted \/ j_phase j = PhFailed).

Lemma mine_of_In : forall jobs j, In j (mine_of jobs) -> In j jobs /\ j_owner j = OwnThis.
Proof.
  intros jobs j H. unfold mine_of in H. apply filter_In in H. destruct H as [H1 H2].
  destruct (j_owner j); try discriminate. auto.
Qed.

Lemma process_finished_spec : forall spec st jobs st' jobs' hd upd,
  process_finished spec st (mine_of jobs) jobs = (st', jobs', hd, upd) ->
  st_last st' = st_last st /\ incl (st_active st') (st_active st) /\ incl jobs' jobs /\
  Forall (is_hist_victim jobs) hd.
Proof.
  intros until upd. unfold process_finished.
  destruct (fold_left pf_step (mine_of jobs) (st, false, [], [])) as [[[st1 upd1] succ] failed] eqn:EF.
  apply pf_fold_spec in EF. destruct EF as (I1 & I2 & _ & I3 & I4).
  destruct (c_fail_limit spec) as [fl|] eqn:Efl, (c_succ_limit spec) as [sl|] eqn:Esl.
  4:{ intros E; inversion E; subst. repeat split; auto. apply incl_refl. }
  all: destruct (remove_oldest succ _ st1 jobs [] upd1) as [[[st2 jobs2] dels2] upd2] eqn:ER1;
    intros ER2; apply remove_oldest_spec in ER1; apply remove_oldest_spec in ER2;
    destruct ER1 as (A1 & A2 & A3 & vs1 & V1 & D1); destruct ER2 as (B1 & B2 & B3 & vs2 & V2 & D2);
    (split; [congruence|]); (split; [eapply incl_tran; [exact B2|eapply incl_tran; eauto]|]);
    (split; [eapply incl_tran; eauto|]);
    subst; cbn; rewrite Forall_app; split; rewrite Forall_forall; intros n Hn;
    apply in_map_iff in Hn; destruct Hn as (v & <- & Hv).
  all: try (apply V1 in Hv; destruct (I3 _ Hv) as [[]|[Hm Hp]]; apply mine_of_In in Hm;
            exists v; repeat split; try tauto).
  all: try (apply V2 in Hv; destruct (I4 _ Hv) as [[]|[Hm Hp]]; apply mine_of_In in Hm;
            exists v; repeat split; try tauto).
Qed.

Lemma clean_stale_incl : forall lister mine a a' upd,
  clean_stale lister mine a = (a', upd) -> incl a' a.
Proof.
  intros lister mine a a' upd. unfold clean_stale.
  destruct (fold_left (stale_step lister (map j_uid mine)) (seq 0 (length a)) (as_of a, false)) as [s u] eqn:EF.
  intros E; inversion E; subst.
  assert (G : incl (as_cur (fst (fold_left (stale_step lister (map j_uid mine)) (seq 0 (length a)) (as_of a, false)))) a).
  { apply (fold_left_inv (fun acc : aslice * bool => incl (as_cur (fst acc)) a)).
    - cbn [fst]. rewrite as_cur_of. apply incl_refl.
    - intros [s0 u0] i H. cbn [fst] in *. unfold stale_step.
      destruct (nth_error (bk s0) i) as [r|]; [|exact H].
      destruct (existsb (Z.eqb (r_uid r)) (map j_uid mine)); [exact H|].
      destruct (find_job lister (r_name r)) as [j|].
      + destruct (j_uid j =? r_uid r); [exact H|]. cbn [fst]. eapply incl_tran; [apply as_del_incl|exact H].
      + cbn [fst]. eapply incl_tran; [apply as_del_incl|exact H]. }
  rewrite EF in G. exact G.
Qed.

Lemma cleanup_spec : forall spec st jobs st' jobs' hd upd,
  cleanup spec st jobs = (st', jobs', hd, upd) ->
  st_last st' = st_last st /\ incl (st_active st') (st_active st) /\ incl jobs' jobs /\
  Forall (is_hist_victim jobs) hd.
Proof.
  intros until upd. unfold cleanup.
  destruct (process_finished spec st (mine_of jobs) jobs) as [[[st1 jobs1] hd1] upd1] eqn:EP.
  destruct (clean_stale jobs (mine_of jobs) (st_active st1)) as [a2 upd2] eqn:EC.
  intros E; inversion E; subst. apply process_finished_spec in EP. apply clean_stale_incl in EC.
  destruct EP as (P1 & P2 & P3 & P4). cbn. repeat split; auto. eapply incl_tran; eauto.
Qed.

Definition last_le (a b : option Z) : Prop :=
  match a with Some x => exists y, b = Some y /\ x <= y | None => True end.
Definition last_lt (a : option Z) (t : Z) : Prop :=
  match a with Some x => x < t | None => True end.

Definition state_ok (s : cstate) : Prop :=
  uid_ok (s_next_uid s) (st_active (s_status s)) (s_jobs s).

(* the uid counter stays above every uid in status.active and on the server *)
Lemma reconcile_state_ok : forall fuel s now fc s' o,
  reconcile next lenient fuel s now fc = (s', o) -> state_ok s -> state_ok s'.
Proof.
  intros fuel s now fc s' o E Hok.
  apply reconcile_parts in E. destruct E as (st1 & jobs1 & hd & upd1 & st2 & jobs2 & uid2 & EC & ED & ->).
  apply cleanup_spec in EC. destruct EC as (_ & C2 & C3 & _).
  apply decide_spec in ED; [|eapply uid_ok_incl; eauto]. destruct ED as (_ & _ & Du & Dok & _).
  unfold state_ok. cbn [s_next_uid s_status s_jobs].
  destruct ((o_err o =? E_OK) && o_upd o); [exact Dok|].
  split; [apply (uid_ok_mono _ _ _ _ Hok Du)|apply Dok].
Qed.

Lemma reconcile_spec : forall fuel s now fc s' o,
  reconcile next lenient fuel s now fc = (s', o) -> state_ok s -> o_err o <> E_FUEL ->
  bounded s -> now <= hi ->
  state_ok s' /\ bounded s' /\ s_spec s' = s_spec s /\
  last_le (st_last (s_status s)) (st_last (s_status s')) /\
  Forall (is_hist_victim (s_jobs s)) (o_hist_deletes o) /\
  (o_creates o = [] \/
   exists t, starts o t /\ last_lt (st_last (s_status s)) t /\ t <= now /\
             earliest_time (c_created (s_spec s)) (st_last (s_status s)) (c_deadline (s_spec s)) now true < t /\
             st_last (s_status s') = Some t /\
             c_suspend (s_spec s) = false /\
             (c_policy (s_spec s) = Forbid ->
              st_active (s_status s') = [mkRef (job_name_of t) (s_next_uid s)])).
Proof.
  intros fuel s now fc s' o E Hok Hfuel (Bc & Bl & Bd) Hnow.
  pose proof (reconcile_state_ok _ _ _ _ _ _ E Hok) as SOK.
  apply reconcile_parts in E. destruct E as (st1 & jobs1 & hd & upd1 & st2 & jobs2 & uid2 & EC & ED & ->).
  apply cleanup_spec in EC. destruct EC as (C1 & C2 & C3 & C4).
  assert (Hok1 : uid_ok (s_next_uid s) (st_active st1) jobs1) by (eapply uid_ok_incl; eauto).
  apply decide_spec in ED; auto.
  destruct ED as (Ds & Dh & Du & Dok & Dc).
  assert (Hehi : earliest_time (c_created (s_spec s)) (st_last (s_status s)) (c_deadline (s_spec s)) now true <= hi)
    by (apply earliest_le_hi; auto).
  assert (LL : forall x, st_last (s_status s) = Some x -> forall t,
             next_schedule_time next fuel (c_created (s_spec s)) (st_last st1) (c_deadline (s_spec s)) now = NsOk (Some t) -> x < t).
  { intros x Hx t Ht. rewrite C1, Hx in Ht. rewrite Hx in Hehi. now apply chosen_after_last in Ht. }
  assert (LH : forall t,
             next_schedule_time next fuel (c_created (s_spec s)) (st_last st1) (c_deadline (s_spec s)) now = NsOk (Some t) -> t <= hi).
  { intros t Ht. rewrite C1 in Ht. apply chosen_after_earliest in Ht; auto. lia. }
  split; [exact SOK|]. cbn [s_status s_spec].
  split.
  { unfold bounded. cbn [s_spec s_status]. split; [exact Bc|]. split; [|exact Bd].
    destruct ((o_err o =? E_OK) && o_upd o); [|exact Bl].
    intros l Hl.
    destruct Dc as [[_ [HL|(t & Ht & HL & _)]]|(t & _ & Ht & _ & _ & HL & _)].
    - rewrite HL, C1 in Hl. auto.
    - rewrite HL in Hl. inversion Hl; subst. auto.
    - rewrite HL in Hl. inversion Hl; subst. auto. }
  split; [reflexivity|].
  rewrite Dh. split; [|split; [exact C4|]].
  - destruct ((o_err o =? E_OK) && o_upd o).
    + unfold last_le. destruct (st_last (s_status s)) as [x|] eqn:Ex; [|exact I].
      destruct Dc as [[_ [HL|(t & Ht & HL & _)]]|(t & _ & Ht & _ & _ & HL & _)].
      * exists x. rewrite HL, C1. split; auto. lia.
      * exists t. split; auto. specialize (LL x eq_refl t Ht). lia.
      * exists t. split; auto. specialize (LL x eq_refl t Ht). lia.
    + unfold last_le. destruct (st_last (s_status s)) as [x|]; [|exact I]. exists x. split; auto. lia.
  - destruct Dc as [[Hc _]|(t & Hs & Ht & Hsus & HF & HL & Hupd & He & HA)]; [left; exact Hc|].
    right. exists t.
    assert (Eok : o_err o = E_OK) by (destruct He; [assumption|contradiction]).
    rewrite Eok, Hupd. cbn.
    pose proof Ht as Ht'. rewrite C1 in Ht'. apply chosen_after_earliest in Ht'; auto.
    repeat split; auto; try tauto.
    unfold last_lt. destruct (st_last (s_status s)) as [x|] eqn:Ex; [|exact I]. eapply LL; eauto.
Qed.

Definition op_ok (o : op) : Prop :=
  match o with
  | OpReconcile now _ => now <= hi
  | OpDeadline (Some d) => 0 <= d
  | _ => True
  end.

Lemma last_le_refl : forall a, last_le a a.
Proof. intros [x|]; cbn; auto. exists x. split; auto. lia. Qed.

(* the same for every event of a history *)
Lemma step_state_ok : forall fuel s op s' out,
  step next lenient fuel s op = (s', out) -> state_ok s -> state_ok s'.
Proof.
  intros fuel s op s' out. unfold state_ok.
  destruct op; cbn [step]; try (intros E Hok; inversion E; subst; exact Hok).
  - destruct (reconcile next lenient fuel s now fail_create) as [s1 r] eqn:ER.
    intros E Hok; inversion E; subst. eapply reconcile_state_ok; eauto.
  - intros E [H1 H2]; inversion E; subst. split; [exact H1|]. cbn. rewrite Forall_forall in *.
    intros x Hx. apply in_map_iff in Hx. destruct Hx as (j & <- & Hj). specialize (H2 j Hj).
    destruct (j_name j =? name); cbn; auto.
  - intros E Hok; inversion E; subst. eapply uid_ok_incl; eauto; [apply incl_refl|apply remove_job_incl].
  - destruct (find_job (s_jobs s) name); intros E Hok; inversion E; subst; [exact Hok|].
    apply uid_ok_insert; [|cbn; lia]. eapply uid_ok_mono; [exact Hok|cbn; lia].
Qed.

Lemma step_spec : forall fuel s op s' out,
  step next lenient fuel s op = (s', out) -> state_ok s -> bounded s -> op_ok op ->
  (forall o, out = Some o -> o_err o <> E_FUEL) ->
  bounded s' /\ last_le (st_last (s_status s)) (st_last (s_status s')) /\
  match out with
  | None => True
  | Some o =>
    o_creates o = [] \/
    exists t, starts o t /\ last_lt (st_last (s_status s)) t /\ st_last (s_status s') = Some t
  end.
Proof.
  intros fuel s op s' out. destruct op; cbn [step op_ok];
    try (intros E Hok Hb _ _; inversion E; subst; split; [exact Hb|split; [apply last_le_refl|exact I]]).
  - destruct (reconcile next lenient fuel s now fail_create) as [s1 r] eqn:ER.
    intros E Hok Hb Hop Hf; inversion E; subst. apply reconcile_spec in ER; auto.
    destruct ER as (_ & RB & _ & R3 & _ & R5). split; [exact RB|]. split; [exact R3|].
    destruct R5 as [R5|(t & ? & ? & ? & ? & ? & ?)]; [left; auto|right; exists t; auto].
  - destruct (find_job (s_jobs s) name); intros E Hok Hb _ _; inversion E; subst;
      (split; [exact Hb|split; [apply last_le_refl|exact I]]).
  - intros E Hok (Bc & Bl & Bd) Hop _; inversion E; subst.
    split; [|split; [apply last_le_refl|exact I]].
    split; [exact Bc|]. split; [exact Bl|]. cbn. intros d0 Hd0. subst d. exact Hop.
Qed.

Lemma Forall_outs_cons : forall (P : rout -> Prop) (out : option rout) outs,
  Forall P (match out with Some x => x :: outs | None => outs end) ->
  (forall o, out = Some o -> P o) /\ Forall P outs.
Proof.
  intros P [x|] outs H; [inversion H; subst|]; split; auto; intros o Eo; inversion Eo; subst; auto.
Qed.

Fixpoint increasing_from (lo : option Z) (l : list Z) : Prop :=
  match l with
  | [] => True
  | x :: r => last_lt lo x /\ increasing_from (Some x) r
  end.

Lemma increasing_from_weaken : forall l a b, last_le a b -> increasing_from b l -> increasing_from a l.
Proof.
  destruct l as [|x r]; cbn; auto. intros a b Hab [H1 H2]. split; auto.
  unfold last_le, last_lt in *. destruct a as [ya|]; auto. destruct Hab as (y & -> & Hy). lia.
Qed.

Lemma increasing_from_NoDup : forall l lo, increasing_from lo l -> NoDup l /\ forall x, In x l -> last_lt lo x.
Proof.
  induction l as [|x r IH]; cbn; intros lo H.
  - split; [constructor|intros ? []].
  - destruct H as [H1 H2]. destruct (IH _ H2) as [N1 N2]. split.
    + constructor; auto. intros Hin. specialize (N2 x Hin). cbn in N2. lia.
    + intros y [<-|Hy]; auto. specialize (N2 y Hy). unfold last_lt in *. cbn in N2.
      destruct lo; auto. lia.
Qed.

(* over every history of reconciles (at arbitrary instants - in
   particular at non-decreasing ones) interleaved with job completions,
   deletions, foreign creations, suspend and policy changes, the schedule times
   for which a Create succeeded are strictly increasing: each schedule point
   starts at most one job *)
Theorem run_created_increasing : forall fuel ops s s' outs,
  run next lenient fuel s ops = (s', outs) -> state_ok s -> bounded s -> Forall op_ok ops ->
  Forall (fun o => o_err o <> E_FUEL) outs ->
  increasing_from (st_last (s_status s)) (created_times outs).
Proof.
  intros fuel. induction ops as [|op r IH]; cbn [run]; intros s s' outs.
  - intros E; inversion E; subst. cbn. auto.
  - destruct (step next lenient fuel s op) as [s1 out] eqn:ES.
    destruct (run next lenient fuel s1 r) as [s2 outs2] eqn:ER.
    intros E Hok Hb Hops Hf; inversion E; subst; clear E.
    inversion Hops as [|? ? Hop Hops']; subst.
    apply Forall_outs_cons in Hf. destruct Hf as [Hf1 Hf2].
    pose proof (step_state_ok _ _ _ _ _ ES Hok) as Hok1.
    apply step_spec in ES; auto. destruct ES as (Hb1 & HL & Hout).
    specialize (IH _ _ _ ER Hok1 Hb1 Hops' Hf2).
    destruct out as [o|]; [|eapply increasing_from_weaken; eauto].
    unfold created_times. cbn [flat_map]. fold (created_times outs2).
    destruct Hout as [Hc|(t & Hs & Hlt & Hlast)].
    + rewrite Hc. cbn. eapply increasing_from_weaken; eauto.
    + unfold starts in Hs. rewrite Hs. cbn. split; auto. rewrite Hlast in IH. exact IH.
Qed.

Theorem cron_at_most_once : forall fuel ops s s' outs,
  run next lenient fuel s ops = (s', outs) -> state_ok s -> bounded s -> Forall op_ok ops ->
  Forall (fun o => o_err o <> E_FUEL) outs ->
  NoDup (created_times outs).
Proof.
  intros. eapply increasing_from_NoDup. eapply run_created_increasing; eauto.
Qed.

(* suspended: no job is started, whatever the state *)
Theorem cron_respects_suspend : forall fuel s now fc s' o,
  reconcile next lenient fuel s now fc = (s', o) -> c_suspend (s_spec s) = true -> o_creates o = [].
Proof.
  intros fuel s now fc s' o. unfold reconcile.
  destruct (cleanup (s_spec s) (s_status s) (s_jobs s)) as [[[st1 jobs1] hd] upd1].
  unfold decide. intros E Hs. rewrite Hs in E. inversion E; subst. reflexivity.
Qed.

(* Forbid: a job is started only when the active list (after the finished and
   stale references have been dropped) is empty *)
Theorem cron_forbid : forall fuel spec st jobs uid now fc upd0 hd st' jobs' uid' o,
  decide next lenient fuel spec st jobs uid now fc upd0 hd = (st', jobs', uid', o) ->
  c_policy spec = Forbid -> st_active st <> [] -> o_creates o = [].
Proof.
  intros until o. intros E HF Hne.
  destruct (decide_cases _ _ _ _ _ _ _ _ _ _ _ _ _ E)
    as (_ & _ & _ & [D|(t & skip & st1 & jobs1 & rd & upd1 & ok & _ & _ & _ & EP & [D|[Hskip _]])]); try tauto.
  apply apply_policy_spec in EP. destruct EP as (_ & _ & _ & H). exfalso. auto.
Qed.

End Controller.

(* history limits delete only finished runs of this CronJob *)
Theorem history_deletes_finished_only : forall next lenient fuel s now fc s' o,
  reconcile next lenient fuel s now fc = (s', o) ->
  Forall (is_hist_victim (s_jobs s)) (o_hist_deletes o).
Proof.
  intros next lenient fuel s now fc s' o E.
  apply reconcile_parts in E. destruct E as (st1 & jobs1 & hd & upd1 & st2 & jobs2 & uid2 & EC & ED & ->).
  apply decide_cases in ED. destruct ED as (_ & -> & _).
  apply cleanup_spec in EC. tauto.
Qed.

(* points at seconds 100k and 100k+1 *)
Definition nxs (s : Z) : Z := if s mod 100 =? 0 then s + 1 else (s / 100 + 1) * 100.
Definition next_pairs (t : Z) : Z := nxs (t / sec) * sec.

Lemma nxs_gt : forall s, s + 1 <= nxs s.
Proof. intros s. unfold nxs. destruct (Z.eqb_spec (s mod 100) 0); [lia|]. Z.div_mod_to_equations. lia. Qed.

Lemma nxs_point : forall s, nxs s mod 100 = 0 \/ nxs s mod 100 = 1.
Proof.
  intros s. unfold nxs. destruct (Z.eqb_spec (s mod 100) 0).
  - right. Z.div_mod_to_equations. lia.
  - left. apply Z_mod_mult.
Qed.

Lemma nxs_least : forall q k, (k mod 100 = 0 \/ k mod 100 = 1) -> q < k -> nxs q <= k.
Proof.
  intros q k Hk Hq. unfold nxs. destruct (Z.eqb_spec (q mod 100) 0); [lia|].
  Z.div_mod_to_equations. lia.
Qed.

Lemma next_pairs_gt : forall t, t < next_pairs t.
Proof.
  intros t. unfold next_pairs. pose proof (nxs_gt (t / sec)). pose proof sec_pos.
  pose proof (Z.mul_succ_div_gt t sec H0). nia.
Qed.

Lemma next_pairs_least : forall hi t s, sched next_pairs hi s -> t < s -> next_pairs t <= s.
Proof.
  intros hi t s [u [_ <-]] Hlt. unfold next_pairs in *. pose proof sec_pos.
  assert (Hq : t / sec < nxs (u / sec)). { apply Z.div_lt_upper_bound; lia. }
  pose proof (nxs_least (t / sec) (nxs (u / sec)) (nxs_point _) Hq). nia.
Qed.

Lemma next_pairs_sec : forall t, exists k, next_pairs t = k * sec.
Proof. intros t. eexists. reflexivity. Qed.

(* with an irregular schedule the choice is NOT complete: unmet schedule points
   exist in (earliest, now] and yet nothing is chosen (a missed start) *)
Theorem cron_complete_refuted :
  exists next, (forall t, t < next t) /\ (forall hi t s, sched next hi s -> t < s -> next t <= s) /\
               (forall t, exists k, next t = k * sec) /\
  exists fuel created last deadline now,
    (exists s, sched next now s /\ earliest_time created last deadline now true < s /\ s <= now) /\
    next_schedule_time next fuel created last deadline now = NsOk None.
Proof.
  exists next_pairs. split; [exact next_pairs_gt|]. split; [exact next_pairs_least|]. split; [exact next_pairs_sec|].
  exists 10%nat, (- sec), None, None, (150 * sec). split.
  - exists (100 * sec). split; [exists (50 * sec); vm_compute; split; [discriminate|reflexivity]|].
    vm_compute. split; [reflexivity|discriminate].
  - vm_compute. reflexivity.
Qed.

Definition ex_spec : cspec := mkSpec (- sec) false Forbid None (Some 1) (Some 1) true.
Definition ex_state : cstate :=
  mkState ex_spec (mkStatus None [] None)
          [mkJob 7 1 OwnThis PhCompleted (Some 5) (Some 6); mkJob 8 2 OwnThis PhCompleted (Some 6) (Some 7)] 3.

(* a well-formed state; two reconciles start two different schedule points,
   the second only after the first run has finished (Forbid), and the history
   limit removes exactly the older finished job *)
Example controller_nonvacuous :
  state_ok ex_state /\
  let '(s', outs) := run next_pairs false 10 ex_state
                         [OpReconcile (100 * sec) false; OpReconcile (200 * sec) false;
                          OpFinish 1 PhCompleted (Some (200 * sec)); OpReconcile (200 * sec + 5) false] in
  created_times outs = [100 * sec; 200 * sec] /\
  map o_hist_deletes outs = [[7]; []; [8]] /\
  Forall (fun o => o_err o <> E_FUEL) outs.
Proof.
  split.
  - split; repeat constructor.
  - vm_compute. split; [reflexivity|]. split; [reflexivity|].
    repeat constructor; discriminate.
Qed.

Example gc_nonvacuous :
  let j := mkGjob 1 PhCompleted (Some 10) false (Some (5 * sec)) (Some 0) in
  gc_due j (15 * sec) /\ ~ gc_due j (15 * sec - 1) /\
  process_job (Some j) (Some j) (15 * sec) (15 * sec) = mkGcOut [] (Some 1) false /\
  process_job (Some j) (Some j) (15 * sec - 1) (15 * sec - 1) = mkGcOut [1] None false.
Proof.
  cbv zeta. split; [|split; [|split; vm_compute; reflexivity]].
  - repeat split. exists 10, (5 * sec). repeat split. vm_compute. discriminate.
  - intros (_ & _ & ttl & fin & E1 & E2 & H). inversion E1; inversion E2; subst. vm_compute in H. apply H. reflexivity.
Qed.

(* whenever spec.timeZone is set and loads (and the schedule string does
   not embed a zone of its own), the string handed to the parser carries it and
   the schedule is evaluated in it - for EVERY schedule kind *)
Theorem cron_zone_is_spec : forall (k : skind) (z : Z),
  validate_tz (TzLoads z) = true /\
  format_schedule (TzLoads z) (mkSstr k None) = FmtPrefixed z /\
  zone_used (TzLoads z) (mkSstr k None) = ZNamed z.
Proof. intros k z. repeat split. Qed.

(* the complete case table: embedded zone, else spec.timeZone, else local *)
Theorem cron_zone_cases : forall tz s,
  zone_used tz s =
  match ss_embedded s with
  | Some e => ZNamed e
  | None => match tz with TzLoads z => ZNamed z | _ => ZLocal end
  end.
Proof. intros tz [k [e|]]; destruct tz; reflexivity. Qed.

(* the kind of the schedule never matters *)
Theorem cron_zone_kind_irrelevant : forall tz k1 k2 e,
  format_schedule tz (mkSstr k1 e) = format_schedule tz (mkSstr k2 e) /\
  zone_used tz (mkSstr k1 e) = zone_used tz (mkSstr k2 e).
Proof. intros tz k1 k2 [e|]; destruct tz; split; reflexivity. Qed.

Lemma law_time_left_model : forall j since, law_time_left j since (time_left j since) = true.
Proof.
  intros j since. unfold law_time_left, expiry, time_left, needs_cleanup.
  destruct (g_ttl j), (g_finish j), (finished (g_phase j)); cbn; auto. apply Z.eqb_refl.
Qed.

Lemma law_history_NoDup : forall l, law_history l = true -> NoDup l.
Proof.
  unfold law_history. intros l H.
  assert (G : forall l, increasing l = true -> NoDup l /\ forall x y r, l = x :: r -> In y r -> x < y).
  { induction l0 as [|a r IH]; [split; [constructor|discriminate]|].
    intros Hi. destruct r as [|b r'].
    - split; [constructor; [intros []|constructor]|]. intros x y r0 E Hy. inversion E; subst. destruct Hy.
    - cbn [increasing] in Hi. apply andb_prop in Hi. destruct Hi as [Hab Hr].
      destruct (IH Hr) as [N1 N2]. apply Z.ltb_lt in Hab.
      assert (L : forall y, In y (b :: r') -> a < y).
      { intros y [<-|Hy]; auto. specialize (N2 b y r' eq_refl Hy). lia. }
      split.
      + constructor; auto. intros Hin. specialize (L a Hin). lia.
      + intros x y r0 E Hy. inversion E; subst. auto. }
  apply G; auto.
Qed.

Lemma law_zone_model : forall tz s,
  law_zone tz s (format_schedule tz s) (validate_tz tz)
           (match ss_kind s, validate_tz tz with
            | KEvery, _ => None | _, false => None | _, true => Some (zone_used tz s) end) = true.
Proof.
  intros tz [k [e|]]; destruct tz, k; cbn; rewrite ?Z.eqb_refl; reflexivity.
Qed.

(* the law on observed behaviour accepts the model (one clock reading) *)
Lemma law_gc_no_finish_model : forall lj fresh now,
  let o := process_job lj fresh now now in
  law_gc_no_finish lj fresh now (go_delete o) (go_requeues o) (go_err o) = true.
Proof.
  intros lj fresh now. cbv zeta. unfold law_gc_no_finish, eligible_no_finish, expiry, process_job,
    process_ttl, time_left, needs_cleanup, is_some.
  destruct lj as [j|]; [|destruct fresh; reflexivity].
  destruct (g_deleting j), (g_ttl j) as [t|], (finished (g_phase j)), (g_finish j) as [fi|]; cbn;
    try (destruct fresh; reflexivity).
  destruct (Z.leb_spec (fi + t * sec - now) 0); cbn.
  - destruct fresh as [f|]; cbn; [|reflexivity].
    destruct (g_deleting f), (g_ttl f) as [t'|], (finished (g_phase f)), (g_finish f) as [fi'|]; cbn;
      rewrite ?andb_true_r, ?andb_false_r; try reflexivity;
      try (destruct (fi + t * sec <=? now); reflexivity).
    destruct (fi' + t' * sec - now <=? 0); cbn; rewrite ?andb_false_r; reflexivity.
  - destruct fresh as [f|]; cbn; [|reflexivity].
    destruct (Z.leb_spec (fi + t * sec) now); [lia|]. cbn. reflexivity.
Qed.

Definition tbl_ok (tbl : list Z) : Prop :=
  increasing tbl = true /\ Forall (fun p => exists k, p = k * sec) tbl.

Lemma increasing_tail : forall a l, increasing (a :: l) = true ->
  increasing l = true /\ Forall (fun q => a < q) l.
Proof.
  intros a l. revert a. induction l as [|b r IH]; intros a H; [split; [reflexivity|constructor]|].
  cbn [increasing] in H. apply andb_prop in H. destruct H as [Hab Hr]. apply Z.ltb_lt in Hab.
  split; [exact Hr|]. destruct (IH b Hr) as [_ F]. constructor; [exact Hab|].
  eapply Forall_impl; [|exact F]. cbn; intros; lia.
Qed.

(* next_tbl answers the first table point after t, when there is one *)
Lemma next_tbl_spec : forall tbl t, increasing tbl = true -> (exists p, In p tbl /\ t < p) ->
  In (next_tbl tbl t) tbl /\ t < next_tbl tbl t /\ forall q, In q tbl -> t < q -> next_tbl tbl t <= q.
Proof.
  induction tbl as [|a r IH]; intros t Hinc (p & Hp & Hlt); [destruct Hp|].
  destruct (increasing_tail a r Hinc) as [Hr Ha]. cbn [next_tbl].
  destruct (Z.ltb_spec t a).
  - split; [left; reflexivity|]. split; [assumption|].
    intros q [<-|Hq] Hq2; [lia|]. rewrite Forall_forall in Ha. specialize (Ha q Hq). lia.
  - assert (Hex : exists p, In p r /\ t < p).
    { destruct Hp as [<-|Hp]; [lia|]. exists p. auto. }
    destruct (IH t Hr Hex) as (I1 & I2 & I3). split; [right; exact I1|]. split; [exact I2|].
    intros q [<-|Hq] Hq2; [lia|]. auto.
Qed.

Theorem next_tbl_window : forall tbl hi, tbl_ok tbl -> (exists p, In p tbl /\ hi < p) ->
  (forall t, t <= hi -> t < next_tbl tbl t) /\
  (forall t s, t <= hi -> sched (next_tbl tbl) hi s -> t < s -> next_tbl tbl t <= s) /\
  (forall t, t <= hi -> exists k, next_tbl tbl t = k * sec).
Proof.
  intros tbl hi [Hinc Hsec] (p & Hp & Hhi).
  assert (Hex : forall t, t <= hi -> exists p, In p tbl /\ t < p) by (intros t Ht; exists p; split; [auto|lia]).
  split; [|split].
  - intros t Ht. apply next_tbl_spec; auto.
  - intros t s Ht (u & Hu & <-) Hlt.
    destruct (next_tbl_spec tbl u Hinc (Hex u Hu)) as (I1 & _ & _).
    destruct (next_tbl_spec tbl t Hinc (Hex t Ht)) as (_ & _ & L). apply L; auto.
  - intros t Ht. destruct (next_tbl_spec tbl t Hinc (Hex t Ht)) as (I1 & _ & _).
    rewrite Forall_forall in Hsec. apply Hsec; auto.
Qed.

(* fuel: every iteration of the catch-up loop moves to a later table point *)
Definition later (t : Z) (tbl : list Z) : nat := length (filter (fun p => t <? p) tbl).

Lemma later_step : forall tbl t u, In u tbl -> t < u -> (later u tbl < later t tbl)%nat.
Proof.
  unfold later. induction tbl as [|a r IH]; intros t u Hu Hlt; [destruct Hu|].
  assert (Mono : forall l : list Z, (length (filter (fun p => Z.ltb u p) l) <= length (filter (fun p => Z.ltb t p) l))%nat).
  { induction l as [|x l IHl]; cbn; [lia|].
    destruct (Z.ltb_spec u x), (Z.ltb_spec t x); cbn; lia. }
  cbn. destruct Hu as [<-|Hu].
  - rewrite Z.ltb_irrefl. destruct (Z.ltb_spec t a); [|lia]. cbn. specialize (Mono r). lia.
  - specialize (IH t u Hu Hlt). destruct (Z.ltb_spec u a), (Z.ltb_spec t a); cbn; lia.
Qed.

Lemma later_le : forall t tbl, (later t tbl <= length tbl)%nat.
Proof. intros t tbl. unfold later. induction tbl as [|a r IH]; cbn; [lia|]. destruct (t <? a); cbn; lia. Qed.

Lemma mr_loop_tbl_fuel : forall tbl now, increasing tbl = true -> (exists p, In p tbl /\ now < p) ->
  forall fuel t most, (length tbl <= fuel)%nat -> mr_loop (next_tbl tbl) fuel now t most <> None.
Proof.
  intros tbl now Hinc (p & Hp & Hnow) fuel t most Hf.
  apply (mr_loop_terminates (next_tbl tbl) (fun _ => True) (fun t => later t tbl) now); auto.
  - intros u _ Hu. split; [exact I|].
    destruct (next_tbl_spec tbl u Hinc) as (I1 & I2 & _); [exists p; split; [auto|lia]|].
    now apply later_step.
  - pose proof (later_le t tbl). lia.
Qed.

Theorem most_recent_tbl_no_fuel : forall tbl fuel created last deadline now incl,
  (length tbl <= fuel)%nat -> increasing tbl = true -> (exists p, In p tbl /\ now < p) ->
  snd (most_recent (next_tbl tbl) fuel created last deadline now incl) <> MrFuel.
Proof.
  intros tbl fuel created last deadline now incl Hfuel Hinc Hex. unfold most_recent.
  destruct (now <? _); [cbn; discriminate|].
  destruct (now <? _); [cbn; discriminate|].
  destruct (_ <? 1); [cbn; discriminate|].
  destruct (mr_loop _ _ _ _ _) eqn:EL; [cbn; discriminate|].
  exfalso. revert EL. apply mr_loop_tbl_fuel; auto.
Qed.

(* when the catch-up loop of [most_recent] has fuel enough at [now], no caller reports the fuel error *)
Section NoFuel.
Variables (next : Z -> Z) (lenient : bool) (fuel : nat) (now : Z).
Hypothesis enough : forall c l d incl, snd (most_recent next fuel c l d now incl) <> MrFuel.

Lemma nst_no_fuel : forall c l d, next_schedule_time next fuel c l d now <> NsFuel.
Proof.
  intros c l d. unfold next_schedule_time. pose proof (enough c l d true) as H.
  destruct (snd (most_recent next fuel c l d now true)) as [| |[t|] m];
    try discriminate; [congruence|]. destruct (now <? t); discriminate.
Qed.

Lemma requeue_some : forall c l d, requeue_after next fuel c l d now <> None.
Proof.
  intros c l d. unfold requeue_after. pose proof (enough c l d false) as H.
  destruct (most_recent next fuel c l d now false) as [e [| |[t|] [| |]]];
    cbn in H; try discriminate; congruence.
Qed.

Lemma decide_no_fuel : forall spec st jobs uid fc upd0 hd st' jobs' uid' o,
  decide next lenient fuel spec st jobs uid now fc upd0 hd = (st', jobs', uid', o) -> o_err o <> E_FUEL.
Proof.
  intros until o. intros E Hf. apply decide_cases in E. destruct E as (_ & _ & F & _).
  destruct (F Hf) as [N|[l R]]; [exact (nst_no_fuel _ _ _ N)|exact (requeue_some _ _ _ R)].
Qed.
End NoFuel.

Lemma run_tbl_no_fuel : forall tbl lenient fuel hi, (length tbl <= fuel)%nat -> increasing tbl = true -> (exists p, In p tbl /\ hi < p) ->
  forall ops s s' outs,
  run (next_tbl tbl) lenient fuel s ops = (s', outs) -> Forall (op_ok hi) ops ->
  Forall (fun o => o_err o <> E_FUEL) outs.
Proof.
  intros tbl lenient fuel hi Hfuel Hi (p & Hp & Hhi). induction ops as [|op r IH]; cbn [run]; intros s s' outs.
  - intros E _; inversion E; subst. constructor.
  - destruct (step (next_tbl tbl) lenient fuel s op) as [s1 out] eqn:ES.
    destruct (run (next_tbl tbl) lenient fuel s1 r) as [s2 outs2] eqn:ER.
    intros E Hops; inversion E; subst; clear E. inversion Hops as [|? ? Hop Hops']; subst.
    specialize (IH _ _ _ ER Hops').
    destruct out as [o|]; [|exact IH]. constructor; [|exact IH].
    destruct op; cbn [step] in ES; try (inversion ES; fail);
      try (destruct (find_job (s_jobs s) name); inversion ES; fail).
    destruct (reconcile (next_tbl tbl) lenient fuel s now fail_create) as [s1' o'] eqn:E.
    inversion ES; subst. apply reconcile_parts in E. destruct E as (st1 & jobs1 & hd & upd1 & st2 & jobs2 & uid2 & _ & ED & _).
    eapply decide_no_fuel; [|exact ED].
    intros. apply most_recent_tbl_no_fuel; [exact Hfuel|exact Hi|]. exists p. split; [auto|]. cbn in Hop. lia.
Qed.

Definition uids_unique (jobs : list job) : Prop :=
  forall a b, In a jobs -> In b jobs -> j_uid a = j_uid b -> a = b.

Lemma delete_each_keeps : forall victims st jobs dels upd st' jobs' dels' upd' r,
  delete_each victims st jobs dels upd = (st', jobs', dels', upd') ->
  In r (st_active st) -> (forall v, In v victims -> j_uid v <> r_uid r) -> In r (st_active st').
Proof.
  induction victims as [|v vs IH]; cbn; intros until r.
  - intros E; inversion E; subst. auto.
  - intros E Hr Hs. destruct (find_job jobs (j_name v)); eapply IH in E; eauto.
    cbn. apply del_active_keeps; auto. intro Heq. apply (Hs v); auto.
Qed.

Lemma remove_oldest_keeps : forall js limit st jobs dels upd st' jobs' dels' upd' r,
  remove_oldest js limit st jobs dels upd = (st', jobs', dels', upd') ->
  In r (st_active st) -> (forall v, In v js -> j_uid v <> r_uid r) -> In r (st_active st').
Proof.
  intros until r. unfold remove_oldest. destruct limit as [mx|]; [|intros E; inversion E; subst; auto].
  destruct (Z.of_nat (length js) - mx <=? 0); [intros E; inversion E; subst; auto|].
  intros E Hr Hs. eapply delete_each_keeps; eauto.
  intros v Hv. apply Hs. apply sort_jobs_incl. eapply firstn_incl; eauto.
Qed.

Lemma process_finished_keeps : forall spec st jobs st' jobs' hd upd r,
  process_finished spec st (mine_of jobs) jobs = (st', jobs', hd, upd) ->
  In r (st_active st) ->
  (forall j, In j jobs -> finished (j_phase j) = true -> j_uid j <> r_uid r) ->
  In r (st_active st').
Proof.
  intros until r. unfold process_finished.
  destruct (fold_left pf_step (mine_of jobs) (st, false, [], [])) as [[[st1 upd1] succ] failed] eqn:EF.
  apply pf_fold_spec in EF. destruct EF as (_ & _ & G2 & G3 & G4). intros E Hr Hsafe.
  assert (Hr1 : In r (st_active st1)).
  { apply G2; auto. intros j Hj. apply Hsafe. apply mine_of_In in Hj. tauto. }
  assert (Hv : forall v, In v succ \/ In v failed -> j_uid v <> r_uid r).
  { intros v [Hv|Hv]; [destruct (G3 v Hv) as [[]|[Hm Hp]]|destruct (G4 v Hv) as [[]|[Hm Hp]]];
      apply mine_of_In in Hm; apply Hsafe; try tauto; now rewrite Hp. }
  destruct (c_fail_limit spec), (c_succ_limit spec);
    try (inversion E; subst; exact Hr1);
    destruct (remove_oldest succ _ st1 jobs [] upd1) as [[[st2 jobs2] dels2] upd2] eqn:ER1;
    eapply remove_oldest_keeps in E; eauto; eapply remove_oldest_keeps; eauto.
Qed.

Lemma as_del_keeps : forall s u r, In r (as_cur s) -> r_uid r <> u -> In r (as_cur (as_del s u)).
Proof.
  intros s u r Hr Hu. destruct (as_cur_del s u) as [->| ->]; auto.
  apply filter_In. split; auto. destruct (Z.eqb_spec (r_uid r) u); [contradiction|reflexivity].
Qed.

Lemma clean_stale_keeps : forall lister mine a a' upd r,
  clean_stale lister mine a = (a', upd) -> In r a -> In (r_uid r) (map j_uid mine) -> In r a'.
Proof.
  intros lister mine a a' upd r. unfold clean_stale.
  destruct (fold_left (stale_step lister (map j_uid mine)) (seq 0 (length a)) (as_of a, false)) as [s u] eqn:EF.
  intros E Hr Hm; inversion E; subst.
  assert (G : In r (as_cur (fst (fold_left (stale_step lister (map j_uid mine)) (seq 0 (length a)) (as_of a, false))))).
  { apply (fold_left_inv (fun acc : aslice * bool => In r (as_cur (fst acc)))).
    - cbn [fst]. rewrite as_cur_of. exact Hr.
    - intros [s0 u0] i H. cbn [fst] in *. unfold stale_step.
      destruct (nth_error (bk s0) i) as [r'|]; [|exact H].
      destruct (existsb (Z.eqb (r_uid r')) (map j_uid mine)) eqn:Eex; [exact H|].
      assert (Hne : r_uid r <> r_uid r').
      { intro Heq. assert (existsb (Z.eqb (r_uid r')) (map j_uid mine) = true); [|congruence].
        apply existsb_exists. exists (r_uid r). split; auto. rewrite Heq. apply Z.eqb_refl. }
      destruct (find_job lister (r_name r')) as [j|].
      + destruct (j_uid j =? r_uid r'); [exact H|]. cbn [fst]. apply as_del_keeps; auto.
      + cbn [fst]. apply as_del_keeps; auto. }
  rewrite EF in G. exact G.
Qed.

(* a reference to a live run (an unfinished job of this CronJob on the server,
   UIDs being unique) survives both halves of the clean-up *)
Lemma cleanup_keeps_live : forall spec st jobs st' jobs' hd upd r j,
  cleanup spec st jobs = (st', jobs', hd, upd) -> uids_unique jobs ->
  In r (st_active st) -> In j jobs -> j_owner j = OwnThis -> finished (j_phase j) = false ->
  j_uid j = r_uid r -> In r (st_active st').
Proof.
  intros until j. unfold cleanup.
  destruct (process_finished spec st (mine_of jobs) jobs) as [[[st1 jobs1] hd1] upd1] eqn:EP.
  destruct (clean_stale jobs (mine_of jobs) (st_active st1)) as [a2 upd2] eqn:EC.
  intros E Hu Hr Hj Ho Hf Hid; inversion E; subst. cbn.
  eapply clean_stale_keeps; eauto.
  - eapply process_finished_keeps; eauto.
    intros j' Hj' Hf' Heq. assert (j' = j) by (apply Hu; auto; congruence). subst. congruence.
  - apply in_map_iff. exists j. split; auto. unfold mine_of. apply filter_In. split; auto. now rewrite Ho.
Qed.

(* the same for the clean-up of a reconcile that starts from any status *)
Lemma cleanup2_keeps_live : forall spec st srv jobs st' jobs' hd upd r j,
  cleanup2 spec st srv jobs = (st', jobs', hd, upd) -> uids_unique jobs ->
  In r (st_active st) -> In j jobs -> j_owner j = OwnThis -> finished (j_phase j) = false ->
  j_uid j = r_uid r -> In r (st_active st').
Proof.
  intros until j. unfold cleanup2.
  destruct (process_finished spec st (mine_of jobs) jobs) as [[[st1 jobs1] hd1] upd1] eqn:EP.
  intros E Hu Hr Hj Ho Hf Hid.
  assert (Hr1 : In r (st_active st1)).
  { eapply process_finished_keeps; eauto.
    intros j' Hj' Hf' Heq. assert (j' = j) by (apply Hu; auto; congruence). subst. congruence. }
  destruct (switched (mine_of jobs) (st_active st1) srv).
  - destruct (clean_stale jobs (mine_of jobs) srv). inversion E; subst. exact Hr1.
  - destruct (clean_stale jobs (mine_of jobs) (st_active st1)) as [a2 upd2] eqn:EC.
    inversion E; subst. cbn. eapply clean_stale_keeps; eauto.
    apply in_map_iff. exists j. split; auto. unfold mine_of. apply filter_In. split; auto. now rewrite Ho.
Qed.

Definition live (j : job) : Prop := j_owner j = OwnThis /\ finished (j_phase j) = false.

Definition no_orphan (a : list jref) (jobs : list job) : Prop :=
  forall j, In j jobs -> live j -> exists r, In r a /\ r_uid r = j_uid j.

Lemma uids_unique_incl : forall js js', uids_unique js -> incl js' js -> uids_unique js'.
Proof. intros js js' H I a b Ha Hb. apply H; auto. Qed.

Lemma remove_job_name : forall js n j, In j (remove_job js n) -> j_name j <> n.
Proof.
  intros js n j H. unfold remove_job in H. apply filter_In in H. destruct H as [_ H].
  destruct (Z.eqb_spec (j_name j) n); [discriminate|assumption].
Qed.

Lemma replace_loop_keeps : forall idx s jobs dels upd s' jobs' dels' upd' ok r,
  replace_loop idx s jobs dels upd = (s', jobs', dels', upd', ok) -> uids_unique jobs ->
  In r (as_cur s) -> (exists j, In j jobs' /\ j_uid j = r_uid r) -> In r (as_cur s').
Proof.
  induction idx as [|i rest IH]; cbn; intros until r.
  - intros E; inversion E; subst. auto.
  - destruct (nth_error (bk s) i) as [r'|]; [|intros E; inversion E; subst; auto].
    destruct (find_job jobs (r_name r')) as [j'|] eqn:EF; [|intros E; inversion E; subst; auto].
    intros E Hu Hr (j & Hj & Hid).
    pose proof (replace_loop_incl _ _ _ _ _ _ _ _ _ _ E) as [_ I2].
    eapply IH; [exact E| | |exists j; auto].
    + eapply uids_unique_incl; [exact Hu|apply remove_job_incl].
    + apply as_del_keeps; auto. intro Heq.
      apply find_job_In in EF. destruct EF as [Hj' Hn'].
      assert (Hjr : In j (remove_job jobs (r_name r'))) by (apply I2; auto).
      assert (j = j') by (apply Hu; auto; [apply (remove_job_incl _ _ _ Hjr)|congruence]).
      subst. apply remove_job_name in Hjr. contradiction.
Qed.

Lemma apply_policy_keeps : forall spec st jobs upd0 skip st1 jobs1 rd upd1 ok r,
  apply_policy spec st jobs upd0 = (skip, st1, jobs1, rd, upd1, ok) -> uids_unique jobs ->
  In r (st_active st) -> (exists j, In j jobs1 /\ j_uid j = r_uid r) -> In r (st_active st1).
Proof.
  intros until r. unfold apply_policy. destruct (c_policy spec).
  - intros E; inversion E; subst; auto.
  - destruct (st_active st) eqn:Ea; intros E Hu Hr Hex; inversion E; subst; rewrite Ea; exact Hr.
  - destruct (replace_loop (seq 0 (length (st_active st))) (as_of (st_active st)) jobs [] false)
      as [[[[s j'] d'] u'] o'] eqn:ER.
    intros E Hu Hr Hex; inversion E; subst. cbn.
    eapply replace_loop_keeps; eauto. now rewrite as_cur_of.
Qed.

Lemma decide_keeps : forall next lenient fuel spec st jobs uid now fc upd0 hd st' jobs' uid' o,
  decide next lenient fuel spec st jobs uid now fc upd0 hd = (st', jobs', uid', o) ->
  uids_unique jobs -> uid_ok uid (st_active st) jobs ->
  (forall r j, In r (st_active st) -> In j jobs -> In j jobs' -> j_uid j = r_uid r -> In r (st_active st')) /\
  (exists nj, j_uid nj = uid /\
     forall j, In j jobs' -> In j jobs \/ (j = nj /\ exists r, In r (st_active st') /\ r_uid r = uid)) /\
  (o_creates o = [] -> incl jobs' jobs).
Proof.
  intros until o. intros E Hu Hok.
  (* as long as nothing is created: references of jobs still on the server are kept *)
  assert (Same : forall st2 jobs2, incl jobs2 jobs ->
    (forall r, In r (st_active st) -> (exists j, In j jobs2 /\ j_uid j = r_uid r) -> In r (st_active st2)) ->
    (forall r j, In r (st_active st) -> In j jobs -> In j jobs2 -> j_uid j = r_uid r -> In r (st_active st2)) /\
    (exists nj, j_uid nj = uid /\
       forall j, In j jobs2 -> In j jobs \/ (j = nj /\ exists r, In r (st_active st2) /\ r_uid r = uid)) /\
    (o_creates o = [] -> incl jobs2 jobs)).
  { intros st2 jobs2 H1 H2. split; [intros; eauto|]. split; [|auto].
    exists (mkJob 0 uid OwnNone PhOther None None). split; [reflexivity|]. intros j Hj; left; auto. }
  destruct (decide_cases _ _ _ _ _ _ _ _ _ _ _ _ _ _ _ E)
    as (_ & _ & _ & [(_ & -> & -> & _)|(t & skip & st1 & jobs1 & rd & upd1 & ok & _ & _ & _ & EP & D)]).
  { apply Same; [apply incl_refl|auto]. }
  pose proof (apply_policy_spec _ _ _ _ _ _ _ _ _ _ EP) as (I1 & I2 & _ & _).
  pose proof (fun r => apply_policy_keeps _ _ _ _ _ _ _ _ _ _ r EP Hu) as K.
  destruct D as [(_ & -> & -> & _)|(_ & EC)]; [apply Same; auto|].
  apply create_job_cases in EC.
  destruct EC as (_ & [(_ & -> & _ & HS)|(Hs & _ & -> & _ & _ & HS)]).
  - apply Same; [exact I2|]. intros r Hr Hex.
    destruct HS as [[-> _]|(ex & _ & _ & ->)]; cbn; [|apply in_or_app; left]; auto.
  - assert (Hfresh : in_active (st_active st1) uid = false).
    { apply in_active_false. eapply incl_Forall; [exact I1|apply Hok]. }
    destruct HS as [[Hin _]|[_ ->]]; [congruence|]. cbn [st_active]. split; [|split].
    + intros r j Hr Hj Hj' Hid. apply in_or_app. left. apply K; auto. exists j. split; auto.
      apply insert_job_In in Hj'. destruct Hj' as [->|Hj']; [|exact Hj'].
      exfalso. destruct Hok as [_ H2]. rewrite Forall_forall in H2. specialize (H2 _ Hj). cbn in H2. lia.
    + exists (mkJob (job_name_of t) uid OwnThis PhOther (Some now) None). split; [reflexivity|].
      intros j Hj. apply insert_job_In in Hj. destruct Hj as [->|Hj]; [right|left; auto].
      split; [reflexivity|]. eexists. split; [apply in_or_app; right; left; reflexivity|reflexivity].
    + unfold starts in Hs. rewrite Hs. discriminate.
Qed.

Definition inv_live (s : cstate) : Prop :=
  state_ok s /\ uids_unique (s_jobs s) /\ no_orphan (st_active (s_status s)) (s_jobs s).

(* the environment events of a history that cannot create an orphan or revive
   a finished run: everything except adding an unfinished job owned by this
   CronJob behind the controller's back and moving a job back to an unfinished phase *)
Definition op_no_orphan (o : op) : Prop :=
  match o with
  | OpAdd _ OwnThis PhOther _ _ => False
  | OpFinish _ PhOther _ => False
  | _ => True
  end.

Lemma reconcile_inv_live : forall next lenient fuel s now fc s' o,
  reconcile next lenient fuel s now fc = (s', o) -> inv_live s -> o_err o <> E_FUEL ->
  inv_live s' /\
  (c_policy (s_spec s) = Forbid -> o_creates o <> [] -> forall j, In j (s_jobs s) -> ~ live j).
Proof.
  intros next lenient fuel s now fc s' o E (Hok & Hu & Hno) Hfuel.
  pose proof (reconcile_state_ok _ _ _ _ _ _ _ _ E Hok) as SOK.
  apply reconcile_parts in E. destruct E as (st1 & jobs1 & hd & upd1 & st2 & jobs2 & uid2 & EC & ED & ->).
  pose proof (cleanup_spec _ _ _ _ _ _ _ EC) as (C1 & C2 & C3 & C4).
  assert (Hok1 : uid_ok (s_next_uid s) (st_active st1) jobs1) by (eapply uid_ok_incl; eauto).
  assert (Hu1 : uids_unique jobs1) by (eapply uids_unique_incl; eauto).
  pose proof (decide_spec next lenient _ _ _ _ _ _ _ _ _ _ _ _ _ ED Hok1) as (Ds & Dh & Du & Dok & Dc).
  pose proof (decide_keeps _ _ _ _ _ _ _ _ _ _ _ _ _ _ _ ED Hu1 Hok1) as (K1 & (nj & Hnj & K2) & K3).
  assert (Hlt : forall x, In x jobs1 -> j_uid x < s_next_uid s).
  { destruct Hok1 as [_ H2]. rewrite Forall_forall in H2. exact H2. }
  (* references of live old jobs survive the clean-up *)
  assert (L1 : forall j, In j jobs1 -> live j -> exists r, In r (st_active st1) /\ r_uid r = j_uid j).
  { intros j Hj Hl. destruct (Hno j (C3 _ Hj) Hl) as (r & Hr & Hid). exists r. split; auto.
    destruct Hl. eapply cleanup_keeps_live; eauto. }
  split.
  - split; [exact SOK|]. cbn [s_status s_jobs]. split.
    + intros a b Ha Hb Hid. destruct (K2 a Ha) as [Ha'|[-> _]], (K2 b Hb) as [Hb'|[-> _]]; auto.
      * exfalso. specialize (Hlt _ Ha'). lia.
      * exfalso. specialize (Hlt _ Hb'). lia.
    + intros j Hj Hl.
      destruct ((o_err o =? E_OK) && o_upd o) eqn:Ep.
      * destruct (K2 j Hj) as [Hj1|[-> (r & Hr & Hru)]].
        -- destruct (L1 j Hj1 Hl) as (r & Hr & Hid). exists r. split; auto. eapply K1; eauto.
        -- exists r. split; auto. congruence.
      * (* nothing was written: then nothing was created either *)
        destruct Dc as [[Hc _]|(t & Hs & _ & _ & _ & _ & Hupd & He & _)].
        -- apply Hno; auto. apply C3. apply K3; auto.
        -- exfalso. assert (Eok : o_err o = E_OK) by (destruct He; [assumption|contradiction]).
           rewrite Eok, Hupd in Ep. cbn in Ep. discriminate.
  - intros HF Hcr j Hj Hl.
    destruct Dc as [[Hc _]|(t & Hs & _ & _ & HFa & _)]; [contradiction|].
    specialize (HFa HF).
    destruct (Hno j Hj Hl) as (r & Hr & Hid). destruct Hl as [Hl1 Hl2].
    pose proof (cleanup_keeps_live _ _ _ _ _ _ _ r j EC Hu Hr Hj Hl1 Hl2 (eq_sym Hid)) as Hin.
    rewrite HFa in Hin. destruct Hin.
Qed.

Lemma step_inv_live : forall next lenient fuel s op s' out,
  step next lenient fuel s op = (s', out) -> inv_live s -> op_no_orphan op ->
  (forall o, out = Some o -> o_err o <> E_FUEL) -> inv_live s'.
Proof.
  intros next lenient fuel s op s' out E Hi Hop Hf. split; [eapply step_state_ok; [exact E|apply Hi]|].
  revert E Hi Hop Hf. destruct op; cbn [step op_no_orphan];
    try (intros E Hi _ _; inversion E; subst; exact (proj2 Hi)).
  - destruct (reconcile next lenient fuel s now fail_create) as [s1 r] eqn:ER.
    intros E Hi _ Hf; inversion E; subst. eapply reconcile_inv_live; eauto.
  - intros E (Hok & Hu & Hno) Hop _; inversion E; subst. cbn.
    set (f := fun j : job => if j_name j =? name then mkJob (j_name j) (j_uid j) (j_owner j) p (j_created j) at_ else j).
    assert (Fu : forall j, j_uid (f j) = j_uid j) by (intros j; unfold f; destruct (j_name j =? name); reflexivity).
    split.
    + intros a b Ha Hb Hid. apply in_map_iff in Ha. apply in_map_iff in Hb.
      destruct Ha as (ja & <- & Hja), Hb as (jb & <- & Hjb). rewrite !Fu in Hid.
      now rewrite (Hu ja jb Hja Hjb Hid).
    + intros x Hx [Hl1 Hl2]. apply in_map_iff in Hx. destruct Hx as (j & <- & Hj).
      rewrite Fu. unfold f in Hl1, Hl2. destruct (j_name j =? name).
      * cbn in Hl2. destruct p; [contradiction|discriminate|discriminate|discriminate].
      * apply Hno; auto. split; auto.
  - intros E (Hok & Hu & Hno) _ _; inversion E; subst. cbn. split.
    + eapply uids_unique_incl; eauto. apply remove_job_incl.
    + intros j Hj Hl. apply Hno; auto. eapply remove_job_incl; eauto.
  - destruct (find_job (s_jobs s) name); [intros E Hi _ _; inversion E; subst; exact (proj2 Hi)|].
    intros E (Hok & Hu & Hno) Hop _; inversion E; subst. cbn.
    assert (Hlt : forall x, In x (s_jobs s) -> j_uid x < s_next_uid s).
    { destruct Hok as [_ H2]. rewrite Forall_forall in H2. exact H2. }
    split.
    + intros a b Ha Hb Hid. apply insert_job_In in Ha. apply insert_job_In in Hb.
      destruct Ha as [->|Ha], Hb as [->|Hb]; auto; cbn in Hid; exfalso.
      * specialize (Hlt _ Hb). lia.
      * specialize (Hlt _ Ha). lia.
    + intros j Hj [Hl1 Hl2]. apply insert_job_In in Hj. destruct Hj as [->|Hj]; [|apply Hno; auto; split; auto].
      cbn in Hl1, Hl2. subst o. destruct p; [contradiction|discriminate|discriminate|discriminate].
Qed.

Lemma run_inv_live : forall next lenient fuel ops s s' outs,
  run next lenient fuel s ops = (s', outs) -> inv_live s -> Forall op_no_orphan ops ->
  Forall (fun o => o_err o <> E_FUEL) outs -> inv_live s'.
Proof.
  intros next lenient fuel. induction ops as [|op r IH]; cbn [run]; intros s s' outs.
  - intros E Hi _ _; inversion E; subst. exact Hi.
  - destruct (step next lenient fuel s op) as [s1 out] eqn:ES.
    destruct (run next lenient fuel s1 r) as [s2 outs2] eqn:ER.
    intros E Hi Hops Hf; inversion E; subst; clear E. inversion Hops as [|? ? Hop Hops']; subst.
    apply Forall_outs_cons in Hf. destruct Hf as [Hf1 Hf2].
    eapply IH; eauto. eapply step_inv_live; eauto.
Qed.

Definition names_unique (jobs : list job) : Prop := NoDup (map j_name jobs).

Lemma names_remove : forall jobs n, names_unique jobs -> names_unique (remove_job jobs n).
Proof.
  unfold names_unique, remove_job. induction jobs as [|j r IH]; cbn; intros n H; [constructor|].
  inversion H; subst. destruct (negb (j_name j =? n)); cbn; auto. constructor; auto.
  intro Hin. apply H2. apply in_map_iff in Hin. destruct Hin as (x & Hx & Hf). apply filter_In in Hf.
  apply in_map_iff. exists x. tauto.
Qed.

Lemma find_job_none : forall jobs n, find_job jobs n = None -> ~ In n (map j_name jobs).
Proof.
  induction jobs as [|j r IH]; cbn; intros n H; [tauto|].
  destruct (Z.eqb_spec (j_name j) n); [discriminate|]. intros [Hx|Hx]; [contradiction|]. eapply IH; eauto.
Qed.

Lemma names_insert : forall jobs j, names_unique jobs -> find_job jobs (j_name j) = None ->
  names_unique (insert_job j jobs).
Proof.
  unfold names_unique. intros jobs j Hn Hf. apply find_job_none in Hf.
  assert (P : forall l, NoDup (map j_name l) -> ~ In (j_name j) (map j_name l) -> NoDup (map j_name (insert_job j l))).
  { induction l as [|k r IH]; cbn; intros Hl Hj; [constructor; [tauto|constructor]|].
    destruct (j_name j <=? j_name k); cbn; [constructor; auto|].
    inversion Hl; subst. constructor; [|apply IH; tauto].
    intro Hin. apply in_map_iff in Hin. destruct Hin as (x & Hx & Hi). apply insert_job_In in Hi.
    destruct Hi as [->|Hi]; [apply Hj; left; congruence|]. apply H1. apply in_map_iff. exists x. tauto. }
  apply P; auto.
Qed.

Lemma delete_each_names : forall victims st jobs dels upd st' jobs' dels' upd',
  delete_each victims st jobs dels upd = (st', jobs', dels', upd') -> names_unique jobs -> names_unique jobs'.
Proof.
  induction victims as [|v r IH]; cbn; intros until upd'.
  - intros E; inversion E; subst; auto.
  - destruct (find_job jobs (j_name v)); intros E H; eapply IH in E; eauto. now apply names_remove.
Qed.

Lemma remove_oldest_names : forall js limit st jobs dels upd st' jobs' dels' upd',
  remove_oldest js limit st jobs dels upd = (st', jobs', dels', upd') -> names_unique jobs -> names_unique jobs'.
Proof.
  intros until upd'. unfold remove_oldest. destruct limit; [|intros E; inversion E; subst; auto].
  destruct (_ <=? 0); [intros E; inversion E; subst; auto|]. apply delete_each_names.
Qed.

(* the three clean-ups differ in the status they return; the server's jobs are
   those [process_finished] leaves, whatever list of own jobs it was handed *)
Lemma process_finished_names : forall spec st mine jobs st' jobs' hd upd,
  process_finished spec st mine jobs = (st', jobs', hd, upd) -> names_unique jobs -> names_unique jobs'.
Proof.
  intros until upd. unfold process_finished.
  destruct (fold_left pf_step mine (st, false, [], [])) as [[[st1 upd1] succ] failed].
  destruct (c_fail_limit spec), (c_succ_limit spec); try (intros E H; inversion E; subst; exact H);
    destruct (remove_oldest succ _ st1 jobs [] upd1) as [[[st2 jobs2] dels2] upd2] eqn:E1;
    intros E2 H; (eapply remove_oldest_names; [exact E2|]); eapply remove_oldest_names; eauto.
Qed.

Lemma cleanup3_names : forall spec st srv lister jobs st' jobs' hd upd,
  cleanup3 spec st srv lister jobs = (st', jobs', hd, upd) -> names_unique jobs -> names_unique jobs'.
Proof.
  intros until upd. unfold cleanup3.
  destruct (process_finished spec st (mine_of lister) jobs) as [[[st1 jobs1] hd1] upd1] eqn:EP.
  destruct (switched _ _ _), (clean_stale _ _ _); intros E; inversion E; subst;
    eapply process_finished_names; eauto.
Qed.

Lemma cleanup_names : forall spec st jobs st' jobs' hd upd,
  cleanup spec st jobs = (st', jobs', hd, upd) -> names_unique jobs -> names_unique jobs'.
Proof.
  intros until upd. unfold cleanup.
  destruct (process_finished spec st (mine_of jobs) jobs) as [[[st1 jobs1] hd1] upd1] eqn:EP.
  destruct (clean_stale _ _ _). intros E; inversion E; subst. eapply process_finished_names; eauto.
Qed.

Lemma replace_loop_names : forall idx s jobs dels upd s' jobs' dels' upd' ok,
  replace_loop idx s jobs dels upd = (s', jobs', dels', upd', ok) -> names_unique jobs -> names_unique jobs'.
Proof.
  induction idx as [|i rest IH]; cbn; intros until ok.
  - intros E; inversion E; subst; auto.
  - destruct (nth_error (bk s) i) as [r|]; [|intros E; inversion E; subst; auto].
    destruct (find_job jobs (r_name r)); [|intros E; inversion E; subst; auto].
    intros E H. eapply IH in E; eauto. now apply names_remove.
Qed.

Lemma apply_policy_names : forall spec st jobs upd0 skip st1 jobs1 rd upd1 ok,
  apply_policy spec st jobs upd0 = (skip, st1, jobs1, rd, upd1, ok) -> names_unique jobs -> names_unique jobs1.
Proof.
  intros until ok. unfold apply_policy. destruct (c_policy spec).
  - intros E; inversion E; subst; auto.
  - destruct (st_active st); intros E; inversion E; subst; auto.
  - destruct (replace_loop _ _ _ _ _) as [[[[s j'] d'] u'] o'] eqn:ER.
    intros E; inversion E; subst. eapply replace_loop_names; eauto.
Qed.

Lemma decide_names : forall next lenient fuel spec st jobs uid now fc upd0 hd st' jobs' uid' o,
  decide next lenient fuel spec st jobs uid now fc upd0 hd = (st', jobs', uid', o) ->
  names_unique jobs -> names_unique jobs'.
Proof.
  intros until o. intros E H.
  destruct (decide_cases _ _ _ _ _ _ _ _ _ _ _ _ _ _ _ E)
    as (_ & _ & _ & [(_ & _ & -> & _)|(t & skip & st1 & jobs1 & rd & upd1 & ok & _ & _ & _ & EP & D)]);
    [exact H|].
  apply apply_policy_names in EP; [|exact H]. destruct D as [(_ & _ & -> & _)|(_ & EC)]; [exact EP|].
  apply create_job_cases in EC.
  destruct EC as (_ & [(_ & -> & _)|(_ & Hfree & -> & _)]); [exact EP|]. now apply names_insert.
Qed.

(* a reconcile from any status, with any job lister *)
Lemma reconcile_lag_names : forall next lenient fuel s st_in lister ok now fc s' o,
  reconcile_lag next lenient fuel s st_in lister ok now fc = (s', o) ->
  names_unique (s_jobs s) -> names_unique (s_jobs s').
Proof.
  intros until o. unfold reconcile_lag.
  destruct (cleanup3 (s_spec s) st_in (st_active (s_status s)) lister (s_jobs s)) as [[[st1 jobs1] hd] upd1] eqn:EC.
  destruct (decide next lenient fuel (s_spec s) st1 jobs1 (s_next_uid s) now fc upd1 hd)
    as [[[st2 jobs2] uid2] o2] eqn:ED.
  intros E H; inversion E; subst. cbn. eapply decide_names; eauto. eapply cleanup3_names; eauto.
Qed.

(* how the three clean-ups of the model relate: with the lister showing the
   server's jobs [cleanup3] is [cleanup2]; [cleanup] is the branch of
   [cleanup2] in which the first loop does not rebind the CronJob ([switched]
   false).  They share [process_finished], which is all the lemmas about the
   server's jobs need. *)
Lemma cleanup3_same : forall spec st srv jobs, cleanup3 spec st srv jobs jobs = cleanup2 spec st srv jobs.
Proof. reflexivity. Qed.

Lemma reconcile_lag_same : forall next lenient fuel s st_in ok now fc,
  reconcile_lag next lenient fuel s st_in (s_jobs s) ok now fc = reconcile_from next lenient fuel s st_in ok now fc.
Proof. reflexivity. Qed.

Lemma reconcile_names : forall next lenient fuel s now fc s' o,
  reconcile next lenient fuel s now fc = (s', o) ->
  names_unique (s_jobs s) -> names_unique (s_jobs s').
Proof.
  intros until o. intros E H.
  apply reconcile_parts in E. destruct E as (st1 & jobs1 & hd & upd1 & st2 & jobs2 & uid2 & EC & ED & ->).
  cbn. eapply decide_names; eauto. eapply cleanup_names; eauto.
Qed.

(* "@every d" (d whole seconds): the closed form meets the two hypotheses the
   history theorems need (leastness is false for it: no fixed points) *)
Lemma next_every_ok : forall k, 1 <= k ->
  (forall t, t < next_every (k * sec) t) /\ (forall t, exists k', next_every (k * sec) t = k' * sec).
Proof.
  intros k Hk. pose proof sec_pos as Hs. split; intros t; unfold next_every.
  - pose proof (Z.mod_pos_bound t sec Hs). nia.
  - exists (t / sec + k). pose proof (Z.div_mod t sec ltac:(lia)). lia.
Qed.

Lemma mem_In : forall x l, mem x l = true <-> In x l.
Proof.
  intros x l. unfold mem. rewrite existsb_exists. split.
  - intros (y & Hy & E). apply Z.eqb_eq in E. now subst.
  - intros H. exists x. split; auto. apply Z.eqb_refl.
Qed.

(* law 110, a chosen time: it is a point of the table, after the earliest time,
   not after now, and no table point lies in (t, now] *)
Lemma law_choice_sound : forall tbl created last deadline now t,
  law_choice tbl created last deadline now (Some t) = true ->
  In t tbl /\ earliest_time created last deadline now true < t /\ t <= now /\
  forall p, In p tbl -> t < p -> now < p.
Proof.
  intros tbl created last deadline now t H. unfold law_choice in H.
  repeat (apply andb_prop in H; destruct H as [H ?]).
  apply mem_In in H. split; [exact H|]. split; [lia|]. split; [lia|].
  intros p Hp Hlt. rewrite forallb_forall in H0. specialize (H0 p Hp).
  destruct (Z.ltb_spec t p); [|lia]. cbn in H0. lia.
Qed.

(* law 110, nothing chosen on a constant-period table: no table point is unmet *)
Lemma law_choice_none_sound : forall tbl created last deadline now,
  law_choice tbl created last deadline now None = true -> regular tbl = true ->
  forall p, In p tbl -> ~ (earliest_time created last deadline now true < p <= now).
Proof.
  intros tbl created last deadline now H Hr p Hp [H1 H2]. unfold law_choice in H. rewrite Hr in H.
  rewrite forallb_forall in H. specialize (H p Hp).
  destruct (Z.ltb_spec (earliest_time created last deadline now true) p), (Z.leb_spec p now); cbn in H; try discriminate; lia.
Qed.

(* law 111: the table is a well-formed schedule table and every recorded answer
   of the real Next is what the table-based [next] answers - the windowed
   hypotheses of the theorems then follow by next_tbl_window *)
Lemma law_table_sound : forall tbl qs, law_table tbl qs = true -> tbl <> [] ->
  tbl_ok tbl /\ forall a r, In (a, r) qs -> a < r /\ r = next_tbl tbl a.
Proof.
  intros tbl qs H Hne. unfold law_table in H.
  apply andb_prop in H. destruct H as [H Hq]. apply andb_prop in H. destruct H as [Hi Hs].
  assert (Hok : tbl_ok tbl).
  { split; [exact Hi|]. rewrite Forall_forall. intros p Hp. rewrite forallb_forall in Hs.
    specialize (Hs p Hp). apply Z.eqb_eq in Hs. exists (p / sec).
    pose proof (Z.div_mod p sec ltac:(discriminate)). lia. }
  split; [exact Hok|]. destruct tbl as [|p0 tl]; [contradiction|].
  intros a r Hin. rewrite forallb_forall in Hq. specialize (Hq (a, r) Hin). cbn beta iota in Hq.
  repeat (apply andb_prop in Hq; destruct Hq as [Hq ?]).
  apply mem_In in H1. assert (a < r) by lia. split; [assumption|].
  destruct (next_tbl_spec (p0 :: tl) a Hi) as (N1 & N2 & N3); [exists r; auto|].
  rewrite forallb_forall in H. specialize (H _ N1).
  destruct (Z.ltb_spec a (next_tbl (p0 :: tl) a)); [|lia]. cbn [negb orb] in H.
  apply Z.leb_le in H. specialize (N3 r H1 H2). lia.
Qed.

(* written without the modelled function: which zone the property text means *)
Inductive zone_spec : tzspec -> sstr -> zone -> Prop :=
| ZS_embedded : forall tz k e, zone_spec tz (mkSstr k (Some e)) (ZNamed e)
| ZS_field : forall k z, zone_spec (TzLoads z) (mkSstr k None) (ZNamed z)
| ZS_local : forall k, zone_spec TzNil (mkSstr k None) ZLocal
| ZS_rejected : forall k, zone_spec TzInvalid (mkSstr k None) ZLocal.

Definition live_owned (jobs : list job) : list job :=
  filter (fun j => match j_owner j with OwnThis => true | _ => false end && negb (finished (j_phase j))) jobs.

(* non-vacuity of the instantiated theorems *)
Definition ex_tbl : list Z := [100 * sec; 200 * sec; 300 * sec; 400 * sec].

Example table_nonvacuous :
  tbl_ok ex_tbl /\ (exists p, In p ex_tbl /\ 250 * sec < p) /\
  bounded (250 * sec) ex_state /\ inv_live ex_state /\
  Forall (op_ok (250 * sec)) [OpReconcile (100 * sec) false; OpReconcile (200 * sec + 5) false] /\
  let '(_, outs) := run (next_tbl ex_tbl) false (S (S (S (length ex_tbl)))) ex_state
                        [OpReconcile (100 * sec) false; OpReconcile (200 * sec + 5) false] in
  created_times outs = [100 * sec].
Proof.
  split; [split; [reflexivity|repeat constructor; eexists; reflexivity]|].
  split; [exists (300 * sec); split; [cbn; tauto|reflexivity]|].
  split; [split; [discriminate|split; intros ? H; discriminate H]|].
  split.
  { split; [split; repeat constructor|]. split.
    - intros a b [<-|[<-|[]]] [<-|[<-|[]]] H; try reflexivity; discriminate H.
    - intros j [<-|[<-|[]]] [_ H]; discriminate H. }
  split; [repeat constructor; discriminate|].
  vm_compute. reflexivity.
Qed.

(* a constant-period schedule meeting the hypotheses of the completeness theorem on a window *)
Example regular_nonvacuous :
  (forall t s, t <= 250 * sec -> sched (next_tbl ex_tbl) (250 * sec) s -> t < s -> next_tbl ex_tbl t <= s) /\
  (forall s, s <= 250 * sec -> sched (next_tbl ex_tbl) (250 * sec) s -> next_tbl ex_tbl s = s + 100 * sec) /\
  exists t, next_schedule_time (next_tbl ex_tbl) 2 0 None None (250 * sec) = NsOk (Some t).
Proof.
  assert (Hok : tbl_ok ex_tbl) by (split; [reflexivity|repeat constructor; eexists; reflexivity]).
  assert (Hex : exists p, In p ex_tbl /\ 250 * sec < p) by (exists (300 * sec); split; [cbn; tauto|reflexivity]).
  destruct (next_tbl_window ex_tbl (250 * sec) Hok Hex) as (_ & L & _).
  split; [exact L|]. split.
  - intros s Hs (u & Hu & <-). unfold ex_tbl in *. cbn [next_tbl] in *.
    repeat match goal with |- context [?a <? ?b] => destruct (Z.ltb_spec a b) end;
      repeat match goal with H : context [?a <? ?b] |- _ => destruct (Z.ltb_spec a b) end;
      unfold sec, zero_time in *; lia.
  - eexists. vm_compute. reflexivity.
Qed.
