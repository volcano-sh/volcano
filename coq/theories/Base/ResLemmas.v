(* Lemmas about the Resource model: pointwise characterisations of every
   operation and predicate (the interface later files depend on), then the
   algebraic and order laws of property C16.  All for every eps > 0. *)
From stdpp Require Import gmap.
From Coq Require Import ZArith Lia.
From V Require Import Base.Res.
Open Scope Z_scope.

Lemma res_eq r s : cpu r = cpu s -> mem r = mem s -> sc r = sc s -> r = s.
Proof. destruct r, s; simpl; intros; subst; reflexivity. Qed.

Lemma scm_mk c m x : scm (mkRes c m (Some x)) = x.
Proof. reflexivity. Qed.

Lemma sget_lookup r k v : scm r !! k = Some v -> sget r k = v.
Proof. unfold sget; intros ->; reflexivity. Qed.
Lemma sget_none r k : scm r !! k = None -> sget r k = 0.
Proof. unfold sget; intros ->; reflexivity. Qed.

Lemma map_allb_spec {A} (p : positive -> A -> bool) m :
  map_allb p m = true <-> forall k v, m !! k = Some v -> p k v = true.
Proof. unfold map_allb. rewrite bool_decide_eq_true. reflexivity. Qed.

Lemma map_allb_false {A} (p : positive -> A -> bool) m :
  map_allb p m = false <-> exists k v, m !! k = Some v /\ p k v = false.
Proof.
  unfold map_allb. rewrite bool_decide_eq_false. split.
  - intros H. apply map_not_Forall in H; [|apply _].
    destruct H as (k & v & Hl & Hn). exists k, v. split; [exact Hl|].
    destruct (p k v); [contradiction Hn; reflexivity|reflexivity].
  - intros (k & v & Hl & Hp) HF. specialize (HF k v Hl). simpl in HF. congruence.
Qed.

Lemma map_anyb_spec {A} (p : positive -> A -> bool) m :
  map_anyb p m = true <-> exists k v, m !! k = Some v /\ p k v = true.
Proof.
  unfold map_anyb. rewrite negb_true_iff, map_allb_false.
  split; intros (k & v & Hl & Hp); exists k, v; (split; [exact Hl|]).
  - apply negb_false_iff in Hp. exact Hp.
  - rewrite Hp. reflexivity.
Qed.

Lemma map_anyb_false {A} (p : positive -> A -> bool) m :
  map_anyb p m = false <-> forall k v, m !! k = Some v -> p k v = false.
Proof. unfold map_anyb. rewrite negb_false_iff, map_allb_spec. setoid_rewrite negb_true_iff. reflexivity. Qed.

Lemma elem_of_keys_where {A} (p : positive -> A -> bool) (m : gmap positive A) k :
  k ∈ keys_where p m <-> exists v, m !! k = Some v /\ p k v = true.
Proof.
  unfold keys_where. rewrite elem_of_list_fmap. split.
  - intros ([k' v] & -> & Hin). apply elem_of_list_filter in Hin as [Hp Hin].
    apply elem_of_map_to_list in Hin. exists v. simpl in *. auto.
  - intros (v & Hl & Hp). exists (k, v). split; [reflexivity|].
    apply elem_of_list_filter. split; [exact Hp|]. apply elem_of_map_to_list. exact Hl.
Qed.

Lemma keys_where_nil {A} (p : positive -> A -> bool) (m : gmap positive A) :
  keys_where p m = [] <-> forall k v, m !! k = Some v -> p k v = false.
Proof.
  split.
  - intros Hnil k v Hl. destruct (p k v) eqn:E; [|reflexivity].
    assert (k ∈ keys_where p m) as Hin by (apply elem_of_keys_where; eauto).
    rewrite Hnil in Hin. inversion Hin.
  - intros H. destruct (keys_where p m) as [|k l] eqn:E; [reflexivity|].
    assert (k ∈ keys_where p m) as Hin by (rewrite E; left).
    apply elem_of_keys_where in Hin as (v & Hl & Hp). rewrite (H k v Hl) in Hp. discriminate.
Qed.

Lemma keys_where_nil_anyb {A} (p : positive -> A -> bool) (m : gmap positive A) :
  bool_decide (keys_where p m = []) = negb (map_anyb p m).
Proof.
  unfold map_anyb. rewrite negb_involutive. apply eq_true_iff_eq.
  rewrite bool_decide_eq_true, keys_where_nil, map_allb_spec.
  split; intros H k v Hl; [rewrite (H k v Hl); reflexivity|apply negb_true_iff, (H k v Hl)].
Qed.

Lemma keys_where_neg_nil_allb {A} (p : positive -> A -> bool) (m : gmap positive A) :
  bool_decide (keys_where (fun k v => negb (p k v)) m = []) = map_allb p m.
Proof.
  apply eq_true_iff_eq. rewrite bool_decide_eq_true, keys_where_nil, map_allb_spec.
  split; intros H k v Hl; [apply negb_false_iff, (H k v Hl)|rewrite (H k v Hl); reflexivity].
Qed.

Lemma names_any_keys {A} c m (p : positive -> A -> bool) (mm : gmap positive A) :
  names_any (c, m, keys_where p mm) = c || m || map_anyb p mm.
Proof. unfold names_any, names_none. rewrite keys_where_nil_anyb. destruct c, m, (map_anyb p mm); reflexivity. Qed.

(* Add and SetMaxResource leave the receiver's scalar map alone (nil stays nil) when the argument has no
   scalars, and otherwise combine key by key *)
Lemma scm_lazy_union f c m r x k :
  scm (mkRes c m (if bool_decide (scm x = ∅) then sc r else Some (union_with f (scm r) (scm x)))) !! k =
  union_with f (scm r !! k) (scm x !! k).
Proof.
  unfold scm at 1. simpl. case_bool_decide as He; [|apply lookup_union_with].
  rewrite He, lookup_empty. fold (scm r). destruct (scm r !! k); reflexivity.
Qed.

(* under the Zero default a missing dimension of rr counts as 0, which is what Get returns *)
Lemma cmp_at_zero f rr b k v : cmp_at f rr DZero b k v = f v (sget rr k).
Proof. unfold cmp_at, sget. destruct (scm rr !! k); reflexivity. Qed.

Lemma all_sc_zero f r rr :
  all_sc f r rr DZero = true <-> forall k v, scm r !! k = Some v -> f v (sget rr k) = true.
Proof. unfold all_sc. rewrite map_allb_spec. setoid_rewrite cmp_at_zero. reflexivity. Qed.

Lemma req_sel_spec k q b : req_sel k q && b = true <-> k <> pods_name /\ 0 < q /\ b = true.
Proof.
  unfold req_sel, ignored. rewrite !andb_true_iff, negb_true_iff, bool_decide_eq_false, bool_decide_eq_true. tauto.
Qed.

Section Laws.
Variable eps : Z.
Hypothesis eps_pos : 0 < eps.

Lemma lt_spec l r : lt l r = true <-> l < r.
Proof. unfold lt. apply bool_decide_eq_true. Qed.
Lemma le_spec l r : le eps l r = true <-> l < r + eps.
Proof.
  unfold le. rewrite orb_true_iff, !bool_decide_eq_true. lia.
Qed.
Lemma le_false l r : le eps l r = false <-> r + eps <= l.
Proof. rewrite <- not_true_iff_false, le_spec. lia. Qed.
Lemma eqv_spec l r : eqv eps l r = true <-> Z.abs (l - r) < eps.
Proof. unfold eqv. rewrite orb_true_iff, !bool_decide_eq_true. lia. Qed.
Lemma le_refl x : le eps x x = true.
Proof. apply le_spec. lia. Qed.
Lemma eqv_refl x : eqv eps x x = true.
Proof. apply eqv_spec. rewrite Z.sub_diag. exact eps_pos. Qed.
Lemma lt_le l r : lt l r = true -> le eps l r = true.
Proof. rewrite lt_spec, le_spec. lia. Qed.
Lemma cmp_at_lt_le rr d k v : cmp_at lt rr d true k v = true -> cmp_at (le eps) rr d true k v = true.
Proof. unfold cmp_at. destruct (scm rr !! k); [apply lt_le|]. destruct d; [apply lt_le|auto]. Qed.

Lemma add_cpu r x : cpu (add r x) = cpu r + cpu x. Proof. reflexivity. Qed.
Lemma add_mem r x : mem (add r x) = mem r + mem x. Proof. reflexivity. Qed.

Lemma add_lookup r x k :
  scm (add r x) !! k = union_with (fun a b => Some (a + b)) (scm r !! k) (scm x !! k).
Proof. apply scm_lazy_union. Qed.

Lemma add_sget r x k : sget (add r x) k = sget r k + sget x k.
Proof.
  unfold sget. rewrite add_lookup.
  destruct (scm r !! k), (scm x !! k); simpl; lia.
Qed.

Lemma sub_cpu r x : cpu (sub r x) = cpu r - cpu x. Proof. reflexivity. Qed.
Lemma sub_mem r x : mem (sub r x) = mem r - mem x. Proof. reflexivity. Qed.

Lemma sub_lookup_some r x m k :
  sc r = Some m -> scm (sub r x) !! k = sub_f (m !! k) (scm x !! k).
Proof.
  intros Hm. unfold sub, scm at 1. simpl. rewrite Hm. simpl.
  rewrite lookup_merge. unfold diag_None. destruct (m !! k), (scm x !! k); reflexivity.
Qed.

(* the nil-map exception: subtracting from a vector without a scalar map
   silently drops the scalars of the subtrahend *)
Lemma sub_nil_drops_scalars r x : sc r = None -> sc (sub r x) = None.
Proof. intros H. unfold sub. simpl. rewrite H. reflexivity. Qed.

Lemma sub_sget r x k : sc r <> None -> sget (sub r x) k = sget r k - sget x k.
Proof.
  intros Hn. destruct (sc r) as [m|] eqn:Hm; [|congruence].
  unfold sget at 1. rewrite (sub_lookup_some r x m k Hm).
  unfold sget. replace (scm r) with m by (unfold scm; rewrite Hm; reflexivity).
  destruct (m !! k), (scm x !! k); simpl; lia.
Qed.

(* add then sub returns the original amounts in every dimension ... *)
Theorem add_sub_pointwise r x :
  cpu (sub (add r x) x) = cpu r /\ mem (sub (add r x) x) = mem r /\
  forall k, sget (sub (add r x) x) k = sget r k.
Proof.
  split; [simpl; lia|]. split; [simpl; lia|]. intros k.
  destruct (sc (add r x)) as [m|] eqn:Hm.
  - rewrite sub_sget by congruence. rewrite add_sget. lia.
  - (* the sum has no scalar map: then x had no scalars and neither had r *)
    assert (Hs : sc (sub (add r x) x) = None) by (apply sub_nil_drops_scalars; exact Hm).
    unfold add in Hm. simpl in Hm. case_bool_decide as He; [|discriminate].
    unfold sget, scm. rewrite Hs, Hm. reflexivity.
Qed.

(* ... and returns the very same vector when x introduces no new scalar key *)
Theorem add_sub_exact r x :
  (forall k, is_Some (scm x !! k) -> is_Some (scm r !! k)) ->
  sub (add r x) x = r.
Proof.
  intros Hsub. apply res_eq; [simpl; lia|simpl; lia|].
  unfold sub, add. simpl. case_bool_decide as He.
  - destruct (sc r) as [m|] eqn:Hm; [|reflexivity].
    f_equal. apply map_eq. intros k. rewrite lookup_merge, He, lookup_empty.
    unfold diag_None. destruct (m !! k); reflexivity.
  - destruct (sc r) as [m|] eqn:Hm.
    + f_equal. apply map_eq. intros k. rewrite lookup_merge, lookup_union_with.
      unfold scm at 1. rewrite Hm. simpl. unfold diag_None.
      destruct (m !! k) eqn:E1, (scm x !! k) eqn:E2; simpl; try reflexivity.
      * f_equal. lia.
      * exfalso. destruct (Hsub k) as [v Hv]; [rewrite E2; eauto|].
        unfold scm in Hv. rewrite Hm in Hv. simpl in Hv. congruence.
    + exfalso. apply He. apply map_eq. intros k. rewrite lookup_empty.
      destruct (scm x !! k) eqn:E; [|reflexivity].
      destruct (Hsub k) as [v Hv]; [rewrite E; eauto|].
      unfold scm in Hv. rewrite Hm in Hv. simpl in Hv. rewrite lookup_empty in Hv. discriminate.
Qed.

Theorem add_comm_pointwise r x :
  cpu (add r x) = cpu (add x r) /\ mem (add r x) = mem (add x r) /\
  forall k, scm (add r x) !! k = scm (add x r) !! k.
Proof.
  split; [simpl; lia|]. split; [simpl; lia|]. intros k.
  rewrite !add_lookup. destruct (scm r !! k), (scm x !! k); simpl; try reflexivity. f_equal. lia.
Qed.

Theorem add_assoc_pointwise r x y :
  cpu (add (add r x) y) = cpu (add r (add x y)) /\ mem (add (add r x) y) = mem (add r (add x y)) /\
  forall k, scm (add (add r x) y) !! k = scm (add r (add x y)) !! k.
Proof.
  split; [simpl; lia|]. split; [simpl; lia|]. intros k.
  rewrite !add_lookup. destruct (scm r !! k), (scm x !! k), (scm y !! k); simpl; try reflexivity. f_equal. lia.
Qed.

Lemma has_missing_spec r rr :
  has_missing r rr = true <-> exists k, is_Some (scm rr !! k) /\ scm r !! k = None.
Proof.
  unfold has_missing. rewrite map_anyb_spec. split.
  - intros (k & v & Hl & Hp). exists k. split; [eauto|].
    apply negb_true_iff, bool_decide_eq_false in Hp.
    destruct (scm r !! k) eqn:E; [exfalso; apply Hp; eauto|reflexivity].
  - intros (k & [v Hv] & Hn). exists k, v. split; [exact Hv|].
    apply negb_true_iff, bool_decide_eq_false. rewrite Hn. intros [? ?]. discriminate.
Qed.

Lemma has_missing_false r rr :
  has_missing r rr = false <-> forall k, is_Some (scm rr !! k) -> is_Some (scm r !! k).
Proof.
  rewrite <- not_true_iff_false, has_missing_spec. split.
  - intros H k Hk. destruct (scm r !! k) eqn:E; [eauto|]. exfalso. apply H. eauto.
  - intros H (k & Hk & Hn). destruct (H k Hk) as [v Hv]. congruence.
Qed.

(* LessEqual under the Zero default: every dimension of r, compared with the
   amount rr has there (0 if rr lacks it) *)
Lemma less_equal_zero_spec r rr :
  less_equal eps r rr DZero = true <->
  cpu r < cpu rr + eps /\ mem r < mem rr + eps /\
  forall k v, scm r !! k = Some v -> v < sget rr k + eps.
Proof.
  unfold less_equal. rewrite !andb_true_iff, all_sc_zero, !le_spec. setoid_rewrite le_spec. tauto.
Qed.

Lemma less_equal_zero_false r rr :
  less_equal eps r rr DZero = false <->
  cpu rr + eps <= cpu r \/ mem rr + eps <= mem r \/
  exists k v, scm r !! k = Some v /\ sget rr k + eps <= v.
Proof.
  unfold less_equal, all_sc. rewrite andb_true_r, !andb_false_iff, !le_false, map_allb_false.
  setoid_rewrite cmp_at_zero. setoid_rewrite le_false. tauto.
Qed.

Lemma less_equal_inf_spec r rr :
  less_equal eps r rr DInf = true <->
  cpu r < cpu rr + eps /\ mem r < mem rr + eps /\
  (forall k, is_Some (scm rr !! k) -> is_Some (scm r !! k)) /\
  forall k v w, scm r !! k = Some v -> scm rr !! k = Some w -> v < w + eps.
Proof.
  unfold less_equal, all_sc. rewrite !andb_true_iff, !le_spec, map_allb_spec, negb_true_iff, has_missing_false.
  split.
  - intros (((Hc & Hm) & Hmiss) & Hs). repeat split; try assumption.
    intros k v w Hl Hr. specialize (Hs k v Hl). unfold cmp_at in Hs. rewrite Hr in Hs.
    apply le_spec in Hs; exact Hs.
  - intros (Hc & Hm & Hmiss & Hs). repeat split; try assumption.
    intros k v Hl. unfold cmp_at. destruct (scm rr !! k) eqn:E; [|reflexivity].
    apply le_spec. eapply Hs; eauto.
Qed.

Lemma less_zero_spec r rr :
  less r rr DZero = true <->
  cpu r < cpu rr /\ mem r < mem rr /\
  forall k v, scm r !! k = Some v -> v < sget rr k.
Proof.
  unfold less. rewrite !andb_true_iff, all_sc_zero, !lt_spec. setoid_rewrite lt_spec. tauto.
Qed.

Theorem less_equal_refl r d : less_equal eps r r d = true.
Proof.
  unfold less_equal. rewrite !le_refl, (proj2 (has_missing_false r r)) by auto.
  replace (all_sc (le eps) r r d) with true; [destruct d; reflexivity|].
  symmetry. apply map_allb_spec. intros k v Hl. unfold cmp_at. rewrite Hl. apply le_refl.
Qed.

Theorem less_implies_less_equal r rr d : less r rr d = true -> less_equal eps r rr d = true.
Proof.
  unfold less, less_equal, all_sc. rewrite !andb_true_iff, !map_allb_spec.
  intros (((Hc & Hm) & Hmiss) & Hs). repeat split; auto using lt_le.
  intros k v Hl. apply cmp_at_lt_le, (Hs k v Hl).
Qed.

(* "LessEqualWithResourcesName is the same as LessEqual": exactly so under the
   Zero default; under Infinity the named form omits the missing-key test. *)
Lemma less_equal_names_all r rr d :
  less_equal_names eps r rr d = le eps (cpu r) (cpu rr) && le eps (mem r) (mem rr) && all_sc (le eps) r rr d.
Proof.
  unfold less_equal_names, le_names, names_none. rewrite !negb_involutive, keys_where_neg_nil_allb. reflexivity.
Qed.

Theorem less_equal_names_zero r rr :
  less_equal_names eps r rr DZero = less_equal eps r rr DZero.
Proof. rewrite less_equal_names_all. unfold less_equal. rewrite andb_true_r. reflexivity. Qed.

Theorem less_equal_names_inf r rr :
  less_equal eps r rr DInf = less_equal_names eps r rr DInf && negb (has_missing r rr).
Proof.
  rewrite less_equal_names_all. unfold less_equal. rewrite <- !andb_assoc. do 2 f_equal. apply andb_comm.
Qed.

Theorem greater_partly_is_negation r rr d :
  greater_partly eps r rr d = negb (less_equal_names eps r rr d).
Proof. reflexivity. Qed.

(* consistency of the non-strict whole-vector form with the strict partial
   form: if r <= s in every dimension then s can be strictly below r only
   inside the tolerance band -- or through LessPartly's missing-key rule, which
   answers "less" for a key s lacks whatever amount r has there (kept visible
   as the last disjunct; see DESIGN C16) *)
Theorem less_equal_vs_less_partly r s :
  (forall k v, scm s !! k = Some v -> 0 <= v) ->
  less_equal eps r s DZero = true -> less_partly s r DZero = true ->
  (0 < cpu r - cpu s < eps) \/ (0 < mem r - mem s < eps) \/
  (exists k, 0 < sget r k - sget s k < eps) \/
  (exists k, scm s !! k = None /\ is_Some (scm r !! k) /\ sget r k < eps).
Proof.
  intros Hnn. rewrite less_equal_zero_spec. intros (Hc & Hm & Hs).
  unfold less_partly. rewrite !orb_true_iff, !lt_spec.
  intros [[[H|H]|H]|H]; [left; lia|right; left; lia| |].
  - apply has_missing_spec in H as (k & [v Hv] & Hn).
    specialize (Hs k v Hv). rewrite (sget_none _ _ Hn) in Hs.
    right; right; right. exists k. rewrite (sget_lookup _ _ _ Hv). eauto with lia.
  - apply map_anyb_spec in H as (k & v & Hl & Hp). unfold cmp_at in Hp.
    destruct (scm r !! k) as [w|] eqn:E.
    + apply lt_spec in Hp. specialize (Hs k w E).
      right; right; left. exists k. rewrite (sget_lookup _ _ _ E), (sget_lookup _ _ _ Hl) in *. lia.
    + apply lt_spec in Hp.
      (* s has a negative amount at a key r lacks: r's 0 is above it, and the
         hypothesis says nothing about keys outside r *)
      specialize (Hnn k v Hl). lia.
Qed.


Theorem diff_decomposes r s inc dec :
  diff_zero r s = (inc, dec) ->
  cpu r + cpu dec = cpu s + cpu inc /\ mem r + mem dec = mem s + mem inc /\
  0 <= cpu inc /\ 0 <= cpu dec /\ Z.min (cpu inc) (cpu dec) = 0 /\
  0 <= mem inc /\ 0 <= mem dec /\ Z.min (mem inc) (mem dec) = 0 /\
  forall k, sget r k + sget dec k = sget s k + sget inc k /\
            0 <= sget inc k /\ 0 <= sget dec k /\ Z.min (sget inc k) (sget dec k) = 0.
Proof.
  unfold diff_zero. intros [= <- <-]. simpl.
  repeat (split; [repeat case_bool_decide; lia|]).
  intros k. unfold sget. rewrite !scm_mk, !lookup_merge. unfold diag_None, diff_f_inc, diff_f_dec.
  destruct (scm r !! k), (scm s !! k); simpl; repeat case_bool_decide; simpl; lia.
Qed.

(* every key of either operand is reported in exactly one of the two results *)
Theorem diff_keys r s inc dec k :
  diff_zero r s = (inc, dec) ->
  (is_Some (scm r !! k) \/ is_Some (scm s !! k)) <->
  (is_Some (scm inc !! k) /\ scm dec !! k = None) \/ (scm inc !! k = None /\ is_Some (scm dec !! k)).
Proof.
  unfold diff_zero. intros [= <- <-]. rewrite !scm_mk.
  rewrite !lookup_merge. unfold diag_None, diff_f_inc, diff_f_dec.
  destruct (scm r !! k), (scm s !! k); simpl; repeat case_bool_decide; rewrite !is_Some_alt; intuition congruence.
Qed.

Theorem set_max_spec r rr :
  cpu (set_max r rr) = Z.max (cpu r) (cpu rr) /\ mem (set_max r rr) = Z.max (mem r) (mem rr) /\
  forall k, scm (set_max r rr) !! k =
            union_with (fun a b => Some (Z.max a b)) (scm r !! k) (scm rr !! k).
Proof.
  split; [reflexivity|]. split; [reflexivity|]. intros k. apply scm_lazy_union.
Qed.

Theorem min_dim_spec r rr d m :
  sc r = Some m ->
  cpu (min_dim r rr d) = Z.min (cpu r) (cpu rr) /\ mem (min_dim r rr d) = Z.min (mem r) (mem rr) /\
  forall k, scm (min_dim r rr d) !! k =
            match m !! k with
            | None => None
            | Some v => match scm rr !! k with
                        | Some w => Some (Z.min v w)
                        | None => match d with DInf => Some v | DZero => Some 0 end
                        end
            end.
Proof.
  intros Hm. split; [reflexivity|]. split; [reflexivity|]. intros k.
  unfold min_dim, scm at 1. simpl. rewrite Hm. simpl. rewrite map_lookup_imap.
  destruct (m !! k); simpl; [|reflexivity]. destruct (scm rr !! k); [reflexivity|]. destruct d; reflexivity.
Qed.

(* the result of MinDimensionResource (either default) is below the receiver when the receiver's scalars are
   not negative *)
Theorem min_dim_le_left r rr d :
  (forall k v, scm r !! k = Some v -> 0 <= v) ->
  less_equal eps (min_dim r rr d) r DZero = true.
Proof.
  intros Hnn. apply less_equal_zero_spec. split; [simpl; lia|]. split; [simpl; lia|].
  intros k v Hl. destruct (sc r) as [m|] eqn:Hm.
  - destruct (min_dim_spec r rr d m Hm) as (_ & _ & Hk). rewrite Hk in Hl.
    assert (Hrm : scm r = m) by (unfold scm; rewrite Hm; reflexivity).
    destruct (m !! k) as [v0|] eqn:E; [|discriminate].
    rewrite <- Hrm in E. rewrite (sget_lookup _ _ _ E). specialize (Hnn k v0 E).
    destruct (scm rr !! k); [inversion Hl; lia|]. destruct d; inversion Hl; lia.
  - unfold min_dim, scm in Hl. simpl in Hl. rewrite Hm in Hl. simpl in Hl. rewrite lookup_empty in Hl. discriminate.
Qed.

(* GreaterPartlyWithDimension: some requested dimension (pods never) in which r exceeds rr, without tolerance *)
Theorem gp_dim_spec r rr req :
  gp_dim r rr req = true <->
  (0 < cpu req /\ cpu rr < cpu r) \/ (0 < mem req /\ mem rr < mem r) \/
  exists k q, scm req !! k = Some q /\ k <> pods_name /\ 0 < q /\ sget rr k < sget r k.
Proof.
  unfold gp_dim, gp_dim_names.
  rewrite names_any_keys, !orb_true_iff, !andb_true_iff, !bool_decide_eq_true, map_anyb_spec.
  setoid_rewrite req_sel_spec. setoid_rewrite bool_decide_eq_true. tauto.
Qed.

Theorem le_dim_is_not_gp_dim r rr req :
  sc r <> None -> le_dim r rr req = negb (gp_dim r rr req).
Proof.
  intros Hn. unfold le_dim, gp_dim, names_any, le_dim_names, gp_dim_names.
  destruct (sc r); [|congruence]. rewrite negb_involutive. reflexivity.
Qed.

End Laws.
