(* C08: concrete histories.  The histories behind the findings (F4: RemoveNode before fix e29cb66;
   the oversubscription amount before fix d373588) evaluated through the repaired handlers -- the
   pre-fix refutations on the same histories are in Props/C08.v -- and states showing that the
   hypotheses of the theorems are satisfiable and their conclusions not trivial; the batch walk
   that stops at the first pre-bind failure. *)
From stdpp Require Import gmap.
From Coq Require Import ZArith.
From V Require Import Base.Res Sched.LedgerModel Sched.LedgerCodec C08.Model C08.Laws C08.Lemmas C08.Lemmas2 C08.Lemmas3.
Open Scope Z_scope.

Definition eps0 : Z := 2.

Definition node1 : nodever := mkNodeVer 1 (mk_alloc 8000 1073741824 10 0) None None false false 0.
Definition pod1 : pod := mkPod 1 (Some 2%positive) (Some 1%positive) PRunning false 1 0 false (mk_req 2000 1048576 0).

(* node added, running pod added, node removed, node added again *)
Definition f4_history : list event := [ENode node1; EPod pod1; ENodeDel 1; ENode node1].

(* the same history through the repaired handler converges and keeps the invariant *)
Example f4_history_fixed :
  view_eqb (run eps0 empty_cache f4_history) (build eps0 (final_objects f4_history)) = true /\
  cache_invb (run eps0 empty_cache f4_history) = true.
Proof. split; vm_compute; reflexivity. Qed.

(* the API rules of a history are decided by evaluation: the quantifier over the old pod version
   ranges over the one entry of the informer store *)
Local Instance pod_ok_dec p : Decision (pod_ok p).
Proof. unfold pod_ok. apply _. Defined.
Local Instance pod_step_dec c p :
  Decision (pod_ok p /\ forall old, c_store c !! p_id p = Some old -> upd_ok old p).
Proof.
  destruct (c_store c !! p_id p) as [old|].
  - destruct (decide (pod_ok p /\ upd_ok old p)) as [H|H]; [left|right].
    + split; [exact (proj1 H)|]. intros o [= <-]. exact (proj2 H).
    + intros [H1 H2]. apply H. split; [exact H1|exact (H2 old eq_refl)].
  - destruct (decide (pod_ok p)) as [H|H]; [left|right; tauto]. split; [exact H|discriminate].
Defined.
Local Instance hist_ok_dec eps h : forall c, Decision (hist_ok eps c h).
Proof. induction h as [|e r IH]; intros c; simpl; [apply _|]. apply and_dec; [destruct e; simpl; apply _|apply IH]. Defined.

(* non-vacuity: a non-trivial state satisfying the hypotheses of the pod theorems *)
Example pod1_ok : pod_ok pod1.
Proof. apply (bool_decide_unpack _). vm_compute. exact I. Qed.

(* non-vacuity of the convergence theorem: the F4 history and the canonical
   feed of its final objects are both API-consistent histories with the same
   final pods and nodes *)
Example f4_hist_ok : hist_ok eps0 empty_cache f4_history /\ hist_ok eps0 empty_cache (build_events (final_objects f4_history)).
Proof. split; apply (bool_decide_unpack _); vm_compute; exact I. Qed.

Local Instance pod_eq_dec : EqDecision pod.
Proof. solve_decision. Defined.
Local Instance nodever_eq_dec : EqDecision nodever.
Proof. solve_decision. Defined.

Example f4_same_final :
  o_pods (final_objects f4_history) = o_pods (final_objects (build_events (final_objects f4_history))) /\
  o_nodes (final_objects f4_history) = o_nodes (final_objects (build_events (final_objects f4_history))).
Proof. split; apply (bool_decide_unpack _); vm_compute; exact I. Qed.

(* ---------- finding (repaired by d373588): a removed oversubscription annotation left its amount behind ---------- *)

(* node1 oversold by 2 cpu (annotation volcano.sh/oversubscription-cpu = 2000) *)
Definition node1_over : nodever :=
  mkNodeVer 1 (mk_alloc 8000 1073741824 10 0) (Some (2000 * grid)) None true false 0.

(* the node is delivered with the annotation, then without it: before the fix
   NodeInfo.setOversubscription only ever overwrote OversubscriptionResource, so Allocatable
   and Idle kept the 2 oversold cpu (10 cpu), whereas a cache that only sees the final object
   shows 8 cpu (and so does every Snapshot clone) *)
Definition over_history : list event := [ENode node1_over; ENode node1].

Example over_history_fixed :
  view_eqb (run eps0 empty_cache over_history) (build eps0 (final_objects over_history)) = true.
Proof. vm_compute. reflexivity. Qed.

(* ---------- non-vacuity of the repair theorem ---------- *)

Definition pg2 : pgobj := mkPG 2 1 1 1.
Definition pod_pending : pod := mkPod 1 (Some 2%positive) None PPending false 1 0 false (mk_req 1000 1048576 0).
(* node, PodGroup, pending pod, AddBindTask accepted by the node but the API bind fails *)
Definition fail_history : list event := [ENode node1; EPG pg2; EPod pod_pending; EBind 2 1 1 false].

Local Instance hist_ok3_dec eps h : forall c, Decision (hist_ok3 eps c h).
Proof. induction h as [|e r IH]; intros c; simpl; [apply _|]. apply and_dec; [destruct e; simpl; apply _|apply IH]. Defined.

Example fail_history_ok : hist_ok3 eps0 empty_cache fail_history.
Proof. apply (bool_decide_unpack _). vm_compute. exact I. Qed.

(* the failed bind really leaves the task Binding on the node, queued for resync; the drain puts it back *)
Example fail_history_effect :
  (t_status <$> c_heap (run eps0 empty_cache fail_history) !! 1%positive) = Some Binding /\
  c_errq (run eps0 empty_cache fail_history) = [(2%positive, 1%positive)] /\
  (t_status <$> c_heap (run eps0 empty_cache (fail_history ++ [EDrainResync])) !! 1%positive) = Some Pending.
Proof. repeat split; vm_compute; reflexivity. Qed.

(* node1 with the running pod1 whose job has no PodGroup.  The
   node of the snapshot holds a copy of pod1's task, its job is not in the snapshot: read with
   [s_heap] alone the snapshot fails the consistency law, read with the heap the codec rebuilds
   from a real dump (tasks of its jobs + copies held by its nodes) it satisfies it *)
Definition c_w1 : cache := run eps0 empty_cache [ENode node1; EPod pod1].
Example snapshot_law_needs_node_copies :
  law_snapshot c_w1 (take_snapshot eps0 c_w1) = false /\
  law_snapshot c_w1 (full_snapshot eps0 c_w1) = true /\
  law_snapshot (run eps0 empty_cache fail_history) (full_snapshot eps0 (run eps0 empty_cache fail_history)) = true.
Proof. repeat split; vm_compute; reflexivity. Qed.

(* a mix of outcomes: one bind succeeds at the API (pod 1), another fails (pod 2) *)
Definition pod_pending2 : pod := mkPod 2 (Some 2%positive) None PPending false 1 0 false (mk_req 500 1048576 0).
Definition mixed_history : list event :=
  [ENode node1; EPG pg2; EPod pod_pending; EPod pod_pending2; EBind 2 1 1 true; EBind 2 2 1 false].
Local Instance hist_ok4_dec eps h : forall c, Decision (hist_ok4 eps c h).
Proof. induction h as [|e r IH]; intros c; simpl; [apply _|]. apply and_dec; [destruct e; simpl; apply _|apply IH]. Defined.

Example mixed_history_ok : hist_ok4 eps0 empty_cache mixed_history.
Proof. apply (bool_decide_unpack _). vm_compute. exact I. Qed.
(* after the drain the failed one is Pending again, the bound one is still Binding and is the
   only task awaiting its pod notification *)
Example mixed_history_effect :
  let c := run eps0 empty_cache (mixed_history ++ [EDrainResync]) in
  (t_status <$> c_heap c !! 1%positive) = Some Binding /\
  (t_status <$> c_heap c !! 2%positive) = Some Pending /\
  await_run eps0 empty_cache ∅ mixed_history = {[1%positive]}.
Proof. repeat split; try (vm_compute; reflexivity). apply (bool_decide_unpack _). vm_compute. exact I. Qed.

(* non-vacuity of the whole-alphabet convergence theorem: the pod arrives before its node and
   PodGroup and a bind attempt fails at the API, vs. the objects delivered in another order
   without any cycle step *)
Definition conv_h1 : list event := [EPod pod_pending; EPG pg2; ENode node1; EBind 2 1 1 false; EDrainCleanup].
Definition conv_h2 : list event := [ENode node1; EPG pg2; EPod pod_pending].
Example conv_hyps :
  hist_ok4 eps0 empty_cache conv_h1 /\ hist_ok4 eps0 empty_cache conv_h2 /\
  quiescent eps0 conv_h1 /\ quiescent eps0 conv_h2 /\
  o_pods (final_objects conv_h1) = o_pods (final_objects conv_h2) /\
  o_nodes (final_objects conv_h1) = o_nodes (final_objects conv_h2).
Proof. split; [|split; [|split; [|split; [|split]]]]; apply (bool_decide_unpack _); vm_compute; exact I. Qed.
(* and the failed bind is really visible before the final drain *)
Example conv_h1_diverges_before_drain :
  (t_status <$> c_heap (run eps0 empty_cache conv_h1) !! 1%positive) = Some Binding.
Proof. vm_compute. reflexivity. Qed.

(* a non-trivial instance of quiescence -- a successful bind acknowledged by the
   pod notification that carries the node name, a failed bind, a pod vanishing from the API
   server before its resync, its delete notification -- against plain delivery in another order *)
Definition pod_bound1 : pod := mkPod 1 (Some 2%positive) (Some 1%positive) PPending false 1 0 false (mk_req 1000 1048576 0).
Definition conv_h3 : list event :=
  [ENode node1; EPG pg2; EPod pod_pending; EPod pod_pending2; EBind 2 1 1 true; EPod pod_bound1;
   EBind 2 2 1 false; EApiGone 2; EDrainResync; EPodDel 2].
Definition conv_h4 : list event := [EPod pod_bound1; ENode node1; EPG pg2].
Example conv_hyps_nontrivial :
  hist_ok4 eps0 empty_cache conv_h3 /\ hist_ok4 eps0 empty_cache conv_h4 /\
  quiescent eps0 conv_h3 /\ quiescent eps0 conv_h4 /\
  fold_left pend_syn conv_h3 ∅ = ∅ /\
  o_pods (final_objects conv_h3) = o_pods (final_objects conv_h4) /\
  o_nodes (final_objects conv_h3) = o_nodes (final_objects conv_h4) /\
  snd (bind_task eps0 (run eps0 empty_cache [ENode node1; EPG pg2; EPod pod_pending; EPod pod_pending2]) 2 1 1 true) = RDone.
Proof.
  split; [|split; [|split; [|split; [|split; [|split; [|split]]]]]];
    try (apply (bool_decide_unpack _); vm_compute; exact I).
  vm_compute. reflexivity.
Qed.

(* ---------- the batch walk that stops at the first pre-bind failure ---------- *)

Definition pod_n (i : positive) : pod := mkPod i (Some 2%positive) None PPending false 1 0 false (mk_req 500 1048576 0).
Definition batch_state : cache := run eps0 empty_cache [ENode node1; EPG pg2; EPod (pod_n 1); EPod (pod_n 2); EPod (pod_n 3)].
(* three contexts: the pre-binder of the first fails, the second is bound, the binder refuses the third *)
Definition batch_ctxs : list (positive * positive * positive * Z) :=
  [(2%positive, 1%positive, 1%positive, 2); (2%positive, 2%positive, 1%positive, 1); (2%positive, 3%positive, 1%positive, 0)].

(* the walk with `break` (seed C01-r7-1) satisfies the statement without a queue clause
   (bind_batch_break_same_but_errq) but not the queue clause of bind_batch_errq: the failed bind of
   the third context is queued by the history of single binds and by bind_batch, not by it *)
Theorem bind_batch_break_refuted :
  exists c l, faults_ok l /\
    snd (bind_batch_break eps0 c l) = [RDone; RDone; RDone] /\
    exists k, k ∈ c_errq (run eps0 c (batch_events l)) /\ k ∈ c_errq (fst (bind_batch eps0 c l)) /\
              k ∉ c_errq (fst (bind_batch_break eps0 c l)).
Proof.
  exists batch_state, batch_ctxs.
  split; [unfold faults_ok, batch_ctxs; repeat (apply Forall_cons; split; [simpl; split; discriminate|]); apply Forall_nil; exact Logic.I|].
  split; [vm_compute; reflexivity|].
  exists (2%positive, 3%positive).
  assert (E1 : c_errq (run eps0 batch_state (batch_events batch_ctxs)) = [(2%positive, 1%positive); (2%positive, 3%positive)]) by (vm_compute; reflexivity).
  assert (E2 : c_errq (fst (bind_batch eps0 batch_state batch_ctxs)) = [(2%positive, 1%positive); (2%positive, 3%positive)]) by (vm_compute; reflexivity).
  assert (E3 : c_errq (fst (bind_batch_break eps0 batch_state batch_ctxs)) = [(2%positive, 1%positive)]) by (vm_compute; reflexivity).
  rewrite E1, E2, E3. split; [right; left|]. split; [right; left|]. intros H. apply elem_of_list_singleton in H. discriminate.
Qed.

(* non-vacuity of bind_batch_errq / bind_batch_law105: the queue clause has members *)
Example batch_failed_keys :
  failed_keys batch_ctxs (snd (bind_batch eps0 batch_state batch_ctxs)) = [(2%positive, 1%positive); (2%positive, 3%positive)].
Proof. vm_compute. reflexivity. Qed.

