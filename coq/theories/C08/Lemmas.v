(* C08 proofs, part 1: the ledger algebra (amounts, sums over the task table); the representation
   invariant [Rep] as a family of entries; addTask / deleteTask; the informer handlers for pods,
   nodes and PodGroups; the view is determined by the held tasks; histories of informer events and
   their convergence; syncTask. *)
From stdpp Require Import gmap.
From Coq Require Import ZArith Lia.
From V Require Import Base.Codec Base.Res Base.ResLemmas Sched.LedgerModel Sched.LedgerInv C08.Model.
Open Scope Z_scope.

(* ---------- amounts, pointwise ---------- *)

Inductive dim := DCpu | DMem | DSc (k : positive).

Definition amt (r : res) (d : dim) : Z :=
  match d with DCpu => cpu r | DMem => mem r | DSc k => sget r k end.

Lemma res_eqv_amt r s : res_eqv r s <-> forall d, amt r d = amt s d.
Proof.
  split.
  - intros (H1 & H2 & H3) [| |k]; simpl; auto.
  - intros H. split; [exact (H DCpu)|]. split; [exact (H DMem)|]. intros k. exact (H (DSc k)).
Qed.

Lemma amt_empty d : amt empty_res d = 0.
Proof. destruct d; reflexivity. Qed.

Lemma amt_add r x d : amt (add r x) d = amt r d + amt x d.
Proof. destruct d; simpl; [reflexivity|reflexivity|apply add_sget]. Qed.

(* Go's sub drops the subtrahend's scalars when the receiver has a nil map *)
Lemma amt_sub r x d : (sc r = None -> scm x = ∅) -> amt (sub r x) d = amt r d - amt x d.
Proof.
  intros Hn. destruct d as [| |k]; simpl; [reflexivity|reflexivity|].
  destruct (sc r) as [m|] eqn:Hm.
  - apply sub_sget. congruence.
  - assert (Hx : sget x k = 0) by (unfold sget; rewrite (Hn eq_refl), lookup_empty; reflexivity).
    assert (Hr : sget r k = 0) by (unfold sget, scm; rewrite Hm; simpl; rewrite lookup_empty; reflexivity).
    assert (Hs : sget (sub r x) k = 0)
      by (unfold sget, scm; rewrite (sub_nil_drops_scalars r x Hm); simpl; rewrite lookup_empty; reflexivity).
    lia.
Qed.

Lemma sc_add_some r x : scm x <> ∅ -> sc (add r x) <> None.
Proof. intros H. unfold add. simpl. case_bool_decide; [contradiction|discriminate]. Qed.
Lemma sc_add_keep r x : sc r <> None -> sc (add r x) <> None.
Proof. intros H. unfold add. simpl. case_bool_decide; [exact H|discriminate]. Qed.
Lemma sc_sub_keep r x : sc r <> None -> sc (sub r x) <> None.
Proof. intros H. unfold sub. simpl. destruct (sc r); [discriminate|contradiction]. Qed.

(* ---------- sums over the task table ---------- *)

Definition tsum (f : task -> bool) (T : gmap positive task) (d : dim) : Z :=
  map_fold (fun _ t a => if f t then amt (t_req t) d + a else a) 0 T.

Lemma tsum_empty f d : tsum f ∅ d = 0.
Proof. unfold tsum. apply map_fold_empty. Qed.

Lemma tsum_insert f T i t d :
  T !! i = None -> tsum f (<[i := t]> T) d = (if f t then amt (t_req t) d else 0) + tsum f T d.
Proof.
  intros Hn. unfold tsum. rewrite map_fold_insert_L; [destruct (f t); lia| |exact Hn].
  intros j1 j2 z1 z2 y _ _ _. destruct (f z1), (f z2); lia.
Qed.

Lemma tsum_delete f T i t d :
  T !! i = Some t -> tsum f T d = (if f t then amt (t_req t) d else 0) + tsum f (delete i T) d.
Proof.
  intros Hs. rewrite <- (insert_delete T i t Hs) at 1.
  apply tsum_insert. apply lookup_delete.
Qed.

Lemma tsum_none f T d : (forall i t, T !! i = Some t -> f t = false) -> tsum f T d = 0.
Proof.
  induction T as [|i t T Hn IH] using map_ind; intros H; [apply tsum_empty|].
  rewrite tsum_insert by exact Hn. rewrite (H i t) by apply lookup_insert.
  rewrite IH; [lia|]. intros j u Hu. apply (H j u). rewrite lookup_insert_ne; [exact Hu|congruence].
Qed.

Lemma tsum_ext f g T d : (forall i t, T !! i = Some t -> f t = g t) -> tsum f T d = tsum g T d.
Proof.
  induction T as [|i t T Hn IH] using map_ind; intros H; [rewrite !tsum_empty; reflexivity|].
  rewrite !tsum_insert by exact Hn. rewrite (H i t) by apply lookup_insert.
  rewrite IH; [reflexivity|]. intros j u Hu. apply (H j u). rewrite lookup_insert_ne; [exact Hu|congruence].
Qed.

(* ---------- an accumulator of the requests of the members selected by [f] ---------- *)

(* every pod request carries at least the "pods" scalar *)
Definition task_wf (t : task) : Prop := scm (t_req t) <> ∅.

Definition acc_ok (r : res) (f : task -> bool) (T : gmap positive task) : Prop :=
  (forall d, amt r d = tsum f T d) /\
  (sc r = None -> forall i t, T !! i = Some t -> f t = false).

Lemma acc_none f T : (forall i t, T !! i = Some t -> f t = false) -> acc_ok empty_res f T.
Proof. intros H. split; [intros d; rewrite amt_empty, tsum_none by exact H; reflexivity|intros _; exact H]. Qed.

Lemma acc_ok_eqv r r' f T : acc_ok r f T -> acc_ok r' f T -> res_eqv r r'.
Proof. intros [H _] [H' _]. apply res_eqv_amt. intros d. rewrite H, H'. reflexivity. Qed.

Lemma acc_ext r f g T : (forall i t, T !! i = Some t -> f t = g t) -> acc_ok r f T -> acc_ok r g T.
Proof.
  intros He [H1 H2]. split.
  - intros d. rewrite H1. apply tsum_ext. exact He.
  - intros Hn i t Ht. rewrite <- (He i t Ht). exact (H2 Hn i t Ht).
Qed.

Lemma acc_insert_in r f T i t :
  T !! i = None -> f t = true -> task_wf t -> acc_ok r f T -> acc_ok (add r (t_req t)) f (<[i := t]> T).
Proof.
  intros Hn Hf Hw [H1 H2]. split.
  - intros d. rewrite amt_add, tsum_insert, Hf, H1 by exact Hn. lia.
  - intros Hs. exfalso. exact (sc_add_some r (t_req t) Hw Hs).
Qed.

Lemma acc_insert_out r f T i t :
  T !! i = None -> f t = false -> acc_ok r f T -> acc_ok r f (<[i := t]> T).
Proof.
  intros Hn Hf [H1 H2]. split.
  - intros d. rewrite tsum_insert, Hf, H1 by exact Hn. lia.
  - intros Hs j u Hu. destruct (decide (j = i)) as [->|Hne].
    + rewrite lookup_insert in Hu. congruence.
    + rewrite lookup_insert_ne in Hu by congruence. exact (H2 Hs j u Hu).
Qed.

Lemma acc_delete_in r f T i t :
  T !! i = Some t -> f t = true -> acc_ok r f T -> acc_ok (sub r (t_req t)) f (delete i T).
Proof.
  intros Hs Hf [H1 H2]. split.
  - intros d. rewrite amt_sub.
    + rewrite H1, (tsum_delete f T i t d Hs), Hf. lia.
    + intros Hn. rewrite (H2 Hn i t Hs) in Hf. discriminate.
  - intros Hn j u Hu. exfalso.
    assert (sc r = None) as Hr by (unfold sub in Hn; simpl in Hn; destruct (sc r); [discriminate|reflexivity]).
    rewrite (H2 Hr i t Hs) in Hf. discriminate.
Qed.

Lemma acc_delete_out r f T i t :
  T !! i = Some t -> f t = false -> acc_ok r f T -> acc_ok r f (delete i T).
Proof.
  intros Hs Hf [H1 H2]. split.
  - intros d. rewrite H1, (tsum_delete f T i t d Hs), Hf. lia.
  - intros Hn j u Hu. apply (H2 Hn j u). rewrite lookup_delete_Some in Hu. tauto.
Qed.

(* ---------- JobInfo ---------- *)

Definition in_j (j : positive) (t : task) : bool := bool_decide (t_job t = j).

Record JobRep (T : gmap positive task) (j : positive) (J : job) : Prop := mkJobRep {
  jr_id : j_id J = j;
  jr_tasks : forall i, i ∈ j_tasks J <-> exists t, T !! i = Some t /\ t_job t = j;
  jr_total : acc_ok (j_total J) (in_j j) T;
  jr_alloc : acc_ok (j_alloc J) (fun t => in_j j t && allocated_status (t_status t)) T;
}.

(* a ledger that counts nothing, over a table in which no task names the job *)
Lemma job_rep_none T j J :
  j_id J = j -> j_tasks J = ∅ -> j_total J = empty_res -> j_alloc J = empty_res ->
  (forall i t, T !! i = Some t -> t_job t <> j) -> JobRep T j J.
Proof.
  intros Hid Hts Htot Hal Hno.
  assert (Hf : forall i t, T !! i = Some t -> in_j j t = false).
  { intros i t Ht. unfold in_j. rewrite bool_decide_eq_false. exact (Hno i t Ht). }
  split; [exact Hid| |rewrite Htot; apply acc_none; exact Hf|rewrite Hal; apply acc_none].
  - intros i. rewrite Hts. split; [set_solver|]. intros (t & Ht & Hj). exfalso. exact (Hno i t Ht Hj).
  - intros i t Ht. rewrite (Hf i t Ht). reflexivity.
Qed.

Lemma job_rep_new j : JobRep ∅ j (new_job j).
Proof. apply job_rep_none; try reflexivity. intros i t Ht. rewrite lookup_empty in Ht. discriminate. Qed.

Lemma job_add_rep T j J t :
  JobRep T j J -> T !! t_id t = None -> t_job t = j -> task_wf t ->
  JobRep (<[t_id t := t]> T) j (job_add J t).
Proof.
  intros [Hid Hts Htot Hal] Hn Hj Hw. split.
  - exact Hid.
  - intros i. simpl. rewrite elem_of_union, elem_of_singleton, Hts. split.
    + intros [->|(u & Hu & Huj)].
      * exists t. rewrite lookup_insert. auto.
      * exists u. rewrite lookup_insert_ne; [auto|]. intros <-. congruence.
    + intros (u & Hu & Huj). destruct (decide (i = t_id t)) as [->|Hne]; [auto|].
      right. exists u. rewrite lookup_insert_ne in Hu by congruence. auto.
  - simpl. apply acc_insert_in; auto. unfold in_j. rewrite bool_decide_eq_true. exact Hj.
  - simpl. destruct (allocated_status (t_status t)) eqn:Ha.
    + apply acc_insert_in; auto. unfold in_j. rewrite Ha, andb_true_r, bool_decide_eq_true. exact Hj.
    + apply acc_insert_out; auto. rewrite Ha, andb_false_r. reflexivity.
Qed.

Lemma job_insert_other T j J i t :
  JobRep T j J -> T !! i = None -> t_job t <> j -> JobRep (<[i := t]> T) j J.
Proof.
  intros [Hid Hts Htot Hal] Hn Hj.
  assert (Hf : in_j j t = false) by (unfold in_j; rewrite bool_decide_eq_false; exact Hj).
  split; [exact Hid| | |].
  - intros k. rewrite Hts. split; intros (u & Hu & Huj).
    + exists u. rewrite lookup_insert_ne; [auto|]. intros <-. congruence.
    + destruct (decide (k = i)) as [->|Hne].
      * rewrite lookup_insert in Hu. congruence.
      * exists u. rewrite lookup_insert_ne in Hu by congruence. auto.
  - apply acc_insert_out; auto.
  - apply acc_insert_out; auto. rewrite Hf. reflexivity.
Qed.

Lemma job_del_rep T j J t :
  JobRep T j J -> T !! t_id t = Some t -> t_job t = j ->
  JobRep (delete (t_id t) T) j (job_del J t).
Proof.
  intros [Hid Hts Htot Hal] Hs Hj.
  assert (Hf : in_j j t = true) by (unfold in_j; rewrite bool_decide_eq_true; exact Hj).
  split.
  - exact Hid.
  - intros i. simpl. rewrite elem_of_difference, elem_of_singleton, Hts. split.
    + intros [(u & Hu & Huj) Hne]. exists u. rewrite lookup_delete_ne by congruence. auto.
    + intros (u & Hu & Huj). rewrite lookup_delete_Some in Hu. destruct Hu as [Hne Hu]. split; [eauto|congruence].
  - simpl. apply acc_delete_in; auto.
  - simpl. destruct (allocated_status (t_status t)) eqn:Ha.
    + apply acc_delete_in; auto. rewrite Hf, Ha. reflexivity.
    + apply (acc_delete_out _ _ _ _ t); auto. rewrite Ha, andb_false_r. reflexivity.
Qed.

Lemma job_delete_other T j J i t :
  JobRep T j J -> T !! i = Some t -> t_job t <> j -> JobRep (delete i T) j J.
Proof.
  intros [Hid Hts Htot Hal] Hs Hj.
  assert (Hf : in_j j t = false) by (unfold in_j; rewrite bool_decide_eq_false; exact Hj).
  split; [exact Hid| | |].
  - intros k. rewrite Hts. split; intros (u & Hu & Huj).
    + exists u. rewrite lookup_delete_ne; [auto|]. intros <-. congruence.
    + rewrite lookup_delete_Some in Hu. destruct Hu as [_ Hu]. eauto.
  - apply (acc_delete_out _ _ _ _ t); auto.
  - apply (acc_delete_out _ _ _ _ t); auto. rewrite Hf. reflexivity.
Qed.

(* ---------- NodeInfo ---------- *)

Definition on_n (n : positive) (t : task) : bool :=
  bool_decide (t_node t = Some n) && negb (terminated (t_status t)).
Definition is_st (s : status) (t : task) : bool := bool_decide (t_status t = s).
Definition f_used (n : positive) (t : task) : bool := on_n n t && negb (is_st Pipelined t).
Definition f_rel (n : positive) (t : task) : bool := on_n n t && is_st Releasing t.
Definition f_pip (n : positive) (t : task) : bool := on_n n t && is_st Pipelined t.

Record Ledger (T : gmap positive task) (n : positive) (N : node) : Prop := mkLedger {
  lg_idle_sc : sc (n_idle N) <> None;
  lg_used : acc_ok (n_used N) (f_used n) T;
  lg_rel : acc_ok (n_releasing N) (f_rel n) T;
  lg_pip : acc_ok (n_pipelined N) (f_pip n) T;
  lg_idle : forall d, amt (n_idle N) d = amt (n_alloc N) d - tsum (f_used n) T d;
}.

Record NodeRep (T : gmap positive task) (n : positive) (N : node) : Prop := mkNodeRep {
  nr_id : n_id N = n;
  nr_tasks : n_tasks N = filter (fun kv => on_n n (snd kv) = true) T;
  nr_ledger : n_has_node N = true -> Ledger T n N;
}.

Lemma set_node_same t n : t_node t = Some n -> set_node t (Some n) = t.
Proof. destruct t; simpl; intros ->; reflexivity. Qed.

Lemma ledger_insert_out T n N i t :
  T !! i = None -> on_n n t = false -> Ledger T n N -> Ledger (<[i := t]> T) n N.
Proof.
  intros Hn Hf [H1 H2 H3 H4 H5]. split; [exact H1| | | |].
  - apply acc_insert_out; auto. unfold f_used. rewrite Hf. reflexivity.
  - apply acc_insert_out; auto. unfold f_rel. rewrite Hf. reflexivity.
  - apply acc_insert_out; auto. unfold f_pip. rewrite Hf. reflexivity.
  - intros d. rewrite H5, tsum_insert by exact Hn. unfold f_used. rewrite Hf. simpl. lia.
Qed.

Lemma ledger_delete_out T n N i t :
  T !! i = Some t -> on_n n t = false -> Ledger T n N -> Ledger (delete i T) n N.
Proof.
  intros Hs Hf [H1 H2 H3 H4 H5]. split; [exact H1| | | |].
  - apply (acc_delete_out _ _ _ _ t); auto. unfold f_used. rewrite Hf. reflexivity.
  - apply (acc_delete_out _ _ _ _ t); auto. unfold f_rel. rewrite Hf. reflexivity.
  - apply (acc_delete_out _ _ _ _ t); auto. unfold f_pip. rewrite Hf. reflexivity.
  - intros d. rewrite H5, (tsum_delete (f_used n) T i t d Hs). unfold f_used. rewrite Hf. simpl. lia.
Qed.

Lemma node_insert_other T n N i t :
  NodeRep T n N -> T !! i = None -> on_n n t = false -> NodeRep (<[i := t]> T) n N.
Proof.
  intros [Hid Hts Hl] Hn Hf. split; [exact Hid| |].
  - rewrite Hts. symmetry. apply map_filter_insert_not'; cbn [snd fst].
    + rewrite Hf. discriminate.
    + intros y Hy. congruence.
  - intros Hh. apply ledger_insert_out; auto.
Qed.

Lemma node_delete_other T n N i t :
  NodeRep T n N -> T !! i = Some t -> on_n n t = false -> NodeRep (delete i T) n N.
Proof.
  intros [Hid Hts Hl] Hs Hf. split; [exact Hid| |].
  - rewrite Hts, map_filter_delete. symmetry. apply delete_notin.
    apply map_filter_lookup_None. right. intros x Hx. cbn [snd fst]. rewrite Hs in Hx. injection Hx as <-. rewrite Hf. discriminate.
  - intros Hh. eapply ledger_delete_out; eauto.
Qed.

(* an entry that holds nothing, over a table in which no task sits on the node *)
Lemma node_rep_none T n X :
  n_id X = n -> n_tasks X = ∅ -> (forall i t, T !! i = Some t -> on_n n t = false) ->
  (n_has_node X = true ->
   sc (n_idle X) <> None /\ n_idle X = n_alloc X /\
   n_used X = empty_res /\ n_releasing X = empty_res /\ n_pipelined X = empty_res) ->
  NodeRep T n X.
Proof.
  intros Hid Hts Hno Hl. split; [exact Hid| |].
  - rewrite Hts. symmetry. apply map_filter_empty_iff. intros i t Ht Hon. cbn [snd] in Hon.
    rewrite (Hno i t Ht) in Hon. discriminate.
  - intros Hh. destruct (Hl Hh) as (Hsc & Hi & Hu & Hr & Hp).
    assert (Hz : forall (g : task -> bool) i t, T !! i = Some t -> on_n n t && g t = false)
      by (intros g i t Ht; rewrite (Hno i t Ht); reflexivity).
    split; [exact Hsc|rewrite Hu; apply acc_none|rewrite Hr; apply acc_none|rewrite Hp; apply acc_none|].
    + exact (Hz (fun t => negb (is_st Pipelined t))).
    + exact (Hz (is_st Releasing)).
    + exact (Hz (is_st Pipelined)).
    + intros d. rewrite Hi, (tsum_none (f_used n)); [lia|]. exact (Hz (fun t => negb (is_st Pipelined t))).
Qed.

Lemma node_rep_placeholder n : NodeRep ∅ n (placeholder n).
Proof.
  apply node_rep_none; try reflexivity; [|discriminate]. intros i t Ht. rewrite lookup_empty in Ht. discriminate.
Qed.

Section WithEps.
Variable eps : Z.

(* the three ways a task counts in a node's ledger *)
Lemma ledger_in T n N i t idle used rel pip ts :
  T !! i = None -> on_n n t = true -> task_wf t -> Ledger T n N ->
  (idle, used, rel, pip) =
    (if is_st Pipelined t then (n_idle N, n_used N, n_releasing N, add (n_pipelined N) (t_req t))
     else if is_st Releasing t then (sub (n_idle N) (t_req t), add (n_used N) (t_req t), add (n_releasing N) (t_req t), n_pipelined N)
     else (sub (n_idle N) (t_req t), add (n_used N) (t_req t), n_releasing N, n_pipelined N)) ->
  Ledger (<[i := t]> T) n (node_with N idle used rel pip ts).
Proof.
  intros Hn Hon Hw [H1 H2 H3 H4 H5] He.
  destruct (is_st Pipelined t) eqn:Hp; [|destruct (is_st Releasing t) eqn:Hr]; injection He as -> -> -> ->;
    split; simpl; try (apply acc_insert_in; auto; unfold f_used, f_rel, f_pip; rewrite Hon, ?Hp, ?Hr; reflexivity);
    try (apply acc_insert_out; auto; unfold f_used, f_rel, f_pip; rewrite Hon, ?Hp, ?Hr; reflexivity);
    try (apply sc_sub_keep; exact H1); try exact H1.
  - unfold is_st in Hp. rewrite bool_decide_eq_true in Hp. apply acc_insert_out; auto.
    unfold f_rel, is_st. rewrite Hon, Hp. reflexivity.
  - intros d. rewrite H5, tsum_insert by exact Hn. unfold f_used. rewrite Hon, Hp. simpl. lia.
  - intros d. rewrite amt_sub by (intros Hx; contradiction). rewrite H5, tsum_insert by exact Hn.
    unfold f_used. rewrite Hon, Hp. simpl. lia.
  - intros d. rewrite amt_sub by (intros Hx; contradiction). rewrite H5, tsum_insert by exact Hn.
    unfold f_used. rewrite Hon, Hp. simpl. lia.
Qed.

Lemma node_add_rep T n N t N' t' :
  NodeRep T n N -> T !! t_id t = None -> t_node t = Some n -> terminated (t_status t) = false -> task_wf t ->
  node_add eps N t = inl (N', t') ->
  NodeRep (<[t_id t := t]> T) n N' /\ t' = t /\ n_has_node N' = n_has_node N /\ n_alloc N' = n_alloc N.
Proof.
  intros [Hid Hts Hl] Hn Hnode Hterm Hw.
  assert (Hon : on_n n t = true) by (unfold on_n; rewrite Hterm, bool_decide_eq_true_2 by exact Hnode; reflexivity).
  assert (Hts' : <[t_id t := t]> (n_tasks N) = filter (fun kv => on_n n (snd kv) = true) (<[t_id t := t]> T)).
  { rewrite Hts. symmetry. apply map_filter_insert_True. exact Hon. }
  unfold node_add. rewrite Hid.
  rewrite bool_decide_eq_false_2 by (rewrite Hnode; intros [_ H]; congruence).
  rewrite bool_decide_eq_false_2.
  2:{ rewrite Hts. intros [x Hx]. apply map_filter_lookup_Some in Hx. destruct Hx as [Hx _]. congruence. }
  rewrite (set_node_same t n Hnode).
  destruct (n_has_node N) eqn:Hh; simpl.
  - specialize (Hl eq_refl).
    assert (Hgen : forall idle used rel pip,
      (idle, used, rel, pip) =
        (if is_st Pipelined t then (n_idle N, n_used N, n_releasing N, add (n_pipelined N) (t_req t))
         else if is_st Releasing t then (sub (n_idle N) (t_req t), add (n_used N) (t_req t), add (n_releasing N) (t_req t), n_pipelined N)
         else (sub (n_idle N) (t_req t), add (n_used N) (t_req t), n_releasing N, n_pipelined N)) ->
      @inl (node * task) add_err (node_with N idle used rel pip (<[t_id t := t]> (n_tasks N)), t) = inl (N', t') ->
      NodeRep (<[t_id t := t]> T) n N' /\ t' = t /\ n_has_node N' = true /\ n_alloc N' = n_alloc N).
    { intros idle used rel pip He Hi. injection Hi as <- <-. split; [|auto].
      split; [exact Hid|exact Hts'|]. intros _. eapply ledger_in; eauto. }
    unfold is_st in Hgen.
    destruct (t_status t) eqn:Hst; try (apply Hgen; reflexivity).
    destruct (less_equal_names eps (t_req t) (n_idle N) DZero); [apply Hgen; reflexivity|discriminate].
  - intros Hi. injection Hi as <- <-. split; [|auto]. split; [exact Hid|exact Hts'|].
    simpl. rewrite Hh. discriminate.
Qed.

Lemma node_add_ok T n N t :
  NodeRep T n N -> T !! t_id t = None -> t_node t = Some n -> t_status t <> Binding ->
  exists N', node_add eps N t = inl (N', t).
Proof.
  intros [Hid Hts Hl] Hn Hnode Hb.
  unfold node_add. rewrite Hid.
  rewrite bool_decide_eq_false_2 by (rewrite Hnode; intros [_ H]; congruence).
  rewrite bool_decide_eq_false_2.
  2:{ rewrite Hts. intros [x Hx]. apply map_filter_lookup_Some in Hx. destruct Hx as [Hx _]. congruence. }
  rewrite (set_node_same t n Hnode).
  destruct (n_has_node N); simpl; [|eauto].
  destruct (t_status t); eauto. contradiction.
Qed.

Lemma ledger_out T n N i t :
  T !! i = Some t -> on_n n t = true -> Ledger T n N ->
  Ledger (delete i T) n
    (if is_st Pipelined t then node_with N (n_idle N) (n_used N) (n_releasing N) (sub (n_pipelined N) (t_req t)) (delete i (n_tasks N))
     else if is_st Releasing t then node_with N (add (n_idle N) (t_req t)) (sub (n_used N) (t_req t)) (sub (n_releasing N) (t_req t)) (n_pipelined N) (delete i (n_tasks N))
     else node_with N (add (n_idle N) (t_req t)) (sub (n_used N) (t_req t)) (n_releasing N) (n_pipelined N) (delete i (n_tasks N))).
Proof.
  intros Hs Hon [H1 H2 H3 H4 H5].
  destruct (is_st Pipelined t) eqn:Hp; [|destruct (is_st Releasing t) eqn:Hr];
    split; simpl; try (apply acc_delete_in; auto; unfold f_used, f_rel, f_pip; rewrite Hon, ?Hp, ?Hr; reflexivity);
    try (apply (acc_delete_out _ _ _ _ t); auto; unfold f_used, f_rel, f_pip; rewrite Hon, ?Hp, ?Hr; reflexivity);
    try (apply sc_add_keep; exact H1); try exact H1.
  - unfold is_st in Hp. rewrite bool_decide_eq_true in Hp. apply (acc_delete_out _ _ _ _ t); auto.
    unfold f_rel, is_st. rewrite Hon, Hp. reflexivity.
  - intros d. rewrite H5, (tsum_delete (f_used n) T i t d Hs). unfold f_used. rewrite Hon, Hp. simpl. lia.
  - intros d. rewrite amt_add, H5, (tsum_delete (f_used n) T i t d Hs). unfold f_used. rewrite Hon, Hp. simpl. lia.
  - intros d. rewrite amt_add, H5, (tsum_delete (f_used n) T i t d Hs). unfold f_used. rewrite Hon, Hp. simpl. lia.
Qed.

Lemma node_remove_rep T n N i t :
  NodeRep T n N -> T !! i = Some t -> on_n n t = true ->
  NodeRep (delete i T) n (node_remove N i) /\
  n_has_node (node_remove N i) = n_has_node N /\ n_alloc (node_remove N i) = n_alloc N.
Proof.
  intros [Hid Hts Hl] Hs Hon.
  assert (Hc : n_tasks N !! i = Some t).
  { rewrite Hts. apply map_filter_lookup_Some. auto. }
  assert (Hts' : delete i (n_tasks N) = filter (fun kv => on_n n (snd kv) = true) (delete i T)).
  { rewrite Hts. symmetry. apply map_filter_delete. }
  unfold node_remove. rewrite Hc.
  destruct (n_has_node N) eqn:Hh; simpl.
  - specialize (Hl eq_refl). pose proof (ledger_out T n N i t Hs Hon Hl) as HL. unfold is_st in HL.
    destruct (t_status t) eqn:Hst; simpl in HL;
      (split; [split; [exact Hid|exact Hts'|intros _; exact HL]|auto]).
  - split; [|auto]. split; [exact Hid|exact Hts'|]. simpl. rewrite Hh. discriminate.
Qed.

End WithEps.

(* ---------- the cache represents its own task table ---------- *)

(* CacheInv: every job / node entry is the ledger of the tasks that name it, and
   an entry exists for every task that names a job, resp. sits on a node *)
Record Rep (c : cache) : Prop := mkRep {
  rp_wf : forall i t, c_heap c !! i = Some t -> t_id t = i /\ task_wf t;
  rp_nojob : c_jobs c !! no_job = None;
  rp_jobs : forall j cj, c_jobs c !! j = Some cj -> JobRep (c_heap c) j (cj_job cj);
  rp_jobs_ex : forall i t, c_heap c !! i = Some t -> t_job t <> no_job -> is_Some (c_jobs c !! t_job t);
  rp_nodes : forall n N, c_nodes c !! n = Some N -> NodeRep (c_heap c) n N;
  rp_nodes_ex : forall i t n, c_heap c !! i = Some t -> on_n n t = true -> is_Some (c_nodes c !! n);
}.

Definition jmeta (cj : cjob) : bool * Z * Z * Z := (cj_pg cj, cj_pguid cj, cj_queue cj, j_min (cj_job cj)).
Definition nmeta (N : node) : bool * res := (n_has_node N, n_alloc N).

(* entries keep their object-level attributes; new entries have no object yet *)
Definition jobs_ext (a b : gmap positive cjob) : Prop :=
  forall j, match a !! j with
            | Some cj => exists cj', b !! j = Some cj' /\ jmeta cj' = jmeta cj
            | None => forall cj', b !! j = Some cj' -> cj_pg cj' = false
            end.
Definition nodes_ext (a b : gmap positive node) : Prop :=
  forall n, match a !! n with
            | Some N => exists N', b !! n = Some N' /\ nmeta N' = nmeta N
            | None => forall N', b !! n = Some N' -> n_has_node N' = false
            end.

(* the two are one relation: an entry keeps its [meta], a new entry is [blank] *)
Section Ext.
Context {A B : Type} (meta : A -> B) (blank : A -> Prop).

Definition ext_by (a b : gmap positive A) : Prop :=
  forall k, match a !! k with
            | Some x => exists x', b !! k = Some x' /\ meta x' = meta x
            | None => forall x', b !! k = Some x' -> blank x'
            end.

Lemma ext_by_refl a : ext_by a a.
Proof. intros k. destruct (a !! k) eqn:E; [eauto|]. intros x' H. congruence. Qed.

Lemma ext_by_trans a b c :
  (forall x x', meta x' = meta x -> blank x -> blank x') -> ext_by a b -> ext_by b c -> ext_by a c.
Proof.
  intros Hbl H1 H2 k. specialize (H1 k). specialize (H2 k). destruct (a !! k) eqn:Ea.
  - destruct H1 as (x' & Hb & Hm). rewrite Hb in H2. destruct H2 as (x'' & Hc & Hm'). exists x''. split; [exact Hc|congruence].
  - destruct (b !! k) as [y|] eqn:Eb; [|exact H2].
    destruct H2 as (x'' & Hc & Hm'). intros x Hx. rewrite Hc in Hx. injection Hx as <-.
    exact (Hbl y x'' Hm' (H1 y eq_refl)).
Qed.

Lemma ext_by_insert a k x' :
  match a !! k with Some x => meta x' = meta x | None => blank x' end -> ext_by a (<[k := x']> a).
Proof.
  intros H i. destruct (decide (i = k)) as [->|Hne].
  - rewrite lookup_insert. destruct (a !! k); [eauto|]. intros x [= <-]. exact H.
  - rewrite lookup_insert_ne by congruence. apply ext_by_refl.
Qed.
End Ext.

Lemma jobs_ext_refl a : jobs_ext a a.
Proof. exact (ext_by_refl jmeta _ a). Qed.
Lemma nodes_ext_refl a : nodes_ext a a.
Proof. exact (ext_by_refl nmeta _ a). Qed.
Lemma jobs_ext_trans a b c : jobs_ext a b -> jobs_ext b c -> jobs_ext a c.
Proof. apply (ext_by_trans jmeta (fun cj => cj_pg cj = false)). unfold jmeta. congruence. Qed.
Lemma nodes_ext_trans a b c : nodes_ext a b -> nodes_ext b c -> nodes_ext a c.
Proof. apply (ext_by_trans nmeta (fun N => n_has_node N = false)). unfold nmeta. congruence. Qed.
Lemma jobs_ext_insert a j cj' :
  match a !! j with Some cj => jmeta cj' = jmeta cj | None => cj_pg cj' = false end ->
  jobs_ext a (<[j := cj']> a).
Proof. exact (ext_by_insert jmeta _ a j cj'). Qed.
Lemma nodes_ext_insert a n N' :
  match a !! n with Some N => nmeta N' = nmeta N | None => n_has_node N' = false end ->
  nodes_ext a (<[n := N']> a).
Proof. exact (ext_by_insert nmeta _ a n N'). Qed.

Lemma on_n_node n t : on_n n t = true -> t_node t = Some n.
Proof. unfold on_n. rewrite andb_true_iff, bool_decide_eq_true. tauto. Qed.
Lemma on_n_other n n' t : t_node t = Some n -> n' <> n -> on_n n' t = false.
Proof. intros H Hne. unfold on_n. rewrite bool_decide_eq_false_2; [reflexivity|congruence]. Qed.
Lemma on_n_none n t : t_node t = None -> on_n n t = false.
Proof. intros H. unfold on_n. rewrite bool_decide_eq_false_2; [reflexivity|congruence]. Qed.
Lemma on_n_term n t : terminated (t_status t) = true -> on_n n t = false.
Proof. intros H. unfold on_n. rewrite H. apply andb_false_r. Qed.

(* ---------- a map of entries, each representing the tasks that name its key ---------- *)

(* [R T k v]: the entry [v] under the key [k] represents the tasks of the table [T] that [own k]
   selects; a task is selected by at most one key.  Jobs and nodes are the two instances: what
   an operation does to the cache is told entry by entry -- the entry of the key the moving task
   names is given, every other entry is framed. *)
Section Family.
Context {V : Type} (R : gmap positive task -> positive -> V -> Prop) (own : positive -> task -> bool).

Definition FamRep (T : gmap positive task) (M : gmap positive V) : Prop :=
  (forall k v, M !! k = Some v -> R T k v) /\
  (forall i t k, T !! i = Some t -> own k t = true -> is_Some (M !! k)).

Hypothesis R_insert_other : forall T k v i t, R T k v -> T !! i = None -> own k t = false -> R (<[i := t]> T) k v.
Hypothesis R_delete_other : forall T k v i t, R T k v -> T !! i = Some t -> own k t = false -> R (delete i T) k v.

Lemma fam_set T M k v : FamRep T M -> R T k v -> FamRep T (<[k := v]> M).
Proof.
  intros [HR Hex] Hv. split.
  - intros k' v' H. apply lookup_insert_Some in H as [[<- <-]|[_ H]]; [exact Hv|exact (HR k' v' H)].
  - intros i t k' Ht Ho. apply lookup_insert_is_Some'. right. exact (Hex i t k' Ht Ho).
Qed.

Lemma fam_insert T M i t k v :
  FamRep T M -> T !! i = None -> (forall m, m <> k -> own m t = false) -> R (<[i := t]> T) k v ->
  FamRep (<[i := t]> T) (<[k := v]> M).
Proof.
  intros [HR Hex] Hn Hoth Hv. split.
  - intros k' v' H. apply lookup_insert_Some in H as [[<- <-]|[Hne H]]; [exact Hv|].
    apply R_insert_other; auto.
  - intros j u k' Hu Ho. apply lookup_insert_is_Some'.
    apply lookup_insert_Some in Hu as [[<- <-]|[_ Hu]]; [|right; exact (Hex j u k' Hu Ho)].
    destruct (decide (k = k')) as [|Hne]; [auto|]. rewrite Hoth in Ho by congruence. discriminate.
Qed.

Lemma fam_insert_off T M i t :
  FamRep T M -> T !! i = None -> (forall m, own m t = false) -> FamRep (<[i := t]> T) M.
Proof.
  intros [HR Hex] Hn Hoff. split.
  - intros k v H. apply R_insert_other; auto.
  - intros j u k Hu Ho. apply lookup_insert_Some in Hu as [[<- <-]|[_ Hu]]; [|exact (Hex j u k Hu Ho)].
    rewrite Hoff in Ho. discriminate.
Qed.

Lemma fam_delete T M i t k v :
  FamRep T M -> T !! i = Some t -> (forall m, m <> k -> own m t = false) -> R (delete i T) k v ->
  FamRep (delete i T) (<[k := v]> M).
Proof.
  intros [HR Hex] Hs Hoth Hv. split.
  - intros k' v' H. apply lookup_insert_Some in H as [[<- <-]|[Hne H]]; [exact Hv|].
    apply (R_delete_other _ _ _ _ t); auto.
  - intros j u k' Hu Ho. apply lookup_delete_Some in Hu as [_ Hu].
    apply lookup_insert_is_Some'. right. exact (Hex j u k' Hu Ho).
Qed.

Lemma fam_delete_off T M i t :
  FamRep T M -> T !! i = Some t -> (forall m, own m t = false) -> FamRep (delete i T) M.
Proof.
  intros [HR Hex] Hs Hoff. split.
  - intros k v H. apply (R_delete_other _ _ _ _ t); auto.
  - intros j u k Hu Ho. apply lookup_delete_Some in Hu as [_ Hu]. exact (Hex j u k Hu Ho).
Qed.

(* an entry no task names may go *)
Lemma fam_drop T M k : FamRep T M -> (forall i t, T !! i = Some t -> own k t = false) -> FamRep T (delete k M).
Proof.
  intros [HR Hex] Hno. split.
  - intros k' v H. apply lookup_delete_Some in H as [_ H]. exact (HR k' v H).
  - intros i t k' Ht Ho. rewrite lookup_delete_ne; [exact (Hex i t k' Ht Ho)|].
    intros <-. rewrite (Hno i t Ht) in Ho. discriminate.
Qed.

End Family.
Arguments fam_set {V R own}.
Arguments fam_insert {V R own}.
Arguments fam_insert_off {V R own}.
Arguments fam_delete {V R own}.
Arguments fam_delete_off {V R own}.
Arguments fam_drop {V R own}.

(* a task names the job [j] unless it has none *)
Definition jown (j : positive) (t : task) : bool := in_j j t && negb (in_j no_job t).
Definition JobEntry (T : gmap positive task) (j : positive) (cj : cjob) : Prop :=
  JobRep T j (cj_job cj) /\ j <> no_job.
Definition JobsRep := FamRep JobEntry jown.
Definition NodesRep := FamRep NodeRep on_n.
Definition heap_wf (T : gmap positive task) : Prop := forall i t, T !! i = Some t -> t_id t = i /\ task_wf t.

Lemma jown_spec j t : jown j t = true <-> t_job t = j /\ t_job t <> no_job.
Proof.
  unfold jown, in_j. rewrite andb_true_iff, negb_true_iff, bool_decide_eq_true, bool_decide_eq_false. reflexivity.
Qed.
Lemma jown_only j t m : t_job t = j -> m <> j -> jown m t = false.
Proof. intros Hj Hm. apply not_true_is_false. rewrite jown_spec. intros [E _]. congruence. Qed.
Lemma jown_nojob t m : t_job t = no_job -> jown m t = false.
Proof. intros Hj. apply not_true_is_false. rewrite jown_spec. tauto. Qed.
Lemma jown_false j t : j <> no_job -> jown j t = false -> t_job t <> j.
Proof. intros Hj Hf Ht. rewrite (proj2 (jown_spec j t)) in Hf; [discriminate|]. split; congruence. Qed.

Lemma job_entry_insert_other T j cj i t :
  JobEntry T j cj -> T !! i = None -> jown j t = false -> JobEntry (<[i := t]> T) j cj.
Proof. intros [H Hj] Hn Hf. split; [|exact Hj]. apply job_insert_other; auto. exact (jown_false j t Hj Hf). Qed.
Lemma job_entry_delete_other T j cj i t :
  JobEntry T j cj -> T !! i = Some t -> jown j t = false -> JobEntry (delete i T) j cj.
Proof. intros [H Hj] Hs Hf. split; [|exact Hj]. apply (job_delete_other _ _ _ _ t); auto. exact (jown_false j t Hj Hf). Qed.

Lemma rep_parts c :
  Rep c <-> heap_wf (c_heap c) /\ JobsRep (c_heap c) (c_jobs c) /\ NodesRep (c_heap c) (c_nodes c).
Proof.
  split.
  - intros [A B C D E F]. split; [exact A|]. split; split; [| |exact E|exact F].
    + intros j cj H. split; [exact (C j cj H)|]. intros ->. congruence.
    + intros i t k Ht Ho. apply jown_spec in Ho as [<- Hnj]. exact (D i t Ht Hnj).
  - intros (A & [C D] & E & F). split; [exact A| | | |exact E|exact F].
    + destruct (c_jobs c !! no_job) as [cj|] eqn:H; [|reflexivity]. destruct (C _ _ H) as [_ Hx]. contradiction.
    + intros j cj H. exact (proj1 (C j cj H)).
    + intros i t Ht Hnj. apply (D i t _ Ht). apply jown_spec. auto.
Qed.

Lemma rep_frame c c' :
  c_heap c' = c_heap c -> c_jobs c' = c_jobs c -> c_nodes c' = c_nodes c -> Rep c -> Rep c'.
Proof. intros H1 H2 H3. rewrite !rep_parts, H1, H2, H3. tauto. Qed.

Lemma heap_wf_insert T t : heap_wf T -> task_wf t -> heap_wf (<[t_id t := t]> T).
Proof. intros W Hw i u Hu. apply lookup_insert_Some in Hu as [[<- <-]|[_ Hu]]; [auto|exact (W i u Hu)]. Qed.
Lemma heap_wf_delete T i : heap_wf T -> heap_wf (delete i T).
Proof. intros W k u Hu. apply lookup_delete_Some in Hu as [_ Hu]. exact (W k u Hu). Qed.

(* the entry a handler creates for a key it has not seen represents no task *)
Lemma nodes_rep_default T N n : NodesRep T N -> NodeRep T n (default (placeholder n) (N !! n)).
Proof.
  intros [HR Hex]. destruct (N !! n) as [X|] eqn:E; simpl; [exact (HR n X E)|].
  apply node_rep_none; try reflexivity; [|discriminate].
  intros i t Ht. apply not_true_is_false. intros Hon. destruct (Hex i t n Ht Hon) as [x Hx]. congruence.
Qed.

Lemma jobs_rep_default T J j :
  JobsRep T J -> j <> no_job -> JobRep T j (cj_job (default (new_cjob j) (J !! j))).
Proof.
  intros [HR Hex] Hjn. destruct (J !! j) as [x|] eqn:E; simpl; [exact (proj1 (HR j x E))|].
  apply job_rep_none; try reflexivity.
  intros i u Hu Huj. destruct (Hex i u j Hu) as [y Hy]; [apply jown_spec; split; congruence|congruence].
Qed.

Section WithEps2.
Variable eps : Z.

(* the job named by a TaskInfo, as the handlers pass it around *)
Definition job_arg (jo : option positive) (t : task) : Prop :=
  match jo with None => t_job t = no_job | Some j => t_job t = j /\ j <> no_job end.

(* addTask of a task the cache does not hold yet: the node side ... *)
Lemma add_task_nodes_rep c t :
  NodesRep (c_heap c) (c_nodes c) -> c_heap c !! t_id t = None -> task_wf t -> t_status t <> Binding ->
  exists N', add_task_nodes eps c t = (N', true) /\
    NodesRep (<[t_id t := t]> (c_heap c)) N' /\ nodes_ext (c_nodes c) N'.
Proof.
  intros RN Hn Hw Hb. unfold add_task_nodes. destruct (t_node t) as [n|] eqn:Hnode.
  - pose proof (nodes_rep_default _ _ n RN) as Hd.
    set (ni := default (placeholder n) (c_nodes c !! n)) in *.
    assert (Hmeta : match c_nodes c !! n with Some N => nmeta ni = nmeta N | None => n_has_node ni = false end).
    { unfold ni. destruct (c_nodes c !! n); reflexivity. }
    assert (Hoth : forall m, m <> n -> on_n m t = false) by (intros m Hm; exact (on_n_other n m t Hnode Hm)).
    destruct (terminated (t_status t)) eqn:Hterm.
    + eexists. split; [reflexivity|]. split; [|apply nodes_ext_insert; exact Hmeta].
      apply (fam_insert node_insert_other); auto. apply node_insert_other; auto. apply on_n_term; exact Hterm.
    + destruct (node_add_ok eps _ n ni t Hd Hn Hnode Hb) as [N' HN']. simpl. rewrite HN'.
      destruct (node_add_rep eps _ n ni t N' t Hd Hn Hnode Hterm Hw HN') as (HR & _ & Hh & Ha).
      eexists. split; [reflexivity|]. split; [apply (fam_insert node_insert_other); auto|].
      apply nodes_ext_insert. unfold nmeta in *. rewrite Hh, Ha. destruct (c_nodes c !! n); exact Hmeta.
  - eexists. split; [reflexivity|]. split; [|apply nodes_ext_refl].
    apply (fam_insert_off node_insert_other); auto. intros m. apply on_n_none; exact Hnode.
Qed.

(* ... and the job side *)
Lemma add_task_jobs_rep T J jo t :
  JobsRep T J -> T !! t_id t = None -> task_wf t -> job_arg jo t ->
  let J' := match jo with
            | Some j => <[j := upd_job (default (new_cjob j) (J !! j))
                                       (job_add (cj_job (default (new_cjob j) (J !! j))) t)]> J
            | None => J
            end in
  JobsRep (<[t_id t := t]> T) J' /\ jobs_ext J J'.
Proof.
  intros RJ Hn Hw Hj. destruct jo as [j|]; simpl in Hj.
  - destruct Hj as [Hjt Hjn]. split.
    + apply (fam_insert job_entry_insert_other); auto; [intros m; apply jown_only; exact Hjt|].
      split; [|exact Hjn]. simpl. apply job_add_rep; auto. apply jobs_rep_default; auto.
    + apply jobs_ext_insert. destruct (J !! j); reflexivity.
  - split; [|apply jobs_ext_refl]. apply (fam_insert_off job_entry_insert_other); auto.
    intros m. apply jown_nojob; exact Hj.
Qed.

Lemma add_task_rep c jo t :
  Rep c -> c_heap c !! t_id t = None -> task_wf t -> t_status t <> Binding -> job_arg jo t ->
  let c' := fst (add_task eps c jo t) in
  Rep c' /\ snd (add_task eps c jo t) = true /\
  c_heap c' = <[t_id t := t]> (c_heap c) /\
  jobs_ext (c_jobs c) (c_jobs c') /\ nodes_ext (c_nodes c) (c_nodes c') /\
  c' = with_hjn c (c_heap c') (c_jobs c') (c_nodes c').
Proof.
  intros R Hn Hw Hb Hj. apply rep_parts in R as (W & RJ & RN).
  destruct (add_task_nodes_rep c t RN Hn Hw Hb) as (N' & He & RN' & Hne).
  destruct (add_task_jobs_rep _ _ jo t RJ Hn Hw Hj) as [RJ' Hje].
  unfold add_task. rewrite He. cbn [negb].
  destruct jo as [j|]; cbn [fst snd]; rewrite rep_parts; simpl;
    (split; [split; [apply heap_wf_insert; auto|split; assumption]|auto 10]).
Qed.

End WithEps2.

(* deleteTask of a task the cache holds, passed as the stored object: the node side ... *)
Lemma delete_task_nodes_rep c t :
  NodesRep (c_heap c) (c_nodes c) -> c_heap c !! t_id t = Some t ->
  NodesRep (delete (t_id t) (c_heap c)) (delete_task_nodes c t) /\ nodes_ext (c_nodes c) (delete_task_nodes c t).
Proof.
  intros RN Hs. unfold delete_task_nodes.
  destruct (t_node t) as [n|] eqn:Hnode; [destruct (terminated (t_status t)) eqn:Hterm|].
  - split; [|apply nodes_ext_refl]. apply (fam_delete_off node_delete_other _ _ _ t); auto.
    intros m. apply on_n_term; exact Hterm.
  - assert (Hon : on_n n t = true) by (unfold on_n; rewrite Hterm, bool_decide_eq_true_2 by exact Hnode; reflexivity).
    destruct (proj2 RN _ t n Hs Hon) as [ni Hni]. rewrite Hni.
    destruct (node_remove_rep _ n ni (t_id t) t (proj1 RN n ni Hni) Hs Hon) as (HR & Hh & Ha).
    split; [apply (fam_delete node_delete_other _ _ _ t); auto; intros m Hm; exact (on_n_other n m t Hnode Hm)|].
    apply nodes_ext_insert. rewrite Hni. unfold nmeta. rewrite Hh, Ha. reflexivity.
  - split; [|apply nodes_ext_refl]. apply (fam_delete_off node_delete_other _ _ _ t); auto.
    intros m. apply on_n_none; exact Hnode.
Qed.

(* ... and the job side *)
Lemma delete_task_jobs_rep c jo t :
  JobsRep (c_heap c) (c_jobs c) -> c_heap c !! t_id t = Some t -> job_arg jo t ->
  exists J', delete_task_jobs c jo t = (delete (t_id t) (c_heap c), J') /\
    JobsRep (delete (t_id t) (c_heap c)) J' /\ jobs_ext (c_jobs c) J'.
Proof.
  intros RJ Hs Hj. unfold delete_task_jobs. destruct jo as [j|]; simpl in Hj.
  - destruct Hj as [Hjt Hjn].
    destruct (proj2 RJ _ t j Hs) as [cj Hcj]; [apply jown_spec; split; congruence|]. rewrite Hcj.
    destruct (proj1 RJ j cj Hcj) as [HR _].
    rewrite bool_decide_eq_true_2 by (apply (jr_tasks _ _ _ HR); eauto). rewrite Hs.
    eexists. split; [reflexivity|]. split; [|apply jobs_ext_insert; rewrite Hcj; reflexivity].
    apply (fam_delete job_entry_delete_other _ _ _ t); auto; [intros m; apply jown_only; exact Hjt|].
    split; [|exact Hjn]. simpl. apply job_del_rep; auto.
  - eexists. split; [reflexivity|]. split; [|apply jobs_ext_refl].
    apply (fam_delete_off job_entry_delete_other _ _ _ t); auto. intros m. apply jown_nojob; exact Hj.
Qed.

Lemma delete_task_rep c jo t :
  Rep c -> c_heap c !! t_id t = Some t -> job_arg jo t ->
  let c' := delete_task c jo t in
  Rep c' /\ c_heap c' = delete (t_id t) (c_heap c) /\
  jobs_ext (c_jobs c) (c_jobs c') /\ nodes_ext (c_nodes c) (c_nodes c') /\
  c' = with_hjn c (c_heap c') (c_jobs c') (c_nodes c').
Proof.
  intros R Hs Hj. apply rep_parts in R as (W & RJ & RN).
  destruct (delete_task_jobs_rep c jo t RJ Hs Hj) as (J' & He & RJ' & Hje).
  destruct (delete_task_nodes_rep c t RN Hs) as [RN' Hne].
  unfold delete_task. rewrite He. cbn [fst snd]. rewrite rep_parts. simpl.
  split; [split; [apply heap_wf_delete; exact W|split; assumption]|auto].
Qed.

(* ---------- pod handlers ---------- *)

(* the rules of the API server the pod handlers rely on *)
Definition pod_ok (p : pod) : Prop :=
  p_job p <> Some no_job /\ scm (p_req p) <> ∅ /\ (p_phase p = PRunning -> p_node p <> None).
(* spec.nodeName is immutable once set *)
Definition upd_ok (old new : pod) : Prop := p_node old <> None -> p_node new = p_node old.

Lemma node_remove_absent N i : n_tasks N !! i = None -> node_remove N i = N.
Proof. intros H. unfold node_remove. rewrite H. reflexivity. Qed.

Lemma stored_some c j i t :
  Rep c -> c_heap c !! i = Some t -> t_job t = j -> j <> no_job -> stored_task c (Some j) i = Some t.
Proof.
  intros R Ht Hj Hjn. unfold stored_task.
  destruct (rp_jobs_ex c R i t Ht) as [cj Hcj]; [congruence|]. rewrite Hj in Hcj. rewrite Hcj.
  rewrite bool_decide_eq_true_2; [exact Ht|].
  apply (jr_tasks _ _ _ (rp_jobs c R j cj Hcj)). eauto.
Qed.

Lemma stored_absent c jo i : Rep c -> c_heap c !! i = None -> stored_task c jo i = None.
Proof.
  intros R Hn. unfold stored_task. destruct jo as [j|]; [|reflexivity].
  destruct (c_jobs c !! j) as [cj|] eqn:Hcj; [|reflexivity].
  case_bool_decide as Hin; [|reflexivity]. exact Hn.
Qed.

(* deleteTask of a task the cache does not hold: nothing changes *)
Lemma delete_task_absent c jo t :
  Rep c -> c_heap c !! t_id t = None ->
  c_heap (delete_task c jo t) = c_heap c /\ c_jobs (delete_task c jo t) = c_jobs c /\
  c_nodes (delete_task c jo t) = c_nodes c.
Proof.
  intros R Hn. unfold delete_task. simpl.
  assert (HJ : delete_task_jobs c jo t = (c_heap c, c_jobs c)).
  { unfold delete_task_jobs. destruct jo as [j|].
    - destruct (c_jobs c !! j) as [cj|] eqn:Hcj; [|reflexivity].
      case_bool_decide as Hin; [|reflexivity]. rewrite Hn. reflexivity.
    - rewrite delete_notin by exact Hn. reflexivity. }
  rewrite HJ. split; [reflexivity|]. split; [reflexivity|].
  unfold delete_task_nodes. destruct (t_node t) as [n|] eqn:Hnode; [|reflexivity].
  destruct (terminated (t_status t)); [reflexivity|].
  destruct (c_nodes c !! n) as [ni|] eqn:Hni; [|reflexivity].
  rewrite node_remove_absent.
  - apply insert_id. exact Hni.
  - rewrite (nr_tasks _ _ _ (rp_nodes c R n ni Hni)). apply map_filter_lookup_None. left. exact Hn.
Qed.

Section Pods.
Variable eps : Z.

(* the tasks the cache holds are exactly the tasks of the last delivered pod versions *)
Definition Synced (c : cache) : Prop := c_heap c = task_of_pod eps <$> c_store c.
Definition store_ok (c : cache) : Prop := forall i p, c_store c !! i = Some p -> p_id p = i /\ pod_ok p.

Lemma pod_status_not_binding p : pod_status p <> Binding.
Proof. unfold pod_status. destruct (p_phase p), (p_deleting p), (p_node p); discriminate. Qed.

Lemma job_arg_pod p : pod_ok p -> job_arg (p_job p) (task_of_pod eps p).
Proof.
  intros (Hj & _). unfold job_arg, task_of_pod. destruct (p_job p) as [j|]; simpl; [|reflexivity].
  split; [reflexivity|congruence].
Qed.

Lemma task_of_pod_job p : t_job (task_of_pod eps p) = default no_job (p_job p).
Proof. reflexivity. Qed.

(* what a pod handler does around the task table: the informer store stays, entries keep their objects *)
Definition heap_step (c c' : cache) (T : gmap positive task) : Prop :=
  Rep c' /\ c_heap c' = T /\ c_store c' = c_store c /\
  jobs_ext (c_jobs c) (c_jobs c') /\ nodes_ext (c_nodes c) (c_nodes c').

Lemma heap_step_frame c c1 c2 T :
  c_heap c2 = c_heap c1 -> c_jobs c2 = c_jobs c1 -> c_nodes c2 = c_nodes c1 -> c_store c2 = c_store c1 ->
  heap_step c c1 T -> heap_step c c2 T.
Proof. intros E1 E2 E3 E4 (R1 & H). split; [apply (rep_frame c1); auto|]. rewrite E1, E2, E3, E4. exact H. Qed.

Lemma heap_step_trans a b c T1 T2 : heap_step a b T1 -> heap_step b c T2 -> heap_step a c T2.
Proof.
  intros (_ & _ & S1 & J1 & N1) (R2 & H2 & S2 & J2 & N2). split; [exact R2|]. split; [exact H2|]. split; [congruence|].
  split; [eapply jobs_ext_trans; eauto|eapply nodes_ext_trans; eauto].
Qed.

(* deletePod, whatever the cache holds for the pod (the task of this version, a task
   the cycle changed, or nothing) *)
Lemma delete_pod_gen c old :
  Rep c -> pod_ok old ->
  (forall t, c_heap c !! p_id old = Some t ->
     t_job t = t_job (task_of_pod eps old) /\ (t_job t = no_job -> t = task_of_pod eps old)) ->
  heap_step c (delete_pod eps c old) (delete (p_id old) (c_heap c)).
Proof.
  intros R Hok Hco. unfold delete_pod.
  set (pi := task_of_pod eps old).
  set (t := default pi (stored_task c (p_job old) (p_id old))).
  assert (H1 : heap_step c (delete_task c (p_job old) t) (delete (p_id old) (c_heap c))).
  { destruct (c_heap c !! p_id old) as [t0|] eqn:Hh.
    - destruct (Hco t0 eq_refl) as [Hj Hnj]. destruct (rp_wf c R _ t0 Hh) as [Hid0 _].
      assert (Ht : t = t0 /\ job_arg (p_job old) t0).
      { unfold t. rewrite task_of_pod_job in Hj. destruct (p_job old) as [j|] eqn:Hpj; simpl in Hj.
        - assert (j <> no_job) by (destruct Hok as (Hx & _); congruence).
          rewrite (stored_some c j (p_id old) t0 R Hh Hj H). simpl. split; [reflexivity|]. split; auto.
        - simpl. split; [symmetry; apply Hnj; exact Hj|exact Hj]. }
      destruct Ht as [-> Harg]. rewrite <- Hid0 in Hh.
      destruct (delete_task_rep c (p_job old) t0 R Hh Harg) as (R1 & Hh1 & Hje & Hne & Hc).
      rewrite Hid0 in Hh1. split; [exact R1|]. split; [exact Hh1|]. split; [rewrite Hc; reflexivity|auto].
    - assert (Ht : t = pi) by (unfold t; rewrite (stored_absent c _ _ R Hh); reflexivity).
      rewrite Ht.
      destruct (delete_task_absent c (p_job old) pi R Hh) as (E1 & E2 & E3).
      split; [apply (rep_frame c); auto|]. rewrite E1, E2, E3.
      split; [symmetry; apply delete_notin; exact Hh|]. split; [reflexivity|].
      split; [apply jobs_ext_refl|apply nodes_ext_refl]. }
  set (c1 := delete_task c (p_job old) t) in *.
  destruct (p_job old) as [j|]; [|exact H1].
  destruct (c_jobs c1 !! j) as [cj|]; [|exact H1].
  destruct (job_terminated cj); [|exact H1]. revert H1. apply heap_step_frame; reflexivity.
Qed.

Lemma add_pod_rep c p :
  Rep c -> pod_ok p -> c_heap c !! p_id p = None ->
  heap_step c (add_pod eps c p) (<[p_id p := task_of_pod eps p]> (c_heap c)).
Proof.
  intros R Hok Hn. unfold add_pod.
  destruct (add_task_rep eps c (p_job p) (task_of_pod eps p) R Hn) as (R1 & _ & Hh & Hje & Hne & Hc).
  - destruct Hok as (_ & Hw & _). exact Hw.
  - apply pod_status_not_binding.
  - apply job_arg_pod. exact Hok.
  - split; [exact R1|]. split; [exact Hh|]. split; [rewrite Hc; reflexivity|auto].
Qed.

(* an UpdatePod that is not ignored: deletePod(old), then addPod(new) *)
Lemma replace_pod_step c old p :
  Rep c -> pod_ok old -> pod_ok p -> p_id old = p_id p ->
  (forall t, c_heap c !! p_id old = Some t ->
     t_job t = t_job (task_of_pod eps old) /\ (t_job t = no_job -> t = task_of_pod eps old)) ->
  heap_step c (add_pod eps (delete_pod eps c old) p) (<[p_id p := task_of_pod eps p]> (c_heap c)).
Proof.
  intros R Hokold Hok Hid Hco.
  pose proof (delete_pod_gen c old R Hokold Hco) as D. pose proof D as (R1 & Hh1 & _). rewrite Hid in Hh1.
  refine (heap_step_trans _ _ _ _ _ D _).
  rewrite <- (insert_delete_insert (c_heap c) (p_id p)), <- Hh1. apply add_pod_rep; auto.
  rewrite Hh1. apply lookup_delete.
Qed.

Lemma allocated_needs_node p : pod_ok p -> allocated_status (pod_status p) = true -> p_node p <> None.
Proof.
  intros (_ & _ & Hr). unfold pod_status.
  destruct (p_phase p) eqn:Hp, (p_deleting p), (p_node p); simpl; try discriminate; try congruence.
  intros _. apply Hr. reflexivity.
Qed.

Lemma update_guard c old new :
  pod_ok old -> upd_ok old new -> p_id old = p_id new ->
  c_heap c !! p_id new = Some (task_of_pod eps old) ->
  allocated_in_cache c new && bool_decide (p_node new = None) = false.
Proof.
  intros Hok Hu Hid Hs. destruct (bool_decide (p_node new = None)) eqn:Hb; [|apply andb_false_r].
  rewrite bool_decide_eq_true in Hb. rewrite andb_true_r.
  unfold allocated_in_cache, stored_task. destruct (p_job new); [|reflexivity].
  destruct (c_jobs c !! p); [|reflexivity]. case_bool_decide; [|reflexivity].
  rewrite Hs. simpl. destruct (allocated_status (pod_status old)) eqn:Ha; [|reflexivity].
  exfalso. pose proof (allocated_needs_node old Hok Ha) as Hn. rewrite (Hu Hn) in Hb. contradiction.
Qed.

(* Theorem (pod notifications): AddPod / UpdatePod keep the invariant and leave
   the cache holding exactly the task of the delivered version *)
Theorem handle_pod_inv c p :
  Rep c -> Synced c -> store_ok c -> pod_ok p ->
  (forall old, c_store c !! p_id p = Some old -> upd_ok old p) ->
  let c' := handle eps c (EPod p) in
  Rep c' /\ Synced c' /\ store_ok c' /\ c_store c' = <[p_id p := p]> (c_store c) /\
  jobs_ext (c_jobs c) (c_jobs c') /\ nodes_ext (c_nodes c) (c_nodes c').
Proof.
  intros R S So Hok Hu. unfold handle, handle_with.
  set (c1 := match c_store c !! p_id p with Some _ => _ | None => _ end).
  (* whichever way the task got there, the handler then records the version in the store *)
  enough (H : heap_step c c1 (<[p_id p := task_of_pod eps p]> (c_heap c))).
  { clearbody c1. destruct H as (R1 & Hh & Hst & Hje & Hne). simpl.
    split; [apply (rep_frame c1); auto|]. split; [|split; [|split; [|auto]]].
    - unfold Synced. simpl. rewrite Hh, Hst, fmap_insert, S. reflexivity.
    - intros i q. simpl. rewrite Hst. destruct (decide (i = p_id p)) as [->|Hne2].
      + rewrite lookup_insert. intros [= <-]. auto.
      + rewrite lookup_insert_ne by congruence. apply So.
    - simpl. rewrite Hst. reflexivity. }
  unfold c1. destruct (c_store c !! p_id p) as [old|] eqn:Hold.
  - destruct (So _ _ Hold) as [Hid Hokold].
    assert (Hs : c_heap c !! p_id p = Some (task_of_pod eps old)) by (rewrite S, lookup_fmap, Hold; reflexivity).
    unfold update_pod. rewrite (update_guard c old p Hokold (Hu old eq_refl) Hid Hs).
    rewrite <- Hid in Hs.
    apply replace_pod_step; auto. intros t Ht. rewrite Hs in Ht. injection Ht as <-. auto.
  - apply add_pod_rep; auto. rewrite S, lookup_fmap, Hold. reflexivity.
Qed.

(* Theorem (DeletePod) *)
Theorem handle_pod_del_inv c i :
  Rep c -> Synced c -> store_ok c ->
  let c' := handle eps c (EPodDel i) in
  Rep c' /\ Synced c' /\ store_ok c' /\ c_store c' = delete i (c_store c) /\
  jobs_ext (c_jobs c) (c_jobs c') /\ nodes_ext (c_nodes c) (c_nodes c').
Proof.
  intros R S So. unfold handle, handle_with.
  destruct (c_store c !! i) as [old|] eqn:Hold.
  - destruct (So _ _ Hold) as [Hid Hokold].
    assert (Hs : c_heap c !! p_id old = Some (task_of_pod eps old)) by (rewrite S, lookup_fmap, Hid, Hold; reflexivity).
    destruct (delete_pod_gen c old R Hokold) as (R1 & Hh1 & Hst1 & Hje1 & Hne1).
    { intros t Ht. rewrite Hs in Ht. injection Ht as <-. auto. }
    set (c1 := delete_pod eps c old) in *. simpl.
    split; [apply (rep_frame c1); auto|]. split; [|split; [|split; [|auto]]].
    + unfold Synced. simpl. rewrite Hh1, Hst1, fmap_delete, S, Hid. reflexivity.
    + intros k q. simpl. rewrite Hst1, lookup_delete_Some. intros [_ H]. exact (So k q H).
    + simpl. rewrite Hst1. reflexivity.
  - simpl. split; [exact R|]. split; [exact S|]. split; [exact So|].
    split; [symmetry; apply delete_notin; exact Hold|]. split; [apply jobs_ext_refl|apply nodes_ext_refl].
Qed.

End Pods.

(* ---------- nodes: RemoveNode ---------- *)

(* RemoveNode, after fix e29cb66, keeps the invariant -- in particular every task that sits on the
   removed node still has an entry (the placeholder) *)
Lemma remove_node_ledger_inv c nid : Rep c -> Rep (remove_node_ledger c nid).
Proof.
  rewrite !rep_parts. intros (W & RJ & RN). unfold remove_node_ledger.
  destruct (c_nodes c !! nid) as [ni|] eqn:Hni; [|simpl; auto].
  pose proof (proj1 RN nid ni Hni) as HR. case_bool_decide as He; simpl; (split; [exact W|split; [exact RJ|]]).
  - apply fam_drop; [exact RN|]. intros i t Ht. apply not_true_is_false. intros Hon.
    assert (n_tasks ni !! i = Some t) as Hc by (rewrite (nr_tasks _ _ _ HR); apply map_filter_lookup_Some; auto).
    rewrite He, lookup_empty in Hc. discriminate.
  - apply fam_set; [exact RN|]. split; [exact (nr_id _ _ _ HR)|exact (nr_tasks _ _ _ HR)|discriminate].
Qed.

Theorem remove_node_inv c nid : Rep c -> Rep (remove_node c nid).
Proof. intros R. unfold remove_node. eapply rep_frame; [| | |apply (remove_node_ledger_inv c nid R)]; reflexivity. Qed.

(* ---------- nodes: AddOrUpdateNode / setNode ---------- *)

Definition lsum (f : task -> bool) (l : list task) (d : dim) : Z :=
  foldr (fun t a => if f t then amt (t_req t) d + a else a) 0 l.

Lemma tsum_lsum f (M : gmap positive task) d : tsum f M d = lsum f (map snd (map_to_list M)) d.
Proof.
  unfold tsum, map_fold, lsum. simpl. induction (map_to_list M) as [|[i t] l IH]; simpl; [reflexivity|].
  rewrite IH. reflexivity.
Qed.

Lemma tsum_filter (P g : task -> bool) (T : gmap positive task) d :
  tsum g (filter (fun kv => P (snd kv) = true) T) d = tsum (fun t => P t && g t) T d.
Proof.
  induction T as [|i t T Hn IH] using map_ind.
  - rewrite map_filter_empty, !tsum_empty. reflexivity.
  - rewrite (tsum_insert (fun t => P t && g t)) by exact Hn. destruct (P t) eqn:HP.
    + rewrite map_filter_insert_True by exact HP. rewrite tsum_insert, IH; [reflexivity|].
      apply map_filter_lookup_None. left. exact Hn.
    + rewrite map_filter_insert_not'; cbn [snd fst].
      * rewrite IH. simpl. lia.
      * rewrite HP. discriminate.
      * intros y Hy. congruence.
Qed.

Definition np (t : task) : bool := negb (is_st Pipelined t).

Lemma node_set_acc_fields X t :
  let Y := node_set_acc X t in
  n_id Y = n_id X /\ n_has_node Y = n_has_node X /\ n_alloc Y = n_alloc X /\ n_tasks Y = n_tasks X /\
  n_used Y = (if np t then add (n_used X) (t_req t) else n_used X) /\
  n_idle Y = (if np t then sub (n_idle X) (t_req t) else n_idle X) /\
  n_releasing Y = (if is_st Releasing t then add (n_releasing X) (t_req t) else n_releasing X) /\
  n_pipelined Y = (if is_st Pipelined t then add (n_pipelined X) (t_req t) else n_pipelined X).
Proof. unfold node_set_acc, np, is_st. destruct (t_status t); simpl; repeat split; reflexivity. Qed.

Lemma fold_acc l : forall X,
  sc (n_idle X) <> None -> Forall task_wf l ->
  let Y := fold_left node_set_acc l X in
  n_id Y = n_id X /\ n_has_node Y = n_has_node X /\ n_alloc Y = n_alloc X /\ n_tasks Y = n_tasks X /\
  sc (n_idle Y) <> None /\
  (forall d, amt (n_used Y) d = amt (n_used X) d + lsum np l d) /\
  (forall d, amt (n_idle Y) d = amt (n_idle X) d - lsum np l d) /\
  (forall d, amt (n_releasing Y) d = amt (n_releasing X) d + lsum (is_st Releasing) l d) /\
  (forall d, amt (n_pipelined Y) d = amt (n_pipelined X) d + lsum (is_st Pipelined) l d) /\
  (sc (n_used X) <> None \/ Exists (fun t => np t = true) l -> sc (n_used Y) <> None) /\
  (sc (n_releasing X) <> None \/ Exists (fun t => is_st Releasing t = true) l -> sc (n_releasing Y) <> None) /\
  (sc (n_pipelined X) <> None \/ Exists (fun t => is_st Pipelined t = true) l -> sc (n_pipelined Y) <> None).
Proof.
  induction l as [|t l IH]; intros X Hsc Hwf.
  - simpl. repeat split; auto; try (intros d; lia); intros [H|H]; auto; inversion H.
  - inversion Hwf as [|? ? Hw Hwl]; subst. simpl.
    destruct (node_set_acc_fields X t) as (E1 & E2 & E3 & E4 & E5 & E6 & E7 & E8).
    set (X1 := node_set_acc X t) in *.
    assert (Hsc1 : sc (n_idle X1) <> None).
    { rewrite E6. destruct (np t); [apply sc_sub_keep|]; exact Hsc. }
    destruct (IH X1 Hsc1 Hwl) as (F1 & F2 & F3 & F4 & F5 & F6 & F7 & F8 & F9 & G1 & G2 & G3).
    split; [congruence|]. split; [congruence|]. split; [congruence|]. split; [congruence|]. split; [exact F5|].
    split; [|split; [|split; [|split; [|split; [|split]]]]].
    + intros d. rewrite F6, E5. destruct (np t); [rewrite amt_add|]; lia.
    + intros d. rewrite F7, E6. destruct (np t); [rewrite amt_sub by (intros; contradiction)|]; lia.
    + intros d. rewrite F8, E7. destruct (is_st Releasing t); [rewrite amt_add|]; lia.
    + intros d. rewrite F9, E8. destruct (is_st Pipelined t); [rewrite amt_add|]; lia.
    + intros H. apply G1. rewrite E5. destruct H as [H|H].
      * left. destruct (np t); [apply sc_add_keep|]; exact H.
      * inversion H as [? ? Ht|? ? Hl]; subst; [left; rewrite Ht; apply sc_add_some; exact Hw|right; exact Hl].
    + intros H. apply G2. rewrite E7. destruct H as [H|H].
      * left. destruct (is_st Releasing t); [apply sc_add_keep|]; exact H.
      * inversion H as [? ? Ht|? ? Hl]; subst; [left; rewrite Ht; apply sc_add_some; exact Hw|right; exact Hl].
    + intros H. apply G3. rewrite E8. destruct H as [H|H].
      * left. destruct (is_st Pipelined t); [apply sc_add_keep|]; exact H.
      * inversion H as [? ? Ht|? ? Hl]; subst; [left; rewrite Ht; apply sc_add_some; exact Hw|right; exact Hl].
Qed.

(* NodeInfo.SetNode: the ledger recomputed from the held tasks is the ledger of
   exactly the tasks that name the node *)
Lemma node_set_rep T n N o :
  NodeRep T n N -> sc (no_alloc o) <> None -> (forall i t, T !! i = Some t -> task_wf t) ->
  NodeRep T n (node_set N o) /\ n_has_node (node_set N o) = true /\ n_alloc (node_set N o) = no_alloc o.
Proof.
  intros [Hid Hts Hl] Hal Hwf. unfold node_set.
  set (l := map snd (map_to_list (n_tasks N))).
  assert (Hmem : forall i t, T !! i = Some t -> on_n n t = true -> t ∈ l).
  { intros i t Ht Hon. unfold l. apply elem_of_list_fmap. exists (i, t). split; [reflexivity|].
    apply elem_of_map_to_list. rewrite Hts. apply map_filter_lookup_Some. auto. }
  assert (Hlw : Forall task_wf l).
  { apply Forall_forall. intros t Ht. unfold l in Ht. apply elem_of_list_fmap in Ht. destruct Ht as ([i u] & -> & Hin).
    apply elem_of_map_to_list in Hin. rewrite Hts in Hin. apply map_filter_lookup_Some in Hin. exact (Hwf i u (proj1 Hin)). }
  destruct (fold_acc l (node_reset N o) Hal Hlw) as (F1 & F2 & F3 & F4 & F5 & F6 & F7 & F8 & F9 & G1 & G2 & G3).
  set (Y := fold_left node_set_acc l (node_reset N o)) in *. simpl in F1, F2, F3, F4.
  assert (Hsum : forall g d, lsum g l d = tsum (fun t => on_n n t && g t) T d).
  { intros g d. unfold l. rewrite <- tsum_lsum, Hts. apply tsum_filter. }
  assert (Hacc : forall r (g : task -> bool), (forall d, amt r d = lsum g l d) ->
            (Exists (fun t => g t = true) l -> sc r <> None) -> acc_ok r (fun t => on_n n t && g t) T).
  { intros r g Ha Hs. split; [intros d; rewrite Ha; apply Hsum|].
    intros Hn i t Ht. apply not_true_is_false. intros Hb. apply andb_true_iff in Hb as [Hon Hg].
    apply Hs; [|exact Hn]. apply Exists_exists. exists t. split; [exact (Hmem i t Ht Hon)|exact Hg]. }
  split; [|split; [exact F2|exact F3]].
  split; [congruence|congruence|]. intros _. split.
  - exact F5.
  - apply (Hacc _ np); [intros d; rewrite F6; simpl; rewrite amt_empty; reflexivity|auto].
  - apply (Hacc _ (is_st Releasing)); [intros d; rewrite F8; simpl; rewrite amt_empty; reflexivity|auto].
  - apply (Hacc _ (is_st Pipelined)); [intros d; rewrite F9; simpl; rewrite amt_empty; reflexivity|auto].
  - intros d. rewrite F7, F3. simpl. rewrite Hsum. reflexivity.
Qed.

(* a node the cache has never heard of: no held task names it *)
Lemma node_rep_fresh c o :
  Rep c -> c_nodes c !! no_id o = None -> sc (no_alloc o) <> None -> NodeRep (c_heap c) (no_id o) (fresh_node o).
Proof.
  intros R Hn Hal. apply node_rep_none; try reflexivity; [|intros _; repeat split; auto].
  intros i t Ht. apply not_true_is_false. intros Hon. destruct (rp_nodes_ex c R i t _ Ht Hon) as [x Hx]. congruence.
Qed.

(* Theorem (AddOrUpdateNode): the invariant is kept; the entry has the node
   object and its allocatable, whether it is new, updated, or was a placeholder
   holding the tasks of pods that arrived before the node / survived its removal *)
Theorem add_or_update_node_inv c o :
  Rep c -> sc (no_alloc o) <> None ->
  Rep (add_or_update_node c o) /\
  exists N, c_nodes (add_or_update_node c o) !! no_id o = Some N /\ n_has_node N = true /\ n_alloc N = no_alloc o.
Proof.
  intros R Hal. unfold add_or_update_node.
  set (ni := match c_nodes c !! no_id o with Some ni => node_set ni o | None => fresh_node o end).
  assert (H : NodeRep (c_heap c) (no_id o) ni /\ n_has_node ni = true /\ n_alloc ni = no_alloc o).
  { unfold ni. destruct (c_nodes c !! no_id o) as [N|] eqn:E.
    - apply node_set_rep; auto; [exact (rp_nodes c R _ N E)|]. intros i t Ht. exact (proj2 (rp_wf c R i t Ht)).
    - split; [apply node_rep_fresh; auto|split; reflexivity]. }
  destruct H as (HR & Hh & Ha). split.
  - apply rep_parts in R as (W & RJ & RN). apply rep_parts. simpl.
    split; [exact W|split; [exact RJ|apply fam_set; assumption]].
  - exists ni. simpl. rewrite lookup_insert. auto.
Qed.

(* ---------- the view is determined by the tasks and the node / PodGroup objects ---------- *)

Definition job_equiv (a b : cjob) : Prop :=
  j_tasks (cj_job a) = j_tasks (cj_job b) /\
  res_eqv (j_total (cj_job a)) (j_total (cj_job b)) /\ res_eqv (j_alloc (cj_job a)) (j_alloc (cj_job b)).

Definition node_equiv (a b : node) : Prop :=
  n_tasks a = n_tasks b /\
  (n_has_node a = true -> n_has_node b = true -> res_eqv (n_alloc a) (n_alloc b) ->
   res_eqv (n_idle a) (n_idle b) /\ res_eqv (n_used a) (n_used b) /\
   res_eqv (n_releasing a) (n_releasing b) /\ res_eqv (n_pipelined a) (n_pipelined b)).

(* Theorem (determinacy): two caches that satisfy the invariant and hold the same
   tasks agree on every job (membership, total and allocated request) and on
   every node (held tasks and, given the same allocatable, the whole ledger);
   a job or node entry that holds a task in one of them exists in the other *)
Theorem view_determined c c' :
  Rep c -> Rep c' -> c_heap c = c_heap c' ->
  (forall j cj, c_jobs c !! j = Some cj ->
     (j_tasks (cj_job cj) <> ∅ -> is_Some (c_jobs c' !! j)) /\
     (forall cj', c_jobs c' !! j = Some cj' -> job_equiv cj cj')) /\
  (forall n N, c_nodes c !! n = Some N ->
     (n_tasks N <> ∅ -> is_Some (c_nodes c' !! n)) /\
     (forall N', c_nodes c' !! n = Some N' -> node_equiv N N')).
Proof.
  intros R R' Hh. split.
  - intros j cj Hcj. pose proof (rp_jobs c R j cj Hcj) as HJ. split.
    + intros Hne. apply set_choose_L in Hne. destruct Hne as [i Hi].
      apply (jr_tasks _ _ _ HJ) in Hi. destruct Hi as (t & Ht & Htj).
      rewrite Hh in Ht. rewrite <- Htj. apply (rp_jobs_ex c' R' i t Ht).
      rewrite Htj. intros ->. rewrite (rp_nojob c R) in Hcj. discriminate.
    + intros cj' Hcj'. pose proof (rp_jobs c' R' j cj' Hcj') as HJ'. rewrite <- Hh in HJ'.
      split; [|split].
      * apply set_eq. intros i. rewrite (jr_tasks _ _ _ HJ), (jr_tasks _ _ _ HJ'). reflexivity.
      * exact (acc_ok_eqv _ _ _ _ (jr_total _ _ _ HJ) (jr_total _ _ _ HJ')).
      * exact (acc_ok_eqv _ _ _ _ (jr_alloc _ _ _ HJ) (jr_alloc _ _ _ HJ')).
  - intros n N HN. pose proof (rp_nodes c R n N HN) as HR. split.
    + intros Hne. apply map_choose in Hne. destruct Hne as (i & t & Hi).
      rewrite (nr_tasks _ _ _ HR) in Hi. apply map_filter_lookup_Some in Hi. destruct Hi as [Ht Hon].
      rewrite Hh in Ht. exact (rp_nodes_ex c' R' i t n Ht Hon).
    + intros N' HN'. pose proof (rp_nodes c' R' n N' HN') as HR'. rewrite <- Hh in HR'. split.
      * rewrite (nr_tasks _ _ _ HR), (nr_tasks _ _ _ HR'). reflexivity.
      * intros Ha Hb Hal. pose proof (nr_ledger _ _ _ HR Ha) as L. pose proof (nr_ledger _ _ _ HR' Hb) as L'.
        split; [|split; [|split]].
        -- rewrite res_eqv_amt in *. intros d. rewrite (lg_idle _ _ _ L d), (lg_idle _ _ _ L' d), (Hal d). reflexivity.
        -- exact (acc_ok_eqv _ _ _ _ (lg_used _ _ _ L) (lg_used _ _ _ L')).
        -- exact (acc_ok_eqv _ _ _ _ (lg_rel _ _ _ L) (lg_rel _ _ _ L')).
        -- exact (acc_ok_eqv _ _ _ _ (lg_pip _ _ _ L) (lg_pip _ _ _ L')).
Qed.

(* ---------- PodGroups ---------- *)

Lemma job_rep_with T j J m s : JobRep T j J -> JobRep T j (job_with J m s).
Proof. intros [A B C D]. split; simpl; assumption. Qed.

Lemma rep_insert_job c j cj' :
  Rep c -> j <> no_job -> JobRep (c_heap c) j (cj_job cj') -> Rep (with_jobs c (<[j := cj']> (c_jobs c))).
Proof.
  rewrite !rep_parts. intros (W & RJ & RN) Hjn HJ. simpl.
  split; [exact W|split; [|exact RN]]. apply fam_set; [exact RJ|split; assumption].
Qed.

(* Theorem (PodGroup add / update / delete): the invariant is kept, whether or not the job's
   pods arrived first *)
Theorem set_pod_group_inv c g : Rep c -> g_id g <> no_job -> Rep (set_pod_group c g).
Proof.
  intros R Hjn. unfold set_pod_group. apply rep_insert_job; auto. simpl.
  pose proof (jobs_rep_default _ _ (g_id g) (proj1 (proj2 (proj1 (rep_parts c) R))) Hjn) as HJ.
  destruct (cj_pg (default (new_cjob (g_id g)) (c_jobs c !! g_id g))); repeat apply job_rep_with; exact HJ.
Qed.

Theorem delete_pod_group_inv c j : Rep c -> Rep (delete_pod_group c j).
Proof.
  intros R. unfold delete_pod_group. destruct (c_jobs c !! j) as [cj|] eqn:E; [|exact R].
  assert (Hjn : j <> no_job) by (intros ->; rewrite (rp_nojob c R) in E; discriminate).
  unfold delete_job. eapply rep_frame; [| | |apply (rep_insert_job c j (mkCJob (job_with (cj_job cj) (j_min (cj_job cj)) (rebuild_subs (c_heap c) (cj_job cj))) false (cj_pguid cj) (cj_queue cj)) R Hjn)]; try reflexivity.
  simpl. apply job_rep_with. exact (rp_jobs c R j cj E).
Qed.

(* ---------- histories of pod notifications and node removals ---------- *)

Lemma rep_empty : Rep empty_cache.
Proof.
  split; simpl.
  - intros i t H. rewrite lookup_empty in H. discriminate.
  - apply lookup_empty.
  - intros j cj H. rewrite lookup_empty in H. discriminate.
  - intros i t H. rewrite lookup_empty in H. discriminate.
  - intros n N H. rewrite lookup_empty in H. discriminate.
  - intros i t n H. rewrite lookup_empty in H. discriminate.
Qed.

Section Histories.
Variable eps : Z.

Definition Inv (c : cache) : Prop := Rep c /\ Synced eps c /\ store_ok c.

Lemma node_event_inv c v :
  Rep c -> sc (nv_base v) <> None ->
  Rep (node_event c v) /\
  exists N, c_nodes (node_event c v) !! nv_id v = Some N /\ n_has_node N = true /\ n_alloc N = obj_alloc v.
Proof.
  intros R Hsc.
  destruct (add_or_update_node_inv c (eff_obj v) R) as [R1 H1].
  { simpl. apply sc_add_keep. exact Hsc. }
  split; [eapply rep_frame; [| | |exact R1]; reflexivity|exact H1].
Qed.

(* the API rules, stated against the informer store the cache was fed from *)
Definition step_ok (c : cache) (e : event) : Prop :=
  match e with
  | EPod p => pod_ok p /\ forall old, c_store c !! p_id p = Some old -> upd_ok old p
  | EPodDel _ | ENodeDel _ | EQueue _ | EQueueDel _ | EPGDel _ => True
  | EPG g => g_id g <> no_job
  | ENode v => sc (nv_base v) <> None       (* status.allocatable always lists "pods" *)
  | _ => False
  end.

Fixpoint hist_ok (c : cache) (h : list event) : Prop :=
  match h with
  | [] => True
  | e :: r => step_ok c e /\ hist_ok (handle eps c e) r
  end.

Lemma inv_empty : Inv empty_cache.
Proof.
  split; [exact rep_empty|]. split.
  - unfold Synced. simpl. rewrite fmap_empty. reflexivity.
  - intros i p H. simpl in H. rewrite lookup_empty in H. discriminate.
Qed.

(* ---------- the events that leave the held tasks, the informer store and errTasks alone ---------- *)

Lemma rep_delete_job c j cj :
  Rep c -> c_jobs c !! j = Some cj -> j_tasks (cj_job cj) = ∅ -> Rep (with_jobs c (delete j (c_jobs c))).
Proof.
  rewrite !rep_parts. intros (W & RJ & RN) Hcj Hemp. simpl. split; [exact W|split; [|exact RN]].
  apply fam_drop; [exact RJ|]. intros i t Ht. apply not_true_is_false. intros Ho. apply jown_spec in Ho as [Hj _].
  assert (i ∈ j_tasks (cj_job cj)) as Hin by (apply (jr_tasks _ _ _ (proj1 (proj1 RJ j cj Hcj))); eauto).
  rewrite Hemp in Hin. set_solver.
Qed.

(* processCleanupJob replaces the job table and nothing else *)
Lemma cleanup_one_spec c k :
  exists J, fst (cleanup_one c k) = with_jobs c J /\ (Rep c -> Rep (with_jobs c J)).
Proof.
  assert (Hsame : exists J, c = with_jobs c J /\ (Rep c -> Rep (with_jobs c J))).
  { exists (c_jobs c). split; [destruct c; reflexivity|]. apply rep_frame; reflexivity. }
  unfold cleanup_one. destruct (c_jobs c !! fst k) as [cj|] eqn:Hcj; [|exact Hsame].
  destruct (job_terminated cj) eqn:Ht; [|exact Hsame]. case_bool_decide; [|exact Hsame].
  eexists. split; [reflexivity|]. intros R.
  apply andb_true_iff in Ht as [_ Hemp]. rewrite bool_decide_eq_true in Hemp. exact (rep_delete_job c _ cj R Hcj Hemp).
Qed.

Lemma cleanup_fold l : forall c keep,
  exists J, fst (fold_left (fun (acc : cache * list (positive * Z)) k =>
                              let '(c1, retry) := cleanup_one (fst acc) k in
                              (c1, if retry then snd acc ++ [k] else snd acc)) l (c, keep)) = with_jobs c J /\
            (Rep c -> Rep (with_jobs c J)).
Proof.
  induction l as [|k l IH]; intros c keep; simpl.
  - exists (c_jobs c). split; [destruct c; reflexivity|]. apply rep_frame; reflexivity.
  - destruct (cleanup_one_spec c k) as (J1 & E1 & R1).
    destruct (cleanup_one c k) as [c1 retry]. cbn [fst snd] in *. subst c1.
    destruct (IH (with_jobs c J1) (if retry then keep ++ [k] else keep)) as (J2 & E2 & R2).
    exists J2. rewrite E2. split; [reflexivity|]. intros R. exact (R2 (R1 R)).
Qed.

Lemma drain_cleanup_spec c :
  exists J q, drain_cleanup c = with_delq (with_jobs c J) q /\ (Rep c -> Rep (drain_cleanup c)).
Proof.
  unfold drain_cleanup. destruct (cleanup_fold (c_delq c) c []) as (J & E & R).
  destruct (fold_left _ (c_delq c) (c, [])) as [c' keep]. cbn [fst] in E. subst c'.
  exists J, keep. split; [reflexivity|]. intros H. apply (rep_frame (with_jobs c J)); try reflexivity. auto.
Qed.

Definition quiet (e : event) : bool :=
  match e with
  | ENode _ | ENodeDel _ | EPG _ | EPGDel _ | EQueue _ | EQueueDel _ | EDrainCleanup | EApiGone _ => true
  | _ => false
  end.
(* what the API guarantees of the objects these events deliver *)
Definition quiet_ok (e : event) : Prop :=
  match e with ENode v => sc (nv_base v) <> None | EPG g => g_id g <> no_job | _ => True end.

Lemma handle_quiet c e : quiet e = true ->
  c_heap (handle eps c e) = c_heap c /\ c_store (handle eps c e) = c_store c /\
  c_errq (handle eps c e) = c_errq c /\ c_gone c ⊆ c_gone (handle eps c e) /\
  (quiet_ok e -> Rep c -> Rep (handle eps c e)) /\
  match e with ENode _ | ENodeDel _ => True | _ => c_nodes (handle eps c e) = c_nodes c end.
Proof.
  destruct e; try discriminate; intros _; unfold handle, handle_with.
  - do 4 (split; [reflexivity|]). split; [|exact I]. intros Hok R. exact (proj1 (node_event_inv c v R Hok)).
  - assert (E : exists N l a, remove_node c id = with_nattr (with_nodes c N l) a).
    { unfold remove_node, remove_node_ledger. destruct (c_nodes c !! id); [case_bool_decide|]; eauto. }
    destruct E as (N & l & a & E). rewrite E. do 4 (split; [reflexivity|]). split; [|exact I].
    intros _ R. rewrite <- E. exact (remove_node_inv c id R).
  - do 4 (split; [reflexivity|]). split; [|reflexivity]. exact (fun Hok R => set_pod_group_inv c g R Hok).
  - assert (E : exists J q, delete_pod_group c id = with_delq (with_jobs c J) q).
    { unfold delete_pod_group, delete_job. destruct (c_jobs c !! id); [eauto|]. exists (c_jobs c), (c_delq c). destruct c; reflexivity. }
    destruct E as (J & q & E). rewrite E. do 4 (split; [reflexivity|]). split; [|reflexivity].
    intros _ R. rewrite <- E. exact (delete_pod_group_inv c id R).
  - do 4 (split; [reflexivity|]). split; [|reflexivity]. intros _. apply rep_frame; reflexivity.
  - do 4 (split; [reflexivity|]). split; [|reflexivity]. intros _. apply rep_frame; reflexivity.
  - destruct (drain_cleanup_spec c) as (J & q & E & R). rewrite E in *.
    do 4 (split; [reflexivity|]). split; [|reflexivity]. intros _. exact R.
  - case_bool_decide; (split; [reflexivity|]); (split; [reflexivity|]); (split; [reflexivity|]);
      (split; [simpl; set_solver|]); (split; [|reflexivity]); intros _; [apply rep_frame; reflexivity|exact (fun R => R)].
Qed.

Theorem step_inv c e : Inv c -> step_ok c e -> Inv (handle eps c e).
Proof.
  intros (R & S & So) Hok. destruct (quiet e) eqn:Hq.
  - destruct (handle_quiet c e Hq) as (Eh & Es & _ & _ & HR & _).
    split; [apply HR; [destruct e; simpl in *; tauto|exact R]|]. unfold Synced, store_ok. rewrite Eh, Es. auto.
  - destruct e; try discriminate; simpl in Hok; try contradiction.
    + destruct Hok as [Hp Hu]. destruct (handle_pod_inv eps c p R S So Hp Hu) as (A & B & C & _). split; auto.
    + destruct (handle_pod_del_inv eps c id R S So) as (A & B & C & _). split; auto.
Qed.

(* Theorem: after ANY history of pod notifications (in any order across pods,
   pods naming nodes the cache has never seen), node removals and queue events
   that respects the API rules, the invariant holds and the cache holds exactly
   the tasks of the last delivered pod versions *)
Theorem history_inv h : forall c, Inv c -> hist_ok c h -> Inv (run eps c h).
Proof.
  induction h as [|e r IH]; intros c HI Hok; [exact HI|].
  destruct Hok as [H1 H2]. simpl. apply IH; [apply step_inv; auto|exact H2].
Qed.

(* ---------- the node objects and the pod store are tracked ---------- *)

Definition NodesMirror (c : cache) (on : gmap positive nodever) : Prop :=
  forall n, match on !! n with
            | Some ob => exists N, c_nodes c !! n = Some N /\ n_has_node N = true /\ n_alloc N = obj_alloc ob
            | None => forall N, c_nodes c !! n = Some N -> n_has_node N = false
            end.

Lemma mirror_ext a b on :
  nodes_ext (c_nodes a) (c_nodes b) -> NodesMirror a on -> NodesMirror b on.
Proof.
  intros He Hm n. specialize (He n). specialize (Hm n). destruct (on !! n) as [ob|].
  - destruct Hm as (N & HN & Hh & Ha). rewrite HN in He. destruct He as (N' & HN' & Hmeta).
    exists N'. unfold nmeta in Hmeta. injection Hmeta as E1 E2. split; [exact HN'|]. split; congruence.
  - intros N' HN'. destruct (c_nodes a !! n) as [N|] eqn:E.
    + destruct He as (N'' & HN'' & Hmeta). rewrite HN'' in HN'. injection HN' as <-.
      unfold nmeta in Hmeta. injection Hmeta as E1 E2. rewrite E1. exact (Hm N eq_refl).
    + exact (He N' HN').
Qed.

Lemma mirror_node_event c v on :
  Rep c -> sc (nv_base v) <> None -> NodesMirror c on -> NodesMirror (node_event c v) (<[nv_id v := v]> on).
Proof.
  intros R Hok Hm n. destruct (node_event_inv c v R Hok) as (_ & N & HN & Hh & Ha).
  destruct (decide (n = nv_id v)) as [->|Hne].
  - rewrite lookup_insert. exists N. auto.
  - rewrite lookup_insert_ne by congruence. specialize (Hm n).
    unfold node_event, add_or_update_node. simpl. rewrite lookup_insert_ne by congruence. exact Hm.
Qed.

Lemma mirror_remove_node c id on : NodesMirror c on -> NodesMirror (remove_node c id) (delete id on).
Proof.
  intros Hm n. specialize (Hm n). unfold remove_node, remove_node_ledger.
  destruct (decide (n = id)) as [->|Hne].
  - rewrite lookup_delete. destruct (c_nodes c !! id) as [ni|] eqn:E; [case_bool_decide|]; simpl.
    + intros N. rewrite lookup_delete. discriminate.
    + intros N. rewrite lookup_insert. intros [= <-]. reflexivity.
    + intros N HN. congruence.
  - rewrite lookup_delete_ne by congruence.
    destruct (c_nodes c !! id) as [ni|] eqn:E; [case_bool_decide|]; simpl;
      rewrite ?lookup_delete_ne, ?lookup_insert_ne by congruence; exact Hm.
Qed.

Definition Tracks (c : cache) (o : objs) : Prop := c_store c = o_pods o /\ NodesMirror c (o_nodes o).

Theorem step_tracks c e o :
  Inv c -> step_ok c e -> Tracks c o -> Tracks (handle eps c e) (apply_event o e).
Proof.
  intros (R & S & So) Hok [Hst Hm]. destruct (quiet e) eqn:Hq.
  - destruct (handle_quiet c e Hq) as (_ & Es & _ & _ & _ & En).
    split; [rewrite Es; destruct e; try discriminate; exact Hst|].
    destruct e; try discriminate; try (apply (mirror_ext c); [rewrite En; apply nodes_ext_refl|exact Hm]).
    + exact (mirror_node_event c v _ R Hok Hm).
    + exact (mirror_remove_node c id _ Hm).
  - destruct e; try discriminate; simpl in Hok; try contradiction.
    + destruct Hok as [Hp Hu]. destruct (handle_pod_inv eps c p R S So Hp Hu) as (_ & _ & _ & E & _ & Hne).
      split; [rewrite E, Hst; reflexivity|]. exact (mirror_ext c _ _ Hne Hm).
    + destruct (handle_pod_del_inv eps c id R S So) as (_ & _ & _ & E & _ & Hne).
      split; [rewrite E, Hst; reflexivity|]. exact (mirror_ext c _ _ Hne Hm).
Qed.

Lemma history_tracks h : forall c o,
  Inv c -> hist_ok c h -> Tracks c o -> Tracks (run eps c h) (fold_left apply_event h o).
Proof.
  induction h as [|e r IH]; intros c o HI Hok HT; [exact HT|].
  destruct Hok as [H1 H2]. simpl. apply IH; [apply step_inv; auto|exact H2|apply step_tracks; auto].
Qed.

Lemma tracks_empty : Tracks empty_cache no_objs.
Proof. split; [reflexivity|]. intros n. simpl. rewrite lookup_empty. intros N H. rewrite lookup_empty in H. discriminate. Qed.

(* the same view: for every job the same members and the same TotalRequest / Allocated, for every
   node the same held tasks, the same readiness and (when the node object exists) the same ledger;
   an entry that holds a task, or a node that has its object, exists on both sides *)
Definition same_view (c c' : cache) : Prop :=
  (forall j cj, c_jobs c !! j = Some cj ->
     (j_tasks (cj_job cj) <> ∅ -> is_Some (c_jobs c' !! j)) /\
     (forall cj', c_jobs c' !! j = Some cj' -> job_equiv cj cj')) /\
  (forall n N, c_nodes c !! n = Some N ->
     (n_tasks N <> ∅ \/ n_has_node N = true -> is_Some (c_nodes c' !! n)) /\
     (forall N', c_nodes c' !! n = Some N' ->
        n_tasks N = n_tasks N' /\ n_has_node N = n_has_node N' /\
        (n_has_node N = true ->
         res_eqv (n_alloc N) (n_alloc N') /\ res_eqv (n_idle N) (n_idle N') /\ res_eqv (n_used N) (n_used N') /\
         res_eqv (n_releasing N) (n_releasing N') /\ res_eqv (n_pipelined N) (n_pipelined N')))).

(* two caches with the invariant, the same tasks and node entries mirroring the same node
   objects have the same view *)
Lemma view_of_tracks c c' (on : gmap positive nodever) :
  Rep c -> Rep c' -> c_heap c = c_heap c' -> NodesMirror c on -> NodesMirror c' on -> same_view c c'.
Proof.
  intros R R' Hh Hm Hm'. destruct (view_determined c c' R R' Hh) as [HJ HN]. split; [exact HJ|].
  intros n N HNn. destruct (HN n N HNn) as [Hex Heq]. split.
  - intros [Ht|Hhas]; [exact (Hex Ht)|].
    specialize (Hm n). specialize (Hm' n). destruct (on !! n) as [ob|].
    + destruct Hm' as (N' & HN' & _). eauto.
    + rewrite (Hm N HNn) in Hhas. discriminate.
  - intros N' HN'. destruct (Heq N' HN') as [Hts Hled].
    specialize (Hm n). specialize (Hm' n). destruct (on !! n) as [ob|].
    + destruct Hm as (N1 & HN1 & Hh1 & Ha1). destruct Hm' as (N2 & HN2 & Hh2 & Ha2).
      rewrite HNn in HN1. injection HN1 as <-. rewrite HN' in HN2. injection HN2 as <-.
      split; [exact Hts|]. split; [congruence|]. intros _.
      assert (Hal : res_eqv (n_alloc N) (n_alloc N')) by (rewrite Ha1, Ha2; apply res_eqv_amt; reflexivity).
      split; [exact Hal|]. exact (Hled Hh1 Hh2 Hal).
    + split; [exact Hts|]. rewrite (Hm N HNn), (Hm' N' HN'). split; [reflexivity|discriminate].
Qed.

(* ... in particular two caches that hold exactly the tasks of their pods and track the same
   final pods and node objects *)
Lemma synced_same_view c c' o o' :
  Rep c -> Rep c' -> Synced eps c -> Synced eps c' -> Tracks c o -> Tracks c' o' ->
  o_pods o = o_pods o' -> o_nodes o = o_nodes o' -> c_heap c = c_heap c' /\ same_view c c'.
Proof.
  intros R R' S S' [Hst Hm] [Hst' Hm'] Hp Hn.
  assert (Hh : c_heap c = c_heap c') by (unfold Synced in S, S'; rewrite S, S', Hst, Hst', Hp; reflexivity).
  split; [exact Hh|]. rewrite <- Hn in Hm'. exact (view_of_tracks c c' _ R R' Hh Hm Hm').
Qed.

(* Theorem (converges_to_final_objects).  Two histories of pod, node (add,
   update, remove, re-add), PodGroup and queue notifications that respect the
   API rules -- in ANY order across objects: pods before their node or PodGroup,
   nodes removed and re-added under running pods, status flips, deletion
   timestamps -- and end with the same final pods and the same final node
   objects leave caches with the same view: the same tasks (status, node, job),
   for every job the same members and the same TotalRequest / Allocated, for
   every node the same held tasks, the same readiness, and (when the node object
   exists) the same Idle / Used / Releasing / Pipelined; an entry that holds a
   task, or a node that has its object, exists on both sides.  The property's form
   "view = view built from the final objects alone" is the instance where the second
   history is the canonical feed of the final objects ([build]); that this feed
   satisfies [hist_ok] and has the same final objects is shown for the example
   histories of Refuted.v only. *)
Theorem converges_to_final_objects h h' :
  hist_ok empty_cache h -> hist_ok empty_cache h' ->
  o_pods (final_objects h) = o_pods (final_objects h') ->
  o_nodes (final_objects h) = o_nodes (final_objects h') ->
  let c := run eps empty_cache h in let c' := run eps empty_cache h' in
  c_heap c = c_heap c' /\
  (forall j cj, c_jobs c !! j = Some cj ->
     (j_tasks (cj_job cj) <> ∅ -> is_Some (c_jobs c' !! j)) /\
     (forall cj', c_jobs c' !! j = Some cj' -> job_equiv cj cj')) /\
  (forall n N, c_nodes c !! n = Some N ->
     (n_tasks N <> ∅ \/ n_has_node N = true -> is_Some (c_nodes c' !! n)) /\
     (forall N', c_nodes c' !! n = Some N' ->
        n_tasks N = n_tasks N' /\ n_has_node N = n_has_node N' /\
        (n_has_node N = true ->
         res_eqv (n_alloc N) (n_alloc N') /\ res_eqv (n_idle N) (n_idle N') /\ res_eqv (n_used N) (n_used N') /\
         res_eqv (n_releasing N) (n_releasing N') /\ res_eqv (n_pipelined N) (n_pipelined N')))).
Proof.
  intros H H' Hp Hn c c'.
  destruct (history_inv h empty_cache inv_empty H) as (R & S & _).
  destruct (history_inv h' empty_cache inv_empty H') as (R' & S' & _).
  pose proof (history_tracks h empty_cache no_objs inv_empty H tracks_empty) as HT.
  pose proof (history_tracks h' empty_cache no_objs inv_empty H' tracks_empty) as HT'.
  exact (synced_same_view c c' _ _ R R' S S' HT HT' Hp Hn).
Qed.

(* ---------- resynchronisation ---------- *)

(* Theorem (failed bind / evict repaired): whatever the scheduling cycle did to a
   held task (Binding on a node after AddBindTask, Releasing after Evict, ...), as
   long as the invariant holds when its resync runs, syncTask leaves the cache
   holding exactly NewTaskInfo of the API object, with the invariant -- so (by
   [view_determined]) with the view of a cache that only ever saw that object; if the pod
   is already gone from the API server (the informer has not said so yet) the task is
   dropped from its job and its node.  Nothing but the task table, the job and the node moves *)
Theorem sync_task_spec c j st :
  Rep c -> c_heap c !! t_id st = Some st -> t_job st = j -> j <> no_job ->
  (forall p, api_pod c (t_id st) = Some p -> p_id p = t_id st /\ pod_ok p) ->
  let c' := fst (sync_task eps c j st) in
  Rep c' /\ snd (sync_task eps c j st) = true /\
  c_heap c' = match api_pod c (t_id st) with
              | Some p => <[t_id st := task_of_pod eps p]> (c_heap c)
              | None => delete (t_id st) (c_heap c) end /\
  c_store c' = c_store c /\ c_gone c' = c_gone c /\ nodes_ext (c_nodes c) (c_nodes c').
Proof.
  intros R Hs Hj Hjn Hapi. unfold sync_task.
  destruct (delete_task_rep c (Some j) st R Hs (conj Hj Hjn)) as (R1 & Hh1 & _ & Hne1 & Hc1).
  set (c1 := delete_task c (Some j) st) in *.
  assert (Hf1 : c_store c1 = c_store c /\ c_gone c1 = c_gone c) by (rewrite Hc1; split; reflexivity).
  destruct (api_pod c (t_id st)) as [p|]; [|cbn [fst snd]; tauto].
  destruct (Hapi p eq_refl) as [Hid Hok].
  assert (Hn : c_heap c1 !! t_id (task_of_pod eps p) = None).
  { change (t_id (task_of_pod eps p)) with (p_id p). rewrite Hid, Hh1. apply lookup_delete. }
  destruct (add_task_rep eps c1 (p_job p) (task_of_pod eps p) R1 Hn) as (R2 & Hok2 & Hh2 & _ & Hne2 & Hc2).
  - destruct Hok as (_ & Hw & _). exact Hw.
  - apply pod_status_not_binding.
  - apply job_arg_pod. exact Hok.
  - split; [exact R2|]. split; [exact Hok2|]. split.
    + rewrite Hh2, Hh1. change (t_id (task_of_pod eps p)) with (p_id p). rewrite Hid. apply insert_delete_insert.
    + rewrite Hc2. simpl. split; [tauto|]. split; [tauto|]. eapply nodes_ext_trans; eauto.
Qed.

End Histories.
