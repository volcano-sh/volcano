(* C08 proofs, part 3: NodeInfo.Clone = SetNode on the same tasks and the specification of a
   snapshot (Section Clone, [SnapSpec]); repair under arbitrary mixes of successful and failed
   binds / evictions and the pieces of convergence over the whole alphabet (Section Mixed);
   resync drains whose GETs all fail (Section GetFailures); batches of bind contexts, their
   resync queue, histories with batches and law 105 (Section Batch). *)
From stdpp Require Import gmap.
From Coq Require Import ZArith Lia.
From V Require Import Base.Codec Base.Res Base.ResLemmas Sched.LedgerModel Sched.LedgerInv
                      C08.Model C08.Laws C08.Lemmas C08.Lemmas2.
Open Scope Z_scope.

(* ---------- NodeInfo.Clone ---------- *)

Lemma node_ext_eq (X Y : node) :
  n_id X = n_id Y -> n_has_node X = n_has_node Y -> n_idle X = n_idle Y -> n_used X = n_used Y ->
  n_releasing X = n_releasing Y -> n_pipelined X = n_pipelined Y -> n_alloc X = n_alloc Y ->
  n_tasks X = n_tasks Y -> X = Y.
Proof. destruct X, Y; simpl; intros; subst; reflexivity. Qed.

Section Clone.
Variable eps : Z.

(* one AddTask of Clone = one accounting step of setNode, plus the copy *)
Lemma node_add_as_acc X t :
  t_node t = Some (n_id X) -> n_tasks X !! t_id t = None -> n_has_node X = true -> t_status t <> Binding ->
  node_add eps X t =
    inl (node_with X (n_idle (node_set_acc X t)) (n_used (node_set_acc X t)) (n_releasing (node_set_acc X t))
                   (n_pipelined (node_set_acc X t)) (<[t_id t := t]> (n_tasks X)), t).
Proof.
  intros Hn Hf Hh Hb. unfold node_add.
  rewrite bool_decide_eq_false_2 by (rewrite Hn; intros [_ H]; congruence).
  rewrite bool_decide_eq_false_2 by (rewrite Hf; intros [x Hx]; discriminate).
  rewrite (set_node_same t _ Hn), Hh. cbn [negb]. unfold node_set_acc.
  destruct (t_status t); try reflexivity. contradiction.
Qed.

Definition ledger_eq (X Y : node) : Prop :=
  n_id X = n_id Y /\ n_has_node X = n_has_node Y /\ n_alloc X = n_alloc Y /\ n_idle X = n_idle Y /\
  n_used X = n_used Y /\ n_releasing X = n_releasing Y /\ n_pipelined X = n_pipelined Y.

Lemma node_set_acc_ledger X Y t : ledger_eq X Y -> ledger_eq (node_set_acc X t) (node_set_acc Y t).
Proof.
  intros (A & B & C & D & E & F & G). unfold ledger_eq, node_set_acc.
  destruct (t_status t); simpl; rewrite ?A, ?B, ?C, ?D, ?E, ?F, ?G; repeat split; reflexivity.
Qed.

Definition clone_step (acc : node) (t : task) : node :=
  match node_add eps acc t with inl (acc', _) => acc' | inr _ => acc end.

Lemma clone_fold_nodes l : forall X Y,
  ledger_eq X Y -> n_has_node X = true ->
  (forall t, t ∈ l -> t_node t = Some (n_id X) /\ t_status t <> Binding /\ n_tasks X !! t_id t = None) ->
  NoDup (map t_id l) ->
  ledger_eq (fold_left clone_step l X) (fold_left node_set_acc l Y) /\
  n_tasks (fold_left clone_step l X) = fold_left (fun m t => <[t_id t := t]> m) l (n_tasks X).
Proof.
  induction l as [|t l IH]; intros X Y HE Hh Hl Hnd; [auto|].
  simpl. apply NoDup_cons in Hnd. destruct Hnd as [Hni Hnd].
  destruct (Hl t ltac:(left)) as (Hn & Hb & Hf).
  unfold clone_step at 2 4. rewrite (node_add_as_acc X t Hn Hf Hh Hb).
  set (X1 := node_with X _ _ _ _ _).
  assert (HE1 : ledger_eq X1 (node_set_acc Y t)).
  { pose proof (node_set_acc_ledger X Y t HE) as (A & B & C & D & E & F & G).
    destruct (node_set_acc_fields X t) as (E1 & E2 & E3 & _).
    unfold ledger_eq, X1. simpl. rewrite <- A, <- B, <- C, <- D, <- E, <- F, <- G, E1, E2, E3. repeat split; reflexivity. }
  apply IH; auto.
  intros u Hu. destruct (Hl u ltac:(right; exact Hu)) as (Hn' & Hb' & Hf'). split; [exact Hn'|]. split; [exact Hb'|].
  unfold X1. simpl. rewrite lookup_insert_ne; [exact Hf'|]. intros E. apply Hni. rewrite E.
  apply elem_of_list_fmap. eauto.
Qed.

Lemma fold_ins_lookup l : forall (M : gmap positive task) i t,
  NoDup (map t_id l) -> (forall u, u ∈ l -> M !! t_id u = None) ->
  fold_left (fun m u => <[t_id u := u]> m) l M !! i = Some t <->
  (M !! i = Some t \/ (t ∈ l /\ t_id t = i)).
Proof.
  induction l as [|a l IH]; intros M i t Hnd HM; simpl.
  - split; [auto|]. intros [H|[H _]]; [exact H|inversion H].
  - apply NoDup_cons in Hnd. destruct Hnd as [Hna Hnd].
    rewrite IH; [|exact Hnd|].
    + split.
      * intros [H|[H1 H2]]; [|right; split; [right; exact H1|exact H2]].
        destruct (decide (i = t_id a)) as [->|Hne].
        -- rewrite lookup_insert in H. injection H as <-. right. split; [left|reflexivity].
        -- rewrite lookup_insert_ne in H by congruence. left. exact H.
      * intros [H|[H1 H2]].
        -- left. rewrite lookup_insert_ne; [exact H|]. intros <-. rewrite (HM a ltac:(left)) in H. discriminate.
        -- apply elem_of_cons in H1. destruct H1 as [->|H1]; [left; rewrite <- H2; apply lookup_insert|right; auto].
    + intros u Hu. rewrite lookup_insert_ne; [apply HM; right; exact Hu|].
      intros E. apply Hna. rewrite E. apply elem_of_list_fmap. eauto.
Qed.

Lemma fold_set_acc_tasks l : forall Z, n_tasks (fold_left node_set_acc l Z) = n_tasks Z.
Proof.
  induction l as [|t l IH]; intros Z; [reflexivity|]. simpl. rewrite IH.
  destruct (node_set_acc_fields Z t) as (_ & _ & _ & E & _). exact E.
Qed.

(* Theorem (NodeInfo.Clone): when the node holds no Binding task, the clone -- a fresh
   NodeInfo to which every task is added again -- is exactly what SetNode computes on the
   same tasks with the same allocatable *)
Theorem clone_node_is_node_set T n ni alloc :
  NodeRep T n ni -> (forall i t, T !! i = Some t -> t_id t = i) ->
  (forall i t, n_tasks ni !! i = Some t -> t_status t <> Binding) ->
  clone_node eps alloc ni = node_set ni (mkNodeObj (n_id ni) alloc).
Proof.
  intros [Hid Hts Hl] Hwf Hnb. unfold clone_node, node_set.
  set (l := map snd (map_to_list (n_tasks ni))).
  assert (Hmem : forall t, t ∈ l <-> n_tasks ni !! t_id t = Some t).
  { intros t. unfold l. rewrite elem_of_list_fmap. split.
    - intros ([i u] & -> & Hu). apply elem_of_map_to_list in Hu. cbn [snd].
      assert (t_id u = i) as ->; [|exact Hu]. rewrite Hts in Hu. apply map_filter_lookup_Some in Hu. exact (Hwf i u (proj1 Hu)).
    - intros H. exists (t_id t, t). split; [reflexivity|]. apply elem_of_map_to_list. exact H. }
  assert (Hnd : NoDup (map t_id l)).
  { unfold l. rewrite map_map.
    assert (E : map (fun x : positive * task => t_id (snd x)) (map_to_list (n_tasks ni)) = map fst (map_to_list (n_tasks ni))).
    { apply map_ext_in. intros [i u] Hin. cbn [fst snd]. apply elem_of_list_In, elem_of_map_to_list in Hin.
      rewrite Hts in Hin. apply map_filter_lookup_Some in Hin. exact (Hwf i u (proj1 Hin)). }
    rewrite E. apply NoDup_fst_map_to_list. }
  set (X0 := mkNode (n_id ni) true alloc empty_res empty_res empty_res alloc ∅).
  set (Y0 := node_reset ni (mkNodeObj (n_id ni) alloc)).
  assert (HE0 : ledger_eq X0 Y0) by (repeat split; reflexivity).
  destruct (clone_fold_nodes l X0 Y0 HE0 eq_refl) as [(A & B & C & D & E & F & G) Htasks]; [|exact Hnd|].
  { intros t Ht. apply Hmem in Ht. split; [|split; [exact (Hnb _ _ Ht)|apply lookup_empty]].
    rewrite Hts in Ht. apply map_filter_lookup_Some in Ht. destruct Ht as [_ Hon]. cbn [snd] in Hon.
    simpl. rewrite Hid. exact (on_n_node n t Hon). }
  fold clone_step.
  assert (HY : n_tasks (fold_left node_set_acc l Y0) = n_tasks ni) by (rewrite fold_set_acc_tasks; reflexivity).
  apply node_ext_eq; auto.
  rewrite Htasks, HY. apply map_eq. intros i. apply option_eq. intros t.
  rewrite fold_ins_lookup; [|exact Hnd|intros u _; apply lookup_empty].
  unfold X0. cbn [n_tasks]. rewrite lookup_empty. split.
  - intros [H|[H1 H2]]; [discriminate|]. apply Hmem in H1. rewrite H2 in H1. exact H1.
  - intros H. right. assert (t_id t = i).
    { rewrite Hts in H. apply map_filter_lookup_Some in H. exact (Hwf i t (proj1 H)). }
    split; [apply Hmem; rewrite H0; exact H|exact H0].
Qed.

End Clone.

(* ---------- Snapshot() against an independent specification ---------- *)

Lemma clone_job_min heap J : j_min (clone_job heap J) = j_min J.
Proof.
  unfold clone_job. generalize (elements (j_tasks J)). intros l.
  set (J0 := mkJob (j_id J) (j_queue J) (j_min J) (j_role_min J) (j_role_total J) ∅ ∅ empty_res empty_res ∅ ∅).
  change (j_min J) with (j_min J0). generalize J0. clear J0.
  induction l as [|i l IH]; intros J0; [reflexivity|]. simpl. rewrite IH. destruct (heap !! i); reflexivity.
Qed.

(* what a correct Snapshot() of cache [c] is, without reference to how it is computed:
   the queues and the node list as they are; exactly the nodes that have a Node object, each
   the ledger of exactly the cache's tasks on that node with the allocatable NewNodeInfo(node)
   gives; exactly the jobs that have a PodGroup in an existing queue, each the ledger of exactly
   the cache's tasks of that job with the job's own attributes; only tasks the cache holds *)
Record SnapSpec (c : cache) (s : snapshot) : Prop := mkSnapSpec {
  ss_queues : s_queues s = c_queues c;
  ss_nodelist : s_nodelist s = c_nodelist c;
  ss_nodes_dom : forall n, is_Some (s_nodes s !! n) <-> exists N, c_nodes c !! n = Some N /\ n_has_node N = true;
  ss_jobs_dom : forall j, is_Some (s_jobs s !! j) <->
     exists cj, c_jobs c !! j = Some cj /\ cj_pg cj = true /\ 0 < cj_queue cj /\ Z.to_pos (cj_queue cj) ∈ c_queues c;
  ss_jobs : forall j sj, s_jobs s !! j = Some sj ->
     exists cj, c_jobs c !! j = Some cj /\ jmeta sj = jmeta cj /\ JobRep (c_heap c) j (cj_job sj);
  ss_nodes : forall n N', s_nodes s !! n = Some N' ->
     exists N, c_nodes c !! n = Some N /\
       ((forall i t, n_tasks N !! i = Some t -> t_status t <> Binding) -> sc (clone_alloc c n N) <> None ->
        NodeRep (c_heap c) n N' /\ n_has_node N' = true /\ n_alloc N' = clone_alloc c n N);
  ss_heap : forall i t, s_heap s !! i = Some t -> c_heap c !! i = Some t;
  (* ... and every task of a snapshot job is there, with exactly the record the cache holds *)
  ss_heap_full : forall i j sj, s_jobs s !! j = Some sj -> i ∈ j_tasks (cj_job sj) -> s_heap s !! i = c_heap c !! i;
}.

(* ---------- repair under arbitrary mixes of successful and failed binds / evictions ---------- *)

Section Mixed.
Variable eps : Z.

Definition synced_at (c : cache) (i : positive) (t : task) : Prop :=
  exists p, c_store c !! i = Some p /\ t = task_of_pod eps p.

(* every held task equals NewTaskInfo(its pod), or waits in [l] for a resync, or is one of the
   tasks in [A]: a successful bind / eviction whose pod notification has not been applied yet *)
Definition QueuedInA (l : list (positive * positive)) (A : gset positive) (c : cache) : Prop :=
  forall i t, c_heap c !! i = Some t -> synced_at c i t \/ (t_job t, i) ∈ l \/ i ∈ A.
Definition QueuedA (A : gset positive) (c : cache) : Prop := QueuedInA (c_errq c) A c.

(* every pod of the informer store that is still on the API server is held *)
Definition Cover (c : cache) : Prop :=
  forall i p, c_store c !! i = Some p -> i ∈ c_gone c \/ is_Some (c_heap c !! i).

(* the drain, with tasks awaiting their pod notification: afterwards every held task equals
   NewTaskInfo(pod) unless it is awaiting; no pod that is still on the API server was dropped *)
Lemma drain_resync_A c A : Inv2 eps c -> QueuedA A c -> QueuedInA [] A (drain_resync eps c).
Proof.
  intros I HP. destruct (drain_resync_spec eps c I) as (_ & (Es & _) & _ & P & _).
  intros i t Ht. unfold synced_at. rewrite Es. destruct (P i t Ht) as [Hl|[Ht0 Hnq]]; [left; exact Hl|].
  destruct (HP i t Ht0) as [Hl|[Hq|Ha]]; [left; exact Hl|contradiction|right; right; exact Ha].
Qed.

Lemma drain_resync_cover c : Inv2 eps c -> Cover c -> Cover (drain_resync eps c).
Proof.
  intros I HC. destruct (drain_resync_spec eps c I) as (_ & (Es & Eg & _) & _ & _ & C).
  intros i p. rewrite Es, Eg. intros Hp. destruct (HC i p Hp) as [Hg|Hh]; [left; exact Hg|].
  destruct (C i Hh); auto.
Qed.

(* a step of the cycle, with ANY outcome: a task it changed is queued (API failure) or awaiting
   its pod notification (API success) *)
Lemma cycle_queuedA c c' jid tid (ok : bool) (A : gset positive) :
  cycle_post c c' jid tid ->
  (c_heap c' = c_heap c /\ c_errq c' = c_errq c) \/
  c_errq c' = (if ok then c_errq c else enq (c_errq c) (jid, tid)) ->
  QueuedA A c -> QueuedA (if ok then {[tid]} ∪ A else A) c'.
Proof.
  intros (_ & Es & _ & _ & _ & Hoth & Hid) Hq HP i t Ht. unfold synced_at. rewrite Es.
  assert (Hmono : forall k, k ∈ c_errq c -> k ∈ c_errq c').
  { destruct Hq as [[_ ->]| ->]; [auto|]. destruct ok; [auto|]. intros k Hk. apply elem_of_enq. auto. }
  assert (Hold : c_heap c !! i = Some t ->
            (exists p, c_store c !! i = Some p /\ t = task_of_pod eps p) \/
            (t_job t, i) ∈ c_errq c' \/ i ∈ (if ok then {[tid]} ∪ A else A)).
  { intros Ht0. destruct (HP i t Ht0) as [Hl|[Hr|Ha]]; [left; exact Hl|right; left; auto|right; right].
    destruct ok; [apply elem_of_union_r|]; exact Ha. }
  destruct (decide (i = tid)) as [->|Hne]; [|apply Hold; rewrite <- Hoth by exact Hne; exact Ht].
  destruct Hq as [[Eh _]|Eq]; [apply Hold; rewrite <- Eh; exact Ht|].
  destruct ok; [right; right; apply elem_of_union_l, elem_of_singleton; reflexivity|].
  destruct (c_heap c !! tid) as [st|] eqn:Hs; [|congruence].
  destruct Hid as (t' & Ht' & Hj & _ & Hor). rewrite Ht' in Ht. injection Ht as <-.
  destruct Hor as [->|[Hjs _]]; [apply Hold; reflexivity|].
  right. left. rewrite Eq, Hj, Hjs. apply elem_of_enq. auto.
Qed.

Lemma cycle_cover c c' jid tid : cycle_post c c' jid tid -> Cover c -> Cover c'.
Proof.
  intros (_ & Hst & Hg & _ & _ & Hoth & Hid) HC i q. rewrite Hst, Hg. intros Hq.
  destruct (HC i q Hq) as [Hgo|[t Ht]]; [left; exact Hgo|right].
  destruct (decide (i = tid)) as [->|Hne]; [|rewrite Hoth by exact Hne; eauto].
  rewrite Ht in Hid. destruct Hid as (t' & Ht' & _). eauto.
Qed.

Local Instance task_eq_dec : EqDecision task.
Proof. solve_decision. Defined.

(* the tasks awaiting their pod notification, along a history: a successful bind / eviction adds
   the task; a pod notification that is APPLIED (not the ignored update) or a pod delete removes it *)
Definition await (c : cache) (A : gset positive) (e : event) : gset positive :=
  match e with
  | EBind _ tid _ true | EEvict _ tid true => {[tid]} ∪ A
  | EPod p => if bool_decide (c_heap (handle eps c e) !! p_id p = Some (task_of_pod eps p)) then A ∖ {[p_id p]} else A
  | EPodDel i => A ∖ {[i]}
  | _ => A
  end.

(* the API rules; binds and evictions with any outcome *)
Definition step_ok4 (c : cache) (e : event) : Prop :=
  match e with
  | EPod p => pod_ok p /\ forall old, c_store c !! p_id p = Some old -> upd_ok old p
  | ENode v => sc (nv_base v) <> None
  | EPG g => g_id g <> no_job
  | _ => True
  end.
Lemma step_ok4_2 c e : step_ok4 c e -> step_ok2 e.
Proof. destruct e; simpl; tauto. Qed.

Lemma queuedA_frame c c' A :
  c_heap c' = c_heap c -> c_store c' = c_store c -> c_errq c' = c_errq c -> QueuedA A c -> QueuedA A c'.
Proof. intros H1 H2 H3 HP. unfold QueuedA, QueuedInA, synced_at. rewrite H1, H2, H3. exact HP. Qed.

Theorem step_queuedA c e A :
  Inv2 eps c -> QueuedA A c -> step_ok4 c e -> QueuedA (await c A e) (handle eps c e).
Proof.
  intros I HP Hok. pose proof I as (R & So & Co). destruct (quiet e) eqn:Hqu.
  - destruct (handle_quiet eps c e Hqu) as (Eh & Es & Eq & _).
    replace (await c A e) with A by (destruct e; try discriminate; reflexivity).
    exact (queuedA_frame c _ A Eh Es Eq HP).
  - destruct e; try discriminate; simpl in Hok.
    + destruct Hok as [Hokp Hupd].
      destruct (pod_event_full eps c p I Hokp) as ((_ & Hst & _) & Hoth & Hid). cbn [store_after] in Hst.
      unfold await. intros i t Ht. unfold synced_at. rewrite Hst, (proj1 (handle_pod_queues eps c p)).
      destruct (decide (i = p_id p)) as [->|Hne].
      * rewrite lookup_insert. case_bool_decide as Hap.
        -- rewrite Hap in Ht. injection Ht as <-. left. eauto.
        -- destruct Hid as [Hnew|(Hsame & t0 & Ht0 & Hal & Hnn)]; [contradiction|].
           rewrite Hsame, Ht0 in Ht. injection Ht as <-.
           destruct (HP _ t0 Ht0) as [(old & Hold & ->)|[Hr|Ha]]; [|right; left; exact Hr|right; right; exact Ha]. exfalso.
           destruct (So _ _ Hold) as [_ Hokold].
           pose proof (allocated_needs_node old Hokold Hal) as Hn. rewrite (Hupd old Hold Hn) in Hnn. contradiction.
      * rewrite Hoth in Ht by exact Hne. rewrite lookup_insert_ne by congruence.
        destruct (HP i t Ht) as [Hl|[Hr|Ha]]; [left; exact Hl|right; left; exact Hr|right; right].
        case_bool_decide; [apply elem_of_difference; split; [exact Ha|rewrite elem_of_singleton; exact Hne]|exact Ha].
    + destruct (pod_delete_inv2 eps c id I) as ((_ & Hst & _) & Hh). cbn [store_after] in Hst.
      unfold await. intros i t Ht. unfold synced_at. rewrite Hst, (proj1 (handle_pod_del_queues eps c id)). rewrite Hh in Ht.
      assert (Hne : i <> id).
      { intros ->. destruct (c_store c !! id) eqn:Hold; [rewrite lookup_delete in Ht; discriminate|].
        destruct (Co id t Ht) as (p & Hp & _). congruence. }
      assert (Ht0 : c_heap c !! i = Some t).
      { destruct (c_store c !! id); [rewrite lookup_delete_ne in Ht by congruence|]; exact Ht. }
      rewrite lookup_delete_ne by congruence.
      destruct (HP i t Ht0) as [Hl|[Hr|Ha]]; [left; exact Hl|right; left; exact Hr|right; right].
      apply elem_of_difference. split; [exact Ha|rewrite elem_of_singleton; exact Hne].
    + intros i t Ht. destruct (drain_resync_A c A I HP i t Ht) as [Hl|[Hr|Ha]]; [left; exact Hl|inversion Hr|right; right; exact Ha].
    + destruct ok; exact (cycle_queuedA c _ jid tid _ A (bind_task_rep eps c jid tid nid _ R) (bind_task_queue eps c jid tid nid _ R) HP).
    + destruct ok; exact (cycle_queuedA c _ jid tid _ A (evict_task_rep eps c jid tid _ R) (evict_task_queue eps c jid tid _) HP).
Qed.

(* Theorem: no step of the whole alphabet drops a pod that is still on the API server *)
Theorem step_cover c e : Inv2 eps c -> Cover c -> step_ok2 e -> Cover (handle eps c e).
Proof.
  intros I HC Hok. pose proof I as (R & So & Co). destruct (quiet e) eqn:Hqu.
  - destruct (handle_quiet eps c e Hqu) as (Eh & Es & _ & Eg & _). intros i p. rewrite Es, Eh. intros Hp.
    destruct (HC i p Hp) as [Hg|Hh]; [left; exact (Eg i Hg)|right; exact Hh].
  - destruct e; try discriminate; simpl in Hok.
    + destruct (pod_event_full eps c p I Hok) as ((_ & Hst & _) & Hoth & Hid). cbn [store_after] in Hst.
      intros i q. rewrite Hst, (proj2 (handle_pod_queues eps c p)). destruct (decide (i = p_id p)) as [->|Hne].
      * intros _. right. destruct Hid as [Hnew|(Hsame & t0 & Ht0 & _)]; [rewrite Hnew; eauto|rewrite Hsame, Ht0; eauto].
      * rewrite lookup_insert_ne by congruence. intros Hq. rewrite Hoth by exact Hne.
        destruct (HC i q Hq) as [Hgo|Hh]; [left|right; exact Hh].
        apply elem_of_difference. split; [exact Hgo|rewrite elem_of_singleton; exact Hne].
    + destruct (pod_delete_inv2 eps c id I) as ((_ & Hst & _) & Hh). cbn [store_after] in Hst.
      intros i q. rewrite Hst, Hh. rewrite lookup_delete_Some. intros [Hne Hq].
      destruct (HC i q Hq) as [Hgo|Hh']; [left; apply (proj2 (handle_pod_del_queues eps c id)); auto|right].
      destruct (c_store c !! id); [rewrite lookup_delete_ne by congruence|]; exact Hh'.
    + exact (drain_resync_cover c I HC).
    + exact (cycle_cover c _ jid tid (bind_task_rep eps c jid tid nid ok R) HC).
    + exact (cycle_cover c _ jid tid (evict_task_rep eps c jid tid ok R) HC).
Qed.

Fixpoint hist_ok4 (c : cache) (h : list event) : Prop :=
  match h with [] => True | e :: r => step_ok4 c e /\ hist_ok4 (handle eps c e) r end.
Fixpoint await_run (c : cache) (A : gset positive) (h : list event) : gset positive :=
  match h with [] => A | e :: r => await_run (handle eps c e) (await c A e) r end.

Lemma history_queuedA h : forall c A, Inv2 eps c -> QueuedA A c -> Cover c -> hist_ok4 c h ->
  Inv2 eps (run eps c h) /\ QueuedA (await_run c A h) (run eps c h) /\ Cover (run eps c h).
Proof.
  induction h as [|e r IH]; intros c A I HP HC Hok; [auto|].
  destruct Hok as [H1 H2]. simpl. apply IH; [|apply step_queuedA; auto| |exact H2].
  - exact (proj1 (step_inv2 eps c e I (step_ok4_2 c e H1))).
  - exact (step_cover c e I HC (step_ok4_2 c e H1)).
Qed.

Lemma await_run_app c A h1 h2 :
  await_run c A (h1 ++ h2) = await_run (run eps c h1) (await_run c A h1) h2.
Proof. revert c A. induction h1 as [|e r IH]; intros c A; [reflexivity|]. simpl. apply IH. Qed.

Lemma queuedA_empty : QueuedA ∅ empty_cache.
Proof. intros i t Ht. simpl in Ht. rewrite lookup_empty in Ht. discriminate. Qed.
Lemma cover_empty : Cover empty_cache.
Proof. intros i p Hp. simpl in Hp. rewrite lookup_empty in Hp. discriminate. Qed.

(* one resync drain after a state in which every divergent task is queued or awaiting *)
Lemma drain_repairs c A :
  Inv2 eps c -> QueuedA A c -> Cover c ->
  let c' := drain_resync eps c in
  Inv2 eps c' /\ (forall i t, c_heap c' !! i = Some t -> synced_at c' i t \/ i ∈ A) /\ Cover c'.
Proof.
  intros I HQ HC. split; [exact (proj1 (drain_resync_spec eps c I))|]. split; [|exact (drain_resync_cover c I HC)].
  intros i t Ht. destruct (drain_resync_A c A I HQ i t Ht) as [Hl|[Hr|Ha]]; [left; exact Hl|inversion Hr|right; exact Ha].
Qed.

(* Theorem (the property's clauses failed_bind_repaired / failed_evict_repaired, ANY mix of outcomes): after any history
   of informer events, successful / refused / failed binds and evictions, pods vanishing from the
   API server and drains, one resync drain leaves
   - the invariant,
   - every held task equal to NewTaskInfo(its pod), except the tasks of successful binds /
     evictions whose pod notification has not been applied yet ([await_run]),
   - and every pod of the informer store that is still on the API server held *)
Theorem mixed_failures_repaired h :
  hist_ok4 empty_cache h ->
  let c := run eps empty_cache (h ++ [EDrainResync]) in
  let A := await_run empty_cache ∅ h in
  Inv2 eps c /\ (forall i t, c_heap c !! i = Some t -> synced_at c i t \/ i ∈ A) /\ Cover c.
Proof.
  intros Hok c A.
  destruct (history_queuedA h empty_cache ∅ (inv2_empty eps) queuedA_empty cover_empty Hok) as (I & HQ & HC).
  unfold c, run. rewrite fold_left_app. exact (drain_repairs _ A I HQ HC).
Qed.

(* at quiescence -- nothing awaiting, no pod gone ahead of its notification -- the cache holds
   exactly NewTaskInfo of every delivered pod *)
Lemma quiescent_synced c :
  Inv2 eps c -> (forall i t, c_heap c !! i = Some t -> synced_at c i t) -> Cover c -> c_gone c = ∅ -> Synced eps c.
Proof.
  intros (R & So & Co) HS HC Hg. unfold Synced. apply map_eq. intros i. rewrite lookup_fmap.
  destruct (c_store c !! i) as [p|] eqn:Hp; simpl.
  - destruct (HC i p Hp) as [Hgo|[t Ht]]; [rewrite Hg in Hgo; set_solver|].
    destruct (HS i t Ht) as (q & Hq & ->). congruence.
  - destruct (c_heap c !! i) as [t|] eqn:Ht; [|reflexivity]. destruct (Co i t Ht) as (q & Hq & _). congruence.
Qed.

(* ---------- convergence over the WHOLE alphabet ---------- *)

(* the store and the node objects are tracked through every kind of step *)
Theorem step_tracks2 c e o :
  Inv2 eps c -> step_ok2 e -> Tracks c o -> Tracks (handle eps c e) (apply_event o e).
Proof.
  intros I Hok [Hst Hm]. destruct (step_inv2 eps c e I Hok) as (_ & Hst' & Hne).
  split; [rewrite Hst', Hst; destruct e; reflexivity|].
  destruct e; simpl in Hok; try (apply (mirror_ext c); [apply Hne; reflexivity|exact Hm]).
  - exact (mirror_node_event c v _ (proj1 I) Hok Hm).
  - exact (mirror_remove_node c id _ Hm).
Qed.

Lemma history_tracks2 h : forall c o,
  Inv2 eps c -> hist_ok2 h -> Tracks c o -> Tracks (run eps c h) (fold_left apply_event h o).
Proof.
  induction h as [|e r IH]; intros c o I Hok HT; [exact HT|].
  destruct Hok as [H1 H2]. simpl. apply IH; [exact (proj1 (step_inv2 eps c e I H1))|exact H2|apply step_tracks2; auto].
Qed.

Lemma hist_ok4_2 h : forall c, hist_ok4 c h -> hist_ok2 h.
Proof. induction h as [|e r IH]; intros c H; [exact Logic.I|]. destruct H as [H1 H2]. split; [exact (step_ok4_2 c e H1)|exact (IH _ H2)]. Qed.

(* a history brought to quiescence: a final resync drain, after which nothing is awaiting a pod
   notification and no pod is gone from the API server ahead of its delete notification *)
Definition quiescent (h : list event) : Prop :=
  await_run empty_cache ∅ h = ∅ /\ c_gone (run eps empty_cache (h ++ [EDrainResync])) = ∅.

Lemma quiescent_history_synced h :
  hist_ok4 empty_cache h -> quiescent h ->
  let c := run eps empty_cache (h ++ [EDrainResync]) in
  Inv2 eps c /\ Synced eps c /\ Tracks c (final_objects h).
Proof.
  intros Hok [HA Hg] c. destruct (mixed_failures_repaired h Hok) as (I & HS & HC). fold c in I, HS, HC, Hg.
  split; [exact I|]. split.
  - apply quiescent_synced; auto. intros i t Ht. destruct (HS i t Ht) as [H|H]; [exact H|]. rewrite HA in H. set_solver.
  - assert (Hok2 : hist_ok2 (h ++ [EDrainResync])).
    { pose proof (hist_ok4_2 h _ Hok) as H2. clear -H2. induction h as [|e r IH]; simpl; [auto|]. destruct H2. auto. }
    pose proof (history_tracks2 (h ++ [EDrainResync]) empty_cache no_objs (inv2_empty eps) Hok2 tracks_empty) as HT.
    rewrite fold_left_app in HT. exact HT.
Qed.

(* the copy AddTask leaves on the node (behind C08_bind_accepted / C08_evict_accepted) *)

Lemma node_add_result N t N' t' :
  node_add eps N t = inl (N', t') ->
  t' = set_node t (Some (n_id N)) /\ n_tasks N' = <[t_id t := t']> (n_tasks N).
Proof.
  unfold node_add. repeat case_bool_decide; try discriminate.
  destruct (n_has_node N); simpl.
  - destruct (t_status t); try (intros [= <- <-]; auto).
    destruct (less_equal_names eps _ _ _); [intros [= <- <-]; auto|discriminate].
  - intros [= <- <-]. auto.
Qed.

(* ---------- a history-only sufficient condition for "nothing awaiting" ---------- *)

(* read off the history alone: a successful bind / eviction is acknowledged by a later pod
   notification that carries a node name (one without is the update UpdatePod may ignore) or
   by the pod's delete *)
Definition pend_syn (A : gset positive) (e : event) : gset positive :=
  match e with
  | EBind _ tid _ true | EEvict _ tid true => {[tid]} ∪ A
  | EPod p => if bool_decide (p_node p = None) then A else A ∖ {[p_id p]}
  | EPodDel i => A ∖ {[i]}
  | _ => A
  end.

Lemma await_sub c (A B : gset positive) e :
  Inv2 eps c -> step_ok2 e -> A ⊆ B -> await c A e ⊆ pend_syn B e.
Proof.
  intros I Hok HAB. destruct e; try exact HAB.
  - simpl in Hok. destruct (pod_event_full eps c p I Hok) as (_ & _ & Hid).
    unfold await, pend_syn. destruct (decide (p_node p = None)) as [Hn|Hn].
    + rewrite (bool_decide_eq_true_2 (p_node p = None)) by exact Hn. case_bool_decide; set_solver.
    + rewrite (bool_decide_eq_false_2 (p_node p = None)) by exact Hn.
      destruct Hid as [Hnew|(_ & t0 & _ & _ & Hnn)]; [|contradiction].
      rewrite bool_decide_eq_true_2 by exact Hnew. set_solver.
  - simpl. set_solver.
  - simpl. destruct ok; set_solver.
  - simpl. destruct ok; set_solver.
Qed.

Lemma await_run_sub h : forall c (A B : gset positive),
  Inv2 eps c -> hist_ok4 c h -> A ⊆ B -> await_run c A h ⊆ fold_left pend_syn h B.
Proof.
  induction h as [|e r IH]; intros c A B I Hok HAB; [exact HAB|].
  destruct Hok as [H1 H2]. simpl. apply IH; [|exact H2|].
  - exact (proj1 (step_inv2 eps c e I (step_ok4_2 c e H1))).
  - apply await_sub; auto. exact (step_ok4_2 c e H1).
Qed.

(* ---------- when every bind / eviction fails at the API, nothing is ever awaited ---------- *)

Lemma queued_queuedA c : Queued eps c <-> QueuedA ∅ c.
Proof.
  split; intros H i t Ht.
  - destruct (H i t Ht) as [Hl|Hr]; [left; exact Hl|right; left; exact Hr].
  - destruct (H i t Ht) as [Hl|[Hr|Ha]]; [left; exact Hl|right; exact Hr|]. apply not_elem_of_empty in Ha. contradiction.
Qed.

Lemma step_ok3_4 c e : step_ok3 c e -> step_ok4 c e /\ await c ∅ e = ∅.
Proof.
  destruct e; simpl; try tauto; intros H; (split; [exact H || exact I|]); try (subst ok; reflexivity).
  - case_bool_decide; [apply subseteq_empty_difference_L, empty_subseteq|reflexivity].
  - apply subseteq_empty_difference_L, empty_subseteq.
Qed.

Lemma hist_ok3_4 h : forall c, hist_ok3 eps c h -> hist_ok4 c h /\ await_run c ∅ h = ∅.
Proof.
  induction h as [|e r IH]; intros c Hok; [auto|]. destruct Hok as [H1 H2].
  destruct (step_ok3_4 c e H1) as [H4 HA]. destruct (IH _ H2) as [IH4 IHA]. simpl. rewrite HA. auto.
Qed.

End Mixed.

Lemma elem_of_filterb {X} (f : X -> bool) l x : x ∈ List.filter f l <-> x ∈ l /\ f x = true.
Proof. rewrite !elem_of_list_In. apply filter_In. Qed.

(* ---------- resync attempts whose GET fails ---------- *)

Section GetFailures.
Variable eps : Z.

(* Theorem: a drain during which every GET fails changes nothing but the queue, from which it
   only drops keys of tasks that are no longer held: the invariant, "every task that differs
   from its pod is queued or awaiting" and "no pod still on the API server is dropped" survive *)
Theorem allfail_keeps c (A : gset positive) :
  Inv2 eps c -> QueuedA eps A c -> Cover c ->
  Inv2 eps (drain_resync_allfail c) /\ QueuedA eps A (drain_resync_allfail c) /\ Cover (drain_resync_allfail c).
Proof.
  intros I HP HC. pose proof I as (R & So & Co). split; [apply (inv2_frame eps c); auto|]. split; [|exact HC].
  intros i t Ht. simpl in Ht. destruct (HP i t Ht) as [Hl|[Hr|Ha]]; [left; exact Hl| |right; right; exact Ha].
  destruct (decide (t_job t = no_job)) as [Hnj|Hnj].
  - left. destruct (Co i t Ht) as (p & Hp & _ & B). exists p. split; [exact Hp|exact (B Hnj)].
  - right. left. unfold drain_resync_allfail. cbn [c_errq with_errq]. apply elem_of_filterb.
    split; [exact Hr|]. cbn [fst snd].
    rewrite (stored_some c (t_job t) i t R Ht eq_refl Hnj). reflexivity.
Qed.

End GetFailures.

(* ---------- a batch of bind contexts is the fold of the single-context step ---------- *)

Section Batch.
Variable eps : Z.

(* everything but the resync queue *)
Definition same_but_errq (a b : cache) : Prop :=
  c_store a = c_store b /\ c_gone a = c_gone b /\ c_heap a = c_heap b /\ c_jobs a = c_jobs b /\
  c_nodes a = c_nodes b /\ c_nodelist a = c_nodelist b /\ c_queues a = c_queues b /\
  c_delq a = c_delq b /\ c_nattr a = c_nattr b.

Lemma cache_with_errq a b : same_but_errq a b -> b = with_errq a (c_errq b).
Proof. destruct a, b. unfold same_but_errq, with_errq. simpl. intros (-> & -> & -> & -> & -> & -> & -> & -> & ->). reflexivity. Qed.

(* AddBindTask reads nothing of the resync queue, and the API outcome touches nothing else *)
Lemma bind_task_errq_indep c q j t n ok :
  same_but_errq (fst (bind_task eps (with_errq c q) j t n ok)) (fst (bind_task eps c j t n true)) /\
  snd (bind_task eps (with_errq c q) j t n ok) = snd (bind_task eps c j t n true).
Proof.
  unfold bind_task.
  replace (stored_task (with_errq c q) (Some j) t) with (stored_task c (Some j) t) by reflexivity.
  change (c_jobs (with_errq c q)) with (c_jobs c). change (c_nodes (with_errq c q)) with (c_nodes c).
  destruct (c_jobs c !! j) as [cj|]; [|repeat split; reflexivity].
  destruct (stored_task c (Some j) t) as [st|]; [|repeat split; reflexivity].
  destruct (c_nodes c !! n) as [ni|]; [|repeat split; reflexivity].
  destruct (n_has_node ni); cbn [negb]; [|repeat split; reflexivity].
  unfold job_set_status. cbn [fst snd].
  destruct (node_add eps ni (set_status st Binding)) as [[ni' t2]|err]; [destruct ok|]; repeat split; reflexivity.
Qed.

(* Theorem (C08_bind_batch_is_fold): a batch of bind contexts leaves, in every field EXCEPT the
   resync queue (about which this statement says nothing: see bind_batch_errq below), the state
   the single-context step leaves when folded over the batch, each context with its own outcome *)
Theorem bind_batch_is_fold l : forall c,
  same_but_errq (fst (bind_batch eps c l))
                (fold_left (fun c x => let '(j, t, n, f) := x in fst (bind_task eps c j t n (f =? 1))) l c).
Proof.
  intros c. unfold bind_batch.
  assert (G : forall l (a b : cache) rs, same_but_errq a b ->
     same_but_errq
       (fst (fold_left (fun (acc : cache * list opres) x =>
                 let '(j, t, n, _) := x in
                 let '(c', r) := bind_task eps (fst acc) j t n true in (c', snd acc ++ [r])) l (a, rs)))
       (fold_left (fun c x => let '(j, t, n, f) := x in fst (bind_task eps c j t n (f =? 1))) l b)).
  { clear. induction l as [|[[[j t] n] f] l IH]; intros a b rs Hab; [exact Hab|]. simpl.
    destruct (bind_task eps a j t n true) as [a1 r1] eqn:Ea. cbn [fst snd]. apply IH.
    rewrite (cache_with_errq a b Hab).
    destruct (bind_task_errq_indep a (c_errq b) j t n (f =? 1)) as [H _]. rewrite Ea in H. cbn [fst] in H.
    destruct H as (A1 & A2 & A3 & A4 & A5 & A6 & A7 & A8 & A9). repeat split; congruence. }
  specialize (G l c c [] ltac:(repeat split; reflexivity)).
  destruct (fold_left _ l (c, [])) as [c1 rs]. cbn [fst snd] in *.
  destruct G as (A1 & A2 & A3 & A4 & A5 & A6 & A7 & A8 & A9). repeat split; simpl; assumption.
Qed.

(* ----- the resync queue of a batch ----- *)

Notation bctx := (positive * positive * positive * Z)%type.
Definition bkey (xr : bctx * opres) : positive * positive := let '(j, t, _, _) := fst xr in (j, t).
Definition bfault (xr : bctx * opres) : Z := let '(_, _, _, f) := fst xr in f.

(* the walk over a batch, each context with the API outcome [okf] assigns to its fault code *)
Definition bfold (okf : Z -> bool) (l : list bctx) (acc : cache * list opres) : cache * list opres :=
  fold_left (fun (acc : cache * list opres) x =>
               let '(j, t, n, f) := x in
               let '(c', r) := bind_task eps (fst acc) j t n (okf f) in (c', snd acc ++ [r])) l acc.

(* the independent reference: the batch as a history of single-context bind EVENTS of [run] *)
Definition batch_events (l : list bctx) : list event :=
  map (fun x : bctx => let '(j, t, n, f) := x in EBind j t n (f =? 1)) l.

Lemma bfold_is_run l : forall c rs, fst (bfold (fun f => f =? 1) l (c, rs)) = run eps c (batch_events l).
Proof.
  induction l as [|[[[j t] n] f] l IH]; intros c rs; [reflexivity|].
  unfold bfold in *. simpl. destruct (bind_task eps c j t n (f =? 1)) as [c1 r1] eqn:E. cbn [fst snd].
  rewrite IH. unfold run. simpl. reflexivity.
Qed.

Lemma bind_task_errq c j t n ok :
  c_errq (fst (bind_task eps c j t n ok)) =
  match snd (bind_task eps c j t n ok) with
  | RDone => if ok then c_errq c else enq (c_errq c) (j, t)
  | _ => c_errq c
  end.
Proof.
  unfold bind_task.
  destruct (c_jobs c !! j) as [cj|]; [|reflexivity].
  destruct (stored_task c (Some j) t) as [st|]; [|reflexivity].
  destruct (c_nodes c !! n) as [ni|]; [|reflexivity].
  destruct (n_has_node ni); cbn [negb]; [|reflexivity].
  unfold job_set_status. cbn [fst snd].
  destruct (node_add eps ni (set_status st Binding)) as [[ni' t2]|err]; [destruct ok|]; reflexivity.
Qed.

(* the queue after the walk: what was queued before, and the key of every context the cache
   ACCEPTED whose API side failed *)
Lemma bfold_spec okf l : forall a rs,
  exists rl, snd (bfold okf l (a, rs)) = rs ++ rl /\ length rl = length l /\
    forall k, k ∈ c_errq (fst (bfold okf l (a, rs))) <->
      k ∈ c_errq a \/ exists xr, xr ∈ zip l rl /\ snd xr = RDone /\ okf (bfault xr) = false /\ bkey xr = k.
Proof.
  induction l as [|[[[j t] n] f] l IH]; intros a rs.
  - exists []. rewrite app_nil_r. split; [reflexivity|]. split; [reflexivity|]. intros k. simpl. split; [auto|].
    intros [H|(xr & H & _)]; [exact H|inversion H].
  - unfold bfold. simpl. pose proof (bind_task_errq a j t n (okf f)) as Hq.
    destruct (bind_task eps a j t n (okf f)) as [a1 r1] eqn:E. cbn [fst snd] in *.
    destruct (IH a1 (rs ++ [r1])) as (rl & H1 & H2 & H3). unfold bfold in H1, H3.
    exists (r1 :: rl). split; [rewrite H1, <- app_assoc; reflexivity|]. split; [simpl; congruence|].
    intros k. rewrite H3. simpl. setoid_rewrite elem_of_cons. rewrite Hq. split.
    + intros [Hk|(xr & Hin & Hx)].
      * destruct r1; auto. destruct (okf f) eqn:Ef; auto. apply elem_of_enq in Hk. destruct Hk as [Hk| ->]; auto.
        right. exists ((j, t, n, f), RDone). split; [left; reflexivity|]. repeat split; auto.
      * right. exists xr. split; [right; exact Hin|exact Hx].
    + intros [Hk|(xr & [->|Hin] & Hd & Hf & Hk)].
      * left. destruct r1; auto. destruct (okf f); auto. apply elem_of_enq; auto.
      * left. cbn in Hd, Hf, Hk. subst r1. rewrite Hf. apply elem_of_enq; auto.
      * right. exists xr. auto.
Qed.

Lemma enq_fold_members {X} (g : X -> positive * positive) xs : forall q k,
  k ∈ fold_left (fun q x => enq q (g x)) xs q <-> k ∈ q \/ exists x, x ∈ xs /\ g x = k.
Proof.
  induction xs as [|x xs IH]; intros q k; simpl.
  - split; [auto|]. intros [H|(x & H & _)]; [exact H|inversion H].
  - rewrite IH, elem_of_enq. setoid_rewrite elem_of_cons. split.
    + intros [[H| ->]|(y & H & E)]; [auto|right; exists x; auto|right; exists y; auto].
    + intros [H|(y & [->|H] & E)]; [auto|auto|right; exists y; auto].
Qed.

Lemma bfold_indep okf1 okf2 l : forall a b rs, same_but_errq a b ->
  same_but_errq (fst (bfold okf1 l (a, rs))) (fst (bfold okf2 l (b, rs))) /\
  snd (bfold okf1 l (a, rs)) = snd (bfold okf2 l (b, rs)).
Proof.
  induction l as [|[[[j t] n] f] l IH]; intros a b rs Hab; [split; [exact Hab|reflexivity]|].
  unfold bfold. simpl.
  destruct (bind_task eps a j t n (okf1 f)) as [a1 r1] eqn:Ea.
  destruct (bind_task eps b j t n (okf2 f)) as [b1 r2] eqn:Eb. cbn [fst snd].
  assert (H : same_but_errq a1 b1 /\ r1 = r2).
  { pose proof (cache_with_errq b a ltac:(destruct Hab as (A1 & A2 & A3 & A4 & A5 & A6 & A7 & A8 & A9); repeat split; congruence)) as Ha.
    pose proof (bind_task_errq_indep b (c_errq a) j t n (okf1 f)) as [P1 P2]. rewrite <- Ha, Ea in P1, P2.
    pose proof (bind_task_errq_indep b (c_errq b) j t n (okf2 f)) as [Q1 Q2].
    replace (with_errq b (c_errq b)) with b in Q1, Q2 by (destruct b; reflexivity). rewrite Eb in Q1, Q2.
    cbn [fst snd] in *. split; [|congruence].
    destruct P1 as (A1 & A2 & A3 & A4 & A5 & A6 & A7 & A8 & A9). destruct Q1 as (B1 & B2 & B3 & B4 & B5 & B6 & B7 & B8 & B9).
    repeat split; congruence. }
  destruct H as [H ->]. apply (IH a1 b1 (rs ++ [r2]) H).
Qed.

Lemma bind_batch_unfold c l :
  bind_batch eps c l =
  let cr := bfold (fun _ => true) l (c, []) in
  let acc := List.filter (fun xr : bctx * opres => match snd xr with RDone => true | _ => false end) (zip l (snd cr)) in
  (with_errq (fst cr)
     (fold_left (fun q xr => enq q (bkey xr))
        (List.filter (fun xr => (bfault xr =? 2) || (bfault xr =? 3)) acc ++
         List.filter (fun xr => (bfault xr =? 0) || (bfault xr =? 4)) acc) (c_errq (fst cr))), snd cr).
Proof.
  unfold bind_batch, bfold. cbv beta zeta.
  destruct (fold_left _ l (c, [])) as [c1 rs]. reflexivity.
Qed.

(* fault codes as the decoder admits them *)
Definition faults_ok (l : list bctx) : Prop := Forall (fun x : bctx => 0 <= snd x <= 4) l.

(* the queue a batch builds from its contexts [xs]: pre-bind failures first, then bind failures;
   as a set, the key of every accepted context whose fault code is not 1 *)
Lemma batch_queue_members (xs : list (bctx * opres)) q k :
  (forall xr, xr ∈ xs -> 0 <= bfault xr <= 4) ->
  k ∈ fold_left (fun q xr => enq q (bkey xr))
       (List.filter (fun xr => (bfault xr =? 2) || (bfault xr =? 3))
          (List.filter (fun xr : bctx * opres => match snd xr with RDone => true | _ => false end) xs) ++
        List.filter (fun xr => (bfault xr =? 0) || (bfault xr =? 4))
          (List.filter (fun xr : bctx * opres => match snd xr with RDone => true | _ => false end) xs)) q <->
  k ∈ q \/ exists xr, xr ∈ xs /\ snd xr = RDone /\ bfault xr <> 1 /\ bkey xr = k.
Proof.
  intros Hr. rewrite enq_fold_members. apply or_iff_compat_l. split.
  - intros (xr & Hin & Hk). exists xr. rewrite elem_of_app, !elem_of_filterb in Hin.
    assert (Hd : xr ∈ xs /\ snd xr = RDone).
    { destruct Hin as [[[Hin H] _]|[[Hin H] _]]; (split; [exact Hin|]); destruct (snd xr); try discriminate; reflexivity. }
    split; [tauto|]. split; [tauto|]. split; [lia|exact Hk].
  - intros (xr & Hin & Hd & Hne & Hk). exists xr. split; [|exact Hk]. specialize (Hr xr Hin).
    rewrite elem_of_app, !elem_of_filterb, Hd.
    destruct (decide (bfault xr = 2 \/ bfault xr = 3)); [left|right]; (split; [split; [exact Hin|reflexivity]|lia]).
Qed.

(* Theorem (C08_bind_batch_errq): a batch leaves, in every field but the resync queue, the state
   of the HISTORY of single-context bind events, the same per-context results, and a resync
   queue with the same MEMBERS: what was queued before plus the key of every accepted context
   whose pre-binder or binder failed -- every one of them, wherever it stands in the batch *)
Theorem bind_batch_errq l c : faults_ok l ->
  let b := bind_batch eps c l in
  let f := bfold (fun f => f =? 1) l (c, []) in
  fst f = run eps c (batch_events l) /\
  same_but_errq (fst b) (fst f) /\ snd b = snd f /\
  (forall k, k ∈ c_errq (fst b) <-> k ∈ c_errq (fst f)) /\
  (forall k, k ∈ c_errq (fst b) <->
     k ∈ c_errq c \/ exists xr, xr ∈ zip l (snd b) /\ snd xr = RDone /\ bfault xr <> 1 /\ bkey xr = k).
Proof.
  intros Hf b f. split; [apply bfold_is_run|].
  destruct (bfold_indep (fun _ => true) (fun f => f =? 1) l c c [] ltac:(repeat split; reflexivity)) as [S1 S2].
  destruct (bfold_spec (fun _ => true) l c []) as (rl1 & R1 & L1 & M1).
  destruct (bfold_spec (fun f => f =? 1) l c []) as (rl2 & R2 & L2 & M2).
  assert (Hs : snd b = snd f) by (unfold b; rewrite bind_batch_unfold; exact S2).
  assert (E : forall k, k ∈ c_errq (fst b) <->
     k ∈ c_errq c \/ exists xr, xr ∈ zip l (snd b) /\ snd xr = RDone /\ bfault xr <> 1 /\ bkey xr = k).
  { intros k. unfold b. rewrite bind_batch_unfold. cbv zeta. cbn [fst snd]. change (c_errq (with_errq ?x ?q)) with q.
    rewrite batch_queue_members, M1.
    - split; [intros [[H|(xr & _ & _ & Hx & _)]|H]; [auto|discriminate|auto]|intros [H|H]; auto].
    - intros [x r] Hin. apply elem_of_zip_l in Hin. unfold faults_ok in Hf. rewrite Forall_forall in Hf.
      specialize (Hf x Hin). unfold bfault. cbn [fst]. destruct x as [[[? ?] ?] ff]. exact Hf. }
  split; [|split; [exact Hs|split; [|exact E]]].
  - unfold b. rewrite bind_batch_unfold. destruct S1 as (A1 & A2 & A3 & A4 & A5 & A6 & A7 & A8 & A9). repeat split; assumption.
  - simpl in R2. rewrite <- R2 in M2. intros k. rewrite E, Hs. unfold f. rewrite M2.
    split; intros [H|(xr & Hin & Hd & Hne & Hk)]; auto; right; exists xr; repeat split; auto; apply Z.eqb_neq; exact Hne.
Qed.

(* ----- histories WITH batches ----- *)

(* same fields, same members of the resync queue *)
Definition errq_equiv (a b : cache) : Prop := same_but_errq a b /\ forall k, k ∈ c_errq a <-> k ∈ c_errq b.

(* nothing the theorems below speak about depends on the ORDER of the resync queue *)
Lemma errq_equiv_keeps a b A :
  errq_equiv a b -> Inv2 eps b -> QueuedA eps A b -> Cover b -> Inv2 eps a /\ QueuedA eps A a /\ Cover a.
Proof.
  intros [(A1 & A2 & A3 & A4 & A5 & A6 & A7 & A8 & A9) M] I HQ HC. split; [apply (inv2_frame eps b a); auto|]. split.
  - intros i t Ht. rewrite A3 in Ht. destruct (HQ i t Ht) as [(p & H1 & H2)|[H|H]].
    + left. exists p. rewrite A1. auto.
    + right. left. apply M. exact H.
    + right. right. exact H.
  - intros i p Hp. rewrite A1 in Hp. rewrite A2, A3. exact (HC i p Hp).
Qed.

Lemma batch_events_ok l : forall c, hist_ok4 eps c (batch_events l).
Proof. induction l as [|[[[j t] n] f] l IH]; intros c; simpl; [exact I|]. split; [exact I|apply IH]. Qed.

(* Theorem (C08_bind_batch_keeps): a batch keeps the invariant, "every divergent task is queued
   or awaits its notification" and the coverage of the informer store, with the awaited set of
   the corresponding history of single binds *)
Theorem bind_batch_keeps l c A : faults_ok l ->
  Inv2 eps c -> QueuedA eps A c -> Cover c ->
  let c' := fst (bind_batch eps c l) in
  Inv2 eps c' /\ QueuedA eps (await_run eps c A (batch_events l)) c' /\ Cover c'.
Proof.
  intros Hf I HQ HC c'.
  destruct (bind_batch_errq l c Hf) as (E1 & E2 & _ & E4 & _). cbv zeta in *.
  destruct (history_queuedA eps (batch_events l) c A I HQ HC (batch_events_ok l c)) as (I1 & Q1 & C1).
  rewrite <- E1 in I1, Q1, C1. apply (errq_equiv_keeps _ _ _ (conj E2 E4)); assumption.
Qed.

Inductive bop := BEv (e : event) | BBatch (l : list bctx).
Definition bstep (c : cache) (o : bop) : cache :=
  match o with BEv e => handle eps c e | BBatch l => fst (bind_batch eps c l) end.
Definition brun (c : cache) (h : list bop) : cache := fold_left bstep h c.
Definition bstep_ok (c : cache) (o : bop) : Prop :=
  match o with BEv e => step_ok4 c e | BBatch l => faults_ok l end.
Fixpoint bhist_ok (c : cache) (h : list bop) : Prop :=
  match h with [] => True | o :: r => bstep_ok c o /\ bhist_ok (bstep c o) r end.
Definition bawait (c : cache) (A : gset positive) (o : bop) : gset positive :=
  match o with BEv e => await eps c A e | BBatch l => await_run eps c A (batch_events l) end.
Fixpoint bawait_run (c : cache) (A : gset positive) (h : list bop) : gset positive :=
  match h with [] => A | o :: r => bawait_run (bstep c o) (bawait c A o) r end.

Lemma bhistory_queuedA h : forall c A, Inv2 eps c -> QueuedA eps A c -> Cover c -> bhist_ok c h ->
  Inv2 eps (brun c h) /\ QueuedA eps (bawait_run c A h) (brun c h) /\ Cover (brun c h).
Proof.
  induction h as [|o r IH]; intros c A I HP HC Hok; [auto|].
  destruct Hok as [H1 H2]. simpl.
  assert (S : Inv2 eps (bstep c o) /\ QueuedA eps (bawait c A o) (bstep c o) /\ Cover (bstep c o)).
  { destruct o as [e|l]; simpl in *.
    - exact (history_queuedA eps [e] c A I HP HC (conj H1 Logic.I)).
    - exact (bind_batch_keeps l c A H1 I HP HC). }
  destruct S as (I1 & Q1 & C1). apply IH; assumption.
Qed.

(* ----- the walk that stops at the first pre-bind failure (seed C01-r7-1: `break` for `continue`
   in executePreBinds): the contexts behind the failure are neither sent to the binder nor
   resynced.  It differs from [bind_batch] in the resync queue only ----- *)
Fixpoint walk_break (xs : list (bctx * opres)) : list (bctx * opres) :=
  match xs with
  | [] => []
  | x :: r => if (bfault x =? 2) || (bfault x =? 3) then [x] else x :: walk_break r
  end.
Definition bind_batch_break (c : cache) (l : list bctx) : cache * list opres :=
  let cr := bfold (fun _ => true) l (c, []) in
  let acc := walk_break (List.filter (fun xr : bctx * opres => match snd xr with RDone => true | _ => false end) (zip l (snd cr))) in
  (with_errq (fst cr)
     (fold_left (fun q xr => enq q (bkey xr))
        (List.filter (fun xr => (bfault xr =? 2) || (bfault xr =? 3)) acc ++
         List.filter (fun xr => (bfault xr =? 0) || (bfault xr =? 4)) acc) (c_errq (fst cr))), snd cr).

(* a statement with no clause on the queue ([bind_batch_is_fold]) does not tell the two apart *)
Lemma bind_batch_break_same_but_errq c l :
  same_but_errq (fst (bind_batch_break c l)) (fst (bind_batch eps c l)) /\
  snd (bind_batch_break c l) = snd (bind_batch eps c l).
Proof. rewrite bind_batch_unfold. unfold bind_batch_break. cbv zeta. cbn [fst snd]. repeat split; reflexivity. Qed.

(* ----- law 105 ----- *)
Lemma law_failed_binds_queued_spec c keys :
  law_failed_binds_queued c keys = true <-> forall k, k ∈ keys -> k ∈ c_errq c.
Proof.
  unfold law_failed_binds_queued. rewrite forallb_forall. split.
  - intros H k Hk. apply elem_of_list_In in Hk. specialize (H k Hk). apply bool_decide_eq_true in H. exact H.
  - intros H k Hk. apply bool_decide_eq_true. apply H. apply elem_of_list_In. exact Hk.
Qed.

(* the keys the harness hands to law 105: the accepted contexts whose API side was scripted to fail *)
Definition failed_keys (l : list bctx) (rs : list opres) : list (positive * positive) :=
  map bkey (List.filter (fun xr : bctx * opres => match snd xr with RDone => negb (bfault xr =? 1) | _ => false end) (zip l rs)).

(* the model's batch satisfies law 105, and queues nothing else: the law's keys and the old
   queue are exactly the members of the new queue *)
Theorem bind_batch_law105 l c : faults_ok l ->
  let b := bind_batch eps c l in
  law_failed_binds_queued (fst b) (failed_keys l (snd b)) = true /\
  forall k, k ∈ c_errq (fst b) <-> k ∈ c_errq c \/ k ∈ failed_keys l (snd b).
Proof.
  intros Hf b. destruct (bind_batch_errq l c Hf) as (_ & _ & _ & _ & E). fold b in E.
  assert (K : forall k, k ∈ failed_keys l (snd b) <->
                exists xr, xr ∈ zip l (snd b) /\ snd xr = RDone /\ bfault xr <> 1 /\ bkey xr = k).
  { intros k. unfold failed_keys. rewrite elem_of_list_fmap. split.
    - intros (xr & -> & Hin). apply elem_of_filterb in Hin as [Hin Hb].
      exists xr. split; [exact Hin|]. destruct (snd xr); try discriminate.
      split; [reflexivity|]. split; [|reflexivity]. apply negb_true_iff, Z.eqb_neq in Hb. exact Hb.
    - intros (xr & Hin & Hd & Hne & Hk). exists xr. split; [auto|]. apply elem_of_filterb.
      split; [exact Hin|]. rewrite Hd. apply negb_true_iff, Z.eqb_neq. exact Hne. }
  split.
  - apply law_failed_binds_queued_spec. intros k Hk. apply E. right. apply K. exact Hk.
  - intros k. rewrite E, K. reflexivity.
Qed.

End Batch.
