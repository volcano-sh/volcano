(* C08, PriorityClass part of the cache: model and proofs.

   Modelled code: pkg/scheduler/cache/event_handlers.go AddPriorityClass /
   UpdatePriorityClass / DeletePriorityClass, addPriorityClass / deletePriorityClass
   (after fix: the default is the best class marked globalDefault, recomputed when the
   default goes away), and the part of Snapshot() that reads them (cache.go cloneJob:
   job.Priority = priority class of PodGroup.Spec.PriorityClassName, else defaultPriority).

   The state is kept beside [cache] (the handlers touch nothing else): the
   classes, the current default, and the priorityClassName of every job's PodGroup. *)
From stdpp Require Import gmap.
From Coq Require Import ZArith Lia.
Open Scope Z_scope.

Record pcobj := mkPC { pc_id : positive; pc_value : Z; pc_global : bool }.
Global Instance pcobj_eq_dec : EqDecision pcobj.
Proof. solve_decision. Defined.

Record pstate := mkPS {
  ps_classes : gmap positive pcobj;     (* sc.PriorityClasses, by name *)
  ps_default : option pcobj;            (* sc.defaultPriorityClass (defaultPriority = its value, 0 if nil) *)
  ps_pgclass : gmap positive Z;         (* job -> PodGroup.Spec.PriorityClassName (0 = "") *)
}.
Definition empty_ps : pstate := mkPS ∅ None ∅.

(* which of two classes marked globalDefault is THE default: the lower value, then the
   lower name (upstream's admission plugin picks the lowest value as well) *)
Definition better (a b : pcobj) : bool :=
  bool_decide (pc_value a < pc_value b) ||
  (bool_decide (pc_value a = pc_value b) && bool_decide ((pc_id a < pc_id b)%positive)).

Definition pick (pc : pcobj) (acc : option pcobj) : option pcobj :=
  if pc_global pc then
    match acc with
    | None => Some pc
    | Some b => if better pc b then Some pc else Some b
    end
  else acc.

(* the default recomputed from the classes the cache holds *)
Definition pick_default (m : gmap positive pcobj) : option pcobj :=
  fold_right pick None (map snd (map_to_list m)).

(* addPriorityClass *)
Definition prio_add (s : pstate) (pc : pcobj) : pstate :=
  mkPS (<[pc_id pc := pc]> (ps_classes s)) (pick pc (ps_default s)) (ps_pgclass s).

(* deletePriorityClass(pc): [pc] is the object the informer hands over *)
Definition prio_del (s : pstate) (pc : pcobj) : pstate :=
  let m := delete (pc_id pc) (ps_classes s) in
  mkPS m
       (match ps_default s with
        | Some d => if bool_decide (pc_id d = pc_id pc) then pick_default m else Some d
        | None => None
        end)
       (ps_pgclass s).

(* before the fix: the last class added with globalDefault wins; deleting ANY class marked
   globalDefault clears the default, whatever other default class is still there *)
Definition prio_add_prefix (s : pstate) (pc : pcobj) : pstate :=
  mkPS (<[pc_id pc := pc]> (ps_classes s)) (if pc_global pc then Some pc else ps_default s) (ps_pgclass s).
Definition prio_del_prefix (s : pstate) (pc : pcobj) : pstate :=
  mkPS (delete (pc_id pc) (ps_classes s)) (if pc_global pc then None else ps_default s) (ps_pgclass s).

Inductive pevent :=
| PClass (pc : pcobj)                 (* informer delivers a version: Add, or Update(old, new) = delete old; add new *)
| PClassDel (id : positive)           (* Delete(last delivered version) *)
| PPodGroup (job : positive) (cls : Z) (* a PodGroup version names a priority class (0 = none) *)
| PPodGroupDel (job : positive).

Definition phandle_with (addf delf : pstate -> pcobj -> pstate) (s : pstate) (e : pevent) : pstate :=
  match e with
  | PClass pc =>
    match ps_classes s !! pc_id pc with
    | Some old => addf (delf s old) pc
    | None => addf s pc
    end
  | PClassDel id =>
    match ps_classes s !! id with
    | Some old => delf s old
    | None => s
    end
  | PPodGroup j cls => mkPS (ps_classes s) (ps_default s) (<[j := cls]> (ps_pgclass s))
  | PPodGroupDel j => mkPS (ps_classes s) (ps_default s) (delete j (ps_pgclass s))
  end.
Definition phandle := phandle_with prio_add prio_del.
Definition phandle_prefix := phandle_with prio_add_prefix prio_del_prefix.
Definition prun (s : pstate) (h : list pevent) : pstate := fold_left phandle h s.
Definition prun_prefix (s : pstate) (h : list pevent) : pstate := fold_left phandle_prefix h s.

(* Snapshot(): the priority of a job that has a PodGroup *)
Definition default_priority (s : pstate) : Z :=
  match ps_default s with Some d => pc_value d | None => 0 end.
Definition job_priority (s : pstate) (j : positive) : Z :=
  match ps_pgclass s !! j with
  | Some cls =>
    if 0 <? cls then
      match ps_classes s !! Z.to_pos cls with
      | Some pc => pc_value pc
      | None => default_priority s
      end
    else default_priority s
  | None => default_priority s
  end.

(* the final PriorityClass objects of a history *)
Definition papply (m : gmap positive pcobj) (e : pevent) : gmap positive pcobj :=
  match e with
  | PClass pc => <[pc_id pc := pc]> m
  | PClassDel id => delete id m
  | _ => m
  end.
Definition papply_pg (m : gmap positive Z) (e : pevent) : gmap positive Z :=
  match e with
  | PPodGroup j cls => <[j := cls]> m
  | PPodGroupDel j => delete j m
  | _ => m
  end.

(* ---------- proofs ---------- *)

(* [b] is the best class marked globalDefault among [m] *)
Definition is_best (m : gmap positive pcobj) (o : option pcobj) : Prop :=
  match o with
  | Some b => m !! pc_id b = Some b /\ pc_global b = true /\
              forall i x, m !! i = Some x -> pc_global x = true -> x = b \/ better b x = true
  | None => forall i x, m !! i = Some x -> pc_global x = false
  end.

Definition keyed (m : gmap positive pcobj) : Prop := forall i x, m !! i = Some x -> pc_id x = i.

Lemma better_spec a b :
  better a b = true <-> pc_value a < pc_value b \/ (pc_value a = pc_value b /\ (pc_id a < pc_id b)%positive).
Proof. unfold better. rewrite orb_true_iff, andb_true_iff, !bool_decide_eq_true. reflexivity. Qed.

Lemma better_total a b : pc_id a <> pc_id b -> better a b = true \/ better b a = true.
Proof. rewrite !better_spec. lia. Qed.

Lemma better_trans a b c : better a b = true -> better b c = true -> better a c = true.
Proof. rewrite !better_spec. lia. Qed.

Lemma better_asym a b : better a b = true -> better b a = true -> False.
Proof. rewrite !better_spec. lia. Qed.

(* the best class is unique *)
Lemma is_best_unique m o o' : is_best m o -> is_best m o' -> o = o'.
Proof.
  destruct o as [b|], o' as [b'|]; simpl.
  - intros (H1 & H2 & H3) (H1' & H2' & H3').
    destruct (H3 _ _ H1' H2') as [->|Hb]; [reflexivity|].
    destruct (H3' _ _ H1 H2) as [->|Hb']; [reflexivity|]. exfalso. exact (better_asym _ _ Hb Hb').
  - intros (H1 & H2 & _) H'. rewrite (H' _ _ H1) in H2. discriminate.
  - intros H (H1 & H2 & _). rewrite (H _ _ H1) in H2. discriminate.
  - reflexivity.
Qed.

Lemma pick_best m o pc :
  m !! pc_id pc = None -> is_best m o -> is_best (<[pc_id pc := pc]> m) (pick pc o).
Proof.
  intros Hn Hb.
  assert (Hold : forall b, m !! pc_id b = Some b -> <[pc_id pc := pc]> m !! pc_id b = Some b).
  { intros b Hb'. rewrite lookup_insert_ne; [exact Hb'|congruence]. }
  unfold pick. destruct (pc_global pc) eqn:Hg, o as [b|]; simpl in *.
  - destruct Hb as (H1 & H2 & H3). destruct (better pc b) eqn:Hpb.
    + (* pc beats the old best, hence everything the old best beat *)
      split; [apply lookup_insert|]. split; [exact Hg|]. intros i x Hx Hgx.
      apply lookup_insert_Some in Hx as [[_ <-]|[_ Hx]]; [auto|]. right.
      destruct (H3 i x Hx Hgx) as [->|Hbx]; [exact Hpb|exact (better_trans _ _ _ Hpb Hbx)].
    + split; [auto|]. split; [exact H2|]. intros i x Hx Hgx.
      apply lookup_insert_Some in Hx as [[_ <-]|[_ Hx]]; [|exact (H3 i x Hx Hgx)]. right.
      destruct (better_total b pc) as [Hy|Hy]; congruence.
  - split; [apply lookup_insert|]. split; [exact Hg|]. intros i x Hx Hgx.
    apply lookup_insert_Some in Hx as [[_ <-]|[_ Hx]]; [auto|]. rewrite (Hb i x Hx) in Hgx. discriminate.
  - destruct Hb as (H1 & H2 & H3). split; [auto|]. split; [exact H2|]. intros i x Hx Hgx.
    apply lookup_insert_Some in Hx as [[_ <-]|[_ Hx]]; [congruence|exact (H3 i x Hx Hgx)].
  - intros i x Hx. apply lookup_insert_Some in Hx as [[_ <-]|[_ Hx]]; [exact Hg|exact (Hb i x Hx)].
Qed.

(* the classes of a keyed map are picked one by one, each under its own name *)
Lemma pick_default_best m : keyed m -> is_best m (pick_default m).
Proof.
  unfold pick_default.
  replace (fold_right pick None (map snd (map_to_list m))) with (map_fold (fun _ => pick) None m).
  2:{ unfold map_fold. simpl. induction (map_to_list m) as [|[i x] l IH]; simpl; congruence. }
  apply (map_fold_ind (fun o m => keyed m -> is_best m o)).
  - intros _ i x Hx. rewrite lookup_empty in Hx. discriminate.
  - intros i x m' r Hn IH Hk.
    assert (pc_id x = i) as <- by (apply Hk, lookup_insert).
    apply pick_best; [exact Hn|]. apply IH. intros j y Hy. apply Hk. rewrite lookup_insert_ne; [exact Hy|congruence].
Qed.

(* the invariant of the PriorityClass part: the classes are keyed by name and the default is
   the best class marked globalDefault *)
Definition PInv (s : pstate) : Prop := keyed (ps_classes s) /\ is_best (ps_classes s) (ps_default s).

Lemma pinv_empty : PInv empty_ps.
Proof. split; [intros i x Hx|intros i x Hx]; simpl in Hx; rewrite lookup_empty in Hx; discriminate. Qed.

Lemma prio_add_inv s pc : PInv s -> ps_classes s !! pc_id pc = None -> PInv (prio_add s pc).
Proof.
  intros [Hk Hb] Hn. split; simpl.
  - intros i x Hx. destruct (decide (i = pc_id pc)) as [->|Hne].
    + rewrite lookup_insert in Hx. congruence.
    + rewrite lookup_insert_ne in Hx by congruence. exact (Hk i x Hx).
  - apply pick_best; auto.
Qed.

Lemma prio_del_inv s old : PInv s -> ps_classes s !! pc_id old = Some old -> PInv (prio_del s old).
Proof.
  intros [Hk Hb] Hold.
  assert (Hk' : keyed (delete (pc_id old) (ps_classes s))).
  { intros i x Hx. rewrite lookup_delete_Some in Hx. apply Hk. tauto. }
  split; [exact Hk'|]. simpl. destruct (ps_default s) as [d|] eqn:Hd; simpl in *.
  - case_bool_decide as E.
    + apply pick_default_best. exact Hk'.
    + destruct Hb as (H1 & H2 & H3). split; [rewrite lookup_delete_ne by congruence; exact H1|]. split; [exact H2|].
      intros i x Hx. rewrite lookup_delete_Some in Hx. apply (H3 i x). tauto.
  - intros i x Hx. rewrite lookup_delete_Some in Hx. apply (Hb i x). tauto.
Qed.

(* Theorem: every PriorityClass / PodGroup notification keeps the invariant and the classes
   and class names the cache holds are those of the final objects *)
Theorem phandle_inv s e :
  PInv s -> PInv (phandle s e) /\
  ps_classes (phandle s e) = papply (ps_classes s) e /\ ps_pgclass (phandle s e) = papply_pg (ps_pgclass s) e.
Proof.
  intros I. destruct e as [pc|id|j cls|j]; unfold phandle, phandle_with; simpl.
  - destruct (ps_classes s !! pc_id pc) as [old|] eqn:Hold.
    + assert (Hido : pc_id old = pc_id pc) by (apply (proj1 I); exact Hold).
      rewrite <- Hido in Hold.
      pose proof (prio_del_inv s old I Hold) as I1.
      split; [apply prio_add_inv; [exact I1|simpl; rewrite Hido; apply lookup_delete]|].
      simpl. rewrite Hido, insert_delete_insert. auto.
    + split; [apply prio_add_inv; auto|auto].
  - destruct (ps_classes s !! id) as [old|] eqn:Hold.
    + assert (Hido : pc_id old = id) by (apply (proj1 I); exact Hold). rewrite <- Hido in Hold.
      split; [exact (prio_del_inv s old I Hold)|]. simpl. rewrite Hido. auto.
    + split; [exact I|]. split; [symmetry; apply delete_notin; exact Hold|reflexivity].
  - split; [exact I|auto].
  - split; [exact I|auto].
Qed.

Lemma prun_inv h : forall s, PInv s ->
  PInv (prun s h) /\ ps_classes (prun s h) = fold_left papply h (ps_classes s) /\
  ps_pgclass (prun s h) = fold_left papply_pg h (ps_pgclass s).
Proof.
  induction h as [|e r IH]; intros s I; [auto|]. simpl.
  destruct (phandle_inv s e I) as (I1 & E1 & E2). destruct (IH _ I1) as (I2 & F1 & F2).
  split; [exact I2|]. rewrite F1, F2, E1, E2. auto.
Qed.

(* two classes marked globalDefault: with the later one deleted the default is the other one,
   and the order of arrival does not matter (the handlers before the fix lost the default:
   Props C08_priority_prefix_refuted) *)
Definition pcA : pcobj := mkPC 1 10 true.
Definition pcB : pcobj := mkPC 2 20 true.

Example priority_fixed :
  job_priority (prun empty_ps [PClass pcA; PClass pcB; PClassDel 2%positive]) 1%positive = 10 /\
  job_priority (prun empty_ps [PClass pcB; PClass pcA]) 1%positive = 10.
Proof. split; vm_compute; reflexivity. Qed.
