(* C08 proofs, part 2: what the scheduling cycle does to the cache (AddBindTask,
   Evict), the repair-queue drains as whole folds, the invariant over the WHOLE
   event alphabet, Snapshot. *)
From stdpp Require Import gmap.
From Coq Require Import ZArith Lia.
From V Require Import Base.Codec Base.Res Base.ResLemmas Sched.LedgerModel Sched.LedgerInv C08.Model C08.Lemmas.
Open Scope Z_scope.

(* ---------- small facts about TaskInfo updates ---------- *)

Lemma job_add_set_node J t n : job_add J (set_node t n) = job_add J t.
Proof. reflexivity. Qed.

Lemma set_status_back st s : set_status (set_status st s) (t_status st) = st.
Proof. destruct st; reflexivity. Qed.

Lemma node_add_set_node eps N t :
  t_node t = None \/ t_node t = Some (n_id N) ->
  node_add eps N (set_node t (Some (n_id N))) = node_add eps N t.
Proof.
  intros H. unfold node_add.
  rewrite (bool_decide_eq_false_2 (t_node (set_node t (Some (n_id N))) <> None /\ _)) by (simpl; intros [_ Hx]; congruence).
  rewrite (bool_decide_eq_false_2 (t_node t <> None /\ _)) by (intros [H1 H2]; destruct H; congruence).
  reflexivity.
Qed.

(* the task a (job, id) key names *)
Lemma stored_task_facts c j i st :
  Rep c -> stored_task c (Some j) i = Some st ->
  exists cj, c_jobs c !! j = Some cj /\ c_heap c !! i = Some st /\ t_id st = i /\ t_job st = j /\
             j <> no_job /\ task_wf st.
Proof.
  intros R. unfold stored_task. destruct (c_jobs c !! j) as [cj|] eqn:Hj; [|discriminate].
  case_bool_decide as Hin; [|discriminate]. intros Hs. exists cj. split; [reflexivity|]. split; [exact Hs|].
  destruct (rp_wf c R i st Hs) as [Hid Hw]. split; [exact Hid|].
  apply (jr_tasks _ _ _ (rp_jobs c R j cj Hj)) in Hin. destruct Hin as (t & Ht & Htj).
  rewrite Hs in Ht. injection Ht as <-. split; [exact Htj|]. split; [|exact Hw].
  intros ->. rewrite (rp_nojob c R) in Hj. discriminate.
Qed.

(* ---------- a held task changes its status / node: JobInfo.UpdateTaskStatus + the node side ---------- *)

(* the job side is DeleteTaskInfo then AddTaskInfo on the one entry; the node side is the caller's *)
Lemma restatus_rep c jid cj st t2 N' :
  Rep c -> c_jobs c !! jid = Some cj -> c_heap c !! t_id st = Some st -> t_job st = jid ->
  t_id t2 = t_id st -> t_job t2 = jid -> task_wf t2 ->
  NodesRep (<[t_id st := t2]> (c_heap c)) N' ->
  Rep (with_hjn c (<[t_id st := t2]> (c_heap c))
                  (<[jid := upd_job cj (job_add (job_del (cj_job cj) st) t2)]> (c_jobs c)) N').
Proof.
  intros R Hcj Hs Hj Hid2 Hj2 Hw2 RN'. apply rep_parts in R as (W & RJ & _). apply rep_parts. simpl.
  destruct (proj1 RJ jid cj Hcj) as [HJ Hjn].
  assert (HT : <[t_id st := t2]> (c_heap c) = <[t_id t2 := t2]> (delete (t_id st) (c_heap c)))
    by (rewrite Hid2; symmetry; apply insert_delete_insert).
  split; [rewrite HT; apply heap_wf_insert; [apply heap_wf_delete; exact W|exact Hw2]|]. split; [|exact RN'].
  rewrite HT, <- (insert_insert (c_jobs c) jid _ (upd_job cj (job_del (cj_job cj) st))).
  apply (fam_insert job_entry_insert_other).
  - apply (fam_delete job_entry_delete_other _ _ _ st); [exact RJ|exact Hs|intros m; apply jown_only; exact Hj|].
    split; [|exact Hjn]. simpl. apply job_del_rep; auto.
  - rewrite Hid2. apply lookup_delete.
  - intros m. apply jown_only. exact Hj2.
  - split; [|exact Hjn]. simpl. apply job_add_rep; auto; [apply job_del_rep; auto|rewrite Hid2; apply lookup_delete].
Qed.

(* what a step of the scheduling cycle on the task [tid] of job [jid] may have done *)
Definition cycle_post (c c' : cache) (jid tid : positive) : Prop :=
  Rep c' /\ c_store c' = c_store c /\ c_gone c' = c_gone c /\
  jobs_ext (c_jobs c) (c_jobs c') /\ nodes_ext (c_nodes c) (c_nodes c') /\
  (forall i, i <> tid -> c_heap c' !! i = c_heap c !! i) /\
  match c_heap c !! tid with
  | Some st => exists t', c_heap c' !! tid = Some t' /\ t_job t' = t_job st /\ t_req t' = t_req st /\
                          (t' = st \/ (t_job st = jid /\ jid <> no_job))
  | None => c_heap c' !! tid = None
  end.

Lemma cycle_post_refl c jid tid : Rep c -> cycle_post c c jid tid.
Proof.
  intros R. split; [exact R|]. repeat (split; [reflexivity || apply jobs_ext_refl || apply nodes_ext_refl || auto|]).
  destruct (c_heap c !! tid) as [st|]; [|reflexivity]. exists st. auto.
Qed.

(* the held task [st] of job [jid] became [t2]; one job entry and one node entry were replaced *)
Lemma cycle_post_restatus c c2 jid tid cj cj2 st t2 n ni ni2 :
  c_heap c2 = <[tid := t2]> (c_heap c) -> c_jobs c2 = <[jid := cj2]> (c_jobs c) ->
  c_nodes c2 = <[n := ni2]> (c_nodes c) -> c_store c2 = c_store c -> c_gone c2 = c_gone c ->
  Rep c2 -> c_jobs c !! jid = Some cj -> c_heap c !! tid = Some st -> t_job st = jid -> jid <> no_job ->
  t_job t2 = jid -> t_req t2 = t_req st -> jmeta cj2 = jmeta cj ->
  c_nodes c !! n = Some ni -> nmeta ni2 = nmeta ni ->
  cycle_post c c2 jid tid.
Proof.
  intros E1 E2 E3 E4 E5 R2 Hcj Hs Hj Hjn Hj2 Hr2 Hm Hni Hnm.
  split; [exact R2|]. split; [exact E4|]. split; [exact E5|]. rewrite E1, E2, E3. split; [|split; [|split]].
  - apply jobs_ext_insert. rewrite Hcj. exact Hm.
  - apply nodes_ext_insert. rewrite Hni. exact Hnm.
  - intros i Hne. apply lookup_insert_ne. congruence.
  - rewrite Hs. exists t2. rewrite lookup_insert. split; [reflexivity|]. split; [congruence|]. split; [exact Hr2|]. right. auto.
Qed.

Section Cycle.
Variable eps : Z.

(* ---------- AddBindTask (+ the bind flow) ---------- *)

(* Theorem: every branch of AddBindTask keeps the invariant -- unknown job / task,
   unknown node, node refusing the task (status put back), accepted (Binding on the
   node), with the binder / a pre-binder succeeding or failing (resync queued);
   the object-level attributes of every entry, the store and the held ids are untouched *)
Theorem bind_task_rep c jid tid nid ok :
  Rep c -> cycle_post c (fst (bind_task eps c jid tid nid ok)) jid tid.
Proof.
  intros R. unfold bind_task.
  destruct (c_jobs c !! jid) as [cj|] eqn:Hcj; [|apply cycle_post_refl; exact R].
  destruct (stored_task c (Some jid) tid) as [st|] eqn:Hst; [|apply cycle_post_refl; exact R].
  destruct (stored_task_facts c jid tid st R Hst) as (cj0 & Hcj0 & Hs & Hid & Hj & Hjn & Hw).
  rewrite Hcj in Hcj0. injection Hcj0 as <-.
  destruct (c_nodes c !! nid) as [ni|] eqn:Hni; [|apply cycle_post_refl; exact R].
  destruct (n_has_node ni) eqn:Hhas; cbn [negb]; [|apply cycle_post_refl; exact R].
  pose proof (rp_nodes c R nid ni Hni) as HR. pose proof (proj2 (proj2 (proj1 (rep_parts c) R))) as RN.
  unfold job_set_status. cbn [fst snd].
  set (t1 := set_status st Binding).
  rewrite <- Hid in Hs.
  destruct (node_add eps ni t1) as [[ni' t2]|err] eqn:Hadd.
  - (* accepted: the guards of AddTask say that [st] sat on no node *)
    assert (Hid_ni : n_id ni = nid) by exact (nr_id _ _ _ HR).
    assert (Hguard : (t_node st = None \/ t_node st = Some (n_id ni)) /\ n_tasks ni !! t_id st = None).
    { unfold node_add in Hadd. case_bool_decide as G1; [discriminate|]. case_bool_decide as G2; [discriminate|].
      split.
      - destruct (t_node t1) as [m|] eqn:E; [|auto]. right. destruct (decide (m = n_id ni)) as [->|Hne]; [exact E|].
        exfalso. apply G1. split; congruence.
      - destruct (n_tasks ni !! t_id t1) eqn:E; [|exact E]. exfalso. apply G2. eauto. }
    destruct Hguard as [Hnode Hfree].
    assert (Hoff : forall n, on_n n st = false).
    { intros n. apply not_true_is_false. intros Hon.
      pose proof (on_n_node n st Hon) as Hn. destruct Hnode as [Hnn|Hnn]; [congruence|].
      assert (n = nid) as -> by congruence.
      assert (n_tasks ni !! t_id st = Some st) as Hc.
      { rewrite (nr_tasks _ _ _ HR). apply map_filter_lookup_Some. auto. }
      congruence. }
    set (t2' := set_node t1 (Some (n_id ni))).
    assert (Hadd2 : node_add eps ni t2' = inl (ni', t2)).
    { unfold t2'. rewrite node_add_set_node by exact Hnode. exact Hadd. }
    pose proof (fam_delete_off node_delete_other _ _ _ st RN Hs Hoff) as RNd.
    destruct (node_add_rep eps (delete (t_id st) (c_heap c)) nid ni t2' ni' t2 (proj1 RNd nid ni Hni)) as (HR' & Ht2 & Hh' & Ha'); auto.
    { apply lookup_delete. }
    { simpl. congruence. }
    subst t2.
    assert (Rc1 : Rep (with_hjn c (<[t_id st := t2']> (c_heap c))
                         (<[jid := upd_job cj (job_add (job_del (cj_job cj) st) t2')]> (c_jobs c))
                         (<[nid := ni']> (c_nodes c)))).
    { apply restatus_rep; auto. rewrite <- (insert_delete_insert (c_heap c)).
      apply (fam_insert node_insert_other); auto; [apply lookup_delete|].
      intros m Hm. apply (on_n_other nid); [simpl; congruence|exact Hm]. }
    assert (Hnm : nmeta ni' = nmeta ni) by (unfold nmeta; rewrite Hh', Ha'; reflexivity).
    rewrite Hid in *.
    destruct ok;
      (eapply (cycle_post_restatus c _ jid tid cj _ st t2' nid ni ni'); try reflexivity; try assumption).
    (* the queued key is the only difference *)
    eapply rep_frame; [..|exact Rc1]; reflexivity.
  - (* refused by the node: the status is put back *)
    unfold t1. rewrite set_status_back. cbn [fst snd].
    assert (HJ : JobRep (c_heap c) jid
              (job_add (job_del (job_add (job_del (cj_job cj) st) (set_status st Binding)) (set_status st Binding)) st)).
    { pose proof (rp_jobs c R jid cj Hcj) as J0.
      pose proof (job_del_rep _ _ _ st J0 Hs Hj) as J1.
      pose proof (job_add_rep _ _ _ (set_status st Binding) J1 ltac:(apply lookup_delete) Hj Hw) as J2.
      pose proof (job_del_rep _ _ _ (set_status st Binding) J2 ltac:(apply lookup_insert) Hj) as J3.
      cbn [t_id set_status] in J2, J3. rewrite delete_insert in J3 by apply lookup_delete.
      pose proof (job_add_rep _ _ _ st J3 ltac:(apply lookup_delete) Hj Hw) as J4.
      rewrite insert_delete in J4 by exact Hs. exact J4. }
    rewrite Hid in *.
    eapply (cycle_post_restatus c _ jid tid cj _ st st nid ni ni); try reflexivity; try assumption.
    + symmetry. exact (insert_id _ _ _ Hni).
    + eapply rep_frame; [| | |apply (rep_insert_job c jid); [exact R|exact Hjn|]];
        [exact (insert_id _ _ _ Hs)|reflexivity|reflexivity|exact HJ].
Qed.

(* ---------- Evict ---------- *)

(* Theorem: every branch of Evict keeps the invariant -- unknown job / task, task without
   a node entry, job without PodGroup, accepted (Releasing in the job and on the node), with
   the evictor succeeding or failing (resync queued) *)
Theorem evict_task_rep c jid tid ok :
  Rep c -> cycle_post c (fst (evict_task eps c jid tid ok)) jid tid.
Proof.
  intros R. unfold evict_task.
  destruct (c_jobs c !! jid) as [cj|] eqn:Hcj; [|apply cycle_post_refl; exact R].
  destruct (stored_task c (Some jid) tid) as [st|] eqn:Hst; [|apply cycle_post_refl; exact R].
  destruct (stored_task_facts c jid tid st R Hst) as (cj0 & Hcj0 & Hs & Hid & Hj & Hjn & Hw).
  rewrite Hcj in Hcj0. injection Hcj0 as <-.
  destruct (t_node st) as [n|] eqn:Hnode; [|apply cycle_post_refl; exact R].
  destruct (c_nodes c !! n) as [ni|] eqn:Hni; [|apply cycle_post_refl; exact R].
  destruct (cj_pg cj); cbn [negb]; [|apply cycle_post_refl; exact R].
  pose proof (rp_nodes c R n ni Hni) as HR. pose proof (proj2 (proj2 (proj1 (rep_parts c) R))) as RN.
  assert (Hid_ni : n_id ni = n) by exact (nr_id _ _ _ HR).
  unfold job_set_status. cbn [fst snd].
  set (t1 := set_status st Releasing).
  rewrite <- Hid in Hs.
  assert (Hoth : forall m, m <> n -> on_n m st = false) by (intros m Hm; exact (on_n_other n m st Hnode Hm)).
  (* the node side: RemoveTask, then AddTask of the Releasing task *)
  assert (HRd : NodesRep (delete (t_id st) (c_heap c)) (<[n := node_remove ni (t_id st)]> (c_nodes c)) /\
                nmeta (node_remove ni (t_id st)) = nmeta ni).
  { destruct (on_n n st) eqn:Hon.
    - destruct (node_remove_rep (c_heap c) n ni (t_id st) st HR Hs Hon) as (A & B & C).
      split; [apply (fam_delete node_delete_other _ _ _ st); auto|]. unfold nmeta. rewrite B, C. reflexivity.
    - rewrite node_remove_absent, insert_id by (try exact Hni; rewrite (nr_tasks _ _ _ HR); apply map_filter_lookup_None; right;
        intros x Hx; cbn [snd]; rewrite Hs in Hx; injection Hx as <-; rewrite Hon; discriminate).
      split; [|reflexivity]. apply (fam_delete_off node_delete_other _ _ _ st); auto.
      intros m. destruct (decide (m = n)) as [->|Hm]; auto. }
  destruct HRd as [RNd Hmeta].
  pose proof (proj1 RNd n _ (lookup_insert _ _ _)) as HRd.
  assert (Hn1 : t_node t1 = Some n) by exact Hnode.
  destruct (node_add_ok eps _ n _ t1 HRd ltac:(apply lookup_delete) Hn1 ltac:(discriminate)) as [ni' Hadd].
  unfold node_update. change (t_id t1) with (t_id st). rewrite Hadd.
  destruct (node_add_rep eps _ n _ t1 ni' t1 HRd ltac:(apply lookup_delete) Hn1 eq_refl Hw Hadd) as (HR' & _ & Hh' & Ha').
  assert (Rc1 : Rep (with_hjn c (<[t_id st := t1]> (c_heap c))
                       (<[jid := upd_job cj (job_add (job_del (cj_job cj) st) t1)]> (c_jobs c))
                       (<[n := ni']> (c_nodes c)))).
  { apply restatus_rep; auto. rewrite <- (insert_delete_insert (c_heap c)).
    rewrite <- (insert_insert (c_nodes c) n _ (node_remove ni (t_id st))).
    apply (fam_insert node_insert_other); auto; [apply lookup_delete|].
    intros m Hm. exact (on_n_other n m t1 Hn1 Hm). }
  assert (Hnm : nmeta ni' = nmeta ni) by (unfold nmeta in *; rewrite Hh', Ha'; exact Hmeta).
  rewrite Hid_ni. rewrite Hid in *.
  destruct ok;
    (eapply (cycle_post_restatus c _ jid tid cj _ st t1 n ni ni'); try reflexivity; try assumption).
  eapply rep_frame; [..|exact Rc1]; reflexivity.
Qed.

(* what the step did to errTasks: nothing, in which case the held tasks are untouched as well, or
   the key of the task was queued because the API call failed *)
Lemma bind_task_queue c jid tid nid ok :
  Rep c -> let c' := fst (bind_task eps c jid tid nid ok) in
  (c_heap c' = c_heap c /\ c_errq c' = c_errq c) \/
  c_errq c' = (if ok then c_errq c else enq (c_errq c) (jid, tid)).
Proof.
  intros R. unfold bind_task.
  destruct (c_jobs c !! jid) as [cj|]; [|auto].
  destruct (stored_task c (Some jid) tid) as [st|] eqn:Hst; [|auto].
  destruct (stored_task_facts c jid tid st R Hst) as (_ & _ & Hs & _).
  destruct (c_nodes c !! nid) as [ni|]; [|auto].
  destruct (n_has_node ni); cbn [negb]; [|auto].
  unfold job_set_status. cbn [fst snd].
  destruct (node_add eps ni (set_status st Binding)) as [[ni' t2]|err]; [right; destruct ok; reflexivity|].
  left. rewrite set_status_back. split; [exact (insert_id _ _ _ Hs)|reflexivity].
Qed.

Lemma evict_task_queue c jid tid ok :
  let c' := fst (evict_task eps c jid tid ok) in
  (c_heap c' = c_heap c /\ c_errq c' = c_errq c) \/
  c_errq c' = (if ok then c_errq c else enq (c_errq c) (jid, tid)).
Proof.
  unfold evict_task.
  destruct (c_jobs c !! jid) as [cj|]; [|auto].
  destruct (stored_task c (Some jid) tid) as [st|]; [|auto].
  destruct (match t_node st with Some n => c_nodes c !! n | None => None end) as [ni|]; [|auto].
  destruct (cj_pg cj); cbn [negb]; [|auto].
  unfold job_set_status. cbn [fst snd].
  destruct (node_update eps ni (set_status st Releasing)) as [[ni' t2]|err]; [right; destruct ok; reflexivity|auto].
Qed.

End Cycle.

(* ---------- the invariant of the WHOLE alphabet ---------- *)

Section Whole.
Variable eps : Z.

(* what the cache holds for a pod is a TaskInfo of that pod's job (its status and node may
   be the cycle's); for a pod without a job it is exactly NewTaskInfo(pod) *)
Definition Coh (c : cache) : Prop :=
  forall i t, c_heap c !! i = Some t ->
    exists p, c_store c !! i = Some p /\ t_job t = t_job (task_of_pod eps p) /\
              (t_job t = no_job -> t = task_of_pod eps p).

Definition Inv2 (c : cache) : Prop := Rep c /\ store_ok c /\ Coh c.

Lemma inv2_frame c c' :
  c_heap c' = c_heap c -> c_jobs c' = c_jobs c -> c_nodes c' = c_nodes c -> c_store c' = c_store c ->
  Inv2 c -> Inv2 c'.
Proof.
  intros H1 H2 H3 H4 (R & So & Co). split; [apply (rep_frame c); auto|]. split.
  - unfold store_ok. rewrite H4. exact So.
  - unfold Coh. rewrite H1, H4. exact Co.
Qed.

Lemma inv_inv2 c : Inv eps c -> Inv2 c.
Proof.
  intros (R & S & So). split; [exact R|]. split; [exact So|].
  intros i t Ht. rewrite S, lookup_fmap in Ht. destruct (c_store c !! i) as [p|] eqn:Hp; [|discriminate].
  injection Ht as <-. exists p. auto.
Qed.

(* ---------- informer events under the whole-alphabet invariant ---------- *)

Definition store_after (s : gmap positive pod) (e : event) : gmap positive pod :=
  match e with EPod p => <[p_id p := p]> s | EPodDel i => delete i s | _ => s end.
Definition keeps_nodes (e : event) : bool :=
  match e with ENode _ | ENodeDel _ => false | _ => true end.

Definition Post2 (c c' : cache) (e : event) : Prop :=
  Inv2 c' /\ c_store c' = store_after (c_store c) e /\
  (keeps_nodes e = true -> nodes_ext (c_nodes c) (c_nodes c')).

(* how the held tasks change: the pod's task becomes NewTaskInfo(pod), unless the update is
   the ignored one *)
Definition pod_heap_ev (c c' : cache) (p : pod) : Prop :=
  (forall i, i <> p_id p -> c_heap c' !! i = c_heap c !! i) /\
  (c_heap c' !! p_id p = Some (task_of_pod eps p) \/
   (c_heap c' !! p_id p = c_heap c !! p_id p /\
    exists t, c_heap c !! p_id p = Some t /\ allocated_status (t_status t) = true /\ p_node p = None)).

(* AddPod / UpdatePod; the update may be the one UpdatePod ignores (task allocated in the
   cache, no node name on the pod yet) *)
Lemma pod_event_full c p :
  Inv2 c -> pod_ok p -> Post2 c (handle eps c (EPod p)) (EPod p) /\ pod_heap_ev c (handle eps c (EPod p)) p.
Proof.
  intros (R & So & Co) Hok. unfold handle, handle_with.
  set (c1 := match c_store c !! p_id p with Some _ => _ | None => _ end).
  (* the version is applied, or it is the update UpdatePod ignores *)
  assert (H : heap_step c c1 (<[p_id p := task_of_pod eps p]> (c_heap c)) \/
              (c1 = c /\ exists j t, p_job p = Some j /\ stored_task c (Some j) (p_id p) = Some t /\
                 allocated_status (t_status t) = true /\ p_node p = None)).
  { unfold c1. destruct (c_store c !! p_id p) as [old|] eqn:Hold.
    - destruct (So _ _ Hold) as [Hido Hokold]. unfold update_pod.
      destruct (allocated_in_cache c p && bool_decide (p_node p = None)) eqn:Hg.
      + right. split; [reflexivity|]. apply andb_true_iff in Hg as [Hal Hnn]. rewrite bool_decide_eq_true in Hnn.
        unfold allocated_in_cache in Hal. destruct (p_job p) as [j|]; [|discriminate].
        destruct (stored_task c (Some j) (p_id p)) as [t'|] eqn:Hst'; [|discriminate]. exists j, t'. auto.
      + left. apply replace_pod_step; auto. intros t Ht. destruct (Co _ t Ht) as (q & Hq & A & B).
        rewrite Hido, Hold in Hq. injection Hq as <-. auto.
    - left. apply add_pod_rep; auto. destruct (c_heap c !! p_id p) as [t|] eqn:E; [|reflexivity].
      destruct (Co _ t E) as (q & Hq & _). congruence. }
  clearbody c1.
  assert (Hc1 : Rep c1 /\ c_store c1 = c_store c /\ nodes_ext (c_nodes c) (c_nodes c1)).
  { destruct H as [(R1 & _ & Hst & _ & Hne)|(-> & _)]; [auto|]. split; [exact R|split; [reflexivity|apply nodes_ext_refl]]. }
  destruct Hc1 as (R1 & Hst & Hne).
  (* only the pod's own task may have changed, and it is a task of the pod's job *)
  assert (Hev : pod_heap_ev c c1 p /\ forall t, c_heap c1 !! p_id p = Some t ->
            t_job t = t_job (task_of_pod eps p) /\ (t_job t = no_job -> t = task_of_pod eps p)).
  { unfold pod_heap_ev. destruct H as [(_ & Hh & _)|(-> & j & t' & Hpj & Hst' & Hal & Hnn)].
    - rewrite Hh. split; [split; [intros i Hi; apply lookup_insert_ne; congruence|left; apply lookup_insert]|].
      intros t. rewrite lookup_insert. intros [= <-]. auto.
    - destruct (stored_task_facts c j (p_id p) t' R Hst') as (_ & _ & Hh & _ & Hj & Hjn & _).
      split; [split; [reflexivity|right; split; [reflexivity|eauto]]|].
      intros t Ht. rewrite Hh in Ht. injection Ht as <-. rewrite task_of_pod_job, Hpj. simpl. split; [exact Hj|congruence]. }
  destruct Hev as [[Hoth Hev] Hid].
  split; [|split; [exact Hoth|exact Hev]].
  split; [|split; [simpl; rewrite Hst; reflexivity|intros _; exact Hne]].
  split; [apply (rep_frame c1); auto|]. split.
  - intros i q. simpl. rewrite Hst. destruct (decide (i = p_id p)) as [->|Hne2].
    + rewrite lookup_insert. intros [= <-]. auto.
    + rewrite lookup_insert_ne by congruence. apply So.
  - intros i t. simpl. rewrite Hst. destruct (decide (i = p_id p)) as [->|Hne2].
    + intros Ht. exists p. rewrite lookup_insert. split; [reflexivity|]. exact (Hid t Ht).
    + rewrite Hoth by exact Hne2. rewrite lookup_insert_ne by congruence. apply Co.
Qed.

Lemma pod_delete_inv2 c i :
  Inv2 c -> Post2 c (handle eps c (EPodDel i)) (EPodDel i) /\
            c_heap (handle eps c (EPodDel i)) = (if c_store c !! i then delete i (c_heap c) else c_heap c).
Proof.
  intros (R & So & Co). unfold handle, handle_with.
  destruct (c_store c !! i) as [old|] eqn:Hold.
  - destruct (So _ _ Hold) as [Hid Hokold].
    assert (Hco : forall t, c_heap c !! p_id old = Some t ->
               t_job t = t_job (task_of_pod eps old) /\ (t_job t = no_job -> t = task_of_pod eps old)).
    { intros t Ht. destruct (Co _ t Ht) as (q & Hq & A & B). rewrite Hid, Hold in Hq. injection Hq as <-. auto. }
    destruct (delete_pod_gen eps c old R Hokold Hco) as (R1 & Hh1 & Hst1 & _ & Hne1).
    set (c1 := delete_pod eps c old) in *.
    split; [|simpl; rewrite Hh1, Hid; reflexivity].
    split; [|split; [simpl; rewrite Hst1; reflexivity|intros _; exact Hne1]].
    split; [apply (rep_frame c1); auto|]. split.
    + intros k q. simpl. rewrite Hst1, lookup_delete_Some. intros [_ H]. exact (So k q H).
    + intros k t. simpl. rewrite Hh1, Hst1, Hid. rewrite lookup_delete_Some. intros [Hne Ht].
      rewrite lookup_delete_ne by congruence. exact (Co k t Ht).
  - split; [|reflexivity]. split; [split; [exact R|split; [exact So|exact Co]]|].
    split; [simpl; symmetry; apply delete_notin; exact Hold|intros _; apply nodes_ext_refl].
Qed.

(* ---------- the cycle's steps and the repair queues under the whole-alphabet invariant ---------- *)

(* store and node objects are those of the start (entries may have been added) *)
Definition Ext (c c' : cache) : Prop :=
  c_store c' = c_store c /\ c_gone c' = c_gone c /\ nodes_ext (c_nodes c) (c_nodes c').
Lemma ext_refl c : Ext c c.
Proof. split; [reflexivity|split; [reflexivity|apply nodes_ext_refl]]. Qed.
Lemma ext_trans a b c : Ext a b -> Ext b c -> Ext a c.
Proof. intros (A1 & A2 & A3) (B1 & B2 & B3). split; [congruence|split; [congruence|eapply nodes_ext_trans; eauto]]. Qed.

Lemma cycle_inv2 c c' jid tid : Inv2 c -> cycle_post c c' jid tid -> Inv2 c' /\ Ext c c'.
Proof.
  intros (R & So & Co) (R' & Hst & Hg & _ & Hne & Hoth & Hid).
  split; [|split; [exact Hst|split; [exact Hg|exact Hne]]].
  split; [exact R'|]. split; [unfold store_ok; rewrite Hst; exact So|].
  intros i t Ht. rewrite Hst. destruct (decide (i = tid)) as [->|Hne2].
  - destruct (c_heap c !! tid) as [st|] eqn:Hs; [|congruence].
    destruct Hid as (t' & Ht' & Hj & _ & Hor). rewrite Ht' in Ht. injection Ht as <-.
    destruct (Co tid st Hs) as (p & Hp & A & B). exists p. split; [exact Hp|]. split; [congruence|].
    intros Hnj. destruct Hor as [->|[Hx Hy]]; [apply B; exact Hnj|]. exfalso. congruence.
  - rewrite Hoth in Ht by exact Hne2. exact (Co i t Ht).
Qed.

(* syncTask of a held task: re-read from the API *)
Lemma sync_task_post c j st :
  Inv2 c -> c_heap c !! t_id st = Some st -> t_job st = j -> j <> no_job ->
  let c' := fst (sync_task eps c j st) in
  Inv2 c' /\ snd (sync_task eps c j st) = true /\ Ext c c' /\
  c_heap c' = match api_pod c (t_id st) with
              | Some p => <[t_id st := task_of_pod eps p]> (c_heap c)
              | None => delete (t_id st) (c_heap c) end.
Proof.
  intros (R & So & Co) Hs Hj Hjn.
  assert (Hsto : forall p, api_pod c (t_id st) = Some p -> c_store c !! t_id st = Some p).
  { intros p Hp. unfold api_pod in Hp. case_bool_decide; [discriminate|exact Hp]. }
  destruct (sync_task_spec eps c j st R Hs Hj Hjn) as (R' & Hok & Hh & Hst & Hg & Hne).
  { intros p Hp. exact (So _ _ (Hsto p Hp)). }
  split; [|split; [exact Hok|split; [split; [exact Hst|split; [exact Hg|exact Hne]]|exact Hh]]].
  split; [exact R'|]. split; [unfold store_ok; rewrite Hst; exact So|].
  intros i t. rewrite Hst, Hh. destruct (api_pod c (t_id st)) as [p|].
  - destruct (decide (i = t_id st)) as [->|Hne2].
    + rewrite lookup_insert. intros [= <-]. exists p. auto.
    + rewrite lookup_insert_ne by congruence. apply Co.
  - rewrite lookup_delete_Some. intros [_ Ht]. exact (Co i t Ht).
Qed.

(* every held task that differs from NewTaskInfo(its pod) is waiting in [l] for a resync *)
Definition QueuedIn (l : list (positive * positive)) (c : cache) : Prop :=
  forall i t, c_heap c !! i = Some t ->
    (exists p, c_store c !! i = Some p /\ t = task_of_pod eps p) \/ (t_job t, i) ∈ l.

(* processResyncTask on one key never asks for a retry, and task by task: a task held afterwards
   is NewTaskInfo(its pod), or was held unchanged under another key; a held task stays held unless
   its pod is gone from the API server *)
Lemma resync_one_inv2 c k :
  Inv2 c ->
  Inv2 (fst (resync_one eps c k)) /\ snd (resync_one eps c k) = false /\ Ext c (fst (resync_one eps c k)) /\
  (forall i t, c_heap (fst (resync_one eps c k)) !! i = Some t ->
     (exists p, c_store c !! i = Some p /\ t = task_of_pod eps p) \/ (c_heap c !! i = Some t /\ (t_job t, i) <> k)) /\
  (forall i, is_Some (c_heap c !! i) -> is_Some (c_heap (fst (resync_one eps c k)) !! i) \/ i ∈ c_gone c).
Proof.
  intros I. pose proof I as (R & So & Co). unfold resync_one. destruct k as [j i]. cbn [fst snd].
  destruct (stored_task c (Some j) i) as [st|] eqn:Hst.
  - destruct (stored_task_facts c j i st R Hst) as (_ & _ & Hs & Hid & Hj & Hjn & _).
    rewrite <- Hid in Hs.
    destruct (sync_task_post c j st I Hs Hj Hjn) as (I' & Hok & HE & Hh).
    destruct (sync_task eps c j st) as [c1 ok]. cbn [fst snd] in *. subst ok. rewrite Hid in Hh.
    split; [exact I'|]. split; [reflexivity|]. split; [exact HE|]. rewrite Hh.
    unfold api_pod. destruct (Co _ _ Hs) as (p & Hp & _). rewrite Hid in Hp. rewrite Hp.
    case_bool_decide as Hg; (split; intros i'; (destruct (decide (i' = i)) as [->|Hne];
      [|rewrite ?lookup_insert_ne, ?lookup_delete_ne by congruence])).
    + rewrite lookup_delete. discriminate.
    + intros t Ht. right. split; [exact Ht|congruence].
    + auto.
    + auto.
    + rewrite lookup_insert. intros t [= <-]. eauto.
    + intros t Ht. right. split; [exact Ht|congruence].
    + rewrite lookup_insert. eauto.
    + auto.
  - split; [exact I|]. split; [reflexivity|]. split; [apply ext_refl|]. split; [|auto].
    intros i' t Ht. destruct (decide (t_job t = no_job)) as [Hnj|Hnj].
    + left. destruct (Co i' t Ht) as (p & Hp & _ & B). exists p. split; [exact Hp|exact (B Hnj)].
    + right. split; [exact Ht|]. intros [= <- <-]. rewrite (stored_some c _ i' t R Ht eq_refl Hnj) in Hst. discriminate.
Qed.

Lemma add_task_queues c jo t :
  c_errq (fst (add_task eps c jo t)) = c_errq c /\ c_gone (fst (add_task eps c jo t)) = c_gone c.
Proof. unfold add_task. destruct (add_task_nodes eps c t) as [n ok]. destruct ok, jo; split; reflexivity. Qed.

Lemma resync_one_errq c k : c_errq (fst (resync_one eps c k)) = c_errq c.
Proof.
  unfold resync_one. destruct (stored_task c (Some (fst k)) (snd k)) as [st|]; [|reflexivity].
  unfold sync_task. destruct (api_pod c (t_id st)) as [p|]; [|reflexivity].
  destruct (add_task eps (delete_task c (Some (fst k)) st) (p_job p) (task_of_pod eps p)) as [c1 ok] eqn:E.
  cbn [fst]. change c1 with (fst (c1, ok)). rewrite <- E. exact (proj1 (add_task_queues _ _ _)).
Qed.

(* ---------- the drains as whole folds ---------- *)

Lemma resync_fold l : forall c keep, Inv2 c ->
  let r := fold_left (fun (acc : cache * list (positive * positive)) k =>
                        let '(c1, retry) := resync_one eps (fst acc) k in
                        (c1, if retry then snd acc ++ [k] else snd acc)) l (c, keep) in
  Inv2 (fst r) /\ Ext c (fst r) /\ snd r = keep /\ c_errq (fst r) = c_errq c /\
  (forall i t, c_heap (fst r) !! i = Some t ->
     (exists p, c_store c !! i = Some p /\ t = task_of_pod eps p) \/ (c_heap c !! i = Some t /\ (t_job t, i) ∉ l)) /\
  (forall i, is_Some (c_heap c !! i) -> is_Some (c_heap (fst r) !! i) \/ i ∈ c_gone c).
Proof.
  induction l as [|k l IH]; intros c keep I; simpl.
  - split; [exact I|]. split; [apply ext_refl|]. split; [reflexivity|]. split; [reflexivity|].
    split; [|auto]. intros i t Ht. right. split; [exact Ht|]. apply not_elem_of_nil.
  - destruct (resync_one_inv2 c k I) as (I1 & Hr & E1 & P1 & C1). pose proof (resync_one_errq c k) as Q1.
    destruct (resync_one eps c k) as [c1 retry]. cbn [fst snd] in *. subst retry.
    destruct (IH c1 keep I1) as (I2 & E2 & K2 & Q2 & P2 & C2). destruct E1 as (Es & Eg & En).
    split; [exact I2|]. split; [eapply ext_trans; [split; eauto|exact E2]|]. split; [exact K2|]. split; [congruence|]. split.
    + intros i t Ht. rewrite <- Es. destruct (P2 i t Ht) as [Hl|[Ht1 Hnl]]; [left; exact Hl|]. rewrite Es.
      destruct (P1 i t Ht1) as [Hl|[Ht0 Hnk]]; [left; exact Hl|]. right. split; [exact Ht0|].
      rewrite not_elem_of_cons. auto.
    + intros i Hi. destruct (C1 i Hi) as [Hi1|Hg]; [|right; exact Hg]. rewrite <- Eg. exact (C2 i Hi1).
Qed.

(* every held task is exactly NewTaskInfo of its last delivered pod version *)
Definition SyncedSub (c : cache) : Prop :=
  forall i t, c_heap c !! i = Some t -> exists p, c_store c !! i = Some p /\ t = task_of_pod eps p.

Definition Queued (c : cache) : Prop := QueuedIn (c_errq c) c.

(* Theorem (processResyncTask loop): a whole drain of errTasks keeps the invariant, never has to
   retry and leaves the queue empty; a task held afterwards is NewTaskInfo of its API object, or
   was held unchanged without being queued; a held task stays held unless its pod is gone from
   the API server *)
Theorem drain_resync_spec c :
  Inv2 c ->
  Inv2 (drain_resync eps c) /\ Ext c (drain_resync eps c) /\ c_errq (drain_resync eps c) = [] /\
  (forall i t, c_heap (drain_resync eps c) !! i = Some t ->
     (exists p, c_store c !! i = Some p /\ t = task_of_pod eps p) \/
     (c_heap c !! i = Some t /\ (t_job t, i) ∉ c_errq c)) /\
  (forall i, is_Some (c_heap c !! i) -> is_Some (c_heap (drain_resync eps c) !! i) \/ i ∈ c_gone c).
Proof.
  intros I. unfold drain_resync.
  assert (I0 : Inv2 (with_errq c [])) by (apply (inv2_frame c); auto).
  pose proof (resync_fold (c_errq c) (with_errq c []) [] I0) as H. cbv zeta in H.
  destruct (fold_left _ (c_errq c) (with_errq c [], [])) as [c' keep]. cbn [fst snd] in H.
  destruct H as (I' & E' & K' & Q' & P' & C'). subst keep.
  split; [apply (inv2_frame c'); auto|]. split; [exact E'|].
  split; [simpl; rewrite app_nil_r; exact Q'|]. split; [exact P'|exact C'].
Qed.

(* ---------- one induction over the whole alphabet ---------- *)

Definition step_ok2 (e : event) : Prop :=
  match e with
  | EPod p => pod_ok p
  | ENode v => sc (nv_base v) <> None
  | EPG g => g_id g <> no_job
  | _ => True
  end.

Lemma post2_same c c' e :
  store_after (c_store c) e = c_store c ->
  Inv2 c' -> c_store c' = c_store c -> nodes_ext (c_nodes c) (c_nodes c') -> Post2 c c' e.
Proof. intros Hs I Hst Hne. split; [exact I|]. split; [congruence|intros _; exact Hne]. Qed.

(* Theorem (the property's clause single_event_refines, whole alphabet): every informer notification, every step of
   the scheduling cycle (AddBindTask + bind flow, Evict, with or without API failure) and every
   drain of a repair queue keeps CacheInv, the well-formedness of the informer store and the
   coherence of held tasks with their pods *)
Theorem step_inv2 c e : Inv2 c -> step_ok2 e -> Post2 c (handle eps c e) e.
Proof.
  intros I Hok. pose proof I as (R & So & Co). destruct (quiet e) eqn:Hq.
  - destruct (handle_quiet eps c e Hq) as (Eh & Es & _ & _ & HR & En).
    split; [|split; [rewrite Es; destruct e; try discriminate; reflexivity|]].
    + split; [apply HR; [destruct e; simpl in *; tauto|exact R]|]. unfold store_ok, Coh. rewrite Eh, Es. auto.
    + destruct e; try discriminate; intros Hk; try discriminate; rewrite En; apply nodes_ext_refl.
  - destruct e; try discriminate.
    + exact (proj1 (pod_event_full c p I Hok)).
    + exact (proj1 (pod_delete_inv2 c id I)).
    + destruct (drain_resync_spec c I) as (I' & (E1 & _ & E3) & _).
      apply post2_same; [reflexivity|exact I'|exact E1|exact E3].
    + destruct (cycle_inv2 c _ jid tid I (bind_task_rep eps c jid tid nid ok R)) as (I' & E1 & _ & E3).
      apply post2_same; [reflexivity|exact I'|exact E1|exact E3].
    + destruct (cycle_inv2 c _ jid tid I (evict_task_rep eps c jid tid ok R)) as (I' & E1 & _ & E3).
      apply post2_same; [reflexivity|exact I'|exact E1|exact E3].
Qed.

Fixpoint hist_ok2 (h : list event) : Prop :=
  match h with [] => True | e :: r => step_ok2 e /\ hist_ok2 r end.

Lemma inv2_empty : Inv2 empty_cache.
Proof. apply inv_inv2. apply inv_empty. Qed.

(* Theorem (the property's clause history_preserves_inv): ONE induction over the whole event alphabet -- informer
   events for pods, nodes, PodGroups and queues in any order, AddBindTask / Evict with any
   outcome (refusals, binder / pre-binder / evictor failures), pods vanishing from the API
   server ahead of their notification, and the two repair-queue drains at any point *)
Theorem history_preserves_inv h : forall c, Inv2 c -> hist_ok2 h -> Inv2 (run eps c h).
Proof.
  induction h as [|e r IH]; intros c I Hok; [exact I|].
  destruct Hok as [H1 H2]. simpl. apply IH; [|exact H2]. exact (proj1 (step_inv2 c e I H1)).
Qed.

(* ---------- the two queues of deferred work under the pod notifications ---------- *)

Lemma delete_pod_queues c old :
  c_errq (delete_pod eps c old) = c_errq c /\ c_gone (delete_pod eps c old) = c_gone c.
Proof.
  unfold delete_pod. destruct (p_job old) as [j|]; [|split; reflexivity].
  destruct (c_jobs (delete_task c (Some j) _) !! j) as [cj|]; [|split; reflexivity].
  destruct (job_terminated cj); split; reflexivity.
Qed.

(* a pod notification leaves errTasks alone and withdraws the pod from the gone set *)
Lemma handle_pod_queues c p :
  c_errq (handle eps c (EPod p)) = c_errq c /\ c_gone (handle eps c (EPod p)) = c_gone c ∖ {[p_id p]}.
Proof.
  unfold handle, handle_with. destruct (c_store c !! p_id p) as [old|]; simpl.
  - unfold update_pod. destruct (_ && _); [split; reflexivity|]. unfold add_pod.
    destruct (add_task_queues (delete_pod eps c old) (p_job p) (task_of_pod eps p)) as [-> ->].
    destruct (delete_pod_queues c old) as [-> ->]. split; reflexivity.
  - unfold add_pod. destruct (add_task_queues c (p_job p) (task_of_pod eps p)) as [-> ->]. split; reflexivity.
Qed.

Lemma handle_pod_del_queues c i :
  c_errq (handle eps c (EPodDel i)) = c_errq c /\
  forall x, x ∈ c_gone c -> x <> i -> x ∈ c_gone (handle eps c (EPodDel i)).
Proof.
  unfold handle, handle_with. destruct (c_store c !! i) as [old|]; [|auto]. simpl.
  destruct (delete_pod_queues c old) as [-> ->]. split; [reflexivity|set_solver].
Qed.

Lemma elem_of_enq {A} `{EqDecision A} (q : list A) (k x : A) : x ∈ enq q k <-> x ∈ q \/ x = k.
Proof.
  unfold enq. case_bool_decide as Hin.
  - split; [auto|]. intros [Hx| ->]; auto.
  - rewrite elem_of_app, elem_of_list_singleton. reflexivity.
Qed.

(* the API rules plus: every bind / eviction attempt fails at the API (or is refused) *)
Definition step_ok3 (c : cache) (e : event) : Prop :=
  match e with
  | EPod p => pod_ok p /\ forall old, c_store c !! p_id p = Some old -> upd_ok old p
  | ENode v => sc (nv_base v) <> None
  | EPG g => g_id g <> no_job
  | EBind _ _ _ ok | EEvict _ _ ok => ok = false
  | _ => True
  end.

Fixpoint hist_ok3 (c : cache) (h : list event) : Prop :=
  match h with [] => True | e :: r => step_ok3 c e /\ hist_ok3 (handle eps c e) r end.

End Whole.

(* ---------- Snapshot ---------- *)

(* Theorem (what a snapshot contains): exactly the nodes that have a Node object (placeholders
   are skipped), each cloned; exactly the jobs that have a PodGroup whose queue exists, each
   cloned; the queues and the node list as they are *)
Theorem snapshot_selection eps c :
  let s := take_snapshot eps c in
  (forall n, s_nodes s !! n =
     match c_nodes c !! n with
     | Some N => if n_has_node N then Some (clone_node eps (clone_alloc c n N) N) else None
     | None => None end) /\
  (forall j, s_jobs s !! j =
     match c_jobs c !! j with
     | Some cj => if in_snapshot c cj then Some (upd_job cj (clone_job (c_heap c) (cj_job cj))) else None
     | None => None end) /\
  s_queues s = c_queues c /\ s_nodelist s = c_nodelist c.
Proof.
  simpl. split; [|split; [|split; reflexivity]].
  - intros n. rewrite map_lookup_imap. destruct (c_nodes c !! n) as [N|]; reflexivity.
  - intros j. rewrite lookup_fmap. destruct (c_jobs c !! j) as [cj|] eqn:Hcj.
    + destruct (in_snapshot c cj) eqn:Hin.
      * erewrite (proj2 (map_filter_lookup_Some _ _ _ _)); [reflexivity|]. auto.
      * rewrite (proj2 (map_filter_lookup_None _ _ _)); [reflexivity|]. right. intros x Hx. cbn [snd].
        rewrite Hcj in Hx. injection Hx as <-. rewrite Hin. discriminate.
    + rewrite (proj2 (map_filter_lookup_None _ _ _)); [reflexivity|]. left. exact Hcj.
Qed.

(* JobInfo.Clone re-adds every task to a fresh JobInfo: the clone is the ledger of the same tasks *)
Lemma job_rep_of_filter T j X :
  JobRep (filter (fun kv => in_j j (snd kv) = true) T) j X -> JobRep T j X.
Proof.
  intros [Hid Hts Htot Hal].
  assert (Hacc : forall r (g : task -> bool), (forall t, g t = true -> in_j j t = true) ->
            acc_ok r g (filter (fun kv => in_j j (snd kv) = true) T) -> acc_ok r g T).
  { intros r g Hg [A B]. split.
    - intros d. rewrite A, tsum_filter. apply tsum_ext. intros i t _.
      destruct (g t) eqn:E; [rewrite (Hg t E); reflexivity|apply andb_false_r].
    - intros Hn i t Ht. destruct (g t) eqn:E; [|reflexivity].
      rewrite <- E. apply (B Hn i t). apply map_filter_lookup_Some. split; [exact Ht|exact (Hg t E)]. }
  split; [exact Hid| | |].
  - intros i. rewrite Hts. split; intros (t & Ht & Hj).
    + apply map_filter_lookup_Some in Ht. exists t. tauto.
    + exists t. split; [|exact Hj]. apply map_filter_lookup_Some. split; [exact Ht|].
      cbn [snd]. unfold in_j. rewrite bool_decide_eq_true. exact Hj.
  - apply Hacc; auto.
  - apply Hacc; [|exact Hal]. intros t Ht. apply andb_true_iff in Ht. tauto.
Qed.

Lemma clone_fold (T : gmap positive task) j l : forall acc (M : gmap positive task),
  NoDup l ->
  (forall i, i ∈ l -> M !! i = None /\ exists t, T !! i = Some t /\ t_job t = j /\ t_id t = i /\ task_wf t) ->
  JobRep M j acc ->
  JobRep (fold_left (fun m i => match T !! i with Some t => <[i := t]> m | None => m end) l M) j
         (fold_left (fun a i => match T !! i with Some t => job_add a t | None => a end) l acc).
Proof.
  induction l as [|i l IH]; intros acc M Hnd Hl HJ; [exact HJ|].
  simpl. apply NoDup_cons in Hnd. destruct Hnd as [Hni Hnd].
  destruct (Hl i ltac:(left)) as (HM & t & Ht & Hj & Hid & Hw). rewrite Ht.
  apply IH; [exact Hnd| |].
  - intros i' Hi'. destruct (Hl i' ltac:(right; exact Hi')) as (HM' & Hx). split; [|exact Hx].
    rewrite lookup_insert_ne; [exact HM'|]. intros ->. contradiction.
  - rewrite <- Hid. apply job_add_rep; auto. rewrite Hid. exact HM.
Qed.

Lemma fold_map_lookup (T : gmap positive task) l : forall (M : gmap positive task) i,
  fold_left (fun m i => match T !! i with Some t => <[i := t]> m | None => m end) l M !! i =
  if bool_decide (i ∈ l) then (match T !! i with Some t => Some t | None => M !! i end) else M !! i.
Proof.
  induction l as [|k l IH]; intros M i; cbn [fold_left].
  - rewrite bool_decide_eq_false_2 by set_solver. reflexivity.
  - rewrite IH. destruct (decide (i = k)) as [->|Hne].
    + rewrite (bool_decide_eq_true_2 (k ∈ k :: l)) by set_solver.
      destruct (T !! k) as [t|] eqn:Ht.
      * case_bool_decide; [reflexivity|apply lookup_insert].
      * case_bool_decide; reflexivity.
    + assert (Hiff : i ∈ k :: l <-> i ∈ l) by set_solver.
      rewrite (bool_decide_ext _ _ Hiff).
      destruct (T !! k) as [t|]; [|reflexivity]. rewrite lookup_insert_ne by congruence. reflexivity.
Qed.

(* Theorem (JobInfo.Clone): in a cache satisfying the invariant, the clone of a job that goes
   into a snapshot is again the ledger of exactly the job's tasks -- same members, same
   TotalRequest and Allocated amounts as the cache's own entry *)
Theorem clone_job_rep c j cj :
  Rep c -> c_jobs c !! j = Some cj -> JobRep (c_heap c) j (clone_job (c_heap c) (cj_job cj)).
Proof.
  intros R Hcj. pose proof (rp_jobs c R j cj Hcj) as HJ. set (T := c_heap c) in *. set (J := cj_job cj) in *.
  apply job_rep_of_filter. unfold clone_job.
  set (l := elements (j_tasks J)).
  assert (Hl : forall i, i ∈ l -> (∅ : gmap positive task) !! i = None /\
                 exists t, T !! i = Some t /\ t_job t = j /\ t_id t = i /\ task_wf t).
  { intros i Hi. split; [apply lookup_empty|]. apply elem_of_elements in Hi.
    apply (jr_tasks _ _ _ HJ) in Hi. destruct Hi as (t & Ht & Hj). exists t.
    destruct (rp_wf c R i t Ht). auto. }
  assert (H0 : JobRep ∅ j (mkJob (j_id J) (j_queue J) (j_min J) (j_role_min J) (j_role_total J) ∅ ∅ empty_res empty_res ∅ ∅)).
  { apply job_rep_none; try reflexivity; [exact (jr_id _ _ _ HJ)|]. intros i t Ht. rewrite lookup_empty in Ht. discriminate. }
  pose proof (clone_fold T j l _ ∅ (NoDup_elements _) Hl H0) as HF.
  replace (filter (fun kv => in_j j (snd kv) = true) T)
    with (fold_left (fun (m : gmap positive task) i => match T !! i with Some t => <[i := t]> m | None => m end) l (∅ : gmap positive task)); [exact HF|].
  apply map_eq. intros i. rewrite fold_map_lookup, lookup_empty.
  destruct (T !! i) as [t|] eqn:Ht.
  - case_bool_decide as Hin.
    + symmetry. apply map_filter_lookup_Some. split; [exact Ht|]. cbn [snd].
      apply elem_of_elements, (jr_tasks _ _ _ HJ) in Hin. destruct Hin as (t' & Ht' & Hj).
      rewrite Ht in Ht'. injection Ht' as <-. unfold in_j. rewrite bool_decide_eq_true. exact Hj.
    + symmetry. apply map_filter_lookup_None. right. intros x Hx. cbn [snd]. rewrite Ht in Hx. injection Hx as <-.
      unfold in_j. rewrite bool_decide_eq_true. intros Hj. apply Hin. apply elem_of_elements, (jr_tasks _ _ _ HJ). eauto.
  - rewrite (proj2 (map_filter_lookup_None _ _ _)) by (left; exact Ht). case_bool_decide; reflexivity.
Qed.
