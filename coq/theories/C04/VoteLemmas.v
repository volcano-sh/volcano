(* C04 - soundness lemmas about the vote functions of C04/Model.v (gang, priority, conformance, proportion,
   drf; capacity: that its vote returns candidates only, the rest in CapLemmas.v), about the victims the tier walk
   (C11.Model.victims_fixed) selects from them, and about JobPipelined with gang's role minimums (close_job).

   Conventions.  [∈] is std++ [elem_of] on lists; C11 speaks stdlib [In]; the two are bridged with
   [elem_of_list_In].  All [filter]s in statements are std++ Prop-filters (decidable predicate),
   e.g. [filter (fun c => t_job c = jid) l]. *)
From V Require Import C11.Model C11.Spec C11.Lemmas.
From stdpp Require Import gmap.
From Coq Require Import ZArith Lia.
From V Require Import Base.Res Sched.LedgerModel Sched.StmtModel Sched.GangModel C04.Model.
Open Scope Z_scope.

Lemma sublist_elem {A} (l1 l2 : list A) x : sublist l1 l2 -> x ∈ l1 -> x ∈ l2.
Proof.
  induction 1 as [|y l1 l2 _ IH|y l1 l2 _ IH]; intros Hx.
  - exact Hx.
  - apply elem_of_cons in Hx as [->|Hx]; [left|right; auto].
  - right; auto.
Qed.

(* distinct ids: a candidate is determined by its id *)
Lemma nodup_id_inj (l : list task) c c' :
  NoDup (map t_id l) -> c ∈ l -> c' ∈ l -> t_id c = t_id c' -> c = c'.
Proof.
  induction l as [|a l IH]; simpl; intros Hnd Hc Hc' Hid.
  - inversion Hc.
  - apply NoDup_cons in Hnd as [Hna Hnd].
    assert (Hin : forall x, x ∈ l -> t_id x ∈ map t_id l).
    { intros x Hx. apply elem_of_list_In, in_map, elem_of_list_In, Hx. }
    apply elem_of_cons in Hc as [->|Hc]; apply elem_of_cons in Hc' as [->|Hc']; auto.
    + exfalso. apply Hna. rewrite Hid. auto.
    + exfalso. apply Hna. rewrite <- Hid. auto.
Qed.

(* gang: the vote is a sublist of the candidates *)

Lemma gang_go_sublist : forall s l occ, sublist (gang_go s occ l) l.
Proof.
  intros s l. induction l as [|c r IH]; intros occ; simpl.
  - constructor.
  - destruct (jobs s !! t_job c) as [j|]; [|apply sublist_cons, IH].
    case_bool_decide; [apply sublist_skip, IH|apply sublist_cons, IH].
Qed.

Lemma gang_vote_subset : forall s l c, c ∈ gang_vote s l -> c ∈ l.
Proof. intros s l c. apply sublist_elem, gang_go_sublist. Qed.

(* gang: a job that loses tasks to the vote keeps MinAvailable ready tasks *)

(* number of tasks of job [jid] in [l] (std++ Prop-filter) *)
Definition job_count (jid : positive) (l : list task) : Z :=
  Z.of_nat (length (filter (fun c => t_job c = jid) l)).

Lemma job_count_cons jid c l :
  job_count jid (c :: l) = (if decide (t_job c = jid) then 1 else 0) + job_count jid l.
Proof.
  unfold job_count. rewrite filter_cons. destruct (decide (t_job c = jid)); simpl length; lia.
Qed.

Lemma job_count_nonneg jid l : 0 <= job_count jid l.
Proof. unfold job_count. lia. Qed.

(* the generalisation over the occupancy map *)
Lemma gang_go_keeps_min : forall s jid j, jobs s !! jid = Some j ->
  forall l occ,
    let o0 := default (ready_num (j_index j)) (occ !! jid) in
    let k := job_count jid (gang_go s occ l) in
    0 < k -> j_min j <= o0 - k.
Proof.
  intros s jid j Hj l. induction l as [|c r IH]; intros occ; simpl.
  - unfold job_count; simpl; lia.
  - destruct (decide (t_job c = jid)) as [Heq|Hne].
    + rewrite Heq, Hj.
      set (o0 := default (ready_num (j_index j)) (occ !! jid)).
      case_bool_decide as Hlt.
      * rewrite job_count_cons, decide_True by done.
        specialize (IH (<[jid := o0 - 1]> occ)). simpl in IH.
        rewrite lookup_insert in IH. simpl in IH.
        pose proof (job_count_nonneg jid (gang_go s (<[jid := o0 - 1]> occ) r)).
        intros _. destruct (decide (0 < job_count jid (gang_go s (<[jid := o0 - 1]> occ) r))) as [Hp|Hp].
        -- specialize (IH Hp). lia.
        -- lia.
      * specialize (IH (<[jid := o0]> occ)). simpl in IH.
        rewrite lookup_insert in IH. exact IH.
    + destruct (jobs s !! t_job c) as [j'|]; [|apply IH].
      case_bool_decide.
      * rewrite job_count_cons, decide_False by done.
        match goal with |- context [gang_go s ?occ' r] => specialize (IH occ') end.
        simpl in IH. rewrite lookup_insert_ne in IH by done. exact IH.
      * match goal with |- context [gang_go s ?occ' r] => specialize (IH occ') end.
        simpl in IH. rewrite lookup_insert_ne in IH by done. exact IH.
Qed.

Theorem gang_vote_keeps_min : forall s l jid j, jobs s !! jid = Some j ->
  let k := Z.of_nat (length (filter (fun c => t_job c = jid) (gang_vote s l))) in
  0 < k -> j_min j <= ready_num (j_index j) - k.
Proof.
  intros s l jid j Hj. pose proof (gang_go_keeps_min s jid j Hj l ∅) as H.
  simpl in H. rewrite lookup_empty in H. exact H.
Qed.

(* priority: only strictly lower priority (job priority across jobs, task priority inside a job) *)

Lemma prio_vote_strict : forall E s p c l, c ∈ prio_vote E s p l ->
  c ∈ l /\ ((t_job c <> t_job p /\ jprio E (t_job c) < jprio E (t_job p)) \/
            (t_job c = t_job p /\ t_prio c < t_prio p)).
Proof.
  intros E s p c l. unfold prio_vote. destruct (jobs s !! t_job p); [|intros H; inversion H].
  rewrite elem_of_list_filter. unfold prio_ok. intros [Hok Hin]. split; [exact Hin|].
  destruct (jobs s !! t_job c); [|discriminate].
  case_bool_decide; apply bool_decide_eq_true in Hok; auto.
Qed.

(* the vote also requires both jobs to be known to the session *)
Lemma prio_vote_jobs_known : forall E s p c l, c ∈ prio_vote E s p l ->
  is_Some (jobs s !! t_job p) /\ is_Some (jobs s !! t_job c).
Proof.
  intros E s p c l. unfold prio_vote. destruct (jobs s !! t_job p); [|intros H; inversion H].
  rewrite elem_of_list_filter. unfold prio_ok. intros [Hok _].
  destruct (jobs s !! t_job c); [eauto|discriminate].
Qed.

(* conformance: exactly the non-critical candidates *)

Lemma conf_vote_spec : forall E c l, c ∈ conf_vote E l <-> c ∈ l /\ critical E c = false.
Proof. intros. unfold conf_vote. rewrite elem_of_list_filter. tauto. Qed.

(* proportion: the vote is a sublist of the candidates *)

Lemma prop_go_sublist : forall eps E s l al, sublist (prop_go eps E s al l) l.
Proof.
  intros eps E s l. induction l as [|c r IH]; intros al; simpl.
  - constructor.
  - destruct (jobs s !! t_job c) as [j|]; [|apply sublist_cons, IH].
    destruct (e_queues E !! j_queue j) as [q|]; [|apply sublist_cons, IH].
    destruct (negb (qx_known q)); [apply sublist_cons, IH|].
    destruct (negb (less_equal eps _ _ _)); [apply sublist_skip, IH|apply sublist_cons, IH].
Qed.

Lemma prop_vote_subset : forall eps E s l c, c ∈ prop_vote eps E s l -> c ∈ l.
Proof. intros eps E s l c. apply sublist_elem, prop_go_sublist. Qed.

(* proportion: a victim is taken only while its queue's running allocation is NOT <= deserved *)

(* the running-allocation map [prop_go] has reached after the candidates [l] (same recursion) *)
Fixpoint prop_al (eps : Z) (E : env) (s : sess) (al : gmap positive res) (l : list task)
    : gmap positive res :=
  match l with
  | [] => al
  | c :: r =>
    match jobs s !! t_job c with
    | None => prop_al eps E s al r
    | Some j =>
      match e_queues E !! j_queue j with
      | None => prop_al eps E s al r
      | Some q =>
        if negb (qx_known q) then prop_al eps E s al r else
        let a := default (share_of s (j_queue j)) (al !! j_queue j) in
        if negb (less_equal eps a (qx_des_hi q) DZero)
        then prop_al eps E s (<[j_queue j := sub a (t_req c)]> al) r
        else prop_al eps E s (<[j_queue j := a]> al) r
      end
    end
  end.

Lemma prop_go_app : forall eps E s l1 l2 al,
  prop_go eps E s al (l1 ++ l2) =
  prop_go eps E s al l1 ++ prop_go eps E s (prop_al eps E s al l1) l2.
Proof.
  intros eps E s l1 l2. induction l1 as [|c r IH]; intros al; simpl; [reflexivity|].
  destruct (jobs s !! t_job c) as [j|]; [|apply IH].
  destruct (e_queues E !! j_queue j) as [q|]; [|apply IH].
  destruct (negb (qx_known q)); [apply IH|].
  destruct (negb (less_equal eps _ _ _)); simpl; [f_equal|]; apply IH.
Qed.

Lemma prop_al_app : forall eps E s l1 l2 al,
  prop_al eps E s al (l1 ++ l2) = prop_al eps E s (prop_al eps E s al l1) l2.
Proof.
  intros eps E s l1 l2. induction l1 as [|c r IH]; intros al; simpl; [reflexivity|].
  destruct (jobs s !! t_job c) as [j|]; [|apply IH].
  destruct (e_queues E !! j_queue j) as [q|]; [|apply IH].
  destruct (negb (qx_known q)); [apply IH|].
  destruct (negb (less_equal eps _ _ _)); apply IH.
Qed.

(* the queue of a candidate, when its job is known to the session *)
Definition cand_queue (s : sess) (c : task) : option positive := j_queue <$> jobs s !! t_job c.

(* the victims of queue [qid] among [l] (std++ Prop-filter), and their requests taken off [a] in order *)
Definition queue_victims (s : sess) (qid : positive) (l : list task) : list task :=
  filter (fun v => cand_queue s v = Some qid) l.
Definition sub_reqs (a : res) (vs : list task) : res := fold_left (fun a v => sub a (t_req v)) vs a.

(* every returned victim has a known job, a known queue and a known deserved *)
Lemma prop_go_known : forall eps E s l al c, c ∈ prop_go eps E s al l ->
  exists j q, jobs s !! t_job c = Some j /\ e_queues E !! j_queue j = Some q /\ qx_known q = true.
Proof.
  intros eps E s l. induction l as [|c0 r IH]; intros al c; simpl; [intros H; inversion H|].
  destruct (jobs s !! t_job c0) as [j|] eqn:Hj; [|apply IH].
  destruct (e_queues E !! j_queue j) as [q|] eqn:Hq; [|apply IH].
  destruct (qx_known q) eqn:Hk; simpl; [|apply IH].
  destruct (negb (less_equal eps _ _ _)); [|apply IH].
  intros [->|H]%elem_of_cons; [eauto|eapply IH, H].
Qed.

(* a queue whose running allocation is <= deserved loses no further task: the value is carried
   unchanged through the rest of the list *)
Lemma prop_go_saturated : forall eps E s qid q a, e_queues E !! qid = Some q ->
  less_equal eps a (qx_des_hi q) DZero = true ->
  forall l al c, al !! qid = Some a -> c ∈ prop_go eps E s al l -> cand_queue s c <> Some qid.
Proof.
  intros eps E s qid q a Hq Hle l. induction l as [|c0 r IH]; intros al c Hal; simpl; [intros H; inversion H|].
  destruct (jobs s !! t_job c0) as [j|] eqn:Hj; [|apply IH, Hal].
  destruct (e_queues E !! j_queue j) as [q'|] eqn:Hq'; [|apply IH, Hal].
  destruct (qx_known q') eqn:Hk; simpl; [|apply IH, Hal].
  destruct (decide (j_queue j = qid)) as [Heq|Hne].
  - rewrite Heq in *. rewrite Hq in Hq'. injection Hq' as <-. rewrite Hal. simpl. rewrite Hle. simpl.
    apply IH. apply lookup_insert.
  - destruct (negb (less_equal eps _ _ _)).
    + intros [->|H]%elem_of_cons.
      * unfold cand_queue. rewrite Hj. simpl. congruence.
      * eapply IH, H. rewrite lookup_insert_ne by done. exact Hal.
    + apply IH. rewrite lookup_insert_ne by done. exact Hal.
Qed.

(* one step of the recursion on a candidate with known job / queue / deserved *)
Lemma prop_go_step : forall eps E s al c l2 j q,
  jobs s !! t_job c = Some j -> e_queues E !! j_queue j = Some q -> qx_known q = true ->
  let a := default (share_of s (j_queue j)) (al !! j_queue j) in
  prop_go eps E s al (c :: l2) =
    (if less_equal eps a (qx_des_hi q) DZero then [] else [c]) ++
    prop_go eps E s (prop_al eps E s al [c]) l2.
Proof.
  intros eps E s al c l2 j q Hj Hq Hk. simpl. rewrite Hj, Hq, Hk. simpl.
  destruct (less_equal eps _ _ _); reflexivity.
Qed.

(* a candidate that is passed over does not come back: [c] is in the remaining vote only if its queue's
   running allocation is not <= deserved *)
Lemma prop_head_taken : forall eps E s al c l2 j q,
  jobs s !! t_job c = Some j -> e_queues E !! j_queue j = Some q -> qx_known q = true ->
  c ∈ prop_go eps E s al (c :: l2) ->
  less_equal eps (default (share_of s (j_queue j)) (al !! j_queue j)) (qx_des_hi q) DZero = false.
Proof.
  intros eps E s al c l2 j q Hj Hq Hk. simpl. rewrite Hj, Hq, Hk. simpl.
  destruct (less_equal eps _ _ _) eqn:Hle; simpl; try done.
  intros Hh. exfalso.
  eapply (prop_go_saturated eps E s (j_queue j) q _ Hq Hle); [apply lookup_insert|exact Hh|].
  unfold cand_queue. rewrite Hj. reflexivity.
Qed.

(* the running allocation of a queue = its session share minus the requests of its victims so far *)
Lemma prop_al_default : forall eps E s qid l al,
  default (share_of s qid) (prop_al eps E s al l !! qid) =
  sub_reqs (default (share_of s qid) (al !! qid)) (queue_victims s qid (prop_go eps E s al l)).
Proof.
  intros eps E s qid l. induction l as [|c r IH]; intros al; simpl; [reflexivity|].
  destruct (jobs s !! t_job c) as [j|] eqn:Hj; [|apply IH].
  destruct (e_queues E !! j_queue j) as [q|] eqn:Hq; [|apply IH].
  destruct (qx_known q) eqn:Hk; simpl; [|apply IH].
  unfold queue_victims, sub_reqs in *.
  destruct (negb (less_equal eps _ _ _)).
  - rewrite IH. destruct (decide (j_queue j = qid)) as [<-|Hne].
    + rewrite filter_cons_True by (unfold cand_queue; rewrite Hj; reflexivity).
      rewrite lookup_insert. reflexivity.
    + rewrite filter_cons_False by (unfold cand_queue; rewrite Hj; simpl; congruence).
      rewrite lookup_insert_ne by done. reflexivity.
  - rewrite IH. destruct (decide (j_queue j = qid)) as [<-|Hne].
    + rewrite lookup_insert. reflexivity.
    + rewrite lookup_insert_ne by done. reflexivity.
Qed.

Lemma prop_al_spec : forall eps E s l1 qid a,
  prop_al eps E s ∅ l1 !! qid = Some a ->
  a = fold_left (fun a v => sub a (t_req v))
        (filter (fun v => cand_queue s v = Some qid) (prop_vote eps E s l1)) (share_of s qid).
Proof.
  intros eps E s l1 qid a Ha. pose proof (prop_al_default eps E s qid l1 ∅) as H.
  rewrite Ha, lookup_empty in H. exact H.
Qed.

(* the pieces put together, for the vote on [l1 ++ c :: l2] *)
Theorem prop_vote_above_deserved : forall eps E s l1 c l2 j q,
  jobs s !! t_job c = Some j -> e_queues E !! j_queue j = Some q -> qx_known q = true ->
  let al1 := prop_al eps E s ∅ l1 in
  let a1 := sub_reqs (share_of s (j_queue j)) (queue_victims s (j_queue j) (prop_vote eps E s l1)) in
  prop_vote eps E s (l1 ++ c :: l2) = prop_vote eps E s l1 ++ prop_go eps E s al1 (c :: l2) /\
  default (share_of s (j_queue j)) (al1 !! j_queue j) = a1 /\
  (head (prop_go eps E s al1 (c :: l2)) = Some c <-> less_equal eps a1 (qx_des_hi q) DZero = false) /\
  prop_go eps E s al1 (c :: l2) =
    (if less_equal eps a1 (qx_des_hi q) DZero then [] else [c]) ++
    prop_go eps E s (prop_al eps E s ∅ (l1 ++ [c])) l2.
Proof.
  intros eps E s l1 c l2 j q Hj Hq Hk al1 a1.
  assert (Ha : default (share_of s (j_queue j)) (al1 !! j_queue j) = a1).
  { unfold al1, a1. rewrite prop_al_default, lookup_empty. reflexivity. }
  split; [apply prop_go_app|]. split; [exact Ha|]. split.
  - rewrite <- Ha. split; [intros Hh%head_Some_elem_of; eapply prop_head_taken; eauto|].
    intros Hle. simpl. rewrite Hj, Hq, Hk, Hle. reflexivity.
  - rewrite <- Ha, prop_al_app. apply prop_go_step; assumption.
Qed.

(* the occurrence-free form: every victim of the proportion vote sits at a position [l1 ++ c :: l2]
   of the candidate list at which its queue's running allocation (session share minus the requests
   of the queue's victims among [l1]) was not <= deserved *)
Theorem prop_vote_victim_above : forall eps E s l c, c ∈ prop_vote eps E s l ->
  exists l1 l2 j q,
    l = l1 ++ c :: l2 /\ jobs s !! t_job c = Some j /\ e_queues E !! j_queue j = Some q /\
    qx_known q = true /\
    less_equal eps (sub_reqs (share_of s (j_queue j))
                      (queue_victims s (j_queue j) (prop_vote eps E s l1)))
               (qx_des_hi q) DZero = false.
Proof.
  intros eps E s l c Hc.
  destruct (prop_go_known _ _ _ _ _ _ Hc) as (j & q & Hj & Hq & Hk).
  pose proof (prop_vote_subset _ _ _ _ _ Hc) as Hin.
  apply elem_of_list_split in Hin as (l1 & l2 & ->).
  (* take the FIRST split at which c is returned: induct on l1 *)
  revert Hc. unfold prop_vote.
  assert (G : forall l1 al, c ∈ prop_go eps E s al (l1 ++ c :: l2) ->
    exists l1' l2', l1 ++ c :: l2 = l1' ++ c :: l2' /\
      less_equal eps (default (share_of s (j_queue j)) (prop_al eps E s al l1' !! j_queue j))
        (qx_des_hi q) DZero = false).
  { clear l1. intros l1 al. rewrite prop_go_app. intros [H|H]%elem_of_app.
    - (* returned from the prefix: c occurs in l1 *)
      revert al H. induction l1 as [|c0 r IH]; intros al H; [inversion H|].
      assert (Hr : c0 = c \/ exists al', c ∈ prop_go eps E s al' r /\
                      forall l', prop_al eps E s al (c0 :: l') = prop_al eps E s al' l').
      { simpl in H |- *. destruct (jobs s !! t_job c0) as [j0|]; [|eauto].
        destruct (e_queues E !! j_queue j0) as [q0|]; [|eauto].
        destruct (negb (qx_known q0)); [eauto|].
        destruct (negb (less_equal eps _ _ _)); [|eauto].
        apply elem_of_cons in H as [->|H]; [left; reflexivity|right; eauto]. }
      destruct Hr as [->|Hr].
      + exists [], (r ++ c :: l2). split; [reflexivity|]. simpl.
        eapply prop_head_taken; eauto.
      + destruct Hr as (al' & Hr & Hal).
        destruct (IH al' Hr) as (l1' & l2' & Heq & Hle).
        exists (c0 :: l1'), l2'. split; [simpl; rewrite Heq; reflexivity|].
        rewrite Hal. exact Hle.
    - exists l1, l2. split; [reflexivity|]. eapply prop_head_taken; eauto. }
  intros Hc. destruct (G l1 ∅ Hc) as (l1' & l2' & Heq & Hle).
  exists l1', l2', j, q. split; [exact Heq|]. repeat split; try assumption.
  rewrite prop_al_default, lookup_empty in Hle. exact Hle.
Qed.

(* the victims are candidates *)

Lemma victims_subset : forall eps E k s p l c, c ∈ victims eps E k s p l -> c ∈ l.
Proof. intros eps E k s p l c. unfold victims. rewrite elem_of_list_filter. tauto. Qed.

Lemma victims_sublist : forall eps E k s p l, sublist (victims eps E k s p l) l.
Proof.
  intros. unfold victims. generalize (victim_ids eps E k s p l). intros ids.
  induction l as [|a l IH]; [constructor|].
  rewrite filter_cons. destruct (decide _); [apply sublist_skip, IH|apply sublist_cons, IH].
Qed.

Lemma victims_iff : forall eps E k s p l c,
  c ∈ victims eps E k s p l <-> c ∈ l /\ In (uid_of c) (victim_ids eps E k s p l).
Proof.
  intros. unfold victims, is_victim. rewrite elem_of_list_filter, bool_decide_eq_true, elem_of_list_In.
  tauto.
Qed.

(* capacity: the vote returns candidates only *)
Lemma cap_go_tr_subset : forall eps E s p l al c a, (c, a) ∈ cap_go_tr eps E s p al l -> c ∈ l.
Proof.
  intros eps E s p l. induction l as [|c0 r IH]; intros al c a; simpl; [intros H; inversion H|].
  destruct (jobs s !! t_job c0) as [j|]; [|intros H; right; eapply IH, H].
  destruct (e_queues E !! j_queue j) as [q|]; [|intros H; right; eapply IH, H].
  destruct (negb (qx_cap_known q)); [intros H; right; eapply IH, H|].
  destruct (negb (intersects eps true (t_req c0) (t_init p))); [intros H; right; eapply IH, H|].
  destruct (negb (less_equal eps (qx_cap_guar q) _ DZero)); [intros H; right; eapply IH, H|].
  destruct (_ || _); [|intros H; right; eapply IH, H].
  intros H. apply elem_of_cons in H as [[= -> ->]|H]; [left|right; eapply IH, H].
Qed.

Lemma find_task_in l i c : find_task l i = Some c -> c ∈ l /\ t_id c = i.
Proof.
  unfold find_task. destruct (filter _ l) as [|c' r] eqn:Hf; [discriminate|]. intros [= ->].
  assert (H : c ∈ filter (fun c0 => bool_decide (t_id c0 = i) = true) l) by (rewrite Hf; left).
  apply elem_of_list_filter in H as [H1 H2]. apply bool_decide_eq_true in H1. auto.
Qed.

Lemma cap_vote_subset : forall eps E s p l c, c ∈ cap_vote eps E s p l -> c ∈ l.
Proof.
  intros eps E s p l c. unfold cap_vote, cap_go. destruct (cap_reclaimer_ok E s p); [|intros H; inversion H].
  intros H. apply elem_of_list_fmap in H as ([c' a] & -> & H). simpl.
  apply cap_go_tr_subset in H. apply elem_of_list_omap in H as (i & _ & H). apply (find_task_in _ _ _ H).
Qed.

(* drf: the vote returns candidates only, each with a remainder that passed the share test (which remainder it
   is, is said by drf_go_tr_meaning below) *)
Lemma drf_go_tr_spec : forall eps s ls l al c left, (c, left) ∈ drf_go_tr eps s ls al l ->
  c ∈ l /\ drf_lets_go ls (dom_share eps left (total_res s)) = true.
Proof.
  intros eps s ls l. induction l as [|c0 r IH]; intros al c left; simpl; [intros H; inversion H|].
  destruct (jobs s !! t_job c0) as [j|]; [|intros H; destruct (IH _ _ _ H); split; [right|]; auto].
  destruct (drf_lets_go ls _) eqn:Hd.
  - intros H. apply elem_of_cons in H as [[= -> ->]|H]; [split; [left|exact Hd]|].
    destruct (IH _ _ _ H). split; [right|]; auto.
  - intros H. destruct (IH _ _ _ H). split; [right|]; auto.
Qed.

Lemma drf_vote_subset : forall eps s p l c, c ∈ drf_vote eps s p l -> c ∈ l.
Proof.
  intros eps s p l c. unfold drf_vote. destruct (jobs s !! t_job p); [|intros H; inversion H].
  intros H. apply elem_of_list_fmap in H as ([c' a] & -> & H). apply drf_go_tr_spec in H. apply H.
Qed.

(* every vote is a subset of the candidates *)
Lemma vote_of_subset : forall eps E k s p l pk v c,
  vote_of eps E k s p l pk = Some v -> c ∈ v -> c ∈ l.
Proof.
  intros eps E k s p l pk v c. destruct pk; simpl.
  - intros [= <-]. apply gang_vote_subset.
  - destruct (is_reclaim k); [discriminate|]. intros [= <-] H. apply prio_vote_strict in H. tauto.
  - intros [= <-] H. apply conf_vote_spec in H. tauto.
  - destruct (is_reclaim k); [|discriminate]. intros [= <-]. apply prop_vote_subset.
  - destruct (is_reclaim k); [|discriminate]. intros [= <-]. apply cap_vote_subset.
  - destruct (is_reclaim k); [discriminate|]. intros [= <-]. apply drf_vote_subset.
Qed.

(* every victim was put forward by every enabled registered plugin of the deciding tier *)

(* the enable flag the action looks at *)
Definition plug_enabled (k : akind) (pl : plug) : bool := if is_reclaim k then p_rec pl else p_pre pl.

(* a plugin takes part in the vote iff it is enabled for the action and registered a function for it
   (a registered function never abstains in this model: flag 1) *)
Lemma slot_voting : forall eps E k s p l pl,
  voting (slot_of eps E k s p l pl) = true <->
  plug_enabled k pl = true /\ is_Some (vote_of eps E k s p l (p_kind pl)).
Proof.
  intros. unfold slot_of, voting, active, plug_enabled.
  destruct (vote_of eps E k s p l (p_kind pl)) as [v|]; simpl.
  - rewrite !andb_true_r. split; [eauto|tauto].
  - rewrite andb_false_r. split; [discriminate|]. intros [_ [? ?]]. discriminate.
Qed.

Lemma slot_cands : forall eps E k s p l pl v,
  vote_of eps E k s p l (p_kind pl) = Some v ->
  v_cands (s_ans (slot_of eps E k s p l pl)) = map uid_of v.
Proof. intros. unfold slot_of. rewrite H. reflexivity. Qed.

Lemma in_map_uid : forall (v : list task) c, In (uid_of c) (map uid_of v) -> exists c', c' ∈ v /\ t_id c' = t_id c.
Proof.
  intros v c H. apply in_map_iff in H as (c' & Hid & Hin). exists c'. split; [apply elem_of_list_In, Hin|].
  unfold uid_of in Hid. congruence.
Qed.

(* [tier] (a tier of the configuration) decides the vote: all tiers before it agree on nothing, it
   has a voter, and the selected ids are its agreement *)
Definition deciding (eps : Z) (E : env) (k : akind) (s : sess) (p : task) (l : list task)
    (tier : list plug) : Prop :=
  exists pre post,
    e_tiers E = pre ++ tier :: post /\
    vote_layout eps E k s p l =
      map (map (slot_of eps E k s p l)) pre ++ map (slot_of eps E k s p l) tier ::
      map (map (slot_of eps E k s p l)) post /\
    Forall (fun t' => agreement (map (slot_of eps E k s p l) t') = []) pre /\
    victim_ids eps E k s p l = agreement (map (slot_of eps E k s p l) tier) /\
    exists pl v, pl ∈ tier /\ plug_enabled k pl = true /\ vote_of eps E k s p l (p_kind pl) = Some v.

Lemma victims_deciding_exists : forall eps E k s p l c,
  c ∈ victims eps E k s p l -> exists tier, deciding eps E k s p l tier.
Proof.
  intros eps E k s p l c Hc. apply victims_iff in Hc as [_ Hc]. unfold victim_ids in Hc.
  destruct (victims_respect_deciding_tier _ _ Hc) as (pre & t & post & Hl & Hpre & Hag & (sl & Hsl & Hv) & _).
  unfold vote_layout in Hl.
  destruct (map_eq_app_cons _ _ _ _ _ Hl) as (lp & tier & lq & HE & <- & <- & <-).
  exists tier, lp, lq. split; [exact HE|]. split; [unfold vote_layout; rewrite HE, map_app; reflexivity|].
  split; [rewrite Forall_map in Hpre; exact Hpre|]. split; [exact Hag|].
  apply in_map_iff in Hsl as (pl & <- & Hpl). apply slot_voting in Hv as [Hen [v Hv]].
  exists pl, v. split; [apply elem_of_list_In, Hpl|auto].
Qed.

Lemma deciding_voters : forall eps E k s p l tier c,
  deciding eps E k s p l tier -> c ∈ victims eps E k s p l ->
  forall pl v, pl ∈ tier -> plug_enabled k pl = true -> vote_of eps E k s p l (p_kind pl) = Some v ->
    exists c', c' ∈ v /\ t_id c' = t_id c.
Proof.
  intros eps E k s p l tier c (pre & post & _ & _ & _ & Hag & _) Hc pl v Hpl Hen Hv.
  apply victims_iff in Hc as [_ Hc]. rewrite Hag in Hc. apply in_agreement in Hc as [_ Hall].
  apply in_map_uid. rewrite <- (slot_cands eps E k s p l pl v Hv). apply Hall.
  - apply in_map, elem_of_list_In, Hpl.
  - apply slot_voting. eauto.
Qed.

(* with distinct candidate ids the victim itself is in every vote of the deciding tier, hence
      satisfies every voter's eligibility condition *)

Theorem victim_in_every_vote : forall eps E k s p l tier c pl v,
  NoDup (map t_id l) -> deciding eps E k s p l tier -> c ∈ victims eps E k s p l ->
  pl ∈ tier -> plug_enabled k pl = true -> vote_of eps E k s p l (p_kind pl) = Some v ->
  c ∈ v.
Proof.
  intros eps E k s p l tier c pl v Hnd Hd Hc Hpl Hen Hv.
  destruct (deciding_voters _ _ _ _ _ _ _ _ Hd Hc pl v Hpl Hen Hv) as (c' & Hc' & Hid).
  assert (c' = c) as <-; [|exact Hc'].
  eapply nodup_id_inj; eauto using vote_of_subset, victims_subset.
Qed.

Theorem victim_prop_above : forall eps E k s p l tier c pl,
  NoDup (map t_id l) -> deciding eps E k s p l tier -> c ∈ victims eps E k s p l ->
  pl ∈ tier -> p_kind pl = KProp -> plug_enabled k pl = true -> is_reclaim k = true ->
  exists l1 l2 j q,
    l = l1 ++ c :: l2 /\ jobs s !! t_job c = Some j /\ e_queues E !! j_queue j = Some q /\
    qx_known q = true /\
    less_equal eps (sub_reqs (share_of s (j_queue j))
                      (queue_victims s (j_queue j) (prop_vote eps E s l1)))
               (qx_des_hi q) DZero = false.
Proof.
  intros eps E k s p l tier c pl Hnd Hd Hc Hpl Hk Hen Hr.
  apply prop_vote_victim_above.
  eapply (victim_in_every_vote eps E k s p l tier c pl); eauto. rewrite Hk. simpl. rewrite Hr. reflexivity.
Qed.

(* all per-kind consequences at once, for every enabled plugin of the deciding tier *)
Theorem victims_eligible : forall eps E k s p l c,
  NoDup (map t_id l) -> c ∈ victims eps E k s p l ->
  c ∈ l /\
  exists tier, deciding eps E k s p l tier /\
    forall pl, pl ∈ tier -> plug_enabled k pl = true ->
      match p_kind pl with
      | KGang => c ∈ gang_vote s l
      | KConf => critical E c = false
      | KPrio => is_reclaim k = false ->
          (t_job c <> t_job p /\ jprio E (t_job c) < jprio E (t_job p)) \/
          (t_job c = t_job p /\ t_prio c < t_prio p)
      | KProp => is_reclaim k = true -> c ∈ prop_vote eps E s l
      | KCap => is_reclaim k = true -> c ∈ cap_vote eps E s p l
      | KDrf => is_reclaim k = false -> c ∈ drf_vote eps s p l
      end.
Proof.
  intros eps E k s p l c Hnd Hc. split; [eapply victims_subset, Hc|].
  destruct (victims_deciding_exists _ _ _ _ _ _ _ Hc) as [tier Hd]. exists tier. split; [exact Hd|].
  intros pl Hpl Hen.
  pose proof (fun v => victim_in_every_vote eps E k s p l tier c pl v Hnd Hd Hc Hpl Hen) as Hin.
  destruct (p_kind pl); simpl in Hin; try (intros Hr; rewrite Hr in Hin); specialize (Hin _ eq_refl).
  - exact Hin.
  - apply prio_vote_strict in Hin. tauto.
  - apply conf_vote_spec in Hin. tauto.
  - exact Hin.
  - exact Hin.
  - exact Hin.
Qed.

(* non-vacuity: one job, three Running tasks, MinAvailable 2 *)
Section Examples.
  Let r1 : res := mkRes 1000 1000 None.
  Let tk (i : positive) (prio : Z) : task :=
    mkTask i 1%positive 1%positive 1%positive prio r1 r1 false true Running (Some 1%positive).
  Let t1 := tk 11%positive 5.
  Let t2 := tk 12%positive 5.
  Let t3 := tk 13%positive 5.
  Let ids : gset positive := {[11%positive; 12%positive; 13%positive]}.
  Let j1 : job :=
    mkJob 1%positive 1%positive 2 ∅ 0 ids {[skey Running := ids]} (mkRes 3000 3000 None)
          (mkRes 3000 3000 None) ∅ ∅.
  Let s0 : sess :=
    mkSess (list_to_map [(11%positive, t1); (12%positive, t2); (13%positive, t3)])
           {[1%positive := j1]} ∅ {[1%positive := mkRes 3000 3000 None]} [] ∅ ∅ ∅ [] [] ∅ ∅ true.

  Example ex_ready_num : ready_num (j_index j1) = 3.
  Proof. vm_compute. reflexivity. Qed.

  (* exactly one of the three may go: 3 ready, 2 needed *)
  Example ex_gang_vote_one : gang_vote s0 [t1; t2; t3] = [t1].
  Proof. vm_compute. reflexivity. Qed.

  (* the premise [0 < k] of gang_vote_keeps_min is met with k = 1, and the bound is tight *)
  Example ex_gang_keeps_min :
    job_count 1%positive (gang_vote s0 [t1; t2; t3]) = 1 /\
    j_min j1 = ready_num (j_index j1) - 1.
  Proof. vm_compute. split; reflexivity. Qed.

  (* the order of enumeration decides who is offered *)
  Example ex_gang_vote_order : gang_vote s0 [t3; t1; t2] = [t3].
  Proof. vm_compute. reflexivity. Qed.

  (* tier walk: gang + conformance in one tier, preemptor of another (unknown-priority) job *)
  Let E0 : env :=
    mkEnv [[mkPlug KConf true true; mkPlug KGang true true]] ∅ ∅ {[12%positive]} ∅ [] [].
  Let pre0 : task :=
    mkTask 21%positive 2%positive 1%positive 1%positive 9 r1 r1 false true Pending None.

  Example ex_victims : victims 1 E0 AInter s0 pre0 [t1; t2; t3] = [t1].
  Proof. vm_compute. reflexivity. Qed.

  (* with t1 critical instead, the tier's agreement is empty and nobody is selected *)
  Let E1 : env :=
    mkEnv [[mkPlug KConf true true; mkPlug KGang true true]] ∅ ∅ {[11%positive]} ∅ [] [].
  Example ex_victims_none : victims 1 E1 AInter s0 pre0 [t1; t2; t3] = [].
  Proof. vm_compute. reflexivity. Qed.

  (* proportion: queue 1 deserves 2000; its share is 3000; one victim brings it to 2000 <= deserved *)
  Let E2 : env :=
    mkEnv [[mkPlug KProp true true]] ∅ ∅ ∅
          {[1%positive := mkQx true true true (mkRes 2000 2000 None) (mkRes 2000 2000 None) (mkRes 2000 2000 None)
                                  false empty_res empty_res empty_res]} [] [].
  Example ex_prop_vote : prop_vote 1 E2 s0 [t1; t2; t3] = [t1].
  Proof. vm_compute. reflexivity. Qed.
End Examples.

(* JobPipelined with role minimums.  With gang configured in some tier a job statement is
   committed only if gang's vote permits, and that vote includes CheckTaskPipelined, which ranges
   over TaskMinAvailable (j_role_min): EVERY role with a minimum, a role without a single occupied
   pod included, has reached it (unless the role minimums exceed minMember in total, in which case
   the code does not look at them). *)
Definition is_gang (pl : plug) : bool := match p_kind pl with KGang => true | _ => false end.
Definition gang_in (ts : list (list plug)) : bool := existsb (existsb is_gang) ts.
Definition pip_slot (g : bool) (pl : plug) : slot Z :=
  match p_kind pl with
  | KGang => mkSlot true true (if g then 1 else -1)
  | _ => mkSlot true false 0
  end.

Lemma pipelined_layout_eq E s j :
  pipelined_layout E s j = map (map (pip_slot (gang_job_pipelined (heap s) j))) (e_tiers E).
Proof. reflexivity. Qed.

Lemma vote_tier_reject t hf :
  vote_tier hf (map (pip_slot false) t) = if existsb is_gang t then None else Some hf.
Proof.
  revert hf. induction t as [|a t IH]; intros hf; [reflexivity|].
  cbn [map existsb vote_tier]. unfold pip_slot at 1 2 3, is_gang at 1.
  destruct (p_kind a); cbn; apply IH || reflexivity.
Qed.

Lemma vote_tiers_reject ts : gang_in ts = true -> vote_tiers (map (map (pip_slot false)) ts) = false.
Proof.
  unfold gang_in. induction ts as [|t ts IH]; [discriminate|].
  cbn [map existsb vote_tiers]. rewrite vote_tier_reject.
  destruct (existsb is_gang t); [reflexivity|]. cbn. exact IH.
Qed.

Lemma pipelined_now_gang E s j :
  gang_in (e_tiers E) = true -> job_pipelined_now E s j = true -> gang_job_pipelined (heap s) j = true.
Proof.
  intros Hg. unfold job_pipelined_now. rewrite pipelined_layout_eq.
  destruct (gang_job_pipelined (heap s) j); [reflexivity|].
  rewrite (vote_tiers_reject _ Hg). discriminate.
Qed.

Lemma gang_pipelined_roles h j :
  gang_job_pipelined h j = true ->
  is_pipelined h (j_index j) (j_min j) = true /\
  (j_role_total j <= j_min j ->
   forall r m, j_role_min j !! r = Some m -> m <= role_occupied h (j_index j) true r).
Proof.
  unfold gang_job_pipelined, check_task_pipelined, roles_ok.
  intros [Hr Hp]%andb_true_iff. split; [exact Hp|].
  intros Hle r m Hm.
  rewrite bool_decide_eq_false_2 in Hr by lia.
  apply bool_decide_eq_true_1 in Hr. specialize (Hr r m Hm). cbn beta in Hr.
  apply bool_decide_eq_true_1 in Hr. exact Hr.
Qed.

(* the statement on close_job: a job statement whose records survive (the statement was committed)
   belongs to a job that reached minMember AND every role minimum, counting pipelined pods *)
Lemma committed_job_reached_role_minimums eps E s jid j lg s' lg' :
  jobs s !! jid = Some j -> gang_in (e_tiers E) = true ->
  close_job eps E s jid lg = (s', lg') -> lg' <> [] ->
  is_pipelined (heap s) (j_index j) (j_min j) = true /\
  (j_role_total j <= j_min j ->
   forall r m, j_role_min j !! r = Some m -> m <= role_occupied (heap s) (j_index j) true r).
Proof.
  intros Hj Hg. unfold close_job. rewrite Hj.
  destruct (job_pipelined_now E s j) eqn:Hp; intros [= <- <-] Hne; [|congruence].
  apply gang_pipelined_roles, (pipelined_now_gang E); assumption.
Qed.

(* What a victim returned by the drf vote MEANS, tied to drf_vote itself: the candidate
   list splits at the victim, and the preemptor job's share (with the preemptor) is below, or within
   shareDelta of, the share of what the victim's job holds (handler ledger) minus the requests of ALL
   candidates of that job up to and including the victim - whether those were returned or not. *)
Definition drf_left (s : sess) (seen : list task) (j : positive) : res :=
  fold_left (fun a x => sub a (t_req x)) (filter (fun x => t_job x = j) seen) (default empty_res (hshare s !! j)).

Lemma drf_go_tr_meaning eps s ls l : forall seen al c left,
  (forall j, default (default empty_res (hshare s !! j)) (al !! j) = drf_left s seen j) ->
  (c, left) ∈ drf_go_tr eps s ls al l ->
  exists pre post, l = pre ++ c :: post /\ jobs s !! t_job c <> None /\
    left = drf_left s (seen ++ pre ++ [c]) (t_job c) /\
    drf_lets_go ls (dom_share eps left (total_res s)) = true.
Proof.
  induction l as [|c0 r IH]; intros seen al c left Inv; simpl; [intros H; inversion H|].
  destruct (jobs s !! t_job c0) as [j0|] eqn:Hj0.
  - assert (Inv' : forall j, default (default empty_res (hshare s !! j))
                (<[t_job c0 := sub (default (default empty_res (hshare s !! t_job c0)) (al !! t_job c0)) (t_req c0)]> al !! j)
              = drf_left s (seen ++ [c0]) j).
    { intros j. unfold drf_left. rewrite filter_app, fold_left_app.
      destruct (decide (t_job c0 = j)) as [<-|Hne].
      - rewrite lookup_insert. rewrite filter_cons_True by reflexivity. rewrite filter_nil. simpl.
        rewrite Inv. reflexivity.
      - rewrite lookup_insert_ne by exact Hne. rewrite filter_cons_False by exact Hne. rewrite filter_nil. simpl.
        apply Inv. }
    assert (Tail : (c, left) ∈ drf_go_tr eps s ls
              (<[t_job c0 := sub (default (default empty_res (hshare s !! t_job c0)) (al !! t_job c0)) (t_req c0)]> al) r ->
            exists pre post, c0 :: r = pre ++ c :: post /\ jobs s !! t_job c <> None /\
              left = drf_left s (seen ++ pre ++ [c]) (t_job c) /\
              drf_lets_go ls (dom_share eps left (total_res s)) = true).
    { intros H. destruct (IH _ _ _ _ Inv' H) as (pre & post & -> & Hk & Hl & Hd).
      exists (c0 :: pre), post. split; [reflexivity|]. split; [exact Hk|]. split; [|exact Hd].
      rewrite Hl. f_equal. rewrite <- app_assoc. reflexivity. }
    destruct (drf_lets_go ls (dom_share eps (sub _ _) _)) eqn:Hd; [|exact Tail].
    intros H. apply elem_of_cons in H as [[= -> ->]|H]; [|exact (Tail H)].
    exists [], r. split; [reflexivity|]. split; [rewrite Hj0; discriminate|]. split; [|exact Hd].
    simpl. rewrite <- Inv'. rewrite lookup_insert. reflexivity.
  - (* c0's job is unknown, c's is known (Hk): c0 is not of c's job and does not count in drf_left *)
    intros H. destruct (IH _ _ _ _ Inv H) as (pre & post & -> & Hk & Hl & Hd).
    exists (c0 :: pre), post. split; [reflexivity|]. split; [exact Hk|]. split; [|exact Hd].
    rewrite Hl. unfold drf_left. f_equal. rewrite !filter_app.
    rewrite (filter_cons_False _ c0); [reflexivity|]. intros Heq. rewrite Heq in Hj0. contradiction.
Qed.

Lemma drf_vote_victim_meaning eps s p l c :
  c ∈ drf_vote eps s p l ->
  exists pre post, l = pre ++ c :: post /\
    drf_lets_go (drf_ls eps s p) (dom_share eps (drf_left s (pre ++ [c]) (t_job c)) (total_res s)) = true.
Proof.
  unfold drf_vote. destruct (jobs s !! t_job p); [|intros H; inversion H].
  intros H. apply elem_of_list_fmap in H as ([c' left] & -> & H).
  apply (drf_go_tr_meaning eps s _ l []) in H as (pre & post & Hl & _ & Hleft & Hd).
  - exists pre, post. split; [exact Hl|]. rewrite Hleft in Hd. exact Hd.
  - intros j'. rewrite lookup_empty. reflexivity.
Qed.
