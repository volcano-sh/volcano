(* C04 - proofs about the action skeleton of Model.v: for every session, every plugin layout and
   every oracle choice list.  (The vote lemmas are in VoteLemmas.v.) *)
From V Require Import C11.Model.
From stdpp Require Import gmap.
From Coq Require Import ZArith Lia.
From V Require Import Base.Res Sched.LedgerModel Sched.StmtModel Sched.GangModel C04.Model C04.Frame C04.VoteLemmas.
Open Scope Z_scope.

(* the operations a successful node attempt hands to the caller's statement: the evictions it
   made, then the Pipeline of the task they were made for *)
Definition ev_op (c : task) : oprec := mkOp KEvict (t_id c) (t_status c).
Definition pipe_op (p : task) : oprec := mkOp KPipeline (t_id p) Pending.
Definition block (r : arec) : list oprec := map ev_op (a_evicted r) ++ [pipe_op (a_task r)].
Definition blocks (l : list arec) : list oprec := flat_map block l.

Lemma ops_insert s s0 sid l :
  stmts s = <[sid := l]> (stmts s0) -> ops s sid = l /\ forall x, x <> sid -> ops s x = ops s0 x.
Proof.
  unfold ops. intros ->. rewrite lookup_insert. split; [reflexivity|].
  intros x Hx. rewrite lookup_insert_ne by auto. reflexivity.
Qed.

Lemma jsid_ne_nsid : jsid <> nsid.
Proof. discriminate. Qed.

Section WithEps.
Variable eps : Z.
Variable E : env.

(* a record is sound when its candidates are tasks of the node that pass the action's filter in
   the session the attempt started from, and everything it evicted is a victim of the vote on them *)
Definition rec_sound (r : arec) : Prop :=
  exists n, nodes (a_pre r) !! a_node r = Some n /\
    (forall c, c ∈ a_cands r -> c ∈ node_cands E (a_kind r) (a_pre r) (a_task r) (a_queue r) n) /\
    (forall c, c ∈ a_evicted r ->
       c ∈ victims eps (with_qorder E (a_qorder r)) (a_kind r) (a_pre r) (a_task r) (a_cands r)) /\
    NoDup (map t_id (a_cands r)).

(* a candidate is one of the node's task copies and passes the action's filter *)
Lemma node_cands_in k s p pq n c :
  c ∈ node_cands E k s p pq n <-> (exists i, n_tasks n !! i = Some c) /\ cand_ok E k s p pq c = true.
Proof.
  unfold node_cands. rewrite elem_of_list_filter, elem_of_list_fmap. split.
  - intros [H1 ([i c'] & -> & H)]. apply elem_of_map_to_list in H. split; eauto.
  - intros [[i H] H1]. split; auto. exists (i, c). split; auto. apply elem_of_map_to_list. exact H.
Qed.

(* [s'] is reached from [s] by Statement.Evict, one after the other, of tasks picked by id from the victims [vs]
   not yet taken; [done] collects them.  All three loops of Model.v run like this and differ only in when
   they stop. *)
Inductive evicted : sess -> list task -> list task -> sess -> list task -> Prop :=
| evicted_stop s vs done : evicted s vs done s done
| evicted_step s vs done x c s1 r s' done' :
    find_task vs x = Some c -> stmt_evict_with eps s nsid c None = (s1, r) ->
    evicted s1 (filter (fun v => bool_decide (t_id v = x) = false) vs) (done ++ [c]) s' done' ->
    evicted s vs done s' done'.

Lemma evict_loop_pre_evicted order : forall s pq p nid vs done s' done' v,
  evict_loop_pre eps E s pq p nid vs order done = (s', done', v) -> evicted s vs done s' done'.
Proof.
  induction order as [|x order IH]; intros s pq p nid vs done s' done' v; simpl;
    (destruct (preemptor_fits eps E s pq p nid); [intros [= <- <- <-]; constructor|]).
  - intros [= <- <- <-]. constructor.
  - destruct (find_task vs x) as [c|] eqn:Hf; [|intros [= <- <- <-]; constructor].
    destruct (stmt_evict_with eps s nsid c None) as [s1 r] eqn:He. intros H. eapply evicted_step; eauto.
Qed.

Lemma evict_loop_rec_evicted order : forall s p avail vs done s' done' avail' v,
  evict_loop_rec eps s p avail vs order done = (s', done', avail', v) -> evicted s vs done s' done'.
Proof.
  induction order as [|x order IH]; intros s p avail vs done s' done' avail' v; simpl;
    (destruct (less_equal eps (t_init p) avail DZero); [intros [= <- <- <- <-]; constructor|]).
  - intros [= <- <- <- <-]. constructor.
  - destruct (find_task vs x) as [c|] eqn:Hf; [|intros [= <- <- <- <-]; constructor].
    destruct (stmt_evict_with eps s nsid c None) as [s1 r] eqn:He. intros H. eapply evicted_step; eauto.
Qed.

Lemma evict_all_evicted order : forall s vs done s' done' v,
  evict_all eps s vs order done = (s', done', v) -> evicted s vs done s' done'.
Proof.
  induction order as [|x order IH]; intros s vs done s' done' v; simpl.
  - intros [= <- <- <-]. constructor.
  - destruct (find_task vs x) as [c|] eqn:Hf; [|intros [= <- <- <-]; constructor].
    destruct (stmt_evict_with eps s nsid c None) as [s1 r] eqn:He. intros H. eapply evicted_step; eauto.
Qed.

(* the eviction phase of a node attempt, whichever of the three loops runs *)
Lemma do_evictions_evicted k s p pq a n vs s1 done fits v1 :
  do_evictions eps E k s p pq a n vs = (s1, done, fits, v1) -> evicted s vs [] s1 done.
Proof.
  unfold do_evictions. destruct (at_topo a && negb (is_reclaim k)); [|destruct (is_reclaim k)].
  - destruct (evict_all eps s vs (at_order a) []) as [[s1' done'] v'] eqn:Hl.
    intros [= <- <- <- <-]. apply (evict_all_evicted _ _ _ _ _ _ _ Hl).
  - destruct (evict_loop_rec eps s p (future_idle n) vs (at_order a) []) as [[[s1' done'] av] v'] eqn:Hl.
    intros [= <- <- <- <-]. apply (evict_loop_rec_evicted _ _ _ _ _ _ _ _ _ _ Hl).
  - destruct (evict_loop_pre eps E s pq p (at_node a) vs (at_order a) []) as [[s1' done'] v'] eqn:Hl.
    intros [= <- <- <- <-]. apply (evict_loop_pre_evicted _ _ _ _ _ _ _ _ _ _ Hl).
Qed.

(* evictions only add Evict operations to the node statement; nothing reaches the evictor *)
Lemma evicted_spec s vs done s' done' :
  evicted s vs done s' done' ->
  exists new, done' = done ++ new /\ (forall c, c ∈ new -> c ∈ vs) /\
    evicts s' = evicts s /\ refuse_evict s' = refuse_evict s /\ (heap_ok s -> heap_ok s') /\
    ops s' nsid = ops s nsid ++ map ev_op new /\ (forall sid, sid <> nsid -> ops s' sid = ops s sid).
Proof.
  induction 1 as [s vs done|s vs done x c s1 r s' done' Hf He _ (new & -> & Hsub & f1 & f2 & f3 & f4 & f5)].
  - exists []. rewrite !app_nil_r. repeat split; auto. intros c Hc; inversion Hc.
  - apply stmt_evict_with_spec in He as (e1 & e2 & [e3 e3']%ops_insert & e4).
    exists (c :: new). rewrite <- app_assoc. split; [reflexivity|]. split.
    { intros c0 [->|Hc0]%elem_of_cons; [apply (find_task_in _ _ _ Hf)|].
      apply Hsub, elem_of_list_filter in Hc0. tauto. }
    split; [congruence|]. split; [congruence|]. split; [auto|]. split.
    + rewrite f4, e3, <- app_assoc. reflexivity.
    + intros sid Hs. rewrite (f5 sid Hs). apply (e3' _ Hs).
Qed.

(* the ways a node attempt ends: nothing was done; or victims were evicted in the node statement, and then the
   statement was discarded (bad oracle order, no fit, or a failed Pipeline) or the preemptor was pipelined and
   the node statement merged into the caller's *)
Lemma run_attempt_cases k s p pq a s' ok v lg :
  run_attempt eps E k s p pq a = (s', ok, v, lg) ->
  (s' = s /\ ok = false /\ lg = []) \/
  exists n s1 done,
    let cands := omap (find_task (node_cands E k s p pq n)) (at_cands a) in
    let r := mkRec k s p pq (at_node a) cands (at_qorder a) done in
    nodes s !! at_node a = Some n /\ NoDup (at_cands a) /\
    evicted s (victims eps (with_qorder E (at_qorder a)) k s p cands) [] s1 done /\
    ((s' = stmt_discard eps s1 nsid /\ ok = false /\ (lg = [] \/ lg = [r false])) \/
     exists s2 res, stmt_pipeline eps (set_fault E s1 (t_id p) (at_node a)) nsid (t_id p) (at_node a) = (s2, res) /\
       ((res = ROk /\ s' = stmt_merge s2 jsid nsid /\ ok = true /\ lg = [r true]) \/
        (res <> ROk /\ s' = stmt_discard eps s2 nsid /\ ok = false /\ lg = [r false]))).
Proof.
  unfold run_attempt. destruct (nodes s !! at_node a) as [n|]; [|intros [= <- <- <- <-]; auto].
  destruct (negb (_ && bool_decide (NoDup (at_cands a)) && _)) eqn:Hnd; [intros [= <- <- <- <-]; auto|].
  apply negb_false_iff, andb_true_iff in Hnd as [[_ Hnd%bool_decide_eq_true]%andb_true_iff _].
  destruct (is_reclaim k && _); [intros [= <- <- <- <-]; auto|].
  destruct (negb (less_equal _ _ _ _)); [intros [= <- <- <- <-]; auto|].
  destruct (do_evictions _ _ _ _ _ _ _ _ _) as [[[s1 done] fits] v1] eqn:Hdo. apply do_evictions_evicted in Hdo.
  intros H. right. exists n, s1, done. split; [reflexivity|]. split; [exact Hnd|]. split; [exact Hdo|]. revert H.
  destruct (negb (v1 =? V_OK)); [intros [= <- <- <- <-]; auto|].
  destruct fits; [|intros [= <- <- <- <-]; auto].
  destruct (stmt_pipeline _ _ _ _ _) as [s2 res]. intros H. right. exists s2, res. split; [reflexivity|].
  destruct res; injection H as <- <- <- <-; [left|right..]; repeat split; auto; discriminate.
Qed.

(* what every attempt guarantees, successful or not *)
Definition att_post (s : sess) (s' : sess) (ok : bool) (lg : list arec) : Prop :=
  evicts s' = evicts s /\ refuse_evict s' = refuse_evict s /\ (heap_ok s -> heap_ok s') /\
  ops s' nsid = [] /\
  (forall sid, sid <> nsid -> sid <> jsid -> ops s' sid = ops s sid) /\
  (heap_ok s -> ops s' jsid = ops s jsid ++ blocks (filter a_ok lg)) /\
  ok = existsb a_ok lg /\
  Forall rec_sound lg.

Lemma att_post_unchanged s : ops s nsid = [] -> att_post s s false [].
Proof. intros H. unfold att_post. simpl. rewrite app_nil_r. repeat split; auto. Qed.

Lemma discard_nsid s0 s1 :
  evicts s1 = evicts s0 -> refuse_evict s1 = refuse_evict s0 -> (heap_ok s0 -> heap_ok s1) ->
  (forall sid, sid <> nsid -> ops s1 sid = ops s0 sid) ->
  forall lg, filter a_ok lg = [] -> existsb a_ok lg = false -> Forall rec_sound lg ->
  att_post s0 (stmt_discard eps s1 nsid) false lg.
Proof.
  intros e1 e2 e3 e5 lg Hlg Hex Hs.
  destruct (stmt_discard_spec eps s1 nsid) as (d1 & d2 & [d3 d3']%ops_insert & d4).
  unfold att_post. split; [congruence|]. split; [congruence|]. split; [auto|].
  split; [exact d3|].
  split; [intros sid H1 H2; rewrite (d3' _ H1); auto|].
  split; [intros _; rewrite Hlg; simpl; rewrite app_nil_r;
          rewrite (d3' _ jsid_ne_nsid); apply e5, jsid_ne_nsid|].
  split; auto.
Qed.

Lemma omap_find_in cset (ids : list positive) c : c ∈ omap (find_task cset) ids -> c ∈ cset.
Proof.
  intros H. apply elem_of_list_omap in H as (i & _ & H). apply (find_task_in _ _ _ H).
Qed.

Lemma omap_find_nodup cset (ids : list positive) :
  NoDup ids -> NoDup (map t_id (omap (find_task cset) ids)).
Proof.
  induction 1 as [|i ids Hi _ IH]; simpl; [constructor|].
  destruct (find_task cset i) as [c|] eqn:Hf; [|exact IH]. simpl.
  destruct (find_task_in _ _ _ Hf) as [_ ->]. constructor; [|exact IH].
  intros (c' & Hid & (i' & Hi' & Hf')%elem_of_list_omap)%elem_of_list_fmap.
  destruct (find_task_in _ _ _ Hf') as [_ Hid']. apply Hi. congruence.
Qed.

Lemma run_attempt_spec k s p pq a s' ok v lg :
  ops s nsid = [] ->
  run_attempt eps E k s p pq a = (s', ok, v, lg) -> att_post s s' ok lg.
Proof.
  intros Hn H. apply run_attempt_cases in H as [(-> & -> & ->)|(n & s1 & done & Hnode & Hnd & Hev & H)];
    [apply att_post_unchanged, Hn|].
  apply evicted_spec in Hev as (new & -> & hsub & h2 & h3 & h4 & h5 & h6). rewrite Hn in h5. simpl in *.
  set (cands := omap (find_task (node_cands E k s p pq n)) (at_cands a)) in *.
  (* the record of this attempt is sound whatever its outcome *)
  assert (Hsound : forall b, Forall rec_sound [mkRec k s p pq (at_node a) cands (at_qorder a) new b]).
  { intros b. constructor; [|constructor]. exists n. split; [exact Hnode|]. split; [apply omap_find_in|].
    split; [exact hsub|apply omap_find_nodup, Hnd]. }
  destruct H as [(-> & -> & Hlg)|(s2 & res & Hp & H)].
  { destruct Hlg as [->| ->]; apply discard_nsid; auto. }
  apply stmt_pipeline_spec in Hp as (p1 & p2 & p3 & p4 & p5). simpl in p1, p2, p5.
  destruct H as [(-> & -> & -> & ->)|(Hres & -> & -> & ->)].
  2:{ apply discard_nsid; auto; try congruence.
      intros sid Hs. unfold ops. rewrite (p5 Hres). apply h6, Hs. }
  destruct (p4 eq_refl) as (i & Hi & [Hst Hst']%ops_insert).
  destruct (stmt_merge_spec s2 jsid nsid jsid_ne_nsid) as (m1 & m2 & m4 & o1 & o2 & o3).
  assert (Ho2 : forall sid, sid <> nsid -> ops s2 sid = ops s sid).
  { intros sid Hs. rewrite (Hst' _ Hs). apply h6, Hs. }
  unfold att_post. split; [congruence|]. split; [congruence|]. split; [exact (fun H => m4 (p3 (h4 H)))|].
  split; [exact o1|].
  split; [intros sid H1 H2; rewrite (o3 sid H2 H1); apply Ho2, H1|].
  split; [|split; [reflexivity|apply Hsound]].
  intros Hok. rewrite o2, Hst, (Ho2 jsid jsid_ne_nsid), (Hi (h4 Hok)). simpl.
  rewrite app_nil_r. change (ops (set_fault E s1 (t_id p) (at_node a)) nsid) with (ops s1 nsid).
  rewrite h5. reflexivity.
Qed.

(* a scripted handler fault on (preemptor, node) makes Statement.Pipeline fail: the attempt is never
   assigned, whatever was evicted for it (and by run_attempt_spec it then leaves nothing behind) *)
Lemma faulted_pipeline_never_assigned k s p pq a s' ok v lg :
  heap_ok s -> (t_id p, at_node a) ∈ e_faults E ->
  run_attempt eps E k s p pq a = (s', ok, v, lg) -> ok = false.
Proof.
  intros Hok Hfault H.
  apply run_attempt_cases in H as [(_ & -> & _)|(n & s1 & done & _ & _ & Hev & [(_ & -> & _)|(s2 & res & Hp & H)])];
    try reflexivity.
  destruct H as [(-> & _)|(_ & _ & -> & _)]; [exfalso|reflexivity].
  apply evicted_spec in Hev as (_ & _ & _ & _ & _ & Hok1 & _).
  set (s1f := set_fault E s1 (t_id p) (at_node a)) in Hp.
  destruct (heap s1f !! t_id p) as [p'|] eqn:Hh; [|unfold stmt_pipeline, with_task in Hp; rewrite Hh in Hp; discriminate].
  assert (Hin : t_id p' ∈ herr s1f).
  { unfold s1f, set_fault. simpl. rewrite bool_decide_eq_true_2 by exact Hfault.
    rewrite (Hok1 Hok _ _ Hh). set_solver. }
  pose proof (stmt_pipeline_herr eps s1f nsid (t_id p) (at_node a) p' Hh Hin) as He.
  rewrite Hp in He. discriminate.
Qed.

Lemma blocks_app l1 l2 : blocks (l1 ++ l2) = blocks l1 ++ blocks l2.
Proof. unfold blocks. apply flat_map_app. Qed.

Lemma att_post_trans s s1 s2 ok1 ok2 lg1 lg2 :
  att_post s s1 ok1 lg1 -> att_post s1 s2 ok2 lg2 -> att_post s s2 (ok1 || ok2) (lg1 ++ lg2).
Proof.
  intros (a1 & a2 & a3 & a4 & a5 & a6 & a7 & a8) (b1 & b2 & b3 & b4 & b5 & b6 & b7 & b8).
  unfold att_post. split; [congruence|]. split; [congruence|]. split; [auto|]. split; [auto|].
  split; [intros sid H1 H2; rewrite (b5 sid H1 H2); auto|].
  split.
  { intros Hok. rewrite (b6 (a3 Hok)), (a6 Hok), filter_app, blocks_app, <- app_assoc. reflexivity. }
  split; [rewrite existsb_app; congruence|]. apply Forall_app; auto.
Qed.

Lemma run_attempts_spec k tid pq l : forall s s' ok v lg,
  ops s nsid = [] ->
  run_attempts eps E k s tid pq l = (s', ok, v, lg) -> att_post s s' ok lg.
Proof.
  induction l as [|a l IH]; intros s s' ok v lg Hn; simpl.
  - intros [= <- <- <- <-]. apply att_post_unchanged, Hn.
  - destruct (heap s !! tid) as [p|]; [|intros [= <- <- <- <-]; apply att_post_unchanged, Hn].
    destruct (run_attempt eps E k s p pq a) as [[[s1 ok1] v1] lg1] eqn:Ha.
    apply run_attempt_spec in Ha; [|exact Hn].
    destruct (negb (v1 =? V_OK)); [intros [= <- <- <- <-]; exact Ha|].
    destruct ok1; [intros [= <- <- <- <-]; exact Ha|].
    destruct (run_attempts eps E k s1 tid pq l) as [[[s2 ok2] v2] lg2] eqn:Hr.
    apply IH in Hr; [|apply Ha]. intros [= <- <- <- <-]. apply (att_post_trans _ _ _ false _ _ _ Ha Hr).
Qed.

Lemma run_tasks_spec k jid l : forall s s' v lg,
  ops s nsid = [] ->
  run_tasks eps E k s jid l = (s', v, lg) -> att_post s s' (existsb a_ok lg) lg.
Proof.
  induction l as [|[tid atts] l IH]; intros s s' v lg Hn; simpl.
  - intros [= <- <- <-]. apply att_post_unchanged, Hn.
  - destruct (jobs s !! jid) as [j|]; [|intros [= <- <- <-]; apply att_post_unchanged, Hn].
    destruct (heap s !! tid) as [p|]; [|intros [= <- <- <-]; apply att_post_unchanged, Hn].
    destruct (negb (job_starving_now E s j)); [intros [= <- <- <-]; apply att_post_unchanged, Hn|].
    destruct (negb (_ && _)); [intros [= <- <- <-]; apply att_post_unchanged, Hn|].
    destruct (is_reclaim k && _); [intros [= <- <- <-]; apply att_post_unchanged, Hn|].
    destruct (run_attempts eps E k s tid (j_queue j) atts) as [[[s1 ok1] v1] lg1] eqn:Ha.
    apply run_attempts_spec in Ha; [|exact Hn].
    assert (Hok1 : ok1 = existsb a_ok lg1) by apply Ha. rewrite Hok1 in Ha.
    destruct (negb (v1 =? V_OK)); [intros [= <- <- <-]; exact Ha|].
    destruct (run_tasks eps E k s1 jid l) as [[s2 v2] lg2] eqn:Hr.
    apply IH in Hr; [|apply Ha]. intros [= <- <- <-]. rewrite existsb_app. apply (att_post_trans _ _ _ _ _ _ _ Ha Hr).
Qed.

Lemma in_blocks L o :
  o ∈ blocks L -> exists r, r ∈ L /\ ((exists c, c ∈ a_evicted r /\ o = ev_op c) \/ o = pipe_op (a_task r)).
Proof.
  unfold blocks. intros H. apply elem_of_list_In, in_flat_map in H as (r & Hr & Ho).
  apply elem_of_list_In in Hr, Ho. exists r. split; [exact Hr|]. apply elem_of_app in Ho as [Ho|Ho].
  - apply elem_of_list_fmap in Ho as (c & -> & Hc). left. eauto.
  - apply elem_of_list_singleton in Ho. right. exact Ho.
Qed.

(* a job statement opened in [s] and filled until [s1]: the task loop of a job (inter-job preempt, reclaim), or
   the node loop of one Pending task (intra-job preempt; that the task is Pending is not needed in this file, it
   is what PlacedRun.stmt_opened_tr starts from) *)
Definition stmt_opened (s s1 : sess) (lg1 : list arec) : Prop :=
  (exists k jid tasks v1, run_tasks eps E k s jid tasks = (s1, v1, lg1)) \/
  (exists pq tid p atts ok v1, heap s !! tid = Some p /\ t_status p = Pending /\
     run_attempts eps E AIntra s tid pq atts = (s1, ok, v1, lg1)).

Lemma stmt_opened_post s s1 lg1 :
  ops s nsid = [] -> stmt_opened s s1 lg1 -> att_post s s1 (existsb a_ok lg1) lg1.
Proof.
  intros Hn [(k & jid & tasks & v1 & H)|(pq & tid & p & atts & ok & v1 & _ & _ & H)].
  - apply (run_tasks_spec _ _ _ _ _ _ _ Hn H).
  - apply run_attempts_spec in H; [|exact Hn]. assert (Hok : ok = existsb a_ok lg1) by apply H. rewrite <- Hok. exact H.
Qed.

(* Commit iff JobPipelined, else Discard *)
Lemma close_job_cases s jid lg s' lg' :
  close_job eps E s jid lg = (s', lg') ->
  (s' = stmt_commit eps s jsid /\ lg' = lg) \/ (s' = stmt_discard eps s jsid /\ lg' = []).
Proof.
  unfold close_job. destruct (jobs s !! jid) as [j|]; [destruct (job_pipelined_now E s j)|]; intros [= <- <-]; auto.
Qed.

(* a choice is refused outright, or opens the caller's statement, fills it, and ends with Commit (the records of
   the assigned attempts stay) or Discard (none stays) *)
Lemma step_cases s c s' v lg :
  step eps E s c = (s', v, lg) ->
  (s' = s /\ lg = []) \/
  exists s1 lg1, stmt_opened s s1 lg1 /\
    ((s' = stmt_commit eps s1 jsid /\ lg = filter a_ok lg1) \/ (s' = stmt_discard eps s1 jsid /\ lg = [])).
Proof.
  destruct c as [jid tasks|jid tid atts|first jid tasks]; simpl.
  - destruct (job_gate E s jid); [|intros [= <- <- <-]; auto].
    destruct (run_tasks eps E AInter s jid tasks) as [[s1 v1] lg1] eqn:Hr.
    destruct (close_job eps E s1 jid (filter a_ok lg1)) as [s2 lg2] eqn:Hc.
    intros [= <- <- <-]. right. exists s1, lg1. split; [left; eauto|]. apply (close_job_cases _ _ _ _ _ Hc).
  - destruct (job_gate E s jid) as [j|]; [|intros [= <- <- <-]; auto].
    destruct (heap s !! tid) as [p|] eqn:Hp; [|intros [= <- <- <-]; auto].
    destruct (bool_decide (t_status p = Pending) && _) eqn:Hpend; [|intros [= <- <- <-]; auto].
    apply andb_true_iff in Hpend as [Hst%bool_decide_eq_true _]. simpl.
    destruct (run_attempts eps E AIntra s tid (j_queue j) atts) as [[[s1 ok1] v1] lg1] eqn:Hr.
    intros H. right. exists s1, lg1. split; [right; eauto 10|]. destruct ok1; injection H as <- <- <-; auto.
  - destruct (job_gate E s jid) as [j|]; [|intros [= <- <- <-]; auto].
    destruct (first && _); [intros [= <- <- <-]; auto|].
    destruct (run_tasks eps E AReclaim s jid tasks) as [[s1 v1] lg1] eqn:Hr.
    destruct (close_job eps E s1 jid (filter a_ok lg1)) as [s2 lg2] eqn:Hc.
    intros [= <- <- <-]. right. exists s1, lg1. split; [left; eauto|]. apply (close_job_cases _ _ _ _ _ Hc).
Qed.

Definition clear (s : sess) : Prop := ops s jsid = [] /\ ops s nsid = [].

(* what a run of oracle choices can do: the evictor has only received victims of the recorded attempts, none of
   them a task whose cache.Evict is refused (Commit un-evicts those) *)
Definition step_post (s s' : sess) (lg : list arec) : Prop :=
  clear s' /\ heap_ok s' /\ refuse_evict s' = refuse_evict s /\
  Forall (fun r => rec_sound r /\ a_ok r = true) lg /\
  (forall x, x ∈ evicts s' -> x ∈ evicts s \/
     (x ∉ refuse_evict s /\ exists r c, r ∈ lg /\ c ∈ a_evicted r /\ t_id c = x)).

Lemma step_post_refl s : clear s -> heap_ok s -> step_post s s [].
Proof. intros. unfold step_post. repeat split; try apply H; auto. Qed.

Lemma step_post_trans s s1 s2 lg1 lg2 : step_post s s1 lg1 -> step_post s1 s2 lg2 -> step_post s s2 (lg1 ++ lg2).
Proof.
  intros (_ & _ & a3 & a4 & a5) (b1 & b2 & b3 & b4 & b5).
  split; [exact b1|]. split; [exact b2|]. split; [congruence|]. split; [apply Forall_app; auto|].
  intros x Hx. destruct (b5 x Hx) as [H|(Hx' & r & c & Hr & Hc)].
  - destruct (a5 x H) as [?|(Hx' & r & c & Hr & Hc)]; [auto|].
    right. split; [exact Hx'|]. exists r, c. rewrite elem_of_app. auto.
  - right. rewrite <- a3. split; [exact Hx'|]. exists r, c. rewrite elem_of_app. auto.
Qed.

Lemma filter_ok_sound lg : Forall rec_sound lg -> Forall (fun r => rec_sound r /\ a_ok r = true) (filter a_ok lg).
Proof.
  intros H. apply Forall_forall. intros r Hr. apply elem_of_list_filter in Hr as [Hr1 Hr2].
  split; [|destruct (a_ok r); auto; contradiction]. rewrite Forall_forall in H. auto.
Qed.

Theorem step_spec s c s' v lg :
  clear s -> heap_ok s -> step eps E s c = (s', v, lg) -> step_post s s' lg.
Proof.
  intros Hcl Hok H. apply step_cases in H as [[-> ->]|(s1 & lg1 & Hop & H)]; [apply step_post_refl; auto|].
  apply stmt_opened_post in Hop as (a1 & a2 & a3 & a4 & a5 & a6 & _ & a8); [|apply Hcl].
  destruct Hcl as [Hj Hn]. destruct H as [[-> ->]|[-> ->]].
  - destruct (stmt_commit_spec eps s1 jsid) as ([c1 c1']%ops_insert & c2 & c3 & c4).
    split; [split; [exact c1|]|].
    { rewrite (c1' _ (not_eq_sym jsid_ne_nsid)). exact a4. }
    split; [auto|]. split; [congruence|]. split; [apply filter_ok_sound, a8|].
    intros x Hx. rewrite <- a1, <- a2. destruct (c4 x Hx) as [H|(Hx' & o & Ho & Hk & Ht)]; [auto|].
    right. split; [exact Hx'|]. rewrite (a6 Hok), Hj in Ho.
    destruct (in_blocks _ _ Ho) as (r & Hr & [(c0 & Hc & ->)| ->]); [|discriminate].
    exists r, c0. split; [exact Hr|]. split; [exact Hc|]. apply (Ht (a3 Hok)).
  - destruct (stmt_discard_spec eps s1 jsid) as (d1 & d2 & [d3 d3']%ops_insert & d4).
    split; [split; [exact d3|]|].
    { rewrite (d3' _ (not_eq_sym jsid_ne_nsid)). exact a4. }
    split; [auto|]. split; [congruence|]. split; [constructor|].
    intros x Hx. left. congruence.
Qed.

Theorem run_spec cs : forall s s' lg,
  clear s -> heap_ok s -> run eps E s cs = (s', lg) -> step_post s s' lg.
Proof.
  induction cs as [|c cs IH]; intros s s' lg Hcl Hok; simpl.
  - intros [= <- <-]. apply step_post_refl; auto.
  - destruct (step eps E s c) as [[s1 v1] lg1] eqn:Hs. apply step_spec in Hs; auto.
    destruct (run eps E s1 cs) as [s2 lg2] eqn:Hr. apply IH in Hr; [|apply Hs..].
    intros [= <- <-]. apply (step_post_trans _ _ _ _ _ Hs Hr).
Qed.

End WithEps.
