(* C04 - "evictions are issued only together with a placement", on the FINAL SESSION: along every run of
   the preempt / reclaim skeleton from a well-formed session, the preemptor of every committed node
   attempt is Pipelined on that attempt's node in the session the actions leave behind. *)
From V Require Import C11.Model.
From stdpp Require Import gmap.
From Coq Require Import ZArith Lia.
From V Require Import Base.Res Sched.LedgerModel Sched.StmtModel Sched.GangModel
                      C04.Model C04.Frame C04.VoteLemmas C04.Lemmas C04.Eligible C04.Placed.
Open Scope Z_scope.

Definition busy (st : status) : Prop := st = Running \/ st = Bound \/ st = Releasing.
Definition busy_at (s : sess) (i : positive) : Prop := exists q, heap s !! i = Some q /\ busy (t_status q).

(* task objects that are Pipelined in s are the same objects in s' *)
Definition keep_pip (s s' : sess) : Prop :=
  forall j q, heap s !! j = Some q -> t_status q = Pipelined -> heap s' !! j = Some q.
(* tasks that are Running / Bound / Releasing in s are so in s' *)
Definition keep_busy (s s' : sess) : Prop := forall j, busy_at s j -> busy_at s' j.

(* the transfer relation every operation of the two actions satisfies: [s'] is well-formed, what was Pipelined
   in [s] is the same object in [s'], what was busy stays busy.  Reflexive and transitive. *)
Definition tr (s s' : sess) : Prop := wf s' /\ keep_pip s s' /\ keep_busy s s'.

Lemma tr_refl s : wf s -> tr s s.
Proof. intros H. split; [exact H|]. split; [intros j q Hq _; exact Hq|intros j Hj; exact Hj]. Qed.

Lemma tr_trans s1 s2 s3 : tr s1 s2 -> tr s2 s3 -> tr s1 s3.
Proof.
  intros (_ & a & b) (w & c & d). split; [exact w|]. split.
  - intros j q Hq Hs. apply (c j q); auto.
  - intros j Hj. apply d, b, Hj.
Qed.

Lemma tr_same_heap s s' : wf s' -> heap s' = heap s -> tr s s'.
Proof.
  intros Hw Hh. split; [exact Hw|]. split.
  - intros j q Hq _. rewrite Hh. exact Hq.
  - intros j (q & Hq & Hb). exists q. rewrite Hh. auto.
Qed.

Lemma busy_not_pip st : busy st -> st <> Pipelined /\ st <> Pending.
Proof. intros [->|[->| ->]]; split; discriminate. Qed.

(* an operation that only changes the entry of task i, which is busy before and after *)
Lemma tr_busy_entry s s' i : wf s' -> hframe s s' i -> busy_at s i -> busy_at s' i -> tr s s'.
Proof.
  intros Hw Hf (t & Ht & Hb) Hb'. split; [exact Hw|]. split.
  - intros j q Hq Hs. destruct (decide (j = i)) as [->|Hne]; [|rewrite (Hf j Hne); exact Hq].
    rewrite Ht in Hq. injection Hq as <-. destruct (busy_not_pip _ Hb). contradiction.
  - intros j Hj. destruct (decide (j = i)) as [->|Hne]; [exact Hb'|].
    destruct Hj as (q & Hq & Hbq). exists q. rewrite (Hf j Hne). auto.
Qed.

Section WithEps.
Variable eps : Z.
Variable E : env.

Lemma evict_tr s sid c :
  wf s -> agree s c -> busy (t_status c) ->
  tr s (fst (stmt_evict_with eps s sid c None)) /\ hframe s (fst (stmt_evict_with eps s sid c None)) (t_id c) /\
  busy_at (fst (stmt_evict_with eps s sid c None)) (t_id c).
Proof.
  intros Hwf Ha Hb. destruct (evict_wf eps s sid c Hwf Ha) as (Hw & Hf & q & Hq & Hqq).
  assert (Hb' : busy_at (fst (stmt_evict_with eps s sid c None)) (t_id c)).
  { exists q. split; [exact Hq|]. destruct Hqq as [-> | ->]; [right; right; reflexivity|exact Hb]. }
  split; [|auto]. apply (tr_busy_entry _ _ (t_id c)); auto.
  destruct Ha as (t & Ht & _ & Hst). exists t. rewrite Hst. auto.
Qed.

Lemma restore_busy prev : busy (restore_status prev).
Proof. unfold busy. destruct prev; simpl; auto. Qed.

Lemma unevict_tr s i p prev :
  wf s -> heap s !! i = Some p -> busy (t_status p) -> tr s (fst (unevict_with eps s p prev)).
Proof.
  intros Hwf Hp Hb. destruct (unevict_wf eps s i p prev Hwf Hp) as (Hw & Hf & q & Hq & Hqq).
  apply (tr_busy_entry _ _ i); auto.
  - exists p. auto.
  - exists q. split; [exact Hq|]. destruct Hqq as [-> | ->]; [apply restore_busy|exact Hb].
Qed.

(* the operations of a statement that Commit / a node-level Discard meet: evictions of tasks that are still
   busy, and (Commit only) pipelines *)
Definition ev_fine (s : sess) (o : oprec) : Prop := op_kind o = KEvict /\ busy_at s (op_task o).
Definition op_fine (s : sess) (o : oprec) : Prop := ev_fine s o \/ op_kind o = KPipeline.

Lemma undo_ev_tr s o : wf s -> ev_fine s o -> tr s (undo_op eps s o).
Proof.
  intros Hwf (Hk & q & Hq & Hb). unfold undo_op. rewrite Hq, Hk. apply (unevict_tr s (op_task o)); auto.
Qed.

Lemma commit_op_tr s o : wf s -> op_fine s o -> tr s (commit_op eps s o).
Proof.
  intros Hwf [(Hk & q & Hq & Hb)|Hk]; unfold commit_op.
  - rewrite Hq, Hk. destruct (bool_decide (t_id q ∈ refuse_evict s)); [apply (unevict_tr s (op_task o)); auto|].
    apply tr_same_heap; [exact (wf_fields _ _ eq_refl eq_refl Hwf)|reflexivity].
  - destruct (heap s !! op_task o); [rewrite Hk|]; apply tr_refl, Hwf.
Qed.

Lemma fold_tr (f : sess -> oprec -> sess) (Q : sess -> oprec -> Prop) :
  (forall s o, wf s -> Q s o -> tr s (f s o)) ->
  (forall s s' o, keep_busy s s' -> Q s o -> Q s' o) ->
  forall l s, wf s -> (forall o, o ∈ l -> Q s o) -> tr s (fold_left f l s).
Proof.
  intros Hf Hq. induction l as [|o l IH]; intros s Hwf Hl; simpl; [apply tr_refl, Hwf|].
  assert (H1 : tr s (f s o)) by (apply Hf; [exact Hwf|apply Hl; left]).
  eapply tr_trans; [exact H1|]. apply IH; [apply H1|].
  intros o' Ho'. apply (Hq s); [apply H1|apply Hl; right; exact Ho'].
Qed.

Lemma ev_fine_keep s s' o : keep_busy s s' -> ev_fine s o -> ev_fine s' o.
Proof. intros Hk [a b]. split; auto. Qed.
Lemma op_fine_keep s s' o : keep_busy s s' -> op_fine s o -> op_fine s' o.
Proof. intros Hk [[a b]|a]; [left; split; auto|right; auto]. Qed.

(* Discard of a statement that holds evictions only *)
Lemma discard_ev_tr s sid : wf s -> (forall o, o ∈ ops s sid -> ev_fine s o) -> tr s (stmt_discard eps s sid).
Proof.
  intros Hwf Hl. unfold stmt_discard.
  pose proof (fold_tr (undo_op eps) ev_fine undo_ev_tr ev_fine_keep (rev (default [] (stmts s !! sid))) s Hwf) as H.
  assert (Ht : tr s (fold_left (undo_op eps) (rev (default [] (stmts s !! sid))) s)).
  { apply H. intros o Ho. apply Hl. unfold ops. apply elem_of_list_In. apply elem_of_list_In, in_rev in Ho. exact Ho. }
  eapply tr_trans; [exact Ht|]. apply tr_same_heap; [exact (wf_fields _ _ eq_refl eq_refl (proj1 Ht))|reflexivity].
Qed.

Lemma commit_tr s sid : wf s -> (forall o, o ∈ ops s sid -> op_fine s o) -> tr s (stmt_commit eps s sid).
Proof.
  intros Hwf Hl. unfold stmt_commit.
  assert (Ht : tr s (fold_left (commit_op eps) (default [] (stmts s !! sid)) s)).
  { apply (fold_tr (commit_op eps) op_fine commit_op_tr op_fine_keep); auto. }
  eapply tr_trans; [exact Ht|]. apply tr_same_heap; [exact (wf_fields _ _ eq_refl eq_refl (proj1 Ht))|reflexivity].
Qed.

(* Statement.Pipeline of a Pending task *)
Lemma pipeline_tr s sid tid nid p :
  wf s -> heap s !! tid = Some p -> t_status p = Pending ->
  tr s (fst (stmt_pipeline eps s sid tid nid)) /\
  exists q, heap (fst (stmt_pipeline eps s sid tid nid)) !! tid = Some q /\
    (snd (stmt_pipeline eps s sid tid nid) = ROk -> t_status q = Pipelined /\ t_node q = Some nid) /\
    (snd (stmt_pipeline eps s sid tid nid) <> ROk -> t_status q = Pending).
Proof.
  intros Hwf Hp Hst. destruct (stmt_pipeline_wf eps s sid tid nid p Hwf Hp Hst) as (Hw & Hf & q & Hq & H1 & H2).
  split; [|exists q; split; [exact Hq|split; [exact H1|intros H; apply H2, H]]].
  split; [exact Hw|]. split.
  - intros j t Ht Hs. destruct (decide (j = tid)) as [->|Hne]; [|rewrite (Hf j Hne); exact Ht].
    rewrite Hp in Ht. injection Ht as <-. congruence.
  - intros j (t & Ht & Hb). destruct (decide (j = tid)) as [->|Hne]; [|exists t; rewrite (Hf j Hne); auto].
    rewrite Hp in Ht. injection Ht as <-. destruct (busy_not_pip _ Hb). congruence.
Qed.

(* a victim still to be evicted: the node's copy agrees with the heap object and is Running / Bound *)
Definition cand_fine (s : sess) (c : task) : Prop := agree s c /\ busy (t_status c).

Lemma agree_frame s s' c i : hframe s s' i -> t_id c <> i -> agree s c -> agree s' c.
Proof. intros Hf Hne (t & Ht & a & b). exists t. rewrite (Hf _ Hne). auto. Qed.

(* evicting such victims keeps them busy and leaves a Pending task [tid] alone *)
Lemma evicted_tr tid p s vs done s' done' :
  evicted eps s vs done s' done' ->
  wf s -> (forall c, c ∈ vs -> cand_fine s c) -> (forall c, c ∈ done -> busy_at s (t_id c)) ->
  heap s !! tid = Some p -> t_status p = Pending ->
  tr s s' /\ (forall c, c ∈ done' -> busy_at s' (t_id c)) /\ heap s' !! tid = Some p.
Proof.
  induction 1 as [s vs done|s vs done x c s1 r s' done' Hf He _ IH]; intros Hwf Hvs Hdone Hp Hst.
  { split; [apply tr_refl, Hwf|auto]. }
  destruct (find_task_in _ _ _ Hf) as [Hc Hx]. destruct (Hvs c Hc) as [Ha Hb].
  destruct (evict_tr s nsid c Hwf Ha Hb) as (Ht & Hfr & Hbe). rewrite He in Ht, Hfr, Hbe. simpl in Ht, Hfr, Hbe.
  destruct IH as (a & b & c0); [apply Ht| | | |exact Hst|split; [eapply tr_trans; eauto|auto]].
  - intros c' [Hne Hin]%elem_of_list_filter. apply bool_decide_eq_false in Hne.
    destruct (Hvs c' Hin) as [Ha' Hb']. split; [|exact Hb'].
    apply (agree_frame s s1 c' (t_id c) Hfr); [congruence|exact Ha'].
  - intros c' [Hc'|Hc']%elem_of_app; [apply Ht, Hdone, Hc'|].
    apply elem_of_list_singleton in Hc' as ->. exact Hbe.
  - rewrite Hfr; [exact Hp|]. intros ->. destruct Ha as (t & Ht' & _ & Hs'). rewrite Hp in Ht'. injection Ht' as <-.
    rewrite Hst in Hs'. rewrite <- Hs' in Hb. destruct (busy_not_pip _ Hb). congruence.
Qed.

Lemma cand_ok_busy k s p pq c : cand_ok E k s p pq c = true -> busy (t_status c).
Proof. intros H. destruct (cand_ok_status E k s p pq c H) as [[?|[_ ?]] _]; unfold busy; auto. Qed.

(* what an attempt for the Pending task [tid] on node [nid] leaves: assigned, the task is Pipelined there and
   the victims of the record are still busy; not assigned, the task is Pending as before *)
Definition att_placed (s : sess) (tid : positive) (p : task) (nid : positive)
    (s' : sess) (ok : bool) (lg : list arec) : Prop :=
  tr s s' /\
  (ok = true -> exists q, heap s' !! tid = Some q /\ t_status q = Pipelined /\ t_node q = Some nid) /\
  (ok = false -> exists p', heap s' !! tid = Some p' /\ t_status p' = Pending) /\
  (forall r, r ∈ lg -> a_pre r = s /\ a_task r = p /\ a_node r = nid /\
       (a_ok r = true -> ok = true /\ forall c, c ∈ a_evicted r -> busy_at s' (t_id c))).

Lemma att_tr k s tid p pq a s' ok v lg :
  wf s -> ops s nsid = [] -> heap s !! tid = Some p -> t_status p = Pending -> t_id p = tid ->
  run_attempt eps E k s p pq a = (s', ok, v, lg) -> att_placed s tid p (at_node a) s' ok lg.
Proof.
  intros Hwf Hn Hp Hst Hid H.
  apply run_attempt_cases in H as [(-> & -> & ->)|(n & s1 & done & Hnode & _ & Hev & H)].
  { split; [apply tr_refl, Hwf|]. split; [discriminate|]. split; [eauto|]. intros r Hr; inversion Hr. }
  pose proof (evicted_spec eps _ _ _ _ _ Hev) as (new & Hd & _ & _ & _ & _ & Ho1 & _).
  simpl in Hd. subst new. rewrite Hn in Ho1. simpl in Ho1.
  apply (evicted_tr tid p) in Hev as (Ht1 & Hb1 & Hp1);
    [|exact Hwf| |intros c Hc; inversion Hc|exact Hp|exact Hst].
  2:{ intros c [[i Hi] Hok]%victims_subset%omap_find_in%node_cands_in.
      split; [apply (copy_agree s _ _ _ _ Hwf Hnode Hi)|apply (cand_ok_busy _ _ _ _ _ Hok)]. }
  (* Discard of the node statement from a state [sx] whose node statement holds the evictions made so far *)
  assert (Hfail : forall sx lgx, tr s1 sx -> ops sx nsid = ops s1 nsid ->
            (exists p', heap sx !! tid = Some p' /\ t_status p' = Pending) ->
            (forall r, r ∈ lgx -> a_pre r = s /\ a_task r = p /\ a_node r = at_node a /\ a_ok r = false) ->
            att_placed s tid p (at_node a) (stmt_discard eps sx nsid) false lgx).
  { intros sx lgx Hx Hox (p' & Hp' & Hs') Hl.
    assert (Hfine : forall o, o ∈ ops sx nsid -> ev_fine sx o).
    { intros o Ho. rewrite Hox, Ho1 in Ho. apply elem_of_list_fmap in Ho as (c & -> & Hc).
      split; [reflexivity|]. apply Hx, Hb1, Hc. }
    split; [|split; [discriminate|split]].
    - eapply tr_trans; [exact Ht1|]. eapply tr_trans; [exact Hx|]. apply discard_ev_tr; [apply Hx|exact Hfine].
    - intros _. exists p'. split; [|exact Hs']. destruct (stmt_discard_wf eps sx nsid (proj1 Hx)) as [_ Hfr].
      rewrite Hfr; [exact Hp'|]. intros o Ho Heq. destruct (Hfine o Ho) as (_ & q & Hq & Hbq).
      rewrite Heq, Hp' in Hq. injection Hq as <-. destruct (busy_not_pip _ Hbq). congruence.
    - intros r Hr. destruct (Hl r Hr) as (r1 & r2 & r3 & r4). rewrite r4. repeat split; auto; discriminate. }
  assert (Hrec : forall b r, r ∈ [mkRec k s p pq (at_node a)
                     (omap (find_task (node_cands E k s p pq n)) (at_cands a)) (at_qorder a) done b] ->
            a_pre r = s /\ a_task r = p /\ a_node r = at_node a /\ a_ok r = b).
  { intros b r ->%elem_of_list_singleton. auto. }
  destruct H as [(-> & -> & Hlg)|(s2 & res & Hpipe & H)].
  { apply (Hfail s1 lg (tr_refl _ (proj1 Ht1)) eq_refl); [eauto|].
    destruct Hlg as [->| ->]; [intros r Hr; inversion Hr|apply Hrec]. }
  set (s1f := set_fault E s1 (t_id p) (at_node a)) in *.
  destruct (set_fault_wf E s1 (t_id p) (at_node a) (proj1 Ht1)) as [Hwf1f Hh1f]. fold s1f in Hwf1f, Hh1f.
  assert (Htf : tr s1 s1f) by (apply tr_same_heap; auto).
  rewrite Hid in Hpipe. rewrite <- Hh1f in Hp1.
  destruct (pipeline_tr s1f nsid tid (at_node a) p Hwf1f Hp1 Hst) as (Htp & q & Hq & Hq1 & Hq2).
  destruct (stmt_pipeline_spec eps _ _ _ _ _ _ Hpipe) as (_ & _ & _ & _ & Hst5).
  rewrite Hpipe in Htp, Hq, Hq1, Hq2. simpl in Htp, Hq, Hq1, Hq2.
  destruct H as [(Hres & -> & -> & ->)|(Hres & -> & -> & ->)].
  2:{ apply (Hfail s2 _ (tr_trans _ _ _ Htf Htp)); [|eauto|apply Hrec]. unfold ops. rewrite (Hst5 Hres). reflexivity. }
  (* assigned: the node statement is merged into the caller's *)
  destruct (stmt_merge_wf s2 jsid nsid (proj1 Htp)) as [Hwm Hhm].
  assert (Htm : tr s1 (stmt_merge s2 jsid nsid)).
  { eapply tr_trans; [exact Htf|]. eapply tr_trans; [exact Htp|]. apply tr_same_heap; auto. }
  split; [eapply tr_trans; eauto|]. split; [intros _; exists q; rewrite Hhm; destruct (Hq1 Hres); auto|].
  split; [discriminate|]. intros r Hr. destruct (Hrec _ _ Hr) as (r1 & r2 & r3 & _).
  split; [exact r1|]. split; [exact r2|]. split; [exact r3|]. intros _. split; [reflexivity|].
  apply elem_of_list_singleton in Hr as ->. intros c Hc. apply Htm, Hb1, Hc.
Qed.

Definition placed (s : sess) (r : arec) : Prop :=
  exists q, heap s !! t_id (a_task r) = Some q /\ t_status q = Pipelined /\ t_node q = Some (a_node r).
Definition pip_at (s : sess) (i : positive) : Prop := exists q, heap s !! i = Some q /\ t_status q = Pipelined.
Definition ev_busy (s : sess) (r : arec) : Prop := forall c, c ∈ a_evicted r -> busy_at s (t_id c).

Lemma placed_keep s s' r : keep_pip s s' -> placed s r -> placed s' r.
Proof. intros Hk (q & Hq & a & b). exists q. split; [apply Hk; auto|auto]. Qed.

(* a record made between [s0] and [s']: if its attempt was assigned, the preemptor is Pipelined on the attempt's
   node in [s'], the victims are still busy there, and the preemptor was not Pipelined in [s0] *)
Definition rec_fine (s0 s' : sess) (r : arec) : Prop :=
  wf (a_pre r) /\ (a_ok r = true -> placed s' r /\ ev_busy s' r /\ ~ pip_at s0 (t_id (a_task r))).

Lemma rec_fine_later s0 s1 s2 r : tr s1 s2 -> rec_fine s0 s1 r -> rec_fine s0 s2 r.
Proof.
  intros (_ & k1 & k2) [a b]. split; [exact a|]. intros Hk. destruct (b Hk) as (b1 & b2 & b3).
  split; [apply (placed_keep s1); auto|]. split; [intros c Hc; apply k2, b2, Hc|exact b3].
Qed.

Lemma rec_fine_earlier s0 s1 s2 r : tr s0 s1 -> rec_fine s1 s2 r -> rec_fine s0 s2 r.
Proof.
  intros (_ & k1 & _) [a b]. split; [exact a|]. intros Hk. destruct (b Hk) as (b1 & b2 & b3).
  split; [exact b1|]. split; [exact b2|]. intros (q & Hq & Hsq). apply b3. exists q. split; [apply k1|]; auto.
Qed.

Lemma atts_tr k tid pq l : forall s p s' ok v lg,
  wf s -> ops s nsid = [] -> heap s !! tid = Some p -> t_status p = Pending ->
  run_attempts eps E k s tid pq l = (s', ok, v, lg) ->
  tr s s' /\ ops s' nsid = [] /\
  (ok = false -> exists p', heap s' !! tid = Some p' /\ t_status p' = Pending) /\
  (forall r, r ∈ lg -> rec_fine s s' r).
Proof.
  induction l as [|a l IH]; intros s p s' ok v lg Hwf Hn Hp Hst; simpl.
  - intros [= <- <- <- <-]. split; [apply tr_refl, Hwf|]. split; [exact Hn|]. split; [eauto|]. intros r Hr; inversion Hr.
  - rewrite Hp. pose proof (proj1 Hwf _ _ Hp) as Hid.
    destruct (run_attempt eps E k s p pq a) as [[[s1 ok1] v1] lg1] eqn:Ha.
    pose proof (run_attempt_spec eps E _ _ _ _ _ _ _ _ _ Hn Ha) as (_ & _ & _ & Hn1 & _).
    apply (att_tr k s tid p pq a) in Ha as (Ht & Hok1 & Hno1 & Hr1); auto.
    assert (Hrecs : forall r, r ∈ lg1 -> rec_fine s s1 r).
    { intros r Hr. destruct (Hr1 r Hr) as (r1 & r2 & r3 & r4). split; [rewrite r1; exact Hwf|].
      intros Hk. destruct (r4 Hk) as [-> Hb]. destruct (Hok1 eq_refl) as (q & Hq & a1 & a2).
      split; [exists q; rewrite r2, r3, Hid; auto|]. split; [exact Hb|].
      rewrite r2, Hid. intros (q' & Hq' & Hsq). rewrite Hp in Hq'. injection Hq' as <-. congruence. }
    destruct (negb (v1 =? V_OK)); [intros [= <- <- <- <-]; auto|].
    destruct ok1.
    + intros [= <- <- <- <-]. split; [exact Ht|]. split; [exact Hn1|]. split; [discriminate|exact Hrecs].
    + destruct (Hno1 eq_refl) as (p' & Hp' & Hs').
      destruct (run_attempts eps E k s1 tid pq l) as [[[s2 ok2] v2] lg2] eqn:Hr.
      apply (IH s1 p') in Hr as (Ht2 & Hn2 & Hno2 & Hr2); auto; [|apply Ht].
      intros [= <- <- <- <-]. split; [eapply tr_trans; eauto|]. split; [exact Hn2|]. split; [exact Hno2|].
      intros r [Hr|Hr]%elem_of_app.
      * apply (rec_fine_later s s1 s2 r Ht2), Hrecs, Hr.
      * apply (rec_fine_earlier s s1 s2 r Ht), Hr2, Hr.
Qed.

Lemma tasks_tr k jid l : forall s s' v lg,
  wf s -> ops s nsid = [] ->
  run_tasks eps E k s jid l = (s', v, lg) ->
  tr s s' /\ ops s' nsid = [] /\ forall r, r ∈ lg -> rec_fine s s' r.
Proof.
  induction l as [|[tid atts] l IH]; intros s s' v lg Hwf Hn; simpl.
  - intros [= <- <- <-]. split; [apply tr_refl, Hwf|]. split; [exact Hn|]. intros r Hr; inversion Hr.
  - assert (Hnone : forall vv, (s, vv, @nil arec) = (s', v, lg) ->
              tr s s' /\ ops s' nsid = [] /\ forall r, r ∈ lg -> rec_fine s s' r).
    { intros vv [= <- <- <-]. split; [apply tr_refl, Hwf|]. split; [exact Hn|]. intros r Hr; inversion Hr. }
    destruct (jobs s !! jid) as [j|]; [|apply Hnone].
    destruct (heap s !! tid) as [p|] eqn:Hp; [|apply Hnone].
    destruct (negb (job_starving_now E s j)); [apply Hnone|].
    destruct (bool_decide (t_status p = Pending) && bool_decide (t_job p = jid)) eqn:Hpend; [|apply Hnone].
    apply andb_true_iff in Hpend as [Hst%bool_decide_eq_true _]. simpl.
    destruct (is_reclaim k && negb (queue_preemptive eps E s (j_queue j) p)); [apply Hnone|].
    destruct (run_attempts eps E k s tid (j_queue j) atts) as [[[s1 ok1] v1] lg1] eqn:Ha.
    apply (atts_tr k tid (j_queue j) atts s p) in Ha as (Ht & Hn1 & _ & Hr1); auto.
    destruct (negb (v1 =? V_OK)); [intros [= <- <- <-]; auto|].
    destruct (run_tasks eps E k s1 jid l) as [[s2 v2] lg2] eqn:Hr.
    apply IH in Hr as (Ht2 & Hn2 & Hr2); [|apply Ht|exact Hn1].
    intros [= <- <- <-]. split; [eapply tr_trans; eauto|]. split; [exact Hn2|].
    intros r [Hr|Hr]%elem_of_app.
    + apply (rec_fine_later s s1 s2 r Ht2), Hr1, Hr.
    + apply (rec_fine_earlier s s1 s2 r Ht), Hr2, Hr.
Qed.

Lemma stmt_opened_tr s s1 lg1 :
  wf s -> ops s nsid = [] -> stmt_opened eps E s s1 lg1 -> tr s s1 /\ forall r, r ∈ lg1 -> rec_fine s s1 r.
Proof.
  intros Hwf Hn [(k & jid & tasks & v1 & H)|(pq & tid & p & atts & ok & v1 & Hp & Hst & H)].
  - apply tasks_tr in H as (Ht & _ & Hrec); auto.
  - apply (atts_tr AIntra tid pq atts s p) in H as (Ht & _ & _ & Hrec); auto.
Qed.

(* what a run of choices guarantees *)
Definition step_ok (s s' : sess) (lg : list arec) : Prop :=
  wf s' /\ keep_pip s s' /\ forall r, r ∈ lg -> wf (a_pre r) /\ placed s' r.

Lemma step_ok_refl s : wf s -> step_ok s s [].
Proof. intros Hwf. split; [exact Hwf|]. split; [intros j q Hq _; exact Hq|intros r Hr; inversion Hr]. Qed.

Lemma step_ok_trans s s1 s2 lg1 lg2 : step_ok s s1 lg1 -> step_ok s1 s2 lg2 -> step_ok s s2 (lg1 ++ lg2).
Proof.
  intros (_ & k1 & r1) (w2 & k2 & r2). split; [exact w2|]. split; [intros j q Hq Hs; apply k2; auto|].
  intros r [Hr|Hr]%elem_of_app; [|apply r2, Hr].
  destruct (r1 r Hr) as [a b]. split; [exact a|]. apply (placed_keep s1); auto.
Qed.

(* the job statement holds [blocks L] for records that are placed, whose evictions are still busy and whose
   preemptors were not pipelined when the statement was opened *)
Lemma close_stmt s s1 L :
  wf s1 -> keep_pip s s1 -> ops s1 jsid = blocks L ->
  (forall r, r ∈ L -> wf (a_pre r) /\ placed s1 r /\ ev_busy s1 r /\ ~ pip_at s (t_id (a_task r))) ->
  step_ok s (stmt_commit eps s1 jsid) L /\ step_ok s (stmt_discard eps s1 jsid) [].
Proof.
  intros Hwf Hk Hops HL. split.
  - assert (Ht : tr s1 (stmt_commit eps s1 jsid)).
    { apply commit_tr; [exact Hwf|]. intros o Ho. rewrite Hops in Ho.
      destruct (in_blocks _ _ Ho) as (r & Hr & [(c & Hc & ->)| ->]); [left|right; reflexivity].
      split; [reflexivity|]. destruct (HL r Hr) as (_ & _ & Hb & _). apply Hb, Hc. }
    destruct Ht as (Hw & k1 & _). split; [exact Hw|]. split.
    + intros j q Hq Hs. apply k1; auto.
    + intros r Hr. destruct (HL r Hr) as (a & b & _). split; [exact a|]. apply (placed_keep s1); auto.
  - destruct (stmt_discard_wf eps s1 jsid Hwf) as [Hw Hfr]. split; [exact Hw|]. split; [|intros r Hr; inversion Hr].
    intros j q Hq Hs. rewrite Hfr; [apply Hk; auto|].
    intros o Ho Heq. rewrite Hops in Ho. destruct (in_blocks _ _ Ho) as (r & Hr & [(c & Hc & ->)| ->]); simpl in Heq.
    + destruct (HL r Hr) as (_ & _ & Hb & _). destruct (Hb c Hc) as (q' & Hq' & Hbq).
      rewrite Heq, (Hk j q Hq Hs) in Hq'. injection Hq' as <-. destruct (busy_not_pip _ Hbq). congruence.
    + destruct (HL r Hr) as (_ & _ & _ & Hnp). apply Hnp. rewrite Heq. exists q. auto.
Qed.

Lemma filter_ok_in (lg : list arec) r : r ∈ filter a_ok lg <-> r ∈ lg /\ a_ok r = true.
Proof.
  rewrite elem_of_list_filter. split; intros [a b]; split; auto; destruct (a_ok r); auto; contradiction.
Qed.

Theorem step_placed s c s' v lg :
  wf s -> clear s -> step eps E s c = (s', v, lg) -> step_ok s s' lg.
Proof.
  intros Hwf [Hj Hn] H. apply step_cases in H as [[-> ->]|(s1 & lg1 & Hop & H)]; [apply step_ok_refl, Hwf|].
  pose proof (stmt_opened_post eps E _ _ _ Hn Hop) as (_ & _ & _ & _ & _ & Hops & _).
  specialize (Hops (proj1 Hwf)). rewrite Hj in Hops. simpl in Hops.
  apply stmt_opened_tr in Hop as [Ht Hrec]; auto.
  destruct (close_stmt s s1 (filter a_ok lg1) (proj1 Ht) (proj1 (proj2 Ht)) Hops) as [Hcom Hdis].
  { intros r [Hr Hk]%filter_ok_in. destruct (Hrec r Hr) as [a b]. split; [exact a|apply b, Hk]. }
  destruct H as [[-> ->]|[-> ->]]; assumption.
Qed.

(* along every run from a well-formed session: the session stays well-formed, Pipelined task objects stay as
   they are, and the preemptor of every committed node attempt is Pipelined on that attempt's node at the end *)
Theorem run_ok cs : forall s s' lg,
  wf s -> clear s -> run eps E s cs = (s', lg) -> step_ok s s' lg.
Proof.
  induction cs as [|c cs IH]; intros s s' lg Hwf Hcl; simpl.
  - intros [= <- <-]. apply step_ok_refl, Hwf.
  - destruct (step eps E s c) as [[s1 v1] lg1] eqn:Hs.
    pose proof (step_spec eps E _ _ _ _ _ Hcl (proj1 Hwf) Hs) as (Hcl1 & _).
    apply step_placed in Hs; auto.
    destruct (run eps E s1 cs) as [s2 lg2] eqn:Hr. apply IH in Hr; [|apply Hs|exact Hcl1].
    intros [= <- <-]. apply (step_ok_trans _ _ _ _ _ Hs Hr).
Qed.

(* MAIN 1 on observables: every pod in the evictor's accepted-call list was evicted by a committed node
   attempt; the pod sat on the attempt's node; and in the FINAL session the preemptor of that attempt is a
   Pipelined task on the same node *)
Theorem evictions_with_final_placement cs s s' lg :
  wf s -> clear s -> run eps E s cs = (s', lg) ->
  forall x, x ∈ evicts s' ->
    x ∈ evicts s \/
    exists r c q, r ∈ lg /\ a_ok r = true /\ c ∈ a_evicted r /\ t_id c = x /\ t_node c = Some (a_node r) /\
                  heap s' !! t_id (a_task r) = Some q /\ t_status q = Pipelined /\ t_node q = Some (a_node r).
Proof.
  intros Hwf Hcl Hr x Hx.
  destruct (evictions_only_with_placement eps E cs s s' lg Hcl (proj1 Hwf) Hr x Hx) as [?|(r & c & Hrl & Hk & Hs & Hc & Hid)]; [auto|].
  right. destruct (run_ok cs s s' lg Hwf Hcl Hr) as (_ & _ & Hpl). destruct (Hpl r Hrl) as [Hwr (q & Hq & Hq1 & Hq2)].
  exists r, c, q. split; [exact Hrl|]. split; [exact Hk|]. split; [exact Hc|]. split; [exact Hid|]. split; [|auto].
  destruct Hs as (n & Hn & Hcands & Hev & _).
  pose proof (Hev c Hc) as Hv. apply victims_subset in Hv. apply Hcands, node_cands_in in Hv as [[i Hi] _].
  apply (copy_agree (a_pre r) _ _ _ _ Hwr Hn Hi).
Qed.

(* the converse side on the session state: a node attempt that is not assigned leaves its preemptor Pending,
   every Pipelined task object untouched and every Running / Bound / Releasing task in such a status
   (that the ledgers are restored exactly is C07's discard_restores) *)
Theorem failed_attempt_session k s tid p pq a s' v lg :
  wf s -> ops s nsid = [] -> heap s !! tid = Some p -> t_status p = Pending ->
  run_attempt eps E k s p pq a = (s', false, v, lg) ->
  wf s' /\ (exists p', heap s' !! tid = Some p' /\ t_status p' = Pending) /\ keep_pip s s' /\ keep_busy s s'.
Proof.
  intros Hwf Hn Hp Hst H.
  apply (att_tr k s tid p pq a) in H as ((a1 & a2 & a3) & _ & b & _); auto. apply (proj1 Hwf _ _ Hp).
Qed.

End WithEps.

(* the invariant as an executable check (evaluated on every generated session by the entry) *)
Definition wfb (s : sess) : bool :=
  map_allb (fun i p => bool_decide (t_id p = i)) (heap s) &&
  map_allb (fun nid n =>
     bool_decide (n_id n = nid) &&
     map_allb (fun i c =>
        bool_decide (t_id c = i) && bool_decide (t_node c = Some nid) &&
        match heap s !! i with
        | Some t => bool_decide (t_status t = t_status c) && bool_decide (t_node t = Some nid)
        | None => false
        end) (n_tasks n)) (nodes s) &&
  map_allb (fun i t => negb (bool_decide (t_status t = Pending)) || bool_decide (t_node t = None)) (heap s).
