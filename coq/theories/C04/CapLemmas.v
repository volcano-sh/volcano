(* C04 - the capacity plugin's ReclaimableFn (capacity.go 459-603, flat queues): for every reclaimer,
   every candidate list in every pop order and all queue records, the victims it returns leave every
   victim queue at or above its guarantee, and each victim was taken while the queue's running
   allocation was above deserved AS THE CODE DEFINES IT (see cap_takes for the exact predicate). *)
From stdpp Require Import gmap.
From Coq Require Import ZArith Lia.
From V Require Import Base.Res Sched.LedgerModel Sched.StmtModel Sched.GangModel C04.Model C04.VoteLemmas.
Open Scope Z_scope.

Section WithEps.
Variable eps : Z.
Variable E : env.

(* the predicate under which the code takes a victim from a queue whose running allocation is [a] *)
Definition cap_takes (q : qx) (p c : task) (a : res) : Prop :=
  qx_cap_known q = true /\
  (* the victim shares a non-ignored resource name with the reclaimer's request *)
  intersects eps true (t_req c) (t_init p) = true /\
  (* guarantee <= allocated - victim, in every dimension of the guarantee (Resource.LessEqual, Zero) *)
  less_equal eps (qx_cap_guar q) (sub a (t_req c)) DZero = true /\
  (* "above deserved": the victim requests no resource the deserved vector holds (immediate victim), or
     allocated > deserved in SOME dimension that the victim requests and deserved holds *)
  (intersects eps false (t_req c) (qx_cap_des q) = false \/ gp_rel eps a (qx_cap_des q) (t_req c) = true).

Lemma cap_taken_ok s p : forall l al c a,
  (c, a) ∈ cap_go_tr eps E s p al l ->
  exists j q, jobs s !! t_job c = Some j /\ e_queues E !! j_queue j = Some q /\ cap_takes q p c a.
Proof.
  induction l as [|c0 r IH]; intros al c a; simpl; [intros H; inversion H|].
  destruct (jobs s !! t_job c0) as [j|] eqn:Hj; [|apply IH].
  destruct (e_queues E !! j_queue j) as [q|] eqn:Hq; [|apply IH].
  destruct (negb (qx_cap_known q)) eqn:Hk; [apply IH|].
  destruct (negb (intersects eps true (t_req c0) (t_init p))) eqn:Hi; [apply IH|].
  destruct (negb (less_equal eps (qx_cap_guar q) _ DZero)) eqn:Hg; [apply IH|].
  destruct (negb (intersects eps false (t_req c0) (qx_cap_des q)) || gp_rel eps _ (qx_cap_des q) (t_req c0)) eqn:Hd;
    [|apply IH].
  intros H. apply elem_of_cons in H as [[= -> ->]|H]; [|eapply IH, H].
  exists j, q. split; [exact Hj|]. split; [exact Hq|].
  apply negb_false_iff in Hk, Hi, Hg. split; [exact Hk|]. split; [exact Hi|]. split; [exact Hg|].
  apply orb_true_iff in Hd as [Hd|Hd]; [left; apply negb_true_iff, Hd|right; exact Hd].
Qed.

Lemma default_insert_same (al : gmap positive res) (d : res) (q q' : positive) :
  default d (<[q := default d (al !! q)]> al !! q') = default d (al !! q').
Proof.
  destruct (decide (q' = q)) as [->|Hne]; [rewrite lookup_insert|rewrite lookup_insert_ne by auto]; reflexivity.
Qed.

Lemma queue_victims_cons s qid c l :
  queue_victims s qid (c :: l) =
  if decide (cand_queue s c = Some qid) then c :: queue_victims s qid l else queue_victims s qid l.
Proof. unfold queue_victims. rewrite filter_cons. reflexivity. Qed.

(* the allocation a victim was judged with = the queue's allocation at the start of the call minus the
   victims of the same queue taken before it *)
Lemma cap_tr_alloc s p qid : forall l al tr1 c a tr2,
  cap_go_tr eps E s p al l = tr1 ++ (c, a) :: tr2 -> cand_queue s c = Some qid ->
  a = sub_reqs (default (share_of s qid) (al !! qid)) (queue_victims s qid (map fst tr1)).
Proof.
  induction l as [|c0 r IH]; intros al tr1 c a tr2; simpl.
  - intros H. destruct tr1; discriminate.
  - destruct (jobs s !! t_job c0) as [j|] eqn:Hj; [|apply IH].
    destruct (e_queues E !! j_queue j) as [q|]; [|apply IH].
    destruct (negb (qx_cap_known q)); [apply IH|].
    destruct (negb (intersects eps true (t_req c0) (t_init p))); [apply IH|].
    set (a0 := default (share_of s (j_queue j)) (al !! j_queue j)).
    assert (Hskip : cap_go_tr eps E s p (<[j_queue j := a0]> al) r = tr1 ++ (c, a) :: tr2 ->
                    cand_queue s c = Some qid ->
                    a = sub_reqs (default (share_of s qid) (al !! qid)) (queue_victims s qid (map fst tr1))).
    { intros H Hc. rewrite (IH _ _ _ _ _ H Hc). f_equal.
      destruct (decide (qid = j_queue j)) as [->|Hne]; [rewrite lookup_insert; reflexivity|].
      rewrite lookup_insert_ne by auto. reflexivity. }
    destruct (negb (less_equal eps (qx_cap_guar q) _ DZero)); [exact Hskip|].
    destruct (_ || _); [|exact Hskip].
    intros H Hc. destruct tr1 as [|[c1 a1] tr1]; simpl in H.
    + injection H as Hc0 Ha _. subst c0. rewrite <- Ha. unfold a0. simpl.
      unfold cand_queue in Hc. rewrite Hj in Hc. simpl in Hc. injection Hc as <-. reflexivity.
    + injection H as Hc0 Ha H. subst c0. rewrite <- Ha. clear Ha.
      assert (Hcq : cand_queue s c1 = Some (j_queue j)) by (unfold cand_queue; rewrite Hj; reflexivity).
      rewrite (IH _ _ _ _ _ H Hc). simpl. rewrite queue_victims_cons.
      destruct (decide (cand_queue s c1 = Some qid)) as [Hd|Hd].
      * rewrite Hcq in Hd. injection Hd as <-. rewrite lookup_insert. reflexivity.
      * rewrite lookup_insert_ne by (intros Heq; apply Hd; rewrite Hcq, Heq; reflexivity). reflexivity.
Qed.

(* MAIN (capacity): after ALL victims of the call are gone, every queue that lost a victim still holds its
   guarantee: guarantee <= allocated - sum of its victims *)
Lemma cap_go_keeps_guarantee s p qid q : e_queues E !! qid = Some q -> forall l al,
  queue_victims s qid (cap_go eps E s p al l) <> [] ->
  less_equal eps (qx_cap_guar q)
    (sub_reqs (default (share_of s qid) (al !! qid)) (queue_victims s qid (cap_go eps E s p al l))) DZero = true.
Proof.
  intros Hq. unfold cap_go. induction l as [|c0 r IH]; intros al; simpl; [intros H; contradiction|].
  destruct (jobs s !! t_job c0) as [j|] eqn:Hj; [|apply IH].
  destruct (e_queues E !! j_queue j) as [q0|] eqn:Hq0; [|apply IH].
  destruct (negb (qx_cap_known q0)); [apply IH|].
  destruct (negb (intersects eps true (t_req c0) (t_init p))); [apply IH|].
  set (a0 := default (share_of s (j_queue j)) (al !! j_queue j)).
  assert (Hskip : queue_victims s qid (map fst (cap_go_tr eps E s p (<[j_queue j := a0]> al) r)) <> [] ->
     less_equal eps (qx_cap_guar q)
       (sub_reqs (default (share_of s qid) (al !! qid))
          (queue_victims s qid (map fst (cap_go_tr eps E s p (<[j_queue j := a0]> al) r)))) DZero = true).
  { intros H. specialize (IH _ H). revert IH.
    destruct (decide (qid = j_queue j)) as [->|Hne]; [rewrite lookup_insert; auto|].
    rewrite lookup_insert_ne by auto. auto. }
  destruct (negb (less_equal eps (qx_cap_guar q0) (sub a0 (t_req c0)) DZero)) eqn:Hg; [exact Hskip|].
  destruct (_ || _); [|exact Hskip].
  assert (Hcq : cand_queue s c0 = Some (j_queue j)) by (unfold cand_queue; rewrite Hj; reflexivity).
  simpl. rewrite queue_victims_cons.
  destruct (decide (cand_queue s c0 = Some qid)) as [Hd|Hd].
  - rewrite Hcq in Hd. injection Hd as <-. intros _. simpl. rewrite Hq in Hq0. injection Hq0 as <-.
    apply negb_false_iff in Hg.
    specialize (IH (<[j_queue j := sub a0 (t_req c0)]> al)). rewrite lookup_insert in IH. simpl in IH.
    destruct (queue_victims s (j_queue j) (map fst (cap_go_tr eps E s p (<[j_queue j:=sub a0 (t_req c0)]> al) r))) as [|v vs] eqn:Hv.
    + simpl. exact Hg.
    + apply IH. discriminate.
  - intros H. specialize (IH _ H).
    rewrite lookup_insert_ne in IH by (intros Heq; apply Hd; rewrite Hcq, Heq; reflexivity). exact IH.
Qed.

End WithEps.

(* ---- the gap to the property text ("its queue is above its deserved share") ----
   The code's predicate is weaker: above deserved in SOME dimension relevant to the victim is enough.
   Queue q1: deserved cpu 4000 / mem 1000, allocated cpu 1000 / mem 2000 (far BELOW deserved in cpu, above
   in memory), no guarantee: a pod requesting cpu 500 / mem 500 is returned as victim. *)
Section Gap.
  Let g (c m : Z) : res := mkRes (c * 16) (m * 16) None.
  Let victim : task :=
    mkTask 11 1 1 1 0 (g 500 500) (g 500 500) false true Running (Some 1%positive).
  Let reclaimer : task :=
    mkTask 21 2 1 1 0 (g 500 500) (g 500 500) false true Pending None.
  Let jb (i q : positive) : job := mkJob i q 0 ∅ 0 ∅ ∅ empty_res empty_res ∅ ∅.
  Let s0 : sess :=
    mkSess ∅ {[1%positive := jb 1 1; 2%positive := jb 2 2]} ∅ {[1%positive := g 1000 2000]} [] ∅ ∅ ∅ [] [] ∅ ∅ true.
  Let qrec (d : res) : qx := mkQx true true false empty_res empty_res empty_res true d empty_res (g 100000 100000).
  Let E0 : env :=
    mkEnv [[mkPlug KCap true true]] ∅ ∅ ∅ {[1%positive := qrec (g 4000 1000); 2%positive := qrec (g 4000 4000)]} [] [11%positive].

  Theorem above_deserved_in_every_dimension_refuted :
    exists eps E s p l c j q,
      c ∈ cap_vote eps E s p l /\ jobs s !! t_job c = Some j /\ e_queues E !! j_queue j = Some q /\
      cpu (share_of s (j_queue j)) < cpu (qx_cap_des q).
  Proof.
    exists 2, E0, s0, reclaimer, [victim], victim, (jb 1 1), (qrec (g 4000 1000)).
    split; [vm_compute; left|]. split; [reflexivity|]. split; [reflexivity|]. vm_compute. reflexivity.
  Qed.
End Gap.
