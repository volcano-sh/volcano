(* C04 - the well-formedness invariant [wf] of a session behind the final-session theorems of PlacedRun.v, and
   its preservation by the operations of the shared Statement model that the two actions perform (Evict of a
   node's copy, Pipeline of a Pending task with its rollback, unevict, unallocate, Discard, Commit of Evict /
   Pipeline operations, Merge), each with the frame [hframe]: which heap entries the operation leaves alone.
   [wf] says:
     - the heap is keyed by task id;
     - every copy a node holds is filed under its id on the node its heap object names, and carries the
       heap object's status (copies are refreshed by node.UpdateTask / AddTask / RemoveTask at every
       status change these operations make);
     - a Pending task names no node.
   It is decidable (PlacedRun.wfb) and the entry evaluates it on the start session of every generated case
   (field -104); no lemma proves it for the codec's constructor. *)
From stdpp Require Import gmap.
From Coq Require Import ZArith Lia.
From V Require Import Base.Res Sched.LedgerModel Sched.StmtModel Sched.GangModel C04.Model C04.Frame.
Open Scope Z_scope.

Definition wf (s : sess) : Prop :=
  heap_ok s /\
  (forall nid n, nodes s !! nid = Some n -> n_id n = nid) /\
  (forall nid n i c, nodes s !! nid = Some n -> n_tasks n !! i = Some c ->
     t_id c = i /\ t_node c = Some nid /\
     exists t, heap s !! i = Some t /\ t_status t = t_status c /\ t_node t = Some nid) /\
  (forall i t, heap s !! i = Some t -> t_status t = Pending -> t_node t = None).

(* [wf] except that the heap object of task [i] may be Pending and yet name a node: the state inside
   Statement.Pipeline between a step that failed and the rollback; also all that is needed of a session
   whose entry [i] is about to be overwritten *)
Definition wf_but (i : positive) (s : sess) : Prop :=
  heap_ok s /\
  (forall nid n, nodes s !! nid = Some n -> n_id n = nid) /\
  (forall nid n k c, nodes s !! nid = Some n -> n_tasks n !! k = Some c ->
     t_id c = k /\ t_node c = Some nid /\
     exists t, heap s !! k = Some t /\ t_status t = t_status c /\ t_node t = Some nid) /\
  (forall j t, j <> i -> heap s !! j = Some t -> t_status t = Pending -> t_node t = None).

Lemma wf_wf_but i s : wf s -> wf_but i s.
Proof. intros (a & b & c & d). split; [exact a|]. split; [exact b|]. split; [exact c|]. intros j t _. apply d. Qed.

Lemma wf_but_wf i s :
  wf_but i s -> (forall t, heap s !! i = Some t -> t_status t = Pending -> t_node t = None) -> wf s.
Proof.
  intros (a & b & c & d) Hi. split; [exact a|]. split; [exact b|]. split; [exact c|].
  intros j t. destruct (decide (j = i)) as [->|Hne]; [apply Hi|apply d, Hne].
Qed.

Lemma set_node_same p x : t_node p = x -> set_node p x = p.
Proof. destruct p; simpl; intros <-; reflexivity. Qed.

Lemma node_remove_shape n i :
  n_tasks (node_remove n i) = delete i (n_tasks n) /\ n_id (node_remove n i) = n_id n.
Proof.
  unfold node_remove. destruct (n_tasks n !! i) as [c|] eqn:Hc.
  - destruct (n_has_node n); [destruct (t_status c)|]; simpl; auto.
  - rewrite delete_notin by exact Hc. auto.
Qed.

Definition hframe (s s' : sess) (i : positive) : Prop := forall j, j <> i -> heap s' !! j = heap s !! j.

Lemma hframe_insert s s' i q : heap s' = <[i := q]> (heap s) -> hframe s s' i.
Proof. intros H j Hj. rewrite H. apply lookup_insert_ne. auto. Qed.

Lemma wf_fields s s' : heap s' = heap s -> nodes s' = nodes s -> wf s -> wf s'.
Proof. intros Hh Hn (a & b & c & d). unfold wf, heap_ok. rewrite Hh, Hn. auto. Qed.

(* a task either names a node the session has, or is on no node of the session *)
Lemma names_node (s : sess) (t : task) :
  (exists nid n, t_node t = Some nid /\ nodes s !! nid = Some n) \/
  (forall nid, t_node t = Some nid -> nodes s !! nid = None).
Proof.
  destruct (t_node t) as [nid|]; [destruct (nodes s !! nid) as [n|] eqn:E|]; eauto.
  - right. intros ? [= <-]. exact E.
  - right. discriminate.
Qed.

(* a node holds no copy under key i when the heap object names another node or none *)
Lemma wf_no_copy s i t nid n :
  wf_but i s -> heap s !! i = Some t -> t_node t <> Some nid -> nodes s !! nid = Some n -> n_tasks n !! i = None.
Proof.
  intros (_ & _ & Hc & _) Ht Hne Hn. destruct (n_tasks n !! i) as [c|] eqn:E; [|reflexivity].
  destruct (Hc _ _ _ _ Hn E) as (_ & _ & t' & Ht' & _ & Hnode). rewrite Ht in Ht'. injection Ht' as <-. contradiction.
Qed.

Lemma wf_no_copies s i t :
  wf_but i s -> heap s !! i = Some t -> (forall nid, t_node t = Some nid -> nodes s !! nid = None) ->
  forall m nm, nodes s !! m = Some nm -> n_tasks nm !! i = None.
Proof.
  intros Hb Ht Hnone m nm Hm. apply (wf_no_copy s i t m nm Hb Ht); [|exact Hm].
  intros E. rewrite (Hnone m E) in Hm. discriminate.
Qed.

(* the heap object of task i is replaced by q and node nid's copy under key i is replaced by q or removed *)
Lemma wf_replace s s' nid n n' i q :
  wf_but i s -> nodes s !! nid = Some n ->
  heap s' = <[i := q]> (heap s) -> nodes s' = <[nid := n']> (nodes s) ->
  t_id q = i -> n_id n' = nid ->
  (forall k, k <> i -> n_tasks n' !! k = n_tasks n !! k) ->
  (n_tasks n' !! i = None \/ (n_tasks n' !! i = Some q /\ t_node q = Some nid)) ->
  (forall t, heap s !! i = Some t -> t_node t = None \/ t_node t = Some nid) ->
  wf_but i s'.
Proof.
  intros (Hok & Hni & Hc & Hp) Hn Hh Hns Hid Hnid Hk Hi Hold.
  unfold wf_but, heap_ok. rewrite Hh, Hns. split; [|split; [|split]].
  - intros j t. destruct (decide (j = i)) as [->|Hne]; [rewrite lookup_insert; intros [= <-]; exact Hid|].
    rewrite lookup_insert_ne by auto. apply Hok.
  - intros m nm. destruct (decide (m = nid)) as [->|Hm]; [rewrite lookup_insert; intros [= <-]; exact Hnid|].
    rewrite lookup_insert_ne by auto. apply Hni.
  - intros m nm k c. destruct (decide (m = nid)) as [->|Hm].
    + rewrite lookup_insert. intros [= <-] Hck. destruct (decide (k = i)) as [->|Hki].
      * destruct Hi as [Hi|[Hi Hq]]; [rewrite Hi in Hck; discriminate|]. rewrite Hi in Hck. injection Hck as <-.
        split; [exact Hid|]. split; [exact Hq|].
        exists q. rewrite lookup_insert. auto.
      * rewrite (Hk k Hki) in Hck. destruct (Hc _ _ _ _ Hn Hck) as (h2 & h3 & t & h4 & h5 & h6).
        split; [exact h2|]. split; [exact h3|].
        exists t. rewrite lookup_insert_ne by auto. auto.
    + rewrite lookup_insert_ne by auto. intros Hnm Hck. destruct (Hc _ _ _ _ Hnm Hck) as (h2 & h3 & t & h4 & h5 & h6).
      split; [exact h2|]. split; [exact h3|]. exists t.
      destruct (decide (k = i)) as [->|Hki]; [|rewrite lookup_insert_ne by auto; auto].
      exfalso. destruct (Hold _ h4) as [E|E]; rewrite E in h6; [discriminate|]. injection h6 as ->. contradiction.
  - intros j t Hne. rewrite lookup_insert_ne by auto. apply Hp, Hne.
Qed.

(* only the heap object changes; no node holds a copy of the task *)
Lemma wf_heap_only s s' i q :
  wf_but i s -> heap s' = <[i := q]> (heap s) -> nodes s' = nodes s -> t_id q = i ->
  (forall nid n, nodes s !! nid = Some n -> n_tasks n !! i = None) ->
  wf_but i s'.
Proof.
  intros (Hok & Hni & Hc & Hp) Hh Hns Hid Hno. unfold wf_but, heap_ok. rewrite Hh, Hns. split; [|split; [|split]].
  - intros j t. destruct (decide (j = i)) as [->|Hne]; [rewrite lookup_insert; intros [= <-]; exact Hid|].
    rewrite lookup_insert_ne by auto. apply Hok.
  - exact Hni.
  - intros m nm k c Hnm Hck. destruct (Hc _ _ _ _ Hnm Hck) as (h2 & h3 & t & h4 & h5 & h6).
    split; [exact h2|]. split; [exact h3|]. exists t.
    destruct (decide (k = i)) as [->|Hki]; [rewrite (Hno _ _ Hnm) in Hck; discriminate|].
    rewrite lookup_insert_ne by auto. auto.
  - intros j t Hne. rewrite lookup_insert_ne by auto. apply Hp, Hne.
Qed.

Section WithEps.
Variable eps : Z.

Lemma node_add_shape n t :
  (t_node t = None \/ t_node t = Some (n_id n)) -> n_tasks n !! t_id t = None ->
  (exists n', node_add eps n t = inl (n', set_node t (Some (n_id n))) /\
              n_tasks n' = <[t_id t := set_node t (Some (n_id n))]> (n_tasks n) /\ n_id n' = n_id n) \/
  (t_status t = Binding /\ exists e, node_add eps n t = inr e).
Proof.
  intros Hn Hc. unfold node_add.
  rewrite bool_decide_eq_false_2 by (intros [H1 H2]; destruct Hn; congruence).
  rewrite bool_decide_eq_false_2 by (rewrite Hc; intros [? ?]; discriminate).
  destruct (n_has_node n); simpl; [|left; eauto].
  destruct (t_status t) eqn:Hs; simpl; try solve [left; eauto].
  destruct (less_equal_names eps (t_req t) (n_idle n) DZero); [left; eauto|right; eauto].
Qed.

Lemma ssn_update_status_shape s p st :
  (exists s1, ssn_update_status s p st = (true, s1, set_status p st) /\ is_Some (jobs s1 !! t_job p) /\
     heap s1 = <[t_id p := set_status p st]> (heap s) /\ nodes s1 = nodes s) \/
  (jobs s !! t_job p = None /\ ssn_update_status s p st = (false, s, p)).
Proof.
  unfold ssn_update_status. destruct (jobs s !! t_job p) as [j|]; [left|right; auto].
  unfold job_update. simpl. eexists. split; [reflexivity|]. simpl. rewrite lookup_insert. eauto.
Qed.

(* the same in one piece, for an object of task i *)
Lemma ssn_update_status_any s p st i :
  t_id p = i ->
  exists f s1 p1, ssn_update_status s p st = (f, s1, p1) /\
    t_id p1 = i /\ t_node p1 = t_node p /\ nodes s1 = nodes s /\
    (heap s1 = heap s \/ heap s1 = <[i := p1]> (heap s)) /\
    ((f = true /\ t_status p1 = st /\ is_Some (jobs s1 !! t_job p1)) \/
     (f = false /\ t_status p1 = t_status p /\ jobs s !! t_job p = None)).
Proof.
  intros Hid. destruct (ssn_update_status_shape s p st) as [(s1 & He & Hj & Hh & Hn)|[Hj He]];
    rewrite He; do 3 eexists; (split; [reflexivity|]).
  - rewrite Hid in Hh. simpl. auto 10.
  - auto 10.
Qed.

(* node.UpdateTask(p) on the node p names: the copy under p's id becomes p; a Binding task that no
   longer fits is dropped from the node instead (klog.Fatalf in Go) *)
Lemma ssn_node_update_shape s p nid n :
  t_node p = Some nid -> nodes s !! nid = Some n -> n_id n = nid ->
  (exists n' s', ssn_node_update eps s p = (s', p, false) /\
    heap s' = <[t_id p := p]> (heap s) /\ nodes s' = <[nid := n']> (nodes s) /\
    n_id n' = nid /\ n_tasks n' = <[t_id p := p]> (delete (t_id p) (n_tasks n))) \/
  (exists s', ssn_node_update eps s p = (s', p, true) /\
    heap s' = heap s /\ nodes s' = <[nid := node_remove n (t_id p)]> (nodes s)).
Proof.
  intros Hnode Hn Hid. unfold ssn_node_update. rewrite Hnode, Hn. unfold node_update.
  destruct (node_remove_shape n (t_id p)) as [Hr1 Hr2].
  destruct (node_add_shape (node_remove n (t_id p)) p) as [(n' & Ha & Ht & Hi)|(_ & e & Ha)].
  - right. rewrite Hr2, Hid. exact Hnode.
  - rewrite Hr1. apply lookup_delete.
  - left. rewrite Ha. rewrite Hr2, Hid. rewrite (set_node_same p (Some nid) Hnode).
    exists n'. eexists. split; [reflexivity|]. simpl. split; [reflexivity|]. split; [reflexivity|].
    split; [congruence|]. rewrite Ht, Hr1, Hr2, Hid. rewrite (set_node_same p (Some nid) Hnode). reflexivity.
  - right. rewrite Ha. eexists. split; [reflexivity|]. simpl. auto.
Qed.

Lemma ssn_node_update_none s p :
  (forall nid, t_node p = Some nid -> nodes s !! nid = None) -> ssn_node_update eps s p = (s, p, false).
Proof.
  unfold ssn_node_update. intros H. destruct (t_node p) as [nid|]; [rewrite (H nid eq_refl)|]; reflexivity.
Qed.

(* the common core of Statement.Evict and unevict.  The heap holds [t1] for task i (the stored object [t], or
   the passed one after UpdateTaskStatus) and node.UpdateTask(p1) refreshes the copy of the node that [t] names *)
Lemma refresh_wf s0 s1 p1 t1 i t s2 p2 fatal :
  wf s0 -> heap s0 !! i = Some t ->
  heap s1 = <[i := t1]> (heap s0) -> nodes s1 = nodes s0 ->
  t_id p1 = i -> t_id t1 = i -> t_node t = t_node p1 -> t_node t = t_node t1 ->
  (t_status p1 = Pending -> t_node p1 = None) -> (t_status t1 = Pending -> t_node t1 = None) ->
  ssn_node_update eps s1 p1 = (s2, p2, fatal) ->
  wf s2 /\ hframe s0 s2 i /\ exists q, heap s2 !! i = Some q /\ (q = p1 \/ q = t1).
Proof.
  intros Hwf Ht Hh Hn Hid Hid1 Htn Htn1 Hp Hp1 Hu.
  pose proof (wf_wf_but i _ Hwf) as Hb. destruct Hwf as (_ & Hni & _).
  destruct (names_node s0 t) as [(nid & n & Hnode & Hnn)|Hnone].
  - assert (Hold : forall t', heap s0 !! i = Some t' -> t_node t' = None \/ t_node t' = Some nid).
    { intros t' Ht'. rewrite Ht in Ht'. injection Ht' as <-. auto. }
    destruct (node_remove_shape n i) as [Hrt Hri].
    destruct (ssn_node_update_shape s1 p1 nid n) as [(n' & s' & He & Hh' & Hn' & Hi' & Ht')|(s' & He & Hh' & Hn')];
      [congruence|rewrite Hn; exact Hnn|exact (Hni _ _ Hnn)| |];
      rewrite He in Hu; injection Hu as <- <- <-; rewrite Hid in *.
    + assert (Hh2 : heap s' = <[i := p1]> (heap s0)) by (rewrite Hh', Hh; apply insert_insert).
      split; [|split; [apply (hframe_insert _ _ _ _ Hh2)|exists p1; rewrite Hh2, lookup_insert; auto]].
      apply (wf_but_wf i); [|rewrite Hh2, lookup_insert; intros ? [= <-]; exact Hp].
      apply (wf_replace s0 s' nid n n' i p1 Hb Hnn Hh2); [congruence|exact Hid|exact Hi'| | |exact Hold].
      * intros k Hk. rewrite Ht', lookup_insert_ne, lookup_delete_ne by auto. reflexivity.
      * right. split; [rewrite Ht'; apply lookup_insert|congruence].
    + (* the copy was dropped: the heap keeps what it had *)
      rewrite Hh in Hh'.
      split; [|split; [apply (hframe_insert _ _ _ _ Hh')|exists t1; rewrite Hh', lookup_insert; auto]].
      apply (wf_but_wf i); [|rewrite Hh', lookup_insert; intros ? [= <-]; exact Hp1].
      apply (wf_replace s0 s' nid n (node_remove n i) i t1 Hb Hnn Hh'); [congruence|exact Hid1| | | |exact Hold].
      * rewrite Hri. exact (Hni _ _ Hnn).
      * intros k Hk. rewrite Hrt. apply lookup_delete_ne. auto.
      * left. rewrite Hrt. apply lookup_delete.
  - rewrite (ssn_node_update_none s1 p1) in Hu by (intros nid; rewrite <- Htn, Hn; apply Hnone).
    injection Hu as <- <- <-.
    split; [|split; [apply (hframe_insert _ _ _ _ Hh)|exists t1; rewrite Hh, lookup_insert; auto]].
    apply (wf_but_wf i); [|rewrite Hh, lookup_insert; intros ? [= <-]; exact Hp1].
    apply (wf_heap_only s0 s1 i t1 Hb Hh Hn Hid1), (wf_no_copies s0 i t Hb Ht Hnone).
Qed.

(* UpdateTaskStatus(p, st) followed by node.UpdateTask: p is the task's heap object or a node's copy of it *)
Lemma retag_wf s p st i t f s1 p1 s2 p2 fatal :
  wf s -> t_id p = i -> heap s !! i = Some t -> t_node t = t_node p -> t_status t = t_status p ->
  st <> Pending ->
  ssn_update_status s p st = (f, s1, p1) -> ssn_node_update eps s1 p1 = (s2, p2, fatal) ->
  wf s2 /\ hframe s s2 i /\ exists q, heap s2 !! i = Some q /\ (t_status q = st \/ t_status q = t_status t).
Proof.
  intros Hwf Hid Ht Htn Hts Hst He Hu.
  destruct (ssn_update_status_shape s p st) as [(s1' & He' & _ & Hh & Hn)|[Hj He']];
    rewrite He' in He; injection He as <- <- <-.
  - rewrite Hid in Hh.
    destruct (refresh_wf s s1' (set_status p st) (set_status p st) i t s2 p2 fatal) as (a & b & q & Hq & Hqq);
      auto; try (simpl; intros E; contradiction).
    split; [exact a|]. split; [exact b|]. exists q. split; [exact Hq|]. destruct Hqq as [-> | ->]; auto.
  - pose proof (proj2 (proj2 (proj2 Hwf)) _ _ Ht) as Hpf.
    destruct (refresh_wf s s p t i t s2 p2 fatal) as (a & b & q & Hq & Hqq); auto.
    + symmetry. apply insert_id, Ht.
    + apply (proj1 Hwf _ _ Ht).
    + rewrite <- Htn, <- Hts. exact Hpf.
    + split; [exact a|]. split; [exact b|]. exists q. split; [exact Hq|]. destruct Hqq as [-> | ->]; auto.
Qed.

(* [c] agrees with the heap object of its task (a node's copy does) *)
Definition agree (s : sess) (c : task) : Prop :=
  exists t, heap s !! t_id c = Some t /\ t_node t = t_node c /\ t_status t = t_status c.

(* Statement.Evict of a copy a node holds *)
Lemma evict_wf s sid c :
  wf s -> agree s c ->
  wf (fst (stmt_evict_with eps s sid c None)) /\ hframe s (fst (stmt_evict_with eps s sid c None)) (t_id c) /\
  exists q, heap (fst (stmt_evict_with eps s sid c None)) !! t_id c = Some q /\
            (t_status q = Releasing \/ t_status q = t_status c).
Proof.
  intros Hwf (t & Ht & Htn & Hst). unfold stmt_evict_with.
  destruct (ssn_update_status s c Releasing) as [[f s1] p1] eqn:He.
  destruct (ssn_node_update eps s1 p1) as [[s2 p2] fatal] eqn:Hu.
  destruct (retag_wf s c Releasing (t_id c) t _ _ _ _ _ _ Hwf eq_refl Ht Htn Hst ltac:(discriminate) He Hu)
    as (Hw & Hf & q & Hq & Hqq).
  split; [exact (wf_fields _ _ eq_refl eq_refl Hw)|]. split; [exact Hf|].
  exists q. split; [exact Hq|]. rewrite <- Hst. exact Hqq.
Qed.

Lemma copy_agree s nid n i c : wf s -> nodes s !! nid = Some n -> n_tasks n !! i = Some c ->
  agree s c /\ t_node c = Some nid.
Proof.
  intros (_ & _ & Hcoh & _) Hn Hc. destruct (Hcoh _ _ _ _ Hn Hc) as (Hid & Hnode & t & Ht & Hst & Htn).
  split; [|exact Hnode]. exists t. rewrite Hid, Hnode. auto.
Qed.

(* unevict of the task's heap object *)
Lemma unevict_wf s i p prev :
  wf s -> heap s !! i = Some p ->
  wf (fst (unevict_with eps s p prev)) /\ hframe s (fst (unevict_with eps s p prev)) i /\
  exists q, heap (fst (unevict_with eps s p prev)) !! i = Some q /\
            (t_status q = restore_status prev \/ t_status q = t_status p).
Proof.
  intros Hwf Hp. unfold unevict_with.
  destruct (ssn_update_status s p (restore_status prev)) as [[f s1] p1] eqn:He.
  destruct (ssn_node_update eps s1 p1) as [[s2 p2] fatal] eqn:Hu.
  destruct (retag_wf s p (restore_status prev) i p f s1 p1 s2 p2 fatal Hwf (proj1 Hwf _ _ Hp) Hp eq_refl eq_refl)
    as (Hw & Hf & q & Hq & Hqq); auto; [destruct prev; discriminate|].
  destruct (h_alloc s2 p2) as [e s3] eqn:Ha. unfold h_alloc in Ha. injection Ha as _ <-.
  split; [exact (wf_fields _ _ eq_refl eq_refl Hw)|]. split; [exact Hf|]. exists q. auto.
Qed.

Lemma ssn_node_remove_shape s p :
  heap (ssn_node_remove s p) = heap s /\
  ((exists nid n, t_node p = Some nid /\ nodes s !! nid = Some n /\
      nodes (ssn_node_remove s p) = <[nid := node_remove n (t_id p)]> (nodes s)) \/
   ((forall nid, t_node p = Some nid -> nodes s !! nid = None) /\ nodes (ssn_node_remove s p) = nodes s)).
Proof.
  unfold ssn_node_remove. destruct (names_node s p) as [(nid & n & -> & Hn)|Hnone].
  - rewrite Hn. split; [reflexivity|]. left. eauto.
  - split; [|right; split; [exact Hnone|]]; destruct (t_node p) as [nid|]; try rewrite (Hnone nid eq_refl); reflexivity.
Qed.

(* unallocate / unPipeline of the task's heap object: Discard of a Pipeline operation, and the rollback inside a
   failed Statement.Pipeline *)
Lemma unallocate_wf s i p :
  wf_but i s -> heap s !! i = Some p ->
  wf (unallocate_with s p) /\ hframe s (unallocate_with s p) i /\
  exists q, heap (unallocate_with s p) !! i = Some q /\ t_node q = None /\
            (t_status q = Pending \/ (jobs s !! t_job p = None /\ t_status q = t_status p)).
Proof.
  intros Hb Hp. pose proof Hb as (Hok & Hni & _). pose proof (Hok _ _ Hp) as Hid.
  unfold unallocate_with.
  destruct (ssn_update_status_any s p Pending i Hid) as (f & s5 & p5 & -> & Hid5 & Hnode5 & Hn5 & Hh5 & Hst5).
  set (q := set_node p5 None).
  destruct (ssn_node_remove_shape s5 p5) as [Hrh Hrn]. rewrite Hn5, Hnode5, Hid5 in Hrn.
  assert (Hheap : heap (put_task (h_dealloc (ssn_node_remove s5 p5) p5) q) = <[i := q]> (heap s)).
  { unfold put_task, h_dealloc. simpl. rewrite Hid5, Hrh. destruct Hh5 as [-> | ->]; rewrite ?insert_insert; reflexivity. }
  split; [|split; [apply (hframe_insert _ _ _ _ Hheap)|exists q; rewrite Hheap, lookup_insert]].
  2:{ split; [reflexivity|]. split; [reflexivity|]. destruct Hst5 as [(_ & ? & _)|(_ & ? & ?)]; auto. }
  apply (wf_but_wf i); [|rewrite Hheap, lookup_insert; intros ? [= <-] _; reflexivity].
  destruct Hrn as [(nid & n & Hnode & Hn & Hrn)|[Hnone Hrn]].
  - destruct (node_remove_shape n i) as [Ht Hi'].
    eapply (wf_replace s _ nid n (node_remove n i) i q Hb Hn Hheap); [exact Hrn|exact Hid5| | | |].
    + rewrite Hi'. exact (Hni _ _ Hn).
    + intros k Hk. rewrite Ht. apply lookup_delete_ne. auto.
    + left. rewrite Ht. apply lookup_delete.
    + intros t Ht'. rewrite Hp in Ht'. injection Ht' as <-. auto.
  - apply (wf_heap_only s _ i q Hb Hheap Hrn Hid5), (wf_no_copies s i p Hb Hp Hnone).
Qed.

(* the node.AddTask step of Statement.Pipeline, for a task that names the node and is not on it *)
Lemma add_to_node_shape s p nid :
  t_node p = Some nid -> t_status p <> Binding -> heap s !! t_id p = Some p ->
  (forall n, nodes s !! nid = Some n -> n_id n = nid /\ n_tasks n !! t_id p = None) ->
  exists s3 ok, add_to_node eps s p nid = (s3, p, ok) /\ heap s3 = heap s /\ jobs s3 = jobs s /\
    ((ok = false /\ nodes s3 = nodes s) \/
     (ok = true /\ exists n n', nodes s !! nid = Some n /\ nodes s3 = <[nid := n']> (nodes s) /\ n_id n' = nid /\
                     n_tasks n' = <[t_id p := p]> (n_tasks n))).
Proof.
  intros Hnode Hst Hp Hn. unfold add_to_node. destruct (nodes s !! nid) as [n|]; [|eauto 10].
  destruct (Hn n eq_refl) as [Hid Hc].
  destruct (node_add_shape n p) as [(n' & Ha & Ht & Hi')|(Hbind & _)]; [right; congruence|exact Hc| |contradiction].
  rewrite Hid, (set_node_same p (Some nid) Hnode) in *. rewrite Ha.
  do 2 eexists. split; [reflexivity|]. split; [apply insert_id, Hp|]. split; [reflexivity|]. right. eauto 10.
Qed.

(* Statement.Pipeline of a Pending task *)
Lemma place_wf s sid i p nid :
  wf s -> heap s !! i = Some p -> t_status p = Pending ->
  wf (fst (place_with eps s sid KPipeline p nid)) /\ hframe s (fst (place_with eps s sid KPipeline p nid)) i /\
  exists q, heap (fst (place_with eps s sid KPipeline p nid)) !! i = Some q /\
    (snd (place_with eps s sid KPipeline p nid) = ROk -> t_status q = Pipelined /\ t_node q = Some nid) /\
    (snd (place_with eps s sid KPipeline p nid) <> ROk -> t_status q = Pending /\ t_node q = None).
Proof.
  intros Hwf Hp Hst. pose proof (wf_wf_but i _ Hwf) as Hb. pose proof Hwf as (Hok & Hni & _ & Hpf).
  pose proof (Hok _ _ Hp) as Hid. pose proof (Hpf _ _ Hp Hst) as Hnone.
  assert (Hnocopy : forall m nm, nodes s !! m = Some nm -> n_tasks nm !! i = None).
  { apply (wf_no_copies s i p Hb Hp). rewrite Hnone. discriminate. }
  rewrite place_with_eq. cbv beta iota.
  (* UpdateTaskStatus(Pipelined): done iff the job is known *)
  destruct (ssn_update_status_any s p Pipelined i Hid) as (f & s1 & p1 & -> & Hid1 & _ & Hn1 & Hh1 & Hf).
  cbv beta iota zeta.
  set (p2 := set_node p1 (Some nid)). set (s2 := put_task s1 p2).
  assert (Hh2 : heap s2 = <[i := p2]> (heap s)).
  { unfold s2, put_task, p2. simpl. rewrite Hid1. destruct Hh1 as [-> | ->]; rewrite ?insert_insert; reflexivity. }
  (* node.AddTask *)
  destruct (add_to_node_shape s2 p2 nid) as (s3 & ok & -> & Hh3 & Hj3 & Hn3); [reflexivity| | | |].
  { unfold p2. simpl. destruct Hf as [(_ & -> & _)|(_ & -> & _)]; [|rewrite Hst]; discriminate. }
  { rewrite Hh2. change (t_id p2) with (t_id p1). rewrite Hid1. apply lookup_insert. }
  { intros n Hnn. change (nodes s2) with (nodes s1) in Hnn. rewrite Hn1 in Hnn. unfold p2. simpl. rewrite Hid1.
    split; [apply (Hni _ _ Hnn)|apply (Hnocopy _ _ Hnn)]. }
  cbv beta iota. change (nodes s2) with (nodes s1) in Hn3. change (t_id p2) with (t_id p1) in Hn3.
  rewrite Hn1, Hid1 in Hn3. rewrite Hh2 in Hh3.
  destruct (h_alloc s3 p2) as [he s4] eqn:Ha. unfold h_alloc in Ha. injection Ha as _ <-. cbv beta iota.
  set (s4 := upd_handlers s3 _ _).
  (* so far: entry i is p2, which names the node; the node holds p2 if AddTask accepted it *)
  assert (Hb4 : wf_but i s4).
  { destruct Hn3 as [(_ & Hn3)|(_ & n & n' & Hnn & Hn3 & Hi' & Ht')].
    - apply (wf_heap_only s s4 i p2 Hb Hh3); [exact Hn3|exact Hid1|exact Hnocopy].
    - apply (wf_replace s s4 nid n n' i p2 Hb Hnn Hh3); [exact Hn3|exact Hid1|exact Hi'| | |].
      + intros k Hk. rewrite Ht'. apply lookup_insert_ne. auto.
      + right. split; [rewrite Ht'; apply lookup_insert|reflexivity].
      + intros t Ht. rewrite Hp in Ht. injection Ht as <-. auto. }
  assert (Hp4 : heap s4 !! i = Some p2) by (unfold s4; simpl; rewrite Hh3; apply lookup_insert).
  destruct (f && ok && negb he) eqn:Hok3; cbn [fst snd].
  - (* success *)
    apply andb_true_iff in Hok3 as [[-> _]%andb_true_iff _].
    destruct Hf as [(_ & Hpip & _)|(? & _)]; [|discriminate].
    split; [|split; [apply (hframe_insert _ _ _ _ Hh3)|exists p2; split; [exact Hp4|split; [auto|contradiction]]]].
    apply (wf_fields s4); [reflexivity..|]. apply (wf_but_wf i _ Hb4).
    intros t Ht. rewrite Hp4 in Ht. injection Ht as <-. unfold p2. simpl. rewrite Hpip. discriminate.
  - (* failure: rolled back *)
    destruct (unallocate_wf s4 i p2 Hb4 Hp4) as (a & b & q & Hq & Hqn & Hqs).
    split; [exact a|]. split.
    { intros j Hj. rewrite (b j Hj). apply (hframe_insert _ _ _ _ Hh3 j Hj). }
    exists q. split; [exact Hq|]. split; [discriminate|]. intros _. split; [|exact Hqn].
    destruct Hqs as [?|[Hnj ->]]; [assumption|]. destruct Hf as [(_ & _ & x & Hx)|(_ & E & _)]; [|exact (eq_trans E Hst)].
    unfold s4 in Hnj. simpl in Hnj. rewrite Hj3 in Hnj. change (jobs s1 !! t_job p1 = None) in Hnj. congruence.
Qed.

Lemma stmt_pipeline_wf s sid tid nid p :
  wf s -> heap s !! tid = Some p -> t_status p = Pending ->
  wf (fst (stmt_pipeline eps s sid tid nid)) /\ hframe s (fst (stmt_pipeline eps s sid tid nid)) tid /\
  exists q, heap (fst (stmt_pipeline eps s sid tid nid)) !! tid = Some q /\
    (snd (stmt_pipeline eps s sid tid nid) = ROk -> t_status q = Pipelined /\ t_node q = Some nid) /\
    (snd (stmt_pipeline eps s sid tid nid) <> ROk -> t_status q = Pending /\ t_node q = None).
Proof.
  intros Hwf Hp Hst. unfold stmt_pipeline, with_task. rewrite Hp. apply place_wf; auto.
Qed.

Lemma undo_op_wf s o : wf s -> wf (undo_op eps s o) /\ hframe s (undo_op eps s o) (op_task o).
Proof.
  intros Hwf. unfold undo_op. destruct (heap s !! op_task o) as [p|] eqn:Hp; [|split; [exact Hwf|intros j _; reflexivity]].
  destruct (op_kind o).
  - destruct (unevict_wf s (op_task o) p (op_prev o) Hwf Hp) as (a & b & _). auto.
  - destruct (unallocate_wf s (op_task o) p (wf_wf_but _ _ Hwf) Hp) as (a & b & _). auto.
  - destruct (unallocate_wf s (op_task o) p (wf_wf_but _ _ Hwf) Hp) as (a & b & _). auto.
Qed.

Lemma commit_op_wf s o : op_kind o <> KAllocate -> wf s ->
  wf (commit_op eps s o) /\ hframe s (commit_op eps s o) (op_task o).
Proof.
  intros Hk Hwf. unfold commit_op. destruct (heap s !! op_task o) as [p|] eqn:Hp; [|split; [exact Hwf|intros j _; reflexivity]].
  destruct (op_kind o); [| |contradiction].
  - destruct (bool_decide (t_id p ∈ refuse_evict s));
      [destruct (unevict_wf s (op_task o) p (op_prev o) Hwf Hp) as (a & b & _); auto|].
    split; [exact (wf_fields _ _ eq_refl eq_refl Hwf)|intros j _; reflexivity].
  - split; [exact Hwf|intros j _; reflexivity].
Qed.

Lemma fold_wf (f : sess -> oprec -> sess) (P : oprec -> Prop) :
  (forall s o, P o -> wf s -> wf (f s o) /\ hframe s (f s o) (op_task o)) ->
  forall l s, Forall P l -> wf s ->
    wf (fold_left f l s) /\ forall j, (forall o, o ∈ l -> op_task o <> j) -> heap (fold_left f l s) !! j = heap s !! j.
Proof.
  intros Hf. induction l as [|o l IH]; intros s HP Hwf; simpl; [split; auto|].
  apply Forall_cons in HP as [Ho HP]. destruct (Hf s o Ho Hwf) as [Hw Hfr].
  destruct (IH _ HP Hw) as [Hw' Hfr']. split; [exact Hw'|].
  intros j Hj. rewrite Hfr' by (intros o' Ho'; apply Hj; right; exact Ho').
  apply Hfr. intros ->. eapply Hj; [left|reflexivity].
Qed.

Lemma stmt_discard_wf s sid : wf s ->
  wf (stmt_discard eps s sid) /\
  forall j, (forall o, o ∈ ops s sid -> op_task o <> j) -> heap (stmt_discard eps s sid) !! j = heap s !! j.
Proof.
  intros Hwf. unfold stmt_discard.
  destruct (fold_wf (undo_op eps) (fun _ => True) (fun s o _ => undo_op_wf s o) (rev (default [] (stmts s !! sid))) s) as [a b].
  { apply Forall_forall. auto. }
  { exact Hwf. }
  split; [exact (wf_fields _ _ eq_refl eq_refl a)|].
  intros j Hj. simpl. apply b. intros o Ho. apply Hj. unfold ops. apply elem_of_list_In. apply elem_of_list_In, in_rev in Ho. exact Ho.
Qed.

Lemma stmt_commit_wf s sid : wf s -> Forall (fun o => op_kind o <> KAllocate) (ops s sid) ->
  wf (stmt_commit eps s sid) /\
  forall j, (forall o, o ∈ ops s sid -> op_task o <> j) -> heap (stmt_commit eps s sid) !! j = heap s !! j.
Proof.
  intros Hwf Hk. unfold stmt_commit.
  destruct (fold_wf (commit_op eps) (fun o => op_kind o <> KAllocate) (fun s o => commit_op_wf s o) (default [] (stmts s !! sid)) s Hk Hwf) as [a b].
  split; [exact (wf_fields _ _ eq_refl eq_refl a)|].
  intros j Hj. simpl. apply b. exact Hj.
Qed.

End WithEps.

Lemma stmt_merge_wf s sid src : wf s -> wf (stmt_merge s sid src) /\ heap (stmt_merge s sid src) = heap s.
Proof.
  intros Hwf. unfold stmt_merge. destruct (bool_decide (sid = src)); [auto|].
  split; [exact (wf_fields _ _ eq_refl eq_refl Hwf)|reflexivity].
Qed.

Lemma set_fault_wf E s tid nid : wf s -> wf (set_fault E s tid nid) /\ heap (set_fault E s tid nid) = heap s.
Proof. intros Hwf. split; [exact (wf_fields _ _ eq_refl eq_refl Hwf)|reflexivity]. Qed.
