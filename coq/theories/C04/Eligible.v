(* C04 - the property theorems: candidate filters, "never in vain", eligibility of every
   committed victim, for all sessions, layouts and choice lists. *)
From V Require Import C11.Model C11.Spec C11.Lemmas.
From stdpp Require Import gmap.
From Coq Require Import ZArith Lia.
From V Require Import Base.Res Sched.LedgerModel Sched.StmtModel Sched.GangModel
                      C04.Model C04.Frame C04.VoteLemmas C04.Lemmas.
Open Scope Z_scope.

Section WithEps.
Variable eps : Z.
Variable E : env.

(* preempt.go 196-214 / 256-272: running or bound, marked preemptable, and in the preemptor's queue
   but another job (inter-job phase) resp. in the preemptor's own job (intra-job phase) *)
Theorem preempt_candidates_eligible k s p pq c :
  k <> AReclaim -> cand_ok E k s p pq c = true ->
  (t_status c = Running \/ t_status c = Bound) /\ t_preemptable c = true /\
  (t_best_effort p = true -> t_best_effort c = true) /\
  match k with
  | AInter => exists j, jobs s !! t_job c = Some j /\ j_queue j = pq /\ t_job p <> t_job c
  | _ => t_job p = t_job c
  end.
Proof.
  intros Hk. destruct k; [| |congruence]; simpl; intros H;
    repeat (apply andb_true_iff in H as [H ?]).
  - destruct (jobs s !! t_job c) as [j|]; [|discriminate].
    apply andb_true_iff in H0 as [Hq Hj]. apply bool_decide_eq_true in Hq.
    apply negb_true_iff, bool_decide_eq_false in Hj.
    split; [destruct (t_status c); simpl in H; auto; discriminate|]. split; [auto|]. split.
    + intros Hp. rewrite Hp in H2. simpl in H2. apply negb_true_iff, negb_false_iff in H2. exact H2.
    + eauto.
  - apply bool_decide_eq_true in H0.
    split; [destruct (t_status c); simpl in H; auto; discriminate|]. split; [auto|]. split; [|auto].
    intros Hp. rewrite Hp in H2. simpl in H2. apply negb_true_iff, negb_false_iff in H2. exact H2.
Qed.

(* reclaim.go 186-200: running, marked preemptable, in another queue whose Reclaimable() is true *)
Theorem reclaim_candidates_eligible s p pq c :
  cand_ok E AReclaim s p pq c = true ->
  t_status c = Running /\ t_preemptable c = true /\
  exists j, jobs s !! t_job c = Some j /\ j_queue j <> pq /\ queue_reclaimable E (j_queue j) = true.
Proof.
  simpl. intros H. repeat (apply andb_true_iff in H as [H ?]).
  destruct (jobs s !! t_job c) as [j|]; [|discriminate].
  apply andb_true_iff in H0 as [Hq Hr]. apply negb_true_iff, bool_decide_eq_false in Hq.
  apply bool_decide_eq_true in H. split; [auto|]. split; [auto|]. exists j. auto.
Qed.

(* either way the node's copy was Running, or Bound for preemption, and marked preemptable *)
Lemma cand_ok_status k s p pq c :
  cand_ok E k s p pq c = true ->
  (t_status c = Running \/ (is_reclaim k = false /\ t_status c = Bound)) /\ t_preemptable c = true.
Proof.
  intros H. destruct k.
  - destruct (preempt_candidates_eligible AInter s p pq c ltac:(discriminate) H) as ([?|?] & ? & _); auto.
  - destruct (preempt_candidates_eligible AIntra s p pq c ltac:(discriminate) H) as ([?|?] & ? & _); auto.
  - destruct (reclaim_candidates_eligible s p pq c H) as (? & ? & _); auto.
Qed.

(* MAIN 1: whatever the oracle chooses, everything that reaches the evictor during the actions was
   evicted by a node attempt that pipelined its preemptor on that node and whose job statement was
   committed; the attempt's record is sound (its candidates sit on that node and pass the filter,
   its evictions are victims of the vote) *)
Theorem evictions_only_with_placement cs s s' lg :
  clear s -> heap_ok s -> run eps E s cs = (s', lg) ->
  forall x, x ∈ evicts s' ->
    x ∈ evicts s \/
    exists r c, r ∈ lg /\ a_ok r = true /\ rec_sound eps E r /\ c ∈ a_evicted r /\ t_id c = x.
Proof.
  intros Hcl Hok Hr x Hx. destruct (run_spec eps E cs s s' lg Hcl Hok Hr) as (_ & _ & _ & Hs & Hin).
  destruct (Hin x Hx) as [?|(_ & r & c & Hrl & Hc & Hid)]; auto.
  right. exists r, c. rewrite Forall_forall in Hs. destruct (Hs r Hrl). auto.
Qed.

(* MAIN 2: every committed victim is eligible: a task copy held by the node of the attempt that
   passes the action's candidate filter in the session the attempt started from, and it is accepted by
   EVERY enabled voter of the tier that decided the vote (gang keeps the minimum, priority is strictly
   lower, conformance: not critical, proportion: queue above deserved) *)
Theorem eviction_eligible cs s s' lg x :
  clear s -> heap_ok s -> run eps E s cs = (s', lg) -> x ∈ evicts s' -> x ∉ evicts s ->
  exists r c n,
    r ∈ lg /\ a_ok r = true /\ c ∈ a_evicted r /\ t_id c = x /\
    nodes (a_pre r) !! a_node r = Some n /\ (exists i, n_tasks n !! i = Some c) /\
    cand_ok E (a_kind r) (a_pre r) (a_task r) (a_queue r) c = true /\
    (* the copy the node held was Running, or Bound for preemption - whatever other statuses (Allocated,
       Binding, Pipelined, Releasing ...) the session contains *)
    (t_status c = Running \/ (is_reclaim (a_kind r) = false /\ t_status c = Bound)) /\
    t_preemptable c = true /\
    c ∈ a_cands r /\
    (* E with the capacity plugin's pop order of this vote installed; nothing else differs *)
    let E' := with_qorder E (a_qorder r) in
    exists tier, deciding eps E' (a_kind r) (a_pre r) (a_task r) (a_cands r) tier /\
      forall pl, pl ∈ tier -> plug_enabled (a_kind r) pl = true ->
        match p_kind pl with
        | KGang => c ∈ gang_vote (a_pre r) (a_cands r)
        | KConf => critical E c = false
        | KPrio => is_reclaim (a_kind r) = false ->
            (t_job c <> t_job (a_task r) /\ jprio E (t_job c) < jprio E (t_job (a_task r))) \/
            (t_job c = t_job (a_task r) /\ t_prio c < t_prio (a_task r))
        | KProp => is_reclaim (a_kind r) = true -> c ∈ prop_vote eps E' (a_pre r) (a_cands r)
        | KCap => is_reclaim (a_kind r) = true -> c ∈ cap_vote eps E' (a_pre r) (a_task r) (a_cands r)
        | KDrf => is_reclaim (a_kind r) = false -> c ∈ drf_vote eps (a_pre r) (a_task r) (a_cands r)
        end.
Proof.
  intros Hcl Hok Hr Hx Hnx.
  destruct (evictions_only_with_placement cs s s' lg Hcl Hok Hr x Hx) as [?|(r & c & Hrl & Hk & Hs & Hc & Hid)];
    [contradiction|].
  destruct Hs as (n & Hn & Hcands & Hev & Hnd).
  destruct (victims_eligible eps (with_qorder E (a_qorder r)) _ _ _ _ c Hnd (Hev c Hc)) as (Hcl' & tier & Hd & Hall).
  pose proof (Hcands c Hcl') as Hcl''. apply node_cands_in in Hcl'' as [Hi Hcok].
  exists r, c, n. split; [exact Hrl|]. split; [exact Hk|]. split; [exact Hc|]. split; [exact Hid|].
  split; [exact Hn|]. split; [exact Hi|]. split; [exact Hcok|].
  split; [apply (cand_ok_status _ _ _ _ _ Hcok)|]. split; [apply (cand_ok_status _ _ _ _ _ Hcok)|].
  split; [exact Hcl'|].
  exists tier. split; [exact Hd|]. intros pl Hpl Hen. specialize (Hall pl Hpl Hen).
  destruct (p_kind pl); exact Hall.
Qed.

End WithEps.

(* ---- what does NOT hold: a voter of a tier IN FRONT of the deciding tier need not be respected ----
   When the voters of a tier agree on no candidate, ssn.Preemptable / ssn.Reclaimable fall through to
   the next tier (session_plugins.go "Plugins in this tier made decision if victims is not nil").  With
   priority alone in tier 1 and conformance alone in tier 2, a task of an EQUAL-priority job, which
   the priority plugin rejected, is returned as victim by the second tier. *)
Section FallThrough.
  Let tk (i j : positive) : task :=
    mkTask i j 1%positive 1%positive 0 empty_res empty_res false true Running (Some 1%positive).
  Let jb (i : positive) : job := mkJob i 1%positive 0 ∅ 0 ∅ ∅ empty_res empty_res ∅ ∅.
  Let s0 : sess := mkSess ∅ {[1%positive := jb 1; 2%positive := jb 2]} ∅ ∅ [] ∅ ∅ ∅ [] [] ∅ ∅ true.
  Let E0 : env := mkEnv [[mkPlug KPrio true true]; [mkPlug KConf true true]] ∅ ∅ ∅ ∅ [] [].
  Let victim := tk 11 1.
  Let preemptor := tk 21 2.

  Theorem all_consulted_voters_respected_refuted :
    exists E s p l c,
      c ∈ victims 1 E AInter s p l /\
      exists pre tier post pl, e_tiers E = pre ++ tier :: post /\ pl ∈ tier /\
        p_kind pl = KPrio /\ p_pre pl = true /\ ~ c ∈ prio_vote E s p l.
  Proof.
    exists E0, s0, preemptor, [victim], victim. split.
    - vm_compute. left.
    - exists [], [mkPlug KPrio true true], [[mkPlug KConf true true]], (mkPlug KPrio true true).
      split; [reflexivity|]. split; [left|]. split; [reflexivity|]. split; [reflexivity|].
      vm_compute. apply not_elem_of_nil.
  Qed.
End FallThrough.
