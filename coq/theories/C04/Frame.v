(* C04 - what the Statement operations of Sched/StmtModel.v do to the evictor log, to the
   statements' operation lists and to the heap invariant [heap_ok].  Everything the action
   theorems need about the shared session model is proved here, for every session. *)
From stdpp Require Import gmap.
From Coq Require Import ZArith.
From V Require Import Base.Res Sched.LedgerModel Sched.StmtModel.
Open Scope Z_scope.

Definition ops (s : sess) (sid : positive) : list oprec := default [] (stmts s !! sid).

(* the heap is keyed by task id *)
Definition heap_ok (s : sess) : Prop := forall i p, heap s !! i = Some p -> t_id p = i.

(* [s'] differs from [s] at most in the heap, the jobs, the nodes and the handlers' ledger and call log: the
   evictor log, the statements and the refusal script are the same, and a heap keyed by id stays so *)
Definition same_ctl (s s' : sess) : Prop :=
  evicts s' = evicts s /\ stmts s' = stmts s /\ refuse_evict s' = refuse_evict s /\
  (heap_ok s -> heap_ok s').

Lemma same_ctl_refl s : same_ctl s s.
Proof. repeat split; auto. Qed.

Lemma same_ctl_trans s1 s2 s3 : same_ctl s1 s2 -> same_ctl s2 s3 -> same_ctl s1 s3.
Proof.
  intros (a1 & a2 & a3 & a4) (b1 & b2 & b3 & b4). repeat split; try congruence. auto.
Qed.

Lemma put_task_ctl s t : same_ctl s (put_task s t).
Proof.
  repeat split; auto. intros H i p. unfold put_task; simpl.
  destruct (decide (i = t_id t)) as [->|Hne].
  - rewrite lookup_insert. intros [= <-]. reflexivity.
  - rewrite lookup_insert_ne by auto. apply H.
Qed.

Lemma upd_jobs_ctl s j : same_ctl s (upd_jobs s j).
Proof. repeat split; auto. Qed.
Lemma upd_nodes_ctl s n : same_ctl s (upd_nodes s n).
Proof. repeat split; auto. Qed.
Lemma upd_handlers_ctl s a b : same_ctl s (upd_handlers s a b).
Proof. repeat split; auto. Qed.

Section WithEps.
Variable eps : Z.

Lemma ssn_update_status_ctl s p st : same_ctl s (snd (fst (ssn_update_status s p st))).
Proof.
  unfold ssn_update_status. destruct (jobs s !! t_job p); [|apply same_ctl_refl].
  destruct (job_update (heap s) j p st) as [j' p']. simpl.
  eapply same_ctl_trans; [apply upd_jobs_ctl | apply put_task_ctl].
Qed.

Lemma h_alloc_ctl s p : same_ctl s (snd (h_alloc s p)).
Proof. unfold h_alloc. simpl. apply upd_handlers_ctl. Qed.
Lemma h_dealloc_ctl s p : same_ctl s (h_dealloc s p).
Proof. unfold h_dealloc. apply upd_handlers_ctl. Qed.

Lemma ssn_node_remove_ctl s p : same_ctl s (ssn_node_remove s p).
Proof.
  unfold ssn_node_remove. destruct (t_node p); [|apply same_ctl_refl].
  destruct (nodes s !! p0); [apply upd_nodes_ctl | apply same_ctl_refl].
Qed.

Lemma ssn_node_update_ctl s p : same_ctl s (fst (fst (ssn_node_update eps s p))).
Proof.
  unfold ssn_node_update. destruct (t_node p); [|apply same_ctl_refl].
  destruct (nodes s !! p0); [|apply same_ctl_refl].
  destruct (node_update eps n p) as [[n' p']|]; simpl.
  - eapply same_ctl_trans; [apply upd_nodes_ctl | apply put_task_ctl].
  - apply upd_nodes_ctl.
Qed.

Lemma unallocate_with_ctl s p : same_ctl s (unallocate_with s p).
Proof.
  unfold unallocate_with.
  pose proof (ssn_update_status_ctl s p Pending) as H1.
  destruct (ssn_update_status s p Pending) as [[f s1] p1]. simpl in H1.
  eapply same_ctl_trans; [exact H1|].
  eapply same_ctl_trans; [apply ssn_node_remove_ctl|].
  eapply same_ctl_trans; [apply h_dealloc_ctl|]. apply put_task_ctl.
Qed.

Lemma unevict_with_ctl s p prev : same_ctl s (fst (unevict_with eps s p prev)).
Proof.
  unfold unevict_with.
  pose proof (ssn_update_status_ctl s p (restore_status prev)) as H1.
  destruct (ssn_update_status s p (restore_status prev)) as [[f s1] p1]. simpl in H1.
  pose proof (ssn_node_update_ctl s1 p1) as H2.
  destruct (ssn_node_update eps s1 p1) as [[s2 p2] fatal]. simpl in H2.
  pose proof (h_alloc_ctl s2 p2) as H3.
  destruct (h_alloc s2 p2) as [e s3]. simpl in *.
  eapply same_ctl_trans; [exact H1|]. eapply same_ctl_trans; [exact H2|]. exact H3.
Qed.

Lemma push_op_spec s sid k tid prev :
  evicts (push_op s sid k tid prev) = evicts s /\
  refuse_evict (push_op s sid k tid prev) = refuse_evict s /\
  stmts (push_op s sid k tid prev) = <[sid := ops s sid ++ [mkOp k tid prev]]> (stmts s) /\
  (heap_ok s -> heap_ok (push_op s sid k tid prev)).
Proof. repeat split; auto. Qed.

(* Statement.Evict: one more Evict operation on [sid]; nothing reaches the evictor *)
Lemma stmt_evict_with_spec s sid c prev s' r :
  stmt_evict_with eps s sid c prev = (s', r) ->
  evicts s' = evicts s /\ refuse_evict s' = refuse_evict s /\
  stmts s' = <[sid := ops s sid ++ [mkOp KEvict (t_id c) (default (t_status c) prev)]]> (stmts s) /\
  (heap_ok s -> heap_ok s').
Proof.
  unfold stmt_evict_with.
  pose proof (ssn_update_status_ctl s c Releasing) as H1.
  destruct (ssn_update_status s c Releasing) as [[f s1] p1]. simpl in H1.
  pose proof (ssn_node_update_ctl s1 p1) as H2.
  destruct (ssn_node_update eps s1 p1) as [[s2 p2] fatal]. simpl in H2.
  pose proof (h_dealloc_ctl s2 p2) as H3.
  intros [= <- <-].
  destruct (same_ctl_trans _ _ _ H1 (same_ctl_trans _ _ _ H2 H3)) as (e1 & e2 & e3 & e4).
  destruct (push_op_spec (h_dealloc s2 p2) sid KEvict (t_id c) (default (t_status c) prev)) as (q1 & q2 & q3 & q4).
  split; [congruence|]. split; [congruence|]. split; [|auto].
  rewrite q3. unfold ops. rewrite e2. reflexivity.
Qed.

(* the node.AddTask step of Statement.Pipeline / Allocate *)
Definition add_to_node (s : sess) (p : task) (nid : positive) : sess * task * bool :=
  match nodes s !! nid with
  | Some n => match node_add eps n p with
              | inl (n', p') => (put_task (upd_nodes s (<[nid := n']> (nodes s))) p', p', true)
              | inr _ => (s, p, false)
              end
  | None => (s, p, false)
  end.

Lemma place_with_eq s sid k p nid :
  place_with eps s sid k p nid =
  let '(found, s1, p1) := ssn_update_status s p (match k with KAllocate => Allocated | _ => Pipelined end) in
  let p2 := set_node p1 (Some nid) in
  let '(s3, p3, nodeok) := add_to_node (put_task s1 p2) p2 nid in
  let '(herr_, s4) := h_alloc s3 p3 in
  if found && nodeok && negb herr_ then (push_op s4 sid k (t_id p) Pending, ROk) else (unallocate_with s4 p3, RErr).
Proof. reflexivity. Qed.

Lemma add_to_node_ctl s p nid : same_ctl s (fst (fst (add_to_node s p nid))).
Proof.
  unfold add_to_node. destruct (nodes s !! nid); [|apply same_ctl_refl].
  destruct (node_add eps n p) as [[n' p']|]; simpl; [|apply same_ctl_refl].
  eapply same_ctl_trans; [apply upd_nodes_ctl | apply put_task_ctl].
Qed.

(* Statement.Pipeline / Allocate: an operation is recorded iff the call succeeded *)
Lemma place_with_spec s sid k p nid s' r :
  place_with eps s sid k p nid = (s', r) ->
  evicts s' = evicts s /\ refuse_evict s' = refuse_evict s /\ (heap_ok s -> heap_ok s') /\
  (r = ROk -> stmts s' = <[sid := ops s sid ++ [mkOp k (t_id p) Pending]]> (stmts s)) /\
  (r <> ROk -> stmts s' = stmts s).
Proof.
  rewrite place_with_eq.
  pose proof (ssn_update_status_ctl s p (match k with KAllocate => Allocated | _ => Pipelined end)) as H1.
  destruct (ssn_update_status s p _) as [[f s1] p1]. cbv beta iota zeta. simpl in H1.
  set (p2 := set_node p1 (Some nid)).
  pose proof (same_ctl_trans _ _ _ (put_task_ctl s1 p2) (add_to_node_ctl (put_task s1 p2) p2 nid)) as H3.
  destruct (add_to_node (put_task s1 p2) p2 nid) as [[s3 p3] nodeok]. simpl in H3.
  pose proof (h_alloc_ctl s3 p3) as H4.
  destruct (h_alloc s3 p3) as [herr_ s4]. simpl in H4.
  pose proof (same_ctl_trans _ _ _ H1 (same_ctl_trans _ _ _ H3 H4)) as H5.
  destruct (f && nodeok && negb herr_); intros [= <- <-].
  - destruct H5 as (e1 & e2 & e3 & e4).
    split; [exact e1|]. split; [exact e3|]. split; [exact e4|]. split; [|intros; congruence].
    intros _. simpl. unfold ops. rewrite e2. reflexivity.
  - destruct (same_ctl_trans _ _ _ H5 (unallocate_with_ctl s4 p3)) as (e1 & e2 & e3 & e4).
    repeat split; auto. intros; congruence.
Qed.

(* a handler that reports Event.Err makes Statement.Pipeline / Allocate fail *)
Lemma ssn_update_status_id s p st :
  t_id (snd (ssn_update_status s p st)) = t_id p /\ herr (snd (fst (ssn_update_status s p st))) = herr s.
Proof.
  unfold ssn_update_status. destruct (jobs s !! t_job p); [|auto].
  unfold job_update. simpl. auto.
Qed.

Lemma node_add_id n t n' t' : node_add eps n t = inl (n', t') -> t_id t' = t_id t.
Proof.
  unfold node_add. intros Hx. repeat case_match; try discriminate; injection Hx as <- <-; reflexivity.
Qed.

Lemma place_with_herr s sid k p nid :
  t_id p ∈ herr s -> snd (place_with eps s sid k p nid) = RErr.
Proof.
  intros Hin. rewrite place_with_eq.
  destruct (ssn_update_status_id s p (match k with KAllocate => Allocated | _ => Pipelined end)) as [Hid Hh].
  destruct (ssn_update_status s p _) as [[f s1] p1]. cbv beta iota zeta. simpl in Hid, Hh.
  set (p2 := set_node p1 (Some nid)). set (s2 := put_task s1 p2).
  (* AddTask keeps the task's id and the fault script *)
  assert (H3 : herr (fst (fst (add_to_node s2 p2 nid))) = herr s /\ t_id (snd (fst (add_to_node s2 p2 nid))) = t_id p).
  { unfold add_to_node. destruct (nodes s2 !! nid); [|auto].
    destruct (node_add eps n p2) as [[n' p']|] eqn:Hn; simpl; [|auto].
    rewrite (node_add_id _ _ _ _ Hn). auto. }
  destruct (add_to_node s2 p2 nid) as [[s3 p3] nodeok]. simpl in H3. destruct H3 as [Hh3 Hid3].
  unfold h_alloc. rewrite Hid3, Hh3, bool_decide_eq_true_2 by exact Hin.
  rewrite andb_false_r. reflexivity.
Qed.

Lemma stmt_pipeline_herr s sid tid nid p :
  heap s !! tid = Some p -> t_id p ∈ herr s -> snd (stmt_pipeline eps s sid tid nid) = RErr.
Proof. intros Hp Hin. unfold stmt_pipeline, with_task. rewrite Hp. apply place_with_herr, Hin. Qed.

Lemma stmt_pipeline_spec s sid tid nid s' r :
  stmt_pipeline eps s sid tid nid = (s', r) ->
  evicts s' = evicts s /\ refuse_evict s' = refuse_evict s /\ (heap_ok s -> heap_ok s') /\
  (r = ROk -> exists i, (heap_ok s -> i = tid) /\
                        stmts s' = <[sid := ops s sid ++ [mkOp KPipeline i Pending]]> (stmts s)) /\
  (r <> ROk -> stmts s' = stmts s).
Proof.
  unfold stmt_pipeline, with_task. destruct (heap s !! tid) as [p|] eqn:Hp.
  - intros H. apply place_with_spec in H. destruct H as (a & b & c & d & e).
    repeat split; auto. intros Hr. exists (t_id p). split; [|exact (d Hr)].
    intros Hok. apply (Hok _ _ Hp).
  - intros [= <- <-]. repeat split; auto; intros; congruence.
Qed.

Lemma undo_op_ctl s o : same_ctl s (undo_op eps s o).
Proof.
  unfold undo_op. destruct (heap s !! op_task o); [|apply same_ctl_refl].
  destruct (op_kind o).
  - apply unevict_with_ctl.
  - apply unallocate_with_ctl.
  - apply unallocate_with_ctl.
Qed.

Lemma fold_undo_ctl l s : same_ctl s (fold_left (undo_op eps) l s).
Proof.
  revert s. induction l as [|o l IH]; intros s; simpl; [apply same_ctl_refl|].
  eapply same_ctl_trans; [apply undo_op_ctl | apply IH].
Qed.

(* Statement.Discard: nothing reaches the evictor, the statement is empty afterwards *)
Lemma stmt_discard_spec s sid :
  evicts (stmt_discard eps s sid) = evicts s /\ refuse_evict (stmt_discard eps s sid) = refuse_evict s /\
  stmts (stmt_discard eps s sid) = <[sid := []]> (stmts s) /\
  (heap_ok s -> heap_ok (stmt_discard eps s sid)).
Proof.
  unfold stmt_discard.
  destruct (fold_undo_ctl (rev (default [] (stmts s !! sid))) s) as (e1 & e2 & e3 & e4).
  simpl. rewrite e2. repeat split; auto.
Qed.

Lemma upd_logs_ctl s b : evicts (upd_logs s b (evicts s)) = evicts s /\ same_ctl s (upd_logs s b (evicts s)).
Proof. repeat split; auto. Qed.

(* [s'] is [s] after Commit of operations among [l]: what has reached the evictor since is the task of an Evict
   operation of [l] that cache.Evict does not refuse *)
Definition committed (l : list oprec) (s s' : sess) : Prop :=
  refuse_evict s' = refuse_evict s /\ (heap_ok s -> heap_ok s') /\
  forall x, x ∈ evicts s' -> x ∈ evicts s \/
    (x ∉ refuse_evict s /\ exists o, o ∈ l /\ op_kind o = KEvict /\ (heap_ok s -> op_task o = x)).

Lemma same_ctl_committed l s s' : same_ctl s s' -> stmts s' = stmts s /\ committed l s s'.
Proof. intros (e1 & e2 & e3 & e4). repeat split; auto. rewrite e1. auto. Qed.

Lemma committed_trans l1 l2 s s1 s2 : committed l1 s s1 -> committed l2 s1 s2 -> committed (l1 ++ l2) s s2.
Proof.
  intros (a1 & a2 & a3) (b1 & b2 & b3). split; [congruence|]. split; [auto|].
  intros x Hx. destruct (b3 x Hx) as [H|(Hr & o & Ho & Hk & Ht)].
  - destruct (a3 x H) as [?|(Hr & o & Ho & Hk & Ht)]; [auto|].
    right. split; [exact Hr|]. exists o. rewrite elem_of_app. auto.
  - right. rewrite <- a1. split; [exact Hr|]. exists o. rewrite elem_of_app. auto.
Qed.

Lemma commit_op_spec s o : stmts (commit_op eps s o) = stmts s /\ committed [o] s (commit_op eps s o).
Proof.
  unfold commit_op. destruct (heap s !! op_task o) as [p|] eqn:Hp; [|apply same_ctl_committed, same_ctl_refl].
  destruct (op_kind o) eqn:Hk.
  - destruct (bool_decide (t_id p ∈ refuse_evict s)) eqn:Hb; [apply same_ctl_committed, unevict_with_ctl|].
    apply bool_decide_eq_false in Hb. repeat split; auto.
    simpl. intros x [->|Hx]%elem_of_cons; [right|auto].
    split; [exact Hb|]. exists o. split; [left|]. split; [exact Hk|]. intros Hok. symmetry. apply (Hok _ _ Hp).
  - apply same_ctl_committed, same_ctl_refl.
  - apply same_ctl_committed.
    destruct (bool_decide (t_id p ∈ refuse_bind s)); [apply unallocate_with_ctl|].
    set (s1 := upd_logs s ((t_id p, t_node p) :: binds s) (evicts s)).
    pose proof (ssn_update_status_ctl s1 p Binding) as H1.
    destruct (ssn_update_status s1 p Binding) as [[f s2] p2]. simpl in H1.
    eapply same_ctl_trans; [apply upd_logs_ctl|].
    destruct f; [exact H1|]. eapply same_ctl_trans; [exact H1|apply unallocate_with_ctl].
Qed.

Lemma fold_commit_spec l : forall s,
  stmts (fold_left (commit_op eps) l s) = stmts s /\ committed l s (fold_left (commit_op eps) l s).
Proof.
  induction l as [|o l IH]; intros s; simpl; [apply same_ctl_committed, same_ctl_refl|].
  destruct (commit_op_spec s o) as [a1 a2]. destruct (IH (commit_op eps s o)) as [b1 b2].
  split; [congruence|]. apply (committed_trans [o] l _ _ _ a2 b2).
Qed.

(* Statement.Commit: only the tasks of the statement's Evict operations reach the evictor, and none of them is a
   task whose cache.Evict is refused (Commit un-evicts those) *)
Lemma stmt_commit_spec s sid :
  stmts (stmt_commit eps s sid) = <[sid := []]> (stmts s) /\ committed (ops s sid) s (stmt_commit eps s sid).
Proof.
  unfold stmt_commit. destruct (fold_commit_spec (default [] (stmts s !! sid)) s) as [e1 e2].
  simpl. rewrite e1. split; [reflexivity|exact e2].
Qed.

End WithEps.

Lemma stmt_merge_spec s sid src :
  sid <> src ->
  evicts (stmt_merge s sid src) = evicts s /\ refuse_evict (stmt_merge s sid src) = refuse_evict s /\
  (heap_ok s -> heap_ok (stmt_merge s sid src)) /\
  ops (stmt_merge s sid src) src = [] /\ ops (stmt_merge s sid src) sid = ops s sid ++ ops s src /\
  (forall x, x <> sid -> x <> src -> ops (stmt_merge s sid src) x = ops s x).
Proof.
  intros Hne. unfold stmt_merge, ops. rewrite bool_decide_eq_false_2 by auto. simpl.
  rewrite lookup_insert, lookup_insert_ne, lookup_insert by auto. repeat split; auto.
  intros x H1 H2. rewrite !lookup_insert_ne by auto. reflexivity.
Qed.
