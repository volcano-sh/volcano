(* Property C16 — resource arithmetic obeys its algebraic laws and never wraps.
   The property theorems, each followed by Print Assumptions.  A proof stands here when nothing else
   needs the fact; otherwise the theorem is [exact] of a lemma of Base/ResLemmas.v, C16/SatLemmas.v,
   C16/DraLemmas.v, C16/QuantLemmas.v or C16/FloatMini.v. *)
From Coq Require Import Lia Bool.
From V Require Import Base.Codec.
From stdpp Require Import gmap.
From Coq Require Import ZArith.
From Coq Require Import List.
From V Require Import Base.Res Base.ResLemmas C16.SatModel C16.SatLemmas C16.Laws C16.LawsLemmas
  C16.DraModel C16.DraLemmas C16.QuantModel C16.QuantLemmas C16.DraLaws C16.DraLawsLemmas
  C16.OrderLemmas C16.FloatMini.
Open Scope Z_scope.

(* --- saturating integers: for ALL int64 operands the Go body (modelled with
   explicit two's-complement wrap) computes the clamped mathematical result --- *)
Theorem C16_sat_add_spec : forall a b, in64 a -> in64 b -> sat_add a b = clamp64 (a + b).
Proof. exact sat_add_spec. Qed.
Print Assumptions C16_sat_add_spec.

Theorem C16_sat_mul_spec : forall a b, in64 a -> in64 b -> sat_mul a b = clamp64 (a * b).
Proof. exact sat_mul_spec. Qed.
Print Assumptions C16_sat_mul_spec.

Theorem C16_sat_add_pos : forall a b, in64 a -> in64 b -> 0 < a -> 0 < b -> 0 < sat_add a b.
Proof.
  intros a b.
  intros; rewrite sat_add_spec by assumption; apply clamp64_pos; lia.
Qed.
Print Assumptions C16_sat_add_pos.

Theorem C16_sat_mul_pos : forall a b, in64 a -> in64 b -> 0 < a -> 0 < b -> 0 < sat_mul a b.
Proof.
  intros a b.
  intros; rewrite sat_mul_spec by assumption; apply clamp64_pos; nia.
Qed.
Print Assumptions C16_sat_mul_pos.

(* the DRA accumulation total += count * times never goes negative, for every
   list of non-negative int64 counts and multiplicities *)
Theorem C16_dra_total_never_negative : forall l,
  Forall (fun ct => in64 (fst ct) /\ in64 (snd ct) /\ 0 <= fst ct /\ 0 <= snd ct) l ->
  0 <= dra_total l.
Proof. exact fold_terms_nonneg. Qed.
Print Assumptions C16_dra_total_never_negative.

(* --- the saturation specification over unbounded integers: for every list (any length) of
   non-negative int64 (count, times) pairs, the running total of SaturatingAdd / SaturatingMul is
   min(MaxInt64, exact sum of the exact products) --- *)
Theorem C16_dra_fold_spec : forall l, terms_ok l -> fold_terms l 0 = Z.min max64 (exact_sum l).
Proof. exact fold_terms_spec. Qed.
Print Assumptions C16_dra_fold_spec.

Theorem C16_dra_fold_mono : forall l l',
  terms_ok l -> terms_ok l' -> terms_le l l' -> fold_terms l 0 <= fold_terms l' 0.
Proof.
  intros l l'.
  intros H H' Hle. rewrite !fold_terms_spec by assumption.
  pose proof (exact_sum_mono l l' H Hle). lia.
Qed.
Print Assumptions C16_dra_fold_mono.

Theorem C16_dra_fold_perm : forall l1 l2,
  terms_ok l1 -> Permutation l1 l2 -> fold_terms l1 0 = fold_terms l2 0.
Proof.
  intros l1 l2.
  intros H HP. assert (H2 : terms_ok l2).
  { unfold terms_ok in *. rewrite Forall_forall in *. intros x Hx. apply H.
    apply elem_of_list_In. rewrite HP. apply elem_of_list_In. exact Hx. }
  rewrite !fold_terms_spec by assumption. f_equal. apply exact_sum_perm. exact HP.
Qed.
Print Assumptions C16_dra_fold_perm.

(* --- JobInfo.GetMinDRAResources (whole function: per-role and fallback path, every device class):
   the count reported for a class is min(MaxInt64, sum of count_i * times_i over the calls
   addResource receives), never negative; the class set and the capacities are exact --- *)
Theorem C16_min_dra_count_spec : forall j c, job_ok j ->
  count_of (result_at (get_min_dra j) c) = Z.min max64 (exact_sum (class_terms c (contribs j))).
Proof.
  intros j c.
  intros Hok. rewrite result_at_get_min_dra, count_accumulate, lookup_empty. cbn [count_of].
  apply fold_terms_spec. apply contribs_terms_ok. exact Hok.
Qed.
Print Assumptions C16_min_dra_count_spec.

Theorem C16_min_dra_count_nonneg : forall j c, job_ok j -> 0 <= count_of (result_at (get_min_dra j) c).
Proof.
  intros j c.
  intros Hok. rewrite C16_min_dra_count_spec by exact Hok.
  pose proof (exact_sum_nonneg _ (contribs_terms_ok j c Hok)). unfold max64. lia.
Qed.
Print Assumptions C16_min_dra_count_nonneg.

Theorem C16_min_dra_classes : forall j c,
  is_Some (result_at (get_min_dra j) c) <-> Exists (fun ct => is_Some (fst ct !! c)) (contribs j).
Proof.
  intros j c.
  rewrite result_at_get_min_dra, accumulate_dom, lookup_empty.
  split; [intros [H|H]; [destruct H; discriminate|exact H]|auto].
Qed.
Print Assumptions C16_min_dra_classes.

Theorem C16_min_dra_cap_spec : forall j c dim,
  cap_of (result_at (get_min_dra j) c) dim = exact_sum (cap_terms c dim (contribs j)).
Proof. intros j c dim. rewrite result_at_get_min_dra, cap_accumulate, lookup_empty. cbn. lia. Qed.
Print Assumptions C16_min_dra_cap_spec.

(* every call addResource(request, times) stems from a task of the job carrying that request, with
   times = 1 (fallback) or a positive TaskMinAvailable entry *)
Theorem C16_min_dra_calls : forall j, Forall (call_from j) (contribs j).
Proof. exact contribs_from. Qed.
Print Assumptions C16_min_dra_calls.

(* monotone in every count and every multiplicity; independent of the order of the calls *)
Theorem C16_min_dra_mono : forall cs cs' c,
  (forall c, terms_ok (class_terms c cs)) -> (forall c, terms_ok (class_terms c cs')) ->
  Forall2 call_le cs cs' ->
  count_of (accumulate cs ∅ !! c) <= count_of (accumulate cs' ∅ !! c).
Proof.
  intros cs cs' c H H' Hle. rewrite !count_accumulate, lookup_empty. cbn [count_of].
  apply C16_dra_fold_mono; [apply H|apply H'|apply class_terms_le; exact Hle].
Qed.
Print Assumptions C16_min_dra_mono.

Theorem C16_min_dra_order_irrelevant : forall cs cs' c,
  (forall c, terms_ok (class_terms c cs)) -> Permutation cs cs' ->
  count_of (accumulate cs ∅ !! c) = count_of (accumulate cs' ∅ !! c).
Proof.
  intros cs cs' c H HP. rewrite !count_accumulate, lookup_empty. cbn [count_of].
  apply C16_dra_fold_perm; [apply H|]. unfold class_terms. rewrite HP. reflexivity.
Qed.
Print Assumptions C16_min_dra_order_irrelevant.

(* DRAResource.Add / Sub *)
Theorem C16_dra_add_nonneg : forall d o,
  in64 (d_count d) -> in64 (d_count o) -> 0 <= d_count d -> 0 <= d_count o ->
  d_count (dra_add d (Some o)) = Z.min max64 (d_count d + d_count o) /\ 0 <= d_count (dra_add d (Some o)).
Proof. intros d o. intros H1 H2 H3 H4. cbn. rewrite sat_add_min by assumption. unfold max64. lia. Qed.
Print Assumptions C16_dra_add_nonneg.

(* for the reachable (non-negative) operands the wrapping subtraction of Sub cannot wrap *)
Theorem C16_dra_sub_count : forall d o,
  in64 (d_count d) -> in64 (d_count o) -> 0 <= d_count d -> 0 <= d_count o ->
  d_count (dra_sub d (Some o)) = Z.max 0 (d_count d - d_count o).
Proof.
  intros d o.
  intros H1 H2 H3 H4. cbn. rewrite wrap64_small by (unfold in64, min64, max64 in *; lia).
  destruct (d_count d - d_count o <? 0) eqn:E; lia.
Qed.
Print Assumptions C16_dra_sub_count.

Theorem C16_dra_sub_never_negative : forall d o, 0 <= d_count (dra_sub d (Some o)).
Proof. intros d o. cbn. destruct (wrap64 (d_count d - d_count o) <? 0) eqn:E; lia. Qed.
Print Assumptions C16_dra_sub_never_negative.

(* --- Resource <-> v1.ResourceList (ConvertRes2ResList / NewResource), magnitudes up to 2^63 --- *)
(* Resource -> ResourceList -> Resource is the identity (and MaxTaskNum is the pods scalar) on rt_domain:
   scalar names of the classes NewResource keeps, no empty non-nil scalar map, every amount a float64-exact
   integer with |amount| < 2^63 in the unit the code converts (amount_ok; C16_amount_ok_float says this in
   the words of the float mini-model: FloatMini.round x = Fin x) *)
Theorem C16_new_resource_convert : forall r, rt_domain r = true ->
  new_resource (convert r) = (r, sget r pods_name).
Proof.
  intros r.
  unfold rt_domain. rewrite !andb_true_iff. intros [[H1 H2] H3].
  apply bool_decide_eq_true in H1. apply negb_true_iff, bool_decide_eq_false in H2.
  destruct (res_exact_spec r H3) as [E1 E2].
  unfold convert, new_resource. rewrite E1.
  rewrite (new_resource_convert_gen_z r); [|intros k v E; apply (H1 k v E)|exact H2].
  rewrite E2. reflexivity.
Qed.
Print Assumptions C16_new_resource_convert.

Theorem C16_amount_ok_float : forall x, amount_ok x = true -> FloatMini.round x = Fin x /\ Z.abs x < 2 ^ 63.
Proof.
  intros x.
  unfold amount_ok, fexact. rewrite andb_true_iff, Z.eqb_eq, bool_decide_eq_true. intros [H1 H2].
  split; [|exact H2]. assert (H : 2 ^ 63 < 2 ^ 1024) by reflexivity.
  apply round_finite; [exact H1|lia].
Qed.
Print Assumptions C16_amount_ok_float.

(* the idealised conversions (no float64 / int64 effect; they coincide with the real ones on res_exact /
   rl_exact): no amount bound needed, and what exactly is lost outside the name guard *)
Theorem C16_new_resource_convert_gen : forall r, names_kept r -> sc r <> Some ∅ ->
  new_resource_z (convert_z r) = (r, sget r pods_name).
Proof. exact new_resource_convert_gen_z. Qed.
Print Assumptions C16_new_resource_convert_gen.

Theorem C16_new_resource_convert_pointwise : forall r,
  scm r !! cpu_name = None -> scm r !! mem_name = None ->
  let r' := fst (new_resource_z (convert_z r)) in
  cpu r' = cpu r /\ mem r' = mem r /\
  forall k, scm r' !! k = if kept_scalar k then scm r !! k else None.
Proof. exact new_resource_convert_pointwise_z. Qed.
Print Assumptions C16_new_resource_convert_pointwise.

(* ResourceList -> Resource -> ResourceList, per name class, for every list whose amounts are float64-exact
   and below 2^63 in the unit NewResource reads them (rl_exact) *)
Theorem C16_convert_new_resource : forall rl k, rl_exact rl = true ->
  let rl' := convert (fst (new_resource rl)) in
  match name_class k with
  | CCpu => rl' !! k = Some (default 0 (rl !! k))
  | CMem => rl' !! k = Some (1000 * qvalue (default 0 (rl !! k)))
  | CPods => rl' !! k = (fun m => 1000 * qvalue m) <$> rl !! k
  | CEph | CScalar => rl' !! k = rl !! k
  | CCountQuota | CIgnoredDev | CDropped => rl' !! k = None
  end.
Proof.
  intros rl k H. cbn zeta. rewrite (convert_new_resource_exact_range rl H). apply convert_new_resource_z.
Qed.
Print Assumptions C16_convert_new_resource.

(* ... and for every list whose Quantities fit int64 in the unit NewResource reads them (rl_in_range; beyond,
   apimachinery wraps — not modelled): each amount goes through float64 rounding and int64(f) *)
Theorem C16_convert_new_resource_any : forall rl k, rl_in_range rl = true ->
  let c x := i64 (f64 x) in
  let rl' := convert (fst (new_resource rl)) in
  match name_class k with
  | CCpu => rl' !! k = Some (c (default 0 (rl !! k)))
  | CMem => rl' !! k = Some (1000 * c (qvalue (default 0 (rl !! k))))
  | CPods => rl' !! k = (fun m => 1000 * c (qvalue m)) <$> rl !! k
  | CEph | CScalar => rl' !! k = c <$> rl !! k
  | CCountQuota | CIgnoredDev | CDropped => rl' !! k = None
  end.
Proof.
  intros rl k.
  intros _. unfold convert, new_resource. destruct (new_resource_z rl) as [rz mt] eqn:Ez. cbn [fst].
  rewrite map_res_compose. replace rz with (fst (new_resource_z rl)) by (rewrite Ez; reflexivity).
  apply (convert_z_new_resource_z (fun x => i64 (f64 x))).
Qed.
Print Assumptions C16_convert_new_resource_any.

(* the whole-unit guard under which memory and pods come back unchanged as well *)
Theorem C16_convert_new_resource_exact : forall rl k m, rl_exact rl = true ->
  rl !! k = Some m -> kept_scalar k = true \/ k = cpu_name \/ k = mem_name ->
  (k = mem_name \/ k = pods_name -> (1000 | m)) ->
  convert (fst (new_resource rl)) !! k = Some m.
Proof.
  intros rl k m Hx Hk Hclass Hwhole. rewrite (convert_new_resource_exact_range rl Hx).
  pose proof (convert_new_resource_z rl k) as H. cbn zeta in H. rewrite Hk in H.
  unfold kept_scalar in Hclass. rewrite <- name_class_cpu, <- name_class_mem in Hclass.
  destruct (name_class k) eqn:E; try exact H; try (exfalso; intuition discriminate); rewrite H; cbn.
  - apply name_class_mem in E. rewrite qvalue_whole by auto. reflexivity.
  - apply name_class_pods in E. rewrite qvalue_whole by auto. reflexivity.
Qed.
Print Assumptions C16_convert_new_resource_exact.

Theorem C16_qvalue_bounds : forall m,
  (0 <= m -> m <= 1000 * qvalue m < m + 1000) /\ (m <= 0 -> m - 1000 < 1000 * qvalue m <= m).
Proof. exact qvalue_bounds. Qed.
Print Assumptions C16_qvalue_bounds.

(* --- ResFloat642Quantity / ResQuantity2Float64: int64(f) truncation and range, milli for cpu / whole units
   otherwise, float64(MilliValue()) / float64(Value()) rounding.  Stated ON THE DOMAIN where the amount is a
   float64 (conv_domain: g a power of two, x and its integer part float64-exact, inside int64) resp. the value
   read from the Quantity is a float64-exact int64 (qty_domain); refuted outside --- *)
Theorem C16_float_quantity_float : forall g c x, conv_domain g x = true ->
  quantity_to_float g c (float_to_quantity g c x) = g * Z.quot x g.
Proof.
  intros g c x H. rewrite conv_bridge by exact H. apply float_quantity_float_z.
  apply (conv_domain_spec g x H).
Qed.
Print Assumptions C16_float_quantity_float.

Theorem C16_float_quantity_float_id : forall g c x, conv_domain g x = true ->
  (quantity_to_float g c (float_to_quantity g c x) = x <-> (g | x)).
Proof.
  intros g c x H. rewrite C16_float_quantity_float by exact H. destruct (conv_domain_spec g x H) as [Hg _]. split.
  - intros E. exists (Z.quot x g). lia.
  - intros [k ->]. rewrite Z.quot_mul by lia. lia.
Qed.
Print Assumptions C16_float_quantity_float_id.

Theorem C16_float_quantity_float_bounds : forall g c x, conv_domain g x = true ->
  let y := quantity_to_float g c (float_to_quantity g c x) in
  (0 <= x -> y <= x < y + g) /\ (x <= 0 -> y - g < x <= y).
Proof.
  intros g c x H. cbn zeta. rewrite conv_bridge by exact H. apply float_quantity_float_bounds_z.
  apply (conv_domain_spec g x H).
Qed.
Print Assumptions C16_float_quantity_float_bounds.

Theorem C16_quantity_float_quantity : forall g c m, 0 < g -> qty_domain c m = true ->
  float_to_quantity g c (quantity_to_float g c m) = if c then m else 1000 * qvalue m.
Proof.
  intros g c m.
  intros Hg H. unfold qty_domain in H. apply amount_ok_spec in H as [F I].
  unfold float_to_quantity, quantity_to_float. rewrite F, Z.quot_mul by lia. rewrite I.
  destruct c; reflexivity.
Qed.
Print Assumptions C16_quantity_float_quantity.

Theorem C16_quantity_float_quantity_id : forall g c m, 0 < g -> qty_domain c m = true ->
  (c = true \/ (1000 | m)) -> float_to_quantity g c (quantity_to_float g c m) = m.
Proof.
  intros g c m Hg H Hw. rewrite C16_quantity_float_quantity by assumption. destruct c; [reflexivity|].
  destruct Hw as [Hw|Hw]; [discriminate|]. apply qvalue_whole. exact Hw.
Qed.
Print Assumptions C16_quantity_float_quantity_id.

(* 2^53+1 milli-cpu comes back as 2^53; the float 2^63 becomes MinInt64 milli (amd64) — as on the real code *)
Theorem C16_quantity_float_quantity_refuted :
  exists m, qty_domain true m = false /\ float_to_quantity 1 true (quantity_to_float 1 true m) <> m.
Proof.
  exists (2 ^ 53 + 1). vm_compute. split; [reflexivity|discriminate].
Qed.
Print Assumptions C16_quantity_float_quantity_refuted.

Theorem C16_float_quantity_float_refuted :
  exists x, conv_domain 1 x = false /\ quantity_to_float 1 true (float_to_quantity 1 true x) <> x.
Proof.
  exists (2 ^ 63). vm_compute. split; [reflexivity|discriminate].
Qed.
Print Assumptions C16_float_quantity_float_refuted.

(* --- where TaskInfo.DRAResreq comes from (cache.addDRAResource / buildTaskDRAInfo, after fix 63830d0):
   the per-class count a pod's device requests add up to is min(MaxInt64, exact sum), and whatever the
   cache hands to a task has non-negative int64 counts — the hypothesis job_ok of the GetMinDRAResources
   theorems is discharged from the per-request guarantee of the apiserver --- *)
Theorem C16_task_dra_count_spec : forall rqs c, Forall ereq_ok rqs ->
  count_of (add_map_all ∅ rqs !! c) = Z.min max64 (sum_list (class_counts c rqs)) /\
  0 <= count_of (add_map_all ∅ rqs !! c).
Proof.
  intros rqs c H. rewrite (add_map_all_count_spec rqs ∅ c 0 H (Z.le_refl 0)) by (rewrite lookup_empty; reflexivity).
  pose proof (class_counts_nonneg c rqs H). rewrite Z.add_0_l. unfold max64. lia.
Qed.
Print Assumptions C16_task_dra_count_spec.

Theorem C16_task_dra_counts_ok : forall claims refs r per,
  claims_ok claims -> build_task_dra claims refs = BuildOk (Some (r, per)) ->
  dmap_ok r /\ forall c m, per !! c = Some m -> dmap_ok m.
Proof.
  intros claims refs r per.
  intros Hcl H. eapply (build_loop_ok claims refs (mkS ∅ ∅) ∅); [exact Hcl| | |exact H].
  - intros ? ? Hx. cbn in Hx. rewrite lookup_empty in Hx. discriminate.
  - intros ? ? Hx. rewrite lookup_empty in Hx. discriminate.
Qed.
Print Assumptions C16_task_dra_counts_ok.

(* composed: a job whose tasks carry what buildTaskDRAInfo returned has non-negative, exactly saturating
   GetMinDRAResources counts — no hypothesis on the counts other than the per-request apiserver guarantee *)
Theorem C16_min_dra_from_cache : forall j c,
  (forall t, In t (j_tasks j) -> task_from_cache t) ->
  (forall r n, j_tma j !! r = Some n -> in64 n) ->
  0 <= count_of (result_at (get_min_dra j) c) /\
  count_of (result_at (get_min_dra j) c) = Z.min max64 (exact_sum (class_terms c (contribs j))).
Proof.
  intros j c Ht Hn.
  assert (Hok : job_ok j).
  { apply job_ok_of_dmap_ok; [|exact Hn]. intros t rq Hin Hrq.
    destruct (Ht t Hin rq Hrq) as (claims & refs & per & Hc & Hb).
    exact (proj1 (C16_task_dra_counts_ok claims refs rq per Hc Hb)). }
  split; [apply C16_min_dra_count_nonneg|apply C16_min_dra_count_spec]; exact Hok.
Qed.
Print Assumptions C16_min_dra_from_cache.

Theorem C16_add_sub_pointwise : forall r x,
  cpu (sub (add r x) x) = cpu r /\ mem (sub (add r x) x) = mem r /\
  forall k, sget (sub (add r x) x) k = sget r k.
Proof. exact add_sub_pointwise. Qed.
Print Assumptions C16_add_sub_pointwise.

Theorem C16_add_sub_exact : forall r x,
  (forall k, is_Some (scm x !! k) -> is_Some (scm r !! k)) -> sub (add r x) x = r.
Proof. exact add_sub_exact. Qed.
Print Assumptions C16_add_sub_exact.

Theorem C16_sub_nil_drops_scalars : forall r x, sc r = None -> sc (sub r x) = None.
Proof. exact sub_nil_drops_scalars. Qed.
Print Assumptions C16_sub_nil_drops_scalars.

Theorem C16_add_empty : forall r, add r empty_res = r.
Proof.
  intros r.
  destruct r as [c m s]. unfold add, empty_res. cbn. rewrite !Z.add_0_r. reflexivity.
Qed.
Print Assumptions C16_add_empty.

Theorem C16_sub_empty : forall r, sub r empty_res = r.
Proof.
  intros r.
  destruct r as [c m [s|]]; unfold sub, empty_res; cbn; rewrite !Z.sub_0_r; [|reflexivity].
  f_equal. f_equal. apply map_eq. intros k. rewrite lookup_merge, lookup_empty.
  destruct (s !! k); reflexivity.
Qed.
Print Assumptions C16_sub_empty.

(* with a nil scalar map sub returns early and drops the scalars (C16_sub_nil_drops_scalars); otherwise a
   dimension r lacks goes through -x and back to 0 *)
Theorem C16_sub_add_pointwise : forall r x, sc r <> None ->
  cpu (add (sub r x) x) = cpu r /\ mem (add (sub r x) x) = mem r /\
  forall k, sget (add (sub r x) x) k = sget r k.
Proof.
  intros r x.
  intros H. rewrite add_cpu, add_mem, sub_cpu, sub_mem. repeat split; try lia.
  intros k. rewrite add_sget, sub_sget by exact H. lia.
Qed.
Print Assumptions C16_sub_add_pointwise.

Theorem C16_add_comm : forall r x,
  cpu (add r x) = cpu (add x r) /\ mem (add r x) = mem (add x r) /\
  forall k, scm (add r x) !! k = scm (add x r) !! k.
Proof. exact add_comm_pointwise. Qed.
Print Assumptions C16_add_comm.

Theorem C16_add_assoc : forall r x y,
  cpu (add (add r x) y) = cpu (add r (add x y)) /\ mem (add (add r x) y) = mem (add r (add x y)) /\
  forall k, scm (add (add r x) y) !! k = scm (add r (add x y)) !! k.
Proof. exact add_assoc_pointwise. Qed.
Print Assumptions C16_add_assoc.

(* --- order laws, for every tolerance eps > 0 and both defaults --- *)
Theorem C16_less_equal_refl : forall eps, 0 < eps -> forall r d, less_equal eps r r d = true.
Proof. exact less_equal_refl. Qed.
Print Assumptions C16_less_equal_refl.

Theorem C16_less_implies_less_equal : forall eps, 0 < eps -> forall r rr d,
  less r rr d = true -> less_equal eps r rr d = true.
Proof. exact less_implies_less_equal. Qed.
Print Assumptions C16_less_implies_less_equal.

Theorem C16_less_equal_names_zero : forall eps r rr,
  less_equal_names eps r rr DZero = less_equal eps r rr DZero.
Proof. exact less_equal_names_zero. Qed.
Print Assumptions C16_less_equal_names_zero.

Theorem C16_less_equal_names_inf : forall eps r rr,
  less_equal eps r rr DInf = less_equal_names eps r rr DInf && negb (has_missing r rr).
Proof. exact less_equal_names_inf. Qed.
Print Assumptions C16_less_equal_names_inf.

Theorem C16_less_equal_vs_less_partly : forall eps, 0 < eps -> forall r s,
  (forall k v, scm s !! k = Some v -> 0 <= v) ->
  less_equal eps r s DZero = true -> less_partly s r DZero = true ->
  (0 < cpu r - cpu s < eps) \/ (0 < mem r - mem s < eps) \/
  (exists k, 0 < sget r k - sget s k < eps) \/
  (exists k, scm s !! k = None /\ is_Some (scm r !! k) /\ sget r k < eps).
Proof. exact less_equal_vs_less_partly. Qed.
Print Assumptions C16_less_equal_vs_less_partly.

Theorem C16_gp_dim_spec : forall r rr req,
  gp_dim r rr req = true <->
  (0 < cpu req /\ cpu rr < cpu r) \/ (0 < mem req /\ mem rr < mem r) \/
  exists k q, scm req !! k = Some q /\ k <> pods_name /\ 0 < q /\ sget rr k < sget r k.
Proof. exact gp_dim_spec. Qed.
Print Assumptions C16_gp_dim_spec.

Theorem C16_le_dim_is_not_gp_dim : forall r rr req,
  sc r <> None -> le_dim r rr req = negb (gp_dim r rr req).
Proof. exact le_dim_is_not_gp_dim. Qed.
Print Assumptions C16_le_dim_is_not_gp_dim.

(* --- partial ("some dimension") vs total comparisons, both conventions, every eps > 0 --- *)
Theorem C16_less_partly_implies_less_equal_partly : forall eps, 0 < eps -> forall r rr d,
  less_partly r rr d = true -> less_equal_partly eps r rr d = true.
Proof.
  intros eps eps_pos r rr d.
  unfold less_partly, less_equal_partly. rewrite !orb_true_iff.
  intros [[[H|H]|H]|H].
  - left. left. left. apply (lt_le eps eps_pos); assumption.
  - left. left. right. apply (lt_le eps eps_pos); assumption.
  - left. right. exact H.
  - right. unfold any_sc in *. apply map_anyb_spec in H as (k & v & Hl & Hp).
    apply map_anyb_spec. exists k, v. split; [exact Hl|]. apply (cmp_at_lt_le eps eps_pos). exact Hp.
Qed.
Print Assumptions C16_less_partly_implies_less_equal_partly.

(* the cpu dimension always exists *)
Theorem C16_less_equal_implies_less_equal_partly : forall eps r rr d,
  less_equal eps r rr d = true -> less_equal_partly eps r rr d = true.
Proof.
  intros eps r rr d.
  unfold less_equal, less_equal_partly. rewrite !andb_true_iff, !orb_true_iff.
  intros [[[H _] _] _]. left. left. left. exact H.
Qed.
Print Assumptions C16_less_equal_implies_less_equal_partly.

Theorem C16_less_implies_less_partly : forall r rr d, less r rr d = true -> less_partly r rr d = true.
Proof.
  intros r rr d.
  unfold less, less_partly. rewrite !andb_true_iff, !orb_true_iff.
  intros [[[H _] _] _]. left. left. left. exact H.
Qed.
Print Assumptions C16_less_implies_less_partly.

(* if r is in NO dimension within tolerance of rr, then rr is strictly below r everywhere *)
Theorem C16_not_less_equal_partly_implies_greater : forall eps, 0 < eps -> forall r rr d,
  less_equal_partly eps r rr d = false -> less rr r d = true.
Proof.
  intros eps eps_pos r rr d.
  unfold less_equal_partly, less. rewrite !orb_false_iff.
  intros [[[Hc Hm] Hmiss] Hs].
  apply (le_false eps eps_pos) in Hc, Hm. unfold any_sc in Hs. rewrite map_anyb_false in Hs. rename Hs into Hall.
  rewrite !andb_true_iff. repeat split.
  - apply lt_spec. lia.
  - apply lt_spec. lia.
  - destruct d; [reflexivity|]. apply negb_true_iff, has_missing_false.
    intros k [v Hv]. specialize (Hall k v Hv). unfold cmp_at in Hall.
    destruct (scm rr !! k); [eauto|discriminate].
  - unfold all_sc. apply map_allb_spec. intros k w Hw. unfold cmp_at.
    destruct (scm r !! k) as [v|] eqn:Hv.
    + specialize (Hall k v Hv). unfold cmp_at in Hall. rewrite Hw in Hall.
      apply (le_false eps eps_pos) in Hall. apply lt_spec. lia.
    + destruct d; [|reflexivity].
      (* DZero: a key of rr missing in r is excluded by has_missing r rr = false *)
      exfalso. assert (has_missing r rr = true); [|congruence].
      apply has_missing_spec. exists k. split; [eauto|exact Hv].
Qed.
Print Assumptions C16_not_less_equal_partly_implies_greater.

Theorem C16_equal_refl : forall eps, 0 < eps -> forall r, equal eps r r = true.
Proof.
  intros eps eps_pos r.
  unfold equal. rewrite !(eqv_refl eps eps_pos). apply map_allb_spec.
  intros k v Hl. rewrite Hl. apply (eqv_refl eps eps_pos).
Qed.
Print Assumptions C16_equal_refl.

(* --- Resource.Sub WITH its assertion (panics when rr is not <= r within tolerance) --- *)
Theorem C16_add_then_sub_assert : forall eps, 0 < eps -> forall r x, nonneg_res r ->
  exists s, sub_assert eps (add r x) x = SubOk s /\
            cpu s = cpu r /\ mem s = mem r /\ forall k, sget s k = sget r k.
Proof.
  intros eps eps_pos r x.
  intros (Hc & Hm & Hs). unfold sub_assert.
  assert (Hle : less_equal eps x (add r x) DZero = true).
  { apply (less_equal_zero_spec eps eps_pos). rewrite add_cpu, add_mem. repeat split; try lia.
    intros k v Hl. rewrite add_sget. rewrite (sget_lookup x k v Hl).
    assert (0 <= sget r k); [|lia]. unfold sget. destruct (scm r !! k) as [w|] eqn:E; cbn; [eapply Hs; exact E|lia]. }
  rewrite Hle. exists (sub (add r x) x). split; [reflexivity|].
  destruct (add_sub_pointwise r x) as (H1 & H2 & H3). auto.
Qed.
Print Assumptions C16_add_then_sub_assert.

Theorem C16_sub_assert_panics_iff : forall eps, 0 < eps -> forall r rr,
  sub_assert eps r rr = SubPanic <->
  cpu r + eps <= cpu rr \/ mem r + eps <= mem rr \/
  exists k v, scm rr !! k = Some v /\ sget r k + eps <= v.
Proof.
  intros eps eps_pos r rr.
  unfold sub_assert. rewrite <- (less_equal_zero_false eps eps_pos).
  destruct (less_equal eps rr r DZero); split; congruence.
Qed.
Print Assumptions C16_sub_assert_panics_iff.

(* without the non-negativity guard Add-then-Sub panics (r.cpu = -5, x.cpu = 3) *)
Theorem C16_add_then_sub_assert_refuted : exists r x, sub_assert 2 (add r x) x = SubPanic.
Proof.
  exists (mkRes (-5) 0 None), (mkRes 3 0 None). vm_compute. reflexivity.
Qed.
Print Assumptions C16_add_then_sub_assert_refuted.

(* --- float64: the laws above are about exact arithmetic.  On a float64-faithful mini-model (integer-valued
   binary64, round-to-nearest-even, +-Inf, NaN) they transfer inside the guard [exact] (|values| <= 2^53)
   and are REFUTED outside it --- *)
Theorem C16_add_sub_float_guarded : forall x y, exact (x + y) -> exact x ->
  fsub (fadd (Fin x) (Fin y)) (Fin y) = Fin x.
Proof. exact add_sub_float_guarded. Qed.
Print Assumptions C16_add_sub_float_guarded.

Theorem C16_fle_refl_finite : forall eps x, 0 < eps -> fle eps (Fin x) (Fin x) = true.
Proof. exact fle_refl_finite. Qed.
Print Assumptions C16_fle_refl_finite.

Theorem C16_add_sub_refuted_two53 :
  exists x y, fsub (fadd (Fin x) (Fin y)) (Fin y) <> Fin x /\ exact x /\ exact y.
Proof. exact add_sub_refuted_two53. Qed.
Print Assumptions C16_add_sub_refuted_two53.

Theorem C16_add_sub_refuted_sentinel :
  fsub (fadd (Fin 5) (Fin max_float64)) (Fin max_float64) = Fin 0.
Proof. exact add_sub_refuted_sentinel. Qed.
Print Assumptions C16_add_sub_refuted_sentinel.

Theorem C16_refl_refuted_two_sentinels :
  let s := fadd (Fin max_float64) (Fin max_float64) in s = PInf /\ fle 1 s s = false.
Proof. exact refl_refuted_two_sentinels. Qed.
Print Assumptions C16_refl_refuted_two_sentinels.

Theorem C16_diff_decomposes : forall r s inc dec,
  diff_zero r s = (inc, dec) ->
  cpu r + cpu dec = cpu s + cpu inc /\ mem r + mem dec = mem s + mem inc /\
  0 <= cpu inc /\ 0 <= cpu dec /\ Z.min (cpu inc) (cpu dec) = 0 /\
  0 <= mem inc /\ 0 <= mem dec /\ Z.min (mem inc) (mem dec) = 0 /\
  forall k, sget r k + sget dec k = sget s k + sget inc k /\
            0 <= sget inc k /\ 0 <= sget dec k /\ Z.min (sget inc k) (sget dec k) = 0.
Proof. exact diff_decomposes. Qed.
Print Assumptions C16_diff_decomposes.

Theorem C16_set_max_spec : forall r rr,
  cpu (set_max r rr) = Z.max (cpu r) (cpu rr) /\ mem (set_max r rr) = Z.max (mem r) (mem rr) /\
  forall k, scm (set_max r rr) !! k =
            union_with (fun a b => Some (Z.max a b)) (scm r !! k) (scm rr !! k).
Proof. exact set_max_spec. Qed.
Print Assumptions C16_set_max_spec.

Theorem C16_min_dim_le_left : forall eps, 0 < eps -> forall r rr d,
  (forall k v, scm r !! k = Some v -> 0 <= v) ->
  less_equal eps (min_dim r rr d) r DZero = true.
Proof. exact min_dim_le_left. Qed.
Print Assumptions C16_min_dim_le_left.

(* --- the executable laws evaluated on the Go results accept the model's own results --- *)
Theorem C16_law_sat_add_accepts_model : forall a b, in64 a -> in64 b -> law_sat_add a b (sat_add a b) = true.
Proof.
  intros a b Ha Hb. unfold law_sat_add. apply zeqb_true. apply sat_add_spec; assumption.
Qed.
Print Assumptions C16_law_sat_add_accepts_model.

Theorem C16_law_sat_mul_accepts_model : forall a b, in64 a -> in64 b -> law_sat_mul a b (sat_mul a b) = true.
Proof.
  intros a b Ha Hb. unfold law_sat_mul. apply zeqb_true. apply sat_mul_spec; assumption.
Qed.
Print Assumptions C16_law_sat_mul_accepts_model.

Theorem C16_law_dra_accepts_model : forall l,
  Forall (fun ct => in64 (fst ct) /\ in64 (snd ct)) l -> law_dra l (dra_total l) = true.
Proof.
  intros l Hin. unfold law_dra.
  destruct (forallb _ l) eqn:E; [|reflexivity].
  apply bool_decide_eq_true. apply C16_dra_total_never_negative.
  rewrite forallb_forall in E. rewrite Forall_forall in *. intros ct Hct.
  specialize (E ct Hct). specialize (Hin ct Hct).
  apply andb_true_iff in E as [E1 E2]. apply bool_decide_eq_true in E1, E2. tauto.
Qed.
Print Assumptions C16_law_dra_accepts_model.

Theorem C16_law_group_accepts_model : forall r x, law_group r x (add r x) (sub (add r x) x) (add x r) = true.
Proof.
  intros r x.
  destruct (add_sub_pointwise r x) as (H1 & H2 & H3).
  destruct (add_comm_pointwise r x) as (C1 & C2 & C3).
  unfold law_group. rewrite !andb_true_iff. repeat split.
  - apply zeqb_true; exact H1.
  - apply zeqb_true; exact H2.
  - apply forallb_forall. intros k _. apply zeqb_true. apply H3.
  - apply zeqb_true; exact C1.
  - apply zeqb_true; exact C2.
  - apply forallb_forall. intros k _. apply bool_decide_eq_true. apply C3.
  - apply zeqb_true. reflexivity.
  - apply forallb_forall. intros k _. apply zeqb_true. apply add_sget.
Qed.
Print Assumptions C16_law_group_accepts_model.

Theorem C16_law_diff_accepts_model : forall r s, law_diff r s (fst (diff_zero r s)) (snd (diff_zero r s)) = true.
Proof.
  intros r s.
  destruct (diff_zero r s) as [inc dec] eqn:E. simpl.
  destruct (diff_decomposes r s inc dec E) as (H1 & H2 & H3 & H4 & H5 & H6 & H7 & H8 & Hk).
  unfold law_diff. rewrite !andb_true_iff. repeat split;
    try (apply zeqb_true; assumption); try (apply bool_decide_eq_true; assumption).
  apply forallb_forall. intros k _. destruct (Hk k) as (K1 & K2 & K3 & K4).
  rewrite !andb_true_iff. repeat split;
    try (apply zeqb_true; assumption); try (apply bool_decide_eq_true; assumption).
Qed.
Print Assumptions C16_law_diff_accepts_model.

Theorem C16_law_min_dra_accepts_model : forall j, job_ok j -> law_min_dra j (get_min_dra j) = true.
Proof.
  intros j Hok. unfold law_min_dra. apply andb_true_iff. split.
  - unfold get_min_dra. destruct (j_tasks j); [reflexivity|].
    destruct (bool_decide (accumulate (contribs j) ∅ = ∅)) eqn:E; [reflexivity|].
    apply bool_decide_eq_false in E.
    destruct (map_to_list (accumulate (contribs j) ∅)) eqn:El; [|reflexivity].
    apply map_to_list_empty_iff in El. contradiction.
  - apply forallb_forall. intros c _. cbn zeta.
    rewrite !andb_true_iff. split; [split|].
    + apply eqb_iff. rewrite is_some_true, C16_min_dra_classes.
      rewrite (existsb_Exists _ (fun ct => is_Some (fst ct !! c))); [reflexivity|].
      intros x. apply is_some_true.
    + destruct (nonneg_terms _); [|reflexivity].
      apply andb_true_iff. split.
      * apply bool_decide_eq_true. apply C16_min_dra_count_nonneg. exact Hok.
      * apply zeqb_true. apply C16_min_dra_count_spec. exact Hok.
    + apply forallb_forall. intros dim _. apply andb_true_iff. split.
      * apply zeqb_true. apply C16_min_dra_cap_spec.
      * apply eqb_iff. rewrite is_some_true, negb_true_iff, bool_decide_eq_false.
        pose proof (cap_present_accumulate (contribs j) ∅ c dim) as H.
        rewrite lookup_empty in H. rewrite <- result_at_get_min_dra in H.
        unfold cap_present in H.
        destruct (result_at (get_min_dra j) c); [rewrite H; tauto|].
        split; [intros [? Hd]; discriminate|intros HX; exfalso; tauto].
Qed.
Print Assumptions C16_law_min_dra_accepts_model.

Theorem C16_law_dra_ops_accepts_model : forall d o,
  in64 (d_count d) -> (forall x, o = Some x -> in64 (d_count x)) ->
  law_dra_ops d o (dra_add d o) (dra_sub d o) = true.
Proof.
  intros d o Hd Ho. unfold law_dra_ops. destruct o as [o|].
  - specialize (Ho o eq_refl). rewrite !andb_true_iff. repeat split.
    + apply zeqb_true. apply dra_add_count; assumption.
    + apply implb_true_iff. rewrite andb_true_iff, !bool_decide_eq_true. intros [E1 E2].
      apply (C16_dra_add_nonneg d o); assumption.
    + apply forallb_forall. intros dim _. apply zeqb_true. apply dra_add_cap.
    + apply bool_decide_eq_true. apply C16_dra_sub_never_negative.
    + apply implb_true_iff. rewrite andb_true_iff, !bool_decide_eq_true. intros [E1 E2].
      apply zeqb_true. apply C16_dra_sub_count; assumption.
    + apply bool_decide_eq_true, dom_imap_total. intros k v. destruct (d_caps o !! k); eauto.
    + apply forallb_forall. intros dim Hin. apply In_keys_list in Hin as [v Hv]. apply zeqb_true. cbn [dra_sub d_caps].
      rewrite map_lookup_imap, Hv. cbn. destruct (d_caps o !! dim) as [w|]; cbn; [|reflexivity].
      destruct (v - w <? 0) eqn:E; lia.
  - cbn. rewrite !andb_true_iff. repeat split; try (apply zeqb_true; reflexivity); apply bool_decide_eq_true; reflexivity.
Qed.
Print Assumptions C16_law_dra_ops_accepts_model.

Theorem C16_law_rt_res_accepts_model : forall r,
  law_rt_res r (convert r) (fst (new_resource (convert r))) (snd (new_resource (convert r))) = true.
Proof.
  intros r.
  unfold law_rt_res.
  destruct (res_exact r) eqn:E0; [|reflexivity].
  destruct (bool_decide (scm r !! cpu_name = None)) eqn:E1; [|reflexivity].
  destruct (bool_decide (scm r !! mem_name = None)) eqn:E2; [|reflexivity]. cbn [andb].
  apply bool_decide_eq_true in E1, E2.
  destruct (res_exact_spec r E0) as [Ei _]. destruct (res_exact_amounts r E0) as (Fc & Fm & Fs).
  unfold convert. rewrite Ei. unfold new_resource.
  pose proof (new_resource_convert_pointwise_z r E1 E2) as (Hc & Hm & Hs).
  pose proof (maxtask_convert_z r) as Hmt.
  pose proof (sc_new_resource_z_not_empty (convert_z r)) as Hne.
  destruct (new_resource_z (convert_z r)) as [rz mt]. cbn [fst snd] in *.
  rewrite !andb_true_iff. repeat split.
  - apply bool_decide_eq_true. rewrite lookup_convert_z, E1. reflexivity.
  - apply bool_decide_eq_true. rewrite lookup_convert_z, E2. reflexivity.
  - apply forallb_forall. intros k _.
    destruct (bool_decide (k = cpu_name)) eqn:Ek1; [reflexivity|].
    destruct (bool_decide (k = mem_name)) eqn:Ek2; [reflexivity|]. cbn [orb].
    apply bool_decide_eq_false in Ek1, Ek2. rewrite <- name_class_cpu in Ek1. rewrite <- name_class_mem in Ek2.
    apply bool_decide_eq_true. rewrite lookup_convert_z.
    destruct (bool_decide (k = pods_name)) eqn:Ep.
    + apply bool_decide_eq_true in Ep as ->. destruct (scm r !! pods_name); reflexivity.
    + apply bool_decide_eq_false in Ep. rewrite <- name_class_pods in Ep.
      destruct (scm r !! k), (name_class k); cbn; congruence.
  - apply zeqb_true. cbn. rewrite Hc. exact Fc.
  - apply zeqb_true. cbn. rewrite Hm. exact Fm.
  - apply forallb_forall. intros k _. apply bool_decide_eq_true. rewrite scm_map_res, Hs.
    destruct (kept_scalar k); [|reflexivity]. destruct (scm r !! k) as [v|] eqn:E; [|reflexivity].
    cbn. f_equal. apply (Fs k v E).
  - apply negb_true_iff, bool_decide_eq_false. apply sc_map_res_not_empty. exact Hne.
  - apply zeqb_true. exact Hmt.
Qed.
Print Assumptions C16_law_rt_res_accepts_model.

Theorem C16_law_rt_list_accepts_model : forall rl, rl_in_range rl = true ->
  law_rt_list rl (fst (new_resource rl)) (snd (new_resource rl)) (convert (fst (new_resource rl))) = true.
Proof.
  intros rl Hr. unfold law_rt_list. apply forallb_forall. intros k _.
  pose proof (C16_convert_new_resource_any rl k Hr) as H. cbn zeta in H.
  pose proof (scm_new_resource rl k) as Hs. unfold scalar_of in Hs.
  assert (Hcpu : cpu (fst (new_resource rl)) = f64 (default 0 (rl !! cpu_name))).
  { unfold new_resource, new_resource_z. reflexivity. }
  assert (Hmem : mem (fst (new_resource rl)) = f64 (qvalue (default 0 (rl !! mem_name)))).
  { unfold new_resource, new_resource_z. reflexivity. }
  assert (Hmt : snd (new_resource rl) = qvalue (default 0 (rl !! pods_name))).
  { unfold new_resource, new_resource_z. reflexivity. }
  destruct (name_class k) eqn:E.
  5,7,8: apply andb_true_iff; split; apply bool_decide_eq_true; [exact H|rewrite Hs; destruct (rl !! k); reflexivity].
  4,5: rewrite H, Hs; destruct (rl !! k) as [m|]; cbn;
    [destruct (amount_ok m) eqn:Ea; [|reflexivity]; cbn [negb orb]; apply amount_ok_spec in Ea as [A1 A2]; rewrite A1, A2;
     apply andb_true_iff; split; apply bool_decide_eq_true; reflexivity|reflexivity].
  - apply name_class_cpu in E. subst.
    destruct (amount_ok (default 0 (rl !! cpu_name))) eqn:Ea; [|reflexivity]. cbn [negb orb].
    apply amount_ok_spec in Ea as [A1 A2]. rewrite H, Hcpu, A1, A2.
    apply andb_true_iff. split; [apply bool_decide_eq_true|apply zeqb_true]; reflexivity.
  - apply name_class_mem in E. subst.
    destruct (amount_ok (qvalue (default 0 (rl !! mem_name)))) eqn:Ea; [|reflexivity]. cbn [negb orb].
    apply amount_ok_spec in Ea as [A1 A2]. rewrite H, Hmem, A1, A2.
    apply andb_true_iff. split; [apply whole_up_qvalue|apply zeqb_true; reflexivity].
  - apply name_class_pods in E. subst. rewrite H.
    destruct (rl !! pods_name) as [m|] eqn:Em; cbn [fmap option_fmap option_map].
    + destruct (amount_ok (qvalue m)) eqn:Ea; [|reflexivity]. cbn [negb orb].
      apply amount_ok_spec in Ea as [A1 A2]. rewrite A1, A2.
      rewrite !andb_true_iff. repeat split.
      * apply whole_up_qvalue.
      * apply zeqb_true. unfold sget. rewrite Hs. cbn. rewrite A1. reflexivity.
      * apply zeqb_true. rewrite Hmt. reflexivity.
    + apply zeqb_true. rewrite Hmt. reflexivity.
Qed.
Print Assumptions C16_law_rt_list_accepts_model.

Theorem C16_law_min_dra_sound : forall j got c,
  law_min_dra j got = true -> In c (call_classes (contribs j)) ->
  nonneg_terms (class_terms c (contribs j)) = true ->
  0 <= count_of (result_at got c) /\
  count_of (result_at got c) = Z.min max64 (exact_sum (class_terms c (contribs j))).
Proof.
  intros j got c.
  unfold law_min_dra, nonneg_terms. intros H Hin Hnn. apply andb_true_iff in H as [_ H].
  rewrite forallb_forall in H. specialize (H c ltac:(apply in_or_app; left; exact Hin)). cbn zeta in H.
  rewrite !andb_true_iff in H. destruct H as [[_ H] _]. rewrite Hnn in H.
  apply andb_true_iff in H as [H1 H2]. apply bool_decide_eq_true in H1. apply zeqb_true in H2. auto.
Qed.
Print Assumptions C16_law_min_dra_sound.

Theorem C16_law_partial_spec : forall a b c d e,
  law_partial a b c d e = true <->
  (c = true -> d = true) /\ (b = true -> d = true) /\ (a = true -> c = true) /\ (d = false -> e = true).
Proof. intros a b c d e. unfold law_partial. rewrite !andb_true_iff, !implb_true_iff, negb_true_iff. tauto. Qed.
Print Assumptions C16_law_partial_spec.

Theorem C16_law_partial_accepts_model : forall eps r rr d, 0 < eps ->
  law_partial (less r rr d) (less_equal eps r rr d) (less_partly r rr d) (less_equal_partly eps r rr d)
              (less rr r d) = true.
Proof.
  intros eps r rr d He. apply C16_law_partial_spec. repeat split.
  - apply C16_less_partly_implies_less_equal_partly. exact He.
  - apply C16_less_equal_implies_less_equal_partly.
  - apply C16_less_implies_less_partly.
  - apply C16_not_less_equal_partly_implies_greater. exact He.
Qed.
Print Assumptions C16_law_partial_accepts_model.

Theorem C16_law_sub_assert_accepts_model : forall eps r rr,
  law_sub_assert (match sub_assert eps r rr with SubPanic => true | SubOk _ => false end)
                 (less_equal eps rr r DZero) = true.
Proof.
  intros eps r rr.
  unfold law_sub_assert, sub_assert. destruct (less_equal eps rr r DZero); reflexivity.
Qed.
Print Assumptions C16_law_sub_assert_accepts_model.

(* "clones share no storage" cannot be a theorem about a value-semantics model; it is law 118 on the real
   objects (clone, mutate the clone, observe the source).  What the law means, and that the model meets it: *)
Theorem C16_law_clone_independent_spec : forall d before a1 a2 a3,
  law_clone_independent d before a1 a2 a3 = true <->
  (d_count before = d_count d /\ d_caps before = d_caps d) /\
  (d_count a1 = d_count before /\ d_caps a1 = d_caps before) /\
  (d_count a2 = d_count before /\ d_caps a2 = d_caps before) /\
  (d_count a3 = d_count before /\ d_caps a3 = d_caps before).
Proof. exact law_clone_independent_spec. Qed.
Print Assumptions C16_law_clone_independent_spec.

(* soundness: a true answer means every later observation of the source IS the first one, as records *)
Theorem C16_law_clone_independent_sound : forall d before a1 a2 a3,
  law_clone_independent d before a1 a2 a3 = true -> before = d /\ a1 = before /\ a2 = before /\ a3 = before.
Proof.
  intros d before a1 a2 a3.
  unfold law_clone_independent. rewrite !andb_true_iff, !dres_eqb_eq. tauto.
Qed.
Print Assumptions C16_law_clone_independent_sound.

(* law 108 (argument / source observed after an operation = observed before) is list equality *)
Theorem C16_law_unchanged_spec : forall before after, law_unchanged before after = true <-> before = after.
Proof.
  intros before after.
  unfold law_unchanged. apply bool_decide_eq_true.
Qed.
Print Assumptions C16_law_unchanged_spec.

Theorem C16_law_sub_add_accepts_model : forall r x, law_sub_add r x (sub r x) (add (sub r x) x) = true.
Proof.
  intros r x.
  unfold law_sub_add. rewrite !andb_true_iff. repeat split; try (apply zeqb_true; reflexivity).
  - apply zeqb_true. rewrite add_cpu, sub_cpu. lia.
  - apply zeqb_true. rewrite add_mem, sub_mem. lia.
  - destruct (sc r) as [m|] eqn:E; [|reflexivity].
    assert (H : sc r <> None) by (rewrite E; discriminate).
    destruct (C16_sub_add_pointwise r x H) as (_ & _ & H3).
    apply forallb_forall. intros k _. apply andb_true_iff. split; apply zeqb_true; [apply H3|apply sub_sget; exact H].
Qed.
Print Assumptions C16_law_sub_add_accepts_model.

Theorem C16_law_sub_add_sound : forall r x S B, law_sub_add r x S B = true ->
  cpu B = cpu r /\ mem B = mem r /\ cpu S = cpu r - cpu x /\ mem S = mem r - mem x /\
  (sc r <> None -> forall k, sget B k = sget r k /\ sget S k = sget r k - sget x k).
Proof.
  intros r x S B.
  unfold law_sub_add. rewrite !andb_true_iff, !zeqb_true. intros [[[[H1 H2] H3] H4] H5].
  repeat (split; [assumption|]). intros Hn k. destruct (sc r); [|congruence].
  destruct (forallb_keys_of _ _ k H5) as [Hk|Hz].
  - rewrite andb_true_iff, !zeqb_true in Hk. exact Hk.
  - unfold sget. rewrite (Hz r), (Hz x), (Hz S), (Hz B) by (cbn; auto). split; reflexivity.
Qed.
Print Assumptions C16_law_sub_add_sound.

Theorem C16_law_min_inf_accepts_model : forall r rr, law_min_inf r rr (min_dim r rr DInf) = true.
Proof.
  intros r rr.
  unfold law_min_inf. rewrite !andb_true_iff. repeat split; try (apply zeqb_true; reflexivity).
  apply forallb_forall. intros k _.
  destruct (sc r) as [m|] eqn:E.
  - destruct (min_dim_spec r rr DInf m E) as (_ & _ & Hk). rewrite Hk.
    assert (Hm : scm r !! k = m !! k) by (unfold scm; rewrite E; reflexivity).
    rewrite Hm. destruct (m !! k) as [v|]; apply bool_decide_eq_true; [|reflexivity].
    destruct (scm rr !! k); reflexivity.
  - assert (Hn : scm r !! k = None) by (unfold scm; rewrite E; apply lookup_empty).
    rewrite Hn. apply bool_decide_eq_true. unfold min_dim, scm. cbn [sc]. rewrite E. apply lookup_empty.
Qed.
Print Assumptions C16_law_min_inf_accepts_model.

Theorem C16_law_f2q2f_accepts_model : forall g c x mant e,
  (conv_domain g x = true -> float_is mant e (Z.quot x g) = true) ->
  law_f2q2f g c x (float_to_quantity g c x) mant e = true.
Proof.
  intros g c x mant e Hf. unfold law_f2q2f. destruct (conv_domain g x) eqn:Ed; [|reflexivity].
  destruct (conv_domain_spec g x Ed) as (Hg & _ & I). specialize (Hf eq_refl).
  unfold float_to_quantity. rewrite I. destruct c; cbn [orb].
  - rewrite trunc_of_quot by exact Hg. exact Hf.
  - rewrite (Z.mul_comm 1000), Z.mod_mul, Z.div_mul by lia.
    rewrite trunc_of_quot by exact Hg. rewrite Hf. reflexivity.
Qed.
Print Assumptions C16_law_f2q2f_accepts_model.

Theorem C16_law_q2f2q_accepts_model : forall c m mant e,
  float_is mant e (quantity_to_float 1 c m) = true ->
  law_q2f2q m c mant e (float_to_quantity 1 c (quantity_to_float 1 c m)) = true.
Proof.
  intros c m mant e Hf. unfold law_q2f2q. destruct (qty_domain c m) eqn:Ed.
  - rewrite C16_quantity_float_quantity by (lia || exact Ed).
    unfold qty_domain in Ed. apply amount_ok_spec in Ed as [F _].
    unfold quantity_to_float in Hf. rewrite F, Z.mul_1_r in Hf. destruct c.
    + rewrite Hf. apply zeqb_true. reflexivity.
    + rewrite (Z.mul_comm 1000 (qvalue m)), Z.mod_mul, Z.div_mul by lia.
      rewrite Z.mul_comm, whole_up_qvalue, Hf. reflexivity.
  - unfold quantity_to_float in Hf. rewrite Z.mul_1_r in Hf. exact Hf.
Qed.
Print Assumptions C16_law_q2f2q_accepts_model.

(* non-vacuity: a concrete vector pair with scalars on one side only meets the
   hypotheses used above *)
Example C16_nonvacuous :
  let r := mkRes 32 64 (Some {[4%positive := 16]}) in
  let x := mkRes 16 0 (Some {[4%positive := 16; 5%positive := 3]}) in
  less_equal 2 r (add r x) DZero = true /\ sc r <> None /\
  sget (sub (add r x) x) 5 = 0 /\ sub (add r x) x <> r.
Proof. vm_compute. repeat split; congruence. Qed.

(* the saturation is reached: on this two-role job (2 * 2^62 + 3 * 3074457345618258602 devices of one class)
   the result is MaxInt64 and the exact sum is larger *)
Example C16_dra_nonvacuous :
  let rq c := ({[1%positive := mkD c {[1%positive := 2500]}]} : dmap) in
  let j := mkJ 0 {[2%positive := 2; 3%positive := 3]}
               [mkT 0 1 1 2%positive (Some (rq 4611686018427387904));
                mkT 0 2 2 3%positive (Some (rq 3074457345618258602))] in
  count_of (result_at (get_min_dra j) 1%positive) = max64 /\
  max64 < exact_sum (class_terms 1%positive (contribs j)) /\
  cap_of (result_at (get_min_dra j) 1%positive) 1%positive = 12500 /\
  length (contribs j) = 2%nat.
Proof. vm_compute. repeat split; reflexivity. Qed.

Example C16_dra_nonvacuous_job_ok : job_ok example_job /\ length (contribs example_job) = 2%nat.
Proof.
  split; [|vm_compute; reflexivity]. split.
  - intros t rq c q Hin Hrq Hq.
    assert (Hrq' : rq = {[1%positive := mkD 9223372036854775800 ∅]}).
    { destruct Hin as [<-|[<-|[]]]; cbn in Hrq; inversion Hrq; reflexivity. }
    subst rq. destruct (decide (c = 1%positive)) as [->|Hne].
    + rewrite lookup_singleton in Hq. inversion Hq; subst. cbn. unfold in64, min64, max64. lia.
    + rewrite lookup_singleton_ne in Hq by congruence. discriminate.
  - intros r n H. cbn in H. rewrite lookup_empty in H. discriminate.
Qed.

(* non-vacuity of the round trip: a vector with a fractional-unit ephemeral-storage amount, pods and
   a hugepages scalar lies in rt_domain and comes back unchanged *)
Example C16_roundtrip_nonvacuous :
  let r := mkRes 1500 4096 (Some {[1%positive := 3; 6%positive := 4194304000; 7%positive := 2500]}) in
  rt_domain r = true /\
  convert r !! 7%positive = Some 2500 /\ convert r !! 1%positive = Some 3000 /\
  bool_decide (new_resource (convert r) = (r, 3)) = true.
Proof. vm_compute. repeat split; reflexivity. Qed.

Example C16_conv_nonvacuous :
  conv_domain 1 4007 = true /\ quantity_to_float 1 true (float_to_quantity 1 true 4007) = 4007 /\
  conv_domain 16 (16 * 4007 + 9) = true /\ float_to_quantity 16 true (16 * 4007 + 9) = 4007 /\
  conv_domain 1 (3 * 2 ^ 60) = true /\ qty_domain false 2500 = true /\ quantity_to_float 1 false 2500 = 3 /\
  qty_domain true (2 ^ 63 - 1024) = true /\
  float_to_quantity 1 true (quantity_to_float 1 true (2 ^ 63 - 1024)) = 2 ^ 63 - 1024 /\
  conv_domain 3 10 = false.
Proof. exact conv_nonvacuous. Qed.

Example C16_build_task_dra_nonvacuous :
  let claims := ({[1%positive := [mkRaw 0 1%positive (2 ^ 62) ∅; mkRaw 0 1%positive (2 ^ 62) ∅]]}
                 : gmap positive (list rawreq)) in
  claims_ok claims /\
  exists r per, build_task_dra claims [1%positive] = BuildOk (Some (r, per)) /\
                count_of (r !! 1%positive) = max64.
Proof. exact build_task_dra_nonvacuous. Qed.

(* above 2^53: 2^63-1024 milli-cpu, 1 Ei of memory, 2^53+2 pods, 3*2^60 milli-bytes of ephemeral-storage lie
   in rt_domain and come back unchanged; 2^53+1 is not a float64 *)
Example C16_roundtrip_large_nonvacuous :
  rt_domain large_res = true /\
  bool_decide (new_resource (convert large_res) = (large_res, 2 ^ 53 + 2)) = true /\
  amount_ok (2 ^ 53 + 1) = false /\ f64 (2 ^ 53 + 1) = 2 ^ 53 /\ f64 (2 ^ 53 + 3) = 2 ^ 53 + 4.
Proof. exact roundtrip_large_nonvacuous. Qed.

(* the MaxFloat64 sentinel is outside the domain: the unchanged code (amd64) turns it into -2^63 *)
Example C16_convert_sentinel :
  let inf := (2 ^ 53 - 1) * 2 ^ 971 in
  convert (mkRes inf inf None) !! cpu_name = Some min64 /\ amount_ok inf = false /\
  fst (new_resource (convert (mkRes inf inf None))) = mkRes min64 min64 None.
Proof. exact convert_sentinel. Qed.
