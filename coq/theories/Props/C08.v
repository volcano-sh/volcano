(* Property C08 — the scheduler cache converges to the cluster state and
   snapshots are isolated.  The property theorems, each followed by Print
   Assumptions; a proof stands here when nothing else needs the fact, otherwise
   the theorem is [exact] of a lemma of C08/Lemmas*.v, C08/Prio.v or C08/Refuted.v.
   single_event_refines, history_preserves_inv, converges_to_final_objects,
   failed_bind_repaired / failed_evict_repaired in the comments are the clauses of
   the property as DESIGN.md lists them, not declarations.

   [Rep c] is CacheInv: every job entry is the ledger (membership, TotalRequest,
   Allocated) of exactly the held tasks that name it, every node entry /
   placeholder holds exactly the non-terminated tasks that name it and, when it
   has a Node object, Used / Releasing / Pipelined are the sums of their requests
   and Idle = Allocatable - Used; an entry exists for every task that names a
   job or sits on a node.  [Synced] says the held tasks are exactly
   NewTaskInfo(last delivered pod version). *)
From V Require Import Base.Codec Base.ResLemmas Sched.LedgerCodec.
From stdpp Require Import gmap.
From Coq Require Import ZArith Lia.
From V Require Import Base.Res Sched.LedgerModel Sched.LedgerInv C08.Model C08.Laws C08.Lemmas C08.Lemmas2 C08.Lemmas3 C08.Prio C08.Refuted.
Open Scope Z_scope.

(* --- the two task-level operations every pod handler is made of --- *)
Theorem C08_add_task_keeps_inv : forall eps c jo t,
  Rep c -> c_heap c !! t_id t = None -> task_wf t -> t_status t <> Binding -> job_arg jo t ->
  let c' := fst (add_task eps c jo t) in
  Rep c' /\ snd (add_task eps c jo t) = true /\
  c_heap c' = <[t_id t := t]> (c_heap c) /\
  jobs_ext (c_jobs c) (c_jobs c') /\ nodes_ext (c_nodes c) (c_nodes c') /\
  c' = with_hjn c (c_heap c') (c_jobs c') (c_nodes c').
Proof. exact add_task_rep. Qed.
Print Assumptions C08_add_task_keeps_inv.

Theorem C08_delete_task_keeps_inv : forall c jo t,
  Rep c -> c_heap c !! t_id t = Some t -> job_arg jo t ->
  let c' := delete_task c jo t in
  Rep c' /\ c_heap c' = delete (t_id t) (c_heap c) /\
  jobs_ext (c_jobs c) (c_jobs c') /\ nodes_ext (c_nodes c) (c_nodes c') /\
  c' = with_hjn c (c_heap c') (c_jobs c') (c_nodes c').
Proof. exact delete_task_rep. Qed.
Print Assumptions C08_delete_task_keeps_inv.

(* --- single_event_refines: each handler keeps CacheInv --- *)
Theorem C08_pod_event_keeps_inv : forall eps c p,
  Rep c -> Synced eps c -> store_ok c -> pod_ok p ->
  (forall old, c_store c !! p_id p = Some old -> upd_ok old p) ->
  let c' := handle eps c (EPod p) in
  Rep c' /\ Synced eps c' /\ store_ok c' /\ c_store c' = <[p_id p := p]> (c_store c) /\
  jobs_ext (c_jobs c) (c_jobs c') /\ nodes_ext (c_nodes c) (c_nodes c').
Proof. exact handle_pod_inv. Qed.
Print Assumptions C08_pod_event_keeps_inv.

Theorem C08_pod_delete_keeps_inv : forall eps c i,
  Rep c -> Synced eps c -> store_ok c ->
  let c' := handle eps c (EPodDel i) in
  Rep c' /\ Synced eps c' /\ store_ok c' /\ c_store c' = delete i (c_store c) /\
  jobs_ext (c_jobs c) (c_jobs c') /\ nodes_ext (c_nodes c) (c_nodes c').
Proof. exact handle_pod_del_inv. Qed.
Print Assumptions C08_pod_delete_keeps_inv.

Theorem C08_remove_node_keeps_inv : forall c nid, Rep c -> Rep (remove_node c nid).
Proof. exact remove_node_inv. Qed.
Print Assumptions C08_remove_node_keeps_inv.

Theorem C08_remove_node_keeps_tasks : forall c nid ni,
  c_nodes c !! nid = Some ni -> n_tasks ni <> ∅ ->
  exists ph, c_nodes (remove_node c nid) !! nid = Some ph /\ n_tasks ph = n_tasks ni /\ n_has_node ph = false.
Proof.
  intros c nid ni H Hne. unfold remove_node, remove_node_ledger. rewrite H. rewrite bool_decide_eq_false_2 by exact Hne.
  simpl. rewrite lookup_insert. eexists. split; [reflexivity|]. split; reflexivity.
Qed.
Print Assumptions C08_remove_node_keeps_tasks.

Theorem C08_set_pod_group_keeps_inv : forall c g, Rep c -> g_id g <> no_job -> Rep (set_pod_group c g).
Proof. exact set_pod_group_inv. Qed.
Print Assumptions C08_set_pod_group_keeps_inv.

Theorem C08_delete_pod_group_keeps_inv : forall c j, Rep c -> Rep (delete_pod_group c j).
Proof. exact delete_pod_group_inv. Qed.
Print Assumptions C08_delete_pod_group_keeps_inv.

(* --- histories: any order across objects, pods before their node or PodGroup,
       nodes removed under running pods --- *)
Theorem C08_history_keeps_inv : forall eps h c, Inv eps c -> hist_ok eps c h -> Inv eps (run eps c h).
Proof. exact history_inv. Qed.
Print Assumptions C08_history_keeps_inv.

(* Corollary (convergence of the pod part of the view): two such histories that
   deliver the same final pod versions end with the same held tasks
   ([view_determined] is what turns equal tasks into equal job and node entries) *)
Theorem C08_histories_agree : forall eps h h',
  hist_ok eps empty_cache h -> hist_ok eps empty_cache h' ->
  c_store (run eps empty_cache h) = c_store (run eps empty_cache h') ->
  c_heap (run eps empty_cache h) = c_heap (run eps empty_cache h').
Proof.
  intros eps h h' H H' Hs.
  destruct (history_inv eps h empty_cache (inv_empty eps) H) as (_ & S & _).
  destruct (history_inv eps h' empty_cache (inv_empty eps) H') as (_ & S' & _).
  unfold Synced in *. rewrite S, S', Hs. reflexivity.
Qed.
Print Assumptions C08_histories_agree.

(* --- AddOrUpdateNode / NodeInfo.SetNode: the ledger recomputed from the held tasks --- *)
Theorem C08_set_node_recomputes_ledger : forall T n N o,
  NodeRep T n N -> sc (no_alloc o) <> None -> (forall i t, T !! i = Some t -> task_wf t) ->
  NodeRep T n (node_set N o) /\ n_has_node (node_set N o) = true /\ n_alloc (node_set N o) = no_alloc o.
Proof. exact node_set_rep. Qed.
Print Assumptions C08_set_node_recomputes_ledger.

Theorem C08_add_or_update_node_keeps_inv : forall c o,
  Rep c -> sc (no_alloc o) <> None ->
  Rep (add_or_update_node c o) /\
  exists N, c_nodes (add_or_update_node c o) !! no_id o = Some N /\ n_has_node N = true /\ n_alloc N = no_alloc o.
Proof. exact add_or_update_node_inv. Qed.
Print Assumptions C08_add_or_update_node_keeps_inv.

Theorem C08_node_event_keeps_inv : forall c v,
  Rep c -> sc (nv_base v) <> None ->
  Rep (node_event c v) /\
  exists N, c_nodes (node_event c v) !! nv_id v = Some N /\ n_has_node N = true /\ n_alloc N = obj_alloc v.
Proof. exact node_event_inv. Qed.
Print Assumptions C08_node_event_keeps_inv.

(* --- converges_to_final_objects (main): all histories of pod / node (incl. remove and
       re-add) / PodGroup / queue notifications, any cross-object order --- *)
Theorem C08_converges_to_final_objects : forall eps h h',
  hist_ok eps empty_cache h -> hist_ok eps empty_cache h' ->
  o_pods (final_objects h) = o_pods (final_objects h') ->
  o_nodes (final_objects h) = o_nodes (final_objects h') ->
  let c := run eps empty_cache h in let c' := run eps empty_cache h' in
  c_heap c = c_heap c' /\
  (forall j cj, c_jobs c !! j = Some cj ->
     (j_tasks (cj_job cj) <> ∅ -> is_Some (c_jobs c' !! j)) /\
     (forall cj', c_jobs c' !! j = Some cj' -> job_equiv cj cj')) /\
  (forall n N, c_nodes c !! n = Some N ->
     (n_tasks N <> ∅ \/ n_has_node N = true -> is_Some (c_nodes c' !! n)) /\
     (forall N', c_nodes c' !! n = Some N' ->
        n_tasks N = n_tasks N' /\ n_has_node N = n_has_node N' /\
        (n_has_node N = true ->
         res_eqv (n_alloc N) (n_alloc N') /\ res_eqv (n_idle N) (n_idle N') /\ res_eqv (n_used N) (n_used N') /\
         res_eqv (n_releasing N) (n_releasing N') /\ res_eqv (n_pipelined N) (n_pipelined N')))).
Proof. exact converges_to_final_objects. Qed.
Print Assumptions C08_converges_to_final_objects.

(* --- failed binds / evictions are repaired by resynchronisation --- *)
Theorem C08_resync_repairs : forall eps c j st p,
  Rep c -> c_heap c !! t_id st = Some st -> t_job st = j -> j <> no_job ->
  api_pod c (t_id st) = Some p -> p_id p = t_id st -> pod_ok p ->
  let c' := fst (sync_task eps c j st) in
  Rep c' /\ snd (sync_task eps c j st) = true /\
  c_heap c' = <[t_id st := task_of_pod eps p]> (c_heap c).
Proof.
  intros eps c j st p R Hs Hj Hjn Hapi Hid Hok.
  destruct (sync_task_spec eps c j st R Hs Hj Hjn) as (R' & Ho & Hh & _).
  { intros q Hq. rewrite Hapi in Hq. injection Hq as <-. auto. }
  rewrite Hapi in Hh. auto.
Qed.
Print Assumptions C08_resync_repairs.

Theorem C08_resync_pod_gone : forall eps c j st,
  Rep c -> c_heap c !! t_id st = Some st -> t_job st = j -> j <> no_job ->
  api_pod c (t_id st) = None ->
  let c' := fst (sync_task eps c j st) in
  Rep c' /\ snd (sync_task eps c j st) = true /\ c_heap c' = delete (t_id st) (c_heap c).
Proof.
  intros eps c j st R Hs Hj Hjn Hapi.
  destruct (sync_task_spec eps c j st R Hs Hj Hjn) as (R' & Ho & Hh & _); [congruence|].
  rewrite Hapi in Hh. auto.
Qed.
Print Assumptions C08_resync_pod_gone.

(* --- the scheduling cycle's steps: every branch of AddBindTask (+ bind flow) and Evict --- *)
Theorem C08_bind_keeps_inv : forall eps c jid tid nid ok,
  Rep c -> cycle_post c (fst (bind_task eps c jid tid nid ok)) jid tid.
Proof. exact bind_task_rep. Qed.
Print Assumptions C08_bind_keeps_inv.

Theorem C08_evict_keeps_inv : forall eps c jid tid ok,
  Rep c -> cycle_post c (fst (evict_task eps c jid tid ok)) jid tid.
Proof. exact evict_task_rep. Qed.
Print Assumptions C08_evict_keeps_inv.

(* Theorem (processCleanupJob loop): a whole drain of DeletedJobs keeps the invariant, the held
   tasks, the informer store and the object-level attributes of every node entry *)
Theorem C08_drain_cleanup_keeps_inv : forall eps c,
  Inv2 eps c -> Inv2 eps (drain_cleanup c) /\ Ext c (drain_cleanup c) /\ c_heap (drain_cleanup c) = c_heap c.
Proof.
  intros eps c (R & So & Co). destruct (drain_cleanup_spec c) as (J & q & E & HR). specialize (HR R). rewrite E in *.
  split; [|split; [|reflexivity]]; [|split; [reflexivity|split; [reflexivity|apply nodes_ext_refl]]].
  split; [exact HR|]. split; [exact So|exact Co].
Qed.
Print Assumptions C08_drain_cleanup_keeps_inv.

(* if every task the cycle left different from its pod was queued, every held task now equals
   NewTaskInfo of its API object *)
Theorem C08_drain_resync_repairs : forall eps c,
  Inv2 eps c ->
  Inv2 eps (drain_resync eps c) /\ Ext c (drain_resync eps c) /\ c_errq (drain_resync eps c) = [] /\
  (Queued eps c -> SyncedSub eps (drain_resync eps c)).
Proof.
  intros eps c I. destruct (drain_resync_spec eps c I) as (I' & E' & Q' & P' & _). repeat (split; [assumption|]).
  intros HP i t Ht. rewrite (proj1 E'). destruct (P' i t Ht) as [Hl|[Ht0 Hnq]]; [exact Hl|].
  destruct (HP i t Ht0) as [Hl|Hq]; [exact Hl|contradiction].
Qed.
Print Assumptions C08_drain_resync_repairs.

(* --- single_event_refines and history_preserves_inv over the WHOLE alphabet --- *)
Theorem C08_step_preserves_inv : forall eps c e,
  Inv2 eps c -> step_ok2 e -> Post2 eps c (handle eps c e) e.
Proof. exact step_inv2. Qed.
Print Assumptions C08_step_preserves_inv.

Theorem C08_history_preserves_inv : forall eps h c, Inv2 eps c -> hist_ok2 h -> Inv2 eps (run eps c h).
Proof. exact history_preserves_inv. Qed.
Print Assumptions C08_history_preserves_inv.

(* Theorem: under any pattern of bind / evict failures, every task the cycle left different
   from its pod stays queued for a resync until it is resynced or its pod event arrives *)
Theorem C08_step_keeps_queued : forall eps c e,
  Inv2 eps c -> Queued eps c -> step_ok3 c e -> Queued eps (handle eps c e).
Proof.
  intros eps c e I HP Hok. destruct (step_ok3_4 eps c e Hok) as [Hok4 HA]. apply queued_queuedA. rewrite <- HA.
  apply step_queuedA; auto. apply queued_queuedA. exact HP.
Qed.
Print Assumptions C08_step_keeps_queued.

(* Theorem (failed_bind_repaired / failed_evict_repaired, every pattern of failures): after ANY
   history of informer events, refused or failed AddBindTask / Evict attempts (binder,
   pre-binder or evictor errors), pods vanishing from the API server, and drains -- in any
   interleaving -- one resynchronisation drain leaves the invariant, an empty errTasks queue,
   and every held task equal to NewTaskInfo of its last delivered pod version *)
Theorem C08_failures_repaired : forall eps h,
  hist_ok3 eps empty_cache h ->
  let c := run eps empty_cache (h ++ [EDrainResync]) in
  Inv2 eps c /\ SyncedSub eps c /\ c_errq c = [].
Proof.
  intros eps h Hok c. destruct (hist_ok3_4 eps h _ Hok) as [Hok4 HA].
  destruct (mixed_failures_repaired eps h Hok4) as (I & HS & _). fold c in I, HS. rewrite HA in HS.
  split; [exact I|]. split.
  - intros i t Ht. destruct (HS i t Ht) as [Hl|Ha]; [exact Hl|]. apply not_elem_of_empty in Ha. contradiction.
  - unfold c, run. rewrite fold_left_app. simpl.
    destruct (history_queuedA eps h empty_cache ∅ (inv2_empty eps) (queuedA_empty eps) cover_empty Hok4) as (I1 & _).
    exact (proj1 (proj2 (proj2 (drain_resync_spec eps _ I1)))).
Qed.
Print Assumptions C08_failures_repaired.

(* --- Snapshot() against an independent specification --- *)
Theorem C08_snapshot_meets_spec : forall eps c, Rep c -> SnapSpec c (take_snapshot eps c).
Proof.
  intros eps c R. destruct (snapshot_selection eps c) as (Hn & Hj & Hq & Hl). split.
  - exact Hq.
  - exact Hl.
  - intros n. rewrite Hn. destruct (c_nodes c !! n) as [N|]; [destruct (n_has_node N) eqn:Hh|].
    + split; [intros _; eauto|intros _; eauto].
    + split; [intros [x Hx]; discriminate|intros (N' & HN' & Hh'); congruence].
    + split; [intros [x Hx]; discriminate|intros (N' & HN' & _); discriminate].
  - intros j. rewrite Hj. destruct (c_jobs c !! j) as [cj|]; [destruct (in_snapshot c cj) eqn:Hin|].
    + unfold in_snapshot in Hin. apply andb_true_iff in Hin. destruct Hin as [Hin H3]. apply andb_true_iff in Hin.
      destruct Hin as [H1 H2]. rewrite bool_decide_eq_true in H2, H3.
      split; [intros _; exists cj; auto|intros _; eauto].
    + split; [intros [x Hx]; discriminate|]. intros (cj' & Hc & H1 & H2 & H3). injection Hc as <-.
      unfold in_snapshot in Hin. rewrite H1, (bool_decide_eq_true_2 _ H2), (bool_decide_eq_true_2 _ H3) in Hin. discriminate.
    + split; [intros [x Hx]; discriminate|intros (cj' & Hc & _); discriminate].
  - intros j sj Hs. rewrite Hj in Hs. destruct (c_jobs c !! j) as [cj|] eqn:Hcj; [|discriminate].
    destruct (in_snapshot c cj); [|discriminate]. injection Hs as <-. exists cj. split; [reflexivity|]. split.
    + unfold jmeta. simpl. rewrite clone_job_min. reflexivity.
    + simpl. exact (clone_job_rep c j cj R Hcj).
  - intros n N' Hs. rewrite Hn in Hs. destruct (c_nodes c !! n) as [N|] eqn:HN; [|discriminate].
    destruct (n_has_node N); [|discriminate]. injection Hs as <-. exists N. split; [reflexivity|].
    intros Hnb Hsc. pose proof (rp_nodes c R n N HN) as HR.
    rewrite (clone_node_is_node_set eps (c_heap c) n N _ HR); [|intros i t Ht; exact (proj1 (rp_wf c R i t Ht))|exact Hnb].
    apply (node_set_rep (c_heap c) n N (mkNodeObj (n_id N) (clone_alloc c n N)) HR Hsc).
    intros i t Ht. exact (proj2 (rp_wf c R i t Ht)).
  - intros i t Hs. simpl in Hs. apply map_filter_lookup_Some in Hs. exact (proj1 Hs).
  - intros i j sj Hs Hin. rewrite Hj in Hs. destruct (c_jobs c !! j) as [cj|] eqn:Hcj; [|discriminate].
    destruct (in_snapshot c cj) eqn:Hsnap; [|discriminate]. injection Hs as <-. simpl in Hin.
    (* the clone has the members of the cache's entry *)
    assert (Hin' : i ∈ j_tasks (cj_job cj)).
    { apply (jr_tasks _ _ _ (rp_jobs c R j cj Hcj)). apply (jr_tasks _ _ _ (clone_job_rep c j cj R Hcj)). exact Hin. }
    simpl. destruct (c_heap c !! i) as [t|] eqn:Ht.
    + apply map_filter_lookup_Some. split; [exact Ht|]. cbn [fst]. apply bool_decide_pack.
      exists j, cj. split; [|exact Hin']. apply map_filter_lookup_Some. auto.
    + apply map_filter_lookup_None. left. exact Ht.
Qed.
Print Assumptions C08_snapshot_meets_spec.

Theorem C08_clone_node_is_set_node : forall eps T n ni alloc,
  NodeRep T n ni -> (forall i t, T !! i = Some t -> t_id t = i) ->
  (forall i t, n_tasks ni !! i = Some t -> t_status t <> Binding) ->
  clone_node eps alloc ni = node_set ni (mkNodeObj (n_id ni) alloc).
Proof. exact clone_node_is_node_set. Qed.
Print Assumptions C08_clone_node_is_set_node.

Theorem C08_clone_job_keeps_ledger : forall c j cj,
  Rep c -> c_jobs c !! j = Some cj -> JobRep (c_heap c) j (clone_job (c_heap c) (cj_job cj)).
Proof. exact clone_job_rep. Qed.
Print Assumptions C08_clone_job_keeps_ledger.

(* Theorem: an accepted AddBindTask leaves the task Binding with the node's name, in the job's
   table and as the node's copy; the API outcome decides whether a resync is queued *)
Theorem C08_bind_accepted : forall eps c jid tid nid ok,
  Rep c -> snd (bind_task eps c jid tid nid ok) = RDone ->
  let c' := fst (bind_task eps c jid tid nid ok) in
  exists st ni', stored_task c (Some jid) tid = Some st /\
    let t' := set_node (set_status st Binding) (Some nid) in
    c_heap c' !! tid = Some t' /\ c_nodes c' !! nid = Some ni' /\ n_tasks ni' !! tid = Some t' /\
    (if ok then c_errq c' = c_errq c else (jid, tid) ∈ c_errq c').
Proof.
  intros eps c jid tid nid ok R. unfold bind_task.
  destruct (c_jobs c !! jid) as [cj|] eqn:Hcj; [|discriminate].
  destruct (stored_task c (Some jid) tid) as [st|] eqn:Hst; [|discriminate].
  destruct (stored_task_facts c jid tid st R Hst) as (_ & _ & Hs & Hid & _).
  destruct (c_nodes c !! nid) as [ni|] eqn:Hni; [|discriminate].
  destruct (n_has_node ni) eqn:Hhas; cbn [negb]; [|discriminate].
  pose proof (nr_id _ _ _ (rp_nodes c R nid ni Hni)) as Hidn.
  unfold job_set_status. cbn [fst snd].
  destruct (node_add eps ni (set_status st Binding)) as [[ni' t2]|err] eqn:Hadd; [|discriminate].
  destruct (node_add_result _ _ _ _ _ Hadd) as [Ht2 Hts]. rewrite Hidn in Ht2. change (t_id (set_status st Binding)) with (t_id st) in Hts.
  rewrite Hid in Hts. intros _. exists st, ni'. split; [reflexivity|]. cbv zeta. rewrite <- Ht2.
  destruct ok; cbn [fst]; simpl; rewrite !lookup_insert, Hts, lookup_insert; repeat split; auto.
  apply elem_of_enq. auto.
Qed.
Print Assumptions C08_bind_accepted.

Theorem C08_evict_accepted : forall eps c jid tid ok,
  Rep c -> snd (evict_task eps c jid tid ok) = RDone ->
  let c' := fst (evict_task eps c jid tid ok) in
  exists st n ni', stored_task c (Some jid) tid = Some st /\ t_node st = Some n /\
    let t' := set_status st Releasing in
    c_heap c' !! tid = Some t' /\ c_nodes c' !! n = Some ni' /\ n_tasks ni' !! tid = Some t' /\
    (if ok then c_errq c' = c_errq c else (jid, tid) ∈ c_errq c').
Proof.
  intros eps c jid tid ok R. unfold evict_task.
  destruct (c_jobs c !! jid) as [cj|] eqn:Hcj; [|discriminate].
  destruct (stored_task c (Some jid) tid) as [st|] eqn:Hst; [|discriminate].
  destruct (stored_task_facts c jid tid st R Hst) as (_ & _ & Hs & Hid & _).
  destruct (t_node st) as [n|] eqn:Hnode; [|discriminate].
  destruct (c_nodes c !! n) as [ni|] eqn:Hni; [|discriminate].
  pose proof (nr_id _ _ _ (rp_nodes c R n ni Hni)) as Hidn.
  destruct (cj_pg cj); cbn [negb]; [|discriminate].
  unfold job_set_status. cbn [fst snd].
  destruct (node_update eps ni (set_status st Releasing)) as [[ni' t2]|err] eqn:Hadd; [|discriminate].
  unfold node_update in Hadd. destruct (node_add_result _ _ _ _ _ Hadd) as [Ht2 Hts].
  assert (Hidr : n_id (node_remove ni (t_id (set_status st Releasing))) = n).
  { unfold node_remove. destruct (n_tasks ni !! _); [|exact Hidn]. destruct (n_has_node ni); [destruct (t_status t)|]; exact Hidn. }
  rewrite Hidr in Ht2. rewrite (set_node_same (set_status st Releasing) n Hnode) in Ht2. subst t2.
  change (t_id (set_status st Releasing)) with (t_id st) in Hts. rewrite Hid in Hts.
  intros _. exists st, n, ni'. split; [reflexivity|]. split; [exact Hnode|]. cbv zeta. rewrite Hidn.
  destruct ok; cbn [fst]; simpl; rewrite !lookup_insert, Hts, lookup_insert; repeat split; auto.
  apply elem_of_enq. auto.
Qed.
Print Assumptions C08_evict_accepted.

(* --- repair under ANY mix of successful / refused / failed binds and evictions, both
       directions --- *)
Theorem C08_step_keeps_cover : forall eps c e, Inv2 eps c -> Cover c -> step_ok2 e -> Cover (handle eps c e).
Proof. exact step_cover. Qed.
Print Assumptions C08_step_keeps_cover.

Theorem C08_mixed_failures_repaired : forall eps h,
  hist_ok4 eps empty_cache h ->
  let c := run eps empty_cache (h ++ [EDrainResync]) in
  let A := await_run eps empty_cache ∅ h in
  Inv2 eps c /\
  (forall i t, c_heap c !! i = Some t -> synced_at eps c i t \/ i ∈ A) /\
  (forall i p, c_store c !! i = Some p -> i ∈ c_gone c \/ is_Some (c_heap c !! i)).
Proof. exact mixed_failures_repaired. Qed.
Print Assumptions C08_mixed_failures_repaired.

(* Theorem (converges_to_final_objects, WHOLE alphabet -- the property's headline clause): two
   histories of informer notifications (pods, nodes incl. remove / re-add, PodGroups, queues),
   scheduling-cycle steps (AddBindTask / Evict with any outcome), pods vanishing from the API
   server and repair-queue drains, in any interleaving, each brought to quiescence, with the same
   final pods and node objects, leave caches with the same view.  "view = view built from the
   final objects alone" is the instance where h' is the canonical feed of the final objects;
   that this feed meets the hypotheses is shown for example histories only (C08_conv_hyps). *)
Theorem C08_converges_whole_alphabet : forall eps h h',
  hist_ok4 eps empty_cache h -> hist_ok4 eps empty_cache h' -> quiescent eps h -> quiescent eps h' ->
  o_pods (final_objects h) = o_pods (final_objects h') ->
  o_nodes (final_objects h) = o_nodes (final_objects h') ->
  let c := run eps empty_cache (h ++ [EDrainResync]) in
  let c' := run eps empty_cache (h' ++ [EDrainResync]) in
  c_heap c = c_heap c' /\
  (forall j cj, c_jobs c !! j = Some cj ->
     (j_tasks (cj_job cj) <> ∅ -> is_Some (c_jobs c' !! j)) /\
     (forall cj', c_jobs c' !! j = Some cj' -> job_equiv cj cj')) /\
  (forall n N, c_nodes c !! n = Some N ->
     (n_tasks N <> ∅ \/ n_has_node N = true -> is_Some (c_nodes c' !! n)) /\
     (forall N', c_nodes c' !! n = Some N' ->
        n_tasks N = n_tasks N' /\ n_has_node N = n_has_node N' /\
        (n_has_node N = true ->
         res_eqv (n_alloc N) (n_alloc N') /\ res_eqv (n_idle N) (n_idle N') /\ res_eqv (n_used N) (n_used N') /\
         res_eqv (n_releasing N) (n_releasing N') /\ res_eqv (n_pipelined N) (n_pipelined N')))).
Proof.
  intros eps h h' Hok Hok' Hq Hq' Hp Hn c c'.
  destruct (quiescent_history_synced eps h Hok Hq) as ((R & _) & S & HT).
  destruct (quiescent_history_synced eps h' Hok' Hq') as ((R' & _) & S' & HT').
  exact (synced_same_view eps c c' _ _ R R' S S' HT HT' Hp Hn).
Qed.
Print Assumptions C08_converges_whole_alphabet.

(* --- the view is a function of the held tasks and the node objects --- *)
Theorem C08_view_determined : forall c c',
  Rep c -> Rep c' -> c_heap c = c_heap c' ->
  (forall j cj, c_jobs c !! j = Some cj ->
     (j_tasks (cj_job cj) <> ∅ -> is_Some (c_jobs c' !! j)) /\
     (forall cj', c_jobs c' !! j = Some cj' -> job_equiv cj cj')) /\
  (forall n N, c_nodes c !! n = Some N ->
     (n_tasks N <> ∅ -> is_Some (c_nodes c' !! n)) /\
     (forall N', c_nodes c' !! n = Some N' -> node_equiv N N')).
Proof. exact view_determined. Qed.
Print Assumptions C08_view_determined.

(* --- PriorityClass notifications and the job priority Snapshot() computes --- *)
Theorem C08_priority_handlers_keep_inv : forall s e,
  PInv s -> PInv (phandle s e) /\
  ps_classes (phandle s e) = papply (ps_classes s) e /\ ps_pgclass (phandle s e) = papply_pg (ps_pgclass s) e.
Proof. exact phandle_inv. Qed.
Print Assumptions C08_priority_handlers_keep_inv.

Theorem C08_priority_determined : forall h h',
  fold_left papply h ∅ = fold_left papply h' ∅ ->
  fold_left papply_pg h ∅ = fold_left papply_pg h' ∅ ->
  forall j, job_priority (prun empty_ps h) j = job_priority (prun empty_ps h') j.
Proof.
  intros h h' Hc Hp j.
  destruct (prun_inv h empty_ps pinv_empty) as ((Hk & Hb) & E1 & E2).
  destruct (prun_inv h' empty_ps pinv_empty) as ((Hk' & Hb') & E1' & E2').
  simpl in E1, E2, E1', E2'.
  assert (Ec : ps_classes (prun empty_ps h) = ps_classes (prun empty_ps h')) by congruence.
  assert (Ep : ps_pgclass (prun empty_ps h) = ps_pgclass (prun empty_ps h')) by congruence.
  assert (Ed : ps_default (prun empty_ps h) = ps_default (prun empty_ps h')).
  { rewrite Ec in Hb. exact (is_best_unique _ _ _ Hb Hb'). }
  unfold job_priority, default_priority. rewrite Ec, Ep, Ed. reflexivity.
Qed.
Print Assumptions C08_priority_determined.

(* before fix ec03bcc: two classes marked globalDefault, the later one deleted *)
Theorem C08_priority_prefix_refuted :
  exists h, fold_left papply h ∅ = fold_left papply [PClass pcA] ∅ /\
            job_priority (prun_prefix empty_ps h) 1%positive <> job_priority (prun_prefix empty_ps [PClass pcA]) 1%positive.
Proof.
  exists [PClass pcA; PClass pcB; PClassDel 2%positive]. split.
  - apply (bool_decide_unpack _). vm_compute. exact I.
  - vm_compute. discriminate.
Qed.
Print Assumptions C08_priority_prefix_refuted.

Example C08_priority_fixed :
  job_priority (prun empty_ps [PClass pcA; PClass pcB; PClassDel 2%positive]) 1%positive = 10 /\
  job_priority (prun empty_ps [PClass pcB; PClass pcA]) 1%positive = 10.
Proof. exact priority_fixed. Qed.
Print Assumptions C08_priority_fixed.

(* --- finding F4: RemoveNode as it was before fix e29cb66 --- *)
Theorem C08_converges_prefix_refuted :
  exists h, view_eqb (run_prefix eps0 empty_cache h) (build eps0 (final_objects h)) = false /\
            cache_invb (run_prefix eps0 empty_cache h) = false.
Proof.
  exists f4_history. split; vm_compute; reflexivity.
Qed.
Print Assumptions C08_converges_prefix_refuted.

Theorem C08_remove_node_prefix_breaks_inv :
  exists c n, cache_invb c = true /\ cache_invb (remove_node_prefix c n) = false.
Proof.
  exists (run eps0 empty_cache [ENode node1; EPod pod1]), 1%positive. split; vm_compute; reflexivity.
Qed.
Print Assumptions C08_remove_node_prefix_breaks_inv.

(* --- finding repaired by d373588: setOversubscription as it was kept the amount of a
       removed oversubscription annotation --- *)
Theorem C08_converges_over_prefix_refuted :
  exists h, view_eqb (run_over_prefix eps0 empty_cache h) (build eps0 (final_objects h)) = false /\
            cache_invb (run_over_prefix eps0 empty_cache h) = true.
Proof.
  exists over_history. split; vm_compute; reflexivity.
Qed.
Print Assumptions C08_converges_over_prefix_refuted.

Example C08_over_history_fixed :
  view_eqb (run eps0 empty_cache over_history) (build eps0 (final_objects over_history)) = true.
Proof. exact over_history_fixed. Qed.
Print Assumptions C08_over_history_fixed.

(* --- non-vacuity --- *)
Example C08_f4_history_fixed :
  view_eqb (run eps0 empty_cache f4_history) (build eps0 (final_objects f4_history)) = true /\
  cache_invb (run eps0 empty_cache f4_history) = true.
Proof. exact f4_history_fixed. Qed.
Print Assumptions C08_f4_history_fixed.

Example C08_inv_empty : forall eps, Inv eps empty_cache.
Proof. exact inv_empty. Qed.
Print Assumptions C08_inv_empty.

Example C08_pod1_ok : pod_ok pod1.
Proof. exact pod1_ok. Qed.
Print Assumptions C08_pod1_ok.

(* the hypotheses of C08_converges_to_final_objects are met by the F4 history
   together with the canonical feed of its final objects (= build) *)
Example C08_f4_hist_ok :
  hist_ok eps0 empty_cache f4_history /\ hist_ok eps0 empty_cache (build_events (final_objects f4_history)).
Proof. exact f4_hist_ok. Qed.
Print Assumptions C08_f4_hist_ok.

Example C08_f4_same_final :
  o_pods (final_objects f4_history) = o_pods (final_objects (build_events (final_objects f4_history))) /\
  o_nodes (final_objects f4_history) = o_nodes (final_objects (build_events (final_objects f4_history))).
Proof. exact f4_same_final. Qed.
Print Assumptions C08_f4_same_final.

(* the hypotheses of C08_failures_repaired are met by a history with a failed bind, which
   really leaves the task Binding and queued until the drain *)
Example C08_fail_history_ok : hist_ok3 eps0 empty_cache fail_history.
Proof. exact fail_history_ok. Qed.
Print Assumptions C08_fail_history_ok.

Example C08_fail_history_effect :
  (t_status <$> c_heap (run eps0 empty_cache fail_history) !! 1%positive) = Some Binding /\
  c_errq (run eps0 empty_cache fail_history) = [(2%positive, 1%positive)] /\
  (t_status <$> c_heap (run eps0 empty_cache (fail_history ++ [EDrainResync])) !! 1%positive) = Some Pending.
Proof. exact fail_history_effect. Qed.
Print Assumptions C08_fail_history_effect.

(* the consistency law needs the copies held by the snapshot's nodes *)
Example C08_snapshot_law_needs_node_copies :
  law_snapshot c_w1 (take_snapshot eps0 c_w1) = false /\
  law_snapshot c_w1 (full_snapshot eps0 c_w1) = true /\
  law_snapshot (run eps0 empty_cache fail_history) (full_snapshot eps0 (run eps0 empty_cache fail_history)) = true.
Proof. exact snapshot_law_needs_node_copies. Qed.
Print Assumptions C08_snapshot_law_needs_node_copies.

(* non-vacuity with mixed outcomes and genuinely different orders *)
Example C08_mixed_history_ok : hist_ok4 eps0 empty_cache mixed_history.
Proof. exact mixed_history_ok. Qed.
Print Assumptions C08_mixed_history_ok.

Example C08_mixed_history_effect :
  let c := run eps0 empty_cache (mixed_history ++ [EDrainResync]) in
  (t_status <$> c_heap c !! 1%positive) = Some Binding /\
  (t_status <$> c_heap c !! 2%positive) = Some Pending /\
  await_run eps0 empty_cache ∅ mixed_history = {[1%positive]}.
Proof. exact mixed_history_effect. Qed.
Print Assumptions C08_mixed_history_effect.

Example C08_conv_hyps :
  hist_ok4 eps0 empty_cache conv_h1 /\ hist_ok4 eps0 empty_cache conv_h2 /\
  quiescent eps0 conv_h1 /\ quiescent eps0 conv_h2 /\
  o_pods (final_objects conv_h1) = o_pods (final_objects conv_h2) /\
  o_nodes (final_objects conv_h1) = o_nodes (final_objects conv_h2).
Proof. exact conv_hyps. Qed.
Print Assumptions C08_conv_hyps.

(* Theorem: the "nothing awaiting" half of [quiescent] follows from a condition on the history
   alone; the other half, [c_gone = ∅], is a condition on the final state of the environment
   (no pod deleted on the API server whose delete notification is still in flight) *)
Theorem C08_acked_nothing_awaiting : forall eps h,
  hist_ok4 eps empty_cache h -> fold_left pend_syn h ∅ = ∅ -> await_run eps empty_cache ∅ h = ∅.
Proof.
  intros eps h Hok Hs.
  pose proof (await_run_sub eps h empty_cache ∅ ∅ (inv2_empty eps) Hok ltac:(set_solver)) as H.
  rewrite Hs in H. set_solver.
Qed.
Print Assumptions C08_acked_nothing_awaiting.

(* a non-trivial instance: successful bind acknowledged by the pod notification with the node
   name, failed bind, pod gone from the API before its resync, its delete; also instantiates the
   hypothesis [snd (bind_task ...) = RDone] of C08_bind_accepted *)
Example C08_conv_hyps_nontrivial :
  hist_ok4 eps0 empty_cache conv_h3 /\ hist_ok4 eps0 empty_cache conv_h4 /\
  quiescent eps0 conv_h3 /\ quiescent eps0 conv_h4 /\
  fold_left pend_syn conv_h3 ∅ = ∅ /\
  o_pods (final_objects conv_h3) = o_pods (final_objects conv_h4) /\
  o_nodes (final_objects conv_h3) = o_nodes (final_objects conv_h4) /\
  snd (bind_task eps0 (run eps0 empty_cache [ENode node1; EPG pg2; EPod pod_pending; EPod pod_pending2]) 2 1 1 true) = RDone.
Proof. exact conv_hyps_nontrivial. Qed.
Print Assumptions C08_conv_hyps_nontrivial.

(* --- resync attempts whose GET fails: retried without bound; repair does not depend
       on how many attempts failed before the one that succeeds --- *)
Theorem C08_failed_get_keeps_everything : forall eps c (A : gset positive),
  Inv2 eps c -> QueuedA eps A c -> Cover c ->
  Inv2 eps (drain_resync_allfail c) /\ QueuedA eps A (drain_resync_allfail c) /\ Cover (drain_resync_allfail c).
Proof. exact allfail_keeps. Qed.
Print Assumptions C08_failed_get_keeps_everything.

(* Theorem (repair is independent of the number of failed attempts): after ANY number [n] of
   drains whose GETs all fail -- retryResyncTask re-queues the key every time, without bound --
   one drain with the API server reachable repairs exactly as if there had been none *)
Theorem C08_repaired_after_failed_attempts : forall eps c (A : gset positive) n,
  Inv2 eps c -> QueuedA eps A c -> Cover c ->
  let c' := drain_resync eps (Nat.iter n drain_resync_allfail c) in
  Inv2 eps c' /\ (forall i t, c_heap c' !! i = Some t -> synced_at eps c' i t \/ i ∈ A) /\ Cover c'.
Proof.
  intros eps c A n I HP HC.
  assert (H : Inv2 eps (Nat.iter n drain_resync_allfail c) /\ QueuedA eps A (Nat.iter n drain_resync_allfail c) /\
              Cover (Nat.iter n drain_resync_allfail c)).
  { induction n as [|n IH]; [auto|]. simpl. destruct IH as (I1 & P1 & C1). apply allfail_keeps; auto. }
  destruct H as (I1 & P1 & C1). exact (drain_repairs eps _ A I1 P1 C1).
Qed.
Print Assumptions C08_repaired_after_failed_attempts.

(* --- batches of bind contexts (BATCH_BIND_NUM > 1) --- *)
Theorem C08_bind_batch_is_fold : forall eps l c,
  same_but_errq (fst (bind_batch eps c l))
                (fold_left (fun c x => let '(j, t, n, f) := x in fst (bind_task eps c j t n (f =? 1))) l c).
Proof. exact bind_batch_is_fold. Qed.
Print Assumptions C08_bind_batch_is_fold.

(* --- the resync queue of a batch, histories with batches, law 105 --- *)
Theorem C08_bind_batch_errq : forall eps l c, faults_ok l ->
  let b := bind_batch eps c l in
  let f := bfold eps (fun f => f =? 1) l (c, []) in
  fst f = run eps c (batch_events l) /\
  same_but_errq (fst b) (fst f) /\ snd b = snd f /\
  (forall k, k ∈ c_errq (fst b) <-> k ∈ c_errq (fst f)) /\
  (forall k, k ∈ c_errq (fst b) <->
     k ∈ c_errq c \/ exists xr, xr ∈ zip l (snd b) /\ snd xr = RDone /\ bfault xr <> 1 /\ bkey xr = k).
Proof. exact bind_batch_errq. Qed.
Print Assumptions C08_bind_batch_errq.

Theorem C08_bind_batch_break_refuted :
  (forall eps c l, same_but_errq (fst (bind_batch_break eps c l)) (fst (bind_batch eps c l)) /\
                   snd (bind_batch_break eps c l) = snd (bind_batch eps c l)) /\
  exists c l, faults_ok l /\
    snd (bind_batch_break eps0 c l) = [RDone; RDone; RDone] /\
    exists k, k ∈ c_errq (run eps0 c (batch_events l)) /\ k ∈ c_errq (fst (bind_batch eps0 c l)) /\
              k ∉ c_errq (fst (bind_batch_break eps0 c l)).
Proof. exact (conj bind_batch_break_same_but_errq bind_batch_break_refuted). Qed.
Print Assumptions C08_bind_batch_break_refuted.

Theorem C08_bind_batch_keeps : forall eps l c A, faults_ok l ->
  Inv2 eps c -> QueuedA eps A c -> Cover c ->
  let c' := fst (bind_batch eps c l) in
  Inv2 eps c' /\ QueuedA eps (await_run eps c A (batch_events l)) c' /\ Cover c'.
Proof. exact bind_batch_keeps. Qed.
Print Assumptions C08_bind_batch_keeps.

(* Theorem (C08_batch_failures_repaired): histories of informer events, single binds, evictions,
   drains AND batches of bind contexts with any outcomes: after one more resync drain every held
   task equals NewTaskInfo(its pod) or belongs to a successful bind / eviction whose notification
   has not arrived; the invariant and the coverage hold *)
Theorem C08_batch_failures_repaired : forall eps h,
  bhist_ok eps empty_cache h ->
  let c := drain_resync eps (brun eps empty_cache h) in
  let A := bawait_run eps empty_cache ∅ h in
  Inv2 eps c /\
  (forall i t, c_heap c !! i = Some t -> synced_at eps c i t \/ i ∈ A) /\
  (forall i p, c_store c !! i = Some p -> i ∈ c_gone c \/ is_Some (c_heap c !! i)).
Proof.
  intros eps h Hok c A.
  destruct (bhistory_queuedA eps h empty_cache ∅ (inv2_empty eps) (queuedA_empty eps) cover_empty Hok) as (I & HQ & HC).
  exact (drain_repairs eps _ A I HQ HC).
Qed.
Print Assumptions C08_batch_failures_repaired.

Theorem C08_law105_meaning : forall c keys,
  law_failed_binds_queued c keys = true <-> forall k, k ∈ keys -> k ∈ c_errq c.
Proof. exact law_failed_binds_queued_spec. Qed.
Print Assumptions C08_law105_meaning.

Theorem C08_bind_batch_law105 : forall eps l c, faults_ok l ->
  let b := bind_batch eps c l in
  law_failed_binds_queued (fst b) (failed_keys l (snd b)) = true /\
  forall k, k ∈ c_errq (fst b) <-> k ∈ c_errq c \/ k ∈ failed_keys l (snd b).
Proof. exact bind_batch_law105. Qed.
Print Assumptions C08_bind_batch_law105.

