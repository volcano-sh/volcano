(* Property C03 -- queue capability and queue state are hard limits on allocation.
   The property theorems, each followed by Print Assumptions.  A proof stands here when nothing else
   needs the fact; otherwise the theorem is [exact] of a lemma of Sched/QueueLemmas*.v, C03/CapacityLemmas.v
   or C03/EnqueueLaw.v (imported without Import: its chain / is_leaf / chain_of would shadow CapacityModel's).

   Part A: the action skeleton (Sched/CycleModel.v: allocate attempts with keep / commit /
   discard, backfill) with the queue plugin's Allocatable vote on a per-queue record
   (open, limit): limit = proportion's deserved / capacity's realCapability.
   Part B: the votes of the capacity plugin (flat and hierarchical) and of the proportion plugin
   as functions of the plugins' per-queue records (C03/CapacityModel.v). *)
From V Require Import Base.ResLemmas.
From Coq Require Import Lia Bool.
From stdpp Require Import gmap.
From Coq Require Import ZArith List.
From V Require Import Base.Res Sched.LedgerModel Sched.StmtModel Sched.GangModel Sched.CycleModel
                      Sched.LedgerInvP Sched.LedgerCodec Sched.CycleCodec
                      Sched.LedgerLemmasSess Sched.QueueLemmasBase Sched.QueueLemmasReach Sched.QueueLemmas Sched.QueueLemmasHeld Sched.QueueLemmasEx Sched.QueueLemmasBuild
                      C03.CapacityModel C03.CapacityLemmas C03.ReclaimLaw C03.AliasModel C03.ReclaimModel.
From V Require C03.EnqueueLaw.
Import ListNotations.
Open Scope Z_scope.

(* ================= Part A ================= *)

(* a positive vote of the queue plugin: the queue is Open and, in every dimension the task
   requests (cpu / memory > 0, scalars > 0 other than pods), allocated + request <= limit *)
Theorem C03_queue_allocatable_bound : forall (w : world) (allocated : res) (q : qattr) (t : task),
  q_has_plugin q = true ->
  queue_allocatable w allocated q t = true ->
  q_open q = true /\
  forall d, requested (t_req t) d -> amt allocated d + amt (t_req t) d <= amt (q_limit q) d.
Proof. exact queue_allocatable_bound. Qed.
Print Assumptions C03_queue_allocatable_bound.

(* every skeleton step moves every queue's share by the requests behind the handler
   callbacks it triggered (newest first in [evs]): + on allocate / pipeline, - on undo.  Exact in
   cpu and memory; for scalars bounded from below by the signed sum and from above by the
   allocate events alone (Resource.sub drops the subtrahend's scalars on a nil map) *)
Theorem C03_events_balance : forall eps (w : world) (o : cop),
  world_ok w ->
  exists evs, balanced (w_sess w) (w_sess (fst (CycleModel.step eps w o))) evs.
Proof. exact events_balance. Qed.
Print Assumptions C03_events_balance.

(* ... and so for a whole cycle: share now = share at session open + placed - undone *)
Theorem C03_events_balance_run : forall eps (w : world) (ops : list cop),
  world_ok w ->
  exists evs, balanced (w_sess w) (w_sess (CycleModel.run eps w ops)) evs.
Proof.
  intros eps w ops Hw. destruct (run_reach eps (w_queues w) ops w eq_refl (world_ok_ids _ Hw) (proj2 (proj2 Hw))) as [Hr _].
  exact (reach_balanced _ _ _ Hr (world_ok_stat _ Hw)).
Qed.
Print Assumptions C03_events_balance_run.

(* the ledger form of the main theorem: for every world, every list of oracle choices (no hypothesis on the verdicts: a
   refused or malformed choice places nothing), after the run -- hence after every step: a prefix of a choice list is a choice list -- for every allocate callback [e] of this cycle, its task t, t's queue q with a
   queue plugin: q is Open unless t is best-effort, and in every dimension t requests the queue's
   share is within the limit *)
Theorem C03_queue_cap_invariant : forall eps (w : world) (ops : list cop),
  world_ok w ->
  let s' := w_sess (CycleModel.run eps w ops) in
  forall evs, hlog s' = evs ++ hlog (w_sess w) ->
  forall e t q qa,
    e ∈ evs -> he_alloc e = true -> heap s' !! he_task e = Some t -> queue_of s' t = Some q ->
    w_queues w !! q = Some qa -> q_has_plugin qa = true ->
    (t_best_effort t = false -> q_open qa = true) /\
    forall d, requested (t_req t) d -> amt (share_of s' q) d <= amt (q_limit qa) d.
Proof. exact queue_cap_invariant. Qed.
Print Assumptions C03_queue_cap_invariant.

(* ---- the property in its own words: the queue's PLACED PODS, not a ledger ----
   held s q d = sum of the requests, in dimension d, of the tasks of the heap whose job belongs to
   queue q and whose status is Allocated / Pipelined / Binding / Bound / Running.
   world_ok_held w = world_ok w, the bookkeeping invariant ledger_inv of LedgerInvP.v with C07's two
   side conditions (sess_wf, saved_ok), statements handed out fresh, and  cover : the handler
   ledger the vote reads is at least [held] when the session opens (OnSessionOpen sums exactly the
   pods in an allocated status).  [cover] is then an INVARIANT of every run: *)
Theorem C03_ledger_covers_placed : forall eps (w : world) (ops : list cop),
  world_ok_held w ->
  forall q d, held (w_sess (CycleModel.run eps w ops)) q d <= amt (share_of (w_sess (CycleModel.run eps w ops)) q) d.
Proof. exact ledger_covers_placed. Qed.
Print Assumptions C03_ledger_covers_placed.

(* MAIN, allocate / backfill skeleton: after every run (hence every prefix: a prefix of a choice
   list is a choice list), for every task placed in this cycle for a queue with a plugin, the queue
   is Open unless the task is best-effort, and in every dimension the task requests the requests of
   the queue's placed pods are within the queue's limit *)
Theorem C03_placed_pods_within_limit : forall eps (w : world) (ops : list cop),
  world_ok_held w ->
  let s' := w_sess (CycleModel.run eps w ops) in
  forall evs, hlog s' = evs ++ hlog (w_sess w) ->
  forall e t q qa,
    e ∈ evs -> he_alloc e = true -> heap s' !! he_task e = Some t -> queue_of s' t = Some q ->
    w_queues w !! q = Some qa -> q_has_plugin qa = true ->
    (t_best_effort t = false -> q_open qa = true) /\
    forall d, requested (t_req t) d -> held s' q d <= amt (q_limit qa) d.
Proof. exact placed_pods_within_limit. Qed.
Print Assumptions C03_placed_pods_within_limit.

(* the well-formedness survives the run: the theorem applies to the next cycle of the session *)
Theorem C03_world_ok_held_run : forall eps (w : world) (ops : list cop),
  world_ok_held w -> ledger_inv (w_sess (CycleModel.run eps w ops)) /\ fresh (CycleModel.run eps w ops) /\
                     cover (w_sess (CycleModel.run eps w ops)).
Proof.
  intros eps w ops Hw. destruct (run_held eps _ ops w (world_ok_held_inv w Hw)) as (Hg & _ & Hf & Hc).
  split; [exact (proj1 Hg)|split; assumption].
Qed.
Print Assumptions C03_world_ok_held_run.

(* a session in which no pod holds quota yet and whose ledger is empty is covered *)
Theorem C03_cover_no_holding : forall s,
  hshare s = ∅ -> (forall i t, heap s !! i = Some t -> holds (t_status t) = false) -> cover s.
Proof. exact cover_no_holding. Qed.
Print Assumptions C03_cover_no_holding.

(* world_ok in executable form (part of the guard hyp_guardb that C03/Entry.v evaluates on every cycle case) *)
Theorem C03_world_okb_sound : forall w, world_okb w = true -> world_ok w.
Proof. exact world_okb_ok. Qed.
Print Assumptions C03_world_okb_sound.

(* BestEffort = InitResreq.IsEmpty(): on the grid an empty request is 0 outside the pod count *)
Theorem C03_best_effort_requests_nothing : forall eps r,
  is_empty eps r = true -> granular eps r -> nonneg r -> forall d, d <> DSc pods_name -> amt r d = 0.
Proof.
  intros eps r. unfold is_empty. rewrite !andb_true_iff, !lt_spec, map_allb_spec. intros [[Hc Hm] Hs] Hg Hn d Hd.
  destruct (Hg d) as [H0|Hge]; [exact H0|]. exfalso. destruct d as [| |k]; [simpl in *; lia|simpl in *; lia|].
  assert (Hk : k <> pods_name) by congruence. clear Hd.
  change (eps <= sget r k) in Hge. pose proof (Hn DCpu) as Hn0. pose proof (Hg DCpu) as Hg0. simpl in Hn0, Hg0.
  destruct (scm r !! k) as [v|] eqn:E.
  - rewrite (sget_lookup _ _ _ E) in Hge. specialize (Hs k v E). unfold ignored in Hs.
    rewrite orb_true_iff, bool_decide_eq_true, lt_spec in Hs. destruct Hs; [congruence|lia].
  - rewrite (sget_none _ _ E) in Hge. lia.
Qed.
Print Assumptions C03_best_effort_requests_nothing.

(* ---- non-vacuity (one node of 4 cpu, queue 1 Open with limit 1 cpu, queue 2 Closed) ---- *)

Example C03_ex_world_ok : world_ok ex_w.
Proof. exact ex_world_ok. Qed.

Example C03_ex_first_placed :
  let s' := w_sess (CycleModel.run 2 ex_w ops1) in
  verdicts 2 ex_w ops1 = [VOk] /\ hlog s' = [ev1] /\
  binds s' = [(1%positive, Some 1%positive)] /\ amt (share_of s' 1) DCpu = 9600.
Proof. exact ex_first_placed. Qed.

Example C03_ex_second_refused :
  let s' := w_sess (CycleModel.run 2 ex_w ops2) in
  verdicts 2 ex_w ops2 = [VQueueRefuses 2] /\ hlog s' = [ev1] /\ amt (share_of s' 1) DCpu = 9600.
Proof. exact ex_second_refused. Qed.

Example C03_ex_closed_refused :
  verdicts 2 ex_w ops3 = [VQueueRefuses 3] /\ hlog (w_sess (CycleModel.run 2 ex_w ops3)) = [].
Proof. exact ex_closed_refused. Qed.

Example C03_ex_invariant_applies :
  let s' := w_sess (CycleModel.run 2 ex_w ops1) in amt (share_of s' 1) DCpu <= 16000.
Proof. exact ex_invariant_applies. Qed.
Print Assumptions C03_ex_invariant_applies.

(* ================= Part B: the votes of the real plugins, from their per-queue records =================
   Records (open, allocated, inqueue, elastic, deserved, realCapability, ancestors, #children) are
   arbitrary: nothing about the forest is assumed. *)

(* capacity AllocatableFn (flat: ancestors = []; hierarchical): Open, ready, leaf, and along the
   queue and EVERY ancestor, in every requested dimension, allocated + reserved + request <=
   realCapability *)
Theorem C03_capacity_allocatable_bound : forall hier ready qs reserved q req,
  cap_allocatable hier ready qs reserved q req = true ->
  exists r, qs !! q = Some r /\ qr_open r = true /\ ready = true /\
    (hier = true -> qr_children r = 0%nat) /\
    forall a, a = q \/ a ∈ qr_ancestors r ->
      exists ra c, qs !! a = Some ra /\ qr_realcap ra = Some c /\
        forall d, requested req d ->
          amt (qr_alloc ra) d + amt (reserved a) d + amt req d <= amt c d.
Proof. exact capacity_allocatable_bound. Qed.
Print Assumptions C03_capacity_allocatable_bound.

(* capacity / proportion JobEnqueueableFn: Permit with minResources (and a realCapability) =>
   minResources + allocated + inqueue - elastic <= realCapability along all ancestors *)
Theorem C03_enqueue_vote_bound : forall hier ready qs q minres,
  cap_enqueueable hier ready qs q minres = Permit ->
  exists r, qs !! q = Some r /\ ready = true /\ qr_open r = true /\
    (hier = true -> qr_children r = 0%nat) /\
    forall m, minres = Some m -> qr_realcap r <> None ->
      forall a, a = q \/ a ∈ qr_ancestors r ->
        exists ra c, qs !! a = Some ra /\ qr_realcap ra = Some c /\
          forall d, requested m d ->
            amt m d + amt (qr_alloc ra) d + amt (qr_inqueue ra) d - amt (qr_elastic ra) d <= amt c d.
Proof. exact enqueue_vote_bound. Qed.
Print Assumptions C03_enqueue_vote_bound.

Theorem C03_prop_enqueue_vote_bound : forall qs q minres,
  prop_enqueueable qs q minres = Permit ->
  exists r, qs !! q = Some r /\ qr_open r = true /\
    forall m c, minres = Some m -> qr_realcap r = Some c ->
      forall d, requested m d ->
        amt m d + amt (qr_alloc r) d + amt (qr_inqueue r) d - amt (qr_elastic r) d <= amt c d.
Proof.
  intros qs q minres. unfold prop_enqueueable. destruct (qs !! q) as [r|]; [|discriminate].
  destruct (qr_open r) eqn:Ho; simpl; [|discriminate]. intros H. exists r.
  split; [reflexivity|]. split; [exact Ho|]. intros m c -> Hc. rewrite Hc in H.
  destruct (le_dim (enq_total r m) c m) eqn:Hle; [|discriminate]. apply enq_total_bound. exact Hle.
Qed.
Print Assumptions C03_prop_enqueue_vote_bound.

(* with hierarchy only leaf queues receive pods or admissions *)
Theorem C03_only_leaf_receives : forall ready qs reserved q r req minres,
  qs !! q = Some r -> (0 < qr_children r)%nat ->
  cap_allocatable true ready qs reserved q req = false /\ cap_enqueueable true ready qs q minres = Reject.
Proof.
  intros ready qs reserved q r req minres Hq Hc. assert (is_leaf r = false) as Hl.
  { unfold is_leaf. apply bool_decide_eq_false. lia. }
  unfold cap_allocatable, cap_enqueueable. rewrite Hq, Hl. simpl. split.
  - rewrite andb_false_r. reflexivity.
  - destruct ready; reflexivity.
Qed.
Print Assumptions C03_only_leaf_receives.

(* a queue that is not Open gets no positive vote from either plugin *)
Theorem C03_closed_queue_receives_nothing : forall eps hier ready qs reserved q r,
  qs !! q = Some r -> qr_open r = false ->
  (forall req, cap_allocatable hier ready qs reserved q req = false) /\
  (forall reqs, cap_preemptive eps ready qs q reqs = false) /\
  (forall minres, cap_enqueueable hier ready qs q minres = Reject) /\
  (forall reqs, prop_allocatable qs q reqs = false) /\
  (forall minres, prop_enqueueable qs q minres = Reject).
Proof.
  intros eps hier ready qs reserved q r Hq Ho. unfold cap_allocatable, cap_preemptive, cap_enqueueable, prop_allocatable, prop_enqueueable.
  rewrite Hq, Ho. simpl. repeat split; intros.
  - rewrite andb_false_r. reflexivity.
  - destruct ready; [|reflexivity]. destruct (hier && negb (is_leaf r)); reflexivity.
Qed.
Print Assumptions C03_closed_queue_receives_nothing.

(* proportion AllocatableFn / PreemptiveFn: allocated + request <= deserved *)
Theorem C03_proportion_allocatable_bound : forall qs q req,
  prop_allocatable qs q [req] = true ->
  exists r, qs !! q = Some r /\ qr_open r = true /\
    forall d, requested req d -> amt (qr_alloc r) d + amt req d <= amt (qr_deserved r) d.
Proof. exact proportion_allocatable_bound. Qed.
Print Assumptions C03_proportion_allocatable_bound.

Theorem C03_proportion_preemptive_bound : forall qs q reqs,
  prop_allocatable qs q reqs = true ->
  exists r, qs !! q = Some r /\ qr_open r = true /\
    forall d, requested (total_req reqs) d -> amt (qr_alloc r) d + amt (total_req reqs) d <= amt (qr_deserved r) d.
Proof. exact proportion_preemptive_bound. Qed.
Print Assumptions C03_proportion_preemptive_bound.

(* capacity PreemptiveFn (the only guard of the reclaim action before /repo bd1440f) bounds the
   queue ITSELF only ... *)
Theorem C03_cap_preemptive_bound : forall eps ready qs q reqs,
  cap_preemptive eps ready qs q reqs = true ->
  exists r c, qs !! q = Some r /\ ready = true /\ qr_open r = true /\ qr_realcap r = Some c /\
    forall d, requested (total_req reqs) d -> amt (qr_alloc r) d + amt (total_req reqs) d <= amt c d.
Proof.
  intros eps ready qs q reqs. unfold cap_preemptive, le_dim_opt. destruct (qs !! q) as [r|]; [|discriminate].
  rewrite !andb_true_iff. intros [[Hr Ho] [Hle _]].
  destruct (qr_realcap r) as [c|] eqn:Hrc; [|discriminate]. exists r, c.
  repeat (split; [first [reflexivity|assumption]|]).
  intros d Hd. pose proof (le_dim_add_bound _ _ _ Hle d Hd) as B. rewrite amt_clone in B. exact B.
Qed.
Print Assumptions C03_cap_preemptive_bound.

(* ... and does not imply the bound for the ancestors: the defect reproduced on the real reclaim
   action (parent at its capability, task pipelined) and repaired by bd1440f, which makes reclaim
   ask Allocatable after the tentative evictions *)
Theorem C03_cap_preemptive_leaf_only_refuted :
  exists eps qs q req,
    cap_preemptive eps true qs q [req] = true /\
    cap_allocatable true true qs (fun _ => empty_res) q req = false.
Proof. exists 2, wit_qs, 4%positive, (cpu_res 2). split; vm_compute; reflexivity. Qed.
Print Assumptions C03_cap_preemptive_leaf_only_refuted.

(* proportion compares with deserved: with deserved > realCapability (guarantee > capability, a
   queue the admission webhook rejects) the vote allows more than the capability *)
Theorem C03_proportion_realcap_bound_refuted :
  exists qs q req r c,
    prop_allocatable qs q [req] = true /\ qs !! q = Some r /\ qr_realcap r = Some c /\
    requested req DCpu /\ amt c DCpu < amt (qr_alloc r) DCpu + amt req DCpu.
Proof.
  exists (list_to_map [(1%positive, mkQrec true (cpu_res 0) empty_res empty_res (cpu_res 64) (Some (cpu_res 32)) [] 0)]),
         1%positive, (cpu_res 48), (mkQrec true (cpu_res 0) empty_res empty_res (cpu_res 64) (Some (cpu_res 32)) [] 0), (cpu_res 32).
  vm_compute. repeat split; try reflexivity; discriminate.
Qed.
Print Assumptions C03_proportion_realcap_bound_refuted.

(* the executable law of the harness states the theorem's bound, and accepts the model's votes *)
Theorem C03_bound_okb_spec : forall req lhs rhs,
  bound_okb req lhs rhs = true <-> forall d, requested req d -> lhs d <= rhs d.
Proof. exact bound_okb_spec. Qed.
Print Assumptions C03_bound_okb_spec.

Theorem C03_law_alloc_accepts_model : forall (hier ready : bool) qs reserved q req,
  law_alloc_one (if hier then KHier else KFlat) qs reserved q req (cap_allocatable hier ready qs reserved q req) = true.
Proof.
  intros hier ready qs reserved q req. unfold law_alloc_one. destruct (cap_allocatable hier ready qs reserved q req) eqn:H; [|reflexivity].
  simpl. destruct (capacity_allocatable_bound _ _ _ _ _ _ H) as (r & Hq & Ho & _ & Hl & B).
  rewrite Hq, Ho. simpl.
  assert (leaf_ok (if hier then KHier else KFlat) r = true) as ->.
  { destruct hier; [|reflexivity]. simpl. unfold is_leaf. apply bool_decide_eq_true. auto. }
  simpl. assert (chain_of (if hier then KHier else KFlat) r q = chain r q) as -> by (destruct hier; reflexivity).
  apply forallb_forall. intros a Ha. apply elem_of_list_In in Ha. unfold chain in Ha.
  apply elem_of_app in Ha. destruct (B a) as (ra & c & Hra & Hc & Hb).
  { destruct Ha as [Ha|Ha]; [right; exact Ha|left]. apply elem_of_list_singleton in Ha. exact Ha. }
  rewrite Hra. assert (limit_of (if hier then KHier else KFlat) ra = Some c) as -> by (destruct hier; exact Hc).
  apply bound_okb_spec. exact Hb.
Qed.
Print Assumptions C03_law_alloc_accepts_model.

(* ---- the stored hierarchy: Go slices over shared backing arrays (second repaired defect) ---- *)

(* before /repo 6f3139f a vote for c1 rewrote the stored ancestors of g (child of c1's sibling) *)
Theorem C03_ancestors_aliasing_refuted :
  exists t q q', ancestors t q' = [qroot; q1; q2; q3; q4; q5; c2] /\
                 ancestors (fst (vote_prefix t q)) q' = [qroot; q1; q2; q3; q4; q5; c1].
Proof.
  exists witness_table, c1, g. split; vm_compute; reflexivity.
Qed.
Print Assumptions C03_ancestors_aliasing_refuted.

(* the repaired list construction leaves every stored ancestor list as it was and walks
   ancestors ++ [q] *)
Theorem C03_vote_fixed_preserves : forall (t : table) (q : positive),
  heap_wf (t_heap t) ->
  (forall q' s, t_anc t !! q' = Some s -> is_Some (h_arrays (t_heap t) !! sl_arr s)) ->
  forall q', ancestors (fst (vote_fixed t q)) q' = ancestors t q'.
Proof.
  intros t q Hwf Hst q'. unfold vote_fixed, ancestors, anc_of. simpl.
  destruct (t_anc t !! q') as [s|] eqn:E; [|reflexivity].
  exact (fresh_append_other (t_heap t) _ q s Hwf (Hst q' s E)).
Qed.
Print Assumptions C03_vote_fixed_preserves.

Theorem C03_vote_fixed_list : forall (t : table) (q : positive),
  snd (vote_fixed t q) = ancestors t q ++ [q].
Proof. intros t q. exact (fresh_append_view (t_heap t) (anc_of t q) q). Qed.
Print Assumptions C03_vote_fixed_list.

(* the law of the reclaim regression stream says what it should *)
Theorem C03_reclaim_law_spec : forall placed l, triples_ok placed l = true ->
  forall i a h c, nth_error l (3 * i) = Some a -> nth_error l (3 * i + 1) = Some h ->
                  nth_error l (3 * i + 2) = Some c ->
  a = h /\ (placed = true -> h <= c).
Proof.
  intros placed l H i. revert l H. induction i as [|i IH]; intros l H a h c Ha Hh Hc;
    destruct l as [|a0 [|h0 [|c0 r]]]; simpl in H; try discriminate.
  - apply andb_prop in H as [H12 H3]. apply andb_prop in H12 as [H1 H2].
    simpl in Ha, Hh, Hc. inversion Ha; inversion Hh; inversion Hc; subst.
    apply Z.eqb_eq in H1. split; [exact H1|]. intros ->. simpl in H2.
    apply andb_prop in H2 as [_ H2]. apply Z.leb_le, H2.
  - apply andb_prop in H as [H12 H3].
    replace (3 * S i)%nat with (S (S (S (3 * i)))) in Ha by lia.
    replace (3 * S i + 1)%nat with (S (S (S (3 * i + 1)))) in Hh by lia.
    replace (3 * S i + 2)%nat with (S (S (S (3 * i + 2)))) in Hc by lia.
    simpl in Ha, Hh, Hc. exact (IH r H3 a h c Ha Hh Hc).
Qed.
Print Assumptions C03_reclaim_law_spec.

(* ---- non-vacuity, Part B: root > gp (realCapability 4, holds 3) > p > leaf ---- *)
Example C03_ex_grandparent_binds :
  queue_fits ex_qs (fun _ => empty_res) (cpu_res 2) 4%positive = true /\
  queue_fits ex_qs (fun _ => empty_res) (cpu_res 2) 3%positive = true /\
  queue_fits ex_qs (fun _ => empty_res) (cpu_res 2) 2%positive = false /\
  cap_allocatable true true ex_qs (fun _ => empty_res) 4%positive (cpu_res 2) = false.
Proof. exact ex_grandparent_binds. Qed.

Example C03_ex_accepted :
  cap_allocatable true true ex_qs (fun _ => empty_res) 4%positive (cpu_res 1) = true /\
  cap_enqueueable true true ex_qs 4%positive (Some (cpu_res 1)) = Permit /\
  cap_enqueueable true true ex_qs 4%positive (Some (cpu_res 2)) = Reject /\
  cap_allocatable true true ex_qs (fun _ => empty_res) 3%positive (cpu_res 1) = false.
Proof. exact ex_accepted. Qed.

(* ---- what the enqueue law (119) counts, recomputed from the PodGroup objects and the pods ---- *)

(* an admitted (Inqueue) PodGroup counts for exactly its minResources in every dimension they list,
   whether or not its pods exist yet, when it has no scheduling-gated pod *)
Theorem C03_counted_inqueue_is_min : forall (j : EnqueueLaw.ejob) (d : nat) (m : Z),
  EnqueueLaw.min_at j d = Some m -> 0 <= nth d (EnqueueLaw.ej_alloc j) 0 -> nth d (EnqueueLaw.ej_gated j) 0 = 0 ->
  EnqueueLaw.counted 2 j d = m.
Proof. intros j d m Hm Ha Hg. unfold EnqueueLaw.counted. rewrite Hm, Hg. simpl. lia. Qed.
Print Assumptions C03_counted_inqueue_is_min.

(* a job without minResources, or a dimension its minResources do not list, counts for nothing in
   the enqueue vote: all of that allocation is "elastic" (see the notes: a literal reading of the
   property text would count it) *)
Theorem C03_counted_unlisted : forall (phase : Z) (j : EnqueueLaw.ejob) (d : nat),
  EnqueueLaw.min_at j d = None -> 0 <= nth d (EnqueueLaw.ej_alloc j) 0 -> EnqueueLaw.counted phase j d = 0.
Proof. intros phase j d Hm Ha. unfold EnqueueLaw.counted. rewrite Hm. lia. Qed.
Print Assumptions C03_counted_unlisted.

(* ---- the placement decision of the reclaim action (no reclaim action skeleton exists in
   CycleModel.v; this is the decision reclaim.go takes after /repo bd1440f) ---- *)

(* evictions or not: a reclaim placement is preceded by the Allocatable vote on the records as they
   are after the tentative evictions, hence the bound for the queue and every ancestor *)
Theorem C03_reclaim_placement_bound : forall hier ready qs_after reserved q req fits_node,
  reclaim_pipelines hier ready qs_after reserved q req fits_node = true ->
  exists r, qs_after !! q = Some r /\ qr_open r = true /\ ready = true /\
    (hier = true -> qr_children r = 0%nat) /\
    forall a, a = q \/ a ∈ qr_ancestors r ->
      exists ra c, qs_after !! a = Some ra /\ qr_realcap ra = Some c /\
        forall d, requested req d ->
          amt (qr_alloc ra) d + amt (reserved a) d + amt req d <= amt c d.
Proof.
  intros hier ready qs_after reserved q req fits_node.
  unfold reclaim_pipelines. intros H. apply andb_prop in H as [_ H].
  exact (capacity_allocatable_bound _ _ _ _ _ _ H).
Qed.
Print Assumptions C03_reclaim_placement_bound.

(* repeating the vote only after an eviction is not enough with hierarchical queues *)
Theorem C03_reclaim_skip_vote_refuted :
  exists eps qs q req ra c,
    cap_preemptive eps true qs q [req] = true /\
    reclaim_pipelines_skip false true true qs (fun _ => empty_res) q req true = true /\
    qs !! 2%positive = Some ra /\ 2%positive ∈ qr_ancestors (default ra (qs !! q)) /\
    qr_realcap ra = Some c /\ amt c DCpu < amt (qr_alloc ra) DCpu + amt req DCpu.
Proof.
  exists 2, wit_qs, 4%positive, (cpu_res 2),
         (mkQrec true (cpu_res 10) empty_res empty_res (cpu_res 10) (Some (cpu_res 10)) [1%positive] 2), (cpu_res 10).
  repeat split; try (vm_compute; reflexivity).
  vm_compute. apply elem_of_list_In. simpl. auto.
Qed.
Print Assumptions C03_reclaim_skip_vote_refuted.

(* non-vacuity of the placed-pods theorems: a session that starts with a NON-EMPTY ledger and a pod holding quota (the world
   after the first cycle; its well-formedness is derived from the invariant theorems), a second
   cycle refused at 19200 > 16000, and a counter-world (same session, ledger forgotten): accepted by
   world_ok, rejected by world_ok_held *)
Example C03_ex_world_ok_held : world_ok_held ex_w.
Proof. exact ex_world_ok_held. Qed.
Example C03_ex_w1_ok_held : world_ok_held ex_w1.
Proof. exact ex_w1_ok_held. Qed.
Example C03_ex_w1_ledger : held (w_sess ex_w1) 1 DCpu = 9600 /\ amt (share_of (w_sess ex_w1) 1) DCpu = 9600.
Proof. exact ex_w1_ledger. Qed.
Example C03_ex_second_cycle :
  verdicts 2 ex_w1 ops4 = [VQueueRefuses 2] /\ held (w_sess (CycleModel.run 2 ex_w1 ops4)) 1 DCpu = 9600.
Proof. exact ex_second_cycle. Qed.
Example C03_ex_forgotten_ledger_rejected :
  world_ok ex_w1_forgotten /\ (~ cover (w_sess ex_w1_forgotten)) /\
  (verdicts 2 ex_w1_forgotten ops4 = [VOk]) /\
  (held (w_sess (CycleModel.run 2 ex_w1_forgotten ops4)) 1 DCpu = 19200).
Proof. exact ex_forgotten_ledger_rejected. Qed.
Example C03_ex_placed_within_limit : held (w_sess (CycleModel.run 2 ex_w ops1)) 1 DCpu <= 16000.
Proof. exact ex_placed_within_limit. Qed.
Print Assumptions C03_ex_placed_within_limit.

(* backfill asks no vote: a best-effort pod is placed for a Closed queue *)
Example C03_ex_backfill_places_in_closed_queue :
  let s' := w_sess (CycleModel.run 2 ex_w_be [CBackfill 1 1]) in
  verdicts 2 ex_w_be [CBackfill 1 1] = [VOk] /\
  (exists t, heap s' !! 1%positive = Some t /\ t_best_effort t = true /\ t_status t = Binding /\
             queue_of s' t = Some 2%positive) /\
  (exists qa, w_queues ex_w_be !! 2%positive = Some qa /\ q_open qa = false).
Proof. exact ex_backfill_places_in_closed_queue. Qed.

(* the literal enqueue clause ("together with what the queue has already allocated") is false
   of both plugins: the elastic part of the allocation is not counted *)
Theorem C03_enqueue_literal_refuted :
  exists qs q m r c,
    prop_enqueueable qs q (Some m) = Permit /\ cap_enqueueable false true qs q (Some m) = Permit /\
    qs !! q = Some r /\ qr_realcap r = Some c /\
    amt c DCpu < amt m DCpu + amt (qr_alloc r) DCpu + amt (qr_inqueue r) DCpu.
Proof.
  exists elastic_qs, 1%positive, (cpu_res 4),
         (mkQrec true (cpu_res 4) empty_res (cpu_res 4) (cpu_res 4) (Some (cpu_res 4)) [] 0), (cpu_res 4).
  vm_compute. repeat split; try reflexivity.
Qed.
Print Assumptions C03_enqueue_literal_refuted.

(* what law 110 means, as a Prop *)
Theorem C03_law_alloc_one_sound : forall k qs reserved q req,
  law_alloc_one k qs reserved q req true = true ->
  exists r, qs !! q = Some r /\ qr_open r = true /\ leaf_ok k r = true /\
    forall a, a ∈ chain_of k r q ->
      exists ra c, qs !! a = Some ra /\ limit_of k ra = Some c /\
        forall d, requested req d -> amt (qr_alloc ra) d + amt (reserved a) d + amt req d <= amt c d.
Proof.
  intros k qs reserved q req. unfold law_alloc_one. cbn [negb orb]. destruct (qs !! q) as [r|]; [|discriminate].
  rewrite !andb_true_iff, forallb_forall. intros [[Ho Hl] Hall].
  exists r. split; [reflexivity|]. split; [exact Ho|]. split; [exact Hl|]. intros a Ha. apply elem_of_list_In in Ha.
  specialize (Hall a Ha). destruct (qs !! a) as [ra|]; [|discriminate].
  destruct (limit_of k ra) as [c|] eqn:El; [|discriminate].
  exists ra, c. split; [reflexivity|]. split; [exact El|]. intros d Hd.
  exact (proj1 (bound_okb_spec _ _ _) Hall d Hd).
Qed.
Print Assumptions C03_law_alloc_one_sound.

(* the construction of the ancestor lists aliased too (repaired by /repo 675735a): registering
   a child of c1 rewrites the parent recorded for g, child of c2; the repaired construction records
   the parent's chain followed by the parent and touches no other queue *)
Theorem C03_construction_aliasing_refuted :
  ancestors witness_table g = [qroot; q1; q2; q3; q4; q5; c2] /\
  ancestors (add_queue witness_table hq (Some c1)) g = [qroot; q1; q2; q3; q4; q5; c1].
Proof.
  split; vm_compute; reflexivity.
Qed.
Print Assumptions C03_construction_aliasing_refuted.

Theorem C03_add_queue_fixed_spec : forall (t : table) (q p : positive),
  table_wf t ->
  let t' := add_queue_fixed t q (Some p) in
  ancestors t' q = ancestors t p ++ [p] /\
  (forall q', q' <> q -> ancestors t' q' = ancestors t q') /\
  table_wf t'.
Proof.
  intros t q p [Hwf Hst]. cbv zeta. unfold add_queue_fixed, ancestors, anc_of. split; [|split; [|split]].
  - simpl. rewrite lookup_insert. exact (fresh_append_view (t_heap t) _ p).
  - intros q' Hne. simpl. rewrite lookup_insert_ne by congruence.
    destruct (t_anc t !! q') as [s|] eqn:E; [|reflexivity].
    exact (fresh_append_other (t_heap t) _ p s Hwf (Hst q' s E)).
  - exact (fresh_append_wf (t_heap t) _ p Hwf).
  - intros q' s Hs. simpl in *. destruct (Pos.eq_dec q' q) as [->|Hne].
    + rewrite lookup_insert in Hs. inversion Hs; subst s. simpl. rewrite lookup_insert. eauto.
    + rewrite lookup_insert_ne in Hs by congruence. destruct (Hst q' s Hs) as [l Hl].
      rewrite lookup_insert_ne; [eauto|]. intros Heq. specialize (Hwf _ (ex_intro _ l Hl)). rewrite <- Heq in Hwf. lia.
Qed.
Print Assumptions C03_add_queue_fixed_spec.

(* the hypotheses of the main theorem hold of every session built from a cluster
   description that passes a decidable guard (distinct task ids, no Pipelined task at session open,
   the executable invariants); law 121 evaluates the guard on every generated cycle case.
   cover_build: the ledger `build` sets up IS the sum over the pods in an allocated status. *)
Theorem C03_cover_build : forall eps ns js tsp,
  base.NoDup (map ts_id tsp) -> Forall (fun t => ts_status t <> Pipelined) tsp ->
  forall q d, phi (build eps ns js tsp) q d = 0.
Proof. exact cover_build. Qed.
Print Assumptions C03_cover_build.

Theorem C03_built_sessions_satisfy_hypotheses : forall c : cycle_case,
  hyp_guardb c = true -> world_ok_held (world_of c).
Proof. exact built_sessions_satisfy_hypotheses. Qed.
Print Assumptions C03_built_sessions_satisfy_hypotheses.

(* the guard is needed: `build` (like proportion.go:146 / capacity.go:1115) sums api.AllocatedStatus
   only; a task Pipelined at session open holds quota the ledger does not know about *)
Theorem C03_build_pipelined_not_covered :
  hyp_guardb ex_case_pip = false /\ world_okb (world_of ex_case_pip) = true /\
  phi (w_sess (world_of ex_case_pip)) 1 DCpu = -9600 /\
  held (w_sess (CycleModel.run 2 (world_of ex_case_pip) [CAttempt 1 [(2%positive, 1%positive)]])) 1 DCpu = 19200.
Proof.
  vm_compute. repeat split; reflexivity.
Qed.
Print Assumptions C03_build_pipelined_not_covered.

(* with limit <= capability in the dimensions a [limits] predicate marks, the placed pods stay within
   the capability there *)
Theorem C03_placed_pods_within_capability : forall eps (w : world) (ops : list cop)
    (capability : positive -> res) (limits : positive -> dim -> Prop),
  world_ok_held w ->
  (forall q qa d, w_queues w !! q = Some qa -> limits q d -> amt (q_limit qa) d <= amt (capability q) d) ->
  let s' := w_sess (CycleModel.run eps w ops) in
  forall evs, hlog s' = evs ++ hlog (w_sess w) ->
  forall e t q qa,
    e ∈ evs -> he_alloc e = true -> heap s' !! he_task e = Some t -> queue_of s' t = Some q ->
    w_queues w !! q = Some qa -> q_has_plugin qa = true ->
    forall d, requested (t_req t) d -> limits q d -> held s' q d <= amt (capability q) d.
Proof.
  intros eps w ops capability limits Hw Hcap s' evs Hl e t q qa Hin Ha Hh Hq HQ Hpl d Hd Hlim.
  destruct (placed_pods_within_limit eps w ops Hw evs Hl e t q qa Hin Ha Hh Hq HQ Hpl) as [_ Hb].
  specialize (Hb d Hd). specialize (Hcap q qa d HQ Hlim). fold s' in Hb. lia.
Qed.
Print Assumptions C03_placed_pods_within_capability.

(* a session that OPENS with a Running pod (hypotheses by the theorem above), a second pod
   placed on top of it, and the main theorem instantiated on that placement *)
Example C03_ex_run_ok_held : world_ok_held (world_of (ex_case_run 32000)).
Proof. exact ex_run_ok_held. Qed.
Example C03_ex_second_pod_placed :
  let w := world_of (ex_case_run 32000) in
  let s' := w_sess (CycleModel.run 2 w ops5) in
  held (w_sess w) 1 DCpu = 9600 /\ verdicts 2 w ops5 = [VOk] /\
  hlog s' = [mkHev true 2 Allocated (Some 1%positive)] /\ held s' 1 DCpu = 19200.
Proof. exact ex_second_pod_placed. Qed.
Example C03_ex_second_pod_within_limit :
  held (w_sess (CycleModel.run 2 (world_of (ex_case_run 32000)) ops5)) 1 DCpu <= 32000.
Proof. exact ex_second_pod_within_limit. Qed.
Print Assumptions C03_ex_second_pod_within_limit.
Example C03_ex_second_pod_refused :
  verdicts 2 (world_of (ex_case_run 16000)) ops5 = [VQueueRefuses 2].
Proof. exact ex_second_pod_refused. Qed.

(* ---- law 119 as Props ---- *)

(* what an admitted PodGroup counts for WITH scheduling-gated pods: the allocated part up
   to minResources, plus the unallocated rest of minResources minus what the gated pods request *)
Theorem C03_counted_inqueue_gated : forall (j : EnqueueLaw.ejob) (d : nat) (m : Z),
  EnqueueLaw.min_at j d = Some m -> 0 <= nth d (EnqueueLaw.ej_alloc j) 0 ->
  EnqueueLaw.counted 2 j d =
  Z.min (nth d (EnqueueLaw.ej_alloc j) 0) m +
  Z.max (Z.max (m - nth d (EnqueueLaw.ej_alloc j) 0) 0 - nth d (EnqueueLaw.ej_gated j) 0) 0.
Proof. exact EnqueueLaw.counted_inqueue_gated. Qed.
Print Assumptions C03_counted_inqueue_gated.

(* a positive Allocatable vote that passes law 119: Open, no child queue (from the Queue objects),
   and along the chain candidate + allocated pods of the subtree <= capability *)
Theorem C03_law_enqueue_alloc_sound : forall kind qs js j,
  EnqueueLaw.law_enqueue kind qs js = true -> In j js -> EnqueueLaw.ej_avote j = 1 ->
  let hier := (kind mod 10) =? 2 in
  EnqueueLaw.open_leaf hier qs (EnqueueLaw.ej_queue j) = true /\
  forall a, In a (EnqueueLaw.chain hier qs (EnqueueLaw.ej_queue j)) ->
    exists qa, EnqueueLaw.find_queue qs a = Some qa /\
      forall d c, In d EnqueueLaw.dims -> nth d (EnqueueLaw.eq_cap qa) None = Some c ->
        0 < nth d (EnqueueLaw.ej_cand j) 0 ->
        nth d (EnqueueLaw.ej_cand j) 0 + EnqueueLaw.alloc_sum hier qs js a d <= c.
Proof.
  intros kind qs js j. unfold EnqueueLaw.law_enqueue. cbv zeta. rewrite !andb_true_iff, !forallb_forall.
  intros [[H1 H2] _] Hin Hv.
  specialize (H1 j Hin). specialize (H2 j Hin). rewrite Hv in H1, H2. simpl in H1, H2.
  split; [exact H2|]. apply EnqueueLaw.place_within_spec, H1.
Qed.
Print Assumptions C03_law_enqueue_alloc_sound.

Theorem C03_law_enqueue_leaf_sound : forall kind qs js j l,
  EnqueueLaw.law_enqueue kind qs js = true -> In j js -> EnqueueLaw.ej_min j = Some l ->
  EnqueueLaw.ej_vote j = 1 -> EnqueueLaw.ej_before j = 1 ->
  EnqueueLaw.open_leaf ((kind mod 10) =? 2) qs (EnqueueLaw.ej_queue j) = true.
Proof.
  intros kind qs js j l. unfold EnqueueLaw.law_enqueue. cbv zeta. rewrite !andb_true_iff, !forallb_forall.
  intros [_ H3] Hin Hm Hv Hb.
  specialize (H3 j Hin). rewrite Hm, Hv, Hb in H3. simpl in H3.
  apply andb_prop in H3 as [H3 _]. apply andb_prop in H3 as [H3 _]. exact H3.
Qed.
Print Assumptions C03_law_enqueue_leaf_sound.

(* the gated deduction is the code's reading (DeductSchGatedResources), weaker than the
   property text: the observation of the real plugins on the strict-reading witness passes law 119
   although the admitted minResources counted in full do not fit *)
Theorem C03_enqueue_gated_strict_reading_refuted :
  EnqueueLaw.law_enqueue 1 EnqueueLaw.gated_strict_qs EnqueueLaw.gated_strict_js = true /\
  4000 < 2000 + 3000.
Proof.
  split; [vm_compute; reflexivity|lia].
Qed.
Print Assumptions C03_enqueue_gated_strict_reading_refuted.
