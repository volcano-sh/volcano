(* C04 - preemption and reclaim only evict eligible victims, and never in vain.
   The property theorems, each followed by Print Assumptions.  A proof stands here when nothing else needs the
   fact; otherwise the theorem is [exact] of a lemma of C04/VoteLemmas.v, C04/Eligible.v or C04/PlacedRun.v.  The
   lemmas the proofs use are in those files and in C04/CapLemmas.v, C04/Frame.v, C04/Lemmas.v.  Every theorem is
   stated for ALL sessions, ALL plugin tier layouts and ALL oracle choice lists (DESIGN 4.4); eps is the comparison
   tolerance (any integer). *)
From V Require Base.ResLemmas.
From Coq Require Import Lia.
From V Require Import C11.Model C11.Spec C11.Lemmas.
From stdpp Require Import gmap.
From Coq Require Import ZArith.
From V Require Import Base.Codec Base.Res Sched.LedgerModel Sched.StmtModel Sched.GangModel Sched.LedgerCodec
                      C04.Model C04.Frame C04.VoteLemmas C04.CapLemmas C04.Lemmas C04.Eligible C04.Placed C04.PlacedRun C04.Codec.
Open Scope Z_scope.

(* ---------- the votes ---------- *)

(* gang: after removing ALL returned victims of a job, its ready count is still >= MinAvailable *)
Theorem gang_vote_keeps_min : forall (s : sess) (l : list task) (jid : positive) (j : job),
  jobs s !! jid = Some j ->
  let k := Z.of_nat (length (filter (fun c : task => t_job c = jid) (gang_vote s l))) in
  0 < k -> j_min j <= ready_num (j_index j) - k.
Proof. exact VoteLemmas.gang_vote_keeps_min. Qed.
Print Assumptions gang_vote_keeps_min.

(* priority: strictly lower job priority, or same job and strictly lower task priority *)
Theorem priority_vote_strict : forall (E : env) (s : sess) (p c : task) (l : list task),
  c ∈ prio_vote E s p l ->
  c ∈ l /\ ((t_job c <> t_job p /\ jprio E (t_job c) < jprio E (t_job p)) \/
            (t_job c = t_job p /\ t_prio c < t_prio p)).
Proof. exact prio_vote_strict. Qed.
Print Assumptions priority_vote_strict.

(* conformance: exactly the candidates that are not critical / kube-system *)
Theorem conformance_vote : forall (E : env) (c : task) (l : list task),
  c ∈ conf_vote E l <-> c ∈ l /\ critical E c = false.
Proof. exact conf_vote_spec. Qed.
Print Assumptions conformance_vote.

(* proportion: a victim is taken only while its queue's allocation, less the victims already taken
   from that queue, is NOT <= deserved *)
Theorem proportion_vote : forall (eps : Z) (E : env) (s : sess) (l : list task) (c : task),
  c ∈ prop_vote eps E s l ->
  exists (l1 l2 : list task) (j : job) (q : qx),
    l = l1 ++ c :: l2 /\ jobs s !! t_job c = Some j /\ e_queues E !! j_queue j = Some q /\ qx_known q = true /\
    less_equal eps (sub_reqs (share_of s (j_queue j)) (queue_victims s (j_queue j) (prop_vote eps E s l1)))
               (qx_des_hi q) DZero = false.
Proof. exact prop_vote_victim_above. Qed.
Print Assumptions proportion_vote.

(* capacity (flat queues), for EVERY reclaimer, candidate list, pop order and queue records: after ALL victims
   of the call are gone, every queue that lost one still holds its guarantee (Resource.LessEqual with the
   Zero default: every dimension of the guarantee) *)
Theorem capacity_vote_keeps_guarantee : forall (eps : Z) (E : env) (s : sess) (p : task) (l : list task) (qid : positive) (q : qx),
  e_queues E !! qid = Some q ->
  queue_victims s qid (cap_vote eps E s p l) <> [] ->
  less_equal eps (qx_cap_guar q)
    (sub_reqs (share_of s qid) (queue_victims s qid (cap_vote eps E s p l))) DZero = true.
Proof.
  intros eps E s p l qid q Hq. unfold cap_vote. destruct (cap_reclaimer_ok E s p); [|intros H; contradiction].
  intros H. apply (cap_go_keeps_guarantee eps E s p qid q Hq _ ∅) in H. rewrite lookup_empty in H. exact H.
Qed.
Print Assumptions capacity_vote_keeps_guarantee.

(* ... and each victim was taken under [cap_takes], evaluated on the queue's allocation at the start of the
   call minus the same queue's victims popped before it: it shares a resource name with the reclaimer,
   leaves the guarantee intact, and the queue is "above deserved" AS THE CODE DEFINES IT: the victim requests
   nothing the deserved vector holds, or allocated > deserved in SOME dimension the victim requests *)
Theorem capacity_vote_victim_taken : forall (eps : Z) (E : env) (s : sess) (p : task) (l : list task) (c : task),
  c ∈ cap_vote eps E s p l ->
  exists j q before,
    jobs s !! t_job c = Some j /\ e_queues E !! j_queue j = Some q /\
    (forall b, b ∈ before -> b ∈ cap_vote eps E s p l) /\
    cap_takes eps q p c (sub_reqs (share_of s (j_queue j)) (queue_victims s (j_queue j) before)).
Proof.
  intros eps E s p l c. unfold cap_vote, cap_go. destruct (cap_reclaimer_ok E s p); [|intros H; inversion H].
  intros ([c' a] & -> & H)%elem_of_list_fmap. simpl.
  destruct (cap_taken_ok eps E s p _ _ _ _ H) as (j & q & Hj & Hq & Ht).
  apply elem_of_list_split in H as (tr1 & tr2 & Htr).
  exists j, q, (map fst tr1). split; [exact Hj|]. split; [exact Hq|]. split.
  - intros b Hb. rewrite Htr, map_app. apply elem_of_app. left. exact Hb.
  - assert (Hc : cand_queue s c' = Some (j_queue j)) by (unfold cand_queue; rewrite Hj; reflexivity).
    pose proof (cap_tr_alloc eps E s p (j_queue j) _ _ _ _ _ _ Htr Hc) as Ha. rewrite lookup_empty in Ha.
    simpl in Ha. rewrite <- Ha. exact Ht.
Qed.
Print Assumptions capacity_vote_victim_taken.

(* the gap to the property text "its queue is above its deserved share": the code is content with ONE
   dimension; a queue far below deserved in cpu loses a pod because it is above deserved in memory *)
Theorem above_deserved_in_every_dimension_refuted :
  exists eps E s p l c j q,
    c ∈ cap_vote eps E s p l /\ jobs s !! t_job c = Some j /\ e_queues E !! j_queue j = Some q /\
    cpu (share_of s (j_queue j)) < cpu (qx_cap_des q).
Proof. exact CapLemmas.above_deserved_in_every_dimension_refuted. Qed.
Print Assumptions above_deserved_in_every_dimension_refuted.

(* drf (preempt only): what a victim returned by the drf vote means.  The candidate list splits at the victim, and the
   preemptor job's dominant share with the preemptor is below, or within shareDelta of, the dominant share of what the
   victim's job holds (handler ledger) minus the requests of ALL candidates of that job up to and including the victim,
   returned or not (drf_left).  Monotonicity of dom_share, hence the statement on an arbitrary subset, is not proved. *)
Theorem drf_vote_victim_meaning : forall (eps : Z) (s : sess) (p : task) (l : list task) (c : task),
  c ∈ drf_vote eps s p l ->
  exists pre post, l = pre ++ c :: post /\
    drf_lets_go (drf_ls eps s p) (dom_share eps (drf_left s (pre ++ [c]) (t_job c)) (total_res s)) = true.
Proof. exact VoteLemmas.drf_vote_victim_meaning. Qed.
Print Assumptions drf_vote_victim_meaning.

Theorem victims_subset_candidates : forall (eps : Z) (E : env) (k : akind) (s : sess) (p : task) (l : list task) (c : task),
  c ∈ victims eps E k s p l -> c ∈ l.
Proof. exact victims_subset. Qed.
Print Assumptions victims_subset_candidates.

(* the tiers in front of the deciding tier agree on nothing, the deciding tier has an enabled registered
   voter, and every such voter of it returned a task with the victim's id (that the victims ARE the tier's
   agreement is VoteLemmas.deciding, clause 4; not restated here) *)
Theorem victims_respect_deciding_tier : forall (eps : Z) (E : env) (k : akind) (s : sess) (p : task) (l : list task) (c : task),
  c ∈ victims eps E k s p l ->
  exists (pre : list (list plug)) (tier : list plug) (post : list (list plug)),
    e_tiers E = pre ++ tier :: post /\
    vote_layout eps E k s p l =
      map (map (slot_of eps E k s p l)) pre ++ map (slot_of eps E k s p l) tier :: map (map (slot_of eps E k s p l)) post /\
    Forall (fun t' : list (slot vote) => agreement t' = []) (map (map (slot_of eps E k s p l)) pre) /\
    (exists sl : slot vote, In sl (map (slot_of eps E k s p l) tier) /\ voting sl = true) /\
    (exists (pl : plug) (v : list task), pl ∈ tier /\ plug_enabled k pl = true /\ vote_of eps E k s p l (p_kind pl) = Some v) /\
    (forall (pl : plug) (v : list task), pl ∈ tier -> (if is_reclaim k then p_rec pl else p_pre pl) = true ->
       vote_of eps E k s p l (p_kind pl) = Some v -> exists c' : task, c' ∈ v /\ t_id c' = t_id c).
Proof.
  intros eps E k s p l c Hc. destruct (victims_deciding_exists _ _ _ _ _ _ _ Hc) as [tier Hd].
  pose proof (deciding_voters _ _ _ _ _ _ _ _ Hd Hc) as Hall.
  destruct Hd as (pre & post & HE & Hl & Hpre & _ & (pl & v & Hpl & Hen & Hv)).
  exists pre, tier, post. split; [exact HE|]. split; [exact Hl|].
  split; [rewrite Forall_map; exact Hpre|]. split.
  - exists (slot_of eps E k s p l pl). split; [apply in_map, elem_of_list_In, Hpl|].
    apply slot_voting. eauto.
  - split; [eauto|exact Hall].
Qed.
Print Assumptions victims_respect_deciding_tier.

(* ---------- candidate filters ---------- *)

Theorem preempt_candidates_eligible : forall (E : env) (k : akind) (s : sess) (p : task) (pq : positive) (c : task),
  k <> AReclaim -> cand_ok E k s p pq c = true ->
  (t_status c = Running \/ t_status c = Bound) /\ t_preemptable c = true /\
  (t_best_effort p = true -> t_best_effort c = true) /\
  match k with
  | AInter => exists j, jobs s !! t_job c = Some j /\ j_queue j = pq /\ t_job p <> t_job c
  | _ => t_job p = t_job c
  end.
Proof. exact Eligible.preempt_candidates_eligible. Qed.
Print Assumptions preempt_candidates_eligible.

Theorem reclaim_candidates_eligible : forall (E : env) (s : sess) (p : task) (pq : positive) (c : task),
  cand_ok E AReclaim s p pq c = true ->
  t_status c = Running /\ t_preemptable c = true /\
  exists j, jobs s !! t_job c = Some j /\ j_queue j <> pq /\ queue_reclaimable E (j_queue j) = true.
Proof. exact Eligible.reclaim_candidates_eligible. Qed.
Print Assumptions reclaim_candidates_eligible.

(* ---------- never in vain ---------- *)

Theorem failed_attempt_contributes_nothing : forall (eps : Z) (E : env) (k : akind) (s : sess) (p : task) (pq : positive)
    (a : attempt) (s' : sess) (v : Z) (lg : list arec),
  ops s nsid = [] -> heap_ok s ->
  run_attempt eps E k s p pq a = (s', false, v, lg) ->
  evicts s' = evicts s /\ ops s' jsid = ops s jsid /\ ops s' nsid = [].
Proof.
  intros eps E k s p pq a s' v lg Hn Hok H.
  apply run_attempt_spec in H as (a1 & _ & _ & a4 & _ & a6 & a7 & _); auto.
  split; [auto|]. split; [|auto]. rewrite (a6 Hok).
  assert (Hf : filter a_ok lg = []).
  { clear -a7. induction lg as [|r lg IH]; [reflexivity|]. simpl in a7. symmetry in a7.
    apply orb_false_iff in a7 as [Hr Hl]. rewrite filter_cons, Hr. apply IH. auto. }
  rewrite Hf. apply app_nil_r.
Qed.
Print Assumptions failed_attempt_contributes_nothing.

Theorem successful_attempt_block : forall (eps : Z) (E : env) (k : akind) (s : sess) (p : task) (pq : positive)
    (a : attempt) (s' : sess) (v : Z) (lg : list arec),
  ops s nsid = [] -> heap_ok s ->
  run_attempt eps E k s p pq a = (s', true, v, lg) ->
  exists r, lg = [r] /\ a_ok r = true /\ a_task r = p /\ a_node r = at_node a /\
            ops s' jsid = ops s jsid ++ block r /\ evicts s' = evicts s.
Proof.
  intros eps E k s p pq a s' v lg Hn Hok H.
  pose proof (run_attempt_spec eps E _ _ _ _ _ _ _ _ _ Hn H) as (a1 & _ & _ & _ & _ & a6 & _).
  apply run_attempt_cases in H as [(_ & [=] & _)|(n & s1 & done & _ & _ & _ & [(_ & [=] & _)|(s2 & res & _ & H)])].
  destruct H as [(_ & _ & _ & Hlg)|(_ & _ & [=] & _)]. eexists. split; [exact Hlg|].
  rewrite (a6 Hok), Hlg. simpl. rewrite app_nil_r. auto.
Qed.
Print Assumptions successful_attempt_block.

Theorem unpipelined_job_commits_nothing : forall (eps : Z) (E : env) (s : sess) (jid : positive) (j : job)
    (lg : list arec) (s' : sess) (lg' : list arec),
  jobs s !! jid = Some j -> job_pipelined_now E s j = false ->
  close_job eps E s jid lg = (s', lg') -> evicts s' = evicts s /\ lg' = [].
Proof.
  intros eps E s jid j lg s' lg'. unfold close_job. intros -> -> [= <- <-].
  destruct (stmt_discard_spec eps s jsid) as (d1 & _). auto.
Qed.
Print Assumptions unpipelined_job_commits_nothing.

Theorem committed_job_reached_role_minimums : forall (eps : Z) (E : env) (s : sess) (jid : positive) (j : job)
    (lg : list arec) (s' : sess) (lg' : list arec),
  jobs s !! jid = Some j -> gang_in (e_tiers E) = true ->
  close_job eps E s jid lg = (s', lg') -> lg' <> [] ->
  is_pipelined (heap s) (j_index j) (j_min j) = true /\
  (j_role_total j <= j_min j ->
   forall r m, j_role_min j !! r = Some m -> m <= role_occupied (heap s) (j_index j) true r).
Proof. exact VoteLemmas.committed_job_reached_role_minimums. Qed.
Print Assumptions committed_job_reached_role_minimums.

(* MAIN 1 *)
Theorem evictions_only_with_placement : forall (eps : Z) (E : env) (cs : list choice) (s s' : sess) (lg : list arec),
  clear s -> heap_ok s -> run eps E s cs = (s', lg) ->
  forall x, x ∈ evicts s' ->
    x ∈ evicts s \/
    exists r c, r ∈ lg /\ a_ok r = true /\ rec_sound eps E r /\ c ∈ a_evicted r /\ t_id c = x.
Proof. exact Eligible.evictions_only_with_placement. Qed.
Print Assumptions evictions_only_with_placement.

(* MAIN 2 *)
Theorem eviction_eligible : forall (eps : Z) (E : env) (cs : list choice) (s s' : sess) (lg : list arec) (x : positive),
  clear s -> heap_ok s -> run eps E s cs = (s', lg) -> x ∈ evicts s' -> x ∉ evicts s ->
  exists r c n,
    r ∈ lg /\ a_ok r = true /\ c ∈ a_evicted r /\ t_id c = x /\
    nodes (a_pre r) !! a_node r = Some n /\ (exists i, n_tasks n !! i = Some c) /\
    cand_ok E (a_kind r) (a_pre r) (a_task r) (a_queue r) c = true /\
    (* the copy the node held was Running, or Bound for preemption - whatever other statuses (Allocated,
       Binding, Pipelined, Releasing ...) the session contains *)
    (t_status c = Running \/ (is_reclaim (a_kind r) = false /\ t_status c = Bound)) /\
    t_preemptable c = true /\
    c ∈ a_cands r /\
    (* E with the capacity plugin's pop order of this vote installed; nothing else differs *)
    let E' := with_qorder E (a_qorder r) in
    exists tier, deciding eps E' (a_kind r) (a_pre r) (a_task r) (a_cands r) tier /\
      forall pl, pl ∈ tier -> plug_enabled (a_kind r) pl = true ->
        match p_kind pl with
        | KGang => c ∈ gang_vote (a_pre r) (a_cands r)
        | KConf => critical E c = false
        | KPrio => is_reclaim (a_kind r) = false ->
            (t_job c <> t_job (a_task r) /\ jprio E (t_job c) < jprio E (t_job (a_task r))) \/
            (t_job c = t_job (a_task r) /\ t_prio c < t_prio (a_task r))
        | KProp => is_reclaim (a_kind r) = true -> c ∈ prop_vote eps E' (a_pre r) (a_cands r)
        | KCap => is_reclaim (a_kind r) = true -> c ∈ cap_vote eps E' (a_pre r) (a_task r) (a_cands r)
        | KDrf => is_reclaim (a_kind r) = false -> c ∈ drf_vote eps (a_pre r) (a_task r) (a_cands r)
        end.
Proof. exact Eligible.eviction_eligible. Qed.
Print Assumptions eviction_eligible.

(* ---------- the placement on the FINAL SESSION (observables) ---------- *)

(* MAIN 1 on observables: for every run from a well-formed session, every pod in the evictor's accepted-call list
   sat on the node of a committed node attempt, and in the final session the task that attempt was made for
   is Pipelined on that same node *)
Theorem evictions_with_final_placement : forall (eps : Z) (E : env) (cs : list choice) (s s' : sess) (lg : list arec),
  wf s -> clear s -> run eps E s cs = (s', lg) ->
  forall x, x ∈ evicts s' ->
    x ∈ evicts s \/
    exists r c q, r ∈ lg /\ a_ok r = true /\ c ∈ a_evicted r /\ t_id c = x /\ t_node c = Some (a_node r) /\
                  heap s' !! t_id (a_task r) = Some q /\ t_status q = Pipelined /\ t_node q = Some (a_node r).
Proof. exact PlacedRun.evictions_with_final_placement. Qed.
Print Assumptions evictions_with_final_placement.

(* the invariant is kept by every run (so the theorem composes over cycles of one session) *)
Theorem runs_keep_sessions_well_formed : forall (eps : Z) (E : env) (cs : list choice) (s s' : sess) (lg : list arec),
  wf s -> clear s -> run eps E s cs = (s', lg) ->
  wf s' /\ forall r, r ∈ lg -> wf (a_pre r) /\ placed s' r.
Proof.
  intros eps E cs s s' lg Hwf Hcl Hr. destruct (run_ok eps E cs s s' lg Hwf Hcl Hr) as (a & _ & b). auto.
Qed.
Print Assumptions runs_keep_sessions_well_formed.

(* the converse side on the session state: an attempt that is not assigned leaves its preemptor Pending, every
   Pipelined task object untouched and every Running / Bound / Releasing task in such a status *)
Theorem failed_attempt_session : forall (eps : Z) (E : env) (k : akind) (s : sess) (tid : positive) (p : task) (pq : positive)
    (a : attempt) (s' : sess) (v : Z) (lg : list arec),
  wf s -> ops s nsid = [] -> heap s !! tid = Some p -> t_status p = Pending ->
  run_attempt eps E k s p pq a = (s', false, v, lg) ->
  wf s' /\ (exists p', heap s' !! tid = Some p' /\ t_status p' = Pending) /\ keep_pip s s' /\ keep_busy s s'.
Proof. exact PlacedRun.failed_attempt_session. Qed.
Print Assumptions failed_attempt_session.

(* the well-formedness hypothesis is decidable; the entry evaluates the checker on every generated session *)
Theorem wf_check_sound : forall s, wfb s = true -> wf s.
Proof.
  intros s.
  unfold wfb. intros H. repeat (apply andb_true_iff in H as [H ?]).
  split; [|split; [|split]].
  - intros i p Hp. pose proof (proj1 (ResLemmas.map_allb_spec _ _) H i p Hp) as E. apply bool_decide_eq_true in E. exact E.
  - intros nid n Hn. pose proof (proj1 (ResLemmas.map_allb_spec _ _) H1 nid n Hn) as E. apply andb_true_iff in E as [E _].
    apply bool_decide_eq_true in E. exact E.
  - intros nid n i c Hn Hc. pose proof (proj1 (ResLemmas.map_allb_spec _ _) H1 nid n Hn) as E. apply andb_true_iff in E as [_ E].
    pose proof (proj1 (ResLemmas.map_allb_spec _ _) E i c Hc) as E2. apply andb_true_iff in E2 as [E2 E3]. apply andb_true_iff in E2 as [E1 E2].
    apply bool_decide_eq_true in E1, E2. split; [exact E1|]. split; [exact E2|].
    destruct (heap s !! i) as [t|]; [|discriminate]. apply andb_true_iff in E3 as [E3 E4].
    apply bool_decide_eq_true in E3, E4. exists t. auto.
  - intros i t Ht Hst. pose proof (proj1 (ResLemmas.map_allb_spec _ _) H0 i t Ht) as E. apply orb_true_iff in E as [E|E].
    + apply negb_true_iff, bool_decide_eq_false in E. contradiction.
    + apply bool_decide_eq_true in E. exact E.
Qed.
Print Assumptions wf_check_sound.

(* ---------- faults ---------- *)

(* Statement.Pipeline failing (a handler reports Event.Err for this placement): for EVERY fault
   script the attempt is not assigned, leaves no operation behind and sends nothing to the evictor *)
Theorem faulted_attempt_contributes_nothing : forall (eps : Z) (E : env) (k : akind) (s : sess) (p : task) (pq : positive)
    (a : attempt) (s' : sess) (ok : bool) (v : Z) (lg : list arec),
  ops s nsid = [] -> heap_ok s -> (t_id p, at_node a) ∈ e_faults E ->
  run_attempt eps E k s p pq a = (s', ok, v, lg) ->
  ok = false /\ evicts s' = evicts s /\ ops s' jsid = ops s jsid /\ ops s' nsid = [].
Proof.
  intros eps E k s p pq a s' ok v lg Hn Hok Hf H.
  pose proof (faulted_pipeline_never_assigned eps E _ _ _ _ _ _ _ _ _ Hok Hf H) as ->.
  split; [reflexivity|]. eapply failed_attempt_contributes_nothing; eauto.
Qed.
Print Assumptions faulted_attempt_contributes_nothing.

(* cache.Evict refusing a victim at Commit: the victim is un-evicted and never appears in the
   evictor log (its preemptor stays pipelined: a placement without its eviction, not the converse) *)
Theorem refused_eviction_not_logged : forall (eps : Z) (E : env) (cs : list choice) (s s' : sess) (lg : list arec) (x : positive),
  clear s -> heap_ok s -> run eps E s cs = (s', lg) ->
  x ∈ refuse_evict s -> x ∈ evicts s' -> x ∈ evicts s.
Proof.
  intros eps E cs s s' lg x Hcl Hok Hr Hx Hin. destruct (run_spec eps E cs s s' lg Hcl Hok Hr) as (_ & _ & _ & _ & H).
  destruct (H x Hin) as [?|[? _]]; [auto|contradiction].
Qed.
Print Assumptions refused_eviction_not_logged.

(* [clear] and [heap_ok], the hypotheses of the ghost-log theorems, hold for every session the codec builds, with
   any fault script; [wf], which the final-session theorems need in addition, is checked per case (wfb) *)
Theorem built_sessions_satisfy_hypotheses : forall eps ns js ts he rb re jr,
  clear (upd_faults (build eps ns js ts) he rb re jr) /\ heap_ok (upd_faults (build eps ns js ts) he rb re jr).
Proof.
  intros eps ns js ts he rb re jr.
  split; [split; reflexivity|]. unfold heap_ok, build; simpl. intros i p H.
  apply elem_of_list_to_map_2 in H. apply elem_of_list_fmap in H as (t & [= -> ->] & _). reflexivity.
Qed.
Print Assumptions built_sessions_satisfy_hypotheses.

(* what does not hold (and the real code shows it, known finding C04-lower-tier-overrides-veto):
   a voter of a tier in front of the deciding tier need not be respected.  (The witness is of that kind; the
   statement itself only asks for an enabled priority plug of some tier that did not return the victim.) *)
Theorem all_consulted_voters_respected_refuted :
  exists E s p l c,
    c ∈ victims 1 E AInter s p l /\
    exists pre tier post pl, e_tiers E = pre ++ tier :: post /\ pl ∈ tier /\
      p_kind pl = KPrio /\ p_pre pl = true /\ ~ c ∈ prio_vote E s p l.
Proof. exact Eligible.all_consulted_voters_respected_refuted. Qed.
Print Assumptions all_consulted_voters_respected_refuted.

(* ---------- non-vacuity: four real cycles (harness seed 1) replayed by the model.  Each result is
   (evictor log, number of committed attempt records, all records ok, the session the cycle starts from is
   well-formed): the hypotheses of the MAIN theorems hold and their conclusions are not vacuous.
   A = cycle-523: a node attempt whose Pipeline fails by a scripted handler fault and is rolled back, then a
       committed eviction on another node;
   B = cycle-275: reclaim with the capacity plugin, several victims of one queue on one node;
   D = cycle-586: preempt with topology-aware preemption, a gang whose first attempt fails by a handler fault;
   C = cycle-435: intra-job preemption. ---------- *)
Definition ex_of (toks : list Z) : option (list positive * nat * bool * bool) :=
  match run_dec dCase toks with
  | Some c =>
    let sp := cs_spec c in
    let '(s', lg) := run (sp_eps sp) (env_of sp (cs_lims c) (cs_clims c)) (sess_of sp) (cs_choices c) in
    Some (evicts s', length lg, forallb a_ok lg, wfb (sess_of sp))
  | None => None
  end.

Definition ex_toks_A : list Z := [2; 3; 1; 1; 1000; 8388608; 1; 0; 2; 1; 1000; 1048576; 1; 1; 3; 1; 500; 8912896; 3; 0; 1; 1; 1; 1; 0; 0; 3; 1; 1; 0; 0; 3; 2; 1; 4; 0; 3; 3; 1; 0; 0; 1; 6; 1; 1; 1; 2; 500; 524288; 0; 6; 3; 1; 2; 2; 1; 0; 500; 524288; 0; 1; 0; 1; 3; 2; 1; 1; 750; 2621440; 0; 1; 0; 1; 4; 2; 1; 1; 250; 2097152; 0; 1; 0; 1; 5; 2; 1; 2; 750; 2097152; 0; 1; 0; 0; 6; 3; 1; 0; 1000; 524288; 0; 1; 0; 1; 3; 1; 0; 0; 2; 3; 0; 3; 1; 0; 6; 1; 0; 2; 0; 3; 0; 4; 0; 5; 0; 6; 0; 1; 1; 2; 1; 1; 0; 0; 0; 0; 3; 0; 2; 3; 1; 1; 2; 1; 1; 0; 1; 1; 4; 2; 1; 2; 2; 3; 3; 4; 3; 0; 0; 0; 1; 1; 2; 3; 5; 1; 1; 0; 0; 0; 0; 4; 1; 3; 1; 1; 1; 1; 1; 1; 0; 2; 2; 2; 0; 0; 0; 0; 3; 1; 1; 1; 1; 1; 1; 0].
Definition ex_toks_B : list Z := [2; 2; 1; 1; 1750; 6815744; 6; 0; 2; 1; 8000; 67108864; 4; 0; 3; 1; 1; 1; 0; 0; 2; 1; 1; 0; 0; 3; 1; 1; 0; 0; 3; 1; 1; 0; 0; 3; 2; 2; 1; 0; 3; 3; 3; 0; 0; 3; 5; 1; 1; 1; 0; 500; 2097152; 0; 6; 1; 1; 2; 1; 1; 0; 500; 2097152; 0; 6; 1; 1; 3; 1; 1; 1; 500; 2097152; 0; 6; 1; 1; 4; 2; 1; 1; 1500; 2097152; 0; 1; 0; 1; 5; 3; 1; 0; 8000; 33554432; 0; 6; 2; 1; 3; 1; 0; 0; 2; 2; 0; 3; 0; 0; 5; 1; 0; 2; 0; 3; 0; 4; 0; 5; 0; 3; 1; 1; 2; 1; 3; 2; 3; 1; 0; 0; 0; 0; 2; 0; 0; 0; 6291456; 3; 0; 0; 8000; 67108864; 1; 2; 1; 1; 1; 5; 1; 1; 1; 2; 0; 0; 0; 3; 1; 0; 0; 0; 0; 0; 0; 0; 0; 156000; 1182793728; 1; 1; 1; 160; 2; 0; 100663296; 0; 0; 0; 0; 0; 0; 156000; 1182793728; 1; 1; 1; 160; 3; 128000; 1073741824; 0; 0; 0; 0; 0; 0; 156000; 1182793728; 1; 1; 1; 160; 1; 3; 1; 2; 1; 4; 1; 1; 3; 1; 2; 3; 3; 3; 2; 1; 3; 3; 2; 1; 0].
Definition ex_toks_C : list Z := [2; 3; 1; 1; 500; 8388608; 2; 1; 2; 1; 1500; 6291456; 7; 2; 3; 1; 3750; 13107200; 7; 1; 3; 1; 1; 1; 0; 0; 2; 1; 4; 7000; 0; 3; 1; 4; 0; 0; 2; 1; 1; 3; 0; 2; 2; 2; 2; 0; 3; 6; 1; 1; 1; 2; 1500; 2621440; 0; 1; 0; 1; 2; 1; 1; 2; 1500; 2621440; 1; 2; 3; 1; 3; 1; 1; 1; 1000; 2097152; 1; 5; 2; 1; 4; 1; 1; 0; 1250; 2097152; 0; 6; 3; 0; 5; 1; 1; 1; 500; 3145728; 0; 6; 2; 1; 6; 2; 1; 2; 750; 1048576; 0; 1; 0; 1; 2; 1; 1; 0; 2; 3; 0; 6; 1; 0; 2; 0; 3; 0; 4; 0; 5; 0; 6; 0; 3; 1; 1; 2; 1; 3; 1; 3; 1; 0; 0; 0; 0; 2; 0; 0; 0; 0; 3; 0; 0; 0; 0; 2; 0; 3; 3; 1; 1; 2; 1; 1; 4; 1; 1; 2; 2; 1; 0; 1; 4; 2; 1; 80000; 201326592; 1; 2; 1; 80; 4; 32000; 80000; 201326592; 1; 2; 1; 80; 4; 32000; 80000; 201326592; 1; 2; 1; 80; 4; 32000; 2; 12000; 16777216; 1; 2; 1; 16; 4; 0; 12000; 16777216; 1; 2; 1; 16; 4; 0; 12000; 16777216; 1; 2; 1; 16; 4; 0; 0; 2; 1; 2; 1; 6; 1; 3; 0; 0; 0; 0; 2; 1; 1; 1; 2; 2; 3; 5; 2; 5; 3; 2; 5; 3; 0].

Definition ex_toks_D : list Z := [2; 1; 1; 1; 2750; 16777216; 4; 0; 3; 1; 1; 3; 0; 0; 2; 1; 4; 11000; 0; 3; 1; 3; 0; 0; 3; 1; 1; 0; 0; 3; 2; 1; 1; 0; 3; 3; 3; 1; 0; 2; 10; 1; 1; 1; 1; 750; 2621440; 0; 5; 1; 1; 2; 1; 1; 0; 500; 1048576; 0; 6; 1; 0; 3; 1; 1; 0; 500; 2621440; 0; 6; 1; 1; 4; 2; 1; 0; 750; 2097152; 0; 1; 0; 0; 5; 2; 1; 2; 1000; 1572864; 0; 1; 0; 0; 6; 2; 1; 2; 1250; 1048576; 0; 1; 0; 1; 7; 2; 1; 2; 1500; 524288; 0; 1; 0; 1; 8; 2; 1; 0; 750; 2097152; 0; 1; 0; 1; 9; 3; 1; 2; 1000; 2097152; 0; 6; 1; 1; 10; 3; 1; 2; 1000; 2621440; 0; 1; 0; 1; 3; 1; 0; 0; 2; 2; 0; 3; 0; 0; 10; 1; 0; 2; 0; 3; 0; 4; 0; 5; 0; 6; 0; 7; 0; 8; 0; 9; 0; 10; 0; 3; 1; 1; 2; 0; 3; 2; 3; 1; 0; 0; 0; 0; 2; 0; 0; 0; 0; 3; 0; 0; 0; 0; 2; 3; 1; 1; 1; 2; 0; 1; 3; 1; 0; 0; 1; 3; 2; 4; 1; 5; 1; 0; 0; 0; 1; 1; 2; 2; 5; 1; 1; 2; 1; 3; 2; 1; 3; 2; 3; 1; 1; 6; 1; 1; 2; 3; 1; 2; 1; 3; 2; 3; 1; 1].

Example ex_topology_aware_preempt : ex_of ex_toks_D = Some ([3%positive; 1%positive], 1%nat, true, true).
Proof. vm_compute. reflexivity. Qed.
Example ex_run_commits_an_eviction : ex_of ex_toks_A = Some ([1%positive], 2%nat, true, true).
Proof. vm_compute. reflexivity. Qed.
Example ex_capacity_reclaim : ex_of ex_toks_B = Some ([1%positive; 2%positive; 3%positive], 1%nat, true, true).
Proof. vm_compute. reflexivity. Qed.
Example ex_intra_job_preempt : ex_of ex_toks_C = Some ([3%positive; 5%positive], 2%nat, true, true).
Proof. vm_compute. reflexivity. Qed.
