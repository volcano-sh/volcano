(* Property C17 — node shards are disjoint, bounded and contain only eligible
   nodes.  The property theorems, each followed by Print Assumptions (the
   Examples are not).  A proof stands here when nothing else needs the fact; otherwise
   the theorem is [exact] of a lemma of C17/Lemmas.v, LawLemmas.v, ConfigLemmas.v or
   PublishLemmas.v.

   [assignments nodes m specs] is the model of
     ParseShardingConfig -> applyPolicyDefaults -> NewShardingManager -> CalculateShardAssignments
   ([None] = configuration rejected); [chain_of specs s] is the initialised
   policy chain the manager holds for scheduler [s].  Every theorem quantifies
   over ALL node lists (any length: the batched path beyond 50 nodes is part of
   [assignments]), all metric maps and all scheduler lists. *)
From Coq Require Import Lia Permutation ZArith List Bool QArith Sorted.
From V Require Import C17.Model C17.Laws C17.Lemmas C17.LawLemmas C17.PublishLemmas C17.ConfigLemmas.
Import ListNotations.
Open Scope Z_scope.

(* --- the pipeline of one scheduler, for any Filterers / Scorers / Selectors --- *)
Theorem C17_pipeline_spec : forall (A : Type) (name : A -> positive) (ch : gchain A) nodes assigned,
  run_pipeline name ch nodes assigned =
  map name (run_selectors (g_selectors ch)
             (sort_desc (eff_score ch)
               (filter (pass_all (g_filters ch)) (drop_assigned name nodes assigned)))).
Proof. exact @pipeline_spec. Qed.
Print Assumptions C17_pipeline_spec.

(* the sort is the stable descending one: a permutation, descending, ties in input order *)
Theorem C17_sort_perm : forall (A : Type) (sc : A -> Q) l, Permutation.Permutation (sort_desc sc l) l.
Proof. exact @sort_desc_perm. Qed.
Print Assumptions C17_sort_perm.

Theorem C17_sort_sorted : forall (A : Type) (sc : A -> Q) l, StronglySorted (ge_sc sc) (sort_desc sc l).
Proof. exact @sort_desc_sorted. Qed.
Print Assumptions C17_sort_sorted.

Theorem C17_sort_stable : forall (A : Type) (sc : A -> Q) v l,
  filter (fun y => Qeq_bool (sc y) v) (sort_desc sc l) = filter (fun y => Qeq_bool (sc y) v) l.
Proof. exact @sort_desc_stable. Qed.
Print Assumptions C17_sort_stable.

Theorem C17_pipeline_filtered : forall (A : Type) (name : A -> positive) (ch : gchain A) nodes assigned x,
  Forall prefix_sel (g_selectors ch) ->
  In x (run_pipeline name ch nodes assigned) ->
  exists n, In n nodes /\ name n = x /\ ~ In x assigned /\ pass_all (g_filters ch) n = true.
Proof. exact @pipeline_filtered. Qed.
Print Assumptions C17_pipeline_filtered.

Theorem C17_pipeline_sorted : forall (A : Type) (name : A -> positive) (ch : gchain A) nodes assigned,
  Forall prefix_sel (g_selectors ch) ->
  exists cand, run_pipeline name ch nodes assigned = map name cand /\
    StronglySorted (ge_sc (eff_score ch)) cand.
Proof. exact @pipeline_sorted. Qed.
Print Assumptions C17_pipeline_sorted.

(* the batched pipeline (more than 50 nodes) computes what the unbatched one computes *)
Theorem C17_batched_eq : forall (A : Type) (name : A -> positive) (ch : gchain A) nodes assigned,
  run_pipeline_batched name ch nodes assigned = run_pipeline name ch nodes assigned.
Proof. exact @batched_eq. Qed.
Print Assumptions C17_batched_eq.

(* two runs of the scheduler loop never pick a common node, whatever the chains
   (Selectors obeying their prefix contract), batched or not, duplicate names included *)
Theorem C17_calc_disjoint : forall (A : Type) (name : A -> positive) nodes cfgs e1 e2,
  good_cfgs cfgs ->
  In e1 (st_results (calc name nodes cfgs)) -> In e2 (st_results (calc name nodes cfgs)) ->
  e1 <> e2 -> disj (snd e1) (snd e2).
Proof. exact @calc_disjoint. Qed.
Print Assumptions C17_calc_disjoint.

(* --- the property on the real configuration path and the built-in policies --- *)

(* shards of different schedulers never overlap *)
Theorem C17_shards_disjoint : forall nodes m specs res s1 l1 s2 l2 x,
  assignments nodes m specs = Some res ->
  In (s1, l1) res -> In (s2, l2) res -> s1 <> s2 -> In x l1 -> In x l2 -> False.
Proof. exact shards_disjoint. Qed.
Print Assumptions C17_shards_disjoint.

(* at most maxNodes of every node-limit policy of the scheduler, for any cluster size *)
Theorem C17_shard_bounded : forall nodes m specs res s l mn mx,
  assignments nodes m specs = Some res -> In (s, l) res ->
  In (RLimit mn mx) (chain_of specs s) -> 0 < mx -> Z.of_nat (length l) <= mx.
Proof. exact shard_bounded. Qed.
Print Assumptions C17_shard_bounded.

(* clauses 2 and 3 against the CONFIGURATION: for every accepted configuration
   (ParseShardingConfig after fix 4209844 also rejects chains that cannot be
   initialised and repeated scheduler names), every policy entry of a scheduler's
   configured chain — explicit, or synthesized by applyPolicyDefaults — is in
   the chain the manager runs for it ... *)
Theorem C17_configured_policy_in_chain : forall specs sp p,
  valid_config specs = true -> In sp specs -> In p (apply_defaults sp) ->
  exists rp, init_policy (to_ref p) = Some rp /\ In rp (chain_of specs (ss_name sp)).
Proof. exact configured_policy_in_chain. Qed.
Print Assumptions C17_configured_policy_in_chain.

(* ... so every configured node-limit entry caps the shard, for every cluster size ... *)
Theorem C17_shard_bounded_config : forall nodes m specs res sp p l,
  assignments nodes m specs = Some res -> In sp specs ->
  In p (apply_defaults sp) -> ps_name p = P_LIMIT -> 0 < arg_or (ps_args p) 4 0 ->
  In (ss_name sp, l) res -> Z.of_nat (length l) <= arg_or (ps_args p) 4 0.
Proof. exact shard_bounded_config. Qed.
Print Assumptions C17_shard_bounded_config.

(* ... every configured allocation-rate entry is passed by every node of the shard ... *)
Theorem C17_shard_eligible_config : forall nodes m specs res sp p l x,
  assignments nodes m specs = Some res -> In sp specs ->
  In p (apply_defaults sp) -> ps_name p = P_ALLOC ->
  In (ss_name sp, l) res -> In x l ->
  exists n, In n nodes /\ nname n = x /\
    alloc_filter (mlookup m) (round_util (arg_or (ps_args p) 1 0)) (round_util (arg_or (ps_args p) 2 0)) n = true.
Proof. exact shard_eligible_config. Qed.
Print Assumptions C17_shard_eligible_config.

(* ... and the deprecated scheduler-level maxNodes caps the shard whenever the chain has no node-limit entry of its own *)
Theorem C17_legacy_max_nodes_bound : forall nodes m specs res sp l,
  assignments nodes m specs = Some res -> In sp specs ->
  has_policy (ss_policies sp) P_LIMIT = false -> 0 < ss_maxn sp ->
  In (ss_name sp, l) res -> Z.of_nat (length l) <= ss_maxn sp.
Proof.
  intros nodes m specs res sp l Ha Hsp Hno Hmx Hin.
  destruct (valid_config_facts specs (assignments_valid _ _ _ _ Ha)) as [_ [Hall Hnd]].
  eapply legacy_max_nodes_bound; eauto.
Qed.
Print Assumptions C17_legacy_max_nodes_bound.

(* before the fix such a configuration was accepted and run with an EMPTY chain *)
Theorem C17_uninitialisable_chain_refuted :
  valid_specs [bad_chain_spec] = true /\
  chain_of [bad_chain_spec] 1 = [] /\
  final_map (st_results (calc nname (plain_nodes 5) (manager_chains (mlookup []) [bad_chain_spec])))
    = [(1, [1; 2; 3; 4; 5]%positive)] /\
  assignments (plain_nodes 5) [] [bad_chain_spec] = None.
Proof.
  vm_compute. repeat split; reflexivity.
Qed.
Print Assumptions C17_uninitialisable_chain_refuted.

(* every assigned node exists and passed all filter policies of its scheduler *)
Theorem C17_shard_eligible : forall nodes m specs res s l x,
  assignments nodes m specs = Some res -> In (s, l) res -> In x l ->
  exists n, In n nodes /\ nname n = x /\
    forall w lo hi, In (RAlloc w lo hi) (chain_of specs s) -> alloc_filter (mlookup m) lo hi n = true.
Proof. exact shard_eligible. Qed.
Print Assumptions C17_shard_eligible.

(* --- the executable laws run on the Go results are these statements --- *)
Theorem C17_law_disjoint_model : forall nodes m specs res,
  assignments nodes m specs = Some res -> law_disjoint res = true.
Proof.
  intros nodes m specs res Ha. apply law_disjoint_complete. intros [s1 l1] [s2 l2] H1 H2 Hne x Hx1 Hx2.
  exact (shards_disjoint nodes m specs res s1 l1 s2 l2 x Ha H1 H2 Hne Hx1 Hx2).
Qed.
Print Assumptions C17_law_disjoint_model.

Theorem C17_law_disjoint_sound : forall (r : result) s1 l1 s2 l2,
  law_disjoint r = true -> In (s1, l1) r -> In (s2, l2) r -> s1 <> s2 -> disj l1 l2.
Proof.
  intros r s1 l1 s2 l2.
  induction r as [|[s l] t IH]; intros H H1 H2 Hne; [destruct H1|].
  simpl in H. apply andb_true_iff in H. destruct H as [Hh Ht]. rewrite forallb_forall in Hh.
  destruct H1 as [E1 | H1], H2 as [E2 | H2].
  - congruence.
  - injection E1 as -> ->. specialize (Hh _ H2). simpl in Hh.
    destruct (s2 =? s1) eqn:E; [apply Z.eqb_eq in E; congruence|]. now apply disjointb_spec.
  - injection E2 as -> ->. specialize (Hh _ H1). simpl in Hh.
    destruct (s1 =? s2) eqn:E; [apply Z.eqb_eq in E; congruence|].
    apply disjointb_spec in Hh. intros x Ha Hb. exact (Hh x Hb Ha).
  - now apply IH.
Qed.
Print Assumptions C17_law_disjoint_sound.

Theorem C17_law_bounded_model : forall nodes m specs res,
  assignments nodes m specs = Some res -> law_bounded specs res = true.
Proof.
  intros nodes m specs res Ha. unfold law_bounded. apply forallb_forall. intros [s l] He.
  apply forallb_forall. intros mx Hmx. cbn [fst snd] in *.
  apply caps_In in Hmx. destruct Hmx as [Hpos [mn Hin]].
  apply Z.leb_le. eapply shard_bounded; eauto.
Qed.
Print Assumptions C17_law_bounded_model.

Theorem C17_law_bounded_sound : forall specs (r : result) s l mn mx,
  law_bounded specs r = true -> In (s, l) r -> In (RLimit mn mx) (chain_of specs s) -> 0 < mx ->
  Z.of_nat (length l) <= mx.
Proof.
  intros specs r s l mn mx.
  unfold law_bounded. rewrite forallb_forall. intros H Hin Hl Hmx.
  specialize (H _ Hin). cbn [fst snd] in H. rewrite forallb_forall in H.
  apply Z.leb_le. apply H, caps_In. eauto.
Qed.
Print Assumptions C17_law_bounded_sound.

Theorem C17_law_eligible_model : forall nodes m specs res,
  assignments nodes m specs = Some res -> law_eligible nodes m specs res = true.
Proof.
  intros nodes m specs res Ha. unfold law_eligible. apply forallb_forall. intros [s l] He.
  apply forallb_forall. intros x Hx. cbn [fst snd] in *.
  destruct (shard_passes_filters nodes m specs res s l x Ha He Hx) as [n [Hn [Hname Hp]]].
  apply existsb_exists. exists n. split; [assumption|]. rewrite Hp, andb_true_r. subst x. apply Pos.eqb_refl.
Qed.
Print Assumptions C17_law_eligible_model.

(* the order law (104), the count law (106) and the tolerance order law (108)
   accept the model's result for ALL inputs *)
Theorem C17_law_order_model : forall nodes m specs res,
  assignments nodes m specs = Some res -> law_order nodes m specs res = true.
Proof.
  intros nodes m specs res.
  apply per_sched_model. intros ch a Hnd. now apply sched_order_ok_model.
Qed.
Print Assumptions C17_law_order_model.

Theorem C17_law_count_model : forall nodes m specs res,
  assignments nodes m specs = Some res -> law_count nodes m specs res = true.
Proof.
  intros nodes m specs res.
  apply per_sched_model. intros ch a Hnd. now apply sched_count_ok_model.
Qed.
Print Assumptions C17_law_count_model.

Theorem C17_law_order_tol_model : forall nodes m specs res,
  assignments nodes m specs = Some res -> law_order_tol nodes m specs res = true.
Proof.
  intros nodes m specs res.
  apply per_sched_model. intros ch a Hnd. now apply sched_order_tol_ok_model.
Qed.
Print Assumptions C17_law_order_tol_model.

(* what acceptance by the laws MEANS on any result (e.g. a Go result), as Props *)
Theorem C17_law_eligible_sound : forall nodes m specs (r : result) s l x,
  law_eligible nodes m specs r = true -> In (s, l) r -> In x l ->
  exists n, In n nodes /\ nname n = x /\ pass_all (filters_of (mlookup m) (chain_of specs s)) n = true.
Proof.
  intros nodes m specs r s l x.
  unfold law_eligible. rewrite forallb_forall. intros H Hin Hx. specialize (H _ Hin). cbn [fst snd] in H.
  rewrite forallb_forall in H. specialize (H _ Hx). apply existsb_exists in H.
  destruct H as [n [Hn H]]. apply andb_true_iff in H. destruct H as [H1 H2].
  apply Pos.eqb_eq in H1. exists n. tauto.
Qed.
Print Assumptions C17_law_eligible_sound.

(* laws 104 / 106 / 108 = the per-scheduler check for EVERY scheduler, against the
   nodes the result itself gives to the schedulers before it (distinct names) ... *)
Theorem C17_per_sched_sound : forall ok nodes m specs (r : result) pre sp post,
  per_sched ok nodes m specs r = true ->
  NoDup (map nname nodes) -> NoDup (map ss_name specs) -> specs = pre ++ sp :: post ->
  ok (mlookup m) (chain_of specs (ss_name sp)) (indexed nodes) (taken_from r pre []) (rlookup r (ss_name sp)) = true.
Proof.
  intros ok nodes m specs r pre sp post.
  unfold per_sched. intros H Hn Hs Heq.
  rewrite (proj2 (nodupb_NoDup _) Hn), (proj2 (znodupb_NoDup _) Hs) in H.
  destruct (per_sched_fold ok (mlookup m) (chain_of specs) (indexed nodes) r specs (true, []) H) as [_ H2].
  exact (H2 pre sp post Heq).
Qed.
Print Assumptions C17_per_sched_sound.

(* ... where the check of law 104 says: consecutive picks in (score desc, list
   position) order and every eligible node left behind after the last pick *)
Theorem C17_sched_order_ok_sound : forall look ch inodes taken l,
  sched_order_ok look ch inodes taken l = true ->
  exists tl, find_all inodes l = Some tl /\
    chain_ok (total_score look ch) tl = true /\
    forall y t p, rev tl = y :: t -> In p (eligible_of look ch inodes taken) ->
      ~ In (nname (snd p)) l -> precedes (total_score look ch) y p = true.
Proof.
  intros look ch inodes taken l.
  unfold sched_order_ok. destruct (find_all inodes l) as [tl|]; [|discriminate].
  intros H. apply andb_true_iff in H. destruct H as [H1 H2]. exists tl. split; [reflexivity|].
  split; [assumption|]. intros y t p Hr Hp Hn. rewrite Hr in H2. rewrite forallb_forall in H2.
  specialize (H2 p Hp). apply orb_true_iff in H2. destruct H2 as [H2 | H2]; [|assumption].
  apply memb_In in H2. contradiction.
Qed.
Print Assumptions C17_sched_order_ok_sound.

(* ... of law 106: only eligible unassigned nodes, exactly min(caps, how many there are) of them *)
Theorem C17_sched_count_ok_sound : forall look ch inodes taken l,
  sched_count_ok look ch inodes taken l = true ->
  (forall x, In x l -> exists p, In p (eligible_of look ch inodes taken) /\ nname (snd p) = x) /\
  Z.of_nat (length l) = min_cap ch (Z.of_nat (length (eligible_of look ch inodes taken))).
Proof.
  intros look ch inodes taken l.
  unfold sched_count_ok. intros H. apply andb_true_iff in H. destruct H as [H1 H2]. split.
  - intros x Hx. rewrite forallb_forall in H1. specialize (H1 x Hx). apply existsb_exists in H1.
    destruct H1 as [p [Hp He]]. apply Pos.eqb_eq in He. now exists p.
  - now apply Z.eqb_eq.
Qed.
Print Assumptions C17_sched_count_ok_sound.

(* ... of law 108: the same order up to the tolerance, every pick against every node left behind *)
Theorem C17_sched_order_tol_ok_sound : forall look ch inodes taken l,
  sched_order_tol_ok look ch inodes taken l = true ->
  exists tl, find_all inodes l = Some tl /\
    chain_ok_tol look (total_score look ch) tl = true /\
    forall y p, In y tl -> In p (eligible_of look ch inodes taken) -> ~ In (nname (snd p)) l ->
      precedes_tol look (total_score look ch) y p = true.
Proof.
  intros look ch inodes taken l.
  unfold sched_order_tol_ok. destruct (find_all inodes l) as [tl|]; [|discriminate].
  intros H. apply andb_true_iff in H. destruct H as [H1 H2]. exists tl. split; [reflexivity|].
  split; [assumption|]. intros y p Hy Hp Hn. rewrite forallb_forall in H2. specialize (H2 p Hp).
  apply orb_true_iff in H2. destruct H2 as [H2 | H2].
  - apply memb_In in H2. contradiction.
  - rewrite forallb_forall in H2. now apply H2.
Qed.
Print Assumptions C17_sched_order_tol_ok_sound.

(* laws 112 / 113 (bound / eligibility against the configured entries): accept the model, and mean the clause *)
Theorem C17_law_bounded_config_model : forall nodes m specs res,
  assignments nodes m specs = Some res -> law_bounded_config specs res = true.
Proof.
  intros nodes m specs res Ha. unfold law_bounded_config. apply forallb_forall. intros sp Hsp.
  apply forallb_forall. intros p Hp.
  destruct (ps_name p =? P_LIMIT) eqn:E1; [|reflexivity]. simpl.
  destruct (0 <? arg_or (ps_args p) 4 0) eqn:E2; [|reflexivity]. simpl.
  apply Z.eqb_eq in E1. apply Z.ltb_lt in E2. apply Z.leb_le.
  exact (shard_bounded_config nodes m specs res sp p _ Ha Hsp Hp E1 E2 (assignments_entry nodes m specs res sp Ha Hsp)).
Qed.
Print Assumptions C17_law_bounded_config_model.

Theorem C17_law_bounded_config_sound : forall specs (r : result) sp p,
  law_bounded_config specs r = true -> In sp specs -> In p (apply_defaults sp) ->
  ps_name p = P_LIMIT -> 0 < arg_or (ps_args p) 4 0 ->
  Z.of_nat (length (rlookup r (ss_name sp))) <= arg_or (ps_args p) 4 0.
Proof.
  intros specs r sp p.
  unfold law_bounded_config. rewrite forallb_forall. intros H Hsp Hp Hn Hmx.
  specialize (H _ Hsp). rewrite forallb_forall in H. specialize (H _ Hp).
  rewrite Hn, Z.eqb_refl in H. simpl in H.
  replace (0 <? arg_or (ps_args p) 4 0) with true in H by (symmetry; now apply Z.ltb_lt).
  simpl in H. now apply Z.leb_le.
Qed.
Print Assumptions C17_law_bounded_config_sound.

Theorem C17_law_eligible_config_model : forall nodes m specs res,
  assignments nodes m specs = Some res -> law_eligible_config nodes m specs res = true.
Proof.
  intros nodes m specs res Ha. unfold law_eligible_config. apply forallb_forall. intros sp Hsp.
  apply forallb_forall. intros p Hp.
  destruct (ps_name p =? P_ALLOC) eqn:E1; [|reflexivity]. simpl. apply Z.eqb_eq in E1.
  apply forallb_forall. intros x Hx.
  destruct (shard_eligible_config nodes m specs res sp p _ x Ha Hsp Hp E1 (assignments_entry _ _ _ _ _ Ha Hsp) Hx)
    as [n [H1 [H2 H3]]].
  apply existsb_exists. exists n. split; [assumption|]. rewrite H3, andb_true_r. subst x. apply Pos.eqb_refl.
Qed.
Print Assumptions C17_law_eligible_config_model.

Theorem C17_law_eligible_config_sound : forall nodes m specs (r : result) sp p x,
  law_eligible_config nodes m specs r = true -> In sp specs -> In p (apply_defaults sp) ->
  ps_name p = P_ALLOC -> In x (rlookup r (ss_name sp)) ->
  exists n, In n nodes /\ nname n = x /\
    alloc_filter (mlookup m) (round_util (arg_or (ps_args p) 1 0)) (round_util (arg_or (ps_args p) 2 0)) n = true.
Proof.
  intros nodes m specs r sp p x.
  unfold law_eligible_config. rewrite forallb_forall. intros H Hsp Hp Hn Hx.
  specialize (H _ Hsp). rewrite forallb_forall in H. specialize (H _ Hp).
  rewrite Hn, Z.eqb_refl in H. simpl in H. rewrite forallb_forall in H. specialize (H _ Hx).
  apply existsb_exists in H. destruct H as [n [Hin H]]. apply andb_true_iff in H. destruct H as [H1 H2].
  apply Pos.eqb_eq in H1. exists n. tauto.
Qed.
Print Assumptions C17_law_eligible_config_sound.

(* --- "taken in descending weighted score order", against the whole object --- *)

(* which nodes, in which order: the shard of scheduler [sp] IS the selector
   chain applied to the stably score-sorted list of the nodes that pass all its
   filters and were not taken by the schedulers configured before it — for every
   cluster size ([assignments] takes the batched path above 50 nodes) *)
Theorem C17_shard_exact : forall nodes m specs res pre sp post,
  assignments nodes m specs = Some res -> specs = pre ++ sp :: post ->
  let ch := chain_of specs (ss_name sp) in
  In (ss_name sp, rlookup res (ss_name sp)) res /\
  rlookup res (ss_name sp) =
    map nname (run_selectors (selectors_of ch)
      (sort_desc (total_score (mlookup m) ch)
        (filter (pass_all (filters_of (mlookup m) ch))
          (drop_assigned nname nodes (taken_from res pre []))))).
Proof.
  intros nodes m specs res pre sp post Ha Heq ch. split.
  - apply (assignments_entry _ _ _ _ _ Ha). rewrite Heq. apply in_or_app. right. now left.
  - rewrite (assignments_core _ _ _ _ _ _ _ Ha Heq), pipeline_spec. cbn [to_gchain g_filters g_selectors]. fold ch.
    now rewrite (sort_desc_ext _ (total_score (mlookup m) ch)) by apply eff_score_total.
Qed.
Print Assumptions C17_shard_exact.

(* no higher-scored eligible unassigned node was skipped: a node that passes the
   filters, was not taken earlier and is not in the shard comes after EVERY node
   of the shard in (score descending, position in the node list) order *)
Theorem C17_shard_no_skip : forall nodes m specs res pre sp post p y,
  assignments nodes m specs = Some res ->
  NoDup (map nname nodes) -> specs = pre ++ sp :: post ->
  let ch := chain_of specs (ss_name sp) in
  let l := rlookup res (ss_name sp) in
  In p (eligible_of (mlookup m) ch (indexed nodes) (taken_from res pre [])) -> ~ In (nm p) l ->
  In y (indexed nodes) -> In (nm y) l ->
  precedes (total_score (mlookup m) ch) y p = true.
Proof.
  intros nodes m specs res pre sp post p y Ha Hn Heq ch l. unfold l.
  rewrite (assignments_core _ _ _ _ _ _ _ Ha Heq). fold ch. apply sel_no_skip. exact Hn.
Qed.
Print Assumptions C17_shard_no_skip.

(* --- identical inputs, identical assignments: independence from what Go iterates as a map --- *)

(* the node-metric map: every listing order of the same map gives the same assignments *)
Theorem C17_metrics_perm : forall nodes m m' specs,
  NoDup (map fst m) -> Permutation.Permutation m m' ->
  assignments nodes m specs = assignments nodes m' specs.
Proof.
  intros nodes m m' specs Hnd Hp. apply assignments_pointwise. intros s a _.
  apply run_pipeline_look_ext. now apply mlookup_perm.
Qed.
Print Assumptions C17_metrics_perm.

(* the node list comes from the node lister (a Go map); listNodesFromCache sorts
   it by name (fix f5a4653), so the assignments do not depend on the lister's
   order at all — full strength, ties of scores included *)
Theorem C17_assignments_lister_order_independent : forall nodes nodes' m specs,
  Permutation.Permutation nodes nodes' -> NoDup (map nname nodes) ->
  assignments (list_nodes nodes) m specs = assignments (list_nodes nodes') m specs.
Proof.
  intros nodes nodes' m specs Hp Hnd. now rewrite (list_nodes_order_independent nodes nodes' Hp Hnd).
Qed.
Print Assumptions C17_assignments_lister_order_independent.

(* the calculation alone (without the sorted listing) is invariant under the
   order of its node slice exactly as far as scores do not tie ... *)
Theorem C17_assignments_node_perm_tie_free : forall nodes nodes' m specs,
  NoDup nodes -> Permutation.Permutation nodes nodes' ->
  (forall s, In s specs -> tie_free (total_score (mlookup m) (chain_of specs (ss_name s))) nodes) ->
  assignments nodes m specs = assignments nodes' m specs.
Proof.
  intros nodes nodes' m specs Hnd Hp Htf. apply assignments_pointwise. intros s a Hs.
  apply run_pipeline_node_perm; auto.
Qed.
Print Assumptions C17_assignments_node_perm_tie_free.

(* ... and NOT in general: two nodes, cap 1, handed over in either order.  This is what
   the controller did before fix f5a4653 put the sort into listNodesFromCache *)
Theorem C17_node_order_refuted :
  exists nodes nodes' m specs,
    Permutation.Permutation nodes nodes' /\ NoDup (map nname nodes) /\
    assignments nodes m specs = Some [(1, [1%positive])] /\
    assignments nodes' m specs = Some [(1, [2%positive])].
Proof.
  exists (plain_nodes 2), (rev (plain_nodes 2)), [], [spec_limit1]. repeat split.
  - apply Permutation_rev.
  - vm_compute. repeat constructor; simpl; intuition discriminate.
Qed.
Print Assumptions C17_node_order_refuted.

(* statelessness across reconciles.  NOTE: in the MODEL this holds by
   construction ([reconcile] returns the manager unchanged, as the Go manager
   writes no field after NewShardingManager); its content is the correspondence
   of selector 5 and law 109 on the real manager.  On one manager, the k-th reconcile of ANY
   history (nodes added / removed / relabelled, metrics changing) returns exactly
   what a fresh manager returns on the k-th input alone *)
Theorem C17_history_stateless : forall specs steps outs k ns m,
  history specs steps = Some outs -> nth_error steps k = Some (ns, m) ->
  exists r, nth_error outs k = Some r /\ assignments ns m specs = Some r.
Proof.
  intros specs steps outs k ns m.
  unfold history. destruct (new_manager specs) as [mg|] eqn:Emg; [|discriminate].
  intros [= <-]. revert k. induction steps as [|[ns0 m0] steps IH]; intros k Hk; [now destruct k|].
  destruct k as [|k]; simpl in Hk.
  - injection Hk as -> ->. eexists. split; [reflexivity|].
    exact (proj2 (reconcile_fresh specs mg ns m Emg)).
  - exact (IH k Hk).
Qed.
Print Assumptions C17_history_stateless.

Theorem C17_history_length : forall specs steps outs,
  history specs steps = Some outs -> length outs = length steps.
Proof.
  intros specs steps outs.
  unfold history. destruct (new_manager specs) as [mg|]; [|discriminate]. intros [= <-].
  revert mg. induction steps as [|[ns m] steps IH]; intros mg; simpl; [reflexivity|].
  unfold reconcile. simpl. now rewrite IH.
Qed.
Print Assumptions C17_history_length.

(* --- publication: the NodeShard objects (applyAssignment / assignmentNeedsUpdate) --- *)

(* for ALL histories: every published shard is the calculated shard of the same
   scheduler at this or an earlier sync — never anything else *)
Theorem C17_published_is_earlier_calculation : forall specs steps pubs k pubk e,
  publish_history specs steps = Some pubs -> nth_error pubs k = Some pubk -> In e pubk ->
  exists j ns m res, (j <= k)%nat /\ nth_error steps j = Some (ns, m) /\
                     sync_assignments ns m specs = Some res /\ In e res.
Proof.
  intros specs steps pubs k pubk e.
  unfold publish_history. destruct (new_manager specs) as [mg|] eqn:Emg; [|discriminate].
  intros [= <-] Hk He.
  destruct (pub_history_origin mg steps [] k pubk e Hk He) as [[] | [j [ns [m [Hj [Hn Hin]]]]]].
  exists j, ns, m, (snd (reconcile mg (list_nodes ns) m)). repeat split; auto.
  unfold sync_assignments. exact (proj2 (reconcile_fresh specs mg (list_nodes ns) m Emg)).
Qed.
Print Assumptions C17_published_is_earlier_calculation.

(* assignmentNeedsUpdate exactly: a different count, or at least max(1, len/10) NEW nodes *)
Theorem C17_needs_update_spec : forall p c,
  needs_update p c = true <->
  length p <> length c \/ (Nat.max 1 (length c / 10) <= new_count p c)%nat.
Proof. exact needs_update_spec. Qed.
Print Assumptions C17_needs_update_spec.

(* below 20 nodes any new node republishes the shard ... *)
Theorem C17_needs_update_small : forall p c,
  (length c < 20)%nat ->
  (needs_update p c = true <-> length p <> length c \/ (1 <= new_count p c)%nat).
Proof.
  intros p c H. rewrite needs_update_spec.
  assert (length c / 10 < 2)%nat by (apply Nat.div_lt_upper_bound; lia).
  rewrite Nat.max_l by lia. reflexivity.
Qed.
Print Assumptions C17_needs_update_small.

(* ... from 20 nodes on a single swapped node never does (in general: fewer than len/10 swapped nodes) *)
Theorem C17_needs_update_single_swap_missed : forall p c,
  length p = length c -> (20 <= length c)%nat -> new_count p c = 1%nat -> needs_update p c = false.
Proof.
  intros p c H1 H2 H3. destruct (needs_update p c) eqn:E; [|reflexivity].
  apply needs_update_spec in E. destruct E as [E | E]; [contradiction|].
  assert (2 <= length c / 10)%nat by (apply Nat.div_le_lower_bound; lia). lia.
Qed.
Print Assumptions C17_needs_update_single_swap_missed.

Theorem C17_needs_update_below_threshold : forall p c,
  length p = length c -> (new_count p c < Nat.max 1 (length c / 10))%nat -> needs_update p c = false.
Proof.
  intros p c H1 H2. destruct (needs_update p c) eqn:E; [|reflexivity].
  apply needs_update_spec in E. destruct E as [E | E]; [contradiction | lia].
Qed.
Print Assumptions C17_needs_update_below_threshold.

(* the worker's fallback (assignment cache empty or too old; after fix 3dd3dc2):
   for every configured scheduler it yields exactly that scheduler's component of
   the global calculation on the same nodes and metrics — whatever the NodeShard
   lister shows and in whatever order keys are processed (neither is an input) *)
Theorem C17_fallback_eq_global : forall specs mg nodes m s,
  new_manager specs = Some mg -> In s (map ss_name specs) ->
  fallback mg nodes m s = Some (rlookup (snd (reconcile mg (list_nodes nodes) m)) s).
Proof. exact fallback_eq_global. Qed.
Print Assumptions C17_fallback_eq_global.

(* --- the op-level controller model (selector 8: syncs, single worker items in any
   order through the cache or the fallback, cache clears, deleted and lister-hidden
   NodeShards) --- *)

(* for ALL op histories: every NodeShard on the API server is the same scheduler's
   entry of the global calculation of this or an earlier step — never anything else *)
Theorem C17_published_ops_is_earlier_calculation : forall specs steps pubs k api e,
  publish_ops_history specs steps = Some pubs -> nth_error pubs k = Some api -> In e api ->
  exists j ns m ops res, (j <= k)%nat /\ nth_error steps j = Some (ns, m, ops) /\
                         sync_assignments ns m specs = Some res /\ In e res.
Proof.
  intros specs steps pubs k api e.
  unfold publish_ops_history. destruct (new_manager specs) as [mg|] eqn:Emg; [|discriminate].
  intros [= <-] Hk He.
  destruct (ops_history_origin specs mg Emg steps {| c_api := []; c_cache := None |} (fun _ => False) k api e)
    as [[] | [j [ns [m [ops [Hj [Hn Hin]]]]]]]; auto.
  - split; [intros e0 [] | intros c e0; discriminate].
  - exists j, ns, m, ops, (snd (reconcile mg (list_nodes ns) m)). repeat split; auto.
    unfold sync_assignments. exact (proj2 (reconcile_fresh specs mg (list_nodes ns) m Emg)).
Qed.
Print Assumptions C17_published_ops_is_earlier_calculation.

(* a global sync with nothing hidden, entry by entry: the calculated shard unless the damping refuses *)
Theorem C17_sync_step_lookup : forall mg ns m st t,
  let calc := snd (reconcile mg (list_nodes ns) m) in
  plookup (c_api (step6 mg ns m st (OSync []))) t =
  match plookup calc t with
  | None => plookup (c_api st) t
  | Some l => match plookup (c_api st) t with
              | None => Some l
              | Some cur => if needs_update cur l then Some l else Some cur
              end
  end.
Proof. exact sync_step_lookup. Qed.
Print Assumptions C17_sync_step_lookup.

(* after a global sync with no hidden NodeShard and no damping every scheduler's
   published shard IS its calculated shard, and different schedulers' published shards are disjoint *)
Theorem C17_sync_without_damping_publishes_calculation : forall specs mg ns m st,
  new_manager specs = Some mg ->
  let calc := snd (reconcile mg (list_nodes ns) m) in
  (forall s l cur, In (s, l) calc -> plookup (c_api st) s = Some cur -> needs_update cur l = true \/ cur = l) ->
  let api' := c_api (step6 mg ns m st (OSync [])) in
  (forall s l, In (s, l) calc -> plookup api' s = Some l) /\
  (forall s1 l1 s2 l2 x, In (s1, l1) calc -> In (s2, l2) calc -> s1 <> s2 ->
     plookup api' s1 = Some l1 /\ plookup api' s2 = Some l2 /\ ~ (In x l1 /\ In x l2)).
Proof.
  intros specs mg ns m st Hmg calc Hnd api'.
  assert (Hcur : forall s l, In (s, l) calc -> plookup api' s = Some l).
  { intros s l Hin. unfold api'. rewrite sync_step_lookup. fold calc.
    rewrite (In_plookup calc s l (final_map_names_nodup _) Hin).
    destruct (plookup (c_api st) s) as [cur|] eqn:E; [|reflexivity].
    destruct (Hnd s l cur Hin E) as [-> | ->]; [reflexivity|]. now destruct (needs_update l l). }
  split; [exact Hcur|]. intros s1 l1 s2 l2 x H1 H2 Hne. repeat split; auto.
  intros [Hx1 Hx2].
  pose proof (proj2 (reconcile_fresh specs mg (list_nodes ns) m Hmg)) as Ha. fold calc in Ha.
  exact (shards_disjoint _ _ _ _ s1 l1 s2 l2 x Ha H1 H2 Hne Hx1 Hx2).
Qed.
Print Assumptions C17_sync_without_damping_publishes_calculation.

(* ... but a single worker item through the fallback republishes ONE shard of a NEW
   calculation next to the others' old ones: overlap with no damping involved
   (known finding C17-fallback-republishes-one-shard, reproduced on the real controller) *)
Theorem C17_fallback_single_key_overlap_refuted :
  exists p1 p2,
    publish_ops_history two_caps
      [ (plain_nodes 4, m_up, [OSync []]); (plain_nodes 4, m_down, [OClear; OKey 2 []]) ] = Some [p1; p2] /\
    p2 = [(1, [4; 3]%positive); (2, [3; 4]%positive)] /\
    law_disjoint p2 = false /\
    needs_update [4; 3]%positive [1; 2]%positive = true /\
    sync_assignments (plain_nodes 4) m_down two_caps = Some [(1, [1; 2]%positive); (2, [3; 4]%positive)].
Proof.
  eexists _, _. vm_compute. repeat split; reflexivity.
Qed.
Print Assumptions C17_fallback_single_key_overlap_refuted.

(* non-vacuity of C17_fallback_eq_global *)
Example C17_fallback_demo :
  exists mg, new_manager two_caps = Some mg /\
    fallback mg (plain_nodes 4) m_up 1 = Some [4; 3]%positive /\
    fallback mg (plain_nodes 4) m_up 2 = Some [2; 1]%positive /\
    fallback mg (plain_nodes 4) m_up 7 = None.
Proof. exact fallback_demo. Qed.

(* hence the published shards are NOT always disjoint / eligible: known finding
   C17-publish-hysteresis-keeps-stale-node (22 nodes, two schedulers, one node moves) *)
Theorem C17_published_disjoint_eligible_refuted :
  exists p1 p2 l1 l2,
    publish_history hyst_specs hyst_steps = Some [p1; p2] /\
    In (1, l1) p2 /\ In (2, l2) p2 /\ In 1%positive l1 /\ In 1%positive l2 /\
    alloc_filter (mlookup (hyst_metrics 900 300)) 0 60 {| nname := 1; nwarm := false |} = false /\
    law_disjoint p2 = false /\
    law_eligible (plain_nodes 22) (hyst_metrics 900 300) hyst_specs p2 = false /\
    sync_assignments (plain_nodes 22) (hyst_metrics 900 300) hyst_specs =
      Some [(1, map Pos.of_nat (seq 2 20)); (2, [1; 22]%positive)].
Proof.
  eexists _, _, (map Pos.of_nat (seq 1 20)), [1; 22]%positive.
  split; [vm_compute; reflexivity|].
  vm_compute. repeat split; auto 30.
Qed.
Print Assumptions C17_published_disjoint_eligible_refuted.

(* --- the batched path as it was before the fix (F6): refuted --- *)
Theorem C17_bounded_old_batched_refuted :
  exists nodes m specs l,
    length nodes = 51%nat /\
    In (RLimit 0 1) (chain_of specs 1) /\
    old_assignments nodes m specs = Some [(1, l)] /\ length l = 2%nat /\
    assignments nodes m specs = Some [(1, [1%positive])].
Proof.
  exists (plain_nodes 51), [], [spec_limit1], [1%positive; 51%positive].
  vm_compute. repeat split; auto.
Qed.
Print Assumptions C17_bounded_old_batched_refuted.

Theorem C17_order_old_batched_refuted :
  exists nodes m specs,
    old_assignments nodes m specs = Some [(1, [50; 49; 48; 60; 59; 58]%positive)] /\
    assignments nodes m specs = Some [(1, [60; 59; 58]%positive)].
Proof.
  exists (plain_nodes 60), (rising_metrics 60), [spec_legacy3]. vm_compute. split; reflexivity.
Qed.
Print Assumptions C17_order_old_batched_refuted.

(* non-vacuity: an accepted, fully initialised two-scheduler configuration with non-empty capped shards *)
Example C17_demo :
  assignments demo_nodes demo_metrics demo_specs = Some [(1, [4; 5]%positive); (2, [2; 3]%positive)] /\
  NoDup (map ss_name demo_specs) /\ all_init demo_specs.
Proof. exact demo_assignments. Qed.
