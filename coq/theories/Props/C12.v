(* Property C12 — queue fair shares respect guarantee, capability, demand and the
   cluster total.  The property theorems, each followed by Print Assumptions (the Examples at the
   end are not).  A proof stands here when nothing else needs the fact; otherwise the theorem is
   [exact] of a lemma of C12/Lemmas.v, Termination.v, Top.v or LawsSound.v.  Values are exact rationals;
   [fuel] = number of rounds, so every statement holds at whichever round the float
   implementation leaves the loop. *)
From Coq Require Import Qminmax Bool Lia Lqa Morphisms SpecFloat QArith ZArith List Permutation.
From V Require Import C12.Model C12.Lemmas C12.Termination C12.Top C12.Laws C12.LawsSound.
Import ListNotations.
Open Scope Q_scope.

(* realCapability: value on present, non-negative operands (realcap_def of C12/Lemmas.v is the
   cell-wise unfolding of the definition) *)
Theorem C12_realcap_value : forall total tg g c i t s x y,
  cnth total i = Some t -> cnth tg i = Some s -> cnth g i = Some x ->
  cnth (cap_norm c) i = Some y -> 0 <= t -> 0 <= s ->
  exists v, cnth (real_cap total tg g (Some c)) i = Some v /\ v == qmin (qmax 0 (t - s) + x) y.
Proof.
  intros total tg g c i t s x y Et Es Eg Ec Ht Hs. rewrite realcap_def. cbn zeta. rewrite Et, Es, Eg, Ec.
  unfold cexc, cinc. cbn [val0]. rewrite (qeq_bool_m1 _ Ht), (qeq_bool_m1 _ Hs).
  destruct (qlt_bool s t) eqn:E.
  - apply qlt_bool_iff in E. destruct (is_base i); cbn [cadd cmin_inf];
      eexists; (split; [reflexivity|]); qcases; lra.
  - apply qlt_bool_false in E. destruct (is_base i); cbn [cadd cmin_inf].
    + eexists; (split; [reflexivity|]); qcases; lra.
    + (* scalar, total <= totalGuarantee: the excess is 0 there and the guarantee alone remains *)
      eexists; (split; [reflexivity|]); qcases; lra.
Qed.
Print Assumptions C12_realcap_value.

(* deserved <= max(guarantee, realCapability) and deserved <= max(guarantee, request),
   every queue, every dimension, after any number of rounds *)
Theorem C12_deserved_upper_bounds : forall fuel D rem qs k,
  Forall upper_ok qs -> Forall upper_ok (out_qs (loop fuel D rem qs k)).
Proof.
  intros fuel D rem qs k.
  intro H.
  apply (loop_inv (fun qs _ => Forall upper_ok qs) D); [|exact H].
  intros rem0 qs0 H0 _. apply round_forall; [|exact H0]. intros q. apply upper_ok_upd.
Qed.
Print Assumptions C12_deserved_upper_bounds.

Theorem C12_upper_bounds_hold_initially : forall q,
  wf_static q -> q_des q = vzero -> upper_ok q.
Proof. exact upper_ok_init. Qed.
Print Assumptions C12_upper_bounds_hold_initially.

(* guarantee <= deserved once a round has run (weights positive) *)
Theorem C12_guarantee_le_deserved : forall fuel D rem qs k,
  Forall (fun q => q_meet q = false) qs ->
  (qs <> [] -> total_weight qs <> 0%Z) ->
  Forall lower_ok (out_qs (loop (S fuel) D rem qs k)).
Proof.
  intros fuel D rem qs k.
  intros Hm HW. destruct qs as [|q0 qs0]; [simpl; constructor|].
  assert (HW' : total_weight (q0 :: qs0) <> 0%Z) by (apply HW; discriminate).
  remember (q0 :: qs0) as qs. clear Heqqs HW.
  cbn [loop]. apply Z.eqb_neq in HW'. rewrite HW'.
  assert (H1 : Forall lower_ok (fst (round D rem qs))).
  { unfold round; simpl. apply Forall_forall. intros q' Hin. apply in_map_iff in Hin.
    destruct Hin as (q & <- & Hq). apply lower_ok_upd. rewrite Forall_forall in Hm.
    rewrite (Hm q Hq). discriminate. }
  destruct (round D rem qs) as [qs' rem'] eqn:ER. simpl in H1.
  destruct (vempty rem' || vdeq rem' rem); [exact H1|].
  apply (loop_inv (fun qs _ => Forall lower_ok qs) D); [|exact H1].
  intros rem0 qs1 H0 _. apply round_forall; [|exact H0].
  intros q Hq. apply lower_ok_upd. intros _. exact Hq.
Qed.
Print Assumptions C12_guarantee_le_deserved.

Theorem C12_positive_weights_suffice : forall qs,
  Forall (fun q => (0 < q_w q)%Z) qs -> Exists (fun q => q_meet q = false) qs ->
  (0 < total_weight qs)%Z.
Proof.
  intros qs.
  intros Hw He. induction He as [q qs Hq | q qs He IH]; inversion Hw; subst; simpl.
  - rewrite Hq. pose proof (total_weight_nonneg qs H2). lia.
  - specialize (IH H2). destruct (q_meet q); lia.
Qed.
Print Assumptions C12_positive_weights_suffice.

(* sum of deserved <= total + sum of guarantees, per dimension, any number of rounds *)
Theorem C12_deserved_sum_bound : forall fuel D total qs k i,
  Forall (fun q => q_des q = vzero /\ 0 <= val0 (cnth (q_gua q) i) /\ (0 < q_w q)%Z) qs ->
  0 <= val0 (cnth total i) ->
  qsumf (dv i) (out_qs (loop fuel D (vfix D total) qs k)) <= val0 (cnth total i) + qsumf (gv i) qs.
Proof. exact deserved_sum_bound. Qed.
Print Assumptions C12_deserved_sum_bound.

(* the result does not depend on the order in which Go's map iteration visits the queues *)
Theorem C12_round_order_independent : forall D rem qs qs',
  Permutation qs qs' ->
  Permutation (fst (round D rem qs)) (fst (round D rem qs')) /\
  snd (round D rem qs) = snd (round D rem qs').
Proof. exact round_order_independent. Qed.
Print Assumptions C12_round_order_independent.

Theorem C12_loop_order_independent : forall fuel D rem qs qs' k,
  Permutation qs qs' ->
  Permutation (out_qs (loop fuel D rem qs k)) (out_qs (loop fuel D rem qs' k)) /\
  out_rem (loop fuel D rem qs k) = out_rem (loop fuel D rem qs' k).
Proof.
  (* the same order in every round, compared with itself and with the other list *)
  intros fuel D rem qs qs' k HP.
  pose proof (loop_any_order_per_round (fun _ l => l) (fun _ l => Permutation_refl l) fuel D rem) as H.
  destruct (H qs qs' k HP) as (P1 & R1 & _), (H qs' qs' k (Permutation_refl _)) as (P2 & R2 & _).
  split; [rewrite P1, P2; reflexivity | congruence].
Qed.
Print Assumptions C12_loop_order_independent.

(* STEP LEMMA, not the clause: larger weight, equal demand: not less after ONE round in which
   both queues take part, given the same order before it.  It does not compose over the loop
   (the heavier twin can be declared satisfied first); the clause itself is refuted below and
   the tolerant version over the whole loop is not proved (law 104 only). *)
Theorem C12_weight_monotone_round : forall rem W q1 q2,
  q_rcap q1 = q_rcap q2 -> q_req q1 = q_req q2 -> q_gua q1 = q_gua q2 ->
  q_meet q1 = false -> q_meet q2 = false ->
  (0 < q_w q1 <= q_w q2)%Z -> (0 < W)%Z ->
  (forall i, 0 <= val0 (cnth rem i)) -> wf_static q1 ->
  (forall i, 0 <= val0 (cnth (q_des q1) i) <= val0 (cnth (q_des q2) i)) ->
  forall i, val0 (cnth (q_des (upd rem W q1)) i) <= val0 (cnth (q_des (upd rem W q2)) i).
Proof.
  intros rem W q1 q2 E1 E2 E3 M1 M2 Hw HW Hrem Hwf Hd i.
  rewrite !upd_des, M1, M2, !cnth_new_des, <- E1, <- E2, <- E3.
  destruct (Hwf i) as (_ & Hr & _).
  assert (K1 : 0 <= ratio (q_w q1) W) by (apply ratio_nonneg; lia).
  assert (K2 : ratio (q_w q1) W <= ratio (q_w q2) W) by (apply ratio_mono; lia).
  apply cnew_mono; auto using wf_cap.
  rewrite !val0_cmul. split; [apply Qmult_le_0_compat | apply Qmult_le_compat_r]; auto.
Qed.
Print Assumptions C12_weight_monotone_round.

(* ... but across rounds the strict statement fails by the 0.1 satisfaction tolerance *)
Theorem C12_weight_monotone_strict_refuted :
  exists D rem q1 q2 q3,
    q_rcap q1 = q_rcap q2 /\ q_req q1 = q_req q2 /\ q_gua q1 = q_gua q2 /\ (0 < q_w q1 <= q_w q2)%Z /\
    match out_qs (loop 10 D rem [q1; q2; q3] 0) with
    | [r1; r2; _] => val0 (cnth (q_des r2) 0) < val0 (cnth (q_des r1) 0)
    | _ => False
    end.
Proof.
  exists 2%nat, twin_rem, (twin 1), (twin 2), waster.
  split; [reflexivity|]. split; [reflexivity|]. split; [reflexivity|]. split; [simpl; lia|].
  vm_compute. reflexivity.
Qed.
Print Assumptions C12_weight_monotone_strict_refuted.

(* overused <-> deserved - allocated < 0.1 in every dimension present in deserved *)
Theorem C12_overused_iff : forall q,
  overused q = true <->
  forall i, match cnth (q_des q) i with
            | None => True
            | Some d => d - val0 (cnth (q_alloc q) i) < 1 # 10
            end.
Proof. exact overused_iff. Qed.
Print Assumptions C12_overused_iff.

Theorem C12_overused_integers : forall q,
  (forall i d, cnth (q_des q) i = Some d -> exists n m : Z,
       d == inject_Z n /\ val0 (cnth (q_alloc q) i) == inject_Z m) ->
  (overused q = true <-> forall i d, cnth (q_des q) i = Some d -> d <= val0 (cnth (q_alloc q) i)).
Proof.
  intros q.
  intro Hint. rewrite overused_iff. split; intros H i.
  - intros d Ed. specialize (H i). rewrite Ed in H.
    destruct (Hint i d Ed) as (n & m & En & Em). rewrite En, Em in *.
    rewrite <- Zle_Qle.
    assert (inject_Z n - inject_Z m < 1 # 10) by exact H.
    destruct (Z_le_gt_dec n m) as [L|G]; [exact L|exfalso].
    assert (inject_Z m + 1 <= inject_Z n).
    { change 1 with (inject_Z 1). rewrite <- inject_Z_plus, <- Zle_Qle. lia. }
    lra.
  - destruct (cnth (q_des q) i) eqn:Ed; [|exact I]. specialize (H i q0 Ed). lra.
Qed.
Print Assumptions C12_overused_integers.

(* any fuel yields a state satisfying every invariant of the rounds (partial correctness) ... *)
Theorem C12_loop_invariant : forall (I : list qattr -> vec -> Prop) D,
  (forall rem qs, I qs rem -> total_weight qs <> 0%Z ->
                  I (fst (round D rem qs)) (snd (round D rem qs))) ->
  forall fuel rem qs k, I qs rem ->
    I (out_qs (loop fuel D rem qs k)) (out_rem (loop fuel D rem qs k)).
Proof. exact loop_inv. Qed.
Print Assumptions C12_loop_invariant.

(* ... but TERMINATION IS FALSE IN EXACT ARITHMETIC, with the exit tests exactly as coded (IsEmpty with
   the 0.1 threshold per dimension and pods ignored, DeepEqual(remaining, old), total weight 0):
   on the cross-capped witness the loop runs out of fuel for EVERY fuel.  (The real plugin
   leaves after 54 rounds on it: float absorption; see docs/notes/C12.md and law 107.) *)
Theorem C12_exact_nontermination : forall fuel,
  is_out_of_fuel (loop fuel 4 wit_rem wit_qs 0) = true.
Proof.
  destruct fuel as [|f]; [reflexivity|]. cbn [loop].
  change (Z.eqb (total_weight wit_qs) 0) with false. cbv iota.
  rewrite wit_round1.
  change (vempty wrem1 || vdeq wrem1 wit_rem) with false. cbv iota.
  apply wit_never_exits. exact WJ_round1.
Qed.
Print Assumptions C12_exact_nontermination.

(* in particular not within 200 rounds *)
Theorem C12_exact_termination_refuted_200 :
  exists D rem qs, Forall (fun q => (0 < q_w q)%Z /\ q_meet q = false) qs /\
                   is_out_of_fuel (loop 200 D rem qs 0) = true.
Proof.
  exists 4%nat, wit_rem, wit_qs. split.
  - repeat constructor.
  - apply C12_exact_nontermination.
Qed.
Print Assumptions C12_exact_termination_refuted_200.

(* what is true about fuel: an exit, once taken, is stable under more fuel, and is taken
   after at most [fuel] rounds *)
Theorem C12_loop_done_stable : forall fuel D rem qs k qs' rem' n,
  loop fuel D rem qs k = Done qs' rem' n ->
  forall extra, loop (fuel + extra) D rem qs k = Done qs' rem' n.
Proof.
  intros fuel D.
  induction fuel as [|f IH]; intros rem qs k qs' rem' n H extra; [discriminate|].
  cbn [loop plus] in *.
  destruct (Z.eqb (total_weight qs) 0); [exact H|].
  destruct (round D rem qs) as [a b].
  destruct (vempty b || vdeq b rem); [exact H|]. apply IH. exact H.
Qed.
Print Assumptions C12_loop_done_stable.

Theorem C12_loop_rounds_le_fuel : forall fuel D rem qs k qs' rem' n,
  loop fuel D rem qs k = Done qs' rem' n -> (n <= k + fuel)%nat.
Proof.
  intros fuel D.
  induction fuel as [|f IH]; intros rem qs k qs' rem' n H; [discriminate|].
  cbn [loop] in H.
  destruct (Z.eqb (total_weight qs) 0); [inversion H; lia|].
  destruct (round D rem qs) as [a b].
  destruct (vempty b || vdeq b rem); [inversion H; lia|]. apply IH in H. lia.
Qed.
Print Assumptions C12_loop_rounds_le_fuel.

(* the progress measure that is true: in every round every deserved value grows or stays and
   every remaining value shrinks or stays (no amount is ever handed back), so over the whole
   loop remaining stays within [0, start] -- but nothing bounds the number of rounds *)
Theorem C12_round_monotone : forall D rem qs,
  Forall (fun q => (0 < q_w q)%Z /\ wf_static q /\ Mq q) qs -> total_weight qs <> 0%Z -> vnonneg rem ->
  Forall (fun q => (0 < q_w q)%Z /\ wf_static q /\ Mq q) (fst (round D rem qs))
  /\ vnonneg (snd (round D rem qs))
  /\ (forall q i, In q qs ->
        val0 (cnth (q_des q) i) <= val0 (cnth (q_des (upd rem (total_weight qs) q)) i))
  /\ (forall i, val0 (cnth (snd (round D rem qs)) i) <= val0 (cnth rem i)).
Proof. exact round_monotone. Qed.
Print Assumptions C12_round_monotone.

Theorem C12_remaining_never_grows : forall fuel D rem0 qs k,
  Forall (fun q => (0 < q_w q)%Z /\ wf_static q /\ Mq q) qs -> vnonneg rem0 ->
  forall i, 0 <= val0 (cnth (out_rem (loop fuel D rem0 qs k)) i) <= val0 (cnth rem0 i).
Proof.
  intros fuel D rem0 qs k.
  intros Hq Hr.
  pose (I := fun (qs : list qattr) (rem : vec) =>
    Forall (fun q => (0 < q_w q)%Z /\ wf_static q /\ Mq q) qs /\ vnonneg rem
    /\ forall i, val0 (cnth rem i) <= val0 (cnth rem0 i)).
  assert (H : I (out_qs (loop fuel D rem0 qs k)) (out_rem (loop fuel D rem0 qs k))).
  { apply (loop_inv I D).
    - intros rem qs0 (H1 & H2 & H3) HW.
      destruct (round_monotone D rem qs0 H1 HW H2) as (A & B & _ & C).
      split; [exact A|]. split; [exact B|]. intro i. specialize (C i). specialize (H3 i). lra.
    - split; [exact Hq|]. split; [exact Hr|]. intro i. lra. }
  destruct H as (_ & H2 & H3). intro i. split; [apply H2 | apply H3].
Qed.
Print Assumptions C12_remaining_never_grows.

Theorem C12_progress_hypotheses_hold_initially : forall q,
  wf_static q -> q_des q = vzero -> Mq q.
Proof.
  intros q.
  intros Hwf Hd i. rewrite Hd. pose proof (cnth_vzero i) as Z0. destruct (Hwf i) as (_ & _ & Hg).
  split; [|lra]. unfold satM. qcases; lra.
Qed.
Print Assumptions C12_progress_hypotheses_hold_initially.

(* ORDER INDEPENDENCE, pointwise: run over any permutation qs' of qs, the loop returns
   map (loopF .. qs) qs' -- every queue ends with the record loopF assigns to it, whatever
   the iteration order; all inputs, all fuel *)
Theorem C12_loop_pointwise : forall fuel D rem qs qs' k,
  Permutation qs qs' ->
  out_qs (loop fuel D rem qs' k) = map (loopF fuel D rem qs) qs'.
Proof. exact loop_pointwise. Qed.
Print Assumptions C12_loop_pointwise.

(* ---------- the model's own entry point on every well-formed session (audit W1) ---------- *)
Theorem C12_attrs_wf : forall total ss,
  vnonneg total -> Forall spec_ok ss -> Forall init_ok (attrs total ss).
Proof. exact attrs_wf. Qed.
Print Assumptions C12_attrs_wf.

(* clauses 1-4 for [proportion]: upper bounds, guarantee (fuel >= 1), sum, remaining in [0,total] *)
Theorem C12_proportion_correct : forall total ss fuel D,
  vnonneg total -> Forall spec_ok ss ->
  let o := proportion fuel D total ss in
  Forall upper_ok (out_qs o)
  /\ ((1 <= fuel)%nat -> Forall lower_ok (out_qs o))
  /\ (forall i, qsumf (dv i) (out_qs o) <= val0 (cnth total i) + qsumf (gv i) (attrs total ss))
  /\ (forall i, 0 <= val0 (cnth (out_rem o) i) <= val0 (cnth total i)).
Proof.
  intros total ss fuel D Ht Hss o. pose proof (attrs_wf total ss Ht Hss) as HA. unfold o, proportion.
  assert (Hfix : vnonneg (vfix D total) /\ forall i, val0 (cnth (vfix D total) i) <= val0 (cnth total i)).
  { split; intro i; rewrite cnth_vfix; destruct (Nat.ltb i D); cbn [val0]; specialize (Ht i); lra. }
  split; [|split; [|split]].
  - apply C12_deserved_upper_bounds. eapply Forall_impl; [|exact HA].
    intros q (H1 & H2 & _). apply upper_ok_init; assumption.
  - intro Hf. destruct fuel as [|f]; [lia|]. apply C12_guarantee_le_deserved.
    + eapply Forall_impl; [|exact HA]. intros q (_ & _ & H & _). exact H.
    + intro Hne. assert (0 < total_weight (attrs total ss))%Z; [|lia]. apply C12_positive_weights_suffice.
      * eapply Forall_impl; [|exact HA]. intros q (_ & _ & _ & H). exact H.
      * destruct (attrs total ss) as [|q0 l]; [contradiction|]. apply Exists_cons_hd.
        inversion HA; subst. destruct H1 as (_ & _ & H & _). exact H.
  - intro i. apply deserved_sum_bound; [|apply Ht].
    eapply Forall_impl; [|exact HA]. intros q (H1 & H2 & _ & H4). destruct (H1 i) as (_ & _ & Hg). auto.
  - intro i. destruct Hfix as (F1 & F2).
    pose proof (C12_remaining_never_grows fuel D (vfix D total) (attrs total ss) 0) as H.
    assert (HP : Forall (fun q => (0 < q_w q)%Z /\ wf_static q /\ Mq q) (attrs total ss)).
    { eapply Forall_impl; [|exact HA]. intros q (H1 & H2 & _ & H4). split; [auto|]. split; [auto|].
      apply C12_progress_hypotheses_hold_initially; assumption. }
    specialize (H HP F1 i). specialize (F2 i). lra.
Qed.
Print Assumptions C12_proportion_correct.

(* audit W3: realCapability reserves the guarantees of ALL other queues of the session *)
Theorem C12_realcap_reserves_others : forall total ss s i,
  vnonneg total -> Forall spec_ok ss -> In s ss ->
  let q := attr_of total (total_guarantee ss) s in
  let S := qsumf (fun s' => val0 (cnth (s_gua s') i)) ss in
  let g := val0 (cnth (s_gua s) i) in
  val0 (cnth (q_rcap q) i) <= qmax 0 (val0 (cnth total i) - S) + g
  /\ val0 (cnth (q_rcap q) i) <= qmax g (val0 (cnth total i) - (S - g)).
Proof. exact realcap_reserves_others. Qed.
Print Assumptions C12_realcap_reserves_others.

(* audit W2: the literal clause "deserved <= capability" is false when guarantee > capability ... *)
Theorem C12_deserved_le_capability_refuted :
  exists total ss fuel D q s c,
    vnonneg total /\ Forall spec_ok ss /\
    In q (out_qs (proportion fuel D total ss)) /\
    In s ss /\ q_gua q = base_some (s_gua s) /\ s_cap s = Some c /\
    cnth c 0 = Some 5 /\ 5 < val0 (cnth (q_des q) 0).
Proof.
  exists [Some 100; Some 100; Some 10], [badcap_spec], 5%nat, 3%nat.
  eexists. exists badcap_spec. eexists.
  split; [|split; [|split; [|split; [|split; [|split; [|split]]]]]].
  - apply ex_nonneg; reflexivity.
  - constructor; [|constructor]. unfold spec_ok, badcap_spec. cbn. split; [lia|]. split; [|split].
    + apply ex_nonneg; reflexivity.
    + intros c E. inversion E; subst. apply ex_nonneg; reflexivity.
    + constructor; [|constructor]. apply ex_nonneg; reflexivity.
  - vm_compute. left. reflexivity.
  - left. reflexivity.
  - vm_compute. reflexivity.
  - reflexivity.
  - reflexivity.
  - vm_compute. reflexivity.
Qed.
Print Assumptions C12_deserved_le_capability_refuted.

(* ... and true under the admission webhook's guard guarantee <= capability *)
Theorem C12_proportion_deserved_le_realcap : forall total ss fuel D,
  vnonneg total -> Forall spec_ok ss -> Forall gua_le_cap ss ->
  Forall (fun q => forall i c, cnth (q_rcap q) i = Some c -> val0 (cnth (q_des q) i) <= c)
         (out_qs (proportion fuel D total ss)).
Proof.
  intros total ss fuel D Ht Hss Hg. unfold proportion. apply deserved_le_realcap_guarded.
  unfold attrs. apply Forall_forall. intros q Hin. apply in_map_iff in Hin.
  destruct Hin as (s & <- & Hs). apply filter_In in Hs. destruct Hs as (Hs & _).
  rewrite Forall_forall in Hss, Hg. apply attr_of_capped; auto.
  apply vnonneg_total_guarantee. apply Forall_forall. exact Hss.
Qed.
Print Assumptions C12_proportion_deserved_le_realcap.

Theorem C12_realcap_le_capability : forall total tg g c i y,
  vnonneg total -> vnonneg tg -> vnonneg g -> vnonneg c ->
  cnth (cap_norm c) i = Some y ->
  val0 (cnth (real_cap total tg g (Some c)) i) <= y.
Proof. exact realcap_le_capability. Qed.
Print Assumptions C12_realcap_le_capability.

(* SECOND AUDIT N1 - CLAUSE 2 AT FULL STRENGTH, stated on DESERVED (a missing cell is not "no
   obligation"): on every well-formed session, for every queue record the loop returns and every
   dimension the cluster has,
     deserved <= max(own guarantee, total - guarantees of all OTHER queues of the session)
     deserved <= own capability, wherever that is bounded and not below the own guarantee.
   True for the code after fix 019e7c9 (realCapability keeps every dimension of the cluster);
   before it a scalar whose total was used up by guarantees vanished from realCapability and the
   queue was unbounded there (corpus/C12/unreserved-scalar-unbounded.jsonl). *)
Theorem C12_realcap_present : forall total tg g cap i t,
  cnth total i = Some t -> exists c, cnth (real_cap total tg g cap) i = Some c.
Proof. exact rcap_present. Qed.
Print Assumptions C12_realcap_present.

Theorem C12_proportion_clause2 : forall total ss fuel D,
  vnonneg total -> Forall spec_ok ss ->
  Forall (fun q => exists s, In s ss /\ q_gua q = base_some (s_gua s) /\
    forall i t, cnth total i = Some t ->
      let g := val0 (cnth (s_gua s) i) in
      let S := qsumf (fun s' => val0 (cnth (s_gua s') i)) ss in
      val0 (cnth (q_des q) i) <= qmax g (t - (S - g))
      /\ (forall c y, s_cap s = Some c -> cnth (cap_norm (base_some c)) i = Some y -> g <= y ->
                      val0 (cnth (q_des q) i) <= y))
    (out_qs (proportion fuel D total ss)).
Proof.
  intros total ss fuel D Ht Hss. unfold proportion.
  assert (HL : Forall (linked total ss) (out_qs (loop fuel D (vfix D total) (attrs total ss) 0))).
  { apply (loop_inv (fun qs _ => Forall (linked total ss) qs) D); [|apply linked_attrs; assumption].
    intros rem0 qs0 H0 _. apply round_forall; [|exact H0]. intro q. apply linked_upd. }
  apply Forall_forall. intros q Hq. rewrite Forall_forall in HL.
  destruct (HL q Hq) as (s & Hin & E1 & E2 & Hu'). destruct Hu' as (_ & Hu).
  exists s. split; [exact Hin|]. split; [exact E2|]. intros i t Et. cbv zeta.
  destruct (realcap_clause2 total ss s i t Ht Hss Hin Et) as (c0 & Ec0 & _ & B1 & B2).
  destruct (Hu i) as (Hc & _). specialize (Hc c0). rewrite E1, E2, val0_base_some in Hc.
  specialize (Hc Ec0).
  split; [|intros c y Ecap Ey Hgy]; (eapply Qle_trans; [exact Hc|]); eauto.
Qed.
Print Assumptions C12_proportion_clause2.

Theorem C12_capacity_clause2 : forall total ss s i t,
  vnonneg total -> Forall spec_ok ss -> In s ss -> cnth total i = Some t ->
  let d := snd (capacity_des total (total_guarantee ss) s) in
  let g := val0 (cnth (s_gua s) i) in
  let S := qsumf (fun s' => val0 (cnth (s_gua s') i)) ss in
  val0 (cnth d i) <= qmax g (t - (S - g))
  /\ (forall c y, s_cap s = Some c -> cnth (cap_norm (base_some c)) i = Some y -> g <= y ->
                  val0 (cnth d i) <= y).
Proof.
  intros total ss s i t Ht Hss Hin Et d g S.
  destruct (realcap_clause2 total ss s i t Ht Hss Hin Et) as (c0 & Ec0 & Hc0 & B1 & B2).
  destruct (capacity_des_bounds total (total_guarantee ss) s i) as (_ & Hb & Erc).
  rewrite <- Erc in Ec0. specialize (Hb c0 Ec0 Hc0). rewrite val0_base_some in Hb.
  split; [|intros c y Ecap Ey Hgy]; (eapply Qle_trans; [exact Hb|]); eauto.
Qed.
Print Assumptions C12_capacity_clause2.

(* audit W5: the capacity plugin's clamp (flat queues) *)
Theorem C12_capacity_des_bounds : forall total tg s i,
  let rc := fst (capacity_des total tg s) in
  let d := snd (capacity_des total tg s) in
  val0 (cnth (base_some (s_gua s)) i) <= val0 (cnth d i)
  /\ (forall c, cnth rc i = Some c -> 0 <= c ->
                val0 (cnth d i) <= qmax (val0 (cnth (base_some (s_gua s)) i)) c)
  /\ rc = q_rcap (attr_of total tg s).
Proof. exact capacity_des_bounds. Qed.
Print Assumptions C12_capacity_des_bounds.

(* audit W9: a different iteration order in every round *)
Theorem C12_loop_any_order_per_round : forall sh,
  (forall n l, Permutation l (sh n l)) ->
  forall fuel D rem qs qs' k, Permutation qs qs' ->
    Permutation (out_qs (loop fuel D rem qs k)) (out_qs (loopR sh fuel D rem qs' k))
    /\ out_rem (loop fuel D rem qs k) = out_rem (loopR sh fuel D rem qs' k)
    /\ is_out_of_fuel (loop fuel D rem qs k) = is_out_of_fuel (loopR sh fuel D rem qs' k).
Proof. exact loop_any_order_per_round. Qed.
Print Assumptions C12_loop_any_order_per_round.

(* float64 is not the exact model: binary64 addition is not associative, so the map-order
   accumulation of the real plugin is order dependent (known finding C12/map-order-dependent-deserved) *)
Theorem C12_float_sum_order_dependent_refuted :
  exists a b c : SpecFloat.spec_float,
    SpecFloat.SFeqb (f64add (f64add a b) c) (f64add a (f64add b c)) = false.
Proof.
  exists f01, f02, f03. vm_compute. reflexivity.
Qed.
Print Assumptions C12_float_sum_order_dependent_refuted.

(* ---------- what the boolean laws mean (audit W11) ---------- *)
Theorem C12_law_bounds_iff : forall D os,
  weights_pos os = true -> (law_bounds D os = true <-> Forall (bounds_prop D) os).
Proof. exact law_bounds_iff. Qed.
Print Assumptions C12_law_bounds_iff.

Theorem C12_law_sum_iff : forall D total os,
  weights_pos os = true ->
  (law_sum D total os = true <->
   forall j, (j < D)%nat ->
     qsum (map (fun o => val0 (cnth (o_des o) j)) os)
     <= val0 (cnth total j) + qsum (map (fun o => val0 (cnth (o_gua o) j)) os) + slack).
Proof. exact law_sum_iff. Qed.
Print Assumptions C12_law_sum_iff.

Theorem C12_law_reserve_sound : forall D total tg os,
  law_reserve false D total tg os = true ->
  Forall (fun o => forall j, (j < D)%nat ->
            (forall t, cnth total j = Some t -> cnth (o_rcap o) j <> None)
            /\ forall c, cnth (o_rcap o) j = Some c ->
            c <= qmax 0 (val0 (cnth total j) - val0 (cnth tg j)) + val0 (cnth (o_gua o) j) + slack) os.
Proof. exact law_reserve_sound. Qed.
Print Assumptions C12_law_reserve_sound.

Theorem C12_law_overused_sound : forall D o,
  law_overused_q D o = true -> near_boundary D o = false -> (o_over o = true <-> overused_prop o).
Proof. exact law_overused_q_sound. Qed.
Print Assumptions C12_law_overused_sound.

Theorem C12_law_weight_sound : forall D os,
  law_weight D os = true -> weights_pos os = true ->
  forall a b, In a os -> In b os -> same_demand a b = true -> (o_w a <= o_w b)%Z ->
  forall j, (j < D)%nat -> val0 (cnth (o_des a) j) <= val0 (cnth (o_des b) j) + eps + slack.
Proof. exact law_weight_sound. Qed.
Print Assumptions C12_law_weight_sound.

Theorem C12_law_rounds_iff : forall D big r ws,
  law_rounds D big r ws = true <->
  (exists w, In w ws /\ (w <= 0)%Z) \/ (r <= rounds_bound D big ws)%Z.
Proof. exact law_rounds_iff. Qed.
Print Assumptions C12_law_rounds_iff.

Theorem C12_law_bounds_accepts_model : forall D q,
  upper_ok q -> lower_ok q ->
  (forall j, cnth (q_rcap q) j = None -> val0 (cnth (q_des q) j) <= val0 (cnth (q_gua q) j)) ->
  law_bounds_q D (obs_of q) = true.
Proof. exact law_bounds_q_accepts_model. Qed.
Print Assumptions C12_law_bounds_accepts_model.

Theorem C12_law_runs_identical_iff : forall D ab,
  law_runs_identical D ab = true <->
  Forall (fun p : obs * obs => forall j, (j < D)%nat ->
            close (val0 (cnth (o_des (fst p)) j)) (val0 (cnth (o_des (snd p)) j)) = true) ab.
Proof. exact law_runs_identical_iff. Qed.
Print Assumptions C12_law_runs_identical_iff.

Theorem C12_law_runs_agree_sound : forall D ab,
  law_runs_agree D ab = true ->
  Forall (fun p : obs * obs => forall j, (j < D)%nat ->
            qabs (val0 (cnth (o_des (fst p)) j) - val0 (cnth (o_des (snd p)) j)) <= eps + slack) ab.
Proof. exact law_runs_agree_sound. Qed.
Print Assumptions C12_law_runs_agree_sound.

Theorem C12_law_capability_sound : forall D total qs,
  law_capability D total qs = true ->
  Forall (fun q : vec * vec * vec => let '(cap, g, d) := q in
            forall j t y, (j < D)%nat -> cnth total j = Some t -> cnth cap j = Some y ->
                          val0 (cnth g j) <= y -> val0 (cnth d j) <= y + slack) qs.
Proof. exact law_capability_sound. Qed.
Print Assumptions C12_law_capability_sound.

Theorem C12_law_order_excused_iff : forall D r ab,
  law_order_excused D r ab = true <->
  law_runs_identical D ab = true \/ (r = false /\ max_dev_ok D ab = true).
Proof. exact law_order_excused_iff. Qed.
Print Assumptions C12_law_order_excused_iff.

(* non-vacuity on a session where guarantee, capability and demand interact (audit W8) *)
Example C12_example_session_ok : vnonneg ex_total /\ Forall spec_ok ex_specs.
Proof.
  split; [apply ex_nonneg; reflexivity|].
  repeat (apply Forall_cons || apply Forall_nil);
    (split; [cbn; lia|]); (split; [apply ex_nonneg; reflexivity|]);
    (split; [intros c E; cbn in E; try discriminate; inversion E; subst; apply ex_nonneg; reflexivity|]);
    repeat (apply Forall_cons || apply Forall_nil); apply ex_nonneg; reflexivity.
Qed.
(* the guard of the capability clause is satisfiable: the example session meets it *)
Example C12_example_session_guard : Forall gua_le_cap ex_specs.
Proof.
  repeat (apply Forall_cons || apply Forall_nil); intros c i y E Hc; cbn in E; try discriminate.
  inversion E; subst; clear E.
  do 4 (destruct i as [|i]; [cbn in Hc; try discriminate; inversion Hc; subst; cbn; lra|]).
  unfold cnth in Hc. rewrite nth_overflow in Hc by (cbn; lia). discriminate.
Qed.
Example C12_example_session_result :
  match proportion 10 4 ex_total ex_specs with
  | Done [q1; q2] _ n =>
      cnth (q_des q1) 0 = Some 6000 /\ cnth (q_des q2) 0 = Some 4000 /\ (1 <= n)%nat
  | _ => False
  end.
Proof.
  vm_compute. repeat split; try reflexivity; lia.
Qed.

(* non-vacuity: the witness queues satisfy the hypotheses of the bound theorems *)
Example C12_hypotheses_satisfiable : Forall upper_ok wit_qs.
Proof.
  apply Forall_cons; [|apply Forall_cons; [|apply Forall_nil]]; apply upper_ok_init; try reflexivity;
    intro i; destruct i as [|[|[|[|i]]]]; unfold cnth; simpl; try (destruct i; simpl);
    (split; [intros c E; inversion E; subst; lra | split; lra]).
Qed.
