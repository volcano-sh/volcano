(* Property C20 — commands from the CLI are executed at most once and on the named target.
   The property theorems, each followed by Print Assumptions (the Examples are not).  A proof
   stands here when nothing else needs the fact; otherwise the theorem is [exact] of a lemma
   of C20/Lemmas.v.

   PART A (the substance proved in Coq): the delete-before-execute command workers —
   an invariant over ALL event lists (induction), the meaning of the executable law, and
   the link between the schedules the correspondence runs and those event lists.
   PART B (model conformance statements): the CLI, the end-to-end composition and the
   informer filter are straight-line code; their models are transliterations and the
   statements below merely unfold them (they fix WHAT the model says, so that the laws and
   the differential check have a stated reference).  For those clauses the evidence is the
   differential check of the real code against the model plus laws 101 / 103 / 104 on the
   real results — not these statements. *)
From stdpp Require Import gmap.
From Coq Require Import ZArith List Lia.
From V Require Import C20.Model C20.Laws C20.Lemmas.
Import ListNotations.
Open Scope Z_scope.

(* ================= PART A: the command workers ================= *)

(* for every command, whether or not it (still) exists, every retry budget (maxRequeueNum,
   -1 = retry for ever) and EVERY list of events — any number of deliveries (object copies:
   add notifications, relists, restarts), any interleaving of the steps, any answers of the
   Delete calls that the API-server oracle allows (OK only if present and then absent,
   NotFound only if absent, errors with or without effect at any time, hence also runs of
   more than maxRequeueNum failures and the resulting DROPS).  Since [evs] is arbitrary the
   statement holds after every prefix of every history: triggered <= deleted <= 1. *)
Theorem C20_at_most_once : forall mx c b evs, let s := crun mx c b evs in
  (length (enq s) <= 1)%nat /\
  (length (enq s) <= count_out DOk (log s) <= 1)%nat /\
  prefix_ok 0 (log s) (seen s) = true /\
  Forall (fun r => r = req_of c) (enq s) /\
  (enq s <> [] -> present s = false) /\
  (b = false -> enq s = []) /\
  (retries s + drops s = count_out DErr (log s) + count_out DErrApplied (log s))%nat /\
  (quiescent s -> length (enq s) = count_out DOk (log s)).
Proof. exact at_most_once. Qed.
Print Assumptions C20_at_most_once.

(* STEP (one transition from any state): on an error answer the delivery is retried (same object, one more failure) or, with the
   budget exhausted, dropped; either way it enqueues nothing: a dropped command triggers nothing *)
Theorem C20_error_never_executes : forall mx c s w n o,
  o = DErr \/ o = DErrApplied -> wget s w = WGot n ->
  let s' := cstep mx c s (CDelete w o) in
  enq s' = enq s /\
  (budget mx n = true -> wget s' w = WGot (S n) /\ retries s' = S (retries s) /\ drops s' = drops s) /\
  (budget mx n = false -> wget s' w = WIdle /\ drops s' = S (drops s) /\ retries s' = retries s).
Proof.
  intros mx c s w n o Ho E. simpl. rewrite E.
  destruct Ho as [-> | ->]; simpl; destruct (present s); destruct (budget mx n); simpl;
  (split; [done|]); (split; intros; try done);
  (split; [rewrite wget_wset; destruct (decide (w = w)); done|done]).
Qed.
Print Assumptions C20_error_never_executes.

Theorem C20_unlimited_retries_never_drop : forall c b evs, drops (crun (-1) c b evs) = 0%nat.
Proof. exact no_drop_unlimited. Qed.
Print Assumptions C20_unlimited_retries_never_drop.

(* the executable law 102 accepts every reachable state of the model (with its quiescence
   clause when all deliveries have finished) ... *)
Theorem C20_law_amo_accepts_model : forall mx c b evs (quiet : bool), let s := crun mx c b evs in
  (quiet = true -> quiescent s) ->
  law_amo mx c b (log s) (seen s) (enq s) (present s) (retries s) quiet = true.
Proof. exact law_amo_holds. Qed.
Print Assumptions C20_law_amo_accepts_model.

(* ... and MEANS the property (Prop-level soundness): whenever it answers true on observed
   Delete answers, per-call "requests enqueued so far", requests and final presence, then
   the answers respect the Delete oracle, at every Delete call no more requests had been
   triggered than Deletes had succeeded, at most one request exists, it names the Command's
   target and action, the Command is gone, an absent Command triggered nothing *)
Theorem C20_law_amo_sound : forall mx c b outs sn enq p rt quiet,
  law_amo mx c b outs sn enq p rt quiet = true ->
  oracle_ok b outs = true /\
  (forall k n, nth_error sn k = Some n -> (n <= count_out DOk (firstn k outs))%nat) /\
  (length enq <= 1)%nat /\ (length enq <= count_out DOk outs)%nat /\
  Forall (fun r => r = req_of c) enq /\
  (enq <> [] -> p = false) /\ (b = false -> enq = []) /\
  (quiet = true -> length enq = count_out DOk outs).
Proof.
  intros mx c b outs sn enq p rt quiet.
  unfold law_amo. intros H.
  apply andb_true_iff in H as [H Hmx]. apply andb_true_iff in H as [H Hret].
  apply andb_true_iff in H as [H Hpres]. apply andb_true_iff in H as [H Hb].
  apply andb_true_iff in H as [H Hp]. apply andb_true_iff in H as [H Hf].
  apply andb_true_iff in H as [H Hq]. apply andb_true_iff in H as [H Hc].
  apply andb_true_iff in H as [H Hl]. apply andb_true_iff in H as [Hor Hpre].
  apply bool_decide_eq_true in Hl, Hc.
  split; [done|]. split.
  { intros k n Hn. destruct (prefix_ok_spec _ _ _ Hpre) as [_ Hk]. specialize (Hk k n Hn). lia. }
  split; [done|]. split; [done|]. split.
  { apply Forall_forall. intros r Hr. rewrite forallb_forall in Hf. specialize (Hf r Hr).
    by apply bool_decide_eq_true in Hf. }
  split.
  { intros Hne. apply orb_true_iff in Hp as [Hp|Hp].
    - apply bool_decide_eq_true in Hp. done.
    - by apply negb_true_iff in Hp. }
  split.
  { intros ->. simpl in Hb. by apply bool_decide_eq_true in Hb. }
  intros ->. simpl in Hq. by apply bool_decide_eq_true in Hq.
Qed.
Print Assumptions C20_law_amo_sound.

(* what the correspondence runs (selector 2: a drained batch of deliveries, then a relist,
   one worker, FIFO) ends in a state of [crun]: C20_at_most_once speaks about exactly the
   states the extracted model prints and the real controllers are compared with *)
Theorem C20_sequential_schedules_are_histories : forall mx c b n1 n2 sched s1 r1 s2 r2,
  seq_phase mx c n1 sched (init b) = Some (s1, r1) -> seq_phase mx c n2 r1 s1 = Some (s2, r2) ->
  exists evs, s2 = crun mx c b evs.
Proof. exact seq_two_phases_reach. Qed.
Print Assumptions C20_sequential_schedules_are_histories.

(* ... and law 102, with its quiescence clause ON as the check runs it, accepts exactly what
   the extracted model prints for selector 2 (the sequential schedule ends quiescent) *)
Theorem C20_law_amo_accepts_sequential_output : forall mx c b n1 n2 sched s1 r1 s2 r2,
  seq_phase mx c n1 sched (init b) = Some (s1, r1) -> seq_phase mx c n2 r1 s1 = Some (s2, r2) ->
  law_amo mx c b (log s2) (seen s2) (enq s2) (present s2) (retries s2) true = true.
Proof.
  intros mx c b n1 n2 sched s1 r1 s2 r2 H1 H2.
  assert (Q0 : quiescent (init b)) by (intros w; unfold wget; simpl; by rewrite lookup_empty).
  pose proof (seq_phase_quiescent _ _ _ _ _ _ _ Q0 H1) as Q1.
  pose proof (seq_phase_quiescent _ _ _ _ _ _ _ Q1 H2) as Q2.
  destruct (seq_two_phases_reach _ _ _ _ _ _ _ _ _ _ H1 H2) as [evs E]. rewrite E in *.
  apply law_amo_holds. intros _. exact Q2.
Qed.
Print Assumptions C20_law_amo_accepts_sequential_output.

(* non-vacuity of the two statements above and of C20_law_amo_sound: budget 2, three failed
   Deletes (dropped), relist, executed once; the law is true on that output *)
Example C20_sequential_example :
  exists s1 r1 s2 r2,
    seq_phase 2 ex_cmd 1 [1; 1; 1] (init true) = Some (s1, r1) /\ seq_phase 2 ex_cmd 1 r1 s1 = Some (s2, r2) /\
    log s2 = [DErr; DErr; DErr; DOk] /\ enq s2 = [(7, 3, 1)] /\ drops s2 = 1%nat /\
    law_amo 2 ex_cmd true (log s2) (seen s2) (enq s2) (present s2) (retries s2) true = true.
Proof. exact seq_example. Qed.

(* ================= PART B: model conformance statements ================= *)

(* CLI, AS THE MODEL HAS IT (conformance statement, not a guarantee about the Go code): for every
   verb, namespace, target name and UID the model creates exactly one Command; its
   TargetObject is the controller reference of exactly the object the server returned
   for the named target, its only owner reference is that same reference, the action
   is the verb's, and the request a controller derives from it names that target *)
Theorem C20_cli_command_shape : forall v ns t,
  exists c, cli_create v ns t = [c] /\
    c_target c = mkRef (verb_kind v) (t_name t) (t_uid t) true /\
    c_owners c = [c_target c] /\ c_action c = verb_action v /\ c_ns c = cmd_ns v ns /\
    req_of c = (cmd_ns v ns, t_name t, verb_action v).
Proof. exact cli_command_shape. Qed.
Print Assumptions C20_cli_command_shape.

(* a Command the CLI model writes passes the KIND half of the filter of exactly the controller of
   its verb (the CLI model has no apiVersion field: [dcmd_of] fills it from the kind code, because
   NewControllerRef takes both from one GroupVersionKind constant; the APIVersion string itself is
   checked only in Go: refTokens, law 101), and the request derived from it names the GET's object
   and the verb's action *)
Theorem C20_cli_commands_are_accepted : forall v ns t c,
  cli_create v ns t = [c] ->
  accepts (verb_kind v) (dcmd_of c) = true /\
  (forall ctrl, ctrl <> verb_kind v -> ctrl = 1 \/ ctrl = 2 -> accepts ctrl (dcmd_of c) = false) /\
  dreq (verb_kind v) (dcmd_of c) = (if verb_kind v =? 1 then cmd_ns v ns else 0, t_name t, verb_action v).
Proof.
  intros v ns t c.
  unfold cli_create. intros [= <-]. unfold accepts, dcmd_of, dreq. simpl.
  rewrite Z.eqb_refl. split; [done|]. split; [|done].
  intros ctrl Hne _. destruct (verb_kind v =? ctrl) eqn:E; [|done]. apply Z.eqb_eq in E. congruence.
Qed.
Print Assumptions C20_cli_commands_are_accepted.

(* which Commands a controller takes (the filter of its Command informer handler): for
   every list of delivered Commands, one whose TargetObject is not a reference to a Job
   (resp. Queue) of exactly the controller's API group/version and kind — nil target, other
   group, other version, empty apiVersion, other kind — is neither deleted nor executed and
   stays present; every request stems from an accepted Command and carries its namespace
   (job controller), target name and action *)
Theorem C20_foreign_commands_untouched : forall l, let '(obs, jr, qr) := informer_run l in
  (forall d, In d l -> accepts 1 d = false -> accepts 2 d = false -> In (deletes_of d, true) obs /\ deletes_of d = 0%nat) /\
  (forall r, In r jr -> exists d, In d l /\ accepts 1 d = true /\ r = dreq 1 d) /\
  (forall r, In r qr -> exists d, In d l /\ accepts 2 d = true /\ r = dreq 2 d) /\
  (forall d, In d l -> (deletes_of d <= 1)%nat).
Proof.
  intros l.
  unfold informer_run. repeat split.
  - apply in_map_iff. exists d. rewrite H0, H1. done.
  - unfold deletes_of. by rewrite H0, H1.
  - intros r Hr. apply in_map_iff in Hr as (d&<-&Hd). apply filter_In in Hd as [? ?]. eauto.
  - intros r Hr. apply in_map_iff in Hr as (d&<-&Hd). apply filter_In in Hd as [? ?]. eauto.
  - intros d _. unfold deletes_of. destruct (accepts 1 d) eqn:E1, (accepts 2 d) eqn:E2; try lia.
    exfalso. eapply accepts_exclusive; eauto.
Qed.
Print Assumptions C20_foreign_commands_untouched.

Theorem C20_law_filter_accepts_model : forall l,
  let '(obs, jr, qr) := informer_run l in law_filter l obs jr qr = true.
Proof.
  intros l.
  unfold informer_run, law_filter. rewrite map_length. rewrite !bool_decide_true by done. rewrite !andb_true_r. simpl.
  apply forallb_forall. intros [d [n p]] Hin.
  assert (n = deletes_of d /\ p = negb (accepts 1 d || accepts 2 d)) as [-> ->].
  { clear -Hin. induction l as [|a l IH]; simpl in Hin; [done|]. destruct Hin as [Heq|Hin]; [by simplify_eq|auto]. }
  unfold deletes_of. destruct (accepts 1 d) eqn:E1, (accepts 2 d) eqn:E2; simpl; try done.
  exfalso. eapply accepts_exclusive; eauto.
Qed.
Print Assumptions C20_law_filter_accepts_model.

(* the CLI against a faulty API server, for EVERY answer to the GET and EVERY script of
   answers to the POST (created / persisted-then-Timeout / Timeout / ServerTimeout / 5xx /
   AlreadyExists / Conflict): at most one Command is left behind, at most one POST is made,
   a Command left behind is exactly the one naming the object the GET returned with the
   verb's action, success means exactly that Command exists, a failed GET or a failed
   create is reported as an error *)
Theorem C20_cli_at_most_one_command : forall i, let r := cli_invoke i in
  (length (r_new r) <= 1)%nat /\ (r_posts r <= 1)%nat /\
  (forall c, In c (r_new r) -> [c] = cli_create (i_verb i) (i_ns i) (i_target i)) /\
  (r_ok r = true -> i_get i = GOk /\ r_new r = cli_create (i_verb i) (i_ns i) (i_target i)) /\
  (i_get i <> GOk -> r_ok r = false /\ r_posts r = 0%nat /\ r_new r = []) /\
  (i_get i = GOk -> succeeds (hd COk (i_script i)) = false -> r_ok r = false) /\
  length (r_new r) = length (filter persists (answers (r_posts r) (i_script i))).
Proof. exact cli_at_most_one_command. Qed.
Print Assumptions C20_cli_at_most_one_command.

(* end-to-end composition AS DEFINED IN THE MODEL ([e2e_requests] = the requests of the Commands
   left behind; that the controllers execute each of them at most once is C20_at_most_once,
   that they DO execute them is only observed by the harness, selector 3): every invocation that
   reported success contributes its own request, and there is at most one request per invocation *)
Theorem C20_model_e2e_success_has_its_request : forall invs i,
  In i invs -> r_ok (cli_invoke i) = true ->
  exists c, cli_create (i_verb i) (i_ns i) (i_target i) = [c] /\ In (ctl_req c) (e2e_requests invs).
Proof.
  intros invs i Hin Hok. destruct (cli_at_most_one_command i) as (_&_&_&H&_). destruct (H Hok) as [_ Hn].
  eexists. split; [reflexivity|]. unfold e2e_requests. apply in_flat_map. exists i. split; [done|].
  rewrite Hn. simpl. by left.
Qed.
Print Assumptions C20_model_e2e_success_has_its_request.

Theorem C20_model_e2e_at_most_one_request_per_invocation : forall invs,
  (length (e2e_requests invs) <= length invs)%nat.
Proof.
  intros invs.
  unfold e2e_requests. induction invs as [|i l IH]; simpl; [done|].
  rewrite app_length, map_length. destruct (cli_at_most_one_command i) as (H&_). simpl in H. lia.
Qed.
Print Assumptions C20_model_e2e_at_most_one_request_per_invocation.

Theorem C20_law_cli_invocation_accepts_model : forall i, let r := cli_invoke i in
  law_cli_invocation i (r_ok r) (r_gets r) (r_posts r) (r_new r) = true.
Proof.
  intros i.
  unfold law_cli_invocation, cli_invoke. destruct (i_get i) eqn:G; simpl; [|done..].
  destruct (hd COk (i_script i)) eqn:H; simpl; rewrite ?bool_decide_true; done.
Qed.
Print Assumptions C20_law_cli_invocation_accepts_model.

Theorem C20_law_cli_accepts_model : forall v ns t, law_cli v ns t (cli_create v ns t) = true.
Proof.
  intros v ns t.
  unfold law_cli, cli_create. simpl. rewrite !bool_decide_true; done.
Qed.
Print Assumptions C20_law_cli_accepts_model.

(* what laws 101 and 104 MEAN (Prop-level soundness), and that the end-to-end half of law 103
   accepts the model; law 103's per-invocation half (law_cli_invocation) has the
   accepts-the-model statement above only *)
Theorem C20_law_cli_sound : forall v ns t created,
  law_cli v ns t created = true ->
  exists c, created = [c] /\
    o_kind (c_target c) = verb_kind v /\ o_name (c_target c) = t_name t /\ o_uid (c_target c) = t_uid t /\
    o_controller (c_target c) = true /\ c_owners c = [c_target c] /\
    c_action c = verb_action v /\ c_ns c = cmd_ns v ns /\ c_prefix c = (t_name t, verb_action v).
Proof.
  intros v ns t created.
  unfold law_cli. destruct created as [|c [|]]; try done. intros H.
  repeat (apply andb_true_iff in H as [H ?]).
  repeat match goal with X : bool_decide _ = true |- _ => apply bool_decide_eq_true in X end.
  exists c. repeat split; done.
Qed.
Print Assumptions C20_law_cli_sound.

Theorem C20_law_filter_sound : forall l obs jr qr,
  law_filter l obs jr qr = true ->
  length obs = length l /\
  (forall d n p, In (d, (n, p)) (combine l obs) ->
     (accepts 1 d = false -> accepts 2 d = false -> n = 0%nat /\ p = true) /\
     (n <> 0%nat -> accepts 1 d = true \/ accepts 2 d = true) /\ (n <= 1)%nat) /\
  jr = map (dreq 1) (filter (accepts 1) l) /\ qr = map (dreq 2) (filter (accepts 2) l).
Proof.
  intros l obs jr qr.
  unfold law_filter. intros H.
  apply andb_true_iff in H as [H Hq]. apply andb_true_iff in H as [H Hj].
  apply andb_true_iff in H as [Hl Hf].
  apply bool_decide_eq_true in Hl, Hj, Hq. split; [done|]. split; [|done].
  intros d n p Hin. rewrite forallb_forall in Hf. specialize (Hf _ Hin). simpl in Hf.
  apply andb_true_iff in Hf as [Hf H3]. apply andb_true_iff in Hf as [H1 H2].
  apply bool_decide_eq_true in H3. split; [|split; [|done]].
  - intros A1 A2. rewrite A1, A2 in H1. simpl in H1. apply andb_true_iff in H1 as [Hn Hp].
    apply bool_decide_eq_true in Hn. done.
  - intros Hn. rewrite (bool_decide_false (n = 0%nat)) in H2 by done. simpl in H2.
    apply orb_true_iff in H2. done.
Qed.
Print Assumptions C20_law_filter_sound.

Theorem C20_law_e2e_accepts_model : forall invs,
  law_e2e (map (fun i => r_new (cli_invoke i)) invs) (e2e_requests invs) = true.
Proof.
  intros invs.
  unfold law_e2e, e2e_requests. apply bool_decide_eq_true.
  induction invs as [|i l IH]; simpl; [done|]. by rewrite IH.
Qed.
Print Assumptions C20_law_e2e_accepts_model.

Example C20_nonvacuous :
  let s := crun (-1) ex_cmd true [CDeliver 0; CDeliver 1; CDelete 0 DErr; CDelete 1 DOk;
                             CDelete 0 DNotFound; CEnqueue 1; CDeliver 2; CDelete 2 DOk] in
  enq s = [(7, 3, 1)] /\ present s = false /\ log s = [DErr; DOk; DNotFound] /\ retries s = 1%nat /\
  wget s 2 = WGot 0.
Proof. exact ex_race. Qed.

(* maxRequeueNum = 2, three failed Deletes: dropped without executing, command still there;
   the relisted delivery deletes it and executes once *)
Example C20_nonvacuous_drop :
  let s1 := crun 2 ex_cmd true [CDeliver 0; CDelete 0 DErr; CDelete 0 DErr; CDelete 0 DErr] in
  enq s1 = [] /\ present s1 = true /\ drops s1 = 1%nat /\ retries s1 = 2%nat /\ wget s1 0 = WIdle /\
  let s2 := fold_left (cstep 2 ex_cmd) [CDeliver 0; CDelete 0 DOk; CEnqueue 0] s1 in
  enq s2 = [(7, 3, 1)] /\ present s2 = false /\ seen s2 = [0; 0; 0; 0]%nat.
Proof. exact ex_drop. Qed.
