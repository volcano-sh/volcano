(* Property C06 — job reconciliation yields exactly the desired pods and a
   matching PodGroup.  The property theorems, each followed by Print Assumptions; the
   reconciliation model sync_job / sync_pods is C05/Model.v, the PodGroup derivation
   C06/Model.v.  A proof stands here when nothing else needs the fact; otherwise the
   theorem is [exact] of a lemma of C05/SyncLemmas.v or C06/Lemmas.v. *)
From V Require Import C05.Laws C05.Lemmas.
From Coq Require Import ZArith List Bool Permutation Lia.
From V Require Import C05.Model C05.JobCodec C05.SyncLemmas C06.Model C06.Laws C06.Lemmas.
Import ListNotations.
Open Scope Z_scope.

(* while the lister shows no PodGroup past Pending, syncJob neither creates nor
   deletes a pod: for every spec, pod set, views and fault set *)
Theorem C06_sync_creates_none_while_pg_pending : forall w u F w' e wr,
  sync_job w u F = (w', e, wr) -> pg_admitted (v_pg w) = false -> w_pods w' = w_pods w.
Proof. exact sync_creates_none_while_pg_pending. Qed.
Print Assumptions C06_sync_creates_none_while_pg_pending.

Theorem C06_request_creates_none_while_pg_pending : forall w r F w' e wr,
  step_req w r F = (w', e, wr) ->
  fst (exec (st_phase (v_st w)) (apply_policies (v_spec w) (v_st w) r)) = KSync ->
  pg_admitted (v_pg w) = false -> w_pods w' = w_pods w.
Proof.
  intros w r F w' e wr H Hk Hpg.
  destruct (step_req_cases _ _ _ _ _ _ H) as [(d & -> & _)|(w1 & Hx & _ & d & ->)]; [reflexivity|].
  exact (execute_creates_none (with_delays w _) _ _ _ _ _ _ Hx Hk Hpg).
Qed.
Print Assumptions C06_request_creates_none_while_pg_pending.

(* ---- the pod set.  [pass fixed sp P] = the API server's pods after one fault-free
   pass of syncJob (PodGroup admitted) over pods P seen through a fresh view
   ([fixed]: the counting of sync_pods_gen before or after its fix; the pods do not depend on it);
   [mark] = being deleted; [doomed] = own surplus (index outside the task's
   replicas) or live out-of-sync; [wanted] = a replica index of a task whose
   dependencies are met.  All for every spec and pod set with unique pod names. ---- *)

(* exact pod set: nothing disappears, deleted = exactly the doomed pods, created =
   exactly the wanted replicas that did not exist (Pending, live) *)
Theorem C06_sync_exact_pods : forall fixed sp P, NoDup (pod_ids P) ->
  a_err (sync_pods_gen fixed sp P P []) = false /\
  forall t i,
    find_pod t i (pass fixed sp P) =
    match find_pod t i P with
    | Some q => Some (if doomed sp q then mark q else q)
    | None => if wanted sp P t i then Some (newpod t i) else None
    end.
Proof. exact sync_exact_pods. Qed.
Print Assumptions C06_sync_exact_pods.

(* the same on the world (syncJob proper) *)
Theorem C06_sync_job_exact_pods : forall w u w' e wr,
  sync_job w u [] = (w', e, wr) -> c_vdel (v_ctl w) = false -> c_queue (v_ctl w) = true ->
  pg_admitted (v_pg w) = true -> st_phase (v_st w) <> PhNone ->
  v_pods w = w_pods w -> NoDup (pod_ids (w_pods w)) ->
  e = false /\
  forall t i,
    find_pod t i (w_pods w') =
    match find_pod t i (w_pods w) with
    | Some q => Some (if doomed (v_spec w) q then mark q else q)
    | None => if wanted (v_spec w) (w_pods w) t i then Some (newpod t i) else None
    end.
Proof.
  intros w u w' e wr H Hdel Hq Hpg Hph Hfresh Hnd.
  destruct (sync_job_pods _ _ _ _ _ _ H Hdel Hq Hpg Hph) as [Hp He]. rewrite Hfresh in Hp, He.
  destruct (sync_exact_pods true (v_spec w) (w_pods w) Hnd) as [Herr Hfind].
  split; [rewrite (He eq_refl); exact Herr|].
  intros t i. rewrite Hp. apply Hfind.
Qed.
Print Assumptions C06_sync_job_exact_pods.

(* repeating the pass changes no pod *)
Theorem C06_sync_idempotent : forall fixed sp P,
  NoDup (map t_name (s_tasks sp)) -> NoDup (pod_ids P) ->
  forall t i, find_pod t i (pass fixed sp (pass fixed sp P)) = find_pod t i (pass fixed sp P).
Proof. exact sync_idempotent. Qed.
Print Assumptions C06_sync_idempotent.

(* crash / partial failure at ANY point (any set F of pod create / delete calls
   that did not happen), restart (fresh view of what the API server
   holds), retry: same pods as the undisturbed pass *)
Theorem C06_crash_restart_converges : forall fixed sp P F,
  NoDup (map t_name (s_tasks sp)) -> NoDup (pod_ids P) ->
  let crashed := a_pods (sync_pods_gen fixed sp P P F) in
  forall t i, find_pod t i (pass fixed sp crashed) = find_pod t i (pass fixed sp P).
Proof. exact crash_restart_converges. Qed.
Print Assumptions C06_crash_restart_converges.

(* what an interrupted pass can leave behind: per pod name, untouched or the final state *)
Theorem C06_faulty_sync_partial : forall fixed sp P F, NoDup (pod_ids P) ->
  partial sp P (a_pods (sync_pods_gen fixed sp P P F)).
Proof. exact faulty_sync_partial. Qed.
Print Assumptions C06_faulty_sync_partial.

(* ---- createJobPod against an INDEPENDENT specification.  The model works on the pod OBJECT: name,
   namespace, owner reference and the label / annotation MAPS (C06/Model.v make_pod: a sequence of map
   writes, as the Go code does).  [is_pod_of j t i ta tl p] (C06/Lemmas.v) does not mention make_pod: it
   says what can be READ from p: name = (job, t, i), namespace, controller owner reference = (job name,
   uid), under every derived annotation / label key the value for (job, t, i) (task-index, task-spec,
   group name, job name, queue, job version, template name, retry count, namespace label), the
   scheduler's job id = namespace / PodGroup name, and every other key of the template's own maps ta / tl
   unchanged. ---- *)
Theorem C06_make_pod_is_pod_of : forall j t i ta tl, is_pod_of j t i ta tl (make_pod j t i ta tl).
Proof. exact make_pod_is_pod_of. Qed.
Print Assumptions C06_make_pod_is_pod_of.

(* all missing replicas of a task built in one pass of syncJob (every pod from its own copy of the
   template): the k-th pod is the pod of the k-th index *)
Theorem C06_build_pods_own : forall j t ta tl idxs,
  Forall2 (fun i p => is_pod_of j t i ta tl p) idxs (build_pods j t ta tl idxs).
Proof.
  induction idxs as [|i idxs IH]; cbn; constructor; auto. apply make_pod_is_pod_of.
Qed.
Print Assumptions C06_build_pods_own.

(* REFUTED for a createJobPod that writes into the template's own maps (Go maps are references; seeded
   mutant C06-r3-1): two different indices built in one pass, and the first pod is not the pod of its index *)
Theorem C06_build_pods_shared_refuted : forall j t ta tl i i',
  i <> i' -> ~ Forall2 (fun i p => is_pod_of j t i ta tl p) [i; i'] (build_pods_shared j t ta tl [i; i']).
Proof.
  intros j t ta tl i i' Hne H.
  assert (S : kget K_TASK_INDEX (fold_left (fun m i0 => ksets (ann_writes j t i0) m) [i; i'] ta) = Some (VNum i')).
  { change (fold_left (fun m i0 => ksets (ann_writes j t i0) m) [i; i'] ta)
      with (ksets (ann_writes j t i') (ksets (ann_writes j t i) ta)).
    apply kget_ksets_in; [rewrite ann_writes_keys; apply ann_keys_nodup|cbn; tauto]. }
  inversion H as [|? ? ? ? Hp _]; subst.
  pose proof (ip_index_ann _ _ _ _ _ _ Hp) as E.
  assert (X : Some (VNum i) = Some (VNum i')) by exact (eq_trans (eq_sym E) S).
  inversion X. congruence.
Qed.
Print Assumptions C06_build_pods_shared_refuted.

(* what correspondence selector 6 compares with the Go pods is READ from these objects (read_fields:
   kget under the marker keys), and the objects it builds are pods of their own (task, index) *)
Theorem C06_task_pod_objs_own : forall ver retry tk x idxs,
  Forall2 (fun i p => is_pod_of (mkJob 1 1 1 1 ver retry) (t_name tk) i (tmpl (x_mem x)) (tmpl (x_cpu x)) p)
          idxs (task_pod_objs ver retry tk x idxs).
Proof.
  intros. apply C06_build_pods_own.
Qed.
Print Assumptions C06_task_pod_objs_own.

(* the executable laws on created pods MEAN the clause: law 211 / 204 = true implies every conjunct *)
Theorem C06_law_created_pods_sound : forall ver retry t x idxs got,
  law_created_pods ver retry t x idxs got = true ->
  Forall2 (fun i p => pf_task p = t_name t /\ pf_lbl_task p = t_name t /\ pf_idx p = i /\ pf_lbl_idx p = i /\
                      pf_version p = ver /\ pf_retry p = retry /\
                      pf_user_lbl p = Z.max 0 (x_cpu x) /\ pf_user_ann p = Z.max 0 (x_mem x)) idxs got.
Proof.
  intros ver retry t x. induction idxs as [|i idxs IH]; intros [|p got] H; cbn [law_created_pods] in H; try discriminate.
  - constructor.
  - repeat (apply andb_true_iff in H; let H' := fresh "H" in destruct H as [H H']).
    constructor; [|apply IH; assumption].
    repeat match goal with
    | h : Pos.eqb _ _ = true |- _ => apply Pos.eqb_eq in h
    | h : Z.eqb _ _ = true |- _ => apply Z.eqb_eq in h
    end. auto 10.
Qed.
Print Assumptions C06_law_created_pods_sound.

Theorem C06_law_markers_sound : forall t i ver retry cpu mem m,
  law_markers t i ver retry cpu mem m = true ->
  m_task m = Zpos t /\ m_idx m = i /\ m_lbl_task m = Zpos t /\ m_lbl_idx m = i /\
  m_version m = ver /\ m_retry m = retry /\
  m_owner m = true /\ m_group m = true /\ m_jobname m = true /\ m_queue m = true /\ m_jobid m = true /\
  m_user_lbl m = Z.max 0 cpu /\ m_user_ann m = Z.max 0 mem /\ m_shape m = true.
Proof.
  intros t i ver retry cpu mem m H. unfold law_markers in H.
  repeat (apply andb_true_iff in H; let H' := fresh "H" in destruct H as [H H']).
  repeat match goal with h : Z.eqb _ _ = true |- _ => apply Z.eqb_eq in h end. auto 20.
Qed.
Print Assumptions C06_law_markers_sound.

(* a delayed action that expires and leads to syncJob creates no pod while the PodGroup is not admitted *)
Theorem C06_fire_creates_none_while_pg_pending : forall w w' e wr t c rest,
  fire w = (w', e, wr) -> d_queue (c_delay (v_ctl w)) = (t, c) :: rest ->
  fst (exec (st_phase (v_st w)) (dt_action t)) = KSync ->
  pg_admitted (v_pg w) = false -> w_pods w' = w_pods w.
Proof.
  intros w w' e wr t c rest H Hq Hk Hpg.
  destruct (fire_cases _ _ _ _ H) as [(d & -> & _)|(t' & rest' & w1 & e1 & d & Eq & Hx & ->)]; [reflexivity|].
  rewrite Hq in Eq. injection Eq as -> -> ->.
  exact (execute_creates_none (with_delays w _) _ _ _ _ _ _ Hx Hk Hpg).
Qed.
Print Assumptions C06_fire_creates_none_while_pg_pending.

(* controller restart: whatever order the informers deliver pods, job and PodGroup in, the controller ends
   up seeing exactly what the API server holds.  This is a computation on the model's VIEW-COPY abstraction
   (each delivery copies a whole view; the three copies commute); the job cache's placeholder logic for
   pods delivered before their job is not represented in Coq: it is checked on the real cache by the
   restart stream of the correspondence only *)
Theorem C06_restart_any_delivery_order : forall w order,
  In order delivery_orders -> run w (ORestart :: order) = synced w.
Proof.
  intros w order H. destruct w as [ws vs wst vst wp vp wg vg [cj cd cw cv cq dl]].
  cbn in H. repeat (destruct H as [<-|H]; [reflexivity|]). destruct H.
Qed.
Print Assumptions C06_restart_any_delivery_order.

Theorem C06_pods_before_job_are_kept : forall w,
  v_pods (run w [ORestart; OSyncPods; OSyncJob]) = w_pods w /\
  c_job (v_ctl (run w [ORestart; OSyncPods; OSyncJob])) = true.
Proof.
  intros w. destruct w as [ws vs wst vst wp vp wg vg [cj cd cw cv cq dl]]. split; reflexivity.
Qed.
Print Assumptions C06_pods_before_job_are_kept.

(* crash / partial failure of a sync at any point, controller restart, deliveries in any
   order, retry: same pods as the undisturbed sync *)
Theorem C06_crash_restart_world : forall w u F w1 e1 wr1 order,
  sync_job w u F = (w1, e1, wr1) ->
  c_vdel (v_ctl w) = false -> c_queue (v_ctl w) = true ->
  pg_admitted (v_pg w) = true -> st_phase (v_st w) <> PhNone ->
  v_pods w = w_pods w -> v_spec w = w_spec w ->
  NoDup (map t_name (s_tasks (v_spec w))) -> NoDup (pod_ids (w_pods w)) ->
  In order delivery_orders ->
  let w2 := run w1 (ORestart :: order) in
  c_job (v_ctl w2) = true /\ v_pods w2 = w_pods w2 /\ v_spec w2 = v_spec w /\
  forall t i, find_pod t i (pass true (v_spec w2) (v_pods w2)) = find_pod t i (pass true (v_spec w) (w_pods w)).
Proof.
  intros w u F w1 e1 wr1 order H Hdel Hq Hpg Hph Hfresh Hspec Hts Hnd Hin w2.
  unfold w2. rewrite (C06_restart_any_delivery_order w1 order Hin). unfold synced. cbn.
  destruct (sync_job_pods _ _ _ _ _ _ H Hdel Hq Hpg Hph) as [Hp _]. rewrite Hfresh in Hp.
  pose proof (sync_job_outcome _ _ _ _ _ _ H) as O. pose proof (oc_spec _ _ _ _ _ _ _ O) as Hws.
  repeat split; auto; try congruence.
  intros t i. rewrite Hws, <- Hspec, Hp. apply crash_restart_converges; auto.
Qed.
Print Assumptions C06_crash_restart_world.

(* NOTE: the theorem above concludes about the pure function [pass] on the views the
   restarted controller has, not about the retried syncJob; with a lister PodGroup ahead of the API
   server's the retry does nothing (C06_nonvacuous_crash_restart_retry, second part).  The statement about
   the RETRIED reconcile: if the API server's PodGroup is the admitted one the lister showed, and the job
   there has a phase and no deletion timestamp, then after crash, restart and deliveries in any order a
   sync that meets no fault succeeds and leaves exactly the pods of the undisturbed sync *)
Theorem C06_crash_restart_retry : forall w u F w1 e1 wr1 order u' w3 e3 wr3,
  sync_job w u F = (w1, e1, wr1) ->
  c_vdel (v_ctl w) = false -> c_wdel (v_ctl w) = false -> c_queue (v_ctl w) = true ->
  pg_admitted (v_pg w) = true -> w_pg w = v_pg w ->
  st_phase (v_st w) <> PhNone -> st_phase (w_st w1) <> PhNone ->
  v_pods w = w_pods w -> v_spec w = w_spec w ->
  NoDup (map t_name (s_tasks (v_spec w))) -> NoDup (pod_ids (w_pods w)) ->
  In order delivery_orders ->
  sync_job (run w1 (ORestart :: order)) u' [] = (w3, e3, wr3) ->
  e3 = false /\
  forall t i, find_pod t i (w_pods w3) = find_pod t i (pass true (v_spec w) (w_pods w)).
Proof.
  intros w u F w1 e1 wr1 order u' w3 e3 wr3 H Hdel Hwdel Hq Hpg Hpgeq Hph Hph1 Hfresh Hspec Hts Hnd Hin H3.
  destruct (C06_crash_restart_world w u F w1 e1 wr1 order H Hdel Hq Hpg Hph Hfresh Hspec Hts Hnd Hin) as (_ & _ & _ & Hconv).
  cbv zeta in Hconv.
  assert (Hne : v_pg w <> None) by (intros E; rewrite E in Hpg; discriminate).
  destruct (sync_job_keeps _ _ _ _ _ _ H Hne) as (Kd & Kq & Kg).
  destruct (sync_job_pods _ _ _ _ _ _ H Hdel Hq Hpg Hph) as [Hp _].
  rewrite (C06_restart_any_delivery_order w1 order Hin) in H3, Hconv. unfold synced in H3, Hconv.
  cbn [v_spec v_pods] in Hconv.
  assert (Hnd1 : NoDup (pod_ids (w_pods w1))) by (rewrite Hp; apply sync_pods_nodup; exact Hnd).
  match type of H3 with sync_job ?W _ _ = _ => set (w2 := W) in * end.
  assert (P1 : c_vdel (v_ctl w2) = false) by (cbn; congruence).
  assert (P2 : c_queue (v_ctl w2) = true) by (cbn; congruence).
  assert (P3 : pg_admitted (v_pg w2) = true) by (cbn; congruence).
  assert (P4 : st_phase (v_st w2) <> PhNone) by exact Hph1.
  assert (P5 : v_pods w2 = w_pods w2) by reflexivity.
  assert (P6 : NoDup (pod_ids (w_pods w2))) by exact Hnd1.
  destruct (C06_sync_job_exact_pods w2 u' w3 e3 wr3 H3 P1 P2 P3 P4 P5 P6) as [He Hf].
  split; [exact He|]. intros t i. rewrite <- Hconv.
  cbn [v_spec w_pods] in Hf. rewrite Hf.
  destruct (sync_exact_pods true (w_spec w1) (w_pods w1) Hnd1) as [_ Hfind]. rewrite Hfind. reflexivity.
Qed.
Print Assumptions C06_crash_restart_retry.

(* createOrUpdatePodGroup with a lister that shows what the API server holds: for EVERY
   fault position (the create / update call refused or not) "returned OK" implies that the
   PodGroup exists and mirrors the spec; an error leaves the API server untouched; a
   refused write is reported unless no write was needed *)
Theorem C06_podgroup_mirrors_spec_ok : forall lister api sp xs jp fail api',
  NoDup (map t_name (s_tasks sp)) -> lister = api ->
  create_or_update_pg lister api sp xs jp fail = (api', false) ->
  exists g, api' = Some g /\ pg_mirrors g sp xs jp.
Proof.
  intros lister api sp xs jp fail api' Hnd -> H. unfold create_or_update_pg in H.
  destruct (podgroup_mirrors_spec sp xs jp Hnd) as [Hc Hu].
  destruct api as [g|].
  - destruct (pg_eq_dec (pg_update g sp xs jp) g) as [E|E].
    + inversion H; subst. exists g. split; auto. rewrite <- E. apply Hu.
    + destruct fail; [discriminate|]. inversion H; subst. eexists; split; [reflexivity|apply Hu].
  - destruct fail; [discriminate|]. inversion H; subst. eexists; split; [reflexivity|apply Hc].
Qed.
Print Assumptions C06_podgroup_mirrors_spec_ok.

Theorem C06_pg_error_no_change : forall lister api sp xs jp fail api',
  create_or_update_pg lister api sp xs jp fail = (api', true) -> api' = api.
Proof.
  intros lister api sp xs jp fail api' H. unfold create_or_update_pg in H.
  destruct lister as [g|].
  - destruct (pg_eq_dec (pg_update g sp xs jp) g); [discriminate|].
    destruct fail; [inversion H; reflexivity|]. destruct api; inversion H; reflexivity.
  - destruct fail; [inversion H; reflexivity|]. destruct api; discriminate.
Qed.
Print Assumptions C06_pg_error_no_change.

Theorem C06_pg_refused_write_reported : forall lister api sp xs jp api' err,
  create_or_update_pg lister api sp xs jp true = (api', err) ->
  err = true \/ (api' = api /\ exists g, lister = Some g /\ pg_update g sp xs jp = g).
Proof.
  intros lister api sp xs jp api' err H. unfold create_or_update_pg in H.
  destruct lister as [g|].
  - destruct (pg_eq_dec (pg_update g sp xs jp) g) as [E|E]; inversion H; subst; eauto.
  - inversion H; auto.
Qed.
Print Assumptions C06_pg_refused_write_reported.

(* a STALE lister copy: whatever the lister shows and whatever the API server holds, a call that
   writes and returns OK leaves a mirroring PodGroup (all mirrored fields are recomputed from the spec).
   Not covered: a stale copy that already mirrors the spec while the API server's object does not: then no
   write is made and OK is returned (the next delivery of the PodGroup re-enqueues nothing; declared) *)
Theorem C06_pg_written_mirrors : forall g api sp xs jp api',
  NoDup (map t_name (s_tasks sp)) -> pg_update g sp xs jp <> g ->
  create_or_update_pg (Some g) api sp xs jp false = (api', false) ->
  exists g', api' = Some g' /\ pg_mirrors g' sp xs jp.
Proof.
  intros g api sp xs jp api' Hnd Hne H. unfold create_or_update_pg in H.
  destruct (pg_eq_dec (pg_update g sp xs jp) g) as [E|_]; [contradiction|].
  destruct api; [|discriminate]. inversion H; subst. eexists; split; [reflexivity|].
  apply (podgroup_mirrors_spec sp xs jp Hnd).
Qed.
Print Assumptions C06_pg_written_mirrors.

(* after createOrUpdatePodGroup (create, or update after any scale up/down):
   MinMember, every task's MinTaskMember, PriorityClassName, MinResources mirror the spec *)
Theorem C06_podgroup_mirrors_spec : forall sp xs jp,
  NoDup (map t_name (s_tasks sp)) ->
  (let g := pg_create sp xs jp in
   g_minmember g = s_min sp /\ g_prio g = jp /\ g_res g = calc_min_resources sp xs /\
   forall t, In t (s_tasks sp) -> tm_get (t_name t) (g_taskmin g) = Some (min_task_member t)) /\
  (forall g0, let g := pg_update g0 sp xs jp in
   g_minmember g = s_min sp /\ g_prio g = jp /\ g_res g = calc_min_resources sp xs /\
   forall t, In t (s_tasks sp) -> tm_get (t_name t) (g_taskmin g) = Some (min_task_member t)).
Proof. exact podgroup_mirrors_spec. Qed.
Print Assumptions C06_podgroup_mirrors_spec.

(* minResources: tasks are visited in descending priority (a permutation of the tasks) *)
Theorem C06_sort_prio_sorted : forall l, desc_prio (sort_prio l) = true /\ Permutation (sort_prio l) l.
Proof.
  intros l. unfold sort_prio.
  assert (G : forall l acc, desc_prio acc = true ->
            desc_prio (fold_left (fun acc x => ins_prio x acc) l acc) = true /\
            Permutation (fold_left (fun acc x => ins_prio x acc) l acc) (acc ++ l)).
  { induction l0 as [|x l0 IH]; intros acc Ha; cbn.
    - split; auto. rewrite app_nil_r. apply Permutation_refl.
    - destruct (IH (ins_prio x acc) (ins_prio_desc x acc Ha)) as [A B]. split; auto.
      eapply perm_trans; [exact B|].
      eapply perm_trans; [apply Permutation_app_tail, ins_prio_perm|].
      cbn. apply Permutation_middle. }
  destruct (G l [] eq_refl) as [A B]. split; auto.
Qed.
Print Assumptions C06_sort_prio_sorted.

(* minAvailable below the sum of task minimums: exactly minAvailable replicas are summed *)
Theorem C06_first_count_exact : forall l count,
  Forall (fun t => 0 <= pt_replicas t) l -> 0 <= count <= sum_replicas l ->
  r_pods (first_count count l) = count.
Proof.
  induction l as [|t l IH]; intros count Hf Hc.
  - cbn in *. lia.
  - change (sum_replicas (t :: l)) with (pt_replicas t + sum_replicas l) in Hc.
    inversion Hf as [|? ? Ht Hf']; subst. cbn [first_count].
    destruct (count <=? pt_replicas t) eqn:E.
    + apply rtimes_pods; lia.
    + apply Z.leb_gt in E. cbn [radd r_pods]. rewrite rtimes_pods by lia. rewrite IH; auto; lia.
Qed.
Print Assumptions C06_first_count_exact.

(* each task's own minimum first: never more than minAvailable, pods = what was taken *)
Theorem C06_own_mins_count : forall l jobmin cnt x c,
  Forall (fun t => match pt_min t with Some m => 0 <= m | None => True end) l ->
  cnt <= jobmin -> own_mins jobmin cnt l = (x, c) ->
  cnt <= c <= jobmin /\ r_pods x = c - cnt.
Proof. exact own_mins_count. Qed.
Print Assumptions C06_own_mins_count.

(* minResources sums exactly minAvailable replicas: both branches of calcPGMinResources
   (first-count rule; own minimums then fill-up), for ANY visiting order of the
   tasks, hence for any order of equal priorities *)
Theorem C06_calc_min_resources_exact : forall l jobmin tm,
  Forall ptask_ok l -> 0 <= jobmin <= sum_replicas l ->
  r_pods (calc_min_resources_sorted jobmin l tm) = jobmin.
Proof.
  intros l jobmin tm Hf Hj. unfold calc_min_resources_sorted.
  destruct (jobmin <? tm).
  - apply C06_first_count_exact; auto. eapply Forall_impl; [|exact Hf]. intros t [H _]. exact H.
  - destruct (own_mins jobmin 0 l) as [x c] eqn:Eo.
    assert (Hf2 : Forall (fun t => match pt_min t with Some m => 0 <= m | None => True end) l).
    { eapply Forall_impl; [|exact Hf]. intros t [_ H]. destruct (pt_min t); auto. lia. }
    destruct (own_mins_count l jobmin 0 x c Hf2 ltac:(lia) Eo) as [Hc Hx].
    destruct (jobmin <=? c) eqn:E.
    + apply Z.leb_le in E. lia.
    + apply Z.leb_gt in E. cbn [radd r_pods].
      pose proof (own_mins_all l jobmin 0 x c Hf Eo E) as Hall. pose proof (sum_split l Hf) as Hs.
      rewrite fill_up_exact; auto; lia.
Qed.
Print Assumptions C06_calc_min_resources_exact.

Theorem C06_fill_up_exact : forall l leftcnt,
  Forall ptask_ok l -> 0 < leftcnt <= sum_spare l -> r_pods (fill_up leftcnt l) = leftcnt.
Proof. exact fill_up_exact. Qed.
Print Assumptions C06_fill_up_exact.

(* ---- minResources: WHICH requests are summed.  Independent specification: [greedy caps n] hands n units
   to a list of capacities in order, each taking as much as it can ([C06_greedy_spec]: 0 <= k_t <= cap_t,
   total = min n (sum caps)); [rsum ks l] = sum over the tasks of k_t x (the request of one pod of t).
   With the tasks in visiting order l: if minAvailable is below the sum of the task minimums the hand-out
   goes to the tasks' REPLICAS; otherwise every task first receives its OWN MINIMUM (in order, while
   something is left) and the remainder goes, again in order, to the replicas beyond the minimum.
   cpu and memory components included. ---- *)
Theorem C06_greedy_spec : forall caps n,
  Forall (fun c => 0 <= c) caps -> 0 <= n ->
  Forall2 (fun c k => 0 <= k <= c) caps (greedy caps n) /\
  zsum (greedy caps n) = Z.min n (zsum caps).
Proof.
  induction caps as [|c caps IH]; intros n Hf Hn; cbn [greedy zsum fold_right].
  - split; [constructor|lia].
  - inversion Hf as [|? ? Hc Hf']; subst.
    destruct (IH (n - Z.max 0 (Z.min c n)) Hf' ltac:(lia)) as [A B]. split.
    + constructor; [lia|exact A].
    + fold (zsum (greedy caps (n - Z.max 0 (Z.min c n)))). fold (zsum caps). rewrite B.
      assert (0 <= zsum caps) by (clear - Hf'; induction Hf'; cbn; [lia|fold (zsum l); lia]). lia.
Qed.
Print Assumptions C06_greedy_spec.

Theorem C06_calc_min_resources_amount : forall l jobmin tm,
  Forall ptask_ok l -> 0 <= jobmin ->
  calc_min_resources_sorted jobmin l tm =
  if jobmin <? tm then rsum (greedy (map pt_replicas l) jobmin) l
  else let own := greedy (map own_min l) jobmin in
       radd (rsum own l) (rsum (greedy (map spare l) (jobmin - zsum own)) l).
Proof.
  intros l jobmin tm Hf Hj. unfold calc_min_resources_sorted. destruct (jobmin <? tm).
  - apply first_count_amount; auto.
  - destruct (own_mins jobmin 0 l) as [x c] eqn:Eo.
    destruct (own_mins_amount l jobmin 0 x c Hf Hj Eo) as [A B]. rewrite Z.sub_0_r in A, B. cbn zeta. rewrite <- A.
    assert (Hf2 : Forall (fun t => match pt_min t with Some m => 0 <= m | None => True end) l).
    { eapply Forall_impl; [|exact Hf]. intros t [_ H]. destruct (pt_min t); auto. lia. }
    destruct (own_mins_count l jobmin 0 x c Hf2 Hj Eo) as [Hc _].
    destruct (jobmin <=? c) eqn:E.
    + apply Z.leb_le in E. assert (jobmin - zsum (greedy (map own_min l) jobmin) = 0) by lia.
      rewrite H, rsum_greedy_0, radd_r0_r. reflexivity.
    + apply Z.leb_gt in E. rewrite fill_up_amount by (auto; lia). rewrite B. reflexivity.
Qed.
Print Assumptions C06_calc_min_resources_amount.

(* law 206 MEANS the clause: a value it accepts is the value for SOME visiting order that is a permutation
   of the job's tasks in descending priority (ties in any order), i.e. the amount above over that order *)
Theorem C06_law_minres_amount : forall sp xs got,
  Forall ptask_ok (ptasks sp xs) -> 0 <= s_min sp ->
  law_minres sp xs got = true ->
  exists o, Permutation o (ptasks sp xs) /\ desc_prio o = true /\
    got = if s_min sp <? total_min (ptasks sp xs) then rsum (greedy (map pt_replicas o) (s_min sp)) o
          else let own := greedy (map own_min o) (s_min sp) in
               radd (rsum own o) (rsum (greedy (map spare o) (s_min sp - zsum own)) o).
Proof.
  intros sp xs got Hf Hj H. destruct (law_minres_sound sp xs got H) as [o [Hp [Hd He]]].
  exists o. split; [exact Hp|]. split; [exact Hd|]. rewrite He. apply C06_calc_min_resources_amount; [|exact Hj].
  eapply Permutation_Forall; [apply Permutation_sym; exact Hp|exact Hf].
Qed.
Print Assumptions C06_law_minres_amount.

(* the same from the law's own executable guard [well_formed] (replicas >= 0, 0 <= task minimum <= replicas,
   0 <= minAvailable <= total replicas): the hypothesis of the amount theorems is what the guard checks *)
Theorem C06_law_minres_amount_wf : forall sp xs got,
  well_formed sp = true -> law_minres sp xs got = true ->
  exists o, Permutation o (ptasks sp xs) /\ desc_prio o = true /\
    got = if s_min sp <? total_min (ptasks sp xs) then rsum (greedy (map pt_replicas o) (s_min sp)) o
          else let own := greedy (map own_min o) (s_min sp) in
               radd (rsum own o) (rsum (greedy (map spare o) (s_min sp - zsum own)) o).
Proof.
  intros sp xs got Hw H. apply C06_law_minres_amount; auto; [apply well_formed_ptask_ok; exact Hw|].
  unfold well_formed in Hw. apply andb_true_iff in Hw. destruct Hw as [Hw _].
  apply andb_true_iff in Hw. destruct Hw as [_ Hw]. apply Z.leb_le in Hw. exact Hw.
Qed.
Print Assumptions C06_law_minres_amount_wf.

(* ties are visited in SPEC order (sort.Sort is an insertion sort below 12 elements): the model's visiting order
   keeps, for every priority, the tasks of that priority in the order of spec.tasks; law 212 accepts, for
   fewer than 12 tasks, only the amount over that order (a Less that breaks ties by task name is refused) *)
Theorem C06_sort_prio_stable : forall l p, filter (same_prio p) (sort_prio l) = filter (same_prio p) l.
Proof.
  intros l p. unfold sort_prio.
  assert (G : forall l acc, desc_prio acc = true ->
            filter (same_prio p) (fold_left (fun acc x => ins_prio x acc) l acc) =
            filter (same_prio p) acc ++ filter (same_prio p) l).
  { induction l0 as [|x l0 IH]; intros acc Hacc; cbn [fold_left filter]; [rewrite app_nil_r; reflexivity|].
    rewrite (IH _ (ins_prio_desc x acc Hacc)), (ins_prio_stable p x acc Hacc), <- app_assoc.
    destruct (same_prio p x); reflexivity. }
  rewrite (G l [] eq_refl). reflexivity.
Qed.
Print Assumptions C06_sort_prio_stable.

Theorem C06_law_minres_stable_sound : forall sp xs got,
  law_minres_stable sp xs got = true -> (length (s_tasks sp) < 12)%nat ->
  let l := ptasks sp xs in let o := sort_prio l in
  got = calc_min_resources_sorted (s_min sp) o (total_min l) /\
  desc_prio o = true /\ Permutation o l /\ forall p, filter (same_prio p) o = filter (same_prio p) l.
Proof.
  intros sp xs got H Hlen l o. unfold law_minres_stable in H. apply andb_true_iff in H. destruct H as [_ H].
  apply Nat.ltb_lt in Hlen. rewrite Hlen in H. apply res_eqb_eq in H.
  split; [exact H|]. destruct (C06_sort_prio_sorted l) as [A B]. split; [exact A|]. split; [exact B|].
  intros p. apply C06_sort_prio_stable.
Qed.
Print Assumptions C06_law_minres_stable_sound.

(* ... and from the law's own guard: the greedy amount over that stable order *)
Theorem C06_law_minres_stable_amount : forall sp xs got,
  well_formed sp = true -> law_minres_stable sp xs got = true -> (length (s_tasks sp) < 12)%nat ->
  let l := ptasks sp xs in let o := sort_prio l in
  got = (if s_min sp <? total_min l then rsum (greedy (map pt_replicas o) (s_min sp)) o
         else let own := greedy (map own_min o) (s_min sp) in
              radd (rsum own o) (rsum (greedy (map spare o) (s_min sp - zsum own)) o)) /\
  desc_prio o = true /\ Permutation o l /\ forall p, filter (same_prio p) o = filter (same_prio p) l.
Proof.
  intros sp xs got Hw H Hlen l o.
  destruct (C06_law_minres_stable_sound sp xs got H Hlen) as (E & A & B & C). fold l o in E, A, B, C.
  split; [|auto]. rewrite E. apply C06_calc_min_resources_amount.
  - eapply Permutation_Forall; [apply Permutation_sym; exact B|apply well_formed_ptask_ok; exact Hw].
  - unfold well_formed in Hw. apply andb_true_iff in Hw. destruct Hw as [Hw _].
    apply andb_true_iff in Hw. destruct Hw as [_ Hw]. apply Z.leb_le in Hw. exact Hw.
Qed.
Print Assumptions C06_law_minres_stable_amount.

(* law 205 MEANS the mirror clause *)
Theorem C06_law_pg_sound : forall sp xs jp q g,
  law_pg sp xs jp q g = true ->
  g_minmember g = s_min sp /\ g_prio g = jp /\ q = true /\
  (forall t, In t (s_tasks sp) -> tm_get (t_name t) (g_taskmin g) = Some (min_task_member t)) /\
  law_minres_stable sp xs (g_res g) = true.
Proof.
  intros sp xs jp q g H. unfold law_pg in H.
  repeat (apply andb_true_iff in H; let H' := fresh "H" in destruct H as [H H']).
  apply Z.eqb_eq in H, H2. rewrite forallb_forall in H3.
  repeat split; auto.
  intros t Ht. specialize (H3 t Ht). destruct (tm_get (t_name t) (g_taskmin g)); [|discriminate].
  apply Z.eqb_eq in H3. congruence.
Qed.
Print Assumptions C06_law_pg_sound.

Example C06_nonvacuous_minres_amount :
  let l := [mkPT (mkTask 1 3 (Some 1) [] None) 100 64 10; mkPT (mkTask 2 2 None [] None) 250 0 20] in
  Forall ptask_ok l /\ greedy (map own_min l) 4 = [1; 0] /\ greedy (map spare l) (4 - 1) = [2; 1] /\
  calc_min_resources_sorted 4 l (total_min l) = radd (rsum [1; 0] l) (rsum [2; 1] l) /\
  radd (rsum [1; 0] l) (rsum [2; 1] l) = mkR 4 (3 * 100 + 1 * 250) (3 * 64).
Proof. exact minres_amount_example. Qed.

(* (the step-level facts about the resync worker's op -- it never adds a pod to the job cache -- are lemma
   resync_adds_no_pod of C06/Lemmas.v, read off the definition of the op) *)

Example C06_nonvacuous :
  let sp := mkSpec [mkTask 1 3 (Some 1) [] None; mkTask 2 2 None [] None] 4 None 3 [] in
  let xs := [mkExtra 100 64 1; mkExtra 250 0 2] in
  NoDup (map t_name (s_tasks sp)) /\
  calc_min_resources sp xs = mkR 4 (2 * 250 + 2 * 100) (2 * 64) /\
  law_pg sp xs 2 true (pg_create sp xs 2) = true.
Proof. exact pg_example. Qed.

Example C06_nonvacuous_pod_set :
  NoDup (map t_name (s_tasks ex_spec)) /\ NoDup (pod_ids ex_pods) /\
  pass true ex_spec ex_pods =
    [mkPod 1 0 PPending false false; mkPod 1 1 PRunning true true; mkPod 1 2 PRunning true false;
     mkPod 2 0 PPending false false] /\
  pass true ex_spec (pass true ex_spec ex_pods) = pass true ex_spec ex_pods /\
  pass true ex_spec (a_pods (sync_pods ex_spec ex_pods ex_pods [FCreate 1 0; FDelete 1 2])) = pass true ex_spec ex_pods.
Proof. exact pod_set_example. Qed.

Example C06_nonvacuous_minres :
  let l := [mkPT (mkTask 1 3 (Some 1) [] None) 100 64 10; mkPT (mkTask 2 2 None [] None) 250 0 20] in
  Forall ptask_ok l /\ 0 <= 4 <= sum_replicas l /\
  calc_min_resources_sorted 4 l (total_min l) = mkR 4 (3 * 100 + 250) (3 * 64).
Proof. exact minres_example. Qed.

Example C06_nonvacuous_crash_restart :
  let w := init_world ex_spec (mkStatus PhRunning 0 0 2 c0 0 [] false false) ex_pods (Some PgRunning) in
  exists w1, sync_job w URunningSync [FCreate 1 0; FDelete 1 2] = (w1, true, false) /\
    let w2 := run w1 [ORestart; OSyncPods; OSyncJob; OSyncPg] in
    c_job (v_ctl w2) = true /\ v_pods w2 = w_pods w1 /\
    pass true (v_spec w2) (v_pods w2) = pass true ex_spec ex_pods.
Proof. exact crash_restart_world_example. Qed.

Example C06_nonvacuous_podgroup_ok :
  let sp := mkSpec [mkTask 1 3 (Some 1) [] None; mkTask 2 2 None [] None] 4 None 3 [] in
  let xs := [mkExtra 100 64 1; mkExtra 250 0 2] in
  let g0 := pg_create (mkSpec [mkTask 1 2 (Some 1) [] None; mkTask 2 2 None [] None] 3 None 3 []) xs 0 in
  create_or_update_pg (Some g0) (Some g0) sp xs 2 false = (Some (pg_update g0 sp xs 2), false) /\
  create_or_update_pg (Some g0) (Some g0) sp xs 2 true = (Some g0, true) /\
  pg_update g0 sp xs 2 <> g0.
Proof. exact podgroup_ok_example. Qed.

Example C06_nonvacuous_crash_restart_retry :
  let st := mkStatus PhRunning 0 0 2 c0 0 [] false false in
  let w := init_world ex_spec st ex_pods (Some PgRunning) in
  let wbad := mkWorld ex_spec ex_spec st st ex_pods ex_pods (Some PgPending) (Some PgRunning) (init_ctl true) in
  (exists w1 w3 wr3, sync_job w URunningSync [FCreate 1 0; FDelete 1 2] = (w1, true, false) /\
     st_phase (w_st w1) <> PhNone /\
     sync_job (run w1 [ORestart; OSyncPods; OSyncJob; OSyncPg]) URunningSync [] = (w3, false, wr3) /\
     w_pods w3 = pass true ex_spec ex_pods) /\
  (exists w1 w3 wr3, sync_job wbad URunningSync [FCreate 1 0; FDelete 1 2] = (w1, true, false) /\
     sync_job (run w1 [ORestart; OSyncPods; OSyncJob; OSyncPg]) URunningSync [] = (w3, false, wr3) /\
     w_pods w3 = w_pods w1 /\ w_pods w3 <> pass true ex_spec ex_pods).
Proof. exact crash_restart_retry_example. Qed.

Example C06_nonvacuous_minres_stable :
  let sp := mkSpec [mkTask 2 2 None [] None; mkTask 1 2 None [] None] 1 None 3 [] in
  let xs := [mkExtra 100 64 1; mkExtra 250 0 1] in
  calc_min_resources sp xs = mkR 1 100 64 /\
  law_minres_stable sp xs (mkR 1 100 64) = true /\
  law_minres sp xs (mkR 1 250 0) = true /\ law_minres_stable sp xs (mkR 1 250 0) = false.
Proof. exact minres_stable_example. Qed.

Example C06_nonvacuous_resync :
  let st := mkStatus PhRunning 0 0 2 (mkC 0 2 0 0 0) 0 [] false false in
  let sp := mkSpec [mkTask 1 2 None [] None] 2 None 3 [] in
  let w := init_world sp st [mkPod 1 0 PRunning false false; mkPod 1 1 PRunning false true] (Some PgRunning) in
  w_pods (run w [OReq (mkReq EOutOfSync None None None 0 0 1) [FDelete 1 1]; OResyncPod 1 1 true;
                 OSyncPods; OSyncPg; OSyncJob; OReq (mkReq EOutOfSync None None None 0 0 1) []]) =
  [mkPod 1 0 PRunning false false; mkPod 1 1 PPending false false].
Proof. exact resync_example. Qed.
