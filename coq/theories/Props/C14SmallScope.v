(* Property C14, thorough tier only — the small-scope order-independence theorems
   (the reachable configurations are enumerated and their closure is checked by vm_compute).
   Build: make -C /verif/coq theories/Props/C14SmallScope.vo *)
From Coq Require Import ZArith List Bool.
From V Require Import C14.Model C14.Laws C14.SmallScope C14.SmallScope2.
Import ListNotations.
Open Scope Z_scope.

(* --- the view: PARTIAL (bounded universe, unbounded history length).  For every history
   of add / update / delete events over the universe u_alphabet (4 HyperNodes on 3 tiers,
   15 object versions, exact-match members) whose every intermediate object set is a
   consistent forest: the incremental view equals the tree derived from the final objects
   (parent, children, tier, leaves below), is Ready, and agrees with a from-scratch view --- *)
Theorem C14_incremental_equals_scratch_small_scope : forall h,
  guards_along u_env u_alphabet u_init h ->
  let c := fold_left (cstep u_env) h u_init in
  view_matches_spec u_env (c_objs c) (c_st c) = true /\
  s_ready (c_st c) = true /\ s_fuel (c_st c) = false /\
  views_agree (c_objs c) (c_st c) (scratch u_env (c_objs c)) = true.
Proof.
  intros h Hg. apply good_elim.
  exact (small_scope_generic u_env u_alphabet u_init u_reach u_reach_closed h Hg).
Qed.
Print Assumptions C14_incremental_equals_scratch_small_scope.

(* the same statement on a second universe: a four-tier chain h1<h2<h3<h4 and a leaf h5
   that can hang under h2, h3 or h4 *)
Theorem C14_incremental_equals_scratch_small_scope2 : forall h,
  guards_along v_env v_alphabet u_init h ->
  let c := fold_left (cstep v_env) h u_init in
  view_matches_spec v_env (c_objs c) (c_st c) = true /\
  s_ready (c_st c) = true /\ s_fuel (c_st c) = false /\
  views_agree (c_objs c) (c_st c) (scratch v_env (c_objs c)) = true.
Proof.
  intros h Hg. apply good_elim.
  exact (small_scope_generic v_env v_alphabet u_init v_reach v_reach_closed h Hg).
Qed.
Print Assumptions C14_incremental_equals_scratch_small_scope2.

(* non-vacuity *)
Example C14_small_scope_nonvacuous :
  guards_along u_env u_alphabet u_init
    [EUpd (mkObj 4 3 [MHyper 3]); EUpd (mkObj 3 2 [MHyper 1; MHyper 2]); EUpd (mkObj 1 1 [MNode 1]);
     EUpd (mkObj 2 1 [MNode 2]); EUpd (mkObj 3 2 [MHyper 1]); EUpd (mkObj 4 3 [MHyper 3; MHyper 2]);
     EDel 1; EUpd (mkObj 1 1 [MNode 1; MNode 2])]%positive.
Proof. exact small_scope_nonvacuous. Qed.

