(* Property C07 — session bookkeeping is conservative and transactional.
   The property theorems, each followed by Print Assumptions.  A proof stands here when nothing
   else needs the fact; otherwise the theorem is [exact] of a lemma of Sched/LedgerLemmas*.v.
   The pre-fix variants and sessions of the refutations are in C07/Refuted.v. *)
From stdpp Require Import gmap.
From Coq Require Import ZArith Lia.
From V Require Import Base.Res Sched.LedgerModel Sched.StmtModel Sched.GangModel Sched.LedgerInvP Sched.LedgerInv
  Sched.LedgerLemmasA Sched.LedgerLemmasJob Sched.LedgerLemmasNode Sched.LedgerLemmasSess Sched.LedgerLemmasSk
  Sched.LedgerLemmasTxn Sched.LedgerLemmasTxnN Sched.LedgerLemmasAudit Sched.LedgerLemmasSound Sched.LedgerLemmasEx C07.Example C07.Refuted C07.Entry.
Open Scope Z_scope.

(* ---- 1. primitives ---- *)

(* amounts subtract exactly when the subtrahend is part of the minuend (covers Resource.sub's nil-map quirk) *)
Theorem C07_amt_sub_part : forall r x,
  (forall d, 0 <= amt x d <= amt r d) -> forall d, amt (sub r x) d = amt r d - amt x d.
Proof. exact amt_sub_part. Qed.
Print Assumptions C07_amt_sub_part.

(* UpdateTaskStatus with the stored object or any clone of the task keeps the job invariant
   (sums, status index, sub-job bookkeeping) and the heap entry it writes is well-formed *)
Theorem C07_job_update_inv : forall h j p st j' p',
  heap_ok h -> job_inv h j -> t_job p = j_id j -> nonneg (t_req p) ->
  job_update h j p st = (j', p') ->
  p' = set_status p st /\ j_id j' = j_id j /\ t_id p ∈ j_tasks j' /\
  heap_ok (<[t_id p := p']> h) /\ job_inv (<[t_id p := p']> h) j'.
Proof. exact job_update_inv. Qed.
Print Assumptions C07_job_update_inv.

(* AddTask: an error returns no node (the caller keeps the old one); success stores a clone and
   the caller's object only gains NodeName ... *)
Theorem C07_node_add_spec : forall eps n t n' t',
  node_add eps n t = inl (n', t') ->
  t' = set_node t (Some (n_id n)) /\ n_tasks n !! t_id t = None /\
  n_tasks n' = <[t_id t := set_node t (Some (n_id n))]> (n_tasks n) /\
  n_id n' = n_id n /\ n_has_node n' = n_has_node n /\ n_alloc n' = n_alloc n /\
  (t_node t = None \/ t_node t = Some (n_id n)).
Proof. exact node_add_spec. Qed.
Print Assumptions C07_node_add_spec.

(* ... and keeps the node invariant *)
Theorem C07_node_add_inv : forall eps h n t n' t',
  node_inv h n -> node_wf n -> nonneg (t_req t) ->
  (exists x, h !! t_id t = Some x /\ t_req x = t_req t /\ t_job x = t_job t) ->
  node_add eps n t = inl (n', t') -> node_inv h n' /\ node_wf n'.
Proof. exact node_add_inv. Qed.
Print Assumptions C07_node_add_inv.

Theorem C07_node_remove_inv : forall h n i,
  node_inv h n -> node_wf n -> node_inv h (node_remove n i) /\ node_wf (node_remove n i).
Proof. exact node_remove_inv. Qed.
Print Assumptions C07_node_remove_inv.

Theorem C07_node_update_inv : forall eps h n t n' t',
  node_inv h n -> node_wf n -> nonneg (t_req t) ->
  (exists x, h !! t_id t = Some x /\ t_req x = t_req t /\ t_job x = t_job t) ->
  node_update eps n t = inl (n', t') -> node_inv h n' /\ node_wf n'.
Proof.
  intros eps h n t n' t' Hinv Hwf Hnn Hx. unfold node_update.
  destruct (node_remove_inv h n (t_id t) Hinv Hwf) as [Hi' Hw'].
  apply node_add_inv; assumption.
Qed.
Print Assumptions C07_node_update_inv.

(* ---- 2. MAIN: the invariant holds after every history over the whole operation alphabet ---- *)
Theorem C07_ledger_inv_preserved : forall eps s ops,
  ledger_inv s -> sess_wf s -> saved_ok s ->
  ledger_inv (run eps s ops) /\ sess_wf (run eps s ops) /\ saved_ok (run eps s ops).
Proof. exact ledger_inv_preserved. Qed.
Print Assumptions C07_ledger_inv_preserved.

(* the side condition on the idle ledgers is necessary on the faithful model *)
Theorem C07_sess_wf_necessary_refuted :
  exists s o, ledger_okb (heap s) (jobs s) (nodes s) = true /\ sess_wfb s = false /\
              let s' := fst (step ex_eps s o) in ledger_okb (heap s') (jobs s') (nodes s') = false.
Proof. exact sess_wf_necessary_refuted. Qed.
Print Assumptions C07_sess_wf_necessary_refuted.

(* ---- 3. what reaches the binder / evictor ----
   The clause "nothing of an undecided transaction reaches the binder" is FALSE on the model and
   on the Go code (C07_undecided_reaches_binder_refuted, known finding
   C07-session-allocate-dispatches-open-statement-task).  What holds: *)

(* (a) every history without Commit / Session.Allocate / Session.Evict leaves both logs untouched *)
Theorem C07_undecided_invisible : forall eps s o,
  touches_cache o = false ->
  binds (fst (step eps s o)) = binds s /\ evicts (fst (step eps s o)) = evicts s.
Proof. exact undecided_invisible. Qed.
Print Assumptions C07_undecided_invisible.

Theorem C07_undecided_invisible_run : forall eps ops s,
  Forall (fun o => touches_cache o = false) ops ->
  binds (run eps s ops) = binds s /\ evicts (run eps s ops) = evicts s.
Proof.
  intros eps ops.
  induction ops as [|o r IH]; intros s Hall; [split; reflexivity|].
  apply Forall_cons in Hall as [Ho Hr]. change (run eps s (o :: r)) with (run eps (fst (step eps s o)) r).
  destruct (IH (fst (step eps s o)) Hr) as [H1 H2]. destruct (undecided_invisible eps s o Ho) as [H3 H4].
  split; congruence.
Qed.
Print Assumptions C07_undecided_invisible_run.

(* (b) Commit of statement sid (any number of recorded operations): the binder receives only
   Allocate operations recorded in sid that the cache does not refuse, the evictor only Evict
   operations recorded in sid that it does not refuse; the statement is empty afterwards *)
Theorem C07_commit_logs_only_own : forall eps s sid,
  sess_ok s ->
  let s' := stmt_commit eps s sid in
  let ops := default [] (stmts s !! sid) in
  sess_ok s' /\ stmts s' !! sid = Some [] /\
  exists lb le, binds s' = lb ++ binds s /\ evicts s' = le ++ evicts s /\
    (forall b, b ∈ lb -> exists o, o ∈ ops /\ op_kind o = KAllocate /\ fst b = op_task o /\ op_task o ∉ refuse_bind s) /\
    (forall e, e ∈ le -> exists o, o ∈ ops /\ op_kind o = KEvict /\ e = op_task o /\ op_task o ∉ refuse_evict s).
Proof.
  intros eps s sid Hok. cbv zeta. unfold stmt_commit.
  destruct (commit_fold_logs eps (default [] (stmts s !! sid)) s Hok) as (Hok' & _ & lb & le & Hb & He & HB & HE).
  split; [|split; [simpl; apply lookup_insert|]].
  - destruct Hok' as (A & B & C). split; [exact A|]. split; [exact B|exact C].
  - exists lb, le. simpl. auto.
Qed.
Print Assumptions C07_commit_logs_only_own.

(* (c) Session.Allocate / Pipeline: the binder receives only the task the call was made with and
   tasks the job's Allocated index held before the call, none whose bind the cache refuses; the
   evictor receives nothing *)
Theorem C07_ssn_place_binds : forall eps jr s k tid nid,
  exists lb, binds (fst (ssn_place_with eps jr s k tid nid)) = lb ++ binds s /\
    evicts (fst (ssn_place_with eps jr s k tid nid)) = evicts s /\
    forall b, b ∈ lb ->
      k = KAllocate /\ fst b ∉ refuse_bind s /\
      exists p j, heap s !! tid = Some p /\ jobs s !! t_job p = Some j /\
                  (fst b = t_id p \/ fst b ∈ idx_set (j_index j) Allocated).
Proof.
  intros eps jr s k tid nid.
  destruct (ssn_place_cache eps jr s k tid nid) as [H|(-> & p & j & s4 & Eh & Ej & Hc & ->)].
  - apply cache_lg in H. injection H as H1 H2. exists []. rewrite H1, H2.
    split; [reflexivity|]. split; [reflexivity|]. intros ? Hx; inversion Hx.
  - pose proof (cache_lg _ _ Hc) as [= Hb4 He4]. pose proof (cache_rf _ _ Hc) as [= Hr4 _].
    destruct (dispatch_all_logs (elements (idx_set (j_index (fst (job_update (heap s) j p Allocated))) Allocated)) s4)
      as (_ & lb & Hb & He & HB).
    exists lb. rewrite Hb, He, Hb4, He4. split; [reflexivity|]. split; [reflexivity|].
    intros b Hin. destruct (HB b Hin) as [H1 H2]. rewrite Hr4 in H2. split; [reflexivity|]. split; [exact H2|].
    exists p, j. split; [exact Eh|]. split; [exact Ej|].
    apply elem_of_elements, job_update_alloc_index, elem_of_union in H1 as [H1|H1]; [left|right; exact H1].
    apply elem_of_singleton in H1. exact H1.
Qed.
Print Assumptions C07_ssn_place_binds.

(* (d) ... and that index may hold a task an OPEN statement placed (known finding
   C07-session-allocate-dispatches-open-statement-task; session.go, Session.Allocate dispatch
   loop): statement 1 allocates t1 and stays open; Session.Allocate of t5 (same job, JobReady)
   hands BOTH to the binder; the later Discard of statement 1 un-allocates t1 in the session
   while the binder keeps it.  The invariant holds throughout. *)
Theorem C07_undecided_reaches_binder_refuted :
  exists s sid t1 t5 nid,
    okb s = true /\
    let s1 := run ex_eps s [OAllocate sid t1 nid; OSetFaults [] [] [] true; OSsnAllocate t5 nid] in
    okb s1 = true /\
    map op_task (default [] (stmts s1 !! sid)) = [t1] /\
    map fst (binds s1) = [t5; t1] /\
    task_view s1 t1 = Some (Binding, Some nid) /\
    let s2 := run ex_eps s1 [ODiscard sid] in
    okb s2 = true /\ task_view s2 t1 = Some (Pending, None) /\ copy_status s2 nid t1 = None /\
    map fst (binds s2) = [t5; t1].
Proof. exists w_sess, 1%positive, 1%positive, 5%positive, 1%positive. vm_compute. repeat split; reflexivity. Qed.
Print Assumptions C07_undecided_reaches_binder_refuted.

(* (e) evictor half, caller induced: Session.Evict of a task whose eviction an OPEN statement
   records hands it to the evictor; the later Discard restores it to Running in the session (the
   handler share is charged twice), the evictor keeps it *)
Theorem C07_undecided_reaches_evictor_refuted :
  let s1 := run ex_eps ex_sess [OEvict 1 2; OSsnEvict 2] in
  run_results ex_eps ex_sess [OEvict 1 2; OSsnEvict 2] = [ROk; ROk] /\
  evicts s1 = [2%positive] /\ map op_task (default [] (stmts s1 !! 1%positive)) = [2%positive] /\
  let s2 := run ex_eps s1 [ODiscard 1] in
  okb s2 = true /\ task_view s2 2 = Some (Running, Some 1%positive) /\ evicts s2 = [2%positive] /\
  sess_sameb ex_sess s2 = false.
Proof. vm_compute. repeat split; reflexivity. Qed.
Print Assumptions C07_undecided_reaches_evictor_refuted.

(* ---- 4. a failed operation leaves no trace ---- *)
Theorem C07_failed_op_no_trace : forall eps s sid k p nid s',
  sess_ok s -> placeable s p nid ->
  place_with eps s sid k p nid = (s', RErr) ->
  sess_eqv s s' /\ stmts s' = stmts s /\ binds s' = binds s /\ evicts s' = evicts s /\ saved s' = saved s.
Proof.
  intros eps s sid k p nid s' Hok Hpl Hplace. pose proof Hpl as (Hl & _ & _ & Hjk & _).
  pose proof (sess_ok_place eps s sid k p nid Hok Hl) as Hok'. rewrite Hplace in Hok'. simpl in Hok'.
  destruct (place_sk eps s sid k p nid (proj1 Hok) Hjk Hl) as (ok & b & s4 & Hps & Hst4 & Hb4 & He4 & (Hsv4 & _) & _ & Heq).
  rewrite Heq in Hplace. destruct (_ && negb b); [discriminate|]. injection Hplace as <-.
  destruct (undo_place eps s k p nid s4 (proj1 Hok) Hpl Hps) as (H1 & H2 & H3 & H4 & H5 & H6 & H7 & H8).
  split; [apply sk_sess_eqv; auto; [exact (proj1 Hok)|exact (proj1 Hok')]|].
  split; [congruence|]. split; [congruence|]. split; congruence.
Qed.
Print Assumptions C07_failed_op_no_trace.

(* Session.Allocate / Pipeline on a placeable task whose job holds no other Allocated task:
   whatever the reason of the error -- unknown job, unknown node, dispatch (AddBindTask) refused
   (fix c8b10ae); under [placeable] the node cannot refuse -- the session is sess_eqv to the one before *)
Theorem C07_failed_ssn_place_no_trace : forall eps jr s k p nid,
  sess_ok s -> placeable s p nid ->
  (forall j, jobs s !! t_job p = Some j -> idx_set (j_index j) Allocated = ∅) ->
  let r := ssn_place_with eps jr s k (t_id p) nid in
  snd r = RErr ->
  sess_eqv s (fst r) /\ binds (fst r) = binds s /\ evicts (fst r) = evicts s /\ stmts (fst r) = stmts s.
Proof.
  intros eps jr s k p nid Hok Hpl Hidx. cbv zeta. intros Hres.
  pose proof Hpl as (Hl & Hst & Hnd & Hjk & Hoff).
  destruct (jobs s !! t_job p) as [j|] eqn:Ej.
  2: { destruct (failed_ssn_place_no_trace_cause eps jr s k p nid Hok Hl Hst Hnd Hjk (or_introl Ej)) as (_ & A & B & C & D & _). auto. }
  destruct (nodes s !! nid) as [n|] eqn:En.
  2: { destruct (failed_ssn_place_no_trace_cause eps jr s k p nid Hok Hl Hst Hnd Hjk (or_intror (or_introl En))) as (_ & A & B & C & D & _). auto. }
  destruct (node_add eps n (placed_obj s k p nid)) as [[n' q]|e] eqn:Ea.
  2: { destruct (failed_ssn_place_no_trace_cause eps jr s k p nid Hok Hl Hst Hnd Hjk) as (_ & A & B & C & D & _); [right; right; eauto|auto]. }
  specialize (Hidx j eq_refl).
  pose proof Hok as (Hinv & Hw & Hsv). pose proof Hinv as (Hh & Hjobs & Hnodes). destruct (Hnodes _ _ En) as [Hnid _].
  assert (Hinv' : ledger_inv (fst (ssn_place_with eps jr s k (t_id p) nid)))
    by exact (proj1 (good_ssn_place eps _ jr s k (t_id p) nid (good_init s Hinv Hw Hsv))).
  assert (Hm : jmember j p) by (unfold jknown in Hjk; rewrite Ej in Hjk; exact Hjk).
  remember (ssn_place_with eps jr s k (t_id p) nid) as r eqn:Er.
  unfold ssn_place_with in Er. rewrite Hl in Er. fold (place_status k) in Er.
  unfold ssn_update_status at 1 in Er. rewrite Ej in Er.
  destruct (job_update_member (heap s) j p p (place_status k) Hl eq_refl Hm) as (j1 & Eju & Hjv1).
  pose proof (job_update_index (heap s) j p (place_status k) Hl (proj1 Hm)) as Hix1. rewrite Eju in Hix1. cbn [fst] in Hix1.
  rewrite Eju in Er. cbv beta iota zeta in Er. cbn [negb] in Er.
  set (p1 := set_status p (place_status k)) in *. set (p2 := set_node p1 (Some nid)) in *.
  set (s1 := put_task (upd_jobs s (<[t_job p := j1]> (jobs s))) p1) in *. set (s2 := put_task s1 p2) in *.
  change (nodes s2) with (nodes s) in Er. rewrite En in Er.
  assert (Hp2 : placed_obj s k p nid = p2).
  { unfold placed_obj. rewrite Ej, bool_decide_eq_true_2 by eauto. reflexivity. }
  rewrite Hp2 in Ea. rewrite Ea in Er.
  destruct (node_add_spec _ _ _ _ _ Ea) as (Hq & _). rewrite Hnid in Hq.
  rewrite (set_node_id p2 (Some nid) eq_refl) in Hq. subst q.
  unfold h_alloc in Er. cbv beta iota zeta in Er.
  match type of Er with context [upd_handlers ?a ?b ?c] => set (s4 := upd_handlers a b c) in * end.
  assert (Hjv4 : jv s4 = jv s) by exact (jv_insert_same s _ j j1 Ej Hjv1).
  assert (Hps : placed_state eps s p (placed_obj s k p nid) nid s4).
  { rewrite Hp2. split; [|split; [|split]].
    - unfold s4, s2, s1. simpl. rewrite !insert_insert. reflexivity.
    - exact Hjv4.
    - right. exists n, n', p2. split; [exact En|]. split; [exact Ea|reflexivity].
    - reflexivity. }
  assert (Hl4 : heap s4 !! t_id p = Some p2) by (destruct Hps as (-> & _); rewrite Hp2; apply lookup_insert).
  destruct k; try (subst r; discriminate Hres).
  change (jobs s4) with (<[t_job p := j1]> (jobs s)) in Er. rewrite lookup_insert in Er.
  destruct (jr s4 j1); [|subst r; discriminate Hres].
  assert (Hel : elements (default ∅ (j_index j1 !! skey Allocated)) = [t_id p]).
  { change (default ∅ (j_index j1 !! skey Allocated)) with (idx_set (j_index j1) Allocated).
    rewrite Hix1, idx_set_add. simpl. destruct (decide (Allocated = Allocated)) as [_|Hne]; [|congruence].
    rewrite idx_set_del, Hst. destruct (decide (Pending = Allocated)) as [Hne|_]; [discriminate|].
    rewrite Hidx, (right_id_L ∅ (∪)). apply elements_singleton. }
  rewrite Hel in Er. cbn [dispatch_all] in Er. unfold dispatch in Er. rewrite Hl4 in Er.
  destruct (bool_decide (t_id p ∈ refuse_bind s4)) eqn:Hrb.
  - cbv beta iota zeta in Er. rewrite Hl4 in Er. subst r. cbn [fst snd] in *.
    destruct (undo_place eps s KAllocate p nid s4 Hinv Hpl Hps) as (H1 & H2 & H3 & H4 & H5 & H6 & H7 & H8).
    rewrite Hp2 in *.
    split; [apply sk_sess_eqv; [exact Hinv|exact Hinv'|symmetry; exact H1|symmetry; exact H2|symmetry; exact H3|exact H4]|].
    split; [rewrite H6; reflexivity|]. split; [rewrite H7; reflexivity|]. rewrite H5. reflexivity.
  - unfold ssn_update_status in Er. cbn [jobs upd_logs] in Er.
    change (jobs s4) with (<[t_job p := j1]> (jobs s)) in Er. change (t_job p2) with (t_job p) in Er. rewrite lookup_insert in Er.
    destruct (job_update _ j1 p2 Binding) as [j2 q2]. cbv beta iota zeta in Er. subst r. discriminate Hres.
Qed.
Print Assumptions C07_failed_ssn_place_no_trace.

(* ... and when the task cannot even be placed, no event handler is called *)
Theorem C07_failed_ssn_place_no_handler_call : forall eps jr s k p nid,
  sess_ok s -> heap s !! t_id p = Some p -> t_status p = Pending -> t_node p = None -> jknown s p ->
  (jobs s !! t_job p = None \/ nodes s !! nid = None \/
   exists n e, nodes s !! nid = Some n /\ node_add eps n (placed_obj s k p nid) = inr e) ->
  let r := ssn_place_with eps jr s k (t_id p) nid in
  snd r = RErr /\ sess_eqv s (fst r) /\ binds (fst r) = binds s /\ evicts (fst r) = evicts s /\
  stmts (fst r) = stmts s /\ hlog (fst r) = hlog s.
Proof. exact failed_ssn_place_no_trace_cause. Qed.
Print Assumptions C07_failed_ssn_place_no_handler_call.

(* the dispatch loop before fix c8b10ae kept the allocation of a task whose bind was refused
   (finding C07-session-allocate-dispatch-refused-keeps-allocation, repaired by c8b10ae) *)
Theorem C07_dispatch_all_prefix_refuted :
  exists s tid nid,
    ledger_okb (heap s) (jobs s) (nodes s) = true /\
    (t_status <$> heap s !! tid) = Some Pending /\
    (heap s !! tid ≫= t_node) = None /\
    on_no_node s tid = true /\
    snd (ssn_place_dprefix ex_eps s KAllocate tid nid) = RErr /\
    let s' := fst (ssn_place_dprefix ex_eps s KAllocate tid nid) in
    (t_status <$> heap s' !! tid) = Some Allocated /\
    (heap s' !! tid ≫= t_node) = Some nid /\
    (t_id <$> (nodes s' !! nid ≫= fun n => n_tasks n !! tid)) = Some tid.
Proof. exists d_sess, 1%positive, 1%positive. vm_compute. repeat split; reflexivity. Qed.
Print Assumptions C07_dispatch_all_prefix_refuted.

(* outside the call sites' precondition [placeable] the node CAN refuse the task and the failed
   call leaves a trace (known finding C07-failed-placement-outside-precondition-not-restored;
   statement.go deferred rollback, session.go revertPlacement):
   (i)  t4 is Pipelined on n2 by statement 1; Statement.Allocate t4 n2 on statement 2 fails
        ("already on node") and its rollback removes the older copy and resets t4 to Pending,
        while statement 1 still records its Pipeline;
   (ii) Statement.Allocate of the Running t2 on its own node fails and leaves t2 Pending, off the node;
   (iii) Session.Allocate of the Pipelined t4 fails, t4 is Pending but the node keeps the copy. *)
Theorem C07_failed_place_on_node_refuted :
  (let s := run ex_eps ex_sess [OPipeline 1 4 2] in
   snd (step ex_eps s (OAllocate 2 4 2)) = RErr /\
   let s' := fst (step ex_eps s (OAllocate 2 4 2)) in
   okb s = true /\ okb s' = true /\ sess_sameb s s' = false /\
   task_view s 4 = Some (Pipelined, Some 2%positive) /\ task_view s' 4 = Some (Pending, None) /\
   copy_status s 2 4 = Some Pipelined /\ copy_status s' 2 4 = None /\
   map op_task (default [] (stmts s' !! 1%positive)) = [4%positive]) /\
  (snd (step ex_eps ex_sess (OAllocate 2 2 1)) = RErr /\
   let s' := fst (step ex_eps ex_sess (OAllocate 2 2 1)) in
   okb s' = true /\ sess_sameb ex_sess s' = false /\ task_view s' 2 = Some (Pending, None) /\ copy_status s' 1 2 = None) /\
  (let s := run ex_eps ex_sess [OPipeline 1 4 2] in
   snd (step ex_eps s (OSsnAllocate 4 2)) = RErr /\
   let s' := fst (step ex_eps s (OSsnAllocate 4 2)) in
   okb s' = true /\ sess_sameb s s' = false /\ task_view s' 4 = Some (Pending, None) /\ copy_status s' 2 4 = Some Pipelined).
Proof. vm_compute. repeat split; reflexivity. Qed.
Print Assumptions C07_failed_place_on_node_refuted.

(* without "the job holds no other Allocated task" a failed Session.Allocate keeps the task it was
   called with Allocated (known finding C07-session-allocate-error-keeps-argument-allocated): t1 is
   placed by Session.Allocate while the job is not ready; then the cache refuses t1 and
   Session.Allocate t5 completes the job: the call fails, t1 is rolled back, t5 stays Allocated *)
Theorem C07_failed_ssn_allocate_keeps_argument_refuted :
  exists s t1 t5 nid,
    okb s = true /\
    let s1 := run ex_eps s [OSetFaults [] [] [] false; OSsnAllocate t1 nid; OSetFaults [] [t1] [] true] in
    task_view s1 t5 = Some (Pending, None) /\ on_no_node s1 t5 = true /\
    snd (step ex_eps s1 (OSsnAllocate t5 nid)) = RErr /\
    let s2 := fst (step ex_eps s1 (OSsnAllocate t5 nid)) in
    okb s2 = true /\ task_view s2 t1 = Some (Pending, None) /\
    task_view s2 t5 = Some (Allocated, Some nid) /\ copy_status s2 nid t5 = Some Allocated /\
    binds s2 = [] /\ sess_sameb s1 s2 = false.
Proof. exists w_sess, 1%positive, 5%positive, 1%positive. vm_compute. repeat split; reflexivity. Qed.
Print Assumptions C07_failed_ssn_allocate_keeps_argument_refuted.

(* ---- 5. Discard restores the session ---- *)
Theorem C07_sk_determines : forall s s',
  ledger_inv s -> ledger_inv s' -> hv s = hv s' -> jv s = jv s' -> nv s = nv s' ->
  map_same task_same (heap s) (heap s') /\ map_same job_same (jobs s) (jobs s') /\
  map_same node_same (nodes s) (nodes s').
Proof. exact sk_determines. Qed.
Print Assumptions C07_sk_determines.

(* any number of Allocate / Pipeline / Evict / Evict-with-the-node's-clone operations recorded in
   ONE statement on pairwise distinct tasks meeting the call sites' preconditions in the state
   before the first operation (operations that fail on the way leave no trace and are not
   recorded): Discard returns a state sess_eqv to that state *)
Theorem C07_discard_restores : forall eps s sid ops,
  sess_ok s -> default [] (stmts s !! sid) = [] -> NoDup (map tx_tid ops) -> Forall (tx_pre s) ops ->
  let s' := run eps s (map (tx_op sid) ops) in
  sess_eqv s (stmt_discard eps s' sid) /\
  binds (stmt_discard eps s' sid) = binds s /\ evicts (stmt_discard eps s' sid) = evicts s.
Proof. exact discard_restores. Qed.
Print Assumptions C07_discard_restores.

(* the same in skeleton form (stronger than sess_eqv: statuses, node names AND requests of every
   task, job task sets / TaskToSubJob, node-held copies incl. requests are EQUAL; heap objects of
   untouched tasks are identical; the statement is empty) *)
Theorem C07_discard_restores_skeleton : forall eps s sid ops,
  sess_ok s -> default [] (stmts s !! sid) = [] -> NoDup (map tx_tid ops) -> Forall (tx_pre s) ops ->
  let s' := stmt_discard eps (run eps s (map (tx_op sid) ops)) sid in
  hv s' = hv s /\ jv s' = jv s /\ nv s' = nv s /\
  (forall k d, shamt (hshare s') k d = shamt (hshare s) k d) /\
  (forall j, j ∉ (list_to_set (map tx_tid ops) : gset positive) -> heap s' !! j = heap s !! j) /\
  default [] (stmts s' !! sid) = [].
Proof.
  intros eps s sid ops Hok HL Hnd Hpre. cbv zeta.
  destruct (discard_chain eps sid ops s [] Hok HL Hnd Hpre) as (recs & Hst & Hhv & Hjv & Hnv & Hsh & Hloc & _ & _).
  unfold stmt_discard. rewrite Hst. cbn [app].
  set (s'' := fold_left (undo_op eps) (rev recs) (run eps s (map (tx_op sid) ops))) in *.
  split; [exact Hhv|]. split; [exact Hjv|]. split; [exact Hnv|]. split; [exact Hsh|].
  split; [intros j Hj; exact (proj1 Hloc j Hj)|]. simpl. rewrite lookup_insert. reflexivity.
Qed.
Print Assumptions C07_discard_restores_skeleton.

(* the frame lemma behind it: a change that is local to the tasks of I (local_on: heap entries and
   node copies of other tasks untouched, same job skeletons, handler coverage kept) keeps the
   call sites' preconditions of every task outside I *)
Theorem C07_tx_pre_frame : forall I s s' o,
  local_on I s s' -> tx_tid o ∉ I -> tx_pre s o -> tx_pre s' o.
Proof. exact tx_pre_frame. Qed.
Print Assumptions C07_tx_pre_frame.

(* single-operation forms (also give the undo_op / commit_op level facts) *)
Theorem C07_discard_restores_place : forall eps s sid k p nid s1,
  sess_ok s -> placeable s p nid -> k <> KEvict -> default [] (stmts s !! sid) = [] ->
  place_with eps s sid k p nid = (s1, ROk) ->
  sess_eqv s (stmt_discard eps s1 sid) /\ sess_eqv s (undo_op eps s1 (mkOp k (t_id p) Pending)) /\
  binds (stmt_discard eps s1 sid) = binds s /\ evicts (stmt_discard eps s1 sid) = evicts s /\
  (t_id p ∈ refuse_bind s -> k = KAllocate ->
     commit_op eps s1 (mkOp k (t_id p) Pending) = undo_op eps s1 (mkOp k (t_id p) Pending)).
Proof. exact discard_restores_place. Qed.
Print Assumptions C07_discard_restores_place.

Theorem C07_discard_restores_evict : forall eps s sid p nid,
  sess_ok s -> evictable s p nid -> default [] (stmts s !! sid) = [] ->
  let r := stmt_evict_with eps s sid p None in
  snd r = ROk /\ sess_eqv s (stmt_discard eps (fst r) sid) /\
  binds (stmt_discard eps (fst r) sid) = binds s /\ evicts (stmt_discard eps (fst r) sid) = evicts s.
Proof.
  intros eps s sid p nid Hok Hev Hemp. cbv zeta.
  pose proof (evictable_to_with s p nid Hev) as Hw. destruct Hev as (Hl & Hst & Hnd & Hjk & (n & c & Hn & _) & _).
  destruct (evict_sk eps s sid p p nid n (proj1 Hok) Hjk Hl Hnd Hn Hst) as (s1 & n1 & Heq & _).
  split; [rewrite Heq; reflexivity|].
  pose proof (discard_restores eps s sid [TEvict false (t_id p)] Hok Hemp) as H. cbv zeta in H.
  change (run eps s (map (tx_op sid) [TEvict false (t_id p)])) with (fst (stmt_evict eps s sid (t_id p))) in H.
  unfold stmt_evict, with_task in H. rewrite Hl in H. apply H.
  - apply NoDup_singleton.
  - apply Forall_singleton. exists p, nid. split; [reflexivity|exact Hw].
Qed.
Print Assumptions C07_discard_restores_evict.

(* ---- 6. Commit ---- *)
Theorem C07_commit_refused_bind_rolls_back : forall eps s sid p nid s1,
  sess_ok s -> placeable s p nid -> default [] (stmts s !! sid) = [] ->
  place_with eps s sid KAllocate p nid = (s1, ROk) -> t_id p ∈ refuse_bind s ->
  let s2 := commit_op eps s1 (mkOp KAllocate (t_id p) Pending) in
  sess_eqv s s2 /\ binds s2 = binds s /\ evicts s2 = evicts s.
Proof. exact commit_refused_bind_rolls_back. Qed.
Print Assumptions C07_commit_refused_bind_rolls_back.

(* ---- 7. the executable invariant of the law implies the invariant of the theorems ---- *)
Theorem C07_ledger_okb_sound : forall s,
  heap_nonneg (heap s) -> ledger_okb (heap s) (jobs s) (nodes s) = true -> ledger_inv s.
Proof. exact ledger_okb_sound. Qed.
Print Assumptions C07_ledger_okb_sound.

(* base case: the boolean evaluated per generated case on the model's own initial session (law 112)
   implies the hypotheses of the history theorem *)
Theorem C07_init_okb_sess_ok : forall s, init_okb s = true -> sess_ok s.
Proof.
  intros s.
  unfold init_okb. rewrite !andb_true_iff, bool_decide_eq_true. intros (((H1 & H2) & H3) & H4).
  apply sess_ok_of_bools; [|exact H3|exact H4].
  apply andb_true_iff. split; [exact H1|exact H2].
Qed.
Print Assumptions C07_init_okb_sess_ok.

(* ---- 8. non-vacuity: a concrete session (2 jobs, 2 nodes, 4 tasks) meets every hypothesis ---- *)
Example C07_ex_sess_ok : sess_ok ex_sess.
Proof. exact ex_sess_ok. Qed.
Example C07_ex_hist_holds :
  let s := run ex_eps ex_sess ex_hist in ledger_inv s /\ sess_wf s /\ saved_ok s.
Proof.
  destruct ex_sess_ok as (H1 & H2 & H3). apply ledger_inv_preserved; assumption.
Qed.
Example C07_ex_results :
  run_results ex_eps ex_sess ex_hist =
  [ROk; ROk; ROk; ROk; ROk; ROk; ROk; ROk; ROk; ROk; RErr; RErr; ROk; ROk; ROk; ROk; ROk].
Proof. exact ex_results. Qed.
Example C07_ex_placeable : placeable ex_sess (ex_task 1) 1 /\ placeable ex_sess (ex_task 4) 2.
Proof.
  split; apply placeableb_sound; vm_compute; reflexivity.
Qed.
Example C07_ex_evictable : evictable ex_sess (ex_task 2) 1 /\ evictable ex_sess (ex_task 3) 2.
Proof.
  split; apply evictableb_sound; vm_compute; reflexivity.
Qed.
Example C07_ex_txn_pre :
  Forall (tx_pre ex_sess) ex_txn /\ NoDup (map tx_tid ex_txn) /\ default [] (stmts ex_sess !! 1%positive) = [].
Proof.
  split; [|split; [|reflexivity]].
  - repeat constructor.
    + discriminate.
    + exists (ex_task 1). split; [reflexivity|]. apply placeableb_sound. vm_compute. reflexivity.
    + discriminate.
    + exists (ex_task 4). split; [reflexivity|]. apply placeableb_sound. vm_compute. reflexivity.
    + exists (ex_task 2), 1%positive. split; [reflexivity|]. apply evictable_withb_sound. vm_compute. reflexivity.
    + exists (ex_task 3), 2%positive, (ex_copy 2 3). split; [reflexivity|].
      split; [apply (bool_decide_unpack _); vm_compute; exact I|]. apply evictable_withb_sound. vm_compute. reflexivity.
  - apply (bool_decide_unpack _). vm_compute. exact I.
Qed.
Example C07_ex_dispatch_refused :
  sess_ok d_sess /\ placeable d_sess (ex_task 1) 1 /\
  (forall j, jobs d_sess !! t_job (ex_task 1) = Some j -> idx_set (j_index j) Allocated = ∅) /\
  snd (ssn_place ex_eps d_sess KAllocate 1 1) = RErr /\
  sess_sameb d_sess (fst (ssn_place ex_eps d_sess KAllocate 1 1)) = true.
Proof.
  split; [exact ex_d_sess_ok|]. split; [apply placeableb_sound; vm_compute; reflexivity|].
  split; [|vm_compute; split; reflexivity].
  intros j Hj.
  assert (Hb : match jobs d_sess !! t_job (ex_task 1) with
               | Some j0 => bool_decide (idx_set (j_index j0) Allocated = ∅)
               | None => true end = true) by (vm_compute; reflexivity).
  rewrite Hj in Hb. apply bool_decide_eq_true in Hb. exact Hb.
Qed.
Example C07_ex_commit_refused_pre :
  sess_ok d_sess /\ placeable d_sess (ex_task 1) 1 /\ default [] (stmts d_sess !! 1%positive) = [] /\
  snd (place_with ex_eps d_sess 1 KAllocate (ex_task 1) 1) = ROk /\ t_id (ex_task 1) ∈ refuse_bind d_sess.
Proof.
  split; [exact ex_d_sess_ok|]. split; [apply placeableb_sound; vm_compute; reflexivity|].
  split; [reflexivity|]. split; [vm_compute; reflexivity|]. apply (bool_decide_unpack _). vm_compute. exact I.
Qed.
Example C07_ex_node_refuses :
  sess_ok held_sess /\ heap held_sess !! 4%positive = Some (default (ex_task 4) (heap held_sess !! 4%positive)) /\
  let p := default (ex_task 4) (heap held_sess !! 4%positive) in
  t_status p = Pending /\ t_node p = None /\ jknown held_sess p /\
  exists n e, nodes held_sess !! 2%positive = Some n /\ node_add ex_eps n (placed_obj held_sess KAllocate p 2) = inr e.
Proof.
  split; [apply sess_ok_of_bools; [vm_compute; reflexivity|vm_compute; reflexivity|reflexivity]|].
  split; [apply (bool_decide_unpack _); vm_compute; exact I|]. cbv zeta.
  split; [vm_compute; reflexivity|]. split; [vm_compute; reflexivity|]. split; [apply jknownb_sound; vm_compute; reflexivity|].
  assert (Hb : match nodes held_sess !! 2%positive with
               | Some n => match node_add ex_eps n (placed_obj held_sess KAllocate (default (ex_task 4) (heap held_sess !! 4%positive)) 2) with
                           | inr _ => true | inl _ => false end
               | None => false end = true) by (vm_compute; reflexivity).
  destruct (nodes held_sess !! 2%positive) as [n|]; [|discriminate].
  destruct (node_add ex_eps n _) as [?|e] eqn:Ea; [discriminate|]. exists n, e. split; [reflexivity|exact Ea].
Qed.
Example C07_ex_place_ok : snd (place_with ex_eps ex_sess 1 KAllocate (ex_task 1) 1) = ROk.
Proof.
  vm_compute. reflexivity.
Qed.
Example C07_ex_place_fails : snd (place_with ex_eps ex_sess 1 KAllocate (ex_task 1) 9) = RErr.
Proof.
  vm_compute. reflexivity.
Qed.

(* ---- 9. the other repaired defects (pre-fix variants of C07/Refuted.v) ---- *)
Theorem C07_unevict_prefix_refuted :
  exists s sid tid,
    ledger_okb (heap s) (jobs s) (nodes s) = true /\
    (t_status <$> heap s !! tid) = Some Bound /\
    let s1 := fst (stmt_evict ex_eps s sid tid) in
    (t_status <$> heap (stmt_discard_prefix ex_eps s1 sid) !! tid) = Some Running.
Proof. exists ex_sess, 1%positive, 3%positive. vm_compute. repeat split; reflexivity. Qed.
Print Assumptions C07_unevict_prefix_refuted.

Theorem C07_job_del_prefix_refuted :
  exists s hist,
    ledger_okb (heap s) (jobs s) (nodes s) = true /\
    (let s' := run_b_prefix ex_eps s hist in ledger_okb (heap s') (jobs s') (nodes s') = false) /\
    (let s' := run ex_eps s hist in ledger_okb (heap s') (jobs s') (nodes s') = true).
Proof. exists ex_sess, b_hist. vm_compute. repeat split; reflexivity. Qed.
Print Assumptions C07_job_del_prefix_refuted.

Theorem C07_ssn_place_prefix_refuted :
  exists s tid nid,
    ledger_okb (heap s) (jobs s) (nodes s) = true /\
    (t_status <$> heap s !! tid) = Some Pending /\
    (heap s !! tid ≫= t_node) = None /\
    on_no_node s tid = true /\
    snd (ssn_place_prefix ex_eps s KAllocate tid nid) = RErr /\
    let s' := fst (ssn_place_prefix ex_eps s KAllocate tid nid) in
    (t_status <$> heap s' !! tid) = Some Allocated /\
    (heap s' !! tid ≫= t_node) = Some nid /\
    on_no_node s' tid = true.
Proof. exists ex_sess, 1%positive, 9%positive. vm_compute. repeat split; reflexivity. Qed.
Print Assumptions C07_ssn_place_prefix_refuted.
