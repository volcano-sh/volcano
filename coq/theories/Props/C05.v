(* Property C05 — the Volcano Job lifecycle follows its state machine and reports
   truthful counters.  The property theorems about the model C05/Model.v (killPods,
   syncJob, applyPolicies, state/*.go tables), each followed by Print Assumptions.
   A proof stands here when nothing else needs the fact; otherwise the theorem is
   [exact] of a lemma of C05/Lemmas.v, C05/SyncLemmas.v or C05/Partition.v.
   Statuses: [v_st] is the job status in the controller's cache (what it acts
   upon), [w_st] the one on the API server. *)
From Coq Require Import Lia Permutation ZArith List Bool.
From V Require Import C05.Model C05.Laws C05.Lemmas C05.SyncLemmas C05.Partition.
Import ListNotations.
Open Scope Z_scope.

(* every processed request, whatever the spec, pods, views, request and injected faults:
   the phase moves only along the transition relation [allowed] *)
Theorem C05_phase_transition_allowed : forall w r F w' e wr,
  step_req w r F = (w', e, wr) -> In (st_phase (v_st w')) (allowed (st_phase (v_st w))).
Proof. exact phase_transition_allowed. Qed.
Print Assumptions C05_phase_transition_allowed.

(* Completed / Failed / Terminated: over EVERY history of requests, pod events,
   informer deliveries in any order, controller restarts, spec updates and faults the
   phase never changes (cache and API server) and no pod is ever created *)
Theorem C05_final_phases_absorbing : forall ops w,
  Forall same_job ops ->     (* every op except "the job is deleted and re-created under the same name" *)
  is_final (st_phase (v_st w)) = true -> st_phase (w_st w) = st_phase (v_st w) ->
  let w' := run w ops in
  st_phase (v_st w') = st_phase (v_st w) /\ st_phase (w_st w') = st_phase (v_st w) /\
  incl (pod_ids (w_pods w')) (pod_ids (w_pods w)).
Proof. exact final_phases_absorbing. Qed.
Print Assumptions C05_final_phases_absorbing.

Theorem C05_aborted_left_only_by_resume : forall w r F w' e wr,
  step_req w r F = (w', e, wr) ->
  st_phase (v_st w) = PhAborted -> st_phase (v_st w') <> PhAborted ->
  apply_policies (v_spec w) (v_st w) r = AResume /\ st_phase (v_st w') = PhRestarting.
Proof. exact aborted_left_only_by_resume. Qed.
Print Assumptions C05_aborted_left_only_by_resume.

(* the retry count changes only by +1 and exactly when Restarting is entered *)
Theorem C05_retry_increments_once : forall w r F w' e wr,
  step_req w r F = (w', e, wr) ->
  let s := v_st w in let s' := v_st w' in
  (st_retry s' = st_retry s \/
   (st_retry s' = st_retry s + 1 /\ st_phase s' = PhRestarting /\ st_phase s <> PhRestarting)) /\
  (st_phase s <> PhRestarting -> st_phase s' = PhRestarting -> st_retry s' = st_retry s + 1).
Proof. exact retry_increments_once. Qed.
Print Assumptions C05_retry_increments_once.

(* Restarting with retryCount >= maxRetry: never Pending/Running again; a successful write is Failed *)
Theorem C05_maxretry_fails : forall w r F w' e wr,
  step_req w r F = (w', e, wr) ->
  st_phase (v_st w) = PhRestarting -> s_maxretry (v_spec w) <= st_retry (v_st w) ->
  (st_phase (v_st w') = PhRestarting \/ st_phase (v_st w') = PhFailed) /\
  (wr = true -> e = false -> st_phase (v_st w') = PhFailed /\ st_phase (w_st w') = PhFailed).
Proof. exact maxretry_fails. Qed.
Print Assumptions C05_maxretry_fails.

Theorem C05_version_monotone : forall ops w,
  Forall same_job ops ->
  st_version (w_st w) <= st_version (v_st w) ->
  st_version (w_st w) <= st_version (w_st (run w ops)) /\
  st_version (w_st (run w ops)) <= st_version (v_st (run w ops)).
Proof. exact version_monotone. Qed.
Print Assumptions C05_version_monotone.

Theorem C05_version_step : forall w r F w' e wr,
  step_req w r F = (w', e, wr) ->
  st_version (v_st w) <= st_version (v_st w') <= st_version (v_st w) + 1.
Proof.
  intros. eapply version_step_gen. eapply step_req_outcome; eauto.
Qed.
Print Assumptions C05_version_step.

Theorem C05_stale_request_syncs : forall sp st r,
  r_action r = None -> r_version r < st_version st -> apply_policies sp st r = ASync.
Proof. exact stale_request_syncs. Qed.
Print Assumptions C05_stale_request_syncs.

(* for every fault position: a failed reconciliation leaves the API server's
   status untouched (or, for a job without a phase, at its complete initial status) *)
Theorem C05_api_fault_no_partial_status : forall w r F w' wr,
  step_req w r F = (w', true, wr) ->
  w_st w' = w_st w \/ (st_phase (v_st w) = PhNone /\ w_st w' = init_status (v_spec w) (v_st w)).
Proof. exact api_fault_no_partial_status. Qed.
Print Assumptions C05_api_fault_no_partial_status.

Theorem C05_api_status_is_cache_status_or_old : forall w r F w' e wr,
  step_req w r F = (w', e, wr) ->
  w_st w' = w_st w \/ w_st w' = v_st w' \/ (st_phase (v_st w) = PhNone /\ w_st w' = init_status (v_spec w) (v_st w)).
Proof.
  intros w r F w' e wr H. pose proof (step_req_outcome _ _ _ _ _ _ H) as O. unfold acted in O.
  apply (oc_api _ _ _ _ _ _ _ O).
Qed.
Print Assumptions C05_api_status_is_cache_status_or_old.

(* counters -- FULL strength, after the four counter fixes in /repo (killPods counts retained and
   non-target pods; syncJob counts an out-of-sync pod once; initJobStatus returns a copy; syncJob
   recounts the pods while the PodGroup is not admitted): after EVERY processed request and every
   expired delayed action that wrote a status -- whatever the phase, the action, the code path
   (syncJob with an admitted / absent / pending PodGroup, first sync of a job without a phase,
   killPods on the job, a task or a pod), the spec, the pods -- the counters on the API server
   partition exactly the pods there: terminating = being deleted, all others by phase.
   [fresh_all]: the controller sees the API server's pods and spec (not necessarily its status), task names and pod
   names are unique, every pod belongs to a task of the spec. *)
Theorem C05_counters_partition : forall w r w' e wr,
  step_req w r [] = (w', e, wr) -> wr = true -> fresh_all w ->
  (st_cnt (w_st w'), st_term (w_st w')) = tally (w_pods w').
Proof. exact counters_partition. Qed.
Print Assumptions C05_counters_partition.

Theorem C05_counters_partition_fire : forall w w' e wr,
  fire w = (w', e, wr) -> wr = true -> fresh_all w ->
  (st_cnt (w_st w'), st_term (w_st w')) = tally (w_pods w').
Proof.
  intros w w' e wr H Hwr Hf.
  destruct (fire_cases _ _ _ _ H) as [(d & _ & ->)|(t & rest & w1 & e1 & d & _ & Hx & ->)]; [discriminate|].
  exact (execute_counters_partition (with_delays w _) _ _ _ _ _ Hx Hwr Hf).
Qed.
Print Assumptions C05_counters_partition_fire.

Theorem C05_sync_job_counters_partition : forall w u w' wr,
  sync_job w u [] = (w', false, wr) -> wr = true \/ c_vdel (v_ctl w) = false ->
  v_pods w = w_pods w -> v_st w = w_st w -> v_spec w = w_spec w ->
  NoDup (map t_name (s_tasks (v_spec w))) -> NoDup (pod_ids (w_pods w)) -> owned (v_spec w) (w_pods w) ->
  (st_cnt (w_st w'), st_term (w_st w')) = tally (w_pods w').
Proof.
  intros w u w' wr H Hwr Hfresh Hst Hspec Hts Hnd Hown.
  apply (sync_job_noerr_partition w u w' wr H); auto. destruct Hwr; auto.
Qed.
Print Assumptions C05_sync_job_counters_partition.

(* the pre-fix functions are kept in the model, each with its refutation witness *)
Theorem C05_pgpending_counters_prefix_refuted :
  exists w', sync_job_pgprefix pgpending_world URestarting [] = (w', false, true) /\ fresh_world pgpending_world /\
             partition_ok (w_st w') (w_pods w') = false /\ st_phase (w_st w') = PhFailed /\
             st_term (w_st w') = 1 /\ w_pods w' = [].
Proof.
  eexists. split; [vm_compute; reflexivity|]. repeat split.
Qed.
Print Assumptions C05_pgpending_counters_prefix_refuted.

Theorem C05_killpods_counters_prefix_refuted :
  exists w', kill_pods_prefix f2_world RSoft None UNil [] = (w', false, true) /\ fresh_world f2_world /\
             partition_ok (w_st w') (w_pods w') = false /\ st_cnt (w_st w') = c0 /\ length (w_pods w') = 1%nat.
Proof.
  eexists. split; [vm_compute; reflexivity|]. repeat split.
Qed.
Print Assumptions C05_killpods_counters_prefix_refuted.

Theorem C05_kill_zeroes_counters_prefix : forall w rt tg u F w',
  kill_pods_prefix w rt tg u F = (w', false, true) -> st_cnt (w_st w') = c0 /\ st_tsc (w_st w') = [].
Proof.
  intros w rt tg u F w' H.
  destruct (kill_pods_cases _ _ _ _ _ _ _ _ _ H)
    as [(_ & _ & E)|(kill & term0 & _ & _ & _ & [(E & _)|(_ & _ & _ & _ & _ & ->)])]; try discriminate.
  cbn [st_cnt st_tsc]. rewrite apply_upd_cnt, apply_upd_tsc. split; reflexivity.
Qed.
Print Assumptions C05_kill_zeroes_counters_prefix.

Theorem C05_sync_counters_prefix_refuted :
  let a := sync_pods_prefix one_task_spec (w_pods oos_world) (w_pods oos_world) [] in
  a_err a = false /\ (a_cnt a, a_term a) = (mkC 0 1 0 0 0, 1) /\ tally (a_pods a) = (c0, 1) /\ length (a_pods a) = 1%nat.
Proof.
  vm_compute. repeat split.
Qed.
Print Assumptions C05_sync_counters_prefix_refuted.

Theorem C05_cache_status_leak_prefix_refuted :
  exists w1 w2,
    sync_job_prefix leak_world UPendingSync [FStatus 1] = (w1, true, true) /\
    v_pods w1 = w_pods w1 /\ v_st w1 <> w_st w1 /\
    sync_job_prefix w1 URunningSync [] = (w2, false, false) /\
    partition_ok (w_st w2) (w_pods w2) = false /\ st_cnt (w_st w2) = c0 /\ length (w_pods w2) = 1%nat.
Proof.
  eexists. eexists. split; [vm_compute; reflexivity|]. split; [reflexivity|]. split; [discriminate|].
  split; [vm_compute; reflexivity|]. repeat split.
Qed.
Print Assumptions C05_cache_status_leak_prefix_refuted.

(* counters, positive part (syncJob path, code after the two fixes): a successful
   reconcile with an admitted PodGroup and a fresh pod view writes / leaves on the
   API server counters that partition exactly the pods that exist there:
   terminating = pods being deleted (incl. the ones this sync deleted), all
   others by their phase -- for every spec with unique task names, every pod set
   owned by the spec's tasks, every status update function *)
Theorem C05_counters_partition_sync : forall w u w' wr,
  sync_job w u [] = (w', false, wr) ->
  c_vdel (v_ctl w) = false ->       (* the job is not terminating *)
  pg_admitted (v_pg w) = true -> st_phase (v_st w) <> PhNone ->
  v_pods w = w_pods w -> v_st w = w_st w ->
  NoDup (map t_name (s_tasks (v_spec w))) -> NoDup (pod_ids (w_pods w)) ->
  (forall p, In p (w_pods w) -> exists k, In k (s_tasks (v_spec w)) /\ t_name k = p_task p) ->
  (st_cnt (w_st w'), st_term (w_st w')) = tally (w_pods w').
Proof.
  intros w u w' wr H Hdel Hpg Hph Hfresh Hst Hts Hnd Hown.
  apply (sync_job_noerr_partition w u w' wr H); auto. contradiction.
Qed.
Print Assumptions C05_counters_partition_sync.

Theorem C05_sync_counters_partition : forall sp P,
  NoDup (map t_name (s_tasks sp)) -> NoDup (pod_ids P) ->
  (forall p, In p P -> exists k, In k (s_tasks sp) /\ t_name k = p_task p) ->
  let a := sync_pods sp P P [] in
  a_err a = false /\ (a_cnt a, a_term a) = tally (a_pods a).
Proof. exact sync_counters_partition. Qed.
Print Assumptions C05_sync_counters_partition.

(* counters, positive part (killPods path, code after fix f21d364): every successful
   kill -- whole job, task or pod target, any retain rule, any update function --
   with a fresh pod view writes counters that partition the pods on the API server *)
Theorem C05_kill_counters_partition : forall w rt tg u w',
  kill_pods w rt tg u [] = (w', false, true) ->
  v_pods w = w_pods w -> NoDup (pod_ids (w_pods w)) ->
  (st_cnt (w_st w'), st_term (w_st w')) = tally (w_pods w').
Proof. exact kill_counters_partition. Qed.
Print Assumptions C05_kill_counters_partition.

(* ---- delayed actions (policies with a timeout: AddDelayActionForJob and its timers).  A timer
   that expires executes its action against the cache and the phase as they are at THAT moment
   ([fire]); everything stated for a processed request holds for it as well, in particular a job
   in a final phase stays there (also part of C05_final_phases_absorbing: OFire is one of the ops) ---- *)
Theorem C05_phase_transition_allowed_fire : forall w w' e wr,
  fire w = (w', e, wr) -> In (st_phase (v_st w')) (allowed (st_phase (v_st w))).
Proof.
  intros w w' e wr H. destruct (fire_outcome _ _ _ _ H) as (a & e0 & O). eapply phase_transition_allowed_gen; eauto.
Qed.
Print Assumptions C05_phase_transition_allowed_fire.

Theorem C05_aborted_left_only_by_resume_fire : forall w w' e wr,
  fire w = (w', e, wr) ->
  st_phase (v_st w) = PhAborted -> st_phase (v_st w') <> PhAborted ->
  st_phase (v_st w') = PhRestarting /\
  exists t c rest, d_queue (c_delay (v_ctl w)) = (t, c) :: rest /\ dt_action t = AResume.
Proof.
  intros w w' e wr H Hab Hne.
  destruct (fire_cases _ _ _ _ H) as [(d & -> & _)|(t & rest & w1 & e1 & d & Eq & Hx & ->)]; [contradiction|].
  destruct (aborted_left_only_by_resume_gen _ _ _ _ _ (execute_outcome _ _ _ _ _ _ _ Hx) Hab Hne) as [A B].
  split; [exact B|]. exists t, false, rest. auto.
Qed.
Print Assumptions C05_aborted_left_only_by_resume_fire.

Theorem C05_retry_increments_once_fire : forall w w' e wr,
  fire w = (w', e, wr) ->
  let s := v_st w in let s' := v_st w' in
  (st_retry s' = st_retry s \/
   (st_retry s' = st_retry s + 1 /\ st_phase s' = PhRestarting /\ st_phase s <> PhRestarting)) /\
  (st_phase s <> PhRestarting -> st_phase s' = PhRestarting -> st_retry s' = st_retry s + 1).
Proof.
  intros w w' e wr H. destruct (fire_outcome _ _ _ _ H) as (a & e0 & O). eapply retry_increments_once_gen; eauto.
Qed.
Print Assumptions C05_retry_increments_once_fire.

Theorem C05_maxretry_fails_fire : forall w w' e wr,
  fire w = (w', e, wr) ->
  st_phase (v_st w) = PhRestarting -> s_maxretry (v_spec w) <= st_retry (v_st w) ->
  st_phase (v_st w') = PhRestarting \/ st_phase (v_st w') = PhFailed.
Proof.
  intros w w' e wr H Hre Hmax. destruct (fire_outcome _ _ _ _ H) as (a & e0 & O).
  apply (maxretry_fails_gen w a w' e0 wr O Hre Hmax).
Qed.
Print Assumptions C05_maxretry_fails_fire.

(* (running_sync = running_verdict, which re-spells the decision for the law, is lemma
   running_sync_verdict of C05/Lemmas.v) *)
(* Completed is written only if minSuccess is reached or, whenever job.minAvailable >= the sum of the
   task minimums (equality included: that is what the admission webhook defaults to), every task
   that has a minAvailable reached it *)
Theorem C05_running_completed_only_if : forall sp s,
  st_phase s = PhRunning -> st_phase (running_sync sp s) = PhCompleted ->
  minsucc_reached sp (st_cnt s) = true \/
  (total_task_min sp <= s_min sp ->
   forall t m c, In t (s_tasks sp) -> t_min t = Some m -> tsc_get (t_name t) (st_tsc s) = Some c -> m <= cS c).
Proof.
  intros sp s Hr Hc. rewrite running_sync_verdict in Hc. unfold running_verdict in Hc.
  destruct (total_replicas sp =? 0); [rewrite Hr in Hc; discriminate|].
  destruct (minsucc_reached sp (st_cnt s)) eqn:Em; auto. right. intros Hge t m c Hin Hm Hg.
  destruct (cS (st_cnt s) + cF (st_cnt s) =? total_replicas sp).
  - assert (Eg : (total_task_min sp <=? s_min sp) = true) by (apply Z.leb_le; exact Hge).
    rewrite Eg in Hc. cbn [andb] in Hc.
    destruct (some_task_short sp (st_tsc s)) eqn:Es; [cbn in Hc; discriminate|].
    destruct (Z_lt_ge_dec (cS c) m) as [Hlt|]; [|lia]. exfalso.
    assert (X : some_task_short sp (st_tsc s) = true).
    { unfold some_task_short. apply existsb_exists. exists t. split; auto. rewrite Hm, Hg. apply Z.ltb_lt; exact Hlt. }
    congruence.
  - destruct (_ <? _); cbn in Hc; [discriminate|]. rewrite Hr in Hc. discriminate.
Qed.
Print Assumptions C05_running_completed_only_if.

(* ---- the phase the API SERVER shows, over EVERY history (requests with any fault set, expiring delayed
   actions, pod / PodGroup events, deliveries in any order, stale deliveries, restarts, spec updates;
   the job not replaced by a new one of the same name): every consecutive pair of phases is a transition
   of the relation.  Invariant carried through the history: job cache and API server agree on the phase
   (phase_agree; a refused status write leaves both at the old phase). ---- *)
Theorem C05_api_phase_history : forall ops w,
  Forall same_job ops -> phase_agree w -> phase_chain (st_phase (w_st w)) (api_phases w ops).
Proof.
  induction ops as [|o ops IH]; intros w Hsj Hag; [exact I|].
  inversion Hsj as [|? ? Ho Hsj']; subst. unfold api_phases. cbn [trace map].
  destruct (step w o) as [[w1 e] wr] eqn:Hs. cbn [fst].
  destruct (step_api_phase w o w1 e wr Hag Ho Hs) as [Hag1 Hal]. split; [exact Hal|].
  apply IH; assumption.
Qed.
Print Assumptions C05_api_phase_history.

(* [allowed] compared with the documented table (docs/design/job-api.md 171-177, stable phases only,
   temporary phases contracted): the code goes beyond it exactly by Failed, Pending -> Completed /
   Terminated and Running -> Pending *)
Example C05_allowed_vs_documented_table :
  map (fun p => (p, beyond p)) [PhPending; PhAborted; PhRunning; PhCompleted; PhTerminated] =
  [(PhPending, [PhFailed; PhCompleted; PhTerminated]); (PhAborted, [PhFailed]); (PhRunning, [PhPending; PhFailed]);
   (PhCompleted, []); (PhTerminated, [])].
Proof. exact allowed_vs_documented_table. Qed.

(* an expired delayed action with retryCount >= maxRetry: a written status is Failed (the conjunct the
   request version has; an expiry has no faults) *)
Theorem C05_maxretry_fails_fire_written : forall w w' e wr,
  fire w = (w', e, wr) ->
  st_phase (v_st w) = PhRestarting -> s_maxretry (v_spec w) <= st_retry (v_st w) -> wr = true ->
  st_phase (v_st w') = PhFailed /\ st_phase (w_st w') = PhFailed.
Proof.
  intros w w' e wr H Hre Hmax ->.
  destruct (fire_cases _ _ _ _ H) as [(d & _ & E)|(t & rest & w1 & e1 & d & _ & Hx & ->)]; [discriminate|].
  exact (proj2 (maxretry_fails_gen _ _ _ _ _ (execute_outcome _ _ _ _ _ _ _ Hx) Hre Hmax) eq_refl
               (execute_nofault _ _ _ _ _ _ Hx eq_refl)).
Qed.
Print Assumptions C05_maxretry_fails_fire_written.

(* two writers (the worker and the goroutine of an expired delayed action) are serialised in the model;
   what arbitrates them in a cluster is the API server's resourceVersion check on UpdateStatus.  The
   loser of that check -- an execution whose status update is refused (an Execute attempts its status
   update number 1 only after number 0 went through, so "index 0 refused" = "every status update it
   attempts is refused") -- leaves the API server's status untouched and reports no written status: for
   every action, request, view and other faults.  ([forall n, fails_status F n = true] would be a premise no
   finite fault list satisfies.) *)
Theorem C05_refused_status_writer : forall w a r F w' e wr,
  execute w a r F = (w', e, wr) -> fails_status F 0 = true ->
  w_st w' = w_st w /\ wr = false.
Proof.
  intros w a r F w' e wr H H0. unfold execute in H.
  (* a kill of the job and a kill of a target alike: skipped, failed before the write, or index 0 not refused *)
  destruct (exec (st_phase (v_st w)) a) as [[|rt|] u];
    [|destruct (kill_pods_cases _ _ _ _ _ _ _ _ _ H)
        as [(-> & _ & ->)|(kill & term0 & _ & _ & _ & [(_ & -> & _ & Ew & _)|(_ & _ & _ & E & _)])];
      [auto|auto|congruence]..].
  destruct (sync_job_cases _ _ _ _ _ _ _ _ H) as [(-> & -> & _)|(w2 & b & refused & Eb & Hi & Hend)]; [auto|].
  destruct (sync_base_proj _ _ _ _ _ _ Eb) as (_ & B2 & _).
  cbv zeta in Hend, B2. rewrite (Hi H0) in B2, Hend.
  destruct Hend as [(-> & -> & _)|[(-> & _ & -> & _)|(_ & _ & _ & _ & E)]]; [auto|auto|congruence].
Qed.
Print Assumptions C05_refused_status_writer.

Theorem C05_refused_status_writer_req : forall w r F w' e wr,
  step_req w r F = (w', e, wr) -> fails_status F 0 = true -> w_st w' = w_st w /\ wr = false.
Proof.
  intros w r F w' e wr H HF.
  destruct (step_req_cases _ _ _ _ _ _ H) as [(d & -> & _ & ->)|(w1 & Hx & _ & d & ->)]; [auto|].
  exact (C05_refused_status_writer _ _ _ _ _ _ _ Hx HF).
Qed.
Print Assumptions C05_refused_status_writer_req.

(* the executable counters law MEANS the clause: partition_ok = true implies counters = tally of the pods *)
Theorem C05_partition_ok_sound : forall s pods,
  partition_ok s pods = true -> (st_cnt s, st_term s) = tally pods.
Proof.
  intros s pods H. unfold partition_ok in H. repeat (apply andb_true_iff in H; destruct H as [H ?]).
  unfold counts_eqb in H. destruct (counts_eq_dec (st_cnt s) (fst (tally pods))) as [E|]; [|discriminate].
  match goal with H1 : (st_term s =? snd (tally pods)) = true |- _ => apply Z.eqb_eq in H1; rewrite E, H1 end.
  destruct (tally pods); reflexivity.
Qed.
Print Assumptions C05_partition_ok_sound.

(* ---- processNextReq WITH its error path (handleJobError).  [step_reqb] is what a request step of a history
   is: processNextReq ([step_req]); an Execute that fails re-queues the request while NumRequeues(request)
   < maxRequeueNum (or maxRequeueNum = -1), a success forgets it; with the budget used up the controller
   GIVES UP: it executes TerminateJobAction through the state object it built before the failed Execute
   and drops the request.  [reqb_result] (C05/Lemmas.v): the step is either step_req (requeue counters
   aside) or a failed step_req followed by [execute wg ATerminate] -- an ordinary Execute of the state of
   the phase the cache showed before, on [giveup_world]: the job object of then (stale_view: after a first
   sync whose initJobStatus wrote) and the pod view the failed Execute left in its JobInfo clone
   (view_after: syncJob removes every pod it matched from the clone's maps). ---- *)
(* (that decomposition is lemma step_reqb_cases of C05/Lemmas.v: an unfolding of the definition, not counted as a
   property theorem) *)

(* consequently every lifecycle clause holds for the whole step, give-up included, for every requeue
   budget, requeue count and fault plan of either execution *)
Theorem C05_reqb_phase_transition_allowed : forall w r F w' e wr,
  step_reqb w r F = (w', e, wr) -> In (st_phase (v_st w')) (allowed (st_phase (v_st w))).
Proof.
  intros w r F w' e wr H.
  destruct (step_reqb_cases _ _ _ _ _ _ H) as [w1 q Hs ->|w1 wr1 w2 e2 wr2 q Hs Hx -> _ _].
  - exact (phase_transition_allowed _ _ _ _ _ _ Hs).
  - destruct (giveup_shape _ _ _ _ _ _ _ _ Hs Hx) as (A & B & C & O2 & [E|(Hn & Hp & Hr)]);
      cbn [set_rq with_vpods v_st].
    + rewrite E, <- A. exact (phase_transition_allowed_gen _ _ _ _ _ O2).
    + rewrite Hp, Hn. cbn. tauto.
Qed.
Print Assumptions C05_reqb_phase_transition_allowed.

Theorem C05_reqb_api_phase : forall w r F w' e wr,
  phase_agree w -> step_reqb w r F = (w', e, wr) ->
  phase_agree w' /\ In (st_phase (w_st w')) (allowed (st_phase (w_st w))).
Proof.
  intros w r F w' e wr Hag H. exact (step_api_phase w (OReq r F) w' e wr Hag I H).
Qed.
Print Assumptions C05_reqb_api_phase.

(* giving up on a request of a Completed / Failed / Terminated job changes no phase and creates no pod *)
Theorem C05_reqb_final : forall w r F w' e wr,
  is_final (st_phase (v_st w)) = true -> st_phase (w_st w) = st_phase (v_st w) ->
  step_reqb w r F = (w', e, wr) ->
  st_phase (v_st w') = st_phase (v_st w) /\ st_phase (w_st w') = st_phase (v_st w) /\
  incl (pod_ids (w_pods w')) (pod_ids (w_pods w)).
Proof.
  intros w r F w' e wr Hf He H.
  destruct (final_step w (OReq r F) w' e wr (conj Hf He) I H) as ([_ He'] & Hp & Hi).
  repeat split; auto. congruence.
Qed.
Print Assumptions C05_reqb_final.

(* ... and never takes a job out of Aborted *)
Theorem C05_reqb_aborted_left_only_by_resume : forall w r F w' e wr,
  step_reqb w r F = (w', e, wr) ->
  st_phase (v_st w) = PhAborted -> st_phase (v_st w') <> PhAborted ->
  apply_policies (v_spec w) (v_st w) r = AResume /\ st_phase (v_st w') = PhRestarting.
Proof.
  intros w r F w' e wr H Hab Hne.
  destruct (step_reqb_cases _ _ _ _ _ _ H) as [w1 q Hs ->|w1 wr1 w2 e2 wr2 q Hs Hx -> _ _].
  - exact (aborted_left_only_by_resume _ _ _ _ _ _ Hs Hab Hne).
  - (* giving up on a request never takes the job out of Aborted *)
    exfalso. destruct (giveup_shape _ _ _ _ _ _ _ _ Hs Hx) as (A & B & C & O2 & [E|(Hn & _)]);
      cbn [set_rq with_vpods v_st] in Hne; [|congruence].
    rewrite E in Hne. rewrite Hab in A.
    destruct (aborted_left_only_by_resume_gen _ _ _ _ _ O2 A Hne) as [X _]. discriminate.
Qed.
Print Assumptions C05_reqb_aborted_left_only_by_resume.

Theorem C05_reqb_retry_increments_once : forall w r F w' e wr,
  step_reqb w r F = (w', e, wr) ->
  let s := v_st w in let s' := v_st w' in
  (st_retry s' = st_retry s \/
   (st_retry s' = st_retry s + 1 /\ st_phase s' = PhRestarting /\ st_phase s <> PhRestarting)) /\
  (st_phase s <> PhRestarting -> st_phase s' = PhRestarting -> st_retry s' = st_retry s + 1).
Proof.
  intros w r F w' e wr H.
  destruct (step_reqb_cases _ _ _ _ _ _ H) as [w1 q Hs ->|w1 wr1 w2 e2 wr2 q Hs Hx -> _ _].
  - exact (retry_increments_once _ _ _ _ _ _ Hs).
  - destruct (giveup_shape _ _ _ _ _ _ _ _ Hs Hx) as (A & B & C & O2 & [E|(Hn & Hp & Hr)]);
      cbv zeta; cbn [set_rq with_vpods v_st].
    + rewrite E, <- A, <- B. exact (retry_increments_once_gen _ _ _ _ _ O2).
    + rewrite Hr, Hp. split; [left; reflexivity|discriminate].
Qed.
Print Assumptions C05_reqb_retry_increments_once.

Theorem C05_reqb_maxretry_fails : forall w r F w' e wr,
  step_reqb w r F = (w', e, wr) ->
  st_phase (v_st w) = PhRestarting -> s_maxretry (v_spec w) <= st_retry (v_st w) ->
  st_phase (v_st w') = PhRestarting \/ st_phase (v_st w') = PhFailed.
Proof.
  intros w r F w' e wr H Hre Hmax.
  destruct (step_reqb_cases _ _ _ _ _ _ H) as [w1 q Hs ->|w1 wr1 w2 e2 wr2 q Hs Hx -> _ _].
  - exact (proj1 (maxretry_fails _ _ _ _ _ _ Hs Hre Hmax)).
  - destruct (giveup_shape _ _ _ _ _ _ _ _ Hs Hx) as (A & B & C & O2 & [E|(Hn & _)]);
      cbn [set_rq with_vpods v_st]; [|congruence].
    rewrite E. rewrite Hre in A. rewrite <- C, <- B in Hmax.
    exact (proj1 (maxretry_fails_gen _ _ _ _ _ O2 A Hmax)).
Qed.
Print Assumptions C05_reqb_maxretry_fails.

(* a request processed without an error never reaches handleJobError: the full-strength counters statement
   carries over; nothing is claimed about the counters a give-up writes (see level_note) *)
Theorem C05_counters_partition_reqb : forall w r w' wr,
  step_reqb w r [] = (w', false, wr) -> wr = true -> fresh_all w ->
  (st_cnt (w_st w'), st_term (w_st w')) = tally (w_pods w').
Proof.
  intros w r w' wr H Hwr Hfr.
  destruct (step_reqb_cases _ _ _ _ _ _ H) as [w1 q Hs ->|w1 wr1 w2 e2 wr2 q Hs Hx -> He _]; [|discriminate].
  exact (counters_partition _ _ _ _ _ Hs Hwr Hfr).
Qed.
Print Assumptions C05_counters_partition_reqb.

(* ---- where the premise [fresh_all] of the counters theorems comes from.  fresh_all w: the controller's pod view
   and cached spec equal the API server's, task and pod names are unique, every pod belongs to a task of
   the spec; the cached STATUS may differ (after a failed job-level kill its version is ahead).  It holds
   for every initial world of a history and right after a delivery of the job and the pods; there is no
   theorem that unique names / ownership are preserved along a history (they are hypotheses on the world
   at the delivery), and no history-level counters theorem. ---- *)
Theorem C05_fresh_all_init : forall m q sp st pods pg,
  NoDup (map t_name (s_tasks sp)) -> NoDup (pod_ids pods) -> owned sp pods ->
  fresh_all (init_world_m m q sp st pods pg).
Proof.
  intros. repeat split; auto.
Qed.
Print Assumptions C05_fresh_all_init.

Theorem C05_fresh_all_after_deliveries : forall w,
  NoDup (map t_name (s_tasks (w_spec w))) -> NoDup (pod_ids (w_pods w)) -> owned (w_spec w) (w_pods w) ->
  c_dirty (v_ctl w) = true \/ c_job (v_ctl w) = false \/ v_spec w = w_spec w ->
  fresh_all (run w [OSyncJob; OSyncPods]).
Proof.
  intros w Hts Hnd Hown Hd. unfold run. cbn [fold_left step].
  destruct (c_job (v_ctl w) && negb (c_dirty (v_ctl w))) eqn:E; cbn [fst]; unfold fresh_all; cbn.
  - apply andb_true_iff in E. destruct E as [E1 E2]. apply negb_true_iff in E2.
    destruct Hd as [Hd|[Hd|Hd]]; try congruence. rewrite Hd. repeat split; auto.
  - repeat split; auto.
Qed.
Print Assumptions C05_fresh_all_after_deliveries.

Theorem C05_counters_partition_after_deliveries : forall w r w' e wr,
  NoDup (map t_name (s_tasks (w_spec w))) -> NoDup (pod_ids (w_pods w)) -> owned (w_spec w) (w_pods w) ->
  c_dirty (v_ctl w) = true \/ c_job (v_ctl w) = false \/ v_spec w = w_spec w ->
  step_req (run w [OSyncJob; OSyncPods]) r [] = (w', e, wr) -> wr = true ->
  (st_cnt (w_st w'), st_term (w_st w')) = tally (w_pods w').
Proof.
  intros w r w' e wr Hts Hnd Hown Hd H Hwr.
  exact (counters_partition _ _ _ _ _ H Hwr (C05_fresh_all_after_deliveries w Hts Hnd Hown Hd)).
Qed.
Print Assumptions C05_counters_partition_after_deliveries.

Example C05_fixed_on_pgpending_witness :
  exists w', step_req pgpending_world sync_req [] = (w', false, true) /\
             partition_ok (w_st w') (w_pods w') = true /\ st_phase (w_st w') = PhFailed /\ st_term (w_st w') = 0.
Proof. exact pgpending_counters_fixed_on_witness. Qed.
Example C05_fixed_on_f2_witness :
  exists w', step_req f2_world sync_req [] = (w', false, true) /\
             partition_ok (w_st w') (w_pods w') = true /\ st_cnt (w_st w') = mkC 0 0 1 0 0.
Proof. exact killpods_counters_fixed_on_witness. Qed.
Example C05_nonvacuous_final :
  final_inv f2_world /\
  st_phase (v_st (run f2_world [OReq sync_req []; OSyncPods; OReq sync_req [FStatus 0]])) = PhCompleted.
Proof. exact final_inv_nonvacuous. Qed.
Example C05_nonvacuous_maxretry :
  let w := init_world one_task_spec (mkStatus PhRestarting 3 1 1 c0 1 [] false true) [] None in
  st_phase (v_st w) = PhRestarting /\ s_maxretry (v_spec w) <= st_retry (v_st w) /\
  exists w', step_req w sync_req [] = (w', false, true) /\ st_phase (w_st w') = PhFailed.
Proof. exact maxretry_nonvacuous. Qed.
Example C05_nonvacuous_aborted :
  let w := init_world one_task_spec (mkStatus PhAborted 0 1 1 c0 0 [] false true) [] None in
  let r := mkReq ECommandIssued (Some AResume) None None 0 0 1 in
  exists w', step_req w r [] = (w', false, true) /\ st_phase (v_st w') = PhRestarting /\ st_retry (v_st w') = 1.
Proof. exact aborted_nonvacuous. Qed.
Example C05_nonvacuous_fault :
  let w := init_world one_task_spec (mkStatus PhNone 0 0 0 c0 0 [] true false) [] (Some PgRunning) in
  exists w', step_req w sync_req [FCreate 1 0] = (w', true, true) /\
             w_st w' = init_status one_task_spec (v_st w) /\ w_pods w' = [].
Proof. exact fault_nonvacuous. Qed.

Example C05_nonvacuous_counters_partition_sync :
  let sp := mkSpec [mkTask 1 2 (Some 1) [] None; mkTask 2 1 None [] None] 2 None 3 [] in
  let pods := [mkPod 1 0 PSucceeded false false; mkPod 1 1 PRunning false true; mkPod 1 2 PRunning false false;
               mkPod 2 0 PFailed true false] in
  let w := init_world sp (mkStatus PhRunning 0 0 2 c0 0 [] false false) pods (Some PgRunning) in
  NoDup (map t_name (s_tasks sp)) /\ NoDup (pod_ids pods) /\
  (forall p, In p pods -> exists k, In k (s_tasks sp) /\ t_name k = p_task p) /\
  exists w', sync_job w URunningSync [] = (w', false, true) /\
             st_cnt (w_st w') = mkC 0 0 1 0 0 /\ st_term (w_st w') = 3 /\ length (w_pods w') = 4%nat.
Proof. exact counters_partition_sync_nonvacuous. Qed.

Example C05_nonvacuous_delayed_action :
  let w := init_world delayed_spec (mkStatus PhRunning 0 0 1 (mkC 1 0 0 0 0) 0 [(1%positive, mkC 1 0 0 0 0)] false false)
                      [mkPod 1 0 PPending false false] (Some PgRunning) in
  let pending := mkReq EPodPending None (Some 1%positive) (Some (1%positive, 0)) 0 0 2 in
  let w1 := run w [OReq pending []] in
  length (d_queue (c_delay (v_ctl w1))) = 1%nat /\ st_phase (v_st w1) = PhRunning /\
  let w2 := run w1 [OPodPhase 1 0 PSucceeded; OSyncPods; OReq sync_req []] in
  st_phase (v_st w2) = PhCompleted /\
  let w3 := run w2 [OFire] in
  st_phase (v_st w3) = PhCompleted /\ st_retry (v_st w3) = 0 /\ d_queue (c_delay (v_ctl w3)) = [] /\
  st_phase (v_st (run w1 [OFire])) = PhRestarting /\ st_retry (v_st (run w1 [OFire])) = 1.
Proof. exact delayed_action_example. Qed.

Example C05_nonvacuous_counters_partition :
  fresh_all f2_world /\ fresh_all pgpending_world /\
  (exists w', step_req f2_world sync_req [] = (w', false, true)) /\
  (exists w', step_req pgpending_world sync_req [] = (w', false, true)).
Proof. exact counters_partition_nonvacuous. Qed.

Example C05_nonvacuous_running_boundary :
  let sp := mkSpec [mkTask 1 2 (Some 1) [] None; mkTask 2 2 (Some 1) [] None] 2 None 3 [] in
  let s := mkStatus PhRunning 0 0 2 (mkC 0 0 2 2 0) 0 [(1%positive, mkC 0 0 2 0 0); (2%positive, mkC 0 0 0 2 0)] false false in
  total_task_min sp = s_min sp /\ st_phase (running_sync sp s) = PhFailed /\
  st_phase (running_sync (mkSpec (s_tasks sp) 1 None 3 []) s) = PhCompleted.
Proof. exact running_boundary_example. Qed.

Example C05_nonvacuous_api_phase_history :
  phase_agree f2_world /\
  api_phases f2_world [OReq sync_req []; OFire; ORestart; OSyncJob] = [PhCompleted; PhCompleted; PhCompleted; PhCompleted] /\
  let w := init_world one_task_spec (mkStatus PhNone 0 0 0 c0 0 [] true false) [] None in
  api_phases w [OReq sync_req []; OPgPhase PgRunning; OSyncPg; OReq sync_req []; OPodPhase 1 0 PSucceeded; OSyncPods;
                OReq sync_req []; OReq sync_req []] =
  [PhPending; PhPending; PhPending; PhPending; PhPending; PhPending; PhRunning; PhCompleted].
Proof. exact api_phase_history_nonvacuous. Qed.

Example C05_nonvacuous_version :
  let w1 := run ver_world [OReq (ver_req 0) []] in
  Forall same_job [OReq (ver_req 0) []] /\ st_version (w_st ver_world) <= st_version (v_st ver_world) /\
  st_version (w_st ver_world) = 0 /\ st_version (w_st w1) = 1 /\ st_version (v_st w1) = 1 /\
  st_phase (w_st w1) = PhRestarting /\ st_retry (w_st w1) = 1 /\
  r_action (ver_req 0) = None /\ r_version (ver_req 0) < st_version (v_st w1) /\
  apply_policies ver_spec (v_st w1) (ver_req 0) = ASync /\
  apply_policies ver_spec (v_st w1) (ver_req 1) = ARestartJob.
Proof. exact version_example. Qed.

Example C05_nonvacuous_giveup :
  let sp := mkSpec [mkTask 1 1 (Some 1) [] None] 1 None 3 [] in
  let st ph := mkStatus ph 0 0 1 (mkC 0 1 0 0 0) 0 [(1%positive, mkC 0 1 0 0 0)] false false in
  let w ph := init_world_m 0 true sp (st ph) [mkPod 1 0 PRunning false false] (Some PgRunning) in
  let r := mkReq EOutOfSync None None None 0 0 1 in
  forall ph, In ph [PhCompleted; PhAborted] ->
  exists w', step_reqb (w ph) r [FDelete 1 0] = (w', true, true) /\ q_gave (c_rq (v_ctl w')) = true /\
             st_phase (w_st w') = ph /\ st_phase (v_st w') = ph /\
             w_pods w' = [mkPod 1 0 PRunning true true].
Proof. exact giveup_example. Qed.

(* observation, not a theorem about the property: what giving up on a SYNC does (see docs/notes/C05.md) *)
Example C05_giveup_consumed_view :
  let sp := mkSpec [mkTask 1 2 (Some 2) [] None] 2 None 3 [] in
  let pods := [mkPod 1 0 PRunning false false; mkPod 1 1 PRunning false false] in
  let w := init_world_m 0 true sp (mkStatus PhRunning 0 0 2 (mkC 0 1 0 0 0) 0 [] false false) pods (Some PgRunning) in
  exists w', step_reqb w (mkReq EOutOfSync None None None 0 0 1) [FStatus 0] = (w', true, true) /\
             q_gave (c_rq (v_ctl w')) = true /\ st_phase (w_st w') = PhTerminating /\
             st_cnt (w_st w') = c0 /\ st_term (w_st w') = 0 /\ w_pods w' = pods /\ w_pg w' = None.
Proof. exact giveup_consumed_view_example. Qed.


Example C05_nonvacuous_refused_status_writer :
  let sp := mkSpec [mkTask 1 1 (Some 1) [] None] 1 None 3 [] in
  let w := init_world sp (mkStatus PhRunning 0 0 1 c0 0 [] false false) [mkPod 1 0 PRunning false false] (Some PgRunning) in
  fails_status [FStatus 0] 0 = true /\
  (exists w', step_req w (mkReq ECommandIssued (Some ARestartJob) None None 0 0 1) [FStatus 0] = (w', true, false) /\
              w_st w' = w_st w /\ w_pods w' = [mkPod 1 0 PRunning true true]) /\
  (exists w', step_req w (mkReq EOutOfSync None None None 0 0 1) [FStatus 0] = (w', true, false) /\ w_st w' = w_st w) /\
  (exists w', step_req w (mkReq EOutOfSync None None None 0 0 1) [] = (w', false, true) /\ w_st w' <> w_st w).
Proof. exact refused_status_writer_example. Qed.

(* the cached version ahead of the API server's after a failed RestartJob, deliveries, and the retried
   restart: the premise holds (status equality is not part of it) and the counters partition *)
Example C05_nonvacuous_fresh_all_version_ahead :
  let sp := mkSpec [mkTask 1 2 (Some 2) [] None] 2 None 3 [] in
  let w := init_world sp (mkStatus PhRunning 0 0 2 (mkC 0 2 0 0 0) 0 [] false false)
             [mkPod 1 0 PRunning false false; mkPod 1 1 PRunning false false] (Some PgRunning) in
  let rq := mkReq ECommandIssued (Some ARestartJob) None None 0 0 1 in
  let w1 := run w [OReq rq [FDelete 1 0]; OSyncJob; OSyncPods; OSyncPg] in
  v_st w1 <> w_st w1 /\ fresh_all w1 /\
  exists w2, step_req w1 rq [] = (w2, false, true) /\ (st_cnt (w_st w2), st_term (w_st w2)) = tally (w_pods w2).
Proof. exact fresh_all_version_ahead. Qed.
