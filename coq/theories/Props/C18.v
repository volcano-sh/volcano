(* Property C18 — time-driven controllers never act early, twice, or on live jobs.
   The property theorems, each followed by Print Assumptions (the closing
   examples are not).  A proof stands here when nothing else needs the fact;
   otherwise the theorem is [exact] of a lemma of C18/Lemmas.v, where the
   specification notions (gc_due, sched, bounded, state_ok, inv_live ...) are
   defined as well.  [sched next hi s] below is that file's predicate "s is a
   schedule point", not the schedule type [Model.sched].  Time is Z nanoseconds.
   [next] stands for cron.Schedule.Next; what is assumed about it is spelled
   out in every statement (never an axiom). *)
From Coq Require Import Bool Lia ZifyBool ZArith List.
From V Require Import C18.Model C18.Laws C18.Lemmas.
Import ListNotations.
Open Scope Z_scope.

(* for ALL TTLs, finish times and clock readings (finish > now included):
   a Delete is issued only for the freshly read object, which is finished,
   has a TTL, carries no deletion timestamp and finish + ttl <= now at the
   second reading; the UID precondition is that object's UID *)
Theorem C18_gc_only_when_due : forall lj fresh now1 now2 uid,
  go_delete (process_job lj fresh now1 now2) = Some uid ->
  exists j f, lj = Some j /\ fresh = Some f /\ gc_due j now1 /\ gc_due f now2 /\ uid = g_uid f /\
              go_requeues (process_job lj fresh now1 now2) = [] /\
              go_err (process_job lj fresh now1 now2) = false.
Proof. exact gc_only_when_due. Qed.
Print Assumptions C18_gc_only_when_due.

Theorem C18_gc_requeue_exact : forall j fresh now1 now2 ttl fin,
  finished (g_phase j) = true -> g_deleting j = false ->
  g_ttl j = Some ttl -> g_finish j = Some fin -> now1 < fin + ttl * sec ->
  process_job (Some j) fresh now1 now2 = mkGcOut [fin + ttl * sec - now1] None false.
Proof. exact gc_requeue_exact. Qed.
Print Assumptions C18_gc_requeue_exact.

Theorem C18_gc_requeue_exact_fresh : forall j f now1 now2 ttl fin,
  gc_due j now1 ->
  finished (g_phase f) = true -> g_deleting f = false ->
  g_ttl f = Some ttl -> g_finish f = Some fin -> now2 < fin + ttl * sec ->
  process_job (Some j) (Some f) now1 now2 = mkGcOut [fin + ttl * sec - now2] None false.
Proof.
  intros j f now1 now2 ttl fin Hj Hf Hd Ht Hfi Hlt. unfold process_job.
  apply process_ttl_expired in Hj. rewrite Hj, (process_ttl_finish f now2 ttl fin) by assumption.
  destruct (Z.leb_spec (fin + ttl * sec - now2) 0); [lia|reflexivity].
Qed.
Print Assumptions C18_gc_requeue_exact_fresh.

Theorem C18_gc_boundary : forall j now ttl fin,
  finished (g_phase j) = true -> g_deleting j = false ->
  g_ttl j = Some ttl -> g_finish j = Some fin ->
  (process_ttl j now = TtlExpired <-> fin + ttl * sec <= now).
Proof.
  intros j now ttl fin Hf Hd Ht Hfi. rewrite (process_ttl_finish j now ttl fin) by assumption.
  destruct (Z.leb_spec (fin + ttl * sec - now) 0); split; intros; try reflexivity; try discriminate; lia.
Qed.
Print Assumptions C18_gc_boundary.

Theorem C18_gc_ignores_live : forall j fresh now1 now2,
  finished (g_phase j) = false \/ g_ttl j = None \/ g_deleting j = true ->
  process_job (Some j) fresh now1 now2 = gc_nothing.
Proof.
  intros j fresh now1 now2 H. unfold process_job. now rewrite process_ttl_ineligible.
Qed.
Print Assumptions C18_gc_ignores_live.

(* the creation time is never read (the finish time is the recorded
   status.state.lastTransitionTime): holds by the shape of process_job *)
Theorem C18_gc_creation_irrelevant : forall lj fresh now1 now2 c1 c2,
  let recreate c (j : gjob) := mkGjob (g_uid j) (g_phase j) (g_ttl j) (g_deleting j) (g_finish j) c in
  process_job (option_map (recreate c1) lj) (option_map (recreate c2) fresh) now1 now2 =
  process_job lj fresh now1 now2.
Proof.
  intros [j|] [f|] now1 now2 c1 c2; reflexivity.
Qed.
Print Assumptions C18_gc_creation_irrelevant.

(* clause "only the job instance that was checked is deleted": the UID put in
   the Delete precondition is the freshly read copy's, whatever UID the lister's
   (possibly recreated-under-the-same-name) copy carries.  What the API server
   does with the precondition is outside the model. *)
Theorem C18_gc_uid_is_the_fresh_copys : forall lj fresh now1 now2 u,
  let relabel (j : gjob) := mkGjob u (g_phase j) (g_ttl j) (g_deleting j) (g_finish j) (g_created j) in
  process_job (option_map relabel lj) fresh now1 now2 = process_job lj fresh now1 now2.
Proof.
  intros [j|] fresh now1 now2 u; reflexivity.
Qed.
Print Assumptions C18_gc_uid_is_the_fresh_copys.

Theorem C18_gc_no_finish_time_never_collected : forall lj f now1 now2,
  g_finish f = None ->
  go_delete (process_job lj (Some f) now1 now2) = None.
Proof.
  intros lj f now1 now2 Hf.
  destruct (go_delete (process_job lj (Some f) now1 now2)) as [uid|] eqn:E; [|reflexivity].
  apply gc_only_when_due in E.
  destruct E as (j & f' & _ & Ef & _ & (_ & _ & ttl & fin & _ & Hfin & _) & _).
  inversion Ef; subst. congruence.
Qed.
Print Assumptions C18_gc_no_finish_time_never_collected.

Theorem C18_gc_no_finish_time_error : forall j fresh now1 now2,
  finished (g_phase j) = true -> g_deleting j = false -> g_ttl j <> None -> g_finish j = None ->
  process_job (Some j) fresh now1 now2 = mkGcOut [] None true.
Proof.
  intros j fresh now1 now2 Hp Hd Ht Hf. unfold process_job. now rewrite process_ttl_no_finish.
Qed.
Print Assumptions C18_gc_no_finish_time_error.

Theorem C18_gc_no_finish_time_error_fresh : forall j f now1 now2,
  gc_due j now1 ->
  finished (g_phase f) = true -> g_deleting f = false -> g_ttl f <> None -> g_finish f = None ->
  process_job (Some j) (Some f) now1 now2 = mkGcOut [] None true.
Proof.
  intros j f now1 now2 Hj Hp Hd Ht Hf. unfold process_job.
  apply process_ttl_expired in Hj. now rewrite Hj, process_ttl_no_finish.
Qed.
Print Assumptions C18_gc_no_finish_time_error_fresh.

(* [next] stands for cron.Schedule.Next.  Its hypotheses are required only for
   arguments up to an instant [hi] that bounds the earliest time and now: a
   finite schedule table and robfig/cron (which gives up after five years and
   then answers the zero time) satisfy them on such a window, not for all t.
   [sched next hi s]: s is a schedule point, i.e. an answer of next on the window. *)

(* every creation / last-schedule time, deadline and now below hi: a chosen time
   is a schedule point, after the earliest time, not after now, and no schedule
   point lies in (t, now] *)
Theorem C18_cron_choice_sound : forall (next : Z -> Z) (hi : Z),
  (forall t, t <= hi -> t < next t) ->
  (forall t s, t <= hi -> sched next hi s -> t < s -> next t <= s) ->
  (forall t, t <= hi -> exists k, next t = k * sec) ->
  forall fuel created last deadline now t,
  earliest_time created last deadline now true <= hi -> now <= hi ->
  next_schedule_time next fuel created last deadline now = NsOk (Some t) ->
  let e := earliest_time created last deadline now true in
  sched next hi t /\ e < t /\ t <= now /\ (forall s, sched next hi s -> t < s -> now < s).
Proof. exact cron_choice_sound. Qed.
Print Assumptions C18_cron_choice_sound.

(* constant-period schedules: whenever an unmet schedule point exists, one is
   chosen (two loop iterations suffice) *)
Theorem C18_cron_choice_complete_regular : forall (next : Z -> Z) (hi : Z),
  (forall t s, t <= hi -> sched next hi s -> t < s -> next t <= s) ->
  forall p, 0 < p -> (forall s, s <= hi -> sched next hi s -> next s = s + p * sec) ->
  forall fuel created last deadline now, (2 <= fuel)%nat ->
  let e := earliest_time created last deadline now true in
  e <= hi -> now <= hi ->
  (exists s, sched next hi s /\ e < s /\ s <= now) ->
  exists t, next_schedule_time next fuel created last deadline now = NsOk (Some t).
Proof. exact cron_choice_complete_regular. Qed.
Print Assumptions C18_cron_choice_complete_regular.

(* irregular schedules: completeness does NOT hold (upstream behaviour; a
   missed start, not an early or duplicate one) - even with the hypotheses for all t *)
Theorem C18_cron_complete_refuted :
  exists next, (forall t, t < next t) /\ (forall hi t s, sched next hi s -> t < s -> next t <= s) /\
               (forall t, exists k, next t = k * sec) /\
  exists fuel created last deadline now,
    (exists s, sched next now s /\ earliest_time created last deadline now true < s /\ s <= now) /\
    next_schedule_time next fuel created last deadline now = NsOk None.
Proof. exact cron_complete_refuted. Qed.
Print Assumptions C18_cron_complete_refuted.

(* the loop fuel that suffices in general: one step per second of the window *)
Theorem C18_cron_fuel_enough : forall (next : Z -> Z) (hi : Z),
  (forall t, t <= hi -> t < next t) ->
  (forall t, t <= hi -> exists k, next t = k * sec) ->
  forall fuel created last deadline now incl,
  earliest_time created last deadline now incl <= hi -> now <= hi ->
  (Z.to_nat ((now - earliest_time created last deadline now incl) / sec + 1) <= fuel)%nat ->
  snd (most_recent next fuel created last deadline now incl) <> MrFuel.
Proof.
  intros next hi G S fuel created last deadline now incl He Hnow Hfuel.
  pose proof (G _ He) as Hgt.
  destruct (most_recent_cases next hi G S fuel created last deadline now incl He Hnow)
    as [[H ->]|[[H ->]|(pe & m' & H & ->)]]; try (cbn; discriminate).
  destruct (mr_loop next fuel now (next pe) None) eqn:EL; [cbn; discriminate|].
  exfalso. revert EL. apply (mr_loop_fuel next hi G S); [assumption|apply S; lia|].
  pose proof (G pe ltac:(lia)). pose proof sec_pos.
  assert ((now - next pe) / sec <= (now - earliest_time created last deadline now incl) / sec)
    by (apply Z.div_le_mono; lia).
  lia.
Qed.
Print Assumptions C18_cron_fuel_enough.

(* the schedule the correspondence runs with - a table of whole-second points,
   strictly increasing, reaching beyond hi - meets all three hypotheses on the window *)
Theorem C18_cron_table_meets_hypotheses : forall tbl hi, tbl_ok tbl -> (exists p, In p tbl /\ hi < p) ->
  (forall t, t <= hi -> t < next_tbl tbl t) /\
  (forall t s, t <= hi -> sched (next_tbl tbl) hi s -> t < s -> next_tbl tbl t <= s) /\
  (forall t, t <= hi -> exists k, next_tbl tbl t = k * sec).
Proof. exact next_tbl_window. Qed.
Print Assumptions C18_cron_table_meets_hypotheses.

(* every history of reconciles at arbitrary instants <= hi (a fortiori at
   non-decreasing ones) that each read the status the previous one wrote,
   interleaved with job completions, deletions, foreign creations, suspend,
   policy, deadline and history-limit edits: the schedule times for which a
   Create succeeded are strictly increasing from the initial lastScheduleTime,
   hence each schedule point starts at most one job *)
Theorem C18_cron_created_increasing : forall (next : Z -> Z) (lenient : bool) (hi : Z),
  (forall t, t <= hi -> t < next t) -> (forall t, t <= hi -> exists k, next t = k * sec) ->
  forall fuel ops s s' outs,
  run next lenient fuel s ops = (s', outs) -> state_ok s -> bounded hi s -> Forall (op_ok hi) ops ->
  Forall (fun o => o_err o <> E_FUEL) outs ->
  increasing_from (st_last (s_status s)) (created_times outs).
Proof. exact run_created_increasing. Qed.
Print Assumptions C18_cron_created_increasing.

Theorem C18_cron_at_most_once : forall (next : Z -> Z) (lenient : bool) (hi : Z),
  (forall t, t <= hi -> t < next t) -> (forall t, t <= hi -> exists k, next t = k * sec) ->
  forall fuel ops s s' outs,
  run next lenient fuel s ops = (s', outs) -> state_ok s -> bounded hi s -> Forall (op_ok hi) ops ->
  Forall (fun o => o_err o <> E_FUEL) outs ->
  NoDup (created_times outs).
Proof. exact cron_at_most_once. Qed.
Print Assumptions C18_cron_at_most_once.

(* the same for exactly what the correspondence executes: a schedule table
   reaching beyond hi and the entry point's fuel - no hypothesis about next or
   about fuel is left *)
Theorem C18_cron_at_most_once_table : forall tbl lenient hi ops s s' outs,
  tbl_ok tbl -> (exists p, In p tbl /\ hi < p) ->
  run (next_tbl tbl) lenient (S (S (S (length tbl)))) s ops = (s', outs) ->
  state_ok s -> bounded hi s -> Forall (op_ok hi) ops ->
  NoDup (created_times outs).
Proof.
  intros tbl lenient hi ops s s' outs Hok Hex ER Hs Hb Hops.
  destruct (next_tbl_window tbl hi Hok Hex) as (G & _ & S).
  eapply (cron_at_most_once (next_tbl tbl) lenient hi G S); eauto.
  refine (run_tbl_no_fuel tbl lenient _ hi _ (proj1 Hok) Hex ops s s' outs ER Hops). lia.
Qed.
Print Assumptions C18_cron_at_most_once_table.

(* and for "@every d" (d whole seconds), whose Next has no fixed points *)
Theorem C18_cron_at_most_once_every : forall k lenient fuel ops s s' outs hi,
  1 <= k ->
  run (next_every (k * sec)) lenient fuel s ops = (s', outs) -> state_ok s -> bounded hi s -> Forall (op_ok hi) ops ->
  Forall (fun o => o_err o <> E_FUEL) outs ->
  NoDup (created_times outs).
Proof.
  intros k lenient fuel ops s s' outs hi Hk. destruct (next_every_ok k Hk) as [G S].
  apply (cron_at_most_once (next_every (k * sec)) lenient hi); auto.
Qed.
Print Assumptions C18_cron_at_most_once_every.

(* STALE READS AND LOST STATUS WRITES (sync reads the informer cache and
   swallows a failed UpdateStatus): over every history in which reconciles may
   start from an arbitrary status and their write-back may be lost, the server
   never holds two jobs of one name (= of one schedule minute) *)
Theorem C18_cron_stale_one_job_per_name : forall next lenient fuel ops s s' outs,
  run2 next lenient fuel s ops = (s', outs) -> names_unique (s_jobs s) -> names_unique (s_jobs s').
Proof.
  intros next lenient fuel. induction ops as [|op r IH]; cbn [run2]; intros s s' outs.
  - intros E H; inversion E; subst; auto.
  - destruct (step2 next lenient fuel s op) as [s1 out] eqn:ES.
    destruct (run2 next lenient fuel s1 r) as [s2 outs2] eqn:ER.
    intros E H; inversion E; subst. eapply IH; [exact ER|]. clear IH ER E.
    destruct op as [o|st_in lister ok now fc|st_in ok now fc|now fc]; cbn [step2] in ES.
    + destruct o; cbn [step] in ES.
      * destruct (reconcile next lenient fuel s now fail_create) as [sx rx] eqn:E1. inversion ES; subst.
        eapply reconcile_names; eauto.
      * inversion ES; subst. cbn. unfold names_unique in *. rewrite map_map.
        erewrite map_ext; [exact H|]. intros j; cbn. destruct (j_name j =? name); reflexivity.
      * inversion ES; subst. cbn. now apply names_remove.
      * destruct (find_job (s_jobs s) name) eqn:Ef; inversion ES; subst; auto. cbn.
        apply names_insert; auto.
      * inversion ES; subst; auto.
      * inversion ES; subst; auto.
      * inversion ES; subst; auto.
      * inversion ES; subst; auto.
    + destruct (reconcile_lag next lenient fuel s _ lister ok now fc) as [sx rx] eqn:E1. inversion ES; subst.
      eapply reconcile_lag_names; eauto.
    + rewrite <- reconcile_lag_same in ES.
      destruct (reconcile_lag next lenient fuel s st_in _ ok now fc) as [sx rx] eqn:E1. inversion ES; subst.
      eapply reconcile_lag_names; eauto.
    + rewrite <- reconcile_lag_same in ES.
      destruct (reconcile_lag next lenient fuel s (s_status s) _ false now fc) as [sx rx] eqn:E1. inversion ES; subst.
      eapply reconcile_lag_names; eauto.
Qed.
Print Assumptions C18_cron_stale_one_job_per_name.

(* the reason: a Create succeeds only when no job of that name is on the server
   at that moment, whatever status the reconcile started from *)
Theorem C18_cron_create_needs_free_name :
  forall next lenient fuel spec now hd fc t st1 jobs1 uid upd1 rd st' jobs' uid' o nm t',
  create_job next lenient fuel spec now hd fc t st1 jobs1 uid upd1 rd = (st', jobs', uid', o) ->
  In (nm, t') (o_creates o) ->
  nm = job_name_of t /\ t' = t /\ find_job jobs1 nm = None /\
  jobs' = insert_job (mkJob nm uid OwnThis PhOther (Some now) None) jobs1.
Proof.
  intros until t'. intros E Hin. apply create_job_cases in E.
  destruct E as (_ & [(Ec & _)|(Hs & Hfree & -> & _)]); [rewrite Ec in Hin; destruct Hin|].
  unfold starts in Hs. rewrite Hs in Hin. destruct Hin as [Hin|[]]. inversion Hin; subst. auto.
Qed.
Print Assumptions C18_cron_create_needs_free_name.

(* with stale reads or lost writes "each schedule time starts at most one job" is FALSE: after a
   lost status write the job of T can finish, be removed by the history limit,
   and T is started again (reproduced on the real code: known finding) *)
Theorem C18_cron_at_most_once_lost_write_refuted :
  exists (s : cstate) (ops : list op2),
    state_ok s /\ names_unique (s_jobs s) /\
    let '(_, outs) := run2 next_pairs false 10 s ops in
    created_times outs = [100 * sec; 100 * sec] /\ Forall (fun o => o_err o <> E_FUEL) outs.
Proof.
  exists (mkState (mkSpec (- sec) false Allow None (Some 0) (Some 0) true) (mkStatus None [] None) [] 1).
  exists [Stale (mkStatus None [] None) false (100 * sec) false;
          Fresh (OpFinish 1 PhCompleted (Some (100 * sec + 5)));
          Fresh (OpReconcile (100 * sec + 9) false)].
  split; [split; constructor|]. split; [constructor|].
  vm_compute. split; [reflexivity|]. repeat constructor; discriminate.
Qed.
Print Assumptions C18_cron_at_most_once_lost_write_refuted.

(* one reconcile that reads the written status: what is started is after the
   previous run and after the earliest time, not after now, recorded as
   lastScheduleTime; never while suspended; under Forbid the new job is the
   only active one afterwards; history deletes hit finished runs of this CronJob only *)
Theorem C18_cron_reconcile : forall (next : Z -> Z) (lenient : bool) (hi : Z),
  (forall t, t <= hi -> t < next t) -> (forall t, t <= hi -> exists k, next t = k * sec) ->
  forall fuel s now fc s' o,
  reconcile next lenient fuel s now fc = (s', o) -> state_ok s -> o_err o <> E_FUEL ->
  bounded hi s -> now <= hi ->
  state_ok s' /\ bounded hi s' /\ s_spec s' = s_spec s /\
  last_le (st_last (s_status s)) (st_last (s_status s')) /\
  Forall (is_hist_victim (s_jobs s)) (o_hist_deletes o) /\
  (o_creates o = [] \/
   exists t, starts o t /\ last_lt (st_last (s_status s)) t /\ t <= now /\
             earliest_time (c_created (s_spec s)) (st_last (s_status s)) (c_deadline (s_spec s)) now true < t /\
             st_last (s_status s') = Some t /\
             c_suspend (s_spec s) = false /\
             (c_policy (s_spec s) = Forbid ->
              st_active (s_status s') = [mkRef (job_name_of t) (s_next_uid s)])).
Proof. exact reconcile_spec. Qed.
Print Assumptions C18_cron_reconcile.

(* the start time of a reconcile IS the latest schedule point not after now *)
Theorem C18_cron_reconcile_starts_latest : forall (next : Z -> Z) (lenient : bool) (hi : Z),
  (forall t, t <= hi -> t < next t) ->
  (forall t s, t <= hi -> sched next hi s -> t < s -> next t <= s) ->
  (forall t, t <= hi -> exists k, next t = k * sec) ->
  forall fuel s now fc s' o t,
  reconcile next lenient fuel s now fc = (s', o) -> state_ok s -> bounded hi s -> now <= hi ->
  starts o t ->
  sched next hi t /\ (forall p, sched next hi p -> t < p -> now < p) /\
  earliest_time (c_created (s_spec s)) (st_last (s_status s)) (c_deadline (s_spec s)) now true < t /\ t <= now.
Proof.
  intros next lenient hi G L S fuel s now fc s' o t E Hok (Bc & Bl & Bd) Hnow Hs.
  apply reconcile_parts in E. destruct E as (st1 & jobs1 & hd & upd1 & st2 & jobs2 & uid2 & EC & ED & ->).
  apply cleanup_spec in EC. destruct EC as (C1 & C2 & C3 & C4).
  assert (Hok1 : uid_ok (s_next_uid s) (st_active st1) jobs1) by (eapply uid_ok_incl; eauto).
  apply decide_spec in ED; auto. destruct ED as (_ & _ & _ & _ & Dc).
  destruct Dc as [[Hc _]|(t' & Hs' & Ht & _)].
  - unfold starts in Hs. rewrite Hc in Hs. discriminate.
  - unfold starts in Hs, Hs'. rewrite Hs in Hs'. inversion Hs'; subst t'. rewrite C1 in Ht.
    apply (cron_choice_sound next hi G L S) in Ht; auto.
    + cbv zeta in Ht. tauto.
    + apply (earliest_le_hi hi); auto.
Qed.
Print Assumptions C18_cron_reconcile_starts_latest.

Theorem C18_cron_respects_suspend : forall (next : Z -> Z) (lenient : bool) fuel s now fc s' o,
  reconcile next lenient fuel s now fc = (s', o) -> c_suspend (s_spec s) = true -> o_creates o = [].
Proof. exact cron_respects_suspend. Qed.
Print Assumptions C18_cron_respects_suspend.

(* Forbid, as the code sees it: no start while status.active (after the clean-up) is not empty *)
Theorem C18_cron_forbid : forall (next : Z -> Z) (lenient : bool)
    fuel spec st jobs uid now fc upd0 hd st' jobs' uid' o,
  decide next lenient fuel spec st jobs uid now fc upd0 hd = (st', jobs', uid', o) ->
  c_policy spec = Forbid -> st_active st <> [] -> o_creates o = [].
Proof. exact cron_forbid. Qed.
Print Assumptions C18_cron_forbid.

(* Forbid against a live run: whatever status the reconcile starts from (fresh
   or stale), a reference to an unfinished job of this CronJob that is on the
   server blocks the start (the clean-up cannot drop it) *)
Theorem C18_cron_forbid_live : forall next lenient fuel s st_in ok now fc s' o r j,
  reconcile_from next lenient fuel s st_in ok now fc = (s', o) ->
  c_policy (s_spec s) = Forbid -> uids_unique (s_jobs s) ->
  In r (st_active st_in) -> In j (s_jobs s) -> j_owner j = OwnThis -> finished (j_phase j) = false ->
  j_uid j = r_uid r ->
  o_creates o = [].
Proof.
  intros until j. unfold reconcile_from.
  destruct (cleanup2 (s_spec s) st_in (st_active (s_status s)) (s_jobs s)) as [[[st1 jobs1] hd] upd1] eqn:EC.
  destruct (decide next lenient fuel (s_spec s) st1 jobs1 (s_next_uid s) now fc upd1 hd)
    as [[[st2 jobs2] uid2] o2] eqn:ED.
  intros E HF Hu Hr Hj Ho Hf Hid; inversion E; subst.
  eapply cron_forbid; [exact ED|exact HF|].
  pose proof (cleanup2_keeps_live _ _ _ _ _ _ _ _ r j EC Hu Hr Hj Ho Hf Hid) as Hin.
  intro Hnil. rewrite Hnil in Hin. destruct Hin.
Qed.
Print Assumptions C18_cron_forbid_live.

(* Forbid over histories, live-run form: in every history of fresh reconciles
   and environment events other than planting an unfinished job of this CronJob
   behind the controller's back or reviving a finished one, no orphan ever
   exists (inv_live), hence a reconcile under Forbid starts a job only when NO
   unfinished job of this CronJob is on the server *)
Theorem C18_cron_forbid_no_live_run : forall next lenient fuel pre s0 s1 outs1 now fc s2 o,
  inv_live s0 -> Forall op_no_orphan pre ->
  run next lenient fuel s0 pre = (s1, outs1) -> Forall (fun o => o_err o <> E_FUEL) outs1 ->
  reconcile next lenient fuel s1 now fc = (s2, o) -> o_err o <> E_FUEL ->
  c_policy (s_spec s1) = Forbid -> o_creates o <> [] ->
  forall j, In j (s_jobs s1) -> ~ live j.
Proof.
  intros until o. intros Hi Hops ER Hf E Hfo HF Hc.
  pose proof (run_inv_live _ _ _ _ _ _ _ ER Hi Hops Hf) as Hi1.
  eapply reconcile_inv_live; eauto.
Qed.
Print Assumptions C18_cron_forbid_no_live_run.

(* Forbid is NOT kept once the controller's view is stale.  (a) job-lister
   lag: getJobsByCronJob and the active-reference look-up read the informer
   (handler 164, 266; upstream does a live GET): a reconcile whose lister does
   not show the run just started drops its reference, and the next schedule
   point starts a second run next to it - every status write succeeding.
   (b) lost status write: the run was never recorded.  Both reproduced on the
   real syncCronJob (known findings C18/forbid-job-lister-lag, C18/lost-status-write). *)
Theorem C18_cron_forbid_lister_lag_refuted :
  exists (s : cstate) (ops : list op2),
    state_ok s /\ c_policy (s_spec s) = Forbid /\
    let '(s', outs) := run2 next_pairs false 10 s ops in
    created_times outs = [100 * sec; 200 * sec] /\
    length (live_owned (s_jobs s')) = 2%nat /\ Forall (fun o => o_err o <> E_FUEL) outs.
Proof.
  exists (mkState (mkSpec (- sec) false Forbid None None None true) (mkStatus None [] None) [] 1).
  exists [Fresh (OpReconcile (100 * sec + 5) false);
          Lagged None [] true (100 * sec + 6) false;
          Fresh (OpReconcile (200 * sec + 5) false)].
  split; [split; constructor|]. split; [reflexivity|].
  vm_compute. split; [reflexivity|]. split; [reflexivity|]. repeat constructor; discriminate.
Qed.
Print Assumptions C18_cron_forbid_lister_lag_refuted.

Theorem C18_cron_forbid_lost_write_refuted :
  exists (s : cstate) (ops : list op2),
    state_ok s /\ c_policy (s_spec s) = Forbid /\
    let '(s', outs) := run2 next_pairs false 10 s ops in
    created_times outs = [100 * sec; 200 * sec] /\
    length (live_owned (s_jobs s')) = 2%nat /\ Forall (fun o => o_err o <> E_FUEL) outs.
Proof.
  exists (mkState (mkSpec (- sec) false Forbid None None None true) (mkStatus None [] None) [] 1).
  exists [LostWrite (100 * sec + 5) false; Fresh (OpReconcile (200 * sec + 5) false)].
  split; [split; constructor|]. split; [reflexivity|].
  vm_compute. split; [reflexivity|]. split; [reflexivity|]. repeat constructor; discriminate.
Qed.
Print Assumptions C18_cron_forbid_lost_write_refuted.

(* adoption by name (for a job client that can fetch the conflicting job, i.e.
   ignores the empty namespace - against a real API server the branch ends in an
   error, finding 3): createJob hits AlreadyExists on an unfinished job of this
   CronJob that the job client can fetch: nothing is created and the job is
   referenced in status.active afterwards (so C18_cron_forbid_live applies at
   the next schedule point); unless it was referenced already, lastScheduleTime
   is set and the update requested.  Foreign or finished conflicting jobs are
   report-only. *)
Theorem C18_cron_adoption : forall next fuel spec now hd t st1 jobs1 uid upd1 rd st' jobs' uid' o ex,
  create_job next true fuel spec now hd false t st1 jobs1 uid upd1 rd = (st', jobs', uid', o) ->
  find_job jobs1 (job_name_of t) = Some ex -> j_owner ex = OwnThis -> finished (j_phase ex) = false ->
  o_creates o = [] /\ jobs' = jobs1 /\
  In (mkRef (job_name_of t) (j_uid ex)) (st_active st') \/
  (o_creates o = [] /\ jobs' = jobs1 /\ in_active (st_active st1) (j_uid ex) = true /\ st_active st' = st_active st1).
Proof.
  intros until ex. intros E Hf Ho Hu. unfold create_job in E. rewrite Hf, Ho, Hu in E. cbn [negb] in E.
  destruct (in_active (st_active st1) (j_uid ex)) eqn:Ea;
    unfold fin in E;
    match type of E with context [match ?x with _ => _ end] => destruct x end;
    inversion E; subst; cbn.
  - right. auto.
  - right. auto.
  - left. repeat split; auto. apply in_or_app. right. left. reflexivity.
  - left. repeat split; auto. apply in_or_app. right. left. reflexivity.
Qed.
Print Assumptions C18_cron_adoption.

Theorem C18_cron_adoption_records : forall next fuel spec now hd t st1 jobs1 uid upd1 rd st' jobs' uid' o ex,
  create_job next true fuel spec now hd false t st1 jobs1 uid upd1 rd = (st', jobs', uid', o) ->
  find_job jobs1 (job_name_of t) = Some ex -> j_owner ex = OwnThis -> finished (j_phase ex) = false ->
  in_active (st_active st1) (j_uid ex) = false ->
  st_last st' = Some t /\ o_upd o = true /\ (o_err o = E_OK \/ o_err o = E_FUEL) /\ o_status o = st'.
Proof.
  intros until ex. intros E Hf Ho Hu Ha. unfold create_job in E. rewrite Hf, Ho, Hu, Ha in E. cbn [negb] in E.
  apply fin_exit in E. destruct E as (Ee & (Es & _) & -> & _ & _ & _ & Eu). cbn. auto.
Qed.
Print Assumptions C18_cron_adoption_records.

Theorem C18_cron_conflict_foreign : forall next lenient fuel spec now hd t st1 jobs1 uid upd1 rd st' jobs' uid' o ex,
  create_job next lenient fuel spec now hd false t st1 jobs1 uid upd1 rd = (st', jobs', uid', o) ->
  find_job jobs1 (job_name_of t) = Some ex -> (j_owner ex <> OwnThis \/ finished (j_phase ex) = true) ->
  o_creates o = [] /\ st' = st1 /\ jobs' = jobs1.
Proof.
  intros until ex. intros E Hf Hc. unfold create_job in E. rewrite Hf in E.
  destruct lenient; cbn [negb] in E; [|inversion E; subst; auto].
  destruct (j_owner ex) eqn:Eo; try (apply fin_exit in E; destruct E as (_ & _ & -> & -> & _ & Ec & _); auto).
  destruct (finished (j_phase ex)) eqn:Ef; [apply fin_exit in E; destruct E as (_ & _ & -> & -> & _ & Ec & _); auto|].
  destruct Hc as [Hc|Hc]; [contradiction|discriminate].
Qed.
Print Assumptions C18_cron_conflict_foreign.

Theorem C18_history_deletes_finished_only : forall next lenient fuel s now fc s' o,
  reconcile next lenient fuel s now fc = (s', o) ->
  Forall (is_hist_victim (s_jobs s)) (o_hist_deletes o).
Proof. exact history_deletes_finished_only. Qed.
Print Assumptions C18_history_deletes_finished_only.

(* formatSchedule / validateTZandSchedule against a specification written
   without them (zone_spec: embedded zone, else spec.timeZone if it loads, else
   the controller's zone), for every schedule kind.  The model sees a schedule
   string only as (grammar kind, embedded zone); that the real strings are
   evaluated in that zone is what harness laws 110-112 check against the
   harness's own evaluation. *)
Theorem C18_cron_zone_meets_spec : forall tz s z, zone_used tz s = z <-> zone_spec tz s z.
Proof.
  intros tz [k [e|]] z; split.
  - intros <-. destruct tz; cbn; constructor.
  - intros H; inversion H; subst; reflexivity.
  - intros <-. destruct tz; cbn; constructor.
  - intros H; inversion H; subst; reflexivity.
Qed.
Print Assumptions C18_cron_zone_meets_spec.

Theorem C18_cron_invalid_zone_no_start : forall next lenient fuel s now fc s' o,
  reconcile next lenient fuel s now fc = (s', o) -> c_tz_ok (s_spec s) = false -> o_creates o = [].
Proof.
  intros next lenient fuel s now fc s' o. unfold reconcile.
  destruct (cleanup (s_spec s) (s_status s) (s_jobs s)) as [[[st1 jobs1] hd] upd1].
  unfold decide. intros E Hs. rewrite Hs in E. cbn [negb] in E.
  destruct (c_suspend (s_spec s)); inversion E; subst; reflexivity.
Qed.
Print Assumptions C18_cron_invalid_zone_no_start.

Theorem C18_law_choice_sound : forall tbl created last deadline now t,
  Laws.law_choice tbl created last deadline now (Some t) = true ->
  In t tbl /\ earliest_time created last deadline now true < t /\ t <= now /\
  forall p, In p tbl -> t < p -> now < p.
Proof. exact law_choice_sound. Qed.
Print Assumptions C18_law_choice_sound.

Theorem C18_law_table_sound : forall tbl qs, Laws.law_table tbl qs = true -> tbl <> [] ->
  tbl_ok tbl /\ forall a r, In (a, r) qs -> a < r /\ r = next_tbl tbl a.
Proof. exact law_table_sound. Qed.
Print Assumptions C18_law_table_sound.

Theorem C18_law_reconcile_sound : forall tbl o, Laws.law_reconcile tbl o = true ->
  (c_suspend (Laws.b_spec o) = true -> Laws.b_creates o = []) /\
  (c_tz_ok (Laws.b_spec o) = false -> Laws.b_creates o = []) /\
  (length (Laws.b_creates o) <= 1)%nat /\
  (forall nm t, In (nm, t) (Laws.b_creates o) ->
     In t tbl /\
     earliest_time (c_created (Laws.b_spec o)) (Laws.b_last o) (c_deadline (Laws.b_spec o)) (Laws.b_now o) true < t /\
     t <= Laws.b_now o /\ (forall p, In p tbl -> t < p -> Laws.b_now o < p) /\
     nm = job_name_of t /\ last_lt (Laws.b_last o) t) /\
  Laws.law_adoption o = true.
Proof.
  intros tbl o H. unfold law_reconcile in H. rewrite !andb_true_iff in H.
  destruct H as ((((L1 & L2) & L3) & L4) & L9).
  split; [|split; [|split; [|split]]]; auto.
  - intros Hs. rewrite Hs in L1. destruct (b_creates o); [reflexivity|discriminate].
  - intros Hs. rewrite Hs in L2. destruct (b_creates o); [reflexivity|discriminate].
  - apply Nat.leb_le. assumption.
  - intros nm t Hin. rewrite forallb_forall in L4. specialize (L4 _ Hin). cbn beta iota in L4.
    rewrite !andb_true_iff in L4. destruct L4 as (((A1 & A2) & A3) & A4).
    apply law_choice_sound in A1. destruct A1 as (A & B & C & D).
    repeat split; auto.
    + apply Z.eqb_eq in A2. exact A2.
    + unfold last_lt. destruct (b_last o); [lia|exact I].
Qed.
Print Assumptions C18_law_reconcile_sound.

(* law 123: a Delete issued by the history limits hits a
   finished run of this CronJob on the API server *)
Theorem C18_law_deletes_sound : forall o nm, Laws.law_deletes o = true -> In (nm, false) (Laws.b_deletes o) ->
  forall j, find_job (Laws.b_jobs o) nm = Some j -> j_owner j = OwnThis /\ finished (j_phase j) = true.
Proof.
  intros o nm H Hin j Hf. unfold law_deletes in H. apply andb_prop in H. destruct H as [H _].
  rewrite forallb_forall in H. specialize (H _ Hin). cbn beta iota in H. rewrite Hf in H.
  destruct (j_owner j), (j_phase j); try discriminate; auto.
Qed.
Print Assumptions C18_law_deletes_sound.

(* law 122: under Forbid a Create happens only when no run this controller
   started / adopted / was handed is still unfinished on the API server *)
Theorem C18_law_forbid_live_sound : forall o, Laws.law_forbid_live o = true ->
  c_policy (Laws.b_spec o) = Forbid -> Laws.b_creates o <> [] ->
  (forall j, In j (Laws.b_jobs o) -> j_owner j = OwnThis -> finished (j_phase j) = false ->
             In (j_uid j) (Laws.b_known o) -> In (j_name j) (map fst (Laws.b_deletes o))) /\
  (forall r j, In r (Laws.b_active o) -> find_job (Laws.b_jobs o) (r_name r) = Some j -> j_uid j = r_uid r ->
               finished (j_phase j) = true \/ In (r_name r) (map fst (Laws.b_deletes o))).
Proof.
  intros o L10 HF Hc. unfold law_forbid_live in L10. rewrite HF in L10.
  destruct (b_creates o) as [|[nm t] l]; [contradiction|].
  rewrite !andb_true_iff in L10. destruct L10 as ((A & B) & _). split.
  - intros j Hj Ho Hu Hk.
    destruct (mem (j_name j) (map fst (b_deletes o))) eqn:Ed; [apply mem_In; exact Ed|].
    exfalso. assert (Hin : In j (live_known o)).
    { unfold live_known. apply filter_In. split; auto. rewrite Ho, Hu, Ed. cbn.
      apply mem_In in Hk. rewrite Hk. reflexivity. }
    destruct (live_known o); [destruct Hin|discriminate].
  - intros r j Hr Hf Hid. rewrite forallb_forall in B. specialize (B r Hr).
    rewrite Hf in B. apply orb_prop in B. destruct B as [B|B]; [|right; apply mem_In; exact B].
    apply orb_prop in B. destruct B as [B|B]; [|left; exact B].
    rewrite Hid, Z.eqb_refl in B. discriminate.
Qed.
Print Assumptions C18_law_forbid_live_sound.

Theorem C18_law_adoption_sound : forall o nm t j, Laws.law_adoption o = true ->
  In (nm, t) (Laws.b_conflicts o) -> find_job (Laws.b_jobs o) nm = Some j ->
  Laws.mem nm (map fst (Laws.b_deletes o)) = false ->
  j_owner j = OwnThis -> finished (j_phase j) = false -> Laws.b_lenient o = true ->
  Laws.b_creates o = [] /\ Laws.b_err o = 0 /\
  (exists r, In r (Laws.b_active_after o) /\ r_name r = nm /\ r_uid r = j_uid j) /\
  ((exists r, In r (Laws.b_active o) /\ r_uid r = j_uid j) \/ (Laws.b_last_after o = Some t /\ Laws.b_upd o = true)).
Proof.
  intros o nm t j H Hin Hf Hd Ho Hu Hl. unfold law_adoption in H. rewrite forallb_forall in H.
  specialize (H _ Hin). cbn beta iota in H. rewrite Hf, Hd, Ho, Hu, Hl in H.
  rewrite !andb_true_iff in H. destruct H as (A1 & (A2 & A3) & A4).
  split; [destruct (b_creates o); [reflexivity|discriminate]|].
  split; [apply Z.eqb_eq; assumption|]. split.
  - apply existsb_exists in A3. destruct A3 as (r & Hr & E). apply andb_prop in E. destruct E as [E1 E2].
    exists r. rewrite Z.eqb_eq in E1, E2. auto.
  - apply orb_prop in A4. destruct A4 as [E|E].
    + left. apply existsb_exists in E. destruct E as (r & Hr & E). exists r. rewrite Z.eqb_eq in E. auto.
    + right. apply andb_prop in E. destruct E as [E1 E2]. destruct (b_last_after o); [|discriminate].
      apply Z.eqb_eq in E1. subst. auto.
Qed.
Print Assumptions C18_law_adoption_sound.

Theorem C18_law_gc_delete_sound : forall lj fresh lo hi uid rqs,
  Laws.law_gc lj fresh lo hi (Some uid) rqs = true ->
  exists f, fresh = Some f /\ gc_due f hi /\ uid = g_uid f.
Proof.
  intros lj fresh lo hi uid rqs. unfold law_gc. intros H.
  apply andb_prop in H. destruct H as [H _]. apply andb_prop in H. destruct H as [H _].
  destruct fresh as [f|]; [|discriminate]. exists f. split; auto.
  apply andb_prop in H. destruct H as [H Hu]. apply andb_prop in H. destruct H as [Hd He].
  unfold expiry in He. unfold gc_due.
  destruct (g_ttl f) as [ttl|] eqn:Et; [|discriminate].
  destruct (g_finish f) as [fi|] eqn:Ef; [|discriminate].
  destruct (finished (g_phase f)) eqn:Eph; [|discriminate].
  split; [split; [reflexivity|]|lia]. split; [destruct (g_deleting f); [discriminate|reflexivity]|].
  exists ttl, fi. repeat split; auto. lia.
Qed.
Print Assumptions C18_law_gc_delete_sound.

Example C18_gc_nonvacuous :
  let j := mkGjob 1 PhCompleted (Some 10) false (Some (5 * sec)) (Some 0) in
  gc_due j (15 * sec) /\ ~ gc_due j (15 * sec - 1) /\
  process_job (Some j) (Some j) (15 * sec) (15 * sec) = mkGcOut [] (Some 1) false /\
  process_job (Some j) (Some j) (15 * sec - 1) (15 * sec - 1) = mkGcOut [1] None false.
Proof. exact gc_nonvacuous. Qed.

(* the hypotheses on [next] are satisfiable (by an irregular schedule) *)
Example C18_next_hypotheses_satisfiable :
  (forall t, t < next_pairs t) /\ (forall hi t s, sched next_pairs hi s -> t < s -> next_pairs t <= s) /\
  (forall t, exists k, next_pairs t = k * sec).
Proof. exact (conj next_pairs_gt (conj next_pairs_least next_pairs_sec)). Qed.

(* a well-formed state runs through two starts under Forbid with history limits *)
Example C18_controller_nonvacuous :
  state_ok ex_state /\
  let '(s', outs) := run next_pairs false 10 ex_state
                         [OpReconcile (100 * sec) false; OpReconcile (200 * sec) false;
                          OpFinish 1 PhCompleted (Some (200 * sec)); OpReconcile (200 * sec + 5) false] in
  created_times outs = [100 * sec; 200 * sec] /\
  map o_hist_deletes outs = [[7]; []; [8]] /\
  Forall (fun o => o_err o <> E_FUEL) outs.
Proof. exact controller_nonvacuous. Qed.

Example C18_table_nonvacuous :
  tbl_ok ex_tbl /\ (exists p, In p ex_tbl /\ 250 * sec < p) /\
  bounded (250 * sec) ex_state /\ inv_live ex_state /\
  Forall (op_ok (250 * sec)) [OpReconcile (100 * sec) false; OpReconcile (200 * sec + 5) false] /\
  let '(_, outs) := run (next_tbl ex_tbl) false (S (S (S (length ex_tbl)))) ex_state
                        [OpReconcile (100 * sec) false; OpReconcile (200 * sec + 5) false] in
  created_times outs = [100 * sec].
Proof. exact table_nonvacuous. Qed.

Example C18_regular_nonvacuous :
  (forall t s, t <= 250 * sec -> sched (next_tbl ex_tbl) (250 * sec) s -> t < s -> next_tbl ex_tbl t <= s) /\
  (forall s, s <= 250 * sec -> sched (next_tbl ex_tbl) (250 * sec) s -> next_tbl ex_tbl s = s + 100 * sec) /\
  exists t, next_schedule_time (next_tbl ex_tbl) 2 0 None None (250 * sec) = NsOk (Some t).
Proof. exact regular_nonvacuous. Qed.
