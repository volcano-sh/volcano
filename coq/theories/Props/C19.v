(* Property C19 — node agent over-subscription stays within bounds and evicts
   only offline pods.  The property theorems, each followed by Print Assumptions (the
   Examples are not).  A proof stands here when nothing else needs the fact;
   otherwise the theorem is [exact] of a lemma of C19/Lemmas.v, C19/EvictLemmas.v or
   C19/ReporterLemmas.v.

   Stated input range (int64 overflow is excluded by it, and the model carries
   the two's-complement wrap explicitly so that the range is a hypothesis of
   the theorems, not of the model):
     0 <= ratio <= 100, 0 <= allocatable <= max_alloc = 2^53 (cpu in milli, memory in bytes),
     0 <= usage <= max_amount = 2^62, 0 <= guaranteed cpu request <= 2^62,
     at most 10 samples in the queue (proved of the queue, not assumed). *)
From Coq Require Import ZArith List Bool Permutation Sorted Lia.
From V Require Import C19.Model C19.Laws C19.Lemmas C19.EvictLemmas C19.Reporter C19.ReporterLaws C19.ReporterLemmas.
Import ListNotations.
Open Scope Z_scope.

(* ---- one sample (extend.go CalOverSubscriptionResources, one resource type) ---- *)
Theorem C19_sample_bounds : forall ratio alloc greq usage,
  0 <= ratio <= 100 -> 0 <= alloc <= max_alloc -> 0 <= greq <= max_amount -> 0 <= usage <= max_amount ->
  let total := alloc - greq in
  let s := calc_sample (sub64 alloc greq) usage ratio in
  0 <= s /\ s <= alloc * ratio / 100 /\ alloc * ratio / 100 <= alloc /\
  (usage <= total -> s = (total - usage) * ratio / 100 /\ s <= total - usage) /\
  (total < usage -> s = 0).
Proof. exact sample_bounds. Qed.
Print Assumptions C19_sample_bounds.

Theorem C19_sample_pair_bounds : forall ratio acpu amem greq ucpu umem,
  0 <= ratio <= 100 -> 0 <= acpu <= max_alloc -> 0 <= amem <= max_alloc ->
  0 <= greq <= max_amount -> 0 <= ucpu <= max_amount -> 0 <= umem <= max_amount ->
  let r := sample_pair ratio acpu amem greq ucpu umem in
  0 <= fst r <= acpu * ratio / 100 /\ 0 <= snd r <= amem * ratio / 100 /\
  (acpu - greq < ucpu -> fst r = 0) /\ (amem < umem -> snd r = 0) /\
  (ucpu <= acpu - greq -> fst r = (acpu - greq - ucpu) * ratio / 100) /\
  (umem <= amem -> snd r = (amem - umem) * ratio / 100).
Proof. exact sample_pair_bounds. Qed.
Print Assumptions C19_sample_pair_bounds.

(* the request of guaranteed pods is in range for every pod population of at
   most 256 pods with cpu requests in [0, 2^53] and every cpu-manager policy *)
Theorem C19_guaranteed_request_range : forall policy pods,
  Forall (fun p => 0 <= p_cpu p <= max_alloc) pods -> (length pods <= 256)%nat ->
  0 <= guaranteed_cpu_request policy pods <= max_amount.
Proof. exact guaranteed_request_range. Qed.
Print Assumptions C19_guaranteed_request_range.

(* ---- the queue keeps at most ten samples, the newest last ---- *)
Theorem C19_queue_at_most_ten : forall q r,
  (length q <= 10)%nat -> (1 <= length (enqueue q r) <= 10)%nat.
Proof. exact enqueue_length. Qed.
Print Assumptions C19_queue_at_most_ten.

Theorem C19_queue_newest_last : forall q r, exists l, enqueue q r = l ++ [r].
Proof.
  intros q r.
  unfold enqueue. destruct (Nat.ltb queue_size (length (q ++ [r]))) eqn:E.
  - destruct q as [|x q']; simpl in *.
    + unfold queue_size in E. discriminate.
    + exists q'. reflexivity.
  - exists q. reflexivity.
Qed.
Print Assumptions C19_queue_newest_last.

(* ---- the report (computeOverSubRes): ALL histories of 1..10 samples ---- *)
Theorem C19_report_bounds : forall q lo1 hi1 lo2 hi2,
  (1 <= length q <= 10)%nat -> 0 <= lo1 -> hi1 <= max_alloc -> 0 <= lo2 -> hi2 <= max_alloc ->
  Forall (fun u => lo1 <= fst u <= hi1 /\ lo2 <= snd u <= hi2) q ->
  exists c m, compute_report q = Some (c, m) /\
    lo1 <= c <= hi1 /\ lo2 <= m <= hi2 /\
    c = fst (wsum 1 (map fst q)) / snd (wsum 1 (map fst q)) /\
    m = fst (wsum 1 (map snd q)) / snd (wsum 1 (map snd q)) /\
    snd (wsum 1 (map fst q)) = 2 ^ Z.of_nat (length q) - 1.
Proof. exact report_bounds. Qed.
Print Assumptions C19_report_bounds.

Theorem C19_report_between_min_and_max_sample : forall q,
  (1 <= length q <= 10)%nat ->
  Forall (fun u => 0 <= fst u <= max_alloc /\ 0 <= snd u <= max_alloc) q ->
  exists c m, compute_report q = Some (c, m) /\
    lmin (map fst q) <= c <= lmax (map fst q) /\ lmin (map snd q) <= m <= lmax (map snd q) /\
    0 <= c /\ 0 <= m.
Proof. exact report_between_min_max. Qed.
Print Assumptions C19_report_between_min_and_max_sample.

(* ---- switched-off resource types are reported as zero ---- *)
Theorem C19_report_zero_for_switched_off_types : forall ratio pods s node_err label annot acpu amem s' ev,
  cstep ratio pods s (OReport node_err label annot acpu amem) = (s', ReportOut (Some ev)) ->
  (has_type 1 (effective_types (c_types s) annot) = false -> fst ev = 0) /\
  (has_type 2 (effective_types (c_types s) annot) = false -> snd ev = 0).
Proof. exact report_step_masked. Qed.
Print Assumptions C19_report_zero_for_switched_off_types.

(* ---- every history of sampling / reporting / reconfiguration steps ---- *)
Theorem C19_history_reports_bounded : forall ratio pods Ac Am,
  0 <= ratio <= 100 -> 0 <= Ac <= max_alloc -> 0 <= Am <= max_alloc ->
  (forall policy psel, 0 <= guaranteed_cpu_request policy (pods_at pods psel) <= max_amount) ->
  forall ops, Forall (op_ok Ac Am) ops ->
  forall ev, In (ReportOut (Some ev)) (snd (crun ratio pods cinit ops)) ->
    0 <= fst ev <= Ac * ratio / 100 /\ 0 <= snd ev <= Am * ratio / 100 /\
    Ac * ratio / 100 <= Ac /\ Am * ratio / 100 <= Am.
Proof.
  intros ratio pods Ac Am Hratio HAc HAm Hpods ops Hops ev Hin.
  destruct (crun_inv ratio pods Ac Am Hratio HAc HAm Hpods ops cinit (cinv_init _ _ _) Hops) as [HO _].
  rewrite Forall_forall in HO. specialize (HO _ Hin). simpl in HO. unfold Bc, Bm in HO.
  assert (Ac * ratio / 100 <= Ac) by (apply Z.div_le_upper_bound; nia).
  assert (Am * ratio / 100 <= Am) by (apply Z.div_le_upper_bound; nia).
  lia.
Qed.
Print Assumptions C19_history_reports_bounded.

(* AFTER FIX /repo 21d1eba (audit W1): every report of every history is within
   [0, ratio% of the allocatable the node has AT THAT REPORT STEP]; pods is the
   list of pod populations of the history, each sampling step names the active one *)
Theorem C19_history_reports_within_current_allocatable : forall ratio pods Ac Am,
  0 <= ratio <= 100 -> 0 <= Ac <= max_alloc -> 0 <= Am <= max_alloc ->
  (forall policy psel, 0 <= guaranteed_cpu_request policy (pods_at pods psel) <= max_amount) ->
  forall ops, Forall (op_ok Ac Am) ops ->
  Forall2 (fun o out =>
             match o, out with
             | OReport _ _ _ acpu amem, ReportOut (Some ev) =>
                 0 <= fst ev <= acpu * ratio / 100 /\ 0 <= snd ev <= amem * ratio / 100
             | _, _ => True
             end) ops (snd (crun ratio pods cinit ops)).
Proof.
  intros ratio pods Ac Am Hratio HAc HAm Hpods ops Hops.
  exact (proj2 (crun_inv ratio pods Ac Am Hratio HAc HAm Hpods ops cinit (cinv_init _ _ _) Hops)).
Qed.
Print Assumptions C19_history_reports_within_current_allocatable.

(* the cap itself: never negative, never above the computed amount, never above
   ratio% of the current allocatable, and the identity below it *)
Theorem C19_cap_by_current_allocatable : forall ratio acpu amem r,
  0 <= ratio <= 100 -> 0 <= acpu <= max_alloc -> 0 <= amem <= max_alloc -> 0 <= fst r -> 0 <= snd r ->
  let e := cap_event ratio acpu amem r in
  0 <= fst e <= fst r /\ 0 <= snd e <= snd r /\
  (0 < ratio -> fst e <= acpu * ratio / 100 /\ snd e <= amem * ratio / 100) /\
  (fst r <= acpu * ratio / 100 -> fst e = fst r) /\ (snd r <= amem * ratio / 100 -> snd e = snd r).
Proof. exact cap_event_bounds. Qed.
Print Assumptions C19_cap_by_current_allocatable.

(* ---- eviction under pressure: one event, all pod populations, all failure patterns ---- *)
Theorem C19_evict_only_offline_noncritical : forall pods fl e c,
  In c (h_calls (snd (handle (pods, fl) e))) ->
  exists p, In p pods /\ p_id p = fst c /\ preemptable p = true /\ critical p = false.
Proof. exact (fun pods fl e => proj1 (handle_ok pods fl e)). Qed.
Print Assumptions C19_evict_only_offline_noncritical.

Theorem C19_evict_at_most_one_success_per_event : forall pods fl e,
  let cs := h_calls (snd (handle (pods, fl) e)) in
  (length (filter (fun c => snd c) cs) <= 1)%nat /\
  (forall pre c post, cs = pre ++ c :: post -> snd c = true -> post = []).
Proof. intros pods fl e. destruct (handle_ok pods fl e) as (_ & (_ & Hone) & _). exact Hone. Qed.
Print Assumptions C19_evict_at_most_one_success_per_event.

Theorem C19_evict_largest_request_first : forall pods fl e, processed e = true ->
  let o := snd (handle (pods, fl) e) in
  exists tried rest,
    map p_id tried = map fst (h_calls o) /\
    StronglySorted (fun a b => req (e_res e) b <= req (e_res e) a) (tried ++ rest) /\
    Permutation (tried ++ rest) (filter eligible pods) /\
    (Forall (fun c => snd c = false) (h_calls o) -> rest = []).
Proof.
  intros pods fl e P. rewrite (handle_processed _ _ _ P). exact (try_evict_strong (e_res e) pods fl).
Qed.
Print Assumptions C19_evict_largest_request_first.

Theorem C19_evict_everybody_else_stays : forall pods fl e p,
  NoDup (map p_id pods) -> In p pods -> ~ In p (fst (fst (handle (pods, fl) e))) ->
  preemptable p = true /\ critical p = false /\ In (p_id p, true) (h_calls (snd (handle (pods, fl) e))).
Proof.
  intros pods fl e p ND. destruct (handle_ok pods fl e) as (_ & _ & _ & H). exact (proj2 (H ND) p).
Qed.
Print Assumptions C19_evict_everybody_else_stays.

(* ---- every sequence of pressure events ---- *)
Theorem C19_pressure_history : forall evs pods0 pods fl,
  incl pods pods0 -> NoDup (map p_id pods) ->
  Forall (fun oa : hout * list Z =>
            (forall c, In c (h_calls (fst oa)) ->
               exists p, In p pods0 /\ p_id p = fst c /\ preemptable p = true /\ critical p = false) /\
            (length (filter (fun c => snd c) (h_calls (fst oa))) <= 1)%nat /\
            (forall pre c post, h_calls (fst oa) = pre ++ c :: post -> snd c = true -> post = []))
         (snd (hrun (pods, fl) evs)) /\
  incl (fst (fst (hrun (pods, fl) evs))) pods /\
  (forall p, In p pods -> preemptable p = false \/ critical p = true ->
             In p (fst (fst (hrun (pods, fl) evs)))).
Proof.
  induction evs as [|e evs IH]; intros pods0 pods fl Hincl ND.
  - simpl. split; [constructor|split; [apply incl_refl|auto]].
  - cbn [hrun]. pose proof (handle_ok pods fl e) as S.
    destruct (evict_step_incl _ pods0 _ _ _ Hincl S) as (H1 & (_ & H2) & H3).
    pose proof (proj1 (proj2 (proj2 S))) as H3'. pose proof (proj1 (proj2 (proj2 (proj2 S)) ND)) as ND1.
    pose proof (fun p => evict_step_stays _ _ _ _ p S ND) as Hstay.
    destruct (handle (pods, fl) e) as [[pods1 fl1] o]. cbn [fst snd] in *.
    specialize (IH pods0 pods1 fl1 H3 ND1).
    destruct (hrun (pods1, fl1) evs) as [s2 os]. cbn [fst snd] in *.
    destruct IH as (I1 & I2 & I3).
    split; [constructor; auto | split; [eapply incl_tran; eauto | auto]].
Qed.
Print Assumptions C19_pressure_history.

(* ---- turning over-subscription off (Cleanup / EvictPods): the loop ends
   (never ClFuel), only offline non-critical pods reach the client, and every
   online or critical pod is still there ---- *)
Theorem C19_cleanup_terminates_and_evicts_only_offline : forall ne pods fl,
  NoDup (map p_id pods) ->
  exists err rounds passes s,
    cleanup ne (pods, fl) = ClDone err rounds passes s /\
    (forall c, In c (flat_passes passes) ->
       exists p, In p pods /\ p_id p = fst c /\ preemptable p = true /\ critical p = false) /\
    incl (fst s) pods /\
    (forall p, In p pods -> preemptable p = false \/ critical p = true -> In p (fst s)) /\
    (* largest request first in every pass (audit W3): the pods behind the calls
       of a cpu pass are sorted by descending cpu request, those of a memory pass
       by descending memory request; at most one success per pass, nothing after it *)
    Forall (fun p => pass_sorted 1 pods (fst p) /\ pass_sorted 2 pods (snd p)) passes.
Proof.
  intros ne pods fl ND. unfold cleanup.
  assert (Hok : cl_ok pods [] (pods, fl)).
  { split; [intros c []|split; [apply incl_refl|split; [auto|constructor]]]. }
  destruct (ne =? 0). { do 4 eexists. split; eauto. }
  cbn [fst]. apply evict_loop_ok; auto.
Qed.
Print Assumptions C19_cleanup_terminates_and_evicts_only_offline.

(* no larger eligible pod is skipped.  calls_strong res pods cs
   (EvictLemmas.v) says: the pods behind the calls cs are, in order, a PREFIX
   tried of a list tried ++ rest that is a permutation of the eligible pods of
   the population pods, sorted by descending request of res, and rest = [] when
   no call succeeded.  So the first call targets a maximal-request eligible pod
   and every next call a maximal one among the pods not yet tried.
   pass_strong res pods cs = if the extend resource is in use then calls_strong
   else cs = [];  passes_strong judges every pass of every round on the
   population THAT pass listed (the previous one minus the pods whose eviction
   succeeded, remove_succ). *)
Theorem C19_cleanup_no_larger_pod_skipped : forall ne pods fl,
  match cleanup ne (pods, fl) with
  | ClDone _ _ passes s => passes_strong pods passes /\ fst s = pods_after pods passes
  | ClFuel => True
  end.
Proof.
  intros ne pods fl.
  unfold cleanup. destruct (ne =? 0). { simpl. auto. }
  cbn [fst]. apply evict_loop_strong; simpl; auto.
Qed.
Print Assumptions C19_cleanup_no_larger_pod_skipped.

(* every event of every sequence of pressure events: the output at its position is
   the handler's answer on the state reached by the earlier events, and its calls
   are strong for the population the event sees *)
Theorem C19_pressure_history_no_larger_pod_skipped : forall evs1 e evs2 pods fl,
  processed e = true ->
  let s1 := fst (hrun (pods, fl) evs1) in
  exists o ids, nth_error (snd (hrun (pods, fl) (evs1 ++ e :: evs2))) (length evs1) = Some (o, ids) /\
                o = snd (handle s1 e) /\ calls_strong (e_res e) (fst s1) (h_calls o).
Proof.
  intros evs1 e evs2 pods fl P s1. rewrite hrun_app.
  pose proof (hrun_length evs1 (pods, fl)) as L.
  destruct (hrun (pods, fl) evs1) as [[pods1 fl1] o1] eqn:H1. subst s1. cbn [fst snd] in *.
  cbn [hrun]. destruct (handle (pods1, fl1) e) as [s2 o] eqn:He.
  destruct (hrun s2 evs2) as [s3 o2]. cbn [snd].
  exists o, (map p_id (fst s2)). split; [|split].
  - rewrite nth_error_app2 by lia. rewrite L, Nat.sub_diag. reflexivity.
  - reflexivity.
  - pose proof (handle_processed pods1 fl1 e P) as HP. rewrite He in HP. injection HP as _ ->.
    cbn [h_calls]. apply try_evict_strong.
Qed.
Print Assumptions C19_pressure_history_no_larger_pod_skipped.

(* the weaker form along a sequence of events: the pods behind the calls of every event have descending requests *)
Theorem C19_pressure_history_largest_first : forall evs pods0 pods fl, incl pods pods0 ->
  Forall2 (fun e (oa : hout * list Z) =>
             exists tried, map p_id tried = map fst (h_calls (fst oa)) /\
                           StronglySorted (fun a b => req (e_res e) b <= req (e_res e) a) tried /\
                           incl tried pods0)
          evs (snd (hrun (pods, fl) evs)).
Proof.
  induction evs as [|e evs IH]; intros pods0 pods fl Hincl; cbn [hrun]. { constructor. }
  destruct (evict_step_incl _ pods0 _ _ _ Hincl (handle_ok pods fl e)) as (_ & Hs & H3).
  destruct (handle (pods, fl) e) as [[pods1 fl1] o]. cbn [fst snd] in *.
  specialize (IH pods0 pods1 fl1 H3).
  destruct (hrun (pods1, fl1) evs) as [s2 os]. cbn [fst snd] in *.
  constructor; [exact (proj1 Hs) | exact IH].
Qed.
Print Assumptions C19_pressure_history_largest_first.

(* with unique pod names THE pod of a call's name is offline and non-critical (audit W8) *)
Theorem C19_evict_only_offline_noncritical_unique : forall pods fl e c,
  NoDup (map p_id pods) -> In c (h_calls (snd (handle (pods, fl) e))) ->
  forall p, In p pods -> p_id p = fst c -> preemptable p = true /\ critical p = false.
Proof.
  intros pods fl e c ND Hc p Hp E. destruct (proj1 (handle_ok pods fl e) c Hc) as (q & Hq & Eq & A & B).
  assert (p = q) by (apply (nodup_id_eq pods); auto; congruence). subst q. auto.
Qed.
Print Assumptions C19_evict_only_offline_noncritical_unique.

(* ---- the sort used for the victims: a sorted permutation of the offline pods ---- *)
Theorem C19_victims_sorted_permutation : forall res pods,
  Permutation (victims res pods) (filter preemptable pods) /\
  StronglySorted (fun a b => req res b <= req res a) (victims res pods).
Proof. exact (fun res pods => conj (victims_perm res pods) (victims_sorted res pods)). Qed.
Print Assumptions C19_victims_sorted_permutation.

(* ---- Prop-level meaning of the executable laws: what acceptance implies; for
   law_sample also that it accepts the model's sample.  No theorem relates law_report
   or law_history to the model ---- *)
Theorem C19_law_sample_accepts_model : forall ratio policy pods acpu amem ucpu umem,
  law_sample ratio policy pods acpu amem ucpu umem
    (sample_pair ratio acpu amem (guaranteed_cpu_request policy pods) ucpu umem) = true.
Proof.
  intros ratio policy pods acpu amem ucpu umem.
  unfold law_sample.
  destruct (ratio_ok ratio && pods_ok pods && zin 0 max_alloc acpu && zin 0 max_alloc amem &&
            zin 0 max_amount ucpu && zin 0 max_amount umem) eqn:R; auto.
  rewrite !andb_true_iff in R. destruct R as (((((R1 & R2) & R3) & R4) & R5) & R6).
  apply zin_iff in R1, R3, R4, R5, R6.
  assert (Hg : 0 <= guaranteed_cpu_request policy pods <= max_amount).
  { unfold pods_ok in R2. apply andb_true_iff in R2 as [HP HL].
    apply guaranteed_request_range; [|now apply Nat.leb_le].
    rewrite forallb_forall in HP. apply Forall_forall. intros p Hp. now apply zin_iff, HP. }
  set (g := guaranteed_cpu_request policy pods) in *.
  pose proof (sample_pair_bounds ratio acpu amem g ucpu umem ltac:(lia) ltac:(lia) ltac:(lia) Hg ltac:(lia) ltac:(lia))
    as (S1 & S2 & S3 & S4 & S5 & S6).
  assert (D1 : acpu * ratio / 100 <= acpu) by (apply Z.div_le_upper_bound; nia).
  assert (D2 : amem * ratio / 100 <= amem) by (apply Z.div_le_upper_bound; nia).
  apply andb_true_iff; split; [apply andb_true_iff; split|].
  - apply Z.leb_le. lia.
  - apply law_sample1_complete; try lia.
  - apply law_sample1_complete; try lia.
Qed.
Print Assumptions C19_law_sample_accepts_model.

Theorem C19_law_sample1_sound : forall alloc total usage ratio got,
  law_sample1 alloc total usage ratio got = true ->
  0 <= got /\ got * 100 <= alloc * ratio /\ got <= alloc /\
  (usage <= total -> got = (total - usage) * ratio / 100) /\ (total < usage -> got = 0).
Proof.
  intros alloc total usage ratio got.
  unfold law_sample1. intros H.
  apply andb_true_iff in H as [H H4]. apply andb_true_iff in H as [H H3].
  apply andb_true_iff in H as [H1 H2].
  apply Z.leb_le in H1, H2, H3.
  destruct (usage <=? total) eqn:E.
  - apply andb_true_iff in H4 as [H4 H5]. apply Z.leb_le in H4, E. apply Z.ltb_lt in H5.
    repeat split; auto; try lia. intros _. now apply floor_unique.
  - apply Z.eqb_eq in H4. apply Z.leb_gt in E. repeat split; auto; lia.
Qed.
Print Assumptions C19_law_sample1_sound.

Theorem C19_law_evict_sound : forall res pods calls after,
  nodupb (map p_id pods) = true -> law_evict res pods calls after = true ->
  (forall c, In c calls ->
     exists p, In p pods /\ p_id p = fst c /\ preemptable p = true /\ critical p = false) /\
  (length (filter (fun c => snd c) calls) <= 1)%nat.
Proof.
  intros res pods calls after ND. unfold law_evict. rewrite ND. intros H.
  repeat (apply andb_true_iff in H as [H ?]).
  split.
  - rewrite forallb_forall in H. intros c Hc. apply call_eligible_sound. auto.
  - match goal with X : Nat.leb _ 1 = true |- _ => apply Nat.leb_le in X; unfold succeeded in X; rewrite map_length in X; exact X end.
Qed.
Print Assumptions C19_law_evict_sound.

Theorem C19_law_evict_sound_order : forall res pods calls after,
  nodupb (map p_id pods) = true -> law_evict res pods calls after = true ->
  StronglySorted (fun a b => b <= a) (map (call_req res pods) calls) /\
  (forall pre c post, calls = pre ++ c :: post -> snd c = true -> post = []) /\
  after = map p_id (filter (fun p => negb (zmem (p_id p) (succeeded calls))) pods).
Proof.
  intros res pods calls after ND. unfold law_evict. rewrite ND. intros H.
  repeat (apply andb_true_iff in H as [H ?]).
  split; [apply descending_sound; assumption|]. split; [apply success_only_last_sound; assumption|].
  match goal with X : zlist_eqb after _ = true |- _ => revert X end.
  generalize (map p_id (filter (fun p => negb (zmem (p_id p) (succeeded calls))) pods)).
  induction after as [|a after IH]; intros [|b l] E; simpl in E; try discriminate; auto.
  apply andb_true_iff in E as [E1 E2]. apply Z.eqb_eq in E1. f_equal; auto.
Qed.
Print Assumptions C19_law_evict_sound_order.

Theorem C19_law_cleanup_sound : forall pods passes after,
  nodupb (map p_id pods) = true -> law_cleanup pods passes after = true ->
  forall c, In c (flat_passes passes) ->
    exists p, In p pods /\ p_id p = fst c /\ preemptable p = true /\ critical p = false.
Proof.
  intros pods passes after ND. unfold law_cleanup. rewrite ND. intros H.
  repeat (apply andb_true_iff in H as [H ?]).
  rewrite forallb_forall in H. intros c Hc. apply call_eligible_sound. auto.
Qed.
Print Assumptions C19_law_cleanup_sound.

Theorem C19_law_cleanup_sound_passes : forall pods passes after,
  nodupb (map p_id pods) = true -> law_cleanup pods passes after = true -> passes_ok pods passes = true.
Proof.
  intros pods passes after ND. unfold law_cleanup. rewrite ND. intros H.
  repeat (apply andb_true_iff in H as [H ?]). assumption.
Qed.
Print Assumptions C19_law_cleanup_sound_passes.

(* what the boolean check of one pass means (passes_ok applies it to every pass on
   the population that pass listed) *)
Theorem C19_law_pass_ok_sound : forall res pods cs, pass_ok res pods cs = true ->
  (forall c, In c cs -> exists p, In p pods /\ p_id p = fst c /\ preemptable p = true /\ critical p = false) /\
  StronglySorted (fun a b => b <= a) (map (call_req res pods) cs) /\
  (forall pre c post, cs = pre ++ c :: post -> snd c = true -> post = []) /\
  (use_extend res pods = false -> cs = []) /\
  (use_extend res pods = true -> forall p, In p pods -> eligible p = true -> ~ In (p_id p) (map fst cs) ->
     succeeded cs <> [] /\ exists lastc, rev cs = lastc :: tl (rev cs) /\ req res p <= call_req res pods lastc).
Proof.
  intros res pods cs.
  unfold pass_ok. intros H. apply andb_true_iff in H as [H U]. apply andb_true_iff in H as [H S].
  apply andb_true_iff in H as [H D]. apply andb_true_iff in H as [E N].
  split; [|split; [|split; [|split]]].
  - rewrite forallb_forall in E. intros c Hc. apply call_eligible_sound. auto.
  - now apply descending_sound.
  - now apply success_only_last_sound.
  - intros X. rewrite X in U. destruct cs; auto. discriminate.
  - intros X. rewrite X in U. intros p Hp He Hn. eapply no_skip_sound; eauto.
Qed.
Print Assumptions C19_law_pass_ok_sound.

(* the no-skip conjunct of law_evict and of pass_ok *)
Theorem C19_law_no_skip_sound : forall res pods calls p,
  no_skip res pods calls = true -> In p pods -> eligible p = true -> ~ In (p_id p) (map fst calls) ->
  succeeded calls <> [] /\
  exists lastc, rev calls = lastc :: tl (rev calls) /\ req res p <= call_req res pods lastc.
Proof. exact no_skip_sound. Qed.
Print Assumptions C19_law_no_skip_sound.

Theorem C19_law_event_current_sound : forall ratio acpu amem ev,
  0 <= ratio <= 100 -> 0 <= acpu <= max_alloc -> 0 <= amem <= max_alloc ->
  law_event_current ratio acpu amem ev = true ->
  fst ev <= acpu * ratio / 100 /\ snd ev <= amem * ratio / 100.
Proof.
  intros ratio acpu amem ev Hr Hc Hm. unfold law_event_current, ratio_ok.
  rewrite (proj2 (zin_iff _ _ _) Hr), (proj2 (zin_iff _ _ _) Hc), (proj2 (zin_iff _ _ _) Hm). cbn [andb].
  intros H. repeat (apply andb_true_iff in H as [H ?]).
  repeat match goal with X : (_ <=? _) = true |- _ => apply Z.leb_le in X end.
  split; apply Z.div_le_lower_bound; lia.
Qed.
Print Assumptions C19_law_event_current_sound.

(* ==== the value ON THE NODE OBJECT (reporter, Cleanup, whole pipeline) ====
   The reporter writes the event unrounded into the extended resources
   kubernetes.io/batch-cpu / batch-memory of Status.Allocatable and
   Status.Capacity (one optional integer per resource in the model). *)

(* what UpdateOverSubscription leaves on the node reads back as exactly the event *)
Theorem C19_node_write_is_exact : forall n ev, cur_of (write_ext n ev) = ev.
Proof. exact write_ext_cur. Qed.
Print Assumptions C19_node_write_is_exact.

(* ALL histories of sampling / report / reconfiguration / restart / administrator
   steps, every prefix: the amounts on the node are absent or within
   [0, Rmax% of the largest allocatable], Rmax the largest ratio used *)
Theorem C19_node_bounded_after_every_prefix : forall pods Rmax Ac Am,
  0 <= Rmax <= 100 -> 0 <= Ac <= max_alloc -> 0 <= Am <= max_alloc ->
  (forall policy psel, 0 <= guaranteed_cpu_request policy (pods_at pods psel) <= max_amount) ->
  forall ratio n ops,
  0 <= ratio <= Rmax -> 0 <= n_acpu n <= Ac -> 0 <= n_amem n <= Am ->
  node_bounded Rmax Ac Am n -> Forall (pop_ok Rmax Ac Am) ops ->
  Forall (fun on : pout * node => node_bounded Rmax Ac Am (snd on)) (snd (prun pods (pinit ratio n) ops)) /\
  pinv Rmax Ac Am (fst (prun pods (pinit ratio n) ops)).
Proof.
  intros pods Rmax Ac Am HR HAc HAm Hpods ratio n ops Hr Ha Hm Hn Hops.
  destruct (prun_inv pods Rmax Ac Am HR HAc HAm Hpods ops (pinit ratio n)); auto. now apply pinv_init.
Qed.
Print Assumptions C19_node_bounded_after_every_prefix.

(* the invariant is kept by every single step, so the per-step theorems below
   apply after any prefix *)
Theorem C19_pipeline_invariant_step : forall pods Rmax Ac Am,
  0 <= Rmax <= 100 -> 0 <= Ac <= max_alloc -> 0 <= Am <= max_alloc ->
  (forall policy psel, 0 <= guaranteed_cpu_request policy (pods_at pods psel) <= max_amount) ->
  forall s o, pinv Rmax Ac Am s -> pop_ok Rmax Ac Am o -> pinv Rmax Ac Am (fst (pstep pods s o)).
Proof. exact pstep_inv. Qed.
Print Assumptions C19_pipeline_invariant_step.

(* every emitted event is within [0, largest sample in the queue] *)
Theorem C19_event_at_most_largest_recent_sample : forall pods Rmax Ac Am,
  0 <= Rmax <= 100 -> 0 <= Ac <= max_alloc -> 0 <= Am <= max_alloc ->
  forall s fail ev, pinv Rmax Ac Am s -> o_ev (snd (pstep pods s (PReport fail))) = Some ev ->
  0 <= fst ev <= lmax (map fst (c_queue (ps_c s))) /\ 0 <= snd ev <= lmax (map snd (c_queue (ps_c s))).
Proof.
  intros pods Rmax Ac Am HR HAc HAm s fail ev (Hr & Hc & Ha & Hm & _) H.
  rewrite pstep_report_ev in H. unfold cstep in H.
  destruct ((fail =? 1) || negb (label_on (n_label (ps_n s)))); cbn [snd] in H; [discriminate|].
  destruct (compute_report (c_queue (ps_c s))) as [r|] eqn:C; cbn [snd] in H; [|discriminate].
  injection H as <-.
  destruct (report_event_bounds (ps_ratio s) Ac Am ltac:(lia) HAc HAm (ps_c s)
              (effective_types (c_types (ps_c s)) (n_annot (ps_n s))) _ _ r Hc Ha Hm C) as (A1 & A2 & _ & _ & A5 & A6).
  lia.
Qed.
Print Assumptions C19_event_at_most_largest_recent_sample.

(* AFTER FIX /repo 21d1eba (audit W1): in every reachable pipeline state every
   emitted event is within [0, ratio% of the node's CURRENT allocatable] *)
Theorem C19_event_within_current_allocatable : forall pods Rmax Ac Am,
  0 <= Rmax <= 100 -> 0 <= Ac <= max_alloc -> 0 <= Am <= max_alloc ->
  (forall policy psel, 0 <= guaranteed_cpu_request policy (pods_at pods psel) <= max_amount) ->
  forall s fail ev, pinv Rmax Ac Am s -> o_ev (snd (pstep pods s (PReport fail))) = Some ev ->
  0 <= fst ev <= n_acpu (ps_n s) * ps_ratio s / 100 /\ 0 <= snd ev <= n_amem (ps_n s) * ps_ratio s / 100.
Proof. exact pstep_event_current_allocatable. Qed.
Print Assumptions C19_event_within_current_allocatable.

(* a report handled (active handler, over-subscription node, no API failure):
   the node now shows exactly the event, or -- never on a forced re-sync -- it
   was left alone because the event is within 10% of what it shows; then the
   node shows at most 10/9 of the event *)
Theorem C19_node_after_handled_report : forall pods Rmax Ac Am,
  0 <= Rmax <= 100 -> 0 <= Ac <= max_alloc -> 0 <= Am <= max_alloc ->
  (forall policy psel, 0 <= guaranteed_cpu_request policy (pods_at pods psel) <= max_amount) ->
  forall s, pinv Rmax Ac Am s ->
  o_handled (snd (pstep pods s (PReport 0))) = true -> label_on (n_label (ps_n s)) = true ->
  let s' := fst (pstep pods s (PReport 0)) in
  exists ev, o_ev (snd (pstep pods s (PReport 0))) = Some ev /\
    0 <= fst ev <= NBc Rmax Ac /\ 0 <= snd ev <= NBm Rmax Am /\
    (cur_of (ps_n s') = ev \/
     (ps_n s' = ps_n s /\ (r_times (ps_r s) + 1) mod re_sync_period <> 0 /\
      close1 (fst (cur_of (ps_n s))) (fst ev) = true /\ close1 (snd (cur_of (ps_n s))) (snd ev) = true /\
      9 * fst (cur_of (ps_n s')) <= 10 * fst ev /\ 9 * snd (cur_of (ps_n s')) <= 10 * snd ev)).
Proof. exact pstep_report_close. Qed.
Print Assumptions C19_node_after_handled_report.

(* after a handled report the node shows at most 10/9 of ratio% of
   the node's CURRENT allocatable *)
Theorem C19_node_within_current_allocatable_after_report : forall pods Rmax Ac Am,
  0 <= Rmax <= 100 -> 0 <= Ac <= max_alloc -> 0 <= Am <= max_alloc ->
  (forall policy psel, 0 <= guaranteed_cpu_request policy (pods_at pods psel) <= max_amount) ->
  forall s, pinv Rmax Ac Am s ->
  o_handled (snd (pstep pods s (PReport 0))) = true -> label_on (n_label (ps_n s)) = true ->
  let n' := ps_n (fst (pstep pods s (PReport 0))) in
  9 * fst (cur_of n') * 100 <= 10 * (n_acpu (ps_n s) * ps_ratio s) /\
  9 * snd (cur_of n') * 100 <= 10 * (n_amem (ps_n s) * ps_ratio s).
Proof.
  intros pods Rmax Ac Am HR HAc HAm Hpods s Hinv H L n'.
  destruct (pstep_report_close pods Rmax Ac Am HR HAc HAm Hpods s Hinv H L) as (ev & E & _ & _ & D).
  destruct (pstep_event_current_allocatable pods Rmax Ac Am HR HAc HAm Hpods s 0 ev Hinv E) as [[P1 Q1] [P2 Q2]].
  pose proof (Z.mul_div_le (n_acpu (ps_n s) * ps_ratio s) 100 ltac:(lia)).
  pose proof (Z.mul_div_le (n_amem (ps_n s) * ps_ratio s) 100 ltac:(lia)).
  subst n'. destruct D as [D|(_ & _ & _ & _ & K1 & K2)]; [rewrite D|]; lia.
Qed.
Print Assumptions C19_node_within_current_allocatable_after_report.

(* a report on a node whose label is not "true"/"1" is ignored altogether (no
   counter, no write): nothing bounds the staleness then either *)
Theorem C19_report_ignored_when_label_off : forall r n ev fail,
  fail <> 2 -> label_on (n_label n) = false -> rhandle r n ev fail = (r, n, 0).
Proof.
  intros r n ev fail F L. unfold rhandle. destruct (fail =? 2) eqn:E; [apply Z.eqb_eq in E; contradiction|].
  rewrite L. reflexivity.
Qed.
Print Assumptions C19_report_ignored_when_label_off.

(* the step whose counter r_times reaches a multiple of 6 is written whatever the
   threshold says.  r_times counts every report that reached the patch decision on
   an over-subscription node, INCLUDING those whose write then failed.  The theorem is
   about that one step; that a stale amount therefore survives at most 5 consecutive
   handled reports when no write fails is not stated as a theorem *)
Theorem C19_node_forced_resync : forall pods s,
  o_handled (snd (pstep pods s (PReport 0))) = true -> label_on (n_label (ps_n s)) = true ->
  (r_times (ps_r s) + 1) mod re_sync_period = 0 ->
  exists ev, o_ev (snd (pstep pods s (PReport 0))) = Some ev /\
             cur_of (ps_n (fst (pstep pods s (PReport 0)))) = ev.
Proof.
  intros pods s H L F. destruct (pstep_report_node pods s H L) as (ev & E & _ & _ & D). exists ev. split; auto.
  destruct D as [D|(_ & F' & _)]; [|contradiction]. rewrite D. apply write_ext_cur.
Qed.
Print Assumptions C19_node_forced_resync.

(* zero for switched-off types ON THE NODE after the next handled report (the
   threshold never keeps a positive amount against a zero event) *)
Theorem C19_node_zero_for_switched_off_types : forall pods Rmax Ac Am,
  0 <= Rmax <= 100 -> 0 <= Ac <= max_alloc -> 0 <= Am <= max_alloc ->
  (forall policy psel, 0 <= guaranteed_cpu_request policy (pods_at pods psel) <= max_amount) ->
  forall s, pinv Rmax Ac Am s ->
  o_handled (snd (pstep pods s (PReport 0))) = true -> label_on (n_label (ps_n s)) = true ->
  let ty := effective_types (c_types (ps_c s)) (n_annot (ps_n s)) in
  let n' := ps_n (fst (pstep pods s (PReport 0))) in
  (has_type 1 ty = false -> fst (cur_of n') = 0) /\ (has_type 2 ty = false -> snd (cur_of n') = 0).
Proof.
  intros pods Rmax Ac Am HR HAc HAm Hpods s Hinv H L ty n'.
  destruct (pstep_report_close pods Rmax Ac Am HR HAc HAm Hpods s Hinv H L) as (ev & E & _ & _ & D).
  assert (Z : (has_type 1 ty = false -> fst ev = 0) /\ (has_type 2 ty = false -> snd ev = 0)).
  { rewrite pstep_report_ev in E.
    destruct (cstep (ps_ratio s) pods (ps_c s) _) as [c1 o1] eqn:CS. cbn [snd] in E.
    destruct o1 as [f q|o|e]; try discriminate. subst o. exact (report_step_masked _ _ _ _ _ _ _ _ _ _ CS). }
  destruct Hinv as (_ & _ & _ & _ & Hn). destruct (node_bounded_cur Rmax Ac Am HR HAc HAm _ Hn) as [[R1 _] [R2 _]].
  (* a zero event is either written, or kept away by the threshold only from an amount that is zero already *)
  split; intros T; [destruct Z as [Z _] | destruct Z as [_ Z]]; specialize (Z T); subst n';
    (destruct D as [D | (D & _ & K1 & K2 & _)]; rewrite D; [exact Z|]).
  - rewrite Z in K1. now apply close1_zero_event.
  - rewrite Z in K2. now apply close1_zero_event.
Qed.
Print Assumptions C19_node_zero_for_switched_off_types.

(* the threshold on integers: not exceeding means within 10%, which bounds the
   node by 10/9 of the event from above and 10/11 from below *)
Theorem C19_threshold_within_ten_percent : forall c e,
  0 <= c <= max_amount -> 0 <= e <= max_amount -> exceeds c e = false ->
  close1 c e = true /\ 9 * c <= 10 * e /\ 10 * e <= 11 * c.
Proof.
  exact (fun c e Hc He H => conj (exceeds_false_close c e Hc He H)
           (close1_bound c e (proj1 Hc) (exceeds_false_close c e Hc He H))).
Qed.
Print Assumptions C19_threshold_within_ten_percent.

(* steps that do not report leave the reported amounts alone; a report that
   the (inactive) handler does not get changes nothing at all *)
Theorem C19_node_untouched_by_other_steps : forall pods s o,
  match o with
  | PReport _ | PReporterCfg _ _ _ => True
  | _ => n_xcpu (ps_n (fst (pstep pods s o))) = n_xcpu (ps_n s) /\
         n_xmem (ps_n (fst (pstep pods s o))) = n_xmem (ps_n s)
  end.
Proof.
  intros pods s o.
  destruct o; cbn [pstep]; auto; try (split; reflexivity); destruct (cstep _ _ _ _) as [c' out]; split; reflexivity.
Qed.
Print Assumptions C19_node_untouched_by_other_steps.

Theorem C19_unhandled_report_changes_nothing : forall pods s fail,
  o_handled (snd (pstep pods s (PReport fail))) = false -> fst (pstep pods s (PReport fail)) = s.
Proof.
  intros pods s fail.
  cbn [pstep].
  destruct (snd (cstep _ _ _ _)) as [f q|[ev|]|e]; simpl; auto.
  destruct (r_active (ps_r s)); simpl; auto.
  destruct (rhandle (ps_r s) (ps_n s) ev fail) as [[r' n'] err]. simpl. discriminate.
Qed.
Print Assumptions C19_unhandled_report_changes_nothing.

(* the negative side (audit W2): while the handler is inactive NO sequence of
   sampling / report / type-configuration / allocatable / annotation steps changes
   what the node shows; a stale amount, also of a switched-off type, stays indefinitely *)
Theorem C19_node_stale_while_handler_inactive : forall pods ops s,
  Forall (fun o => match o with
                   | PSample _ _ _ _ _ _ | PReport _ | PTypes _ _ | PSetAlloc _ _ | PSetAnnot _ => True
                   | _ => False end) ops ->
  r_active (ps_r s) = false ->
  n_xcpu (ps_n (fst (prun pods s ops))) = n_xcpu (ps_n s) /\
  n_xmem (ps_n (fst (prun pods s ops))) = n_xmem (ps_n s).
Proof.
  intros pods.
  induction ops as [|o ops IH]; intros s Q A; cbn [prun]. { split; reflexivity. }
  inversion Q as [|? ? Qo Qr]; subst.
  destruct (pstep_quiet_inactive pods s o Qo A) as [[E1 E2] A'].
  destruct (pstep pods s o) as [s1 out]. cbn [fst] in *.
  specialize (IH s1 Qr A'). destruct (prun pods s1 ops) as [s2 outs]. cbn [fst] in *.
  destruct IH as [I1 I2]. split; congruence.
Qed.
Print Assumptions C19_node_stale_while_handler_inactive.

(* over-subscription switched off in the configuration (Cleanup succeeded):
   nothing is reported any more, the node is no over-subscription node, the
   handler is inactive *)
Theorem C19_node_after_switch_off : forall r n node_enable fail r' n',
  rrefresh r n false node_enable fail = (r', n', false) ->
  cur_of n' = (0, 0) /\ label_on (n_label n') = false /\ r_active r' = false /\ r_enabled r' = false.
Proof.
  intros r n node_enable fail r' n'.
  unfold rrefresh. simpl negb. cbv iota.
  pose proof (cleanup_node_spec n fail) as H. destruct (cleanup_node n fail) as [n1 err].
  intros E. injection E as <- <- ->. destruct H as (_ & H & _). destruct (H eq_refl).
  simpl. rewrite andb_false_r. auto.
Qed.
Print Assumptions C19_node_after_switch_off.

Theorem C19_node_after_node_label_switch_off : forall r n fail r' n',
  r_enabled r = true -> rrefresh r n true false fail = (r', n', false) ->
  cur_of n' = (0, 0) /\ label_on (n_label n') = false /\ r_active r' = false.
Proof.
  intros r n fail r' n' En. unfold rrefresh. simpl negb. cbv iota. rewrite En. simpl andb. cbv iota.
  pose proof (cleanup_node_spec n fail) as H. destruct (cleanup_node n fail) as [n1 err].
  intros E. injection E as <- <- ->. destruct H as (_ & H & _). destruct (H eq_refl). auto.
Qed.
Print Assumptions C19_node_after_node_label_switch_off.

(* the literal statement "never more than ratio% of allocatable / than the
   largest recent sample" is REFUTED for the node object by the update
   threshold: ratio 60 -> node 600; restart with ratio 57 -> computed 570, the
   node keeps 600.  Reproduced on the real code (corpus/C19/reporter.jsonl),
   known finding C19-update-threshold-keeps-stale-larger-amount. *)
Theorem C19_node_strict_refuted :
  exists ops n0, let '(s, outs) := prun [] (pinit 60 n0) ops in
    n_acpu (ps_n s) = 1000 /\ ps_ratio s = 57 /\ c_queue (ps_c s) = [(570, 570)] /\
    n_xcpu (ps_n s) = Some 600 /\
    law_node_strict (ps_ratio s) 1000 1000 (c_queue (ps_c s)) (n_xcpu (ps_n s)) (n_xmem (ps_n s)) = false.
Proof.
  exists stale_history, (mkNode 1 1000 1000 None None None). vm_compute. repeat split; reflexivity.
Qed.
Print Assumptions C19_node_strict_refuted.

(* ---- Prop-level meaning of the laws on the node object ---- *)
Theorem C19_law_node_bounds_sound : forall rmax amaxc amaxm k xc xm,
  0 <= rmax <= 100 -> 0 <= amaxc <= rep_max -> 0 <= amaxm <= rep_max ->
  law_node_bounds rmax amaxc amaxm k xc xm = true ->
  k = true /\
  match xc with None => True | Some x => 0 <= x /\ x * 100 <= amaxc * rmax end /\
  match xm with None => True | Some x => 0 <= x /\ x * 100 <= amaxm * rmax end.
Proof.
  intros rmax amaxc amaxm k xc xm Hr Hc Hm. unfold law_node_bounds.
  rewrite (proj2 (zin_iff _ _ _) Hr), (proj2 (zin_iff _ _ _) Hc), (proj2 (zin_iff _ _ _) Hm). cbn [andb].
  intros H. apply andb_true_iff in H as [K H]. apply andb_true_iff in H as [H1 H2].
  split; auto. unfold law_node_bound1 in *.
  split; [destruct xc|destruct xm]; auto;
    [apply andb_true_iff in H1 as [A B]|apply andb_true_iff in H2 as [A B]]; apply Z.leb_le in A, B; auto.
Qed.
Print Assumptions C19_law_node_bounds_sound.

Theorem C19_law_report_step_sound : forall forced bc bm ac am ev,
  0 <= oz bc <= rep_max -> 0 <= oz bm <= rep_max -> 0 <= fst ev <= rep_max -> 0 <= snd ev <= rep_max ->
  law_report_step forced bc bm ac am ev = true ->
  (oz ac = fst ev /\ oz am = snd ev) \/
  (ac = bc /\ am = bm /\ forced = false /\ close1 (oz bc) (fst ev) = true /\ close1 (oz bm) (snd ev) = true).
Proof.
  intros forced bc bm ac am ev R1 R2 R3 R4. unfold law_report_step.
  rewrite (proj2 (zin_iff _ _ _) R1), (proj2 (zin_iff _ _ _) R2), (proj2 (zin_iff _ _ _) R3), (proj2 (zin_iff _ _ _) R4).
  cbn [andb]. intros H. apply orb_true_iff in H as [H|H].
  - left. apply andb_true_iff in H as [H _]. apply andb_true_iff in H as [A B]. apply Z.eqb_eq in A, B. auto.
  - right. repeat (apply andb_true_iff in H as [H ?]).
    apply optz_eqb_eq in H. repeat split; auto. now apply optz_eqb_eq. now apply negb_true_iff.
Qed.
Print Assumptions C19_law_report_step_sound.

Theorem C19_law_switched_off_sound : forall cfg annot ac am,
  law_switched_off cfg annot ac am = true ->
  (has_type 1 (effective_types cfg annot) = false -> oz ac = 0) /\
  (has_type 2 (effective_types cfg annot) = false -> oz am = 0).
Proof.
  intros cfg annot ac am.
  unfold law_switched_off. intros H. apply andb_true_iff in H as [H1 H2].
  split; intros T; rewrite T in *; simpl in *; apply Z.eqb_eq; assumption.
Qed.
Print Assumptions C19_law_switched_off_sound.

Theorem C19_law_cleanup_node_sound : forall al ac am,
  law_cleanup_node al ac am = true -> label_on al = false /\ oz ac = 0 /\ oz am = 0.
Proof.
  intros al ac am.
  unfold law_cleanup_node. intros H. apply andb_true_iff in H as [H C]. apply andb_true_iff in H as [A B].
  apply negb_true_iff in A. apply Z.eqb_eq in B, C. auto.
Qed.
Print Assumptions C19_law_cleanup_node_sound.

(* ---- non-vacuity ---- *)
Definition ex_pods : list pod :=
  [ mkPod 1 4 0 None 1 500 1000 500 0 false;            (* offline *)
    mkPod 2 4 0 (Some 2000000000) 1 900 100 0 0 false;  (* offline but critical *)
    mkPod 3 0 0 None 2 2000 4096 0 0 false;             (* online, guaranteed *)
    mkPod 4 4 0 None 0 700 3000 0 0 true;               (* offline, eviction always refused *)
    mkPod 5 4 0 None 1 700 2000 0 0 false ].            (* offline *)

(* a history inside the stated range: hypotheses of C19_history_reports_bounded
   hold and a non-zero report comes out; usage above total gives a zero sample *)
Example C19_nonvacuous_history :
  let ops := [ORefresh 3 [1; 2]; OSample false 1 8000 16384 false 2 1000 4096 0;
              OSample false 1 8000 16384 false 2 9000 20000 0; OSample false 1 8000 16384 false 1 3000 0 1;
              OReport false 1 None 8000 16384; OReport false 1 (Some [1]) 8000 16384;
              OReport false 1 None 3000 16384] in   (* allocatable shrunk: capped at 60% of 3000 *)
  Forall (op_ok 8000 16384) ops /\
  (forall policy psel, 0 <= guaranteed_cpu_request policy (pods_at [ex_pods; []] psel) <= max_amount) /\
  snd (crun 60 [ex_pods; []] cinit ops) =
    [RefreshOut false; SampleOut 0 [(3000, 7372)]; SampleOut 0 [(3000, 7372); (0, 0)];
     SampleOut 1 [(3000, 7372); (0, 0); (3000, 9830)];
     ReportOut (Some (2142, 6670)); ReportOut (Some (2142, 0)); ReportOut (Some (1800, 6670))].
Proof.
  split; [|split].
  - repeat (apply Forall_cons; [cbn; unfold max_amount; try lia; auto|]); apply Forall_nil.
  - intros policy psel. apply guaranteed_request_range.
    + unfold pods_at. destruct (Z.to_nat psel) as [|[|[|k]]]; cbn;
        repeat (apply Forall_cons; [cbn; unfold max_alloc; lia|]); apply Forall_nil.
    + unfold pods_at. destruct (Z.to_nat psel) as [|[|[|k]]]; cbn; lia.
  - vm_compute. reflexivity.
Qed.

(* a pressure event where the largest eligible pod cannot be evicted, the
   critical pod is skipped without a client call and the next one succeeds *)
Example C19_nonvacuous_eviction :
  NoDup (map p_id ex_pods) /\
  processed (mkEv 1 false false false) = true /\
  handle (ex_pods, [false; true]) (mkEv 1 false false false) =
    ((filter (fun p => negb (p_id p =? 1)) ex_pods, []), mkH 0 4 [(4, false); (5, false); (1, true)]) /\
  exists calls s, cleanup (-1) (ex_pods, []) = ClDone 0 3 calls s /\ map p_id (fst s) = [2; 3; 4].
Proof.
  split; [|split; [|split]].
  - cbn. repeat constructor; cbn; intuition congruence.
  - reflexivity.
  - vm_compute. reflexivity.
  - eexists _, _. vm_compute. split; reflexivity.
Qed.

(* the pipeline invariant is satisfiable and a handled report both writes and
   skips: 600 written, then 570 computed and skipped, a switched-off type is
   zeroed at once, switching off removes the amounts *)
Example C19_nonvacuous_pipeline :
  let n0 := mkNode 1 1000 1000 None None None in
  pinv 60 1000 1000 (pinit 60 n0) /\
  map (fun on : pout * node => (o_handled (fst on), n_xcpu (snd on), n_xmem (snd on)))
      (snd (prun [] (pinit 60 n0)
             [PTypes 3 [1; 2]; PReporterCfg true true 0; PSample false false 1 0 0 0; PReport 0;
              PSample false false 1 50 50 0; PReport 0; PTypes 3 [1]; PReport 0;
              PSetAlloc 500 500; PReport 0;     (* allocatable shrunk: the event is capped at 60% of 500 *)
              PReporterCfg false true 0])) =
    [(false, None, None); (false, None, None); (false, None, None); (true, Some 600, Some 600);
     (false, Some 600, Some 600); (true, Some 600, Some 600); (false, Some 600, Some 600);
     (true, Some 580, Some 0); (false, Some 580, Some 0); (true, Some 300, Some 0); (false, None, None)].
Proof.
  split.
  - apply pinv_init; cbn; try lia. unfold node_bounded; cbn; auto.
  - vm_compute. reflexivity.
Qed.
