(* Property C15 — a pod's scheduling request equals Kubernetes' effective pod
   request.  The property theorems, each followed by Print Assumptions (the closing Example is
   not).  A proof stands here when nothing else needs the fact; otherwise the theorem is [exact]
   of a lemma of C15/Lemmas.v.

   vc_pod_request   : model of volcano GetPodResourceRequest (= api.NewTaskInfo's Resreq / InitResreq;
                      the scheduler cache's TaskInfo adds CSI volume counts: the cache_task definitions)
   k8s_pod_requests : model of k8s.io/component-helpers/resource.PodRequests with the
                      options kube-scheduler derives from the feature gates (opts_of)
   new_resource     : volcano's NewResource unit rule, add_scalar _ pods 1 : AddScalar("pods", 1) *)
From V Require Import Base.ResLemmas.
From stdpp Require Import gmap.
From Coq Require Import ZArith Lia.
From V Require Import Base.Res C15.Model C15.Laws C15.Lemmas.
Open Scope Z_scope.

(* MAIN: for every classification of resource names, every setting of the four
   gates and EVERY pod (any containers, any init containers / sidecars in any
   order, any container and pod-level statuses, overhead, pod-level requests,
   resize conditions, DRA claim statuses) whose amounts are on the conversion grid: volcano's vector is upstream's request
   converted by NewResource, plus pods = 1 — as an equality of Resource values
   (cpu, memory, the scalar map with exactly the same names). *)
Theorem C15_volcano_eq_upstream : forall tracked plsup ippvs plr ippl dra p,
  pod_ok tracked plsup p ->
  vc_pod_request tracked plsup ippvs plr ippl dra p =
  add_scalar (new_resource tracked (k8s_pod_requests plsup (opts_of ippvs plr ippl dra) p)) pods_name 1.
Proof. exact volcano_eq_upstream. Qed.
Print Assumptions C15_volcano_eq_upstream.

Theorem C15_volcano_eq_upstream_amounts : forall tracked plsup ippvs plr ippl dra p,
  pod_ok tracked plsup p ->
  let vc := vc_pod_request tracked plsup ippvs plr ippl dra p in
  let up := new_resource tracked (k8s_pod_requests plsup (opts_of ippvs plr ippl dra) p) in
  cpu vc = cpu up /\ mem vc = mem up /\
  sget vc pods_name = sget up pods_name + 1 /\
  (forall k, k <> pods_name -> scm vc !! k = scm up !! k).
Proof. exact volcano_eq_upstream_amounts. Qed.
Print Assumptions C15_volcano_eq_upstream_amounts.

(* api.NewTaskInfo: TaskInfo.Resreq, TaskInfo.InitResreq and BestEffort are all
   derived from the one value GetPodResourceRequest returns.  NOTE: the
   lifecycle position m (phase, nodeName, deletionTimestamp) does not occur in
   the definitions of task_resreq / task_init_resreq / task_best_effort, so the
   quantifier over m carries no proof content: that the CODE ignores m for these
   fields is established by reading job_info.go 207-232 and by the correspondence
   observables (tags 5-10) over pods in every phase, not by this theorem. *)
Theorem C15_task_reservation_eq_upstream : forall tracked plsup ippvs plr ippl dra m p,
  pod_ok tracked plsup p ->
  let up1 := add_scalar (new_resource tracked (k8s_pod_requests plsup (opts_of ippvs plr ippl dra) p)) pods_name 1 in
  task_resreq tracked plsup ippvs plr ippl dra m p = up1 /\
  task_init_resreq tracked plsup ippvs plr ippl dra m p = up1 /\
  task_best_effort tracked plsup ippvs plr ippl dra m p = is_empty 1 up1.
Proof. exact task_reservation_eq_upstream. Qed.
Print Assumptions C15_task_reservation_eq_upstream.

(* the executable law evaluated on the Go results is this relation, and it
   accepts the models' own outputs *)
Theorem C15_law_is_the_relation : forall up vc,
  law_same_request up vc = true <-> vc = add_scalar up pods_name 1.
Proof.
  intros up vc.
  split; [|intros ->; apply law_same_request_refl].
  unfold law_same_request, add_scalar. rewrite !andb_true_iff, !bool_decide_eq_true.
  intros [[Hc Hm] Hs]. apply res_eq; assumption.
Qed.
Print Assumptions C15_law_is_the_relation.

Theorem C15_law_reservation_is_the_relation : forall up vc rq irq be,
  law_task_reservation up vc rq irq be = true <->
  vc = add_scalar up pods_name 1 /\ rq = add_scalar up pods_name 1 /\ irq = add_scalar up pods_name 1 /\
  be = is_empty 1 (add_scalar up pods_name 1).
Proof.
  intros up vc rq irq be.
  unfold law_task_reservation, law_task_request.
  rewrite !andb_true_iff, eqb_true_iff, !C15_law_is_the_relation. tauto.
Qed.
Print Assumptions C15_law_reservation_is_the_relation.

(* WHAT THE SCHEDULER CACHE CHARGES (SchedulerCache.NewTaskInfo, the TaskInfo that
   addPod hands to NodeInfo.AddTask / JobInfo.AddTaskInfo): api.NewTaskInfo's
   vector with the pod's CSI volumes counted on their attach-limit names; Resreq
   and InitResreq are one object.  For every list [keys] of names the volume
   lookups resolve to: the charged vector is upstream's request + pods with
   [keys] counted on top -- so it EXCEEDS upstream's PodRequests on exactly the
   attach-limit names (kube-scheduler accounts volume limits in a separate
   plugin, not in the pod request).  As in C15_task_reservation_eq_upstream the
   argument m is unused by the definitions (phantom quantifier). *)
Theorem C15_cache_reservation_eq_upstream : forall tracked plsup ippvs plr ippl dra keys m p,
  pod_ok tracked plsup p ->
  let up1 := add_scalar (new_resource tracked (k8s_pod_requests plsup (opts_of ippvs plr ippl dra) p)) pods_name 1 in
  cache_task_resreq tracked plsup ippvs plr ippl dra keys m p = cache_add_csi up1 keys /\
  cache_task_init_resreq tracked plsup ippvs plr ippl dra keys m p = cache_add_csi up1 keys /\
  cache_task_best_effort tracked plsup ippvs plr ippl dra keys m p = is_empty 1 (cache_add_csi up1 keys).
Proof. exact cache_reservation_eq_upstream. Qed.
Print Assumptions C15_cache_reservation_eq_upstream.

(* what "counted on top" means, without the modelled function: cpu and memory
   untouched, every name gains its number of occurrences in [keys], names that
   do not occur keep their entry or absence *)
Theorem C15_cache_add_csi_spec : forall r keys,
  cpu (cache_add_csi r keys) = cpu r /\ mem (cache_add_csi r keys) = mem r /\
  (forall k, sget (cache_add_csi r keys) k = sget r k + Z.of_nat (count_occ Pos.eq_dec keys k)) /\
  (forall k, k ∉ keys -> scm (cache_add_csi r keys) !! k = scm r !! k).
Proof.
  intros r keys.
  unfold cache_add_csi. split; [rewrite add_cpu; simpl; lia|]. split; [rewrite add_mem; simpl; lia|]. split.
  - intros k. rewrite add_sget. f_equal. unfold sget, csi_counts. rewrite scm_some.
    rewrite csi_fold_lookup, lookup_empty. simpl. lia.
  - intros k Hk. rewrite add_lookup, scm_some. unfold csi_counts.
    rewrite csi_fold_notin, lookup_empty by assumption. destruct (scm r !! k); reflexivity.
Qed.
Print Assumptions C15_cache_add_csi_spec.

Theorem C15_law_cache_reservation_is_the_relation : forall up crq cirq be keys,
  law_cache_reservation up crq cirq be keys = true <->
  crq = cache_add_csi (add_scalar up pods_name 1) keys /\
  cirq = cache_add_csi (add_scalar up pods_name 1) keys /\
  be = is_empty 1 (cache_add_csi (add_scalar up pods_name 1) keys).
Proof.
  intros up crq cirq be keys.
  unfold law_cache_reservation. cbv zeta.
  rewrite !andb_true_iff, !bool_decide_eq_true, eqb_true_iff. tauto.
Qed.
Print Assumptions C15_law_cache_reservation_is_the_relation.

(* IN KUBE-SCHEDULER'S UNITS, not through volcano's NewResource: kube_cpu is
   MilliValue() of the cpu entry, kube_value k is Value() of entry k (what
   framework.Resource.Add keeps).  Same cpu, same memory, one more pod; a tracked
   scalar / ephemeral-storage amount in whole units is kube's x 1000; a name
   NewResource does not track (count/..., IgnoredDevicesList, non-scalar names)
   is NOT reserved by volcano at all although upstream's list carries it. *)
Theorem C15_volcano_in_kube_units : forall tracked plsup ippvs plr ippl dra p,
  pod_ok tracked plsup p ->
  let vc := vc_pod_request tracked plsup ippvs plr ippl dra p in
  let L := k8s_pod_requests plsup (opts_of ippvs plr ippl dra) p in
  cpu vc = kube_cpu L /\ mem vc = kube_value L mem_name /\
  sget vc pods_name = kube_value L pods_name + 1 /\
  (forall k, k <> cpu_name -> k <> mem_name -> k <> pods_name ->
     bool_decide (k = eph_name) || tracked k = true ->
     whole_units (default 0 (L !! k)) -> sget vc k = 1000 * kube_value L k) /\
  (forall k, k <> cpu_name -> k <> mem_name -> k <> pods_name -> k <> eph_name -> tracked k = false ->
     scm vc !! k = None).
Proof.
  intros tracked plsup ippvs plr ippl dra p Hok vc L.
  destruct (volcano_eq_upstream_amounts tracked plsup ippvs plr ippl dra p Hok) as (Hc & Hm & Hp & Hk).
  fold vc L in Hc, Hm, Hp, Hk.
  destruct (new_resource_kube_units tracked L) as (Kc & Km & Kp & Kt & Ku).
  split; [congruence|]. split; [congruence|]. split; [congruence|]. split.
  - intros k H1 H2 H3 H4 H5. unfold sget. rewrite Hk by assumption. apply Kt; assumption.
  - intros k H1 H2 H3 H4 H5. rewrite Hk by assumption. apply Ku; assumption.
Qed.
Print Assumptions C15_volcano_in_kube_units.

Theorem C15_law_kube_units_is_the_relation : forall kcpu kmem ksc vc rq,
  law_kube_units kcpu kmem ksc vc rq = true <->
  cpu vc = kcpu /\ mem vc = kmem /\ cpu rq = kcpu /\ mem rq = kmem /\
  Forall (fun kv => sget vc kv.1 = 1000 * kv.2 /\ sget rq kv.1 = 1000 * kv.2) ksc.
Proof.
  intros kcpu kmem ksc vc rq.
  unfold law_kube_units. rewrite !andb_true_iff, !bool_decide_eq_true, forallb_forall, Forall_forall.
  assert ((forall x, In x ksc ->
             bool_decide (sget vc x.1 = 1000 * x.2) && bool_decide (sget rq x.1 = 1000 * x.2) = true) <->
          (forall x, x ∈ ksc -> sget vc x.1 = 1000 * x.2 /\ sget rq x.1 = 1000 * x.2)) as E.
  { split; intros Hall x Hx.
    - apply elem_of_list_In, Hall, andb_true_iff in Hx as [Ha Hb].
      apply bool_decide_eq_true in Ha, Hb. split; assumption.
    - apply elem_of_list_In, Hall in Hx as [Ha Hb]. apply andb_true_iff.
      split; apply bool_decide_eq_true; assumption. }
  rewrite E. tauto.
Qed.
Print Assumptions C15_law_kube_units_is_the_relation.

Theorem C15_law_not_less_is_the_relation : forall up vc,
  law_not_less up vc = true <->
  cpu up <= cpu vc /\ mem up <= mem vc /\
  forall k v, scm up !! k = Some v -> v + (if bool_decide (k = pods_name) then 1 else 0) <= sget vc k.
Proof.
  intros up vc.
  unfold law_not_less. rewrite !andb_true_iff, !bool_decide_eq_true, map_allb_spec.
  split.
  - intros [[Hc Hm] Hs]. split; [exact Hc|]. split; [exact Hm|]. intros k v E. apply Hs in E.
    apply bool_decide_eq_true in E. exact E.
  - intros (Hc & Hm & Hs). split; [split; assumption|]. intros k v E.
    apply bool_decide_eq_true. apply Hs, E.
Qed.
Print Assumptions C15_law_not_less_is_the_relation.

(* the lookup-error outcome of SchedulerCache.NewTaskInfo (a PVC not yet in the
   informer, an ephemeral volume's claim not owned by the pod): nothing is counted,
   the task that addPod still adds on a pending-PVC error carries upstream's request + pods *)
Theorem C15_cache_error_outcome_eq_upstream : forall tracked plsup ippvs plr ippl dra m p,
  pod_ok tracked plsup p ->
  let up1 := add_scalar (new_resource tracked (k8s_pod_requests plsup (opts_of ippvs plr ippl dra) p)) pods_name 1 in
  cache_task_resreq_o tracked plsup ippvs plr ippl dra None m p = up1 /\
  cache_task_best_effort_o tracked plsup ippvs plr ippl dra None m p = is_empty 1 up1.
Proof.
  intros tracked plsup ippvs plr ippl dra m p Hok up1. simpl.
  destruct (task_reservation_eq_upstream tracked plsup ippvs plr ippl dra m p Hok) as (H1 & _ & H3).
  split; assumption.
Qed.
Print Assumptions C15_cache_error_outcome_eq_upstream.

(* EVENT LEVEL.  A pod delivered through the cache's handlers as AddPod(v0),
   UpdatePod(v0,v1), ... - status-only, spec-only or mixed changes.  The model
   (ev_hist) has the structure of updatePod: an early-return branch that KEEPS the
   stored task and Used (taken by the code when the new object has no nodeName
   while the stored task is allocated: code_keeps), otherwise RemoveTask of the
   STORED request followed by addPod of a TaskInfo computed from the new object.
   INDEPENDENT SPECIFICATION: the state after event i is a function of version i
   alone - the cached task is upstream's request of version i (+ pods + volumes)
   and the node's Used carries the same amounts - for every history of bound
   pod_ok versions; by induction over the history with the invariant "Used has the
   amounts of the stored task".  That the REAL updatePod takes no other early
   return is not proved: it is what correspondence selector 3 + law 107 check. *)
Theorem C15_event_history_spec : forall tracked plsup ippvs plr ippl dra (vs : list (list positive * pod_meta * pod)),
  Forall (fun x => pod_ok tracked plsup x.2) vs ->
  Forall (fun x => m_node x.1.2 = true) vs ->
  Forall2 (fun st x =>
             let want := cache_add_csi
               (add_scalar (new_resource tracked (k8s_pod_requests plsup (opts_of ippvs plr ippl dra) x.2)) pods_name 1) x.1.1 in
             st_task st = want /\ same_amounts (st_used st) want)
          (ev_hist code_keeps (fun x => cache_task_resreq tracked plsup ippvs plr ippl dra x.1.1 x.1.2 x.2) vs) vs.
Proof.
  intros tracked plsup ippvs plr ippl dra vs Hok Hb.
  (* no version takes the early return: the history is the plain AddPod / UpdatePod trace *)
  rewrite ev_hist_no_keep
    by (intros a b Hin; unfold code_keeps; rewrite Forall_forall in Hb; now rewrite (Hb b Hin)).
  set (g := fun x : list positive * pod_meta * pod => cache_add_csi
               (add_scalar (new_resource tracked (k8s_pod_requests plsup (opts_of ippvs plr ippl dra) x.2)) pods_name 1) x.1.1).
  rewrite (map_ext_Forall' _ g _ vs
             (fun x Hx => proj1 (cache_reservation_eq_upstream tracked plsup ippvs plr ippl dra x.1.1 x.1.2 x.2 Hx)) Hok).
  assert (Forall (fun r => scm r <> ∅) (map g vs)) as Hne
    by (apply Forall_fmap, Forall_forall; intros x _; apply want_nonempty).
  exact (proj1 (Forall2_fmap_r _ _ _ _) (ev_trace_spec (map g vs) Hne)).
Qed.
Print Assumptions C15_event_history_spec.

(* the specification is not satisfied by construction: the early-return variant
   of seed C15-r8-1 (keep the stored task when a Running pod's update leaves the
   spec unchanged), as a model, violates it on the admitted-resize history
   (cached task 1000m, 1000m; specification and the code's guard 1000m, 6000m) *)
Theorem C15_early_return_variant_refuted :
  Forall (fun x => pod_ok all_tracked huge_only x.2) resize_history /\
  Forall (fun x => m_node x.1.2 = true) resize_history /\
  map (fun st => cpu (st_task st))
      (ev_hist r81_keeps (fun x => cache_task_resreq all_tracked huge_only true true true false x.1.1 x.1.2 x.2) resize_history)
    = [1000; 1000] /\
  map (fun st => cpu (st_task st))
      (ev_hist code_keeps (fun x => cache_task_resreq all_tracked huge_only true true true false x.1.1 x.1.2 x.2) resize_history)
    = [1000; 6000] /\
  map (fun x => cpu (new_resource all_tracked (k8s_pod_requests huge_only (opts_of true true true false) x.2))) resize_history
    = [1000; 6000].
Proof.
  split; [|split; [|split; [|split]]].
  - apply Forall_cons; split; [apply (bool_decide_unpack _); vm_compute; exact I|].
    apply Forall_cons; split; [apply (bool_decide_unpack _); vm_compute; exact I|]. apply Forall_nil; exact I.
  - apply Forall_cons; split; [reflexivity|]. apply Forall_cons; split; [reflexivity|]. apply Forall_nil; exact I.
  - vm_compute. reflexivity.
  - vm_compute. reflexivity.
  - vm_compute. reflexivity.
Qed.
Print Assumptions C15_early_return_variant_refuted.

(* the invariant step lemmas behind it, for arbitrary request vectors *)
Theorem C15_ev_trace_spec : forall reqs,
  Forall (fun r => scm r <> ∅) reqs ->
  Forall2 (fun st r => st_task st = r /\ same_amounts (st_used st) r) (ev_trace reqs) reqs.
Proof. exact ev_trace_spec. Qed.
Print Assumptions C15_ev_trace_spec.

(* WHICH UPSTREAM COMPUTATION AT WHICH POINT.  A pod ON a node is counted by
   PodInfo.CalculateResource (opts_of, status-aware): the theorems above.  The pod
   BEING PLACED is computed by the fit plugin / kubelet admission with the status
   options off (opts_incoming; noderesources/fit.go 321-327).  volcano has ONE value
   for both.  It equals the incoming computation for every pod that carries no
   resize information (no container / init-container status, no status.resources:
   what a pod has before a kubelet started it) ... *)
Theorem C15_incoming_request_eq_upstream : forall tracked plsup ippvs plr ippl dra keys m p,
  pod_ok tracked plsup p -> no_resize_info p ->
  cache_task_init_resreq tracked plsup ippvs plr ippl dra keys m p =
  cache_add_csi (add_scalar (new_resource tracked (k8s_pod_requests plsup (opts_incoming plr dra) p)) pods_name 1) keys.
Proof. exact incoming_request_eq_upstream. Qed.
Print Assumptions C15_incoming_request_eq_upstream.

(* ... and it differs otherwise: spec cpu 1, status.resources cpu 2 (pod_ok):
   InitResreq 2000m, the incoming computation 1000m, the resident computation
   2000m.  For such a pod volcano can deny a node upstream would place it on
   ("never denied a node where it fits" fails); declared, not a finding: statuses
   exist only after a kubelet started the pod, when the resident computation applies. *)
Theorem C15_incoming_request_refuted :
  exists p, pod_ok all_tracked huge_only p /\
    cpu (cache_task_init_resreq all_tracked huge_only true true true false [] (mkMeta 1 false false) p) = 2000 /\
    cpu (new_resource all_tracked (k8s_pod_requests huge_only (opts_incoming true false) p)) = 1000 /\
    cpu (new_resource all_tracked (k8s_pod_requests huge_only (opts_of true true true false) p)) = 2000.
Proof.
  exists witness_incoming. split; [|repeat split; vm_compute; reflexivity].
  apply (bool_decide_unpack _). vm_compute. exact I.
Qed.
Print Assumptions C15_incoming_request_refuted.

(* COROLLARY BY CONGRUENCE ONLY (second sentence of the property): volcano's
   comparison "InitResreq of the new pod <= allocatable - sum of Resreq of the
   residents" answers the same on volcano's vectors and on upstream's (incoming
   computation for the new pod, resident computation for the residents).  It
   follows from the per-pod equalities by rewriting under the same fold; it says
   nothing about NodeInfo.AddTask's status-dependent ledgers, the predicates
   plugin or kubelet admission, none of which is modelled. *)
Theorem C15_node_fits_iff_incoming : forall tracked plsup ippvs plr ippl dra rs alloc eps d keys m p,
  Forall (fun x => pod_ok tracked plsup x.2) rs -> pod_ok tracked plsup p -> no_resize_info p ->
  less_equal eps (cache_task_init_resreq tracked plsup ippvs plr ippl dra keys m p)
    (sub alloc (node_used (map (fun x => cache_task_resreq tracked plsup ippvs plr ippl dra x.1.1 x.1.2 x.2) rs))) d =
  less_equal eps
    (cache_add_csi (add_scalar (new_resource tracked (k8s_pod_requests plsup (opts_incoming plr dra) p)) pods_name 1) keys)
    (sub alloc (node_used (map (fun x => cache_add_csi
                 (add_scalar (new_resource tracked (k8s_pod_requests plsup (opts_of ippvs plr ippl dra) x.2)) pods_name 1)
                 x.1.1) rs))) d.
Proof.
  intros tracked plsup ippvs plr ippl dra rs alloc eps d keys m p Hrs Hp Hn.
  rewrite (node_used_eq_upstream tracked plsup _ _ _ _ _ Hrs).
  rewrite (incoming_request_eq_upstream tracked plsup ippvs plr ippl dra keys m p Hp Hn). reflexivity.
Qed.
Print Assumptions C15_node_fits_iff_incoming.

(* the building blocks the induction rests on: NewResource commutes with the
   two operations of the upstream computation on on-grid lists *)
Theorem C15_new_resource_add : forall tracked a b, good a -> good b ->
  req (new_resource tracked (add_rl a b)) (add (new_resource tracked a) (new_resource tracked b)).
Proof. exact new_add. Qed.
Print Assumptions C15_new_resource_add.

Theorem C15_new_resource_max : forall tracked a b, good a -> good b ->
  req (new_resource tracked (max_rl a b)) (set_max (new_resource tracked a) (new_resource tracked b)).
Proof. exact new_max. Qed.
Print Assumptions C15_new_resource_max.

(* --- the two divergences found on the real code, repaired by fix: commits in
   /repo.  The unfixed code never read the two gates (= this model with ippl /
   dra false on volcano's side): 1000m against upstream's 2000m; after the fix 2000m --- *)

Theorem C15_pod_level_resize_refuted_before_fix :
  exists p, pod_ok all_tracked huge_only p /\
    cpu (vc_pod_request all_tracked huge_only true true false false p) = 1000 /\
    cpu (new_resource all_tracked (k8s_pod_requests huge_only (opts_of true true true false) p)) = 2000 /\
    cpu (vc_pod_request all_tracked huge_only true true true false p) = 2000.
Proof.
  exists witness_pod_level_resize. split; [|repeat split; vm_compute; reflexivity].
  apply (bool_decide_unpack _). vm_compute. exact I.
Qed.
Print Assumptions C15_pod_level_resize_refuted_before_fix.

Theorem C15_dra_claims_refuted_before_fix :
  exists p, pod_ok all_tracked huge_only p /\
    cpu (vc_pod_request all_tracked huge_only true true true false p) = 1000 /\
    cpu (new_resource all_tracked (k8s_pod_requests huge_only (opts_of true true true true) p)) = 2000 /\
    cpu (vc_pod_request all_tracked huge_only true true true true p) = 2000.
Proof.
  exists witness_dra_claims. split; [|repeat split; vm_compute; reflexivity].
  apply (bool_decide_unpack _). vm_compute. exact I.
Qed.
Print Assumptions C15_dra_claims_refuted_before_fix.

(* --- each hypothesis of pod_ok is necessary: the faithful models differ without it --- *)

(* amounts finer than milli-cpu (not API-admissible after defaulting; the admissible
   off-grid case is fractional memory, below): per-container rounding vs rounding of the sum *)
Theorem C15_off_grid_refuted :
  exists p,
    cpu (vc_pod_request all_tracked huge_only true true true false p) = 2 /\
    cpu (new_resource all_tracked (k8s_pod_requests huge_only (opts_of true true true false) p)) = 1.
Proof.
  exists witness_fine. repeat split; vm_compute; reflexivity.
Qed.
Print Assumptions C15_off_grid_refuted.

(* fractional bytes of memory (admitted by the API server): 2 x memory 500m *)
Theorem C15_fractional_memory_refuted :
  exists p, ~ pod_ok all_tracked huge_only p /\
    mem (vc_pod_request all_tracked huge_only true true true false p) = 2 /\
    mem (new_resource all_tracked (k8s_pod_requests huge_only (opts_of true true true false) p)) = 1.
Proof.
  exists witness_fractional_memory. split; [|split; vm_compute; reflexivity].
  intros H. apply (bool_decide_pack _) in H. vm_compute in H. exact H.
Qed.
Print Assumptions C15_fractional_memory_refuted.

(* inside pod_ok, but in kube's units: ephemeral-storage 1500m is 1500 for
   volcano and Value() = 2 for kube (the whole_units premise is necessary) *)
Theorem C15_kube_units_fractional_refuted :
  exists p, pod_ok all_tracked huge_only p /\
    sget (vc_pod_request all_tracked huge_only true true true false p) eph_name = 1500 /\
    kube_value (k8s_pod_requests huge_only (opts_of true true true false) p) eph_name = 2.
Proof.
  exists witness_fractional_eph. split; [|split; vm_compute; reflexivity].
  apply (bool_decide_unpack _). vm_compute. exact I.
Qed.
Print Assumptions C15_kube_units_fractional_refuted.

Theorem C15_status_name_collision_refuted :
  exists p,
    cpu (vc_pod_request all_tracked huge_only true true true false p) = 1000 /\
    cpu (new_resource all_tracked (k8s_pod_requests huge_only (opts_of true true true false) p)) = 5000.
Proof.
  exists witness_collision. repeat split; vm_compute; reflexivity.
Qed.
Print Assumptions C15_status_name_collision_refuted.

Theorem C15_untracked_pod_level_refuted :
  exists p,
    scm (vc_pod_request none_tracked huge_only true true true false p) !! 7%positive = Some 0 /\
    scm (new_resource none_tracked (k8s_pod_requests huge_only (opts_of true true true false) p)) !! 7%positive = None.
Proof.
  exists witness_untracked. repeat split; vm_compute; reflexivity.
Qed.
Print Assumptions C15_untracked_pod_level_refuted.

(* non-vacuity: a pod with sidecars between ordinary init containers, a resize
   status, pod-level requests with a pending pod-level resize, a DRA claim and
   overhead meets the hypothesis, under all four gates on; both sides evaluate
   to cpu 4100m, memory 208 *)
Example C15_nonvacuous :
  pod_ok all_tracked huge_only example_pod /\
  cpu (vc_pod_request all_tracked huge_only true true true true example_pod) = 4100 /\
  mem (vc_pod_request all_tracked huge_only true true true true example_pod) = 208.
Proof.
  split; [exact example_pod_ok|]. split; vm_compute; reflexivity.
Qed.
