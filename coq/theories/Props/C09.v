(* Property C09 — job admission accepts only well-formed jobs and defaults them
   consistently.  The property theorems, each followed by Print Assumptions.  A proof
   stands here when nothing else needs the fact; otherwise the theorem is [exact] of a
   lemma of C09/TopoLemmas.v, C09/Lemmas.v, C09/Lemmas2.v or C09/LawLemmas.v.  The Kubernetes
   validators are the fields of the universally quantified [oracles] record. *)
From Coq Require Import Bool Lia ZArith List Relations Permutation.
From V Require Import C09.Model C09.Laws C09.TopoLemmas C09.Lemmas C09.Lemmas2 C09.LawLemmas.
Import ListNotations.
Open Scope Z_scope.

(* CREATE: for every oracle answer, queue table and job object, Allowed implies
   every clause of the property (create_spec lists them) *)
Theorem C09_admit_create_sound : forall O qs j,
  validate_create O qs j = true -> create_spec O qs j.
Proof. exact admit_create_sound. Qed.
Print Assumptions C09_admit_create_sound.

(* topoSort (Kahn with in-degree counting): an accepted graph has an order that
   lists every task once, after all of its dependencies, which are tasks *)
Theorem C09_toposort_sound : forall g order, topo g = TopoOk order -> topo_order g order.
Proof. exact toposort_sound. Qed.
Print Assumptions C09_toposort_sound.

(* ... and for EVERY iteration order of Go's maps (initial stack order, which stack
   element is taken, order in which successors are visited): a run that outputs as
   many tasks as the job has outputs a topological order, so no order lets a cyclic
   or dangling graph through; the model's deterministic run is one such run *)
Theorem C09_toposort_sound_any_order : forall g st0 final,
  Permutation st0 (filter (fun n => deg0 g n =? 0) (dedup (gnames g) [])) ->
  krun g st0 (deg0 g) [] final -> length final = length g ->
  topo_order g (rev final).
Proof. exact toposort_sound_any_order. Qed.
Print Assumptions C09_toposort_sound_any_order.

Theorem C09_toposort_any_order_rejects : forall g st0 final,
  Permutation st0 (filter (fun n => deg0 g n =? 0) (dedup (gnames g) [])) ->
  krun g st0 (deg0 g) [] final -> length final = length g ->
  (forall n ds d, In (n, ds) g -> In d ds -> In d (gnames g)) /\
  (forall x, ~ clos_trans Z (edge g) x x).
Proof.
  intros. eapply topo_order_closed_acyclic. eapply toposort_sound_any_order; eauto.
Qed.
Print Assumptions C09_toposort_any_order_rejects.

Theorem C09_kahn_is_krun : forall g fuel st deg rs final,
  kahn fuel g st deg rs = Some final -> krun g st deg rs final.
Proof. exact kahn_is_krun. Qed.
Print Assumptions C09_kahn_is_krun.

Theorem C09_toposort_fuel_sufficient : forall g, topo g <> TopoFuel.
Proof.
  intros g. unfold topo.
  destruct (kahn _ g _ _ []) as [rs|] eqn:K.
  - destruct (Nat.eqb _ _); discriminate.
  - exfalso. revert K. apply kahn_fuel; [apply Inv_init|simpl; lia].
Qed.
Print Assumptions C09_toposort_fuel_sufficient.

Theorem C09_toposort_rejects_cycle : forall g x, clos_trans Z (edge g) x x -> is_dag g = false.
Proof. exact toposort_rejects_cycle. Qed.
Print Assumptions C09_toposort_rejects_cycle.

Theorem C09_toposort_rejects_dangling : forall g n ds d,
  In (n, ds) g -> In d ds -> ~ In d (gnames g) -> is_dag g = false.
Proof. exact toposort_rejects_dangling. Qed.
Print Assumptions C09_toposort_rejects_dangling.

(* defaulting *)
Theorem C09_default_idempotent : forall d j, mutate d (mutate d j) = mutate d j.
Proof. exact default_idempotent. Qed.
Print Assumptions C09_default_idempotent.

(* hypotheses on the REQUEST only: it is valid once names and queue are filled in,
   and its own numbers are in range (replicas >= 0, explicit minAvailable >= 0, a
   partition-derived minAvailable fits: 0 <= minPartitions*partitionSize <= replicas,
   total replicas is an int32) *)
Theorem C09_default_preserves_validity : forall O qs d j,
  validate_create O qs (prefill j) = true -> request_in_range j = true ->
  validate_create O qs (mutate d j) = true.
Proof.
  intros O qs d j V R. apply default_preserves_validity; auto. eapply request_range_defaults; eauto.
Qed.
Print Assumptions C09_default_preserves_validity.

(* the same with the range condition stated on the defaulted object (its hypothesis contains
   part of the conclusion); the theorem above follows from it *)
Theorem C09_default_preserves_validity_defaulted_range : forall O qs d j,
  validate_create O qs (prefill j) = true ->
  defaults_in_range (mutate d j) = true ->
  validate_create O qs (mutate d j) = true.
Proof. exact default_preserves_validity. Qed.
Print Assumptions C09_default_preserves_validity_defaulted_range.

(* ... and the range condition cannot be dropped (minPartitions > totalPartitions) *)
Theorem C09_default_validity_needs_range_refuted :
  exists O qs d j, validate_create O qs (prefill j) = true /\ validate_create O qs (mutate d j) = false.
Proof.
  exists (mkOracles (fun _ _ => true) (fun _ _ _ => true) (fun _ => true) (fun _ => true)).
  exists [mkQueue 2 1 1 false]. exists 1.
  exists (mkJob 7 [mkTask 4 4 None (mkTmpl 1 false 0) [] 0 None (Some (mkPart 2 2 3 0))]
                0 [] [] None 0 0 0 0 0 0 false).
  vm_compute. split; reflexivity.
Qed.
Print Assumptions C09_default_validity_needs_range_refuted.

(* UPDATE *)
Theorem C09_update_only_allowed_fields : forall old new,
  validate_update old new = true -> update_spec old new.
Proof. exact update_only_allowed_fields. Qed.
Print Assumptions C09_update_only_allowed_fields.

Theorem C09_update_preserves_inv : forall O old new,
  j_name new = j_name old -> job_inv O old -> validate_update old new = true -> job_inv O new.
Proof. exact update_preserves_inv. Qed.
Print Assumptions C09_update_preserves_inv.

(* every history of update requests against an admitted job *)
Theorem C09_admitted_job_stays_well_formed : forall O qs j us,
  validate_create O qs j = true -> Forall (fun u => j_name u = j_name j) us ->
  job_inv O (apply_updates j us).
Proof.
  intros. apply updates_preserve_inv; auto. eapply create_spec_inv. apply admit_create_sound; eauto.
Qed.
Print Assumptions C09_admitted_job_stays_well_formed.

(* limits of what the webhook guarantees, with witnesses *)
Theorem C09_create_minavail_needs_crd_bound :
  exists O qs j, validate_create O qs j = true /\ sumZ (map t_replicas (j_tasks j)) < j_minavail j.
Proof.
  exists (mkOracles (fun _ _ => true) (fun _ _ _ => true) (fun _ => true) (fun _ => true)).
  exists [mkQueue 2 1 1 false].
  exists (mkJob 7 [mkTask 4 (-2147483648) None (mkTmpl 1 false 0) [] 0 None None;
                   mkTask 5 (-1) None (mkTmpl 1 false 0) [] 0 None None]
                5 [] [] None 2 0 0 0 0 0 false).
  vm_compute. split; reflexivity.
Qed.
Print Assumptions C09_create_minavail_needs_crd_bound.

Theorem C09_update_volume_strong_refuted :
  exists O qs old new, validate_create O qs old = true /\ validate_update old new = true /\
    j_name new = j_name old /\ ~ volumes_wf O (j_volumes new).
Proof.
  set (t := mkTask 4 1 (Some 1) (mkTmpl 1 false 0) [] 3 None None).
  exists (mkOracles (fun _ _ => true) (fun _ _ _ => true) (fun _ => true) (fun _ => true)).
  exists [mkQueue 2 1 1 false].
  exists (mkJob 7 [t] 1 [] [mkVol 1 0 (Some 1)] None 2 1 3 0 0 0 false).
  exists (mkJob 7 [t] 1 [] [mkVol 1 5 (Some 1)] None 2 1 3 0 0 0 true).
  split; [vm_compute; reflexivity|]. split; [vm_compute; reflexivity|]. split; [reflexivity|].
  intros [V _]. inversion V; subst. destruct H1 as [_ [(c & _ & E)|(E & _)]]; simpl in E; discriminate.
Qed.
Print Assumptions C09_update_volume_strong_refuted.

(* terminating queue objects (Examples: no model function reads q_term / j_term, so these are
   closed computations that document the reading; the assurance about terminating objects is the
   harness stream): a terminating child still makes its parent a non-leaf; a terminating target
   that is Open and childless is admitted *)
Example C09_create_terminating_child_still_blocks :
  validate_create tq_oracles [mkQueue 1 1 0 false; mkQueue 4 1 1 false; mkQueue 5 1 4 true] (tq_job 4) = false /\
  validate_create tq_oracles [mkQueue 1 1 0 false; mkQueue 4 1 1 false] (tq_job 4) = true.
Proof.
  vm_compute. split; reflexivity.
Qed.

Example C09_create_admits_terminating_target :
  exists qs q, In q qs /\ q_term q = true /\ validate_create tq_oracles qs (tq_job (q_name q)) = true.
Proof.
  exists [mkQueue 1 1 0 false; mkQueue 4 1 1 true], (mkQueue 4 1 1 true).
  split; [simpl; auto|]. split; [reflexivity|]. vm_compute. reflexivity.
Qed.

(* Terminating jobs: the Update case of AdmitJobs checks them like any other job *)
Example C09_update_on_terminating_job_still_checked :
  let t n r m d := mkTask n r (Some m) (mkTmpl 1 false 0) [] 3 d None in
  let jb ts ma q tm := mkJob 7 ts ma [] [] None q 1 3 0 0 0 tm in
  let old tm := jb [t 4 2 1 None; t 5 1 1 None] 2 2 tm in
  forall a b,
    validate_update (old a) (jb [t 4 2 1 None; t 5 1 1 None] 2 5 b) = false /\
    validate_update (old a) (jb [t 4 2 1 (Some ([5], 0)); t 5 1 1 (Some ([4], 0))] 2 2 b) = false /\
    validate_update (old a) (jb [t 4 2 3 None; t 5 1 1 None] 2 2 b) = false /\
    validate_update (old a) (jb [t 4 3 2 None; t 5 1 1 None] 3 2 b) = true.
Proof.
  intros t jb old a b. destruct a, b; vm_compute; repeat split; reflexivity.
Qed.

(* "an update may change only replica counts, minAvailable and priority class while preserving
   these invariants" is NOT guaranteed for the claim name of a volume with an inline claim: an
   admitted update stores a name CREATE's validator rejects (known finding
   C09-update-claimname-under-inline-claim; laws 104 and 106 answer true on it, hence update_spec and
   the job-intrinsic clauses by C09_law_update_sound / C09_law_persist_sound; law 107 answers false) *)
Theorem C09_update_only_three_fields_refuted :
  exists O qs old new,
    validate_create O qs old = true /\ validate_update old new = true /\ j_name new = j_name old /\
    j_volumes new <> j_volumes old /\
    (exists v, In v (j_volumes new) /\ v_cname v <> 0 /\ o_pv O (v_cname v) = false) /\
    validate_create O qs new = false /\
    law_update old new true = true /\ law_persist O new = true /\
    law_update_claimname O old new true = false.
Proof.
  exists cn_oracles, [mkQueue 2 1 1 false], (cn_job (mkVol 1 0 (Some 1))), (cn_job (mkVol 1 10 (Some 1))).
  repeat match goal with |- _ /\ _ => split end; try (vm_compute; reflexivity).
  - vm_compute. discriminate.
  - exists (mkVol 1 10 (Some 1)). split; [simpl; auto|]. split; [simpl; discriminate|reflexivity].
Qed.
Print Assumptions C09_update_only_three_fields_refuted.

Theorem C09_law_update_claimname_sound : forall O old new,
  law_update_claimname O old new true = true -> length (j_volumes old) = length (j_volumes new) ->
  Forall2 (claimname_step_ok O) (j_volumes old) (j_volumes new).
Proof.
  intros O old new.
  unfold law_update_claimname. simpl. intros H L. now apply vols_fill_ok_sound.
Qed.
Print Assumptions C09_law_update_claimname_sound.

Theorem C09_law_create_sound : forall O qs j,
  law_create O qs j true = true -> intrinsic_clauses O true j /\ queue_wf qs (j_queue j).
Proof.
  intros O qs j.
  unfold law_create, holds_create. simpl. intros H. apply andb_true_iff in H. destruct H as [H1 H2].
  split; [now apply holds_intrinsic_sound|now apply queue_wf_b_iff].
Qed.
Print Assumptions C09_law_create_sound.

(* the admission theorem concludes the same clauses *)
Theorem C09_create_spec_clauses : forall O qs j,
  create_spec O qs j -> intrinsic_clauses O true j /\ queue_wf qs (j_queue j).
Proof.
  intros O qs j C. destruct C. split; auto. constructor; auto.
Qed.
Print Assumptions C09_create_spec_clauses.

Theorem C09_law_persist_sound : forall O j, law_persist O j = true -> intrinsic_clauses O false j.
Proof.
  intros O j. exact (holds_intrinsic_sound O false j).
Qed.
Print Assumptions C09_law_persist_sound.

Theorem C09_job_inv_clauses : forall O j, job_inv O j -> intrinsic_clauses O false j.
Proof.
  intros O j C. destruct C. constructor; auto. now apply replicas32_le_sumZ.
Qed.
Print Assumptions C09_job_inv_clauses.

Theorem C09_law_update_sound : forall old new, law_update old new true = true -> update_spec old new.
Proof.
  intros old new.
  unfold law_update. simpl. intros H. bsplit H.
  apply tasks_update_ok_sound in H. destruct H as [F R]. apply vols_update_ok_sound in B9.
  unfold sb in B8. destruct (list_eq_dec policy_eq_dec _ _) as [EP|]; [|discriminate].
  apply Z.eqb_eq in B6, B5, B4, B3, B2. apply Z.leb_le in B1, B0. apply negb_true_iff in B. apply Z.eqb_neq in B.
  constructor; auto.
  unfold plugins_same, sb in B7. destruct (list_eq_dec plugin_eq_dec _ _) as [E|]; [|discriminate].
  unfold plugins_view. destruct (j_plugins old) as [[|a l]|], (j_plugins new) as [[|b l']|]; simpl in E; congruence.
Qed.
Print Assumptions C09_law_update_sound.

Theorem C09_law_topo_sound : forall g order, law_topo g true order = true -> topo_order g order.
Proof.
  intros g order.
  unfold law_topo. intros H. bsplit H.
  apply nodupb_NoDup in H. apply nodupb_NoDup in B0. apply Nat.eqb_eq in B3. rewrite forallb_forall in B2.
  assert (Incl : incl order (gnames g)) by (intros x Hx; apply memb_In; auto).
  assert (P : Permutation order (gnames g)).
  { apply NoDup_Permutation_bis; auto. unfold gnames. rewrite map_length. lia. }
  split; auto. split; auto.
  intros n ds d Hn Hd.
  assert (Hin : In n order).
  { eapply Permutation_in; [symmetry; exact P|]. apply in_map_iff. exists (n, ds). auto. }
  apply in_split in Hin. destruct Hin as (l1 & l2 & E).
  destruct (before_all_spec g _ _ B1 _ _ _ E _ _ Hn Hd) as [[]|X].
  split; [|exists l1, l2; auto]. apply Incl. rewrite E. apply in_or_app. auto.
Qed.
Print Assumptions C09_law_topo_sound.

Theorem C09_deps_ok_b_sound : forall g,
  NoDup (gnames g) -> deps_ok_b g = true -> exists order, topo_order g order.
Proof. exact deps_ok_b_sound. Qed.
Print Assumptions C09_deps_ok_b_sound.

Theorem C09_law_mutate_sound : forall j m1 m2, law_mutate j m1 m2 = true ->
  m2 = m1 /\ length (j_tasks m1) = length (j_tasks j) /\
  (forall t, In t (j_tasks m1) -> t_name t <> 0 /\ t_minavail t <> None /\ t_maxretry t <> 0) /\
  j_queue m1 <> 0 /\ j_maxretry m1 <> 0 /\
  (j_queue j <> 0 -> j_queue m1 = j_queue j) /\ (j_minavail j <> 0 -> j_minavail m1 = j_minavail j) /\
  (j_maxretry j <> 0 -> j_maxretry m1 = j_maxretry j) /\ (j_sched j <> 0 -> j_sched m1 = j_sched j) /\
  j_policies m1 = j_policies j /\ j_volumes m1 = j_volumes j /\ j_prio m1 = j_prio j /\ j_name m1 = j_name j.
Proof.
  intros j m1 m2.
  unfold law_mutate. intros H. bsplit H. unfold sb in H, B7, B6.
  destruct (job_eq_dec m1 m2) as [E|]; [|discriminate].
  destruct (list_eq_dec policy_eq_dec (j_policies m1) (j_policies j)) as [EP|]; [|discriminate].
  destruct (list_eq_dec volume_eq_dec (j_volumes m1) (j_volumes j)) as [EV|]; [|discriminate].
  destruct (tasks_defaulted_sound _ _ _ B12) as [L A].
  apply Z.eqb_eq in B2. apply Z.eqb_eq in B.
  destruct (filled_field _ _ B11) as [Q1a Q1b], (filled_field _ _ B9) as [Q2a Q2b].
  pose proof (kept_field _ _ B8) as Q3. pose proof (kept_field _ _ B10) as Q4.
  repeat match goal with |- _ /\ _ => split end; auto.
Qed.
Print Assumptions C09_law_mutate_sound.

(* law 103 is an implication between three observed booleans and request_in_range; unfolding
   it (LawLemmas.law_default_valid_sound) adds nothing and is not listed as a property theorem *)

Theorem C09_policies_wf_b_iff : forall ps, policies_wf_b ps = true <-> policies_wf ps.
Proof. exact policies_wf_b_iff. Qed.
Print Assumptions C09_policies_wf_b_iff.

Theorem C09_queue_wf_b_iff : forall qs qn, queue_wf_b qs qn = true <-> queue_wf qs qn.
Proof. exact queue_wf_b_iff. Qed.
Print Assumptions C09_queue_wf_b_iff.

Theorem C09_volumes_wf_b_strong_iff : forall O vs, volumes_wf_b O true vs = true <-> volumes_wf O vs.
Proof. intros O vs. exact (volumes_wf_b_iff O true vs). Qed.
Print Assumptions C09_volumes_wf_b_strong_iff.

(* a history with a refused request in the middle: verdicts, stored object *)
Example C09_history_with_refusal :
  let t r m := mkTask 4 r (Some m) (mkTmpl 1 false 0) [] 3 None None in
  let jb r m ma pr q := mkJob 7 [t r m] ma [] [] None q 1 3 pr 0 0 true in
  let j0 := jb 2 1 1 0 2 in
  let us := [jb 5 3 4 1 2; jb 5 3 4 1 5; jb 3 3 3 2 2] in
  validate_create tq_oracles [mkQueue 1 1 0 false; mkQueue 2 1 1 false] j0 = true /\
  update_verdicts j0 us = [true; false; true] /\
  apply_updates j0 us = jb 3 3 3 2 2 /\
  Forall (fun u => j_name u = j_name j0) us.
Proof. exact history_with_refusal. Qed.

(* non-vacuity: a three-task job with a dependency chain, a partition policy,
   policies, volumes and the mpi plugin is admitted, stays admitted after
   defaulting, and accepts a replica update *)
Definition ex_oracles := mkOracles (fun n _ => negb (n =? 0)) (fun _ _ _ => true) (fun _ => true) (fun _ => true).
Definition ex_queues := [mkQueue 1 1 0 false; mkQueue 2 1 1 false; mkQueue 3 1 1 true; mkQueue 5 1 3 true].
Definition ex_job : job :=
  mkJob 2001
    [mkTask 1 2 None (mkTmpl 1 true 0) [mkPolicy 2 2 [3; 2] None 30; mkPolicy 1 0 [] (Some 137) 0] 0 None None;
     mkTask 0 4 None (mkTmpl 2 false 0) [] 0 (Some ([1], 1)) (Some (mkPart 2 2 1 0));
     mkTask 5 1 (Some 1) (mkTmpl 1 false 2) [] 2 (Some ([1; 1001], 0)) None]
    0 [mkPolicy 7 1 [1] None 0] [mkVol 1 2 None; mkVol 2 0 (Some 1)]
    (Some [mkPlugin 5 0 0]) 0 0 0 0 1 2 false.
Example C09_nonvacuous :
  validate_create ex_oracles ex_queues (prefill ex_job) = true /\
  request_in_range ex_job = true /\
  defaults_in_range (mutate 1 ex_job) = true /\
  validate_create ex_oracles ex_queues (mutate 1 ex_job) = true /\
  validate_create ex_oracles ex_queues ex_job = false /\
  (exists o, topo (graph_of (j_tasks (mutate 1 ex_job))) = TopoOk o) /\
  (let m := mutate 1 ex_job in
   let u := mkJob (j_name m)
              (match j_tasks m with a :: r => mkTask (t_name a) 5 (Some 3) (t_tmpl a) (t_policies a)
                                               (t_maxretry a) (t_deps a) (t_part a) :: r | [] => [] end)
              6 (j_policies m) (j_volumes m) (j_plugins m) (j_queue m) (j_sched m) (j_maxretry m) 9
              (j_nt m) (j_rest m) true in
   validate_update m u = true /\ m <> u).
Proof. vm_compute. repeat split; try reflexivity; [eexists; reflexivity | discriminate]. Qed.
