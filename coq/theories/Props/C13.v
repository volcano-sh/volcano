(* Property C13 — queue lifecycle: a queue closes only when empty and follows its parent.
   The property theorems, each followed by Print Assumptions (the Examples are not).  A proof
   stands here when nothing else needs the fact; otherwise the theorem is [exact] of a lemma
   of C13/Lemmas.v or C13/PreFix.v.

   Three kinds of statements, kept apart on purpose:
   * STEP theorems ("forall s ...") are about ONE step of the controller from an ARBITRARY
     state s (any forest incl. dangling parents, any combination of states and markers, any
     lister view, any PodGroup index, any pending requests).  They therefore hold at every
     point of every history, but they say nothing about what several steps achieve together.
   * HISTORY theorems ("forall s0 h ... run s0 h") are proved by induction over the event
     list (an invariant preserved by [step], lifted over [run]): C13_root_never_closed,
     C13_state_moves_have_a_cause, C13_index_stays_complete,
     C13_closed_only_when_no_podgroup_exists.
   * The QUIESCENCE statements (what holds once the lister has caught up and nothing is
     pending) are FALSE for this controller; their refutations are at the end and are the
     known findings of this property.
   [srv] is the API server, [lst] the lister the controller reads (informer lag). *)
From stdpp Require Import gmap.
From Coq Require Import ZArith List Lia.
From V Require Import C13.Model C13.Laws C13.Lemmas C13.PreFix.
Import ListNotations.
Open Scope Z_scope.

(* STEP: a queue's state changes only while a request for that queue is processed, and then
   to the target of the state/*.go tables for the lister's state and the request's action *)
Theorem C13_state_changes_only_by_request : forall s e q a b,
  sst (srv s) q = Some a -> sst (srv (step s e).1) q = Some b -> a <> b ->
  exists r v, proc_of s e = Some (r, v) /\ r_q r = q /\
              b = target (q_state v) (r_act r) (length (pgs_of (idx s) q)).
Proof. exact only_by_request. Qed.
Print Assumptions C13_state_changes_only_by_request.

(* HISTORY (induction over the event list: invariant [origin] on every pending request).
   From a start state with an EMPTY work queue, after any history h: whenever the state of
   queue q moves, a request r for q is being processed, the new state is the target the
   state tables give for the lister's state, r's action and q's PodGroup count, and r has a
   CAUSE in h ([origin]): (a) Event CommandIssued and the command [ECmd q (r_act r)] occurs in
   h; or (b) a propagated Open / Close that was appended earlier in h while a request for q's
   lister-parent (the parent's close / re-open) or for q itself (q's own sync reacting to the
   parent's state in the lister) was processed; or (c) an informer handler's Sync, whose
   effect is the Sync target: "" -> Open, Closing -> Closed iff q's index is empty, otherwise
   the state the lister shows (under lag that last case is finding race A). *)
Theorem C13_state_moves_have_a_cause : forall s0 h e q a b, let s := run s0 h in
  wq s0 = [] ->
  sst (srv s) q = Some a -> sst (srv (step s e).1) q = Some b -> a <> b ->
  exists r v, proc_of s e = Some (r, v) /\ r_q r = q /\
    b = target (q_state v) (r_act r) (length (pgs_of (idx s) q)) /\
    origin s0 h r.
Proof.
  intros s0 h e q a b s H0 Ha Hb Hab. destruct (only_by_request s e q a b) as (r&v&P&Hq&T); try done.
  exists r, v. repeat split; try done.
  pose proof (origin_inv s0 h H0) as Inv. fold s in Inv. rewrite Forall_forall in Inv.
  apply proc_of_inv in P as (i&_&Hn&_). apply Inv. eapply nth_error_In; eauto.
Qed.
Print Assumptions C13_state_moves_have_a_cause.

(* the start-state hypothesis is needed (a pending propagation request of unknown origin
   closes an unrelated queue), and the three kinds of cause occur *)
Example C13_cause_needs_empty_start :
  let s0 := mkSt (srv (open3_init SOpen None)) (lst (open3_init SOpen None)) ∅ [] [mkReq q3 AClose EvNone 0] 3 in
  sst (srv (run s0 [EProc 0])) q3 = Some SClosed.
Proof. exact cause_needs_empty_start. Qed.
Example C13_causes_occur :
  let s0 := open3_init SOpen None in
  origin s0 [ECmd q2 AClose] (mkReq q2 AClose EvCmd 0) /\
  wq (run s0 [ECmd q2 AClose; EProc 0]) = [mkReq q3 AClose EvNone 0] /\
  origin s0 [ECmd q2 AClose; EProc 0] (mkReq q3 AClose EvNone 0).
Proof. exact causes_occur. Qed.

(* STEP: processing a request for queue q appends to the work queue only propagation
   requests — Event "", Open / Close, no retries yet, TARGET q itself or a queue the lister
   shows as a child of q — followed by at most the retry of the processed request (the Prop
   form of law 108 without its state / marker guards) *)
Theorem C13_processing_appends_only_propagation_requests : forall s i r,
  nth_error (wq s) i = Some r ->
  exists l t, wq (proc s i).1 = remove_nth i (wq s) ++ l ++ t /\
              Forall (prop_req_at (lst s) (r_q r)) l /\ (t = [] \/ t = [retry r]) /\
              (l = [] \/ is_Some (lst s !! r_q r)).
Proof. exact proc_emits. Qed.
Print Assumptions C13_processing_appends_only_propagation_requests.

(* with an up-to-date lister, a request that is neither Open nor Close (a Sync or any
   other action, whoever issued it) only completes "" -> Open and Closing -> Closed *)
Theorem C13_sync_never_opens_or_closes : forall s e q a b,
  lst s !! q = srv s !! q ->
  sst (srv s) q = Some a -> sst (srv (step s e).1) q = Some b -> a <> b ->
  exists r v, proc_of s e = Some (r, v) /\ r_q r = q /\
    (r_act r = AOpen \/ r_act r = AClose \/ (a = SEmpty /\ b = SOpen) \/ (a = SClosing /\ b = SClosed)).
Proof.
  intros s e q a b F Ha Hb Hab.
  destruct (only_by_request s e q a b) as (r&v&P&<-&T); try done.
  exists r, v. split; [done|]. split; [done|].
  apply proc_of_inv in P as (i&_&_&Hv).
  assert (q_state v = a) as <-. { unfold sst in Ha. rewrite <- F, Hv in Ha. simpl in Ha. congruence. }
  destruct (r_act r); [by left|by right; left| |];
  (destruct (q_state v); simpl in T; subst; try done; try (right; right; by left);
   destruct (length _); simpl in *; try done; right; right; right; done).
Qed.
Print Assumptions C13_sync_never_opens_or_closes.

(* closing a not-yet-closed, non-root queue: Closing while its index holds PodGroups,
   Closed when it holds none *)
Theorem C13_close_yields_closing_when_nonempty : forall s i r v,
  nth_error (wq s) i = Some r -> lst s !! r_q r = Some v -> r_act r = AClose ->
  (proc s i).2 = OOk -> r_q r <> root -> q_state v <> SClosed -> q_state v <> SInvalid ->
  sst (srv s) (r_q r) = Some (q_state v) ->
  sst (srv (proc s i).1) (r_q r) = Some (closeish (length (pgs_of (idx s) (r_q r)))).
Proof. exact close_result. Qed.
Print Assumptions C13_close_yields_closing_when_nonempty.

(* Closed is entered only with an empty PodGroup index — at FULL strength: any lister
   view, however stale (holds since the repair 5018129 of syncQueue; the witness that
   refuted it on the previous code is C13_prefix_closed_with_podgroups_refuted below) *)
Theorem C13_closed_entered_only_when_empty : forall s e q a,
  sst (srv s) q = Some a -> a <> SClosed -> sst (srv (step s e).1) q = Some SClosed ->
  pgs_of (idx s) q = [].
Proof. exact closed_only_when_empty. Qed.
Print Assumptions C13_closed_entered_only_when_empty.

(* ... and against the PodGroups that REALLY exist (the PodGroup objects, not the
   controller's index): the index stays complete along every history without a delivered
   queue deletion and without a PodGroup changing its queue — in particular when PodGroup
   events are handled before their queue is in the lister — and then Closed is entered
   only when no PodGroup of the queue exists, and a close with an existing PodGroup
   yields Closing *)
Theorem C13_index_stays_complete : forall h s,
  idx_complete s -> benign_hist s h -> idx_complete (run s h).
Proof. exact idx_complete_run. Qed.
Print Assumptions C13_index_stays_complete.

Theorem C13_closed_only_when_no_podgroup_exists : forall s0 h e q a, let s := run s0 h in
  idx_complete s0 -> benign_hist s0 h ->
  sst (srv s) q = Some a -> a <> SClosed -> sst (srv (step s e).1) q = Some SClosed ->
  forall pg ph, pgl s !! pg <> Some (q, ph).
Proof.
  intros s0 h e q a s C B. apply closed_only_when_really_empty. by apply idx_complete_run.
Qed.
Print Assumptions C13_closed_only_when_no_podgroup_exists.

Theorem C13_close_with_existing_podgroups_yields_closing : forall s i r v pg ph,
  idx_complete s -> pgl s !! pg = Some (r_q r, ph) ->
  nth_error (wq s) i = Some r -> lst s !! r_q r = Some v -> r_act r = AClose ->
  (proc s i).2 = OOk -> r_q r <> root -> q_state v <> SClosed -> q_state v <> SInvalid ->
  sst (srv s) (r_q r) = Some (q_state v) ->
  sst (srv (proc s i).1) (r_q r) = Some SClosing.
Proof.
  intros s i r v pg ph C Hpg Hn Hv Ha Ho Hr H1 H2 Hf.
  rewrite (close_result s i r v) by done.
  apply C, pgs_of_In in Hpg. destruct (pgs_of (idx s) (r_q r)); [done|]. done.
Qed.
Print Assumptions C13_close_with_existing_podgroups_yields_closing.

(* closing a parent marks every child the lister shows as not closed with
   closed-by-parent=true and enqueues a Close request for it *)
Theorem C13_parent_close_propagates : forall s i r v,
  nth_error (wq s) i = Some r -> lst s !! r_q r = Some v -> r_act r = AClose ->
  (proc s i).2 = OOk -> r_q r <> root ->
  is_closedish (q_state v) = false -> q_state v <> SInvalid ->
  forall c co, lst s !! c = Some co -> q_parent co = Some (r_q r) -> is_closedish (q_state co) = false ->
    (cbp_of (q_ann co) = Some true \/ scbp (srv (proc s i).1) c = Some true) /\
    In (mkReq c AClose EvNone 0) (wq (proc s i).1).
Proof.
  intros s i r v Hn Hv Ha Ho Hr Hx Hinv c co Hc Hp Hcc. unfold proc in *. rewrite Hn, Hv, Ha in *.
  destruct (exec _ _ _ _) as [s1 ok] eqn:E.
  destruct ok; simpl in *.
  2:{ destruct (_ || _); simpl in Ho; done. }
  assert (E' : close_queue (set_wq s (remove_nth i (wq s))) (r_q r) v closeish = (s1, true)).
  { unfold exec in E. destruct (q_state v); simpl in *; done. }
  clear E. unfold close_queue in E'.
  rewrite (bool_decide_false (r_q r = root)) in E' by done. rewrite andb_false_r, Hx in E'.
  destruct (close_children _ _) as [s2 ok2] eqn:E2.
  destruct ok2; simpl in E'; [|done].
  assert (Hin : In (c, co) (children (set_wq s (remove_nth i (wq s))) (r_q r))).
  { apply children_In. done. }
  destruct (close_children_ok _ _ _ (children_child_list _ _) _ _ E2 c co Hin Hcc) as [H1 H2].
  destruct (bool_decide _); simplify_eq; [done|].
  destruct (apply_state (srv s2) (r_q r) _) as [[m o']|] eqn:E3; simplify_eq.
  apply apply_state_spec in E3 as (_&_&_&B&_). simpl. rewrite B. done.
Qed.
Print Assumptions C13_parent_close_propagates.

(* re-opening opens the queue, clears its own marker and enqueues Open requests for
   exactly the children marked closed-by-parent (nothing else is enqueued) *)
Theorem C13_reopen_reopens_exactly_marked_children : forall s i r v,
  nth_error (wq s) i = Some r -> lst s !! r_q r = Some v -> r_act r = AOpen ->
  q_state v = SClosed \/ q_state v = SClosing \/ q_state v = SUnknown ->
  (proc s i).2 = OOk ->
  wq (proc s i).1 = remove_nth i (wq s) ++ reopen_reqs s (r_q r) /\
  sst (srv (proc s i).1) (r_q r) = Some SOpen /\
  (cbp_of (q_ann v) = Some false \/ scbp (srv (proc s i).1) (r_q r) = Some false).
Proof.
  intros s i r v Hn Hv Ha Hx Ho. unfold proc in *. rewrite Hn, Hv, Ha in *.
  destruct (exec _ _ _ _) as [s1 ok] eqn:E.
  destruct ok; simpl in *.
  2:{ destruct (_ || _); simpl in Ho; done. }
  assert (E' : open_queue (set_wq s (remove_nth i (wq s))) (r_q r) v = (s1, true)).
  { unfold exec in E. destruct Hx as [Hx|[Hx|Hx]]; rewrite Hx in E; done. }
  clear E. unfold open_queue in E'.
  rewrite (bool_decide_false (q_state v = SOpen)) in E' by (destruct Hx as [Hx|[Hx|Hx]]; rewrite Hx; done).
  destruct (open_hier _ _ _) as [s2 ok2] eqn:E2.
  destruct ok2; simpl in E'; [|done].
  destruct (apply_state (srv s2) (r_q r) SOpen) as [[m o']|] eqn:E3; [|done].
  destruct (patch_ann _ _ _ _) as [m2|] eqn:E4; simplify_eq. simpl.
  apply apply_state_spec in E3 as (_&_&A&_).
  unfold open_hier in E2. destruct (negb _); [done|]. simplify_eq.
  split; [|split].
  - rewrite fold_open_wq. done.
  - rewrite (patch_ann_sst _ _ _ _ _ E4). simpl. rewrite A. destruct (decide (r_q r = r_q r)); done.
  - eapply patch_ann_done; eauto.
Qed.
Print Assumptions C13_reopen_reopens_exactly_marked_children.

Theorem C13_reopen_requests_are_the_marked_children : forall s q x,
  In x (reopen_reqs s q) <->
  exists c co, x = mkReq c AOpen EvNone 0 /\ lst s !! c = Some co /\
               q_parent co = Some q /\ cbp_of (q_ann co) = Some true.
Proof.
  intros s q x.
  unfold reopen_reqs. rewrite in_map_iff. split.
  - intros ([c co]&<-&Hin). apply filter_In in Hin as [Hin Hc].
    apply children_In in Hin as [? ?]. exists c, co. simpl in *.
    unfold cbp_true in Hc. apply bool_decide_eq_true in Hc. done.
  - intros (c&co&->&Hl&Hp&Hc). exists (c, co). split; [done|].
    apply filter_In. split.
    + apply children_In. done.
    + simpl. unfold cbp_true. by apply bool_decide_eq_true.
Qed.
Print Assumptions C13_reopen_requests_are_the_marked_children.

(* HISTORY (induction): the root queue is never closed or closing *)
Theorem C13_root_never_closed : forall s h, root_okP s -> root_okP (run s h).
Proof. exact root_never_closed. Qed.
Print Assumptions C13_root_never_closed.

(* a closed / closing / unknown queue is not opened while the lister shows its parent
   (other than root) closed, closing or missing: the request fails, nothing is written *)
Theorem C13_child_not_opened_under_closed_parent : forall s i r v,
  nth_error (wq s) i = Some r -> lst s !! r_q r = Some v -> r_act r = AOpen ->
  parent_blocks s v = true -> q_state v <> SOpen -> q_state v <> SEmpty ->
  (proc s i).2 = OErr /\ srv (proc s i).1 = srv s.
Proof. exact no_open_under_closed_parent. Qed.
Print Assumptions C13_child_not_opened_under_closed_parent.

(* KNOWN FINDING C13-stale-lister-sync-overwrites-open (race A, not repaired): without
   the freshness hypothesis C13_sync_never_opens_or_closes is FALSE — a Sync computed
   from a lister that still shows Closing writes Closed over the server's Open *)
Theorem C13_sync_never_opens_or_closes_full_refuted :
  ~ (forall s e q a b,
       sst (srv s) q = Some a -> sst (srv (step s e).1) q = Some b -> a <> b ->
       exists r v, proc_of s e = Some (r, v) /\ r_q r = q /\
         (r_act r = AOpen \/ r_act r = AClose \/ (a = SEmpty /\ b = SOpen) \/ (a = SClosing /\ b = SClosed))).
Proof.
  intros H.
  destruct (H raceA_state (EProc 0) q2 SOpen SClosed) as (r&v&P&_&D);
    [vm_compute; reflexivity|vm_compute; reflexivity|discriminate|].
  vm_compute in P. simplify_eq. simpl in D. naive_solver.
Qed.
Print Assumptions C13_sync_never_opens_or_closes_full_refuted.

(* race B (C13-stale-lister-closed-with-podgroups): refuted on the code before the
   repair 5018129; on the repaired code C13_closed_entered_only_when_empty holds at
   full strength (above) and the race history leaves the queue Open *)
Theorem C13_prefix_closed_with_podgroups_refuted :
  ~ (forall s e q a,
       sst (srv s) q = Some a -> a <> SClosed -> sst (srv (step0 s e).1) q = Some SClosed ->
       pgs_of (idx s) q = []).
Proof.
  intros H.
  specialize (H (run0 raceB_init raceB_history) (EProc 0) q2 SOpen
                ltac:(vm_compute; reflexivity) ltac:(discriminate) ltac:(vm_compute; reflexivity)).
  vm_compute in H. done.
Qed.
Print Assumptions C13_prefix_closed_with_podgroups_refuted.

Example C13_raceB_repaired :
  sst (srv (run raceB_init (raceB_history ++ [EProc 0]))) q2 = Some SOpen.
Proof. exact raceB_repaired. Qed.

(* race C (C13-marked-child-not-reopened): with a lagging lister the re-open step itself
   cannot see the marker (step-level full-strength form is false, before and after the
   repair) ... *)
Theorem C13_reopen_server_marked_children_refuted :
  ~ (forall s i r v,
       nth_error (wq s) i = Some r -> lst s !! r_q r = Some v -> r_act r = AOpen ->
       is_closedish (q_state v) = true -> (proc s i).2 = OOk ->
       forall c co, srv s !! c = Some co -> q_parent co = Some (r_q r) -> cbp_of (q_ann co) = Some true ->
       In (mkReq c AOpen EvNone 0) (wq (proc s i).1)).
Proof.
  intros H.
  assert (X := H raceC_state 0%nat (mkReq q2 AOpen EvCmd 0) (mkQ (Some 1%positive) SClosed None)).
  specialize (X ltac:(vm_compute; reflexivity) ltac:(vm_compute; reflexivity) eq_refl eq_refl
                ltac:(vm_compute; reflexivity) q3 (mkQ (Some q2) SClosed (Some (false, Some true)))
                ltac:(vm_compute; reflexivity) eq_refl eq_refl).
  vm_compute in X. done.
Qed.
Print Assumptions C13_reopen_server_marked_children_refuted.

(* ... before the repair b628b4b the child then stayed closed for ever (lister caught up,
   nothing pending, child Closed + marked under an Open parent) ... *)
Theorem C13_prefix_marked_child_not_reopened_refuted :
  exists h, let s := run0 raceC_init h in
    caught_up s = true /\ law_no_stuck_child s = false /\
    sst (srv s) q2 = Some SOpen /\ sst (srv s) q3 = Some SClosed /\ scbp (srv s) q3 = Some true.
Proof.
  exists raceC_full. vm_compute. repeat split.
Qed.
Print Assumptions C13_prefix_marked_child_not_reopened_refuted.

(* ... since the repair, for EVERY state (two steps): the delivery of a closed child whose
   marker the lister had not seen enqueues a Sync, and processing that Sync while the lister
   shows the parent Open enqueues the child's Open request.  This repairs race C only; the
   quiescent statement remains false (C13_quiescent_no_stuck_child_refuted below) *)
Theorem C13_marked_child_heals : forall s c co lo p po,
  srv s !! c = Some co -> lst s !! c = Some lo ->
  cbp_of (q_ann co) = Some true -> cbp_of (q_ann lo) <> Some true ->
  is_closedish (q_state co) = true -> q_parent co = Some p -> c <> root -> p <> c ->
  lst s !! p = Some po -> q_state po = SOpen ->
  let s1 := (step s (ELSync c)).1 in
  wq s1 = wq s ++ [sync_req c] /\
  (proc s1 (length (wq s))).2 = OOk /\
  In (mkReq c AOpen EvNone 0) (wq (proc s1 (length (wq s))).1).
Proof.
  intros s c co lo p po Hs Hl Hm Hlm Hc Hp Hroot Hpc Hpl Hpo. simpl. rewrite Hs, Hl.
  assert (E : bool_decide (q_parent lo = q_parent co) && bool_decide (cbp_of (q_ann lo) = cbp_of (q_ann co)) = false).
  { apply andb_false_iff. right. apply bool_decide_eq_false. congruence. }
  rewrite E. simpl. split; [done|].
  unfold proc. simpl. rewrite nth_error_app2 by lia. rewrite Nat.sub_diag. simpl.
  rewrite lookup_insert.
  set (s0 := set_wq _ _).
  assert (Hm' : cbp_true (q_ann co) = true) by (unfold cbp_true; by apply bool_decide_eq_true).
  assert (Hl0 : lst s0 !! p = Some po) by (simpl; rewrite lookup_insert_ne by done; done).
  assert (Hs0 : srv s0 !! c = Some co) by done.
  assert (X : exists s', exec s0 c co ASync = (s', true) /\ In (mkReq c AOpen EvNone 0) (wq s')).
  { unfold exec. destruct (q_state co) eqn:Ex; try done.
    - apply (sync_queue_reopens s0 c co _ p po); try done. by rewrite Ex.
    - apply (sync_queue_reopens s0 c co _ p po); try done; [by rewrite Ex|]. by intros []. }
  destruct X as (s'&->&Hin). done.
Qed.
Print Assumptions C13_marked_child_heals.

Example C13_raceC_repaired :
  let s := run raceC_init raceC_full in
  caught_up s = true /\ law_no_stuck_child s = true /\
  sst (srv s) q2 = Some SOpen /\ sst (srv s) q3 = Some SOpen /\ scbp (srv s) q3 = Some false.
Proof. exact raceC_repaired. Qed.

(* Transient API faults ([EProcF i c]: every API call that addresses queue c fails
   during that processing step) are events like any other: EVERY theorem above that
   quantifies over an event [e] (state changes only by request, Closed only when empty,
   Sync never opens or closes, root never closed, provenance, index completeness) holds for
   faulted steps too.  The STEP theorems that promise a result (close yields Closing /
   Closed, close propagates, re-open exact, no open under a closed parent) are stated for
   un-faulted steps [proc s i] only; laws 102/104/105/107/132 skip faulted steps.
   A faulted queue keeps its server object: *)
Theorem C13_fault_keeps_queue : forall s i c o,
  srv s !! c = Some o -> srv (step s (EProcF i c)).1 !! c = Some o.
Proof.
  intros s i c o H. simpl. rewrite procF_fst. unfold restore. rewrite H. simpl. by rewrite lookup_insert.
Qed.
Print Assumptions C13_fault_keeps_queue.

Example C13_fault_retried_then_consistent :
  let s1 := run fault_init (firstn 2 fault_history) in
  let s := run fault_init fault_history in
  sst (srv s1) q2 = Some SOpen /\ scbp (srv s1) q3 = None /\ wq s1 = [mkReq q2 AClose EvCmd 1] /\
  caught_up s = true /\ sst (srv s) q2 = Some SClosed /\ sst (srv s) q3 = Some SClosed /\ scbp (srv s) q3 = Some true /\
  law_no_stuck_child s = true /\ law_children_follow_closed_parent s = true.
Proof. exact fault_retried_then_consistent. Qed.

(* KNOWN FINDING C13-quiescent-marked-child-stuck: "re-opening a parent re-opens the
   children it had closed" is FALSE as a statement about quiescent end states, also after the
   repair b628b4b (which only covers the case where the child's marker reaches the lister
   late).  From the all-Open forest root <- q2 <- q3: close q2 and re-open it at once;
   strictly FIFO; q3's propagated Open is processed while the lister still shows q3 Open
   (a no-op), its Close then closes it, nothing re-syncs it: caught up, nothing pending,
   q2 Open, q3 Closed with closed-by-parent=true for ever *)
Theorem C13_quiescent_no_stuck_child_refuted :
  ~ (forall h, let s := run (open3_init SOpen None) h in caught_up s = true -> law_no_stuck_child s = true).
Proof.
  intros H. specialize (H stuckW1_history eq_refl). vm_compute in H. done.
Qed.
Print Assumptions C13_quiescent_no_stuck_child_refuted.

(* the same end state WITHOUT any informer lag (the lister is delivered after every step):
   two workers suffice, q3's Open overtakes q3's Close *)
Example C13_quiescent_stuck_child_without_lag :
  let s := run (open3_init SOpen None) stuckW1_nolag_history in
  caught_up s = true /\ law_no_stuck_child s = false /\
  sst (srv s) q2 = Some SOpen /\ sst (srv s) q3 = Some SClosed /\ scbp (srv s) q3 = Some true.
Proof. exact quiescent_stuck_child_without_lag. Qed.

(* KNOWN FINDING C13-quiescent-open-child-under-closed-parent: "closing a parent closes
   its children" and "a child cannot be opened under a closed or closing parent" are FALSE
   as statements about quiescent end states (C13_parent_close_propagates and
   C13_child_not_opened_under_closed_parent are relative to the lister).  q3 closed by hand
   under Open q2: (D) close q2, then open q3 while the lister still shows q2 Open;
   (E) open q3, then close q2 while the lister still shows q3 Closed: caught up, nothing
   pending, q2 Closed, q3 Open for ever *)
Theorem C13_quiescent_children_follow_closed_parent_refuted :
  ~ (forall h, let s := run (open3_init SClosed (Some (false, Some false))) h in
               caught_up s = true -> law_children_follow_closed_parent s = true).
Proof.
  intros H. specialize (H openD_history eq_refl). vm_compute in H. done.
Qed.
Print Assumptions C13_quiescent_children_follow_closed_parent_refuted.

Example C13_quiescent_open_child_both_orders :
  let sD := run (open3_init SClosed (Some (false, Some false))) openD_history in
  let sE := run (open3_init SClosed (Some (false, Some false))) openE_history in
  caught_up sD = true /\ sst (srv sD) q2 = Some SClosed /\ sst (srv sD) q3 = Some SOpen /\
  caught_up sE = true /\ sst (srv sE) q2 = Some SClosed /\ sst (srv sE) q3 = Some SOpen /\
  law_children_follow_closed_parent sE = false.
Proof. exact quiescent_open_child_both_orders. Qed.

(* the premises of the history theorems hold of a controller that starts with nothing pending *)
Example C13_start_state_premises :
  let s0 := open3_init SOpen None in idx_complete s0 /\ root_okP s0 /\ wq s0 = [].
Proof. exact start_state_premises. Qed.

(* five of the extracted law checkers (these) accept every step of the model *)
Theorem C13_laws_accept_model : forall s e,
  law_only_by_request s e (step s e).1 = true /\
  law_closed_only_when_empty s e (step s e).1 = true /\
  law_root_never_closed s e (step s e).1 = true /\
  law_no_open_under_closed_parent s e (step s e).1 (step s e).2 = true /\
  law_close_result s e (step s e).1 (step s e).2 = true.
Proof.
  intros s e.
  repeat split; [apply law_only_by_request_holds|apply law_closed_only_when_empty_holds|
    apply law_root_never_closed_holds|apply law_no_open_under_closed_parent_holds|apply law_close_result_holds].
Qed.
Print Assumptions C13_laws_accept_model.

(* non-vacuity: close with a PodGroup -> Closing, child marked and closed, PodGroup
   deleted -> Closed, re-open -> marked child re-opened, hand-closed child stays closed *)
Example C13_nonvacuous :
  root_okP ex_state /\
  (let s := run ex_state ex_phase1 in
   sst (srv s) 2 = Some SClosing /\ sst (srv s) 3 = Some SClosed /\ scbp (srv s) 3 = Some true /\
   scbp (srv s) 4 = None /\ wq s = []) /\
  sst (srv (run ex_state ex_phase2)) 2 = Some SClosed /\
  let s := run ex_state ex_history in
  sst (srv s) 2 = Some SOpen /\ sst (srv s) 3 = Some SOpen /\ sst (srv s) 4 = Some SClosed /\
  scbp (srv s) 3 = Some false /\ wq s = [].
Proof. exact ex_nonvacuous. Qed.
