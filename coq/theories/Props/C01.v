(* Property C01: gang scheduling is all-or-nothing: no partial gang is ever bound.
   The property theorems, each followed by Print Assumptions.  A proof stands here when nothing else
   needs the fact; otherwise the theorem is `exact` of a lemma of Sched/GangLemmas*.v, SubGroupLemmas.v
   or GangLawSound.v. *)
From stdpp Require Import gmap.
From Coq Require Import ZArith Lia.
From V Require Import Base.Res Sched.LedgerModel Sched.StmtModel Sched.GangModel Sched.CycleModel Sched.LedgerInvP
                      Sched.GangLemmas Sched.GangLemmasInv Sched.GangLemmasStmt Sched.GangLemmasCycle Sched.GangLemmasMain
                      Sched.CycleCodec Sched.GangValid Sched.SubGroupModel Sched.SubGroupLemmas Sched.GangLemmasEvict
                      Sched.GangLemmasShape Sched.GangLemmasAudit Sched.SubGroupLaw Sched.LedgerCodec Sched.DumpCodec Sched.GangLawSound.
From V Require Sched.CycleLaws.
Open Scope Z_scope.

(* 1. the counts the gang plugin reads from TaskStatusIndex are the counts over the task list *)
Theorem C01_index_counts_spec h j : job_inv h j ->
  let ts := tasks_in h (j_tasks j) in
  ready_num (j_index j) = count_tasks ready_status ts /\
  pending_be_num h (j_index j) = count_tasks (fun t => has_status Pending t && t_best_effort t) ts /\
  waiting_num (j_index j) = count_tasks (has_status Pipelined) ts /\
  (forall b r, role_occupied h (j_index j) b r = count_tasks (fun t => slot_counted b t && in_role r t) ts).
Proof. exact (index_counts_spec h j). Qed.
Print Assumptions C01_index_counts_spec.

(* 2. JobReady / JobPipelined / JobStarving of the gang plugin in the property's wording *)
Theorem C01_gang_ready_spec h j : job_inv h j ->
  (gang_job_ready h j = true <-> gang_cond session_ready h j) /\
  (gang_job_pipelined h j = true <-> gang_cond session_pipelined h j) /\
  (gang_job_starving j = true <->
   count_tasks (has_status Pipelined) (tasks_in h (j_tasks j)) + count_tasks ready_status (tasks_in h (j_tasks j)) < j_min j).
Proof. exact (gang_ready_spec h j). Qed.
Print Assumptions C01_gang_ready_spec.

(* 3. main: every bind of a cycle belongs to a gang that is complete, in the cluster-visible
   sense, at the end of the cycle, and the bound task is Binding.  For every eps, every world,
   every list of oracle choices that satisfies the attempt guard (see docs/notes/C01.md, F10). *)
Theorem C01_bind_only_when_gang_ok eps w ops :
  ledger_inv (w_sess w) -> heap_members (w_sess w) ->
  refuse_bind (w_sess w) = ∅ -> stmts (w_sess w) = ∅ ->
  guarded eps w ops ->
  binds_ok (w_sess w) (w_sess (run eps w ops)).
Proof. exact (bind_only_when_gang_ok eps w ops). Qed.
Print Assumptions C01_bind_only_when_gang_ok.

(* the same from the light invariant alone (what the examples instantiate) *)
Theorem C01_bind_only_when_gang_ok_core eps w ops :
  gang_inv (w_sess w) -> refuse_bind (w_sess w) = ∅ -> stmts (w_sess w) = ∅ ->
  guarded eps w ops ->
  binds_ok (w_sess w) (w_sess (run eps w ops)) /\ gang_inv (w_sess (run eps w ops)).
Proof. exact (bind_only_when_gang_ok_core eps w ops). Qed.
Print Assumptions C01_bind_only_when_gang_ok_core.

(* the guard is decidable: the executable check the harness law 104 evaluates *)
Theorem C01_guardedb_sound eps ops w : guardedb eps w ops = true -> guarded eps w ops.
Proof. exact (guardedb_sound eps ops w). Qed.
Print Assumptions C01_guardedb_sound.

(* 3'. F10: without the guard the statement is false on the model (and on the real code) *)
Theorem C01_bind_without_guard_refuted :
  exists eps w ops,
    gang_inv (w_sess w) /\ refuse_bind (w_sess w) = ∅ /\ stmts (w_sess w) = ∅ /\
    (forall i t, heap (w_sess w) !! i = Some t -> t_status t <> Allocated /\ t_status t <> Binding /\ t_status t <> Pipelined) /\
    guardedb eps w ops = false /\
    let s' := w_sess (run eps w ops) in
    exists b j, b ∈ binds s' /\ (exists t, heap s' !! b.1 = Some t /\ jobs s' !! t_job t = Some j) /\ ~ gang_ok (heap s') j.
Proof.
  exists eps0, f10_world, f10_cops.
  pose proof f10_check_true as [[[[[H1 H2]%andb_true_iff H3]%andb_true_iff H4]%andb_true_iff H5]%andb_true_iff H6]%andb_true_iff.
  split; [by apply ginvb_sound|]. split; [by apply bool_decide_eq_true in H2|].
  split; [by apply bool_decide_eq_true in H3|]. split; [by apply fresh_statuses_b_sound|].
  split; [by apply negb_true_iff in H5|].
  destruct (partial_bind_b_sound _ _ _ H6) as (j & Hj). exists (4%positive, Some 1%positive), j. exact Hj.
Qed.
Print Assumptions C01_bind_without_guard_refuted.

(* 4. read from the other end: a job whose gang is not complete at the end of the cycle received no
   bind, and a task that is not Binding then is not in the cycle's part of the bind log *)
Theorem C01_no_bind_without_gang eps w ops :
  ledger_inv (w_sess w) -> heap_members (w_sess w) ->
  refuse_bind (w_sess w) = ∅ -> stmts (w_sess w) = ∅ ->
  guarded eps w ops ->
  let s' := w_sess (run eps w ops) in
  exists nb, binds s' = nb ++ binds (w_sess w) /\
    (forall jid j, jobs s' !! jid = Some j -> ~ gang_ok (heap s') j ->
       forall b t, b ∈ nb -> heap s' !! b.1 = Some t -> t_job t <> jid) /\
    (forall i t, heap s' !! i = Some t -> t_status t <> Binding -> forall b, b ∈ nb -> b.1 <> i).
Proof.
  intros Hl Hm Href Hst Hg s'.
  destruct (bind_only_when_gang_ok eps w ops Hl Hm Href Hst Hg) as (nb & E & Hnb).
  exists nb. split; [done|]. split.
  - intros jid j Ej Hnok b t Hb Et Hjob. destruct (Hnb b Hb) as (t' & j' & Et' & _ & Ej' & Hok).
    fold s' in Et', Ej'. rewrite Et in Et'. injection Et' as <-. rewrite Hjob, Ej in Ej'. by injection Ej' as <-.
  - intros i t Et Hnb' b Hb <-. destruct (Hnb b Hb) as (t' & j' & Et' & Hbt & _).
    fold s' in Et'. rewrite Et in Et'. by injection Et' as <-.
Qed.
Print Assumptions C01_no_bind_without_gang.

(* consecutive cycles: the next snapshot has no tentative status left and a complete gang is
   still complete once its binds have become Bound pods *)
Theorem C01_cycles_compose h j :
  (forall i t, next_heap h !! i = Some t ->
     t_status t <> Allocated /\ t_status t <> Pipelined /\ t_status t <> Binding) /\
  (gang_ok h j -> gang_ok (next_heap h) j).
Proof. exact (cycles_compose h j). Qed.
Print Assumptions C01_cycles_compose.

(* the first half of the attempt guard (no_kept_alloc) holds of every job in a session that starts
   from a fed-back heap *)
Theorem C01_next_cycle_guard (s : sess) h jid : heap s = next_heap h -> no_kept_alloc s jid.
Proof. intros E i t Et _ Hal. rewrite E in Et. by destruct (next_heap_fresh h i t Et). Qed.
Print Assumptions C01_next_cycle_guard.

(* 5. non-vacuity: one attempt on a two-role gang at three node sizes (committed, kept, discarded),
   and the main theorem instantiated on the committed one *)
Example C01_ex_committed :
  hyps_okb (ex_case ex_cops 7000) = true /\
  binds_of (ex_case ex_cops 7000) = [(4, Some 1); (3, Some 1); (2, Some 1)]%positive /\
  status_after (ex_case ex_cops 7000) 2 = Some Binding.
Proof. exact ex_committed. Qed.
Print Assumptions C01_ex_committed.

Example C01_ex_kept :
  hyps_okb (ex_case ex_cops 4000) = true /\
  binds_of (ex_case ex_cops 4000) = [] /\
  status_after (ex_case ex_cops 4000) 2 = Some Allocated /\ status_after (ex_case ex_cops 4000) 4 = Some Pipelined.
Proof. exact ex_kept. Qed.
Print Assumptions C01_ex_kept.

Example C01_ex_discarded :
  hyps_okb (ex_case ex_cops 2500) = true /\
  binds_of (ex_case ex_cops 2500) = [] /\
  status_after (ex_case ex_cops 2500) 2 = Some Pending /\ status_after (ex_case ex_cops 2500) 3 = Some Pending.
Proof. exact ex_discarded. Qed.
Print Assumptions C01_ex_discarded.

Example C01_ex_theorem_applies :
  let c := ex_case ex_cops 7000 in
  binds_ok (w_sess (world_of c)) (w_sess (run (cc_eps c) (world_of c) (cc_cops c))) /\ length (binds_of c) = 3%nat.
Proof. exact ex_theorem_applies. Qed.
Print Assumptions C01_ex_theorem_applies.

(* 6. JobReady / JobPipelined of the gang plugin for a job WITH sub-group policies (gang.go 191-219:
   CheckTaskReady && CheckSubJobReady && IsReady): the policy-less conclusions and, for every policy
   with MinSubGroups <> 0, at least that many sub-groups with >= SubGroupSize occupied slots, counted
   over the sub-group's task list *)
Theorem C01_gang_ready_sub_spec h sg : job_inv h (sg_job sg) ->
  (gang_job_ready_sub h sg = true <-> gang_cond session_ready h (sg_job sg) /\ sub_groups_cond session_ready h sg) /\
  (gang_job_pipelined_sub h sg = true <-> gang_cond session_pipelined h (sg_job sg) /\ sub_groups_cond session_pipelined h sg).
Proof. exact (gang_ready_sub_spec h sg). Qed.
Print Assumptions C01_gang_ready_sub_spec.

Theorem C01_gang_ready_sub_sound h sg : job_inv h (sg_job sg) -> gang_job_ready_sub h sg = true ->
  gang_cond session_ready h (sg_job sg) /\
  forall g m, sg_min_subs sg !! g = Some m -> m <> 0 ->
    m <= subs_with sg g (fun sj => sj_min sj <=? count_tasks session_ready (tasks_in h (sj_tasks sj))).
Proof. intros Hj Hr. by apply (proj1 (gang_ready_sub_spec h sg Hj)). Qed.
Print Assumptions C01_gang_ready_sub_sound.

Example C01_ex_sg_incomplete :
  let '(h, sg) := ex_sg Pending in
  gang_job_ready h (sg_job sg) = true /\ gang_job_ready_sub h sg = false /\
  subs_with sg 1 (sub_ready h) = 1 /\ gang_job_valid_sub h sg = 0.
Proof. exact ex_sg_incomplete. Qed.
Print Assumptions C01_ex_sg_incomplete.

Example C01_ex_sg_complete :
  let '(h, sg) := ex_sg Allocated in
  gang_job_ready_sub h sg = true /\ subs_with sg 1 (sub_ready h) = 2.
Proof. exact ex_sg_complete. Qed.
Print Assumptions C01_ex_sg_complete.

Example C01_ex_sg_pipelined :
  let '(h, sg) := ex_sg Pipelined in
  gang_job_ready_sub h sg = false /\ gang_job_pipelined_sub h sg = true.
Proof. exact ex_sg_pipelined. Qed.
Print Assumptions C01_ex_sg_pipelined.

(* 7. a history over the Statement / Session operations WITHOUT Statement.Allocate, Session.Allocate and
   RecoverOperations (what preempt and reclaim are made of: Pipeline, Evict, Merge, Commit, Discard),
   started with no Allocate operation in any statement of SS (the statements the history works on),
   adds nothing to the bind log *)
Theorem C01_evict_ops_no_bind eps (SS : positive -> Prop) ops s :
  Forall (evict_alphabet SS) ops -> no_alloc_ops SS s ->
  binds (StmtModel.run eps s ops) = binds s /\ no_alloc_ops SS (StmtModel.run eps s ops).
Proof. exact (evict_ops_no_bind eps SS ops s). Qed.
Print Assumptions C01_evict_ops_no_bind.

(* 8. the gang theorem for choice lists of the one-allocate SHAPE [kept_free]: no job is
   attempted again after an attempt that the MODEL decides not to commit (allocate.go 305-356 re-pushes a
   job only after Commit); backfill placements anywhere.  [kept_free] is still a hypothesis about the
   run: it recurses through [step] and branches on the model's [decide] in every intermediate world
   (the same choice list can have the shape on one cluster and not on another).  What it replaces is
   the state invariant [guarded]; what it asks for is the closed-loop behaviour of allocate's queue
   loop, which is NOT modelled here: that real single-allocate runs have the shape is checked per
   real trace by law 104.  Only [C01_gang_ok_attempt_once] below has a purely syntactic hypothesis. *)
Theorem C01_kept_free_guarded eps ops w K :
  winv w -> kinv (w_sess w) K -> kept_free eps w K ops -> guarded eps w ops.
Proof. exact (kept_free_guarded eps ops w K). Qed.
Print Assumptions C01_kept_free_guarded.

Theorem C01_gang_ok_one_allocate eps w ops :
  ledger_inv (w_sess w) -> heap_members (w_sess w) ->
  refuse_bind (w_sess w) = ∅ -> stmts (w_sess w) = ∅ -> no_tentative (w_sess w) ->
  kept_free eps w ∅ ops ->
  binds_ok (w_sess w) (w_sess (CycleModel.run eps w ops)).
Proof. exact (gang_ok_one_allocate eps w ops). Qed.
Print Assumptions C01_gang_ok_one_allocate.

(* purely syntactic hypothesis: every job attempted at most once *)
Theorem C01_gang_ok_attempt_once eps w ops :
  ledger_inv (w_sess w) -> heap_members (w_sess w) ->
  refuse_bind (w_sess w) = ∅ -> stmts (w_sess w) = ∅ -> no_tentative (w_sess w) ->
  NoDup (attempt_jobs ops) -> static_non_be (w_sess w) ops ->
  binds_ok (w_sess w) (w_sess (CycleModel.run eps w ops)).
Proof. exact (gang_ok_attempt_once eps w ops). Qed.
Print Assumptions C01_gang_ok_attempt_once.

Theorem C01_kept_freeb_sound eps ops w K : kept_freeb eps w K ops = true -> kept_free eps w K ops.
Proof. exact (kept_freeb_sound eps ops w K). Qed.
Print Assumptions C01_kept_freeb_sound.

(* 9. at bind time: the binds a step sends are complete gangs in the session right after it *)
Theorem C01_bind_time_gang_ok eps w ops1 o ops2 :
  gang_inv (w_sess w) -> refuse_bind (w_sess w) = ∅ -> stmts (w_sess w) = ∅ ->
  guarded eps w (ops1 ++ o :: ops2) ->
  let w1 := CycleModel.run eps w ops1 in
  let w2 := (CycleModel.step eps w1 o).1 in
  exists nb, binds (w_sess w2) = nb ++ binds (w_sess w1) /\ forall b, b ∈ nb -> bound_ok (w_sess w2) b.1.
Proof.
  intros Hinv Href Hst Hg w1 w2. apply guarded_app in Hg as [Hg1 [Hgo _]].
  destruct (run_spec eps ops1 w (winv_intro w Hinv Href Hst) Hg1) as [Hw1 _].
  exact (proj2 (proj2 (step_spec eps w1 o Hw1 Hgo))).
Qed.
Print Assumptions C01_bind_time_gang_ok.

(* 10. allocate / backfill choices followed, in the same session, by any preempt / reclaim
   history on fresh statements: no further bind, even with kept statements left by allocate *)
Theorem C01_alloc_then_evict_no_new_bind eps w cops eops :
  gang_inv (w_sess w) -> refuse_bind (w_sess w) = ∅ -> stmts (w_sess w) = ∅ ->
  guarded eps w cops ->
  let w' := CycleModel.run eps w cops in
  Forall (evict_alphabet (fresh_ids w')) eops ->
  binds (StmtModel.run eps (w_sess w') eops) = binds (w_sess w') /\
  binds_ok (w_sess w) (w_sess w').
Proof. exact (alloc_then_evict_no_new_bind eps w cops eops). Qed.
Print Assumptions C01_alloc_then_evict_no_new_bind.

(* 11. consecutive cycles as a history: every cycle a choice list of the one-allocate shape,
   started from the session fed back by the previous one; every bind of every cycle is a complete gang *)
Theorem C01_cycles_gang_ok eps cs w :
  gang_inv (w_sess w) -> refuse_bind (w_sess w) = ∅ -> stmts (w_sess w) = ∅ -> no_tentative (w_sess w) ->
  cycles_shape eps w cs -> cycles_binds_ok eps w cs.
Proof. exact (cycles_gang_ok eps cs w). Qed.
Print Assumptions C01_cycles_gang_ok.

Theorem C01_next_sess_gang_inv s : gang_inv s -> gang_inv (next_sess s).
Proof. exact (next_sess_gang_inv s). Qed.
Print Assumptions C01_next_sess_gang_inv.

(* 12. the bind-fault boundary: with a refused AddBindTask the theorem is false *)
Theorem C01_bind_fault_refuted :
  exists eps w ops,
    gang_inv (w_sess w) /\ stmts (w_sess w) = ∅ /\ no_tentative (w_sess w) /\ kept_free eps w ∅ ops /\
    refuse_bind (w_sess w) <> ∅ /\
    let s' := w_sess (CycleModel.run eps w ops) in
    exists b j, b ∈ binds s' /\ (exists t, heap s' !! b.1 = Some t /\ jobs s' !! t_job t = Some j) /\ ~ gang_ok (heap s') j.
Proof.
  exists eps0, fault_world, ex_cops.
  pose proof fault_check_true as [[[[H1 H2]%andb_true_iff H3]%andb_true_iff H4]%andb_true_iff H5]%andb_true_iff.
  split; [by apply ginvb_sound|]. split; [by apply bool_decide_eq_true in H2|].
  split; [by apply no_tentativeb_sound|]. split; [by apply kept_freeb_sound|].
  split; [exact (non_empty_singleton_L (C := gset positive) 3%positive)|].
  destruct (partial_bind_b_sound _ _ _ H5) as (j & Hj). exists (2%positive, Some 1%positive), j. exact Hj.
Qed.
Print Assumptions C01_bind_fault_refuted.

(* 13. what the executable laws mean *)
Theorem C01_law_gang_sound c d bound : CycleLaws.law_gang c d bound = true ->
  (forall j, In j (cc_jobs c) ->
     (exists t, In t (CycleLaws.spec_tasks c) /\ t_job t = js_id j /\ t_id t ∈ bound) ->
     js_min j <= CycleLaws.count_tasks (CycleLaws.visible_ready d) (job_spec_tasks c j) /\
     (fold_left (fun acc kv => acc + snd kv) (js_role_min j) 0 <= js_min j ->
      forall r m, In (r, m) (js_role_min j) ->
        m <= CycleLaws.count_tasks (fun t => CycleLaws.visible_ready d t && bool_decide (t_role t = r)) (job_spec_tasks c j))) /\
  (forall t, In t (CycleLaws.spec_tasks c) -> t_id t ∈ bound -> CycleLaws.final_status d t = Binding).
Proof. exact (law_gang_sound c d bound). Qed.
Print Assumptions C01_law_gang_sound.

Theorem C01_law_gang_sub_sound jobs ts bound : law_gang_sub jobs ts bound = true ->
  (forall j, In j jobs ->
     let tj := job_tasks jobs ts j in
     (exists t, In t tj /\ In (mt_id t) bound) ->
     mj_min j <= mcount mvisible tj /\ role_clause_P j tj /\ sub_clause_P j tj) /\
  (forall t, In t (map (norm_task jobs) ts) -> In (mt_id t) bound -> mt_final t = Binding).
Proof. exact (law_gang_sub_sound jobs ts bound). Qed.
Print Assumptions C01_law_gang_sub_sound.

(* richer non-vacuity: two gangs, a commit followed by a re-attempt of the same job, a backfill of an
   empty-request pod; the headline theorem instantiated through ledger_okb_sound_b *)
Example C01_ex2_theorem_applies :
  let c := ex2_case ex2_cops in
  binds_ok (w_sess (world_of c)) (w_sess (CycleModel.run (cc_eps c) (world_of c) (cc_cops c))) /\
  length (binds_of c) = 5%nat.
Proof. exact ex2_theorem_applies. Qed.
Print Assumptions C01_ex2_theorem_applies.

Example C01_f10_not_kept_free : kept_freeb eps0 f10_world ∅ f10_cops = false.
Proof. exact f10_not_kept_free. Qed.
Print Assumptions C01_f10_not_kept_free.
