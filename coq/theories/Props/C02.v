(* Property C02 -- scheduler decisions never overcommit a node.  The property theorems, each followed
   by Print Assumptions.  A proof stands here when nothing else needs the fact; otherwise the theorem
   is `exact` of a lemma of Sched/NodeCap*.v, Sched/NodeSum*.v, C02/BindLemmas.v, C02/BindEx.v. *)
From V Require Import Base.ResLemmas Sched.LedgerLemmasA.
From Coq Require Import Lia List.
From stdpp Require Import gmap.
From Coq Require Import ZArith.
From V Require Import Sched.LedgerCodec.
From V Require Import Base.Res Sched.LedgerModel Sched.StmtModel Sched.GangModel Sched.CycleModel Sched.LedgerInvP
                      Sched.NodeCapLemmas Sched.NodeCapLemmasCycle Sched.NodeCapCheck Sched.NodeCapLemmasEvict Sched.NodeCapEvictEx
                      Sched.NodeSumLemmas Sched.NodeSumCheck Sched.NodeCapSelectVictims C02.BindModel C02.BindLemmas C02.BindEx.
Open Scope Z_scope.

(* NodeInfo.AddTask under the guard of its caller keeps the node within capacity *)
Theorem C02_node_add_guarded_keeps_capacity : forall eps, 0 < eps -> forall n t n' t',
  node_within_capacity eps n -> nonneg (t_req t) -> add_guard eps n t ->
  node_add eps n t = inl (n', t') -> node_within_capacity eps n'.
Proof. exact node_add_guarded_keeps_capacity. Qed.
Print Assumptions C02_node_add_guarded_keeps_capacity.

Theorem C02_node_add_allocated_keeps_capacity : forall eps, 0 < eps -> forall n t n' t',
  node_within_capacity eps n -> nonneg (t_req t) -> granular eps (t_req t) ->
  t_status t = Allocated ->
  less_equal eps (t_req t) (n_idle n) DZero = true ->
  less_equal_names eps (t_req t) (future_idle n) DZero = true ->
  node_add eps n t = inl (n', t') -> node_within_capacity eps n'.
Proof.
  intros eps He n t n' t' Hn Hnn _ Est H1 H2. apply (node_add_guarded_keeps_capacity eps He n t n' t' Hn Hnn).
  unfold add_guard. rewrite Est. rewrite (less_equal_names_zero eps) in H2.
  split; [apply (fits_idle eps He n (t_req t))|apply (fits_fut eps He n (t_req t))]; try assumption; intros; lia.
Qed.
Print Assumptions C02_node_add_allocated_keeps_capacity.

Theorem C02_node_add_pipelined_keeps_capacity : forall eps, 0 < eps -> forall n t n' t',
  node_within_capacity eps n -> nonneg (t_req t) -> granular eps (t_req t) ->
  t_status t = Pipelined ->
  less_equal eps (t_req t) (future_idle n) DZero = true ->
  node_add eps n t = inl (n', t') -> node_within_capacity eps n'.
Proof.
  intros eps He n t n' t' Hn Hnn _ Est H1. apply (node_add_guarded_keeps_capacity eps He n t n' t' Hn Hnn).
  unfold add_guard. rewrite Est. apply (fits_fut eps He n (t_req t)); try assumption. intros; lia.
Qed.
Print Assumptions C02_node_add_pipelined_keeps_capacity.

(* the Binding re-check keeps Idle above -eps for ANY request ... *)
Theorem C02_node_add_binding_keeps_idle : forall eps, 0 < eps -> forall n t n' t',
  idle_ok eps n -> t_status t = Binding ->
  node_add eps n t = inl (n', t') -> idle_ok eps n'.
Proof. exact node_add_binding_keeps_idle. Qed.
Print Assumptions C02_node_add_binding_keeps_idle.

(* on the bind path every dimension is guarded, 'pods' included *)
Theorem C02_node_add_binding_keeps_idle_all : forall eps, 0 < eps -> forall n t n' t',
  idle_all_ok eps n -> t_status t = Binding ->
  node_add eps n t = inl (n', t') -> idle_all_ok eps n'.
Proof. exact node_add_binding_keeps_idle_all. Qed.
Print Assumptions C02_node_add_binding_keeps_idle_all.

(* ... but it does not look at FutureIdle (planned statement refuted; witness: a node holding a
   pipelined task) *)
Theorem C02_binding_recheck_ignores_future_refuted :
  exists n t n' t',
    node_within_capacity 2 n /\ nonneg (t_req t) /\ granular 2 (t_req t) /\ t_status t = Binding /\
    node_add 2 n t = inl (n', t') /\ ~ node_within_capacity 2 n'.
Proof. exact binding_recheck_ignores_future_refuted. Qed.
Print Assumptions C02_binding_recheck_ignores_future_refuted.

Theorem C02_node_remove_keeps_capacity : forall eps n tid,
  node_within_capacity eps n -> (forall c, n_tasks n !! tid = Some c -> nonneg (t_req c)) ->
  node_within_capacity eps (node_remove n tid).
Proof. exact node_remove_keeps_capacity. Qed.
Print Assumptions C02_node_remove_keeps_capacity.

(* one step of the action skeleton moves the nodes by guarded AddTask / RemoveTask calls only *)
Theorem C02_step_is_guarded_node_ops : forall eps, 0 < eps -> forall w o,
  world_ok eps w ->
  nsteps eps (nodes (w_sess w)) (nodes (w_sess (fst (step eps w o)))).
Proof. exact step_nodes. Qed.
Print Assumptions C02_step_is_guarded_node_ops.

Theorem C02_guarded_node_ops_are_safe : forall eps, 0 < eps -> forall a b,
  nsteps eps a b -> nodes_safe eps a -> nodes_safe eps b.
Proof. exact nsteps_safe. Qed.
Print Assumptions C02_guarded_node_ops_are_safe.

(* main theorem for the allocate / backfill skeleton *)
Theorem C02_cycle_no_overcommit : forall eps, 0 < eps -> forall w ops k i n,
  world_ok eps w ->
  nodes (w_sess (run eps w (take k ops))) !! i = Some n -> node_within_capacity eps n.
Proof. exact cycle_no_overcommit. Qed.
Print Assumptions C02_cycle_no_overcommit.

(* THE PROPERTY'S WORDING, cycles: in every state reached by any list of allocate
   attempts and backfill placements from a world that is within capacity and whose node ledgers
   account for the copies they hold, on every node with a Node object and every guarded dimension:
   the summed requests of the held tasks (all but the pipelined ones: bound, binding, allocated,
   running, terminating) stay below allocatable + eps, and the summed pipelined requests below what
   the node will have free once its terminating tasks are gone (allocatable - staying) + eps *)
Theorem C02_cycle_sums_within_allocatable : forall eps, 0 < eps -> forall w ops k i n d,
  world_ok eps w -> nodes_acct (nodes (w_sess w)) ->
  nodes (w_sess (run eps w (take k ops))) !! i = Some n -> n_has_node n = true -> guarded_dim d ->
  csum (used_amt d) (n_tasks n) < amt (n_alloc n) d + eps /\
  csum (pip_amt d) (n_tasks n) < (amt (n_alloc n) d - (csum (used_amt d) (n_tasks n) - csum (rel_amt d) (n_tasks n))) + eps.
Proof. exact cycle_sums_within_allocatable. Qed.
Print Assumptions C02_cycle_sums_within_allocatable.

(* the ledger identity is an invariant of AddTask / RemoveTask, hence of every sequence of them
   (every step of the skeleton is such a sequence: C02_step_is_guarded_node_ops) *)
Theorem C02_node_add_acct : forall eps n t n' t',
  node_acct n -> nonneg (t_req t) -> node_add eps n t = inl (n', t') -> node_acct n'.
Proof. exact node_add_acct. Qed.
Print Assumptions C02_node_add_acct.

Theorem C02_node_remove_acct : forall n tid, node_acct n -> node_acct (node_remove n tid).
Proof. exact node_remove_acct. Qed.
Print Assumptions C02_node_remove_acct.

Theorem C02_nsteps_acct : forall eps a b, nsteps eps a b -> nodes_acct a -> nodes_acct b.
Proof. exact nsteps_acct. Qed.
Print Assumptions C02_nsteps_acct.

(* on a grid of step g >= eps the tolerance disappears: <= exactly *)
Theorem C02_sums_within_allocatable_grid : forall eps g n d,
  0 < eps -> eps <= g ->
  node_within_capacity eps n -> node_acct n -> n_has_node n = true -> guarded_dim d -> node_on_grid g n d ->
  csum (used_amt d) (n_tasks n) <= amt (n_alloc n) d /\
  csum (pip_amt d) (n_tasks n) <= amt (n_alloc n) d - (csum (used_amt d) (n_tasks n) - csum (rel_amt d) (n_tasks n)).
Proof. exact sums_within_allocatable_grid. Qed.
Print Assumptions C02_sums_within_allocatable_grid.

(* base case: the constructor of initial sessions establishes the accounting invariant *)
Theorem C02_build_nodes_acct : forall eps ns js ts,
  (forall t, t ∈ ts -> 0 <= ts_cpu t /\ 0 <= ts_mem t /\ 0 <= ts_gpu t) ->
  nodes_acct (nodes (build eps ns js ts)).
Proof. exact build_nodes_acct. Qed.
Print Assumptions C02_build_nodes_acct.

(* the executable accounting check used by law 113 is sound *)
Theorem C02_nodes_acct_b_sound : forall ns, nodes_acct_b ns = true -> nodes_acct ns.
Proof. exact nodes_acct_b_sound. Qed.
Print Assumptions C02_nodes_acct_b_sound.

Theorem C02_best_effort_zero : forall eps, 0 < eps -> forall t d,
  task_ok eps t -> t_best_effort t = true -> guarded_dim d -> amt (t_req t) d = 0.
Proof. exact best_effort_zero. Qed.
Print Assumptions C02_best_effort_zero.

(* the same fact as C02_sums_within_allocatable_grid, in the vocabulary of node_inv (sum_amt over
   copies, on_grid) instead of node_acct (csum over the task map, node_on_grid); both are sums_grid *)
Theorem C02_grid_no_overcommit : forall eps g,
  0 < eps -> eps <= g -> forall h n d,
  node_inv h n -> n_has_node n = true -> node_within_capacity eps n -> guarded_dim d -> on_grid g n d ->
  sum_amt (used_amt d) (copies n) <= amt (n_alloc n) d /\
  sum_amt (used_amt d) (copies n) - sum_amt (rel_amt d) (copies n) + sum_amt (pip_amt d) (copies n) <= amt (n_alloc n) d.
Proof.
  intros eps g He Hg h n d [_ Hinv] Hh Hc Hd [Ha Hall]. destruct (Hinv Hh) as (Hu & Hr & Hp & Hsum).
  assert (Hsums : node_sums n).
  { intros _ d'. specialize (Hsum d').
    rewrite <- (csum_copies (used_amt d')), <- (csum_copies (rel_amt d')), <- (csum_copies (pip_amt d')), <- Hu, <- Hr, <- Hp.
    repeat split; lia. }
  assert (Hgrid : node_on_grid g n d).
  { split; [exact Ha|]. intros k c Hl. rewrite Forall_forall in Hall. apply Hall, elem_of_copies. eauto. }
  destruct (sums_grid eps g n d He Hg Hc Hsums Hh Hd Hgrid) as [H1 H2].
  rewrite <- (csum_copies (used_amt d)) in H1, H2. rewrite <- (csum_copies (rel_amt d)), <- (csum_copies (pip_amt d)) in H2. lia.
Qed.
Print Assumptions C02_grid_no_overcommit.

(* the executable hypothesis check used by law 113 is sound *)
Theorem C02_world_ok_b_sound : forall eps w, 0 < eps -> world_ok_b eps w = true -> world_ok eps w.
Proof. exact world_ok_b_sound. Qed.
Print Assumptions C02_world_ok_b_sound.

(* bind admission: any sequence of AddBindTask calls keeps every node's Idle above -eps *)
Theorem C02_bind_admission_safe : forall eps, 0 < eps -> forall c l k,
  nodes_all (idle_ok eps) (c_nodes c) ->
  nodes_all (idle_ok eps) (c_nodes (bind_state eps c (take k l))).
Proof. exact bind_admission_safe. Qed.
Print Assumptions C02_bind_admission_safe.

(* the same over every dimension, 'pods' included (binds only) *)
Theorem C02_bind_admission_all_dims : forall eps, 0 < eps -> forall c l k,
  nodes_all (idle_all_ok eps) (c_nodes c) ->
  nodes_all (idle_all_ok eps) (c_nodes (bind_state eps c (take k l))).
Proof. exact bind_admission_all_dims. Qed.
Print Assumptions C02_bind_admission_all_dims.

Theorem C02_bind_admission_safe_full : forall eps, 0 < eps -> forall c l k,
  nodes_all (cache_node_ok eps) (c_nodes c) ->
  nodes_all (cache_node_ok eps) (c_nodes (bind_state eps c (take k l))).
Proof.
  intros eps He c l k. apply bind_state_keeps. intros n t n' t' [Hn Hp] Hst Ha.
  exact (node_add_binding_keeps_capacity eps He n t n' t' Hn Hp Hst Ha).
Qed.
Print Assumptions C02_bind_admission_safe_full.

Theorem C02_agent_bind_admission_safe : forall eps, 0 < eps -> forall ns l k,
  nodes_all (idle_ok eps) ns -> nodes_all (idle_ok eps) (agent_state eps ns (take k l)).
Proof. exact agent_bind_admission_safe. Qed.
Print Assumptions C02_agent_bind_admission_safe.

Theorem C02_rejected_bind_unchanged : forall eps c r,
  heap_keyed (c_heap c) -> snd (add_bind_task eps c r) <> BOk ->
  let c' := fst (add_bind_task eps c r) in
  c_nodes c' = c_nodes c /\ c_heap c' = c_heap c /\
  (c_jobs c' = c_jobs c \/
   exists j t, c_jobs c !! b_job r = Some j /\ c_heap c !! b_task r = Some t /\ b_task r ∈ j_tasks j /\
               c_jobs c' = <[b_job r := job_roundtrip (c_heap c) j t]> (c_jobs c)).
Proof.
  intros eps c r Hk.
  destruct (add_bind_task_outcome eps c r) as [e _|j t n n' t' _ _ _ _ _|j t n e Hj Hin Ht _ _ _];
    cbn [fst snd c_nodes c_heap c_jobs]; [auto|congruence|].
  intros _. split; [reflexivity|]. split; [rewrite insert_insert; apply insert_id; exact Ht|].
  right. exists j, t. repeat split; try assumption. unfold job_roundtrip. rewrite (Hk _ _ Ht). reflexivity.
Qed.
Print Assumptions C02_rejected_bind_unchanged.

Theorem C02_job_roundtrip_same : forall h j t,
  h !! t_id t = Some t -> t_id t ∈ j_tasks j ->
  let j' := job_roundtrip h j t in
  j_id j' = j_id j /\ j_queue j' = j_queue j /\ j_min j' = j_min j /\ j_role_min j' = j_role_min j /\
  j_tasks j' = j_tasks j /\
  (sc (j_total j) <> None -> forall d, amt (j_total j') d = amt (j_total j) d) /\
  ((allocated_status (t_status t) = true -> sc (j_alloc j) <> None) -> forall d, amt (j_alloc j') d = amt (j_alloc j) d) /\
  (t_id t ∈ idx_set (j_index j) (t_status t) -> (forall s, s <> t_status t -> t_id t ∉ idx_set (j_index j) s) ->
   forall s, idx_set (j_index j') s = idx_set (j_index j) s).
Proof.
  intros h j t Hh Hin. unfold job_roundtrip, job_update. cbv beta zeta iota.
  change (t_id (set_status t Binding)) with (t_id t).
  rewrite (bool_decide_eq_true_2 _ Hin), Hh.
  set (j1 := job_add (job_del j t) (set_status t Binding)).
  assert (Hin1 : t_id t ∈ j_tasks j1) by (simpl; set_solver).
  rewrite (bool_decide_eq_true_2 _ Hin1), lookup_insert. simpl fst.
  repeat split; try reflexivity.
  - simpl. apply set_eq. intros x. rewrite !elem_of_union, !elem_of_difference, !elem_of_union, !elem_of_difference, !elem_of_singleton.
    split; [intros [->|[[->|[H _]] _]]; try assumption; exact Hin|].
    intros Hx. destruct (Pos.eq_dec x (t_id t)); [left; assumption|right; split; [right; split; assumption|assumption]].
  - intros Hs d. simpl. rewrite amt_add, amt_add_sub, amt_sub_some by exact Hs. lia.
  - intros Hs d. simpl. destruct (allocated_status (t_status t)) eqn:Ea.
    + rewrite amt_add, amt_add_sub, amt_sub_some by (apply Hs; reflexivity). lia.
    + apply amt_add_sub.
  - intros H1 H2 s. simpl. apply idx_roundtrip; assumption.
Qed.
Print Assumptions C02_job_roundtrip_same.

(* cache events between the binds *)

(* NodeInfo.SetNode recomputes Idle = Allocatable - sum of the held non-pipelined requests *)
Theorem C02_node_set_idle : forall n alloc,
  sc alloc <> None ->
  sc (n_idle (node_set n alloc)) <> None /\ n_tasks (node_set n alloc) = n_tasks n /\ n_has_node (node_set n alloc) = true /\
  forall d, amt (n_idle (node_set n alloc)) d = amt alloc d - sum_amt (used_amt d) (copies n).
Proof. exact node_set_idle. Qed.
Print Assumptions C02_node_set_idle.

Theorem C02_node_set_same_alloc : forall n,
  sc (n_alloc n) <> None ->
  (forall d, amt (n_idle n) d = amt (n_alloc n) d - sum_amt (used_amt d) (copies n)) ->
  forall d, amt (n_idle (node_set n (n_alloc n))) d = amt (n_idle n) d.
Proof. intros n Hs Hinv d. destruct (node_set_idle n (n_alloc n) Hs) as (_ & _ & _ & H). rewrite (H d), (Hinv d). reflexivity. Qed.
Print Assumptions C02_node_set_same_alloc.

Theorem C02_cache_event_keeps : forall eps, 0 < eps -> forall c e,
  cinv eps c -> ev_ok eps c e -> cinv eps (cache_event eps c e).
Proof. exact cache_event_keeps. Qed.
Print Assumptions C02_cache_event_keeps.

Theorem C02_bind_events_safe : forall eps, 0 < eps -> forall l c k,
  cinv eps c -> ops_ok eps c l -> cinv eps (ops_state eps c (take k l)).
Proof. exact bind_events_safe. Qed.
Print Assumptions C02_bind_events_safe.

Theorem C02_bind_events_idle : forall eps, 0 < eps -> forall l c k i n,
  cinv eps c -> ops_ok eps c l -> c_nodes (ops_state eps c (take k l)) !! i = Some n -> n_has_node n = true -> idle_ok eps n.
Proof.
  intros eps He l c k i n Hc Hok Hl Hh. destruct (bind_events_safe eps He l c k Hc Hok) as [_ Hall]. apply (Hall _ _ Hl). exact Hh.
Qed.
Print Assumptions C02_bind_events_idle.

(* THE PROPERTY'S WORDING, bind admission: in every state reached by any history of
   AddBindTask calls and cache events, on every node that has its Node object: the summed requests
   of ALL the tasks the node holds stay below allocatable + eps *)
Theorem C02_bind_events_sums : forall eps, 0 < eps -> forall l c k i n d,
  cinv eps c -> ops_ok eps c l -> c_nodes (ops_state eps c (take k l)) !! i = Some n -> n_has_node n = true -> guarded_dim d ->
  csum (used_amt d) (n_tasks n) < amt (n_alloc n) d + eps /\
  csum (used_amt d) (n_tasks n) = csum (req_amt d) (n_tasks n).
Proof. exact bind_events_sums. Qed.
Print Assumptions C02_bind_events_sums.

(* SetNode leaves a node that accounts for exactly the copies it holds *)
Theorem C02_node_set_acct : forall n alloc,
  sc alloc <> None -> (forall k c, n_tasks n !! k = Some c -> nonneg (t_req c)) ->
  node_acct (node_set n alloc) /\ n_alloc (node_set n alloc) = alloc.
Proof. exact node_set_acct. Qed.
Print Assumptions C02_node_set_acct.

(* the agent scheduler's cache: binds interleaved with the same events *)
Theorem C02_agent_events_safe : forall eps, 0 < eps -> forall tasks l ns k,
  nodes_all (bnode_ok eps) ns -> agent_ops_ok eps tasks ns l ->
  nodes_all (bnode_ok eps) (fold_left (agent_step eps tasks) (take k l) ns).
Proof. exact agent_events_safe. Qed.
Print Assumptions C02_agent_events_safe.

(* agent scheduler cache, bind execution over a BATCH of accepted contexts (BATCH_BIND_NUM > 1).
   BindModel.flow_batch is DEFINED as the fold of single-context resyncs (failed pre-binds, then the
   bindings the binder reports failed per task); that it is what BindTask does is established by the
   correspondence of the agent stream only.  The content is below: safety, both directions
   of the per-context mechanism, law 117 of the model, and the refutation of the batch-wide reading. *)
(* whatever the pre-binders and the binder answer, the batch keeps every node ledger sound (idle
   bounds, ledger identity node_acct) *)
Theorem C02_flow_batch_safe : forall eps, 0 < eps -> forall tasks pf bf ns pending,
  nodes_all (bnode_ok eps) ns -> nodes_all (bnode_ok eps) (fst (flow_batch eps tasks pf bf ns pending)).
Proof. exact flow_batch_safe. Qed.
Print Assumptions C02_flow_batch_safe.

(* the mechanism (law 117): a context that no failure names is on its node's ledger after the batch
   exactly as before, whatever happened to the other contexts of its batch *)
Theorem C02_flow_batch_keeps_bound : forall eps tasks pf bf ns pending tid nid,
  tid ∉ pf -> tid ∉ bf ->
  on_ledger (fst (flow_batch eps tasks pf bf ns pending)) tid nid = on_ledger ns tid nid.
Proof. exact flow_batch_keeps_bound. Qed.
Print Assumptions C02_flow_batch_keeps_bound.

(* the other direction: a context of the batch that a failure names is off its node's ledger *)
Theorem C02_flow_batch_drops_named : forall eps tasks pf bf ns pending tid nid,
  (tid, nid) ∈ pending -> tid ∈ pf \/ tid ∈ bf ->
  on_ledger (fst (flow_batch eps tasks pf bf ns pending)) tid nid = None.
Proof. exact flow_batch_drops_named. Qed.
Print Assumptions C02_flow_batch_drops_named.

(* law 117 (the extracted law_batch the driver evaluates on the real before / after observations)
   holds of the model's batch, for every fault script and every state *)
Theorem C02_law_batch_sound : forall eps tasks pf bf ns pending,
  law_batch (pf, bf, map (fun p => (p.1, p.2, held_b ns p, held_b (fst (flow_batch eps tasks pf bf ns pending)) p)) pending) = true.
Proof. exact law_batch_sound. Qed.
Print Assumptions C02_law_batch_sound.

(* a failure applied batch-wide (seeded mutant C02-r8-2) takes a pod the API server bound off the
   ledger; the next bind is admitted into its room: 1500m + 2000m on 3000m *)
Theorem C02_batch_wide_failure_refuted :
  snd (flow_batch 2 fb_tasks [] [1%positive] fb_admitted fb_pending) = [(2, 1)]%positive /\
  (let ns := fst (flow_batch 2 fb_tasks [] [1%positive] fb_admitted fb_pending) in
   cpu_held ns = 1500 * 16 /\ snd (agent_add_bind_task 2 ns (fb_t 3) 1%positive) = BRefused ErrInsufficient) /\
  (let ns := flow_batch_wide 2 fb_tasks [] [1%positive] fb_admitted fb_pending in
   cpu_held ns = 0 /\ snd (agent_add_bind_task 2 ns (fb_t 3) 1%positive) = BOk /\
   cpu_held (fst (agent_add_bind_task 2 ns (fb_t 3) 1%positive)) = 2000 * 16).
Proof.
  vm_compute. repeat split; reflexivity.
Qed.
Print Assumptions C02_batch_wide_failure_refuted.

(* the executable form of cinv used by law 115 is sound *)
Theorem C02_cinv_b_sound : forall eps c, 0 < eps -> cinv_b eps c = true -> cinv eps c.
Proof. exact cinv_b_sound. Qed.
Print Assumptions C02_cinv_b_sound.

(* agent scheduler cache: RemoveNode + re-add forgets what the node held (known finding
   C02-agent-remove-node-forgets-held-tasks, reproduced on the real agent cache): agent_events_safe
   speaks about the copies the cache holds, which after this history are fewer than what is placed *)
Theorem C02_agent_remove_readd_forgets_refuted :
  map fst (map_to_list (n_tasks (bx_node bx_cache))) = [1%positive] /\
  match ag_final !! 1%positive with
  | Some n => (map fst (map_to_list (n_tasks n)), csum (used_amt DCpu) (n_tasks n), nwc_b 2 n)
  | None => ([], 0, false)
  end = ([2%positive], 32000, true) /\
  amt (t_req ag_t2) DCpu + csum (used_amt DCpu) (n_tasks (bx_node bx_cache)) = 64000 /\ amt bx_alloc DCpu = 48000.
Proof. exact agent_remove_readd_forgets_refuted. Qed.
Print Assumptions C02_agent_remove_readd_forgets_refuted.

(* a target without Node object is refused and nothing is touched (after fix 8dab8c3) *)
Theorem C02_bind_needs_node_object : forall eps c r n,
  c_nodes c !! b_node r = Some n -> n_has_node n = false ->
  fst (add_bind_task eps c r) = c /\ snd (add_bind_task eps c r) <> BOk.
Proof. exact bind_needs_node_object. Qed.
Print Assumptions C02_bind_needs_node_object.

(* pre-fix witness: with the AddBindTask of before fix 8dab8c3 "rejects instead of overcommitting" was
   false for a target without Node object (reproduced on the real cache before the fix) *)
Theorem C02_bind_to_placeholder_unchecked_refuted :
  cinv_b 2 bx_cache = true /\
  ops_results_prefix 2 bx_cache bx_bad_ops = [None; Some BOk; None] /\
  n_has_node (bx_node (ops_state_prefix 2 bx_cache bx_bad_ops)) = true /\
  n_alloc (bx_node (ops_state_prefix 2 bx_cache bx_bad_ops)) = bx_alloc /\
  csum (used_amt DCpu) (n_tasks (bx_node (ops_state_prefix 2 bx_cache bx_bad_ops))) = 64000 /\ amt bx_alloc DCpu = 48000 /\
  ~ idle_ok 2 (bx_node (ops_state_prefix 2 bx_cache bx_bad_ops)).
Proof. exact bind_to_placeholder_unchecked_refuted. Qed.
Print Assumptions C02_bind_to_placeholder_unchecked_refuted.

(* evictions (preempt / reclaim) *)

(* Statement.Evict on the node: Idle and Pipelined keep their amounts, Releasing (hence FutureIdle)
   grows by exactly the victim's request *)
Theorem C02_node_update_evict : forall eps n p c n' p',
  sc (n_idle n) <> None ->
  n_tasks n !! t_id p = Some c -> t_req c = t_req p -> plain (t_status c) ->
  t_status p = Releasing \/ plain (t_status p) ->
  node_update eps n p = inl (n', p') ->
  sc (n_idle n') <> None /\ same_amounts (n_idle n') (n_idle n) /\ same_amounts (n_pipelined n') (n_pipelined n) /\
  (forall d, amt (n_releasing n') d = amt (n_releasing n) d + (if n_has_node n && bool_decide (t_status p = Releasing) then amt (t_req p) d else 0)) /\
  n_tasks n' = <[t_id p := set_node p (Some (n_id n))]> (n_tasks n) /\
  (sc (n_pipelined n) <> None -> sc (n_pipelined n') <> None).
Proof.
  intros eps n p c n' p' Hs Hl Hr (P1 & P2 & _) Hp Hu.
  destruct (node_update_refile eps n p c n' p' Hl Hr P1) as (Ht & _ & _ & Hled);
    [destruct Hp as [-> |(H & _)]; [discriminate|exact H]|exact Hu|].
  destruct (n_has_node n); simpl; destruct Hled as (-> & -> & ->).
  - cbv zeta. rewrite (bool_decide_eq_false_2 _ P2).
    split; [apply sub_sc_some, add_sc_some, Hs|]. split; [intros d; apply amt_add_sub|]. split; [intros d; reflexivity|].
    split; [|split; [exact Ht|auto]]. intros d. case_bool_decide; rewrite ?amt_add; lia.
  - split; [exact Hs|]. split; [intros d; reflexivity|]. split; [intros d; reflexivity|].
    split; [intros d; lia|]. split; [exact Ht|auto].
Qed.
Print Assumptions C02_node_update_evict.

(* any history of tentative evictions (of whatever copies) and FutureIdle-guarded pipelines (of
   whatever tasks) on a node keeps it within capacity, and so does undoing any number of the
   recorded operations newest first (Statement.Discard) *)
Theorem C02_evict_history_safe : forall eps, 0 < eps -> forall n ops k,
  nbase eps n -> Forall fop_ok ops ->
  let x := fold_left (fstep eps) ops (n, []) in
  node_safe eps (fst x) /\ node_safe eps (fold_left (nundo eps) (take k (snd x)) (fst x)).
Proof. exact evict_history_safe. Qed.
Print Assumptions C02_evict_history_safe.

Theorem C02_stack_pipeline : forall eps, 0 < eps -> forall n st t,
  stackP eps n st -> nonneg (t_req t) -> (forall d, amt (t_req t) d <= amt (t_init t) d) ->
  stackP eps (fst (npipeline eps n t)) (if snd (npipeline eps n t) then NP (t_id t) :: st else st).
Proof. exact stack_pipeline. Qed.
Print Assumptions C02_stack_pipeline.

Theorem C02_discard_stack_safe : forall eps st n k,
  stackP eps n st -> node_safe eps (fold_left (nundo eps) (take k st) n).
Proof. exact discard_stack_safe. Qed.
Print Assumptions C02_discard_stack_safe.

(* reclaim's running sum is the node's FutureIdle after the evictions *)
Theorem C02_reclaim_running_sum : forall eps n st tid c d,
  stackP eps n st -> n_tasks n !! tid = Some c -> plain (t_status c) ->
  amt (future_idle (nevict eps n tid)) d = amt (add (future_idle n) (t_req c)) d.
Proof. exact reclaim_running_sum. Qed.
Print Assumptions C02_reclaim_running_sum.

(* the statement operations are these ledger operations *)
Theorem C02_stmt_evict_with_safe : forall eps s sid c nid n j st,
  jobs s !! t_job c = Some j -> nodes s !! nid = Some n -> node_keyed nid n ->
  n_tasks n !! t_id c = Some c -> plain (t_status c) -> stackP eps n st ->
  exists n', nodes (fst (stmt_evict_with eps s sid c None)) = <[nid := n']> (nodes s) /\
             stackP eps n' (NE (t_id c) (t_status c) :: st) /\
             forall d, fut_amt n' d = fut_amt n d + amt (t_req c) d.
Proof.
  intros eps s sid c nid n j st Hj Hn Hk Hl Hp Hst. exists (nevict eps n (t_id c)).
  split; [apply (stmt_evict_with_nodes eps s sid c nid n j); assumption|apply stack_evict; assumption].
Qed.
Print Assumptions C02_stmt_evict_with_safe.

Theorem C02_unevict_with_safe : forall eps s c prev nid n j st,
  jobs s !! t_job c = Some j -> nodes s !! nid = Some n -> node_keyed nid n ->
  n_tasks n !! t_id c = Some c -> stackP eps n (NE (t_id c) prev :: st) ->
  exists n', nodes (fst (unevict_with eps s c prev)) = <[nid := n']> (nodes s) /\ stackP eps n' st.
Proof.
  intros eps s c prev nid n j st Hj Hn Hk Hl Hst. exists (nundo eps n (NE (t_id c) prev)).
  split; [apply (unevict_with_nodes eps s c prev nid n j); assumption|apply stack_undo; exact Hst].
Qed.
Print Assumptions C02_unevict_with_safe.

Theorem C02_unpipeline_with_safe : forall eps s c nid n j st,
  jobs s !! t_job c = Some j -> nodes s !! nid = Some n -> t_node c = Some nid ->
  stackP eps n (NP (t_id c) :: st) ->
  exists n', nodes (unpipeline_with s c) = <[nid := n']> (nodes s) /\ stackP eps n' st.
Proof.
  intros eps s c nid n j st Hj Hn Hcn Hst. exists (nundo eps n (NP (t_id c))).
  split; [apply (unallocate_with_nodes s c nid n j); assumption|apply stack_undo; exact Hst].
Qed.
Print Assumptions C02_unpipeline_with_safe.

(* topology-aware preemption: whatever the pop order of the candidates and whatever the other
   votes, evicting exactly the victims SelectVictimsOnNode's dry run returns and pipelining the
   preemptor (no re-check) leaves the node within capacity *)
Theorem C02_select_victims_safe : forall eps, 0 < eps -> forall extra n, nbase eps n -> forall p,
  nonneg (t_req p) -> (forall d, amt (t_req p) d <= amt (t_init p) d) -> forall q vs n' t',
  NoDup q -> Forall (cand_ok n) q ->
  select_victims eps extra future_idle p n q = Some vs ->
  preempt_on eps p n vs = inl (n', t') ->
  node_within_capacity eps n'.
Proof. exact select_victims_safe. Qed.
Print Assumptions C02_select_victims_safe.

(* ... and not when the reprieve test looks at Idle instead of FutureIdle (seeded mutant C02-r5-1) *)
Theorem C02_reprieve_against_idle_refuted :
  nwc_b 2 tp_n1 = true /\
  select_victims_idle_reprieve tp_B tp_n1 [2; 3]%positive = Some [2]%positive /\
  match preempt_on 2 tp_B tp_n1 [2]%positive with
  | inl (n', _) => (nwc_b 2 n', fut_amt n' DCpu)
  | inr _ => (true, 0)
  end = (false, -16000).
Proof. exact reprieve_against_idle_refuted. Qed.
Print Assumptions C02_reprieve_against_idle_refuted.

(* Commit when the evictor refuses nothing touches no node ... *)
Theorem C02_stmt_commit_without_refusal : forall eps s sid,
  refuse_evict s = ∅ -> Forall (fun o => op_kind o <> KAllocate) (default [] (stmts s !! sid)) ->
  nodes (stmt_commit eps s sid) = nodes s.
Proof. exact stmt_commit_without_refusal. Qed.
Print Assumptions C02_stmt_commit_without_refusal.

(* ... and with a refusal it un-evicts the victim under the pipelined preemptor (documented limit) *)
Theorem C02_commit_refused_eviction_refuted :
  nwc_b 2 (node1 ev_sess) = true /\ nwc_b 2 (node1 ev_before_commit) = true /\
  map (fun o => (op_kind o, op_task o)) (default [] (stmts ev_before_commit !! 1%positive)) = [(KEvict, 1%positive); (KPipeline, 3%positive)] /\
  elements (refuse_evict ev_before_commit) = [1%positive] /\
  ~ node_within_capacity 2 (node1 (stmt_commit 2 ev_before_commit 1)).
Proof. exact commit_refused_eviction_refuted. Qed.
Print Assumptions C02_commit_refused_eviction_refuted.

(* non-vacuity *)
Example C02_hypotheses_satisfiable : world_ok 2 ex_world.
Proof. exact ex_world_ok. Qed.

Example C02_skeleton_places :
  match nodes (w_sess (run 2 ex_world ex_ops)) !! 1%positive with
  | Some n => (cpu (n_idle n), map fst (map_to_list (n_tasks n)))
  | None => (0, [])
  end = (4000, [1%positive]).
Proof. exact ex_places. Qed.

(* the granularity hypothesis cannot be dropped *)
Example C02_drift_without_granularity :
  sess_pre_b (task_pre_b 2) (w_sess drift_world) = true /\
  nodes_safe 2 (nodes (w_sess drift_world)) /\
  exists n, nodes (w_sess (run 2 drift_world drift_ops)) !! 1%positive = Some n /\
            amt (n_idle n) DCpu = -3 /\ ~ node_within_capacity 2 n.
Proof. exact drift_without_granularity. Qed.

(* evictions: the node of the witnesses satisfies the hypotheses; what the seeded mutant C02-2 does *)
Example C02_evict_hypotheses_satisfiable : nbase 2 ev_n1.
Proof. exact ev_n1_base. Qed.

Example C02_idle_plus_releasing_overcounts :
  less_equal 2 (t_init ev_t4) (add (n_idle ev_n1') (n_releasing ev_n1')) DZero = true /\
  match node_add 2 ev_n1' (set_status ev_t4 Pipelined) with
  | inl (n', _) => nwc_b 2 n'
  | inr _ => true
  end = false.
Proof. exact idle_plus_releasing_overcounts. Qed.

(* accounting hypothesis satisfiable; bind_events_safe's hypotheses hold of an accepted bind followed by
   a node update with the same allocatable *)
Example C02_acct_hypotheses_satisfiable : world_ok 2 acct_world /\ nodes_acct (nodes (w_sess acct_world)).
Proof. exact acct_world_ok. Qed.

Example C02_bind_events_hypotheses_satisfiable : cinv 2 bx_cache /\ ops_ok 2 bx_cache bx_ops.
Proof. exact bx_hypotheses. Qed.

Example C02_select_victims_hypotheses_satisfiable :
  nbase 2 tp_n1 /\ select_victims 2 all_votes_yes future_idle tp_B tp_n1 [2; 3]%positive = Some [3; 2]%positive.
Proof. split; [exact tp_n1_base|exact (proj1 select_victims_future_idle)]. Qed.
