(* Property C11 — plugin tiers combine votes and orderings exactly as specified.
   The property theorems, each followed by Print Assumptions (the Examples at the end are not).
   A proof stands here when nothing else needs the fact; otherwise the theorem is [exact] of a
   lemma of C11/Lemmas.v, HeapLemmas.v, QueueLemmas.v or VictimLemmas.v. *)
From Coq Require Import Lia ZArith List Bool Permutation.
From V Require Import C11.Model C11.Spec C11.HeapModel C11.Lemmas C11.HeapLemmas C11.Laws C11.QueueModel C11.QueueLemmas C11.VictimLemmas.
Import ListNotations.
Open Scope Z_scope.

(* ---- victim selection (Reclaimable / Preemptable / UnifiedEvictable, after the fix) ---- *)

(* for EVERY tier layout and every combination of answers: the result is the
   intersection of the candidate lists of all enabled, registered, non-abstaining
   plugins of the first tier whose intersection is non-empty; [] if none *)
Theorem C11_tier_victims_spec : forall ts, victims_fixed ts = victims_spec ts.
Proof. exact tier_victims_spec. Qed.
Print Assumptions C11_tier_victims_spec.

(* no returned victim was rejected by a voting plugin of the deciding tier, and
   the deciding tier is the first tier with a non-empty agreement *)
Theorem C11_victims_respect_deciding_tier : forall ts x,
  In x (victims_fixed ts) ->
  exists pre t post,
    ts = pre ++ t :: post /\
    Forall (fun t' => agreement t' = []) pre /\
    victims_fixed ts = agreement t /\
    (exists p, In p t /\ voting p = true) /\
    forall p, In p t -> voting p = true -> In x (v_cands (s_ans p)).
Proof. exact victims_respect_deciding_tier. Qed.
Print Assumptions C11_victims_respect_deciding_tier.

Theorem C11_in_agreement : forall x t,
  In x (agreement t) <->
  (exists p, In p t /\ voting p = true) /\
  forall p, In p t -> voting p = true -> In x (v_cands (s_ans p)).
Proof. exact in_agreement. Qed.
Print Assumptions C11_in_agreement.

(* the record of defect F1: the loop as it was before the fix violates the
   specification (voters {1},{2},{3} of one tier -> [3]) *)
Theorem C11_victims_prefix_refuted :
  exists ts, victims_prefix ts <> victims_spec ts /\
             exists x t p, In x (victims_prefix ts) /\ In t ts /\ In p t /\
                           voting p = true /\ ~ In x (v_cands (s_ans p)).
Proof.
  exists f1_witness. split.
  - vm_compute. discriminate.
  - exists 3, (hd [] f1_witness), (mkSlot true true (mkVote 1 [1])).
    vm_compute. repeat split; auto. intros [H|[]]. discriminate.
Qed.
Print Assumptions C11_victims_prefix_refuted.

(* the executable law evaluated on the Go results accepts the model's own
   answer for every layout, and what it accepts is sound: law and theorem speak
   about the same predicate *)
Theorem C11_law_victims_model : forall ts, law_victims ts (victims_fixed ts) = true.
Proof.
  intros ts. rewrite tier_victims_spec. unfold law_victims, victims_spec.
  induction ts as [|t r IH]; [reflexivity|]. simpl.
  destruct (has_agreement t) eqn:Eh.
  - pose proof (proj1 (has_agreement_iff t) Eh) as Hn.
    destruct (agreement t) as [|y ys] eqn:Ea; [congruence|]. rewrite <- Ea.
    assert (Hnil : is_nil (agreement t) = false) by (rewrite Ea; reflexivity).
    rewrite Hnil. simpl.
    assert (Hall : forall x, In x (agreement t) <-> In x (hd [] (voters t)) /\ common t x = true).
    { intros x. unfold agreement. destruct (voters t) as [|c cs] eqn:E.
      - simpl. split; [intros []|intros [[] _]].
      - simpl. rewrite in_fold_inter, common_iff, E. split.
        + intros [H1 H2]. split; auto. intros c' [<-|Hc']; auto.
        + intros [H1 H2]. split; auto. intros c' Hc'. apply H2. right; auto. }
    apply andb_true_intro. split.
    + apply forallb_forall. intros x Hx. apply Hall in Hx. tauto.
    + apply forallb_forall. intros x Hx. apply filter_In in Hx. apply mem_in. apply Hall. exact Hx.
  - assert (Ea : agreement t = []).
    { destruct (agreement t) eqn:E; auto.
      assert (has_agreement t = true) by (apply has_agreement_iff; congruence). congruence. }
    rewrite Ea. exact IH.
Qed.
Print Assumptions C11_law_victims_model.

Theorem C11_law_victims_sound : forall ts got x t,
  law_victims ts got = true -> find has_agreement ts = Some t -> In x got ->
  forall p, In p t -> voting p = true -> In x (v_cands (s_ans p)).
Proof.
  intros ts got x t H Hf Hx p Hp Hv. unfold law_victims in H. rewrite Hf in H.
  apply andb_prop in H. destruct H as [H _]. apply andb_prop in H. destruct H as [_ H].
  rewrite forallb_forall in H. specialize (H x Hx). unfold common in H.
  rewrite forallb_forall in H.
  assert (Hin : In (v_cands (s_ans p)) (voters t)) by (apply in_voters; eauto).
  specialize (H _ Hin). unfold mem in H. apply existsb_exists in H.
  destruct H as [y [Hy E]]. apply Z.eqb_eq in E. subst. exact Hy.
Qed.
Print Assumptions C11_law_victims_sound.

(* ---- boolean gates ---- *)

(* JobReady / Allocatable / Preemptive / SubJobReady: conjunction over all
   enabled registered plugins of all tiers *)
Theorem C11_gate_conjunction : forall ts,
  all_tiers ts = true <->
  forall t p, In t ts -> In p t -> active p = true -> s_ans p = true.
Proof.
  intros. rewrite gate_conjunction, forallb_forall. split.
  - intros H t p H1 H2 H3. apply (H (s_ans p)). apply in_actives. exists t, p. auto.
  - intros H a Ha. apply in_actives in Ha. destruct Ha as [t [p [? [? [? <-]]]]]. unfold idb. eauto.
Qed.
Print Assumptions C11_gate_conjunction.

(* Overused: disjunction *)
Theorem C11_gate_disjunction : forall ts,
  any_tiers ts = true <->
  exists t p, In t ts /\ In p t /\ active p = true /\ s_ans p = true.
Proof.
  intros. rewrite gate_disjunction, existsb_exists. split.
  - intros [a [Ha E]]. apply in_actives in Ha. destruct Ha as [t [p [? [? [? <-]]]]].
    exists t, p. auto.
  - intros [t [p [H1 [H2 [H3 H4]]]]]. exists (s_ans p). split; [apply in_actives; exists t, p; auto|auto].
Qed.
Print Assumptions C11_gate_disjunction.

Theorem C11_sub_job_ready : forall hp jts sts,
  sub_job_ready hp jts sts = forallb idb (actives (if hp then sts else jts)).
Proof.
  intros. unfold sub_job_ready. destruct hp; apply gate_conjunction.
Qed.
Print Assumptions C11_sub_job_ready.

(* JobStarving: conjunction over the FIRST tier that has an enabled registered
   function, false if no tier has one *)
Theorem C11_job_starving : forall ts,
  job_starving ts =
  match find (existsb active) ts with
  | None => false
  | Some t => forallb idb (map s_ans (filter active t))
  end.
Proof. exact job_starving_spec. Qed.
Print Assumptions C11_job_starving.

(* JobValid: the first failing result in tier order; PredicateFn: the first error *)
Theorem C11_job_valid : forall ts, job_valid ts = hd_error (fails ts).
Proof. exact job_valid_spec. Qed.
Print Assumptions C11_job_valid.

Theorem C11_predicate : forall ts, predicate ts = hd_error (somes (actives ts)).
Proof. exact predicate_spec. Qed.
Print Assumptions C11_predicate.

(* ---- permit / reject votes (JobPipelined / JobEnqueueable / SubJobPipelined) ---- *)
Theorem C11_vote_first_permit_unless_reject : forall ts,
  vote_tiers ts = false <->
  exists pre t post,
    ts = pre ++ t :: post /\
    (forall t' p, In t' pre -> In p t' -> active p = true -> s_ans p <= 0) /\
    (exists p, In p t /\ active p = true /\ s_ans p < 0).
Proof. exact vote_first_permit_unless_reject. Qed.
Print Assumptions C11_vote_first_permit_unless_reject.

Theorem C11_sub_job_pipelined : forall hp jts sts,
  sub_job_pipelined hp jts sts = vote_tiers (if hp then sts else jts).
Proof.
  intros. destruct hp; reflexivity.
Qed.
Print Assumptions C11_sub_job_pipelined.

(* ---- orderings ---- *)

(* the tier walk answers with the first non-zero comparison of the enabled
   registered comparators in tier order *)
Theorem C11_first_distinguishing : forall (T : Type) (ts : layout (T -> T -> Z)) l r,
  cmp_tiers ts l r = lex (actives ts) l r.
Proof. exact @cmp_tiers_first_distinguishing. Qed.
Print Assumptions C11_first_distinguishing.

Theorem C11_lex_decided_by : forall (T : Type) (cs : list (T -> T -> Z)) l r j,
  lex cs l r = j -> j <> 0 ->
  exists pre c post, cs = pre ++ c :: post /\ Forall (fun c' => c' l r = 0) pre /\ c l r = j.
Proof.
  intros T cs. induction cs as [|c cs IH]; intros l r j H Hj; simpl in H; [congruence|].
  destruct (Z.eqb_spec (c l r) 0).
  - destruct (IH _ _ _ H Hj) as [pre [c' [post [-> [Hp Hc]]]]].
    exists (c :: pre), c', post. auto.
  - exists [], c, cs. auto.
Qed.
Print Assumptions C11_lex_decided_by.

(* for every set of items, every layout of comparators that are valid on the
   set and every tie-break that is a strict weak order on it, the session
   order function is a strict weak order on the set (asymmetric and negatively
   transitive; irreflexivity and transitivity follow, next two theorems) *)
Theorem C11_lex_order_strict_weak :
  forall (T : Type) (dom : T -> Prop) (ts : layout (T -> T -> Z)) (tb : T -> T -> bool),
  all_valid dom ts -> swo_on dom tb -> swo_on dom (order_fn ts tb).
Proof. exact @lex_order_strict_weak. Qed.
Print Assumptions C11_lex_order_strict_weak.

Theorem C11_swo_irrefl : forall (T : Type) (dom : T -> Prop) lt,
  swo_on dom lt -> forall a, dom a -> lt a a = false.
Proof.
  intros T dom lt [As _] a Ha. destruct (lt a a) eqn:E; auto.
  rewrite (As a a Ha Ha E) in E. discriminate.
Qed.
Print Assumptions C11_swo_irrefl.

Theorem C11_swo_trans : forall (T : Type) (dom : T -> Prop) lt,
  swo_on dom lt -> forall a b d, dom a -> dom b -> dom d ->
  lt a b = true -> lt b d = true -> lt a d = true.
Proof. exact @swo_trans. Qed.
Print Assumptions C11_swo_trans.

(* where the tie-break orders two items one way or the other, so does the
   session order: with creation time + UID it is total on distinct UIDs *)
Theorem C11_order_fn_flip :
  forall (T : Type) (dom : T -> Prop) (ts : layout (T -> T -> Z)) (tb : T -> T -> bool),
  all_valid dom ts -> forall a b, dom a -> dom b ->
  tb a b = negb (tb b a) -> order_fn ts tb a b = negb (order_fn ts tb b a).
Proof. exact @order_fn_flip. Qed.
Print Assumptions C11_order_fn_flip.

(* the built-in tie-breaks *)
Theorem C11_by_time_uid_swo : swo_on (fun _ => True) by_time_uid.
Proof. exact by_time_uid_swo. Qed.
Print Assumptions C11_by_time_uid_swo.

Theorem C11_by_time_uid_total : forall a b,
  i_uid a <> i_uid b -> by_time_uid a b = negb (by_time_uid b a).
Proof. exact by_time_uid_total. Qed.
Print Assumptions C11_by_time_uid_total.

(* helpers.CompareTask is a strict weak order on every task set whose pod names
   all carry a numeric index (k = true) and on every set where none does ... *)
Theorem C11_compare_task_swo : forall k, swo_on (idx_kind k) compare_task.
Proof. exact compare_task_swo. Qed.
Print Assumptions C11_compare_task_swo.

(* ... and NOT on mixed sets: a 3-cycle (candidate finding, docs/notes/C11.md) *)
Theorem C11_compare_task_mixed_refuted :
  exists a b c, compare_task a b = true /\ compare_task b c = true /\ compare_task c a = true.
Proof.
  exists (mkItem 0 1 1 (Some 1)), (mkItem 1 2 2 None), (mkItem 2 3 3 (Some 0)).
  vm_compute. auto.
Qed.
Print Assumptions C11_compare_task_mixed_refuted.

(* ... and the cycle cannot be repaired without giving up one of the two pinned
   behaviours (index order on indexed pairs; creation time + UID on mixed pairs,
   as the upstream unit test TestCompareTask demands) *)
Theorem C11_compare_task_no_swo_extension : forall lt : item -> item -> bool,
  (forall l r x y, i_pidx l = Some x -> i_pidx r = Some y -> x <> y -> lt l r = (x <? y)) ->
  (forall l r, mixed_pair l r -> lt l r = by_time_uid l r) ->
  ~ swo_on (fun _ => True) lt.
Proof.
  intros lt Hidx Hmix Hswo.
  set (a := mkItem 0 1 1 (Some 1)). set (b := mkItem 1 2 2 None). set (c := mkItem 2 3 3 (Some 0)).
  assert (Hab : lt a b = true).
  { rewrite Hmix; [reflexivity|]. right. split; simpl; congruence. }
  assert (Hbc : lt b c = true).
  { rewrite Hmix; [reflexivity|]. left. split; simpl; congruence. }
  assert (Hac : lt a c = false).
  { rewrite (Hidx a c 1 0); auto. lia. }
  pose proof (swo_trans _ lt Hswo a b c I I I Hab Hbc) as H. congruence.
Qed.
Print Assumptions C11_compare_task_no_swo_extension.

(* comparators of the shipped plugins (priority, gang, drf share, sla,
   proportion) are valid on every set *)
Theorem C11_plugin_comparators_valid : forall kind, valid_on everywhere (real_cmp kind).
Proof. exact plugin_comparators_valid. Qed.
Print Assumptions C11_plugin_comparators_valid.

(* ---- queue comparators of the shipped proportion / capacity / drf plugins, as written ---- *)

(* proportion and flat capacity: (priority, share, has-deserved) - valid on every set *)
Theorem C11_cmp_capacity_flat_valid : valid_on everywhere cmp_capacity_flat.
Proof. exact cmp_capacity_flat_valid. Qed.
Print Assumptions C11_cmp_capacity_flat_valid.

(* capacity VictimQueueOrderFn (level of the common ancestor with the preemptor) - valid *)
Theorem C11_cmp_capacity_victim_valid : forall p, valid_on everywhere (cmp_capacity_victim p).
Proof.
  intros p. unfold cmp_capacity_victim. split; [intros a b _ _ | intros a b d _ _ _]; zcases; simpl; lia.
Qed.
Print Assumptions C11_cmp_capacity_victim_valid.

(* hierarchical capacity QueueOrderFn: valid among the children of one parent
   (and among non-leaf queues with one ancestor chain) ... *)
Theorem C11_cmp_capacity_hier_valid_siblings : forall anc leaf,
  valid_on (fun q => rq_leaf q = leaf /\ rq_anc q = anc) cmp_capacity_hier.
Proof.
  (* on such a set the hierarchical comparator is the flat one *)
  intros anc leaf.
  apply (valid_ext _ cmp_capacity_flat); [|apply valid_weaken; exact cmp_capacity_flat_valid].
  intros l r [Hl1 Hl2] [Hr1 Hr2]. unfold cmp_capacity_hier, cmp_capacity_flat.
  destruct (negb (rq_prio l =? rq_prio r)); auto. rewrite Hl1, Hr1. destruct leaf; auto.
  rewrite Hl2, Hr2.
  pose proof (rep_node_siblings l) as R1. pose proof (rep_node_siblings r) as R2.
  rewrite Hl2 in R1. rewrite Hr2 in R2. rewrite R1, R2. reflexivity.
Qed.
Print Assumptions C11_cmp_capacity_hier_valid_siblings.

(* ... but NOT across subtrees whose roots tie: x ~ z ~ y with x < y, and with the
   creation-time tie-break the session QueueOrderFn is cyclic (genuine defect,
   reproduced on the real plugin; known finding) *)
Theorem C11_cmp_capacity_hier_refuted :
  ~ valid_on everywhere cmp_capacity_hier /\
  (let lt := order_fn (one_slot cmp_capacity_hier) rq_tb in
   lt cap_x cap_y = true /\ lt cap_y cap_z = true /\ lt cap_z cap_x = true).
Proof.
  split.
  - intros [_ B]. specialize (B cap_y cap_z cap_x I I I). vm_compute in B.
    apply B; [discriminate | discriminate | reflexivity].
  - vm_compute. auto.
Qed.
Print Assumptions C11_cmp_capacity_hier_refuted.

(* hdrf compareQueues: valid on every set of queues of one hierarchy depth ... *)
Theorem C11_cmp_hdrf_valid_equal_depth : forall n,
  valid_on (fun q => length (rq_nodes q) = n) cmp_hdrf.
Proof.
  intros n. destruct (hdrf_walk_valid n) as [A B]. unfold cmp_hdrf. split; intros; eauto.
Qed.
Print Assumptions C11_cmp_hdrf_valid_equal_depth.

(* ... but NOT on queues of unequal depth (root/sci next to root/eng/dev,
   root/eng/prod - the layout of the plugin's own unit test): cyclic with the
   tie-break (genuine defect, reproduced on the real plugin; known finding) *)
Theorem C11_cmp_hdrf_refuted :
  ~ valid_on everywhere cmp_hdrf /\
  (let lt := order_fn (one_slot cmp_hdrf) rq_tb in
   lt hd_dev hd_prod = true /\ lt hd_prod hd_sci = true /\ lt hd_sci hd_dev = true).
Proof.
  split.
  - intros [_ B]. specialize (B hd_prod hd_sci hd_dev I I I). vm_compute in B.
    apply B; [discriminate | discriminate | reflexivity].
  - vm_compute. auto.
Qed.
Print Assumptions C11_cmp_hdrf_refuted.

(* BuildVictimsPriorityQueue: two distinct victims are ordered exactly one way *)
Theorem C11_victim_queue_order_total :
  forall (task_ts job_ts queue_ts vq_ts : layout (item -> item -> Z))
         (jobs : Z -> option vjob) (queues : Z -> option item) (pj : Z),
  all_valid everywhere task_ts -> all_valid everywhere job_ts ->
  all_valid everywhere queue_ts -> all_valid everywhere (force_en_all vq_ts) ->
  (forall q1 q2 a b, q1 <> q2 -> queues q1 = Some a -> queues q2 = Some b -> i_uid a <> i_uid b) ->
  forall l r b,
    i_uid (vt_item l) <> i_uid (vt_item r) ->
    victim_less task_ts job_ts queue_ts vq_ts jobs queues pj l r = Some b ->
    victim_less task_ts job_ts queue_ts vq_ts jobs queues pj r l = Some (negb b).
Proof. exact victim_queue_order_total. Qed.
Print Assumptions C11_victim_queue_order_total.

(* ---- util.PriorityQueue over container/heap ---- *)

(* for EVERY less function: Push and Pop never fail and preserve the multiset *)
Theorem C11_push_perm : forall (A : Type) (less : A -> A -> bool) (d : A) (l : list A) x,
  exists l', push less l x = Some l' /\ Permutation l' (l ++ [x]).
Proof. exact @push_perm. Qed.
Print Assumptions C11_push_perm.

Theorem C11_pop_perm : forall (A : Type) (less : A -> A -> bool) (d : A) (l : list A),
  match pop less l with
  | PopEmpty => l = []
  | PopErr => False
  | PopOk x rest => Permutation (x :: rest) l /\ x = nth 0 l d
  end.
Proof. exact @pop_perm. Qed.
Print Assumptions C11_pop_perm.

Theorem C11_run_multiset : forall (A : Type) (less : A -> A -> bool) (d : A) ops l outs,
  run less ops = (Some l, outs) -> Permutation (popped outs ++ l) (pushed ops).
Proof. exact @run_multiset. Qed.
Print Assumptions C11_run_multiset.

(* for a less function that is asymmetric and negatively transitive on the
   DISTINCT elements of a set [dom] (nothing is asked of less x x, nothing outside
   dom): every history pushing dom elements keeps the heap shape and never fails *)
Theorem C11_run_good : forall (A : Type) (less : A -> A -> bool) (d : A) (dom : A -> Prop),
  (forall a b : A, {a = b} + {a <> b}) ->
  (forall a b, dom a -> dom b -> a <> b -> less a b = true -> less b a = false) ->
  (forall a b c, dom a -> dom b -> dom c -> a <> b -> b <> c -> a <> c ->
                 less a c = true -> less a b = true \/ less b c = true) ->
  forall ops, Forall dom (pushed ops) -> good less d dom (run less ops).
Proof. exact @run_good. Qed.
Print Assumptions C11_run_good.

(* ... and after ANY such history Pop returns an element no OTHER queued element precedes *)
Theorem C11_heap_pop_minimal : forall (A : Type) (less : A -> A -> bool) (d : A) (dom : A -> Prop),
  (forall a b : A, {a = b} + {a <> b}) ->
  (forall a b, dom a -> dom b -> a <> b -> less a b = true -> less b a = false) ->
  (forall a b c, dom a -> dom b -> dom c -> a <> b -> b <> c -> a <> c ->
                 less a c = true -> less a b = true \/ less b c = true) ->
  forall ops l outs x rest,
    Forall dom (pushed ops) ->
    run less ops = (Some l, outs) -> pop less l = PopOk x rest ->
    (forall y, In y l -> y = x \/ less y x = false) /\ Permutation (x :: rest) l.
Proof. exact @heap_pop_minimal. Qed.
Print Assumptions C11_heap_pop_minimal.

(* push a list, pop until empty (how BuildVictimsPriorityQueue's result is used):
   never fails, a permutation, no later element precedes an earlier one *)
Theorem C11_heap_sort_sorted : forall (A : Type) (less : A -> A -> bool) (d : A) (dom : A -> Prop),
  (forall a b : A, {a = b} + {a <> b}) ->
  (forall a b, dom a -> dom b -> a <> b -> less a b = true -> less b a = false) ->
  (forall a b c, dom a -> dom b -> dom c -> a <> b -> b <> c -> a <> c ->
                 less a c = true -> less a b = true \/ less b c = true) ->
  forall xs, Forall dom xs ->
  exists out, heap_sort less xs = Some out /\ Permutation out xs /\ sorted_by less out.
Proof. exact @heap_sort_sorted. Qed.
Print Assumptions C11_heap_sort_sorted.

(* ---- orderings and priority queues composed ---- *)

(* a PriorityQueue built on a session order function (comparators valid on the
   set, tie-break a strict weak order on it) pops the elements of the set in that
   order: after any history, and for push-all / pop-all *)
Theorem C11_session_queue_pop_minimal :
  forall (T : Type) (dom : T -> Prop) (ts : layout (T -> T -> Z)) (tb : T -> T -> bool) (d : T),
  (forall a b : T, {a = b} + {a <> b}) -> all_valid dom ts -> swo_on dom tb ->
  forall ops l outs x rest,
    Forall dom (pushed ops) ->
    run (order_fn ts tb) ops = (Some l, outs) -> pop (order_fn ts tb) l = PopOk x rest ->
    (forall y, In y l -> y = x \/ order_fn ts tb y x = false) /\ Permutation (x :: rest) l.
Proof.
  intros T dom ts tb d T_eq_dec Hts Htb.
  destruct (lex_order_strict_weak dom ts tb Hts Htb) as [As Nt].
  apply (heap_pop_minimal (order_fn ts tb) d dom T_eq_dec).
  - intros a b Ha Hb _ H. apply As; auto.
  - intros a b c Ha Hb Hc _ _ _ H. apply Nt; auto.
Qed.
Print Assumptions C11_session_queue_pop_minimal.

Theorem C11_session_queue_pops_in_order :
  forall (T : Type) (dom : T -> Prop) (ts : layout (T -> T -> Z)) (tb : T -> T -> bool) (d : T),
  (forall a b : T, {a = b} + {a <> b}) -> all_valid dom ts -> swo_on dom tb ->
  forall xs, Forall dom xs ->
  exists out, heap_sort (order_fn ts tb) xs = Some out /\ Permutation out xs /\
              sorted_by (order_fn ts tb) out.
Proof.
  intros T dom ts tb d T_eq_dec Hts Htb.
  destruct (lex_order_strict_weak dom ts tb Hts Htb) as [As Nt].
  apply (heap_sort_sorted (order_fn ts tb) d dom T_eq_dec).
  - intros a b Ha Hb _ H. apply As; auto.
  - intros a b c Ha Hb Hc _ _ _ H. apply Nt; auto.
Qed.
Print Assumptions C11_session_queue_pops_in_order.

(* ---- the victim orders: what is false, and exactly what holds ---- *)

(* FALSE as literally stated in the property: both victim orders answer TRUE on
   (x, x) - Go `return !ssn.TaskOrderFn(l, r)` (session_plugins.go BuildVictimsPriorityQueue)
   and `return !ssn.QueueOrderFn(l, r)` (VictimQueueOrderFn) - so they are not
   irreflexive (reproduced on the real closures, harness selectors 4 and 8) *)
Theorem C11_victim_less_reflexive_refuted :
  forall (task_ts job_ts queue_ts vq_ts : layout (item -> item -> Z)) jobs queues pj,
  all_valid everywhere task_ts ->
  forall l, victim_less task_ts job_ts queue_ts vq_ts jobs queues pj l l = Some true.
Proof.
  intros task_ts job_ts queue_ts vq_ts jobs queues pj Ht l. unfold victim_less. rewrite Z.eqb_refl.
  unfold task_order_fn, order_fn.
  rewrite (valid_refl0 _ (valid_cmp_tiers everywhere task_ts Ht)). simpl.
  assert (C : compare_task (vt_item l) (vt_item l) = false).
  { unfold compare_task, by_time_uid. destruct (i_pidx (vt_item l)); rewrite ?Z.eqb_refl, Z.ltb_irrefl; reflexivity. }
  rewrite C. reflexivity.
Qed.
Print Assumptions C11_victim_less_reflexive_refuted.

Theorem C11_victim_queue_order_reflexive_refuted :
  forall queue_ts vq_ts : layout (item -> item -> Z),
  all_valid everywhere queue_ts -> all_valid everywhere (force_en_all vq_ts) ->
  forall a, victim_queue_order_fn vq_ts queue_ts a a = true.
Proof.
  intros queue_ts vq_ts Hq Hv a. unfold victim_queue_order_fn, queue_order_fn, order_fn.
  rewrite (valid_refl0 _ (valid_cmp_tiers everywhere _ Hv)). simpl.
  rewrite (valid_refl0 _ (valid_cmp_tiers everywhere _ Hq)). simpl.
  unfold by_time_uid. rewrite Z.eqb_refl, Z.ltb_irrefl. reflexivity.
Qed.
Print Assumptions C11_victim_queue_order_reflexive_refuted.

(* TRUE: on two victims with different UIDs the less function IS the
   lexicographic session order of four keys (orphan first; victim-queue order of
   the job's queue; reversed job order; reversed task order) - for every pattern
   of found / orphaned victims and a present or missing preemptor job *)
Theorem C11_victim_less_as_order :
  forall (task_ts job_ts queue_ts vq_ts : layout (item -> item -> Z)) jobs queues pj,
  all_valid everywhere task_ts -> all_valid everywhere job_ts ->
  all_valid everywhere queue_ts -> all_valid everywhere (force_en_all vq_ts) ->
  (forall q1 q2 a b, q1 <> q2 -> queues q1 = Some a -> queues q2 = Some b -> i_uid a <> i_uid b) ->
  forall l r b,
    i_uid (vt_item l) <> i_uid (vt_item r) ->
    victim_less task_ts job_ts queue_ts vq_ts jobs queues pj l r = Some b ->
    b = order_fn (victim_layout job_ts queue_ts vq_ts jobs queues pj) (rev_task task_ts) l r.
Proof. exact victim_less_as_order. Qed.
Print Assumptions C11_victim_less_as_order.

(* VictimQueueOrderFn as an order on QUEUES (gang-reclaim uses it directly): on two
   queues with different names it is the sign of ONE valid 3-way comparator - the
   victim comparators, then the reversed queue comparators, then reversed
   (creation time, name) - hence a strict total order on differently named queues *)
Theorem C11_victim_queue_order_as_cmp :
  forall (queue_ts vq_ts : layout (item -> item -> Z))
         (jobs : Z -> option vjob) (queues : Z -> option item) (pj : Z),
  all_valid everywhere queue_ts -> all_valid everywhere (force_en_all vq_ts) ->
  (forall q1 q2 a b, q1 <> q2 -> queues q1 = Some a -> queues q2 = Some b -> i_uid a <> i_uid b) ->
  valid_on everywhere (cq queue_ts vq_ts) /\
  forall a b, i_uid a <> i_uid b ->
    victim_queue_order_fn vq_ts queue_ts a b = (cq queue_ts vq_ts a b <? 0) /\ cq queue_ts vq_ts a b <> 0.
Proof.
  intros queue_ts vq_ts jobs queues pj Hq Hv Hqinj. split; [apply cq_valid; assumption|].
  intros a b Hu. split; [apply (vq_as_cq queue_ts vq_ts jobs queues pj Hqinj) | apply cq_nonzero]; assumption.
Qed.
Print Assumptions C11_victim_queue_order_as_cmp.

(* NOT covered by the victims theorems: sessions whose queue comparators are not
   valid on ALL queues.  For the only shipped VictimQueueOrderFn (hierarchical
   capacity) the victim order of three different queues is a 3-cycle when two
   subtrees tie and the preemptor sits in a third one (reproduced on the real
   plugin and on the real victims queue; part of the capacity-hierarchical finding) *)
Theorem C11_victim_order_capacity_hier_refuted :
  let vlt := victim_order_gen (one_slot (cmp_capacity_victim cap_w)) (one_slot cmp_capacity_hier) rq_tb in
  cmp_capacity_victim cap_w cap_x cap_y = 0 /\ cmp_capacity_victim cap_w cap_y cap_z = 0 /\
  vlt cap_y cap_x = true /\ vlt cap_z cap_y = true /\ vlt cap_x cap_z = true /\
  vlt cap_x cap_y = false /\ vlt cap_y cap_z = false /\ vlt cap_z cap_x = false.
Proof.
  vm_compute. repeat split; reflexivity.
Qed.
Print Assumptions C11_victim_order_capacity_hier_refuted.

(* the lexicographic order of C11_victim_less_as_order is a strict weak order on every victim
   set with pod names of one kind *)
Theorem C11_victim_order_strict_weak :
  forall (task_ts job_ts queue_ts vq_ts : layout (item -> item -> Z)) jobs queues pj,
  all_valid everywhere task_ts -> all_valid everywhere job_ts ->
  all_valid everywhere queue_ts -> all_valid everywhere (force_en_all vq_ts) ->
  forall k, swo_on (fun t => idx_kind k (vt_item t))
                   (order_fn (victim_layout job_ts queue_ts vq_ts jobs queues pj) (rev_task task_ts)).
Proof. exact victim_order_strict_weak. Qed.
Print Assumptions C11_victim_order_strict_weak.

(* ... hence the less function itself is transitive on victims with distinct UIDs *)
Theorem C11_victim_less_transitive :
  forall (task_ts job_ts queue_ts vq_ts : layout (item -> item -> Z)) jobs queues pj,
  all_valid everywhere task_ts -> all_valid everywhere job_ts ->
  all_valid everywhere queue_ts -> all_valid everywhere (force_en_all vq_ts) ->
  (forall q1 q2 a b, q1 <> q2 -> queues q1 = Some a -> queues q2 = Some b -> i_uid a <> i_uid b) ->
  forall k l m r,
    idx_kind k (vt_item l) -> idx_kind k (vt_item m) -> idx_kind k (vt_item r) ->
    i_uid (vt_item l) <> i_uid (vt_item m) -> i_uid (vt_item m) <> i_uid (vt_item r) ->
    i_uid (vt_item l) <> i_uid (vt_item r) ->
    victim_less task_ts job_ts queue_ts vq_ts jobs queues pj l m = Some true ->
    victim_less task_ts job_ts queue_ts vq_ts jobs queues pj m r = Some true ->
    victim_less task_ts job_ts queue_ts vq_ts jobs queues pj l r <> None ->
    victim_less task_ts job_ts queue_ts vq_ts jobs queues pj l r = Some true.
Proof.
  intros task_ts job_ts queue_ts vq_ts jobs queues pj Ht Hj Hq Hv Hqinj k l m r Hl Hm Hr U1 U2 U3 H1 H2 H3.
  destruct (victim_less task_ts job_ts queue_ts vq_ts jobs queues pj l r) as [b|] eqn:E; [|congruence].
  apply victim_less_as_order in H1; auto. apply victim_less_as_order in H2; auto.
  apply victim_less_as_order in E; auto. f_equal. subst b.
  eapply (swo_trans _ _ (victim_order_strict_weak task_ts job_ts queue_ts vq_ts jobs queues pj Ht Hj Hq Hv k) l m r);
    auto.
Qed.
Print Assumptions C11_victim_less_transitive.

(* ... and the victims queue (reflexive less and all) pops its victims in that
   order: container/heap only ever compares two different queued elements *)
Theorem C11_victims_queue_pops_in_order :
  forall (task_ts job_ts queue_ts vq_ts : layout (item -> item -> Z)) jobs queues pj,
  all_valid everywhere task_ts -> all_valid everywhere job_ts ->
  all_valid everywhere queue_ts -> all_valid everywhere (force_en_all vq_ts) ->
  (forall q1 q2 a b, q1 <> q2 -> queues q1 = Some a -> queues q2 = Some b -> i_uid a <> i_uid b) ->
  forall (U : list vtask) (k : bool),
    NoDup (map (fun t => i_uid (vt_item t)) U) ->
    (forall t, In t U -> idx_kind k (vt_item t)) ->
    (forall l r, In l U -> In r U ->
                 victim_less task_ts job_ts queue_ts vq_ts jobs queues pj l r <> None) ->
    exists out,
      heap_sort (vless task_ts job_ts queue_ts vq_ts jobs queues pj) U = Some out /\
      Permutation out U /\
      sorted_by (vless task_ts job_ts queue_ts vq_ts jobs queues pj) out.
Proof. exact victims_queue_pops_in_order. Qed.
Print Assumptions C11_victims_queue_pops_in_order.

(* ---- the executable laws mean the clauses ---- *)
Theorem C11_law_vote_sound : forall ts got, law_vote ts got = true ->
  (got = false <->
   exists pre t post, ts = pre ++ t :: post /\
     (forall t' p, In t' pre -> In p t' -> active p = true -> s_ans p <= 0) /\
     (exists p, In p t /\ active p = true /\ s_ans p < 0)).
Proof.
  intros ts got H. unfold law_vote in H. apply eqb_prop in H. rewrite vote_spec_eq in H. subst got.
  apply vote_first_permit_unless_reject.
Qed.
Print Assumptions C11_law_vote_sound.

Theorem C11_law_sorted_spec : forall (A : Type) (less : A -> A -> bool) out,
  law_sorted less out = true <-> ForallOrdPairs (fun x y => less y x = false) out.
Proof.
  intros A less out. induction out as [|x r IH]; simpl.
  - split; [constructor | reflexivity].
  - rewrite andb_true_iff, forallb_forall. split.
    + intros [H1 H2]. constructor; [|apply IH; exact H2].
      apply Forall_forall. intros y Hy. specialize (H1 y Hy). destruct (less y x); [discriminate|reflexivity].
    + intros H. inversion H as [|? ? F1 F2]; subst. split; [|apply IH; exact F2].
      intros y Hy. rewrite Forall_forall in F1. rewrite (F1 y Hy). reflexivity.
Qed.
Print Assumptions C11_law_sorted_spec.

(* ---- non-vacuity ---- *)
Example C11_victims_nonvacuous :
  let ts := [[mkSlot true true (mkVote 1 [1; 2]); mkSlot true true (mkVote 1 [3])];
             [mkSlot true false (mkVote 1 [9]); mkSlot true true (mkVote 0 [8]);
              mkSlot true true (mkVote 1 [2; 3; 4]); mkSlot true true (mkVote (-1) [4; 2])]] in
  victims_fixed ts = [2; 4] /\ In 2 (victims_fixed ts).
Proof. exact victims_nonvacuous. Qed.

Example C11_order_nonvacuous :
  all_valid everywhere ex_layout /\
  map (fun l => map (fun r => job_order_fn ex_layout l r) ex_items) ex_items =
  [[false; false; false]; [true; false; false]; [true; true; false]].
Proof. exact order_nonvacuous. Qed.

Example C11_votes_nonvacuous :
  vote_tiers [[mkSlot true true 0; mkSlot false true (-1)]; [mkSlot true true 1]; [mkSlot true true (-1)]] = true /\
  vote_tiers [[mkSlot true true 0]; [mkSlot true true 1; mkSlot true true (-1)]] = false.
Proof. exact votes_nonvacuous. Qed.

Example C11_heap_nonvacuous :
  (forall a b : Z, True -> True -> a <> b -> Z.ltb a b = true -> Z.ltb b a = false) /\
  (forall a b c : Z, True -> True -> True -> a <> b -> b <> c -> a <> c ->
                     Z.ltb a c = true -> Z.ltb a b = true \/ Z.ltb b c = true) /\
  run Z.ltb [OpPush 5; OpPush 3; OpPush 4; OpPop; OpPush 1; OpPop; OpPop; OpPop; OpPop] =
  (Some [], [Some 3; Some 1; Some 4; Some 5; None]) /\
  heap_sort Z.ltb [5; 3; 4; 3; 1] = Some [1; 3; 3; 4; 5].
Proof. exact heap_nonvacuous. Qed.

Example C11_victims_queue_nonvacuous :
  all_valid everywhere ex_layout /\
  NoDup (map (fun t => i_uid (vt_item t)) ex_victims) /\
  (forall t, In t ex_victims -> idx_kind true (vt_item t)) /\
  forallb (fun l => forallb (fun r =>
     match victim_less ex_layout ex_layout ex_layout [] ex_vjobs ex_vqueues 0 l r with
     | Some _ => true | None => false end) ex_victims) ex_victims = true /\
  option_map (map (fun t => i_uid (vt_item t))) (heap_sort ex_vless ex_victims) = Some [4; 3; 2; 1; 5] /\
  forallb (fun t => ex_vless t t) ex_victims = true.
Proof. exact victims_queue_nonvacuous. Qed.
