(* Property C10 — admitted queue changes keep the hierarchy a bounded,
   resource-consistent tree.  The property theorems, each followed by Print
   Assumptions.  A proof stands here when nothing else needs the fact; otherwise
   the theorem is [exact] of a lemma of C10/Lemmas.v.

   The model (C10/Model.v) is the webhook of pkg/webhooks/admission/queues/validate
   AFTER the fix commits recorded in docs/notes/C10.md. *)
From V Require Import Base.ResLemmas.
From stdpp Require Import gmap.
From Coq Require Import ZArith Lia.
From V Require Import Base.Res C10.Model C10.Laws C10.Lemmas.
Open Scope Z_scope.

(* --- main theorem: for every initial queue set satisfying the invariant and EVERY history of
   create / update (incl. re-parenting and resource edits) / delete requests and status updates,
   the queue set produced by applying the admitted ones still satisfies it:
     ShapeInv     root exists and has no parent; every other queue reaches root by parent links in
                  at most MaxQueueDepth links (hence: every named parent exists, no cycles);
     PerQueueInv  all amounts >= 0, guarantee <= deserved (deserved set wherever guarantee is),
                  deserved <= capability wherever capability is set;
     SumInv       for every parent other than root and every dimension the scheduler's Resource
                  keeps: sum of the children's guarantee <= parent's guarantee, same for deserved
                  (an unset amount counts as 0);
     CapInv       a positive capability of a queue is <= the capability of the nearest proper
                  ancestor below root that sets that dimension (a positive amount), for the
                  dimensions the scheduler's Resource keeps (like SumInv: a name api.NewResource
                  drops is bounded by neither clause).
   Hypothesis of the statement itself: every request is validated against the queue set produced
   by the previously admitted ones (serialised admission, lister up to date) — see
   C10_concurrent_*_refuted below.
   TermInv (fifth conjunct of TreeInv): a terminating queue (DELETE admitted, finalizer pending) has no
   children — a DELETE is admitted only for a queue without children and (fix aa1c1ec) a terminating
   queue is refused as a new parent — so the removal of its finalizer, whenever it comes, keeps the tree. --- *)
Theorem C10_admitted_history_preserves_tree : forall c rs Q0,
  1 <= max_depth c -> TreeInv c Q0 -> TreeInv c (run_history c Q0 rs).
Proof. intros c rs Q0 Hmax. apply history_inv. intros Q r. by apply tree_step. Qed.
Print Assumptions C10_admitted_history_preserves_tree.

(* queue status (allocated pods; state Open / Closed / Closing / Unknown) is no part of any clause:
   every status update keeps the invariant, e.g. a closed child still counts in its parent's sums *)
Theorem C10_status_update_keeps_tree : forall c Q n a st,
  1 <= max_depth c -> TreeInv c Q -> TreeInv c (apply_req Q (EnvStatus n a st)).
Proof.
  intros c Q n a st Hmax H. pose proof (tree_step c Q (EnvStatus n a st) Hmax H) as Hs.
  unfold apply_if_admitted in Hs. simpl in *. destruct (Q !! n); simpl in Hs; done.
Qed.
Print Assumptions C10_status_update_keeps_tree.

(* the record of the fourth defect: the validation as it was before the fix admits a CREATE under a
   terminating queue; once the finalizer is removed the set is not a tree and the capacity plugin refuses it *)
Theorem C10_terminating_parent_dangling_refuted :
  exists c Q n s p ps, TreeInv c Q /\ 1 <= max_depth c /\ Q !! p = Some ps /\ qterm ps = true /\
    qparent s = Some p /\ validate_hier_preterm c Q n s = VAllowed /\
    ~ ShapeInv c (delete p (<[n := s]> Q)) /\ capacity_ready (delete p (<[n := s]> Q)) = false.
Proof.
  exists default_cfg, term_Q, 4%positive, (q_ (Some 3%positive) [] [] []), 3%positive,
         (with_status 0 0 true (q_ (Some 1%positive) [] [] [])).
  split; [apply tree_okb_sound; by vm_compute|]. split; [done|]. split; [by vm_compute|]. split; [done|].
  split; [done|]. split; [by vm_compute|]. split; [|by vm_compute].
  intros Hs. pose proof (shape_capacity_ready _ _ Hs) as Hr. by vm_compute in Hr.
Qed.
Print Assumptions C10_terminating_parent_dangling_refuted.

(* the shape part, with the clause about terminating queues it rests on *)
Theorem C10_shape_history : forall c rs Q0,
  1 <= max_depth c -> TermInv Q0 -> ShapeInv c Q0 -> ShapeInv c (run_history c Q0 rs).
Proof.
  intros c rs Q0 Hmax Ht H0. apply (history_inv (fun Q => TermInv Q /\ ShapeInv c Q) c); [|done].
  intros Q r [? ?]. split; [by apply term_step|by apply shape_step].
Qed.
Print Assumptions C10_shape_history.

(* consequences of ShapeInv: no queue is its own proper ancestor, and every named parent exists.
   The second is the one condition on which the capacity plugin's hierarchy build
   (capacity.go buildHierarchicalQueueAttrs / updateAncestors) really aborts the session: its cycle
   test is dead for a cycle detached from root (queueOpts is consulted before recursing), so
   C10_capacity_plugin_accepts below is C10_parent_exists restated on the model [capacity_ready]
   of that abort condition — the real plugin is run on every final queue set by the harness. *)
Theorem C10_no_cycle : forall c Q n s,
  ShapeInv c Q -> Q !! n = Some s -> n <> root -> ~ anc Q n n.
Proof. exact shape_acyclic. Qed.
Print Assumptions C10_no_cycle.

Theorem C10_parent_exists : forall c Q n s,
  ShapeInv c Q -> Q !! n = Some s -> n <> root ->
  is_top (qparent s) = true \/ exists p ps, qparent s = Some p /\ p <> root /\ Q !! p = Some ps.
Proof. exact shape_parent_exists. Qed.
Print Assumptions C10_parent_exists.

Theorem C10_capacity_plugin_accepts : forall c Q, ShapeInv c Q -> capacity_ready Q = true.
Proof. exact shape_capacity_ready. Qed.
Print Assumptions C10_capacity_plugin_accepts.

(* guarantee <= deserved <= capability within a queue, in the form the code enforces *)
Theorem C10_queue_order : forall s d, QueueOk s ->
  amount (qguar s) d <= amount (qdes s) d /\
  (is_Some (qcap s !! d) -> amount (qdes s) d <= amount (qcap s) d).
Proof.
  intros s d (Hc & Hd & Hg). unfold amount. split.
  - destruct (qguar s !! d) as [g|] eqn:E; simpl.
    + destruct (Hg _ _ E) as (_ & x & -> & Hx). done.
    + destruct (qdes s !! d) eqn:E2; simpl; [by destruct (Hd _ _ E2)|lia].
  - intros [cv Hcv]. rewrite Hcv. simpl.
    destruct (qdes s !! d) as [x|] eqn:E; simpl; [|by eapply Hc].
    destruct (Hd _ _ E) as [_ Hx]. by apply Hx.
Qed.
Print Assumptions C10_queue_order.

(* --- capability against the nearest ancestor that sets the dimension: preserved by every
   admitted request, re-parenting of whole subtrees included (second fix) --- *)
Theorem C10_capability_step : forall c Q r,
  1 <= max_depth c -> TermInv Q -> ShapeInv c Q -> CapInv Q -> CapInv (apply_if_admitted c Q r).
Proof. exact cap_step. Qed.
Print Assumptions C10_capability_step.

Theorem C10_delete_guard : forall c Q n,
  verdict_of c Q (Delete n) = VAllowed ->
  n <> root /\ n <> default_q /\
  exists s, Q !! n = Some s /\ (alloc_check c = true -> qalloc s = 0) /\
            forall m sm, Q !! m = Some sm -> qparent sm <> Some n.
Proof. exact delete_guard. Qed.
Print Assumptions C10_delete_guard.

(* the deletion clause "a queue that has allocated pods is not deleted" is FALSE on the current code
   in the default configuration (EnableQueueAllocatedPodsCheck = false): a queue whose status shows
   3 allocated pods is deleted (known finding C10-delete-allocated-pods-flag-off; law 107) *)
Theorem C10_delete_allocated_without_flag_refuted :
  exists c Q n s, TreeInv c Q /\ alloc_check c = false /\ Q !! n = Some s /\ qalloc s <> 0 /\
                  verdict_of c Q (Delete n) = VAllowed /\ (apply_if_admitted c Q (Delete n)) !! n = None.
Proof.
  exists default_cfg, (apply_req ex_Q (EnvStatus 5%positive 3 (-1))), 5%positive,
         (with_status 3 0 false (q_ (Some 4%positive) [] (cpu_l 1000) (cpu_l 1000))).
  split; [apply tree_okb_sound; by vm_compute|]. split; [done|]. split; [by vm_compute|].
  split; [done|]. split; by vm_compute.
Qed.
Print Assumptions C10_delete_allocated_without_flag_refuted.

(* the executable guard of law 105 means the clause of C10_delete_guard, and accepts every DELETE
   the model admits *)
Theorem C10_delete_guard_law_sound : forall c Q n,
  delete_guardb c Q (Delete n) = true ->
  n <> root /\ n <> default_q /\
  exists s, Q !! n = Some s /\ (alloc_check c = true -> qalloc s = 0) /\
            forall m sm, Q !! m = Some sm -> qparent sm <> Some n.
Proof. exact delete_guardb_sound. Qed.
Print Assumptions C10_delete_guard_law_sound.

Theorem C10_delete_guard_law_complete : forall c Q n,
  verdict_of c Q (Delete n) = VAllowed -> delete_guardb c Q (Delete n) = true.
Proof.
  intros c Q n H. apply delete_guard in H as (Hr & Hd & s & Hn & Ha & Hk).
  unfold delete_guardb. rewrite Hn.
  rewrite (bool_decide_eq_false_2 (n = root)), (bool_decide_eq_false_2 (n = default_q)) by done. simpl.
  apply andb_true_iff. split; [|by apply leafb_leaf].
  destruct (alloc_check c); simpl; [|done]. apply bool_decide_eq_true. by apply Ha.
Qed.
Print Assumptions C10_delete_guard_law_complete.

(* DELETE of a queue held by a finalizer (the object lingers as terminating) is validated like DELETE;
   laws 105 and 107 judge it too; law 107's guard means "no allocated pods", and holds with the flag on *)
Theorem C10_delete_fin_guard : forall c Q n,
  verdict_of c Q (DeleteFin n) = VAllowed ->
  n <> root /\ n <> default_q /\
  exists s, Q !! n = Some s /\ (alloc_check c = true -> qalloc s = 0) /\
            forall m sm, Q !! m = Some sm -> qparent sm <> Some n.
Proof.
  intros c Q n.
  exact (delete_guard c Q n).
Qed.
Print Assumptions C10_delete_fin_guard.

Theorem C10_delete_fin_guard_law_sound : forall c Q n,
  delete_guardb c Q (DeleteFin n) = true ->
  n <> root /\ n <> default_q /\
  exists s, Q !! n = Some s /\ (alloc_check c = true -> qalloc s = 0) /\
            forall m sm, Q !! m = Some sm -> qparent sm <> Some n.
Proof.
  intros c Q n.
  exact (delete_guardb_sound c Q n).
Qed.
Print Assumptions C10_delete_fin_guard_law_sound.

Theorem C10_delete_alloc_law_sound : forall Q n s,
  (delete_allocb Q (Delete n) = true \/ delete_allocb Q (DeleteFin n) = true) -> Q !! n = Some s -> qalloc s = 0.
Proof.
  intros Q n s.
  unfold delete_allocb. intros [H|H] Hn; rewrite Hn in H; by apply bool_decide_eq_true in H.
Qed.
Print Assumptions C10_delete_alloc_law_sound.

Theorem C10_delete_alloc_law_holds_with_flag : forall c Q n,
  alloc_check c = true -> verdict_of c Q (Delete n) = VAllowed ->
  delete_allocb Q (Delete n) = true /\ delete_allocb Q (DeleteFin n) = true.
Proof.
  intros c Q n Hf H. apply delete_guard in H as (_ & _ & s & Hn & Ha & _).
  unfold delete_allocb. rewrite Hn. split; apply bool_decide_eq_true; by apply Ha.
Qed.
Print Assumptions C10_delete_alloc_law_holds_with_flag.

Theorem C10_root_and_default_stay : forall c rs n Q0,
  n = root \/ n = default_q -> is_Some (Q0 !! n) -> is_Some (run_history c Q0 rs !! n).
Proof.
  intros c rs n Q0 Hn. apply (history_inv (fun Q => is_Some (Q !! n))). intros Q r Hin.
  destruct (admitted_cases c Q r) as [|m s a st _|m o a st t _ _|m o _ Hr Hd _].
  - done.
  - apply lookup_insert_is_Some'. by right.
  - apply lookup_insert_is_Some'. by right.
  - rewrite lookup_delete_ne; [done|]. by destruct Hn as [-> | ->].
Qed.
Print Assumptions C10_root_and_default_stay.

(* --- the executable checkers evaluated on the implementation's results (C10/Laws.v) imply
   the predicates of the theorems --- *)
Theorem C10_checker_sound : forall c Q, tree_okb c Q = true -> TreeInv c Q.
Proof. exact tree_okb_sound. Qed.
Print Assumptions C10_checker_sound.

(* --- the root queue is carved out of the sums and the capability clause by the code (SumInv and CapInv say "parent /
   ancestor other than root"): with explicit amounts on root, an admitted top-level queue exceeds
   root's guarantee, deserved and capability --- *)
Theorem C10_root_not_enforced_refuted :
  exists c Q n s sr d, TreeInv c Q /\ Q !! root = Some sr /\ qparent s = Some root /\
    verdict_of c Q (Create n s) = VAllowed /\
    amount (qguar sr) d < csum qguar (apply_if_admitted c Q (Create n s)) root d /\
    amount (qdes sr) d < csum qdes (apply_if_admitted c Q (Create n s)) root d /\
    0 < capd sr d /\ capd sr d < capd s d.
Proof.
  exists default_cfg, rootx_Q, 3%positive, (q_ (Some root) (cpu_l 5000) (cpu_l 5000) (cpu_l 5000)),
         (q_ None (cpu_l 1000) (cpu_l 1000) (cpu_l 1000)), cpu_d.
  split; [apply tree_okb_sound; by vm_compute|]. repeat split; by vm_compute.
Qed.
Print Assumptions C10_root_not_enforced_refuted.

(* --- the model's "fuel exhausted" answer (where the Go recursion would not return) never occurs
   on a queue set satisfying ShapeInv --- *)
Theorem C10_no_fuel_verdict : forall c Q, ShapeInv c Q -> forall r, verdict_of c Q r <> VFuel.
Proof.
  intros c Q Hshape r.
  assert (forall n s old, admit_cu c Q n s old <> VFuel) as Hcu.
  { intros n s old. unfold admit_cu, admit_cu_with. destruct (negb _); [done|]. apply then_no_fuel.
    - destruct (match old with None => true | Some o => _ end); [apply validate_hier_no_fuel|done].
    - destruct (root_prot c && _ && _); [done|]. case_bool_decide as Hnr; [done|]. simpl.
      destruct (_ || _); [by apply (validate_resources_no_fuel c)|done]. }
  assert (forall n, admit_delete c Q n <> VFuel) as Hdel.
  { intros n. unfold admit_delete. destruct (_ || _); [done|]. destruct (Q !! n); [|done].
    destruct (_ && _); [done|]. by destruct (negb _). }
  destruct r as [n s|n s|n|n|n|n a st]; simpl.
  - apply Hcu.
  - destruct (Q !! n); [apply Hcu|done].
  - apply Hdel.
  - apply Hdel.
  - by destruct (Q !! n).
  - by destruct (Q !! n).
Qed.
Print Assumptions C10_no_fuel_verdict.

(* --- serialised admission is a hypothesis, not a theorem: two requests validated against the SAME
   queue set (two webhook replicas, or two requests closer than the informer's propagation delay)
   are both admitted and leave a cycle / an over-subscribed parent / a dangling parent that makes the
   capacity plugin abort.  The property's quantifier ("against the queue set produced by the
   previously admitted requests") makes the same assumption. --- *)
Theorem C10_concurrent_cycle_refuted :
  exists c Q r1 r2, TreeInv c Q /\ 1 <= max_depth c /\ verdict_of c Q r1 = VAllowed /\
    verdict_of c Q r2 = VAllowed /\ ~ ShapeInv c (apply_req (apply_req Q r1) r2).
Proof.
  exists default_cfg, conc_Q, (Update 3 (q_ (Some 4) [] [] []))%positive,
         (Update 4 (q_ (Some 3) [] [] []))%positive.
  split; [exact conc_tree_inv|]. split; [done|]. split; [by vm_compute|]. split; [by vm_compute|].
  intros Hs. eapply (shape_acyclic _ _ 3%positive); [exact Hs|by vm_compute|done|].
  eapply anc_trans; [eapply (anc_parent _ 3 _ 4)%positive; [by vm_compute|done|done]|].
  eapply (anc_parent _ 4 _ 3)%positive; [by vm_compute|done|done].
Qed.
Print Assumptions C10_concurrent_cycle_refuted.

Theorem C10_concurrent_sums_refuted :
  exists c Q r1 r2, TreeInv c Q /\ 1 <= max_depth c /\ verdict_of c Q r1 = VAllowed /\
    verdict_of c Q r2 = VAllowed /\ ~ SumInv (apply_req (apply_req Q r1) r2).
Proof.
  exists default_cfg, conc_Q, (Create 5 (q_ (Some 7) [] (cpu_l 6000%Z) (cpu_l 6000%Z)))%positive,
         (Create 6 (q_ (Some 7) [] (cpu_l 6000%Z) (cpu_l 6000%Z)))%positive.
  split; [exact conc_tree_inv|]. split; [done|]. split; [by vm_compute|]. split; [by vm_compute|].
  intros [Hg _].
  specialize (Hg 7%positive (q_ (Some 1%positive) [] (cpu_l 10000) (cpu_l 10000))).
  assert (12000 <= 10000) as Habs; [|lia].
  assert (csum qguar (apply_req (apply_req conc_Q (Create 5 (q_ (Some 7) [] (cpu_l 6000%Z) (cpu_l 6000%Z)))%positive)
                        (Create 6 (q_ (Some 7) [] (cpu_l 6000%Z) (cpu_l 6000%Z)))%positive) 7%positive cpu_d = 12000) as <- by by vm_compute.
  change 10000 with (amount (qguar (q_ (Some 1%positive) [] (cpu_l 10000) (cpu_l 10000))) cpu_d).
  apply Hg; [by vm_compute|done|done].
Qed.
Print Assumptions C10_concurrent_sums_refuted.

Theorem C10_concurrent_dangling_refuted :
  exists c Q r1 r2, TreeInv c Q /\ 1 <= max_depth c /\ verdict_of c Q r1 = VAllowed /\
    verdict_of c Q r2 = VAllowed /\ ~ ShapeInv c (apply_req (apply_req Q r1) r2) /\
    capacity_ready (apply_req (apply_req Q r1) r2) = false.
Proof.
  exists default_cfg, conc_Q, (Delete 4)%positive, (Create 5 (q_ (Some 4) [] [] []))%positive.
  split; [exact conc_tree_inv|]. split; [done|]. split; [by vm_compute|]. split; [by vm_compute|].
  split; [|by vm_compute].
  intros Hs. pose proof (shape_capacity_ready _ _ Hs) as Hr. by vm_compute in Hr.
Qed.
Print Assumptions C10_concurrent_dangling_refuted.

(* --- the record of the defects: the validation as it was BEFORE the fixes admits a re-parenting
   that closes a cycle, one that pushes a moved subtree beyond the depth limit (F3, first fix), and
   one that puts a descendant under an ancestor of smaller capability (second fix) --- *)
Theorem C10_precap_reparent_refuted :
  exists c Q n s o, TreeInv c Q /\ 1 <= max_depth c /\ Q !! n = Some o /\
                    admit_cu_precap c Q n s (Some o) = VAllowed /\ ~ CapInv (<[n := s]> Q).
Proof.
  exists ex_cfg, capx_Q, 4%positive, (q_ (Some 6%positive) [] [] []), (q_ (Some 3%positive) [] [] []).
  split; [apply tree_okb_sound; by vm_compute|]. split; [done|]. split; [by vm_compute|].
  split; [by vm_compute|].
  intros H.
  specialize (H 5%positive (q_ (Some 4%positive) (cpu_l 50000) [] []) 2%positive 10000).
  assert (50000 <= 10000) as Habs; [|lia].
  apply H; [by vm_compute|done|done|by vm_compute|].
  eapply (nearest_up _ _ 4%positive); [done|by vm_compute|by vm_compute|].
  change 10000 with (capd (q_ (Some 1%positive) (cpu_l 10000) [] []) 2%positive).
  eapply (nearest_here _ _ 6%positive); [done|by vm_compute|by vm_compute].
Qed.
Print Assumptions C10_precap_reparent_refuted.

Theorem C10_prefix_cycle_refuted :
  exists c Q n s, TreeInv c Q /\ 1 <= max_depth c /\ validate_hier_prefix c Q n s = VAllowed /\
                  ~ ShapeInv c (<[n := s]> Q).
Proof.
  exists ex_cfg, f3_Q, 3%positive, (q_ (Some 5%positive) [] [] []).
  split; [apply tree_okb_sound; by vm_compute|]. split; [done|]. split; [by vm_compute|].
  intros Hs. eapply (shape_acyclic _ _ 3%positive); [exact Hs|by vm_compute|done|].
  eapply anc_trans; [eapply (anc_parent _ 3 _ 5)%positive; [by vm_compute|done|done]|].
  eapply anc_trans; [eapply (anc_parent _ 5 _ 4)%positive; [by vm_compute|done|done]|].
  eapply (anc_parent _ 4 _ 3)%positive; [by vm_compute|done|done].
Qed.
Print Assumptions C10_prefix_cycle_refuted.

Theorem C10_prefix_depth_refuted :
  exists c Q n s, TreeInv c Q /\ 1 <= max_depth c /\ validate_hier_prefix c Q n s = VAllowed /\
                  ~ ShapeInv c (<[n := s]> Q).
Proof.
  exists f3b_cfg, f3b_Q, 3%positive, (q_ (Some 7%positive) [] [] []).
  split; [apply tree_okb_sound; by vm_compute|]. split; [done|]. split; [by vm_compute|].
  intros [_ Hs]. destruct (Hs 5%positive (q_ (Some 4%positive) [] [] [])) as (k & Hk & Hle); [by vm_compute|done|].
  assert (reach (<[3%positive := q_ (Some 7%positive) [] [] []]> f3b_Q) 5%positive 5) as H5.
  { eapply (reach_up _ 5 _ 4)%positive; [by vm_compute|done|done|].
    eapply (reach_up _ 4 _ 3)%positive; [by vm_compute|done|done|].
    eapply (reach_up _ 3 _ 7)%positive; [by vm_compute|done|done|].
    eapply (reach_up _ 7 _ 6)%positive; [by vm_compute|done|done|].
    eapply (reach_top _ 6)%positive; [by vm_compute|done]. }
  pose proof (reach_fun _ _ _ _ Hk H5). subst k. simpl in Hle. lia.
Qed.
Print Assumptions C10_prefix_depth_refuted.

(* --- non-vacuity: a concrete three-level hierarchy satisfies every hypothesis, and a
   history over it exercises admitted and refused creates, updates, re-parentings, status updates
   and deletes --- *)
Example C10_hypotheses_satisfiable :
  1 <= max_depth ex_cfg /\ TreeInv ex_cfg ex_Q /\
  verdicts ex_cfg ex_Q ex_history =
  [VAllowed; VAllowed; VSiblingSum; VAllowed; VSpec; VAllowed; VAllowed; VCycle; VRootParent; VAllowed; VAllowed;
   VCapAncestor; VAllowed; VDelChildren].
Proof. split; [done|]. split; [exact ex_tree_inv|exact ex_history_verdicts]. Qed.

(* the bootstrap queue set of a fresh cluster, {root, default}, satisfies the invariant *)
Example C10_bootstrap_satisfies_invariant :
  TreeInv default_cfg (list_to_map [(root, q_ None [] [] []); (default_q, q_ (Some root) [] [] [])]) /\
  TreeInv default_cfg (list_to_map [(root, q_ None [] [] []); (default_q, q_ None [] [] [])]).
Proof. exact bootstrap_tree_inv. Qed.
