(* Property C14 — topology constraints are honoured; the HyperNode view is
   order-independent.  The property theorems, each followed by Print Assumptions (the non-vacuity
   Examples at the end are not).  A proof stands here when nothing else needs the fact; otherwise
   the theorem is [exact] of a lemma of C14/Lemmas.v, Scratch.v or Compose.v. *)
From Coq Require Import ZArith List Bool.
From V Require Import C14.Model C14.Laws C14.LawsPlace C14.Lemmas C14.Scratch C14.Recover C14.Audit C14.Compose.
From Coq Require Import Permutation.
Import ListNotations.
Open Scope Z_scope.

(* --- GetAncestors / GetLCAHyperNode, for EVERY parent function (every state of the
   map: Parent pointers with the getParent fallback), whenever the walk's fuel sufficed --- *)
Theorem C14_ancestors_spec : forall par fuel x l,
  ancestors_gen par fuel x = Some l -> forall y, In y l <-> anc par x y.
Proof. intros; split; [eapply ancestors_sound|eapply ancestors_complete]; eauto. Qed.
Print Assumptions C14_ancestors_spec.

Theorem C14_lca_correct : forall par fuel a b r,
  lca_gen par fuel (Some a) (Some b) = Some r ->
  match r with
  | Some x => anc par a x /\ anc par b x /\ forall c, anc par a c -> anc par b c -> anc par x c
  | None => forall c, anc par a c -> anc par b c -> False
  end.
Proof. exact lca_correct. Qed.
Print Assumptions C14_lca_correct.

(* --- placement: every HyperNode offered to a hard-mode job has tier <= limit and
   lies in the Children-subtree of the search root ... --- *)
Theorem C14_gradient_tier_bound : forall hn start limit alloc l,
  gradient hn start limit alloc = GOk l ->
  exists r, search_root hn start limit alloc = ROk r /\
    forall x t, In (x, t) l -> t <= limit /\ tier_of hn x = Some t /\ reach hn r x.
Proof. exact gradient_tier_bound. Qed.
Print Assumptions C14_gradient_tier_bound.

(* ... and with a prior allocation a that root is the start HyperNode (when it lies under
   the highest allowed ancestor hha of a) or hha itself, hha being an ancestor-or-self of
   a with tier <= limit *)
Theorem C14_search_root_with_allocation : forall hn start limit a r,
  search_root hn start limit (Some a) = ROk r ->
  exists ancs hha t,
    get_ancestors hn a = Some ancs /\ In hha ancs /\ tier_of hn hha = Some t /\ t <= limit /\
    ((r = start /\ get_lca hn (Some start) (Some hha) = Some (Some hha)) \/
     (r = hha /\ get_lca hn (Some start) (Some hha) = Some (Some start))).
Proof. exact search_root_with_allocation. Qed.
Print Assumptions C14_search_root_with_allocation.

(* The code records as AllocatedHyperNode LCA(previous allocation, the HyperNode DOMAIN chosen by
   the gradient) (allocate.go:525,645; recorder.go:66,79); that LCA is characterised by
   C14_lca_correct.  The record is checked on real traces only (law 109: holds every placement,
   tier <= limit).  It is in general ABOVE the LCA of the nodes actually bound: the property
   text's "recorded = LCA of the placements" is false for the code (finding D11, law 113); the
   witness below shows a tier-2 domain recorded while a tier-1 HyperNode holds node n1:
   leaves h1=[n1] h2=[n2] under h3; the gradient offers the tier-2 domain h3 and both pods fit on n1 *)
Theorem C14_recorded_is_lca_of_placements_refuted :
  let s := scratch (mkEnv [] []) [mkObj 1 1 [MNode 1]; mkObj 2 1 [MNode 2]; mkObj 3 2 [MHyper 1; MHyper 2]]%positive in
  let hn := add_top s in
  new_allocated hn None 3%positive = Some (Some 3%positive) /\
  real_get s 1 = [1%positive] /\ real_get s 3 = [1; 2]%positive /\
  tier_of hn 1%positive = Some 1 /\ tier_of hn 3%positive = Some 2.
Proof. vm_compute. repeat split; reflexivity. Qed.
Print Assumptions C14_recorded_is_lca_of_placements_refuted.

(* --- placement composed with the view (any forest built leaf-first; top_name is not a HyperNode
   name): every HyperNode offered to a hard-mode job has tier <= limit and its leaf set lies in
   the leaf set of the HyperNode the search started from; with a prior allocation a there is ONE
   HyperNode H of tier <= limit which is the cluster top (then nothing is said of leaf sets: the
   top has none in the view) or whose leaf set holds the nodes of the offered HyperNode and the
   nodes of a.  (allocate restricts the candidate nodes of a try to that leaf set — allocate.go,
   not modelled: laws 108/109 on real traces.) --- *)
Theorem C14_gradient_on_forest_no_allocation : forall e P, leaf_first P -> find_obj P top_name = None ->
  forall start limit l x t, start <> top_name ->
  gradient (add_top (scratch e P)) start limit None = GOk l -> In (x, t) l ->
  t <= limit /\ tier_of (add_top (scratch e P)) x = Some t /\
  forall n, In n (real_get (scratch e P) x) -> In n (real_get (scratch e P) start).
Proof. exact gradient_on_forest_no_allocation. Qed.
Print Assumptions C14_gradient_on_forest_no_allocation.

Theorem C14_gradient_on_forest_with_allocation : forall e P, leaf_first P -> find_obj P top_name = None ->
  forall start limit a l x t,
  gradient (add_top (scratch e P)) start limit (Some a) = GOk l -> In (x, t) l ->
  t <= limit /\
  exists H tH, tier_of (add_top (scratch e P)) H = Some tH /\ tH <= limit /\
    (H = top_name \/
     ((forall n, In n (real_get (scratch e P) x) -> In n (real_get (scratch e P) H)) /\
      (forall n, In n (real_get (scratch e P) a) -> In n (real_get (scratch e P) H)))).
Proof. exact gradient_on_forest_with_allocation. Qed.
Print Assumptions C14_gradient_on_forest_with_allocation.

(* --- the placement laws mean the clause (soundness of the boolean checkers) --- *)
Theorem C14_law_placement_sound : forall hn real limit recorded nodes,
  law_placement hn real limit recorded nodes = true ->
  nodes = [] \/
  exists h i l, In (h, i) hn /\ i_tier i <= limit /\ aget h real = Some l /\ forall n, In n nodes -> In n l.
Proof.
  intros hn real limit recorded nodes H. unfold law_placement in H.
  destruct nodes as [|n0 ns]; [now left|]. right.
  apply existsb_exists in H. destruct H as [[h i] [Hin H]]. apply andb_true_iff in H. destruct H as [Ht Hc].
  apply Z.leb_le in Ht. apply covers_sound in Hc. destruct Hc as [Hc|[l [Hl Hall]]]; [discriminate|].
  exists h, i, l. auto.
Qed.
Print Assumptions C14_law_placement_sound.

Theorem C14_law_recorded_sound : forall hn real limit r nodes,
  law_recorded hn real limit (Some r) nodes = true -> nodes <> [] ->
  (exists i, aget r hn = Some i /\ i_tier i <= limit) /\
  exists l, aget r real = Some l /\ forall n, In n nodes -> In n l.
Proof.
  intros hn real limit r nodes H Hne. unfold law_recorded in H.
  destruct nodes as [|n0 ns]; [contradiction|].
  apply andb_true_iff in H. destruct H as [Hc Ht].
  apply covers_sound in Hc. destruct Hc as [Hc|Hc]; [discriminate|].
  split; [|exact Hc]. destruct (aget r hn) as [i|]; [|discriminate].
  exists i. split; [reflexivity|now apply Z.leb_le].
Qed.
Print Assumptions C14_law_recorded_sound.

Theorem C14_law_not_ready_no_bind_sound : forall nr k,
  law_not_ready_no_bind nr k = true -> nr = true -> k = 0.
Proof.
  intros nr k H ->. simpl in H. now apply Z.eqb_eq.
Qed.
Print Assumptions C14_law_not_ready_no_bind_sound.

(* --- recovery of the AllocatedHyperNode at session open (recoverAllocatedHyperNode): the
   HyperNode recovered for a sub-job holds every node that hosts one of its tasks in an
   allocated status (Bound, Binding, Running, Allocated) and no HyperNode of a lower tier
   does; nothing is recovered only if there is no such task or no HyperNode holds them all --- *)
Theorem C14_recover_sub_spec : forall hn real nodes h,
  recover_sub hn real nodes = Some h ->
  covers_all real h nodes = true /\
  exists i, In (h, i) hn /\
    forall k i', In (k, i') hn -> covers_all real k nodes = true -> i_tier i <= i_tier i'.
Proof.
  intros hn real nodes h H. unfold recover_sub in H. destruct nodes as [|n ns]; [discriminate|].
  pose proof (recover_fold_spec real (n :: ns) hn None I) as S.
  destruct (fold_left _ hn None) as [[k i]|]; [|discriminate].
  inversion H; subst. destruct S as (S1 & S2 & _ & S4). split; [exact S1|].
  exists i. split; [destruct S4 as [S4|S4]; [exact S4|discriminate]|].
  intros k i' Hin Hc. exact (S2 (k, i') Hin Hc).
Qed.
Print Assumptions C14_recover_sub_spec.

Theorem C14_recover_sub_none : forall hn real nodes,
  recover_sub hn real nodes = None ->
  nodes = [] \/ forall ki, In ki hn -> covers_all real (fst ki) nodes = false.
Proof.
  intros hn real nodes H. unfold recover_sub in H. destruct nodes as [|n ns]; [now left|]. right.
  pose proof (recover_fold_spec real (n :: ns) hn None I) as S.
  destruct (fold_left _ hn None) as [x|]; [discriminate|]. exact (proj2 S).
Qed.
Print Assumptions C14_recover_sub_none.

(* the HyperNode recovered for the job is an ancestor-or-self of every sub-job's recovered
   HyperNode and the lowest such (for every parent function; uses C14_lca_correct) *)
Theorem C14_recover_job_spec : forall par fuel subs r stop,
  lca_fold (lca_gen par fuel) subs = Some (Some r, stop) ->
  (forall h, In (Some h) subs -> anc par h r) /\
  (forall c, (forall h, In (Some h) subs -> anc par h c) -> anc par r c).
Proof.
  intros par fuel subs r stop H. unfold lca_fold in H.
  apply (lca_fold_inv par fuel subs [] None r stop) in H; [exact H|].
  intros h [].
Qed.
Print Assumptions C14_recover_job_spec.

(* --- tier limits given by NAME (adjustNetworkTopologySpec): a sub-group's valid tier name is
   translated to its tier whatever the job-level spec is (absent, a number, a valid or an
   unknown name); the variant that skips the sub-jobs after a job-level failure (seeded mutant
   C14-r5-2) loses the limit --- *)
Theorem C14_adjust_sub_valid_name : forall table job subs role n,
  In (role, Some (TName n)) subs -> existsb (Z.eqb n) table = true ->
  In (role, Some n) (snd (adjust false table job subs)).
Proof.
  intros table job subs role n Hin Hn. unfold adjust. cbn [snd].
  apply in_map_iff. exists (role, Some (TName n)). split; [|exact Hin].
  cbn [fst snd andb translate]. now rewrite Hn.
Qed.
Print Assumptions C14_adjust_sub_valid_name.

(* finding D13: a hard limit given by a tier name that no HyperNode carries is NOT translated —
   the spec keeps no numeric limit, the job is scheduled without constraint *)
Theorem C14_adjust_unknown_name_unconstrained :
  fst (adjust false [1; 2] (Some (TName 0)) []) = None /\
  fst (adjust false [1; 2] (Some (TName 2)) []) = Some 2.
Proof. vm_compute. split; reflexivity. Qed.
Print Assumptions C14_adjust_unknown_name_unconstrained.

Theorem C14_adjust_skip_refuted :
  let table := [1; 2] in
  let subs := [(1, Some (TName 1))] in
  snd (adjust true table (Some (TName 0)) subs) = [(1, None)] /\
  snd (adjust false table (Some (TName 0)) subs) = [(1, Some 1)].
Proof. vm_compute. split; reflexivity. Qed.
Print Assumptions C14_adjust_skip_refuted.

(* --- the view, UNBOUNDED (any number of HyperNodes, tiers, members): for every set of objects
   with exact-match members that arrives leaf-first (each object after all its HyperNode
   members, which exist and are not yet claimed: a consistent forest built bottom-up), the
   view built by UpdateHyperNode is the tree derived from the objects:
   entry(k) = (tier, members, the unique claimer as parent, the claimed members as children),
   realNodes(k) = the node members at or below k, tier sets = objects by tier, Ready --- *)
Theorem C14_rebuild_from_scratch_spec_leaf_first : forall e P, leaf_first P -> Rep (scratch e P) P.
Proof. exact scratch_leaf_first. Qed.
Print Assumptions C14_rebuild_from_scratch_spec_leaf_first.

(* order-independence on that class: any two leaf-first arrival orders of the same objects
   give the same entries, leaf sets, tier sets, and both are Ready *)
Theorem C14_leaf_first_arrival_order_independent : forall e P Q,
  leaf_first P -> leaf_first Q -> Permutation P Q ->
  let s := scratch e P in let s' := scratch e Q in
  (forall k, aget k (s_hn s) = aget k (s_hn s')) /\
  (forall k n, In n (real_get s k) <-> In n (real_get s' k)) /\
  (forall t k, In k (match zget t (s_tier s) with Some l => l | None => [] end) <->
               In k (match zget t (s_tier s') with Some l => l | None => [] end)) /\
  s_ready s = true /\ s_ready s' = true.
Proof.
  intros e P Q HP HQ Hperm s s'.
  pose proof (scratch_leaf_first e P HP) as RP. pose proof (scratch_leaf_first e Q HQ) as RQ.
  fold s in RP. fold s' in RQ.
  assert (Hf : forall k, find_obj P k = find_obj Q k) by (intro; now apply perm_find).
  split; [|split; [|split]].
  - intros k. rewrite (rep_hn _ _ RP), (rep_hn _ _ RQ), Hf, (perm_parent P Q HP HQ Hperm). reflexivity.
  - intros k n. rewrite (rep_real _ _ RP), (rep_real _ _ RQ).
    split; apply leaf_below_ext; intros k' o; rewrite Hf; auto.
  - intros t k. rewrite (rep_tier _ _ RP), (rep_tier _ _ RQ).
    split; intros [o [H1 H2]]; exists o; (split; [|exact H2]).
    + eapply Permutation_in; eauto.
    + eapply Permutation_in; [apply Permutation_sym|]; eauto.
  - split; [exact (rep_ready _ _ RP)|exact (rep_ready _ _ RQ)].
Qed.
Print Assumptions C14_leaf_first_arrival_order_independent.

(* --- the view: the small-scope order-independence theorems live in Props/C14SmallScope.v
   (thorough tier only) --- *)

(* --- errors are reported (all states, all inputs): a failing UpdateHyperNode /
   DeleteHyperNode leaves Ready = false (this includes model-fuel exhaustion, which never
   occurs on explored inputs); the one-step facts about the two error sources of
   BuildHyperNodeCache are lemmas (Lemmas.v build_cycle_errors, add_child_second_parent_errors) --- *)
Theorem C14_upd_error_not_ready : forall e s o s', upd e s o = (s', true) -> s_ready s' = false.
Proof.
  intros e s o s' H. pose proof (proj1 (upd_outcome e s o)) as G. rewrite H in G. exact (G eq_refl).
Qed.
Print Assumptions C14_upd_error_not_ready.

Theorem C14_del_error_not_ready : forall e s nm s', del e s nm = (s', true) -> s_ready s' = false.
Proof.
  intros e s nm s' H. unfold del, del_gen in H.
  match type of H with (let '(_, _) := ?c in _) = _ => destruct c as [s2 err] end. destruct err; [|discriminate].
  inversion H; subst. reflexivity.
Qed.
Print Assumptions C14_del_error_not_ready.

(* --- the code before a repair violated the property; the repaired code (run) does not, on the
   same inputs.  run_prefix is the code before any repair (D1, D3, D4); run_round2, run_round4,
   run_round8, run_round9 the code before D6/D9, D2a, D14, D15; D5, D8 and D10 are shown on the
   function concerned --- *)
Theorem C14_d1_ready_restored_refuted : exists evs,
  let objs := [mkObj 2 3 [MHyper 2]; mkObj 1 1 [MNode 5]]%positive in
  bad_membership objs = true /\
  s_ready (snd (run_prefix (mkEnv [] []) evs)) = true /\
  s_ready (snd (run (mkEnv [] []) evs)) = false.
Proof.
  exists [EUpd (mkObj 2 3 [MHyper 2]); EUpd (mkObj 1 1 [MNode 5])]%positive.
  vm_compute. repeat split; reflexivity.
Qed.
Print Assumptions C14_d1_ready_restored_refuted.

Theorem C14_d3_gradient_crash_refuted : exists evs,
  gradient (add_top (snd (run_prefix (mkEnv [] []) evs))) top_name 5 None = GCrash /\
  exists l, gradient (add_top (snd (run (mkEnv [] []) evs))) top_name 5 None = GOk l.
Proof.
  exists [EUpd (mkObj 2 2 [MHyper 1; MHyper 3]); EUpd (mkObj 1 1 []); EUpd (mkObj 3 1 []); EDel 3]%positive.
  vm_compute. split; [reflexivity|eexists; reflexivity].
Qed.
Print Assumptions C14_d3_gradient_crash_refuted.

Theorem C14_d4_tier0_not_indexed_refuted : exists evs,
  zget 0 (s_tier (snd (run_prefix (mkEnv [] []) evs))) = None /\
  zget 0 (s_tier (snd (run (mkEnv [] []) evs))) = Some [1%positive].
Proof.
  exists [EUpd (mkObj 2 2 [MHyper 1]); EUpd (mkObj 1 0 [])]%positive.
  vm_compute. split; reflexivity.
Qed.
Print Assumptions C14_d4_tier0_not_indexed_refuted.

Theorem C14_d6_failed_delete_refuted : exists evs,
  let objs := [mkObj 1 1 []; mkObj 2 3 [MHyper 1]; mkObj 3 2 [MHyper 1]]%positive in
  bad_membership objs = true /\
  s_ready (snd (run_round2 (mkEnv [] []) evs)) = true /\
  s_ready (snd (run (mkEnv [] []) evs)) = false.
Proof.
  exists [EUpd (mkObj 1 2 [MHyper 3; MHyper 1]); EDel 3; EUpd (mkObj 1 1 []);
          EUpd (mkObj 3 2 [MHyper 1]); EUpd (mkObj 2 3 [MHyper 1])]%positive.
  vm_compute. repeat split; reflexivity.
Qed.
Print Assumptions C14_d6_failed_delete_refuted.

Theorem C14_d9_foreign_release_refuted : exists evs,
  (exists i, aget 2%positive (s_hn (snd (run_round2 (mkEnv [] []) evs))) = Some i /\ i_parent i = None) /\
  (exists i, aget 2%positive (s_hn (snd (run (mkEnv [] []) evs))) = Some i /\ i_parent i = Some 3%positive).
Proof.
  exists [EUpd (mkObj 3 2 [MHyper 2]); EUpd (mkObj 5 2 [MHyper 2]); EUpd (mkObj 2 1 []); EDel 5]%positive.
  vm_compute. split; eexists; split; reflexivity.
Qed.
Print Assumptions C14_d9_foreign_release_refuted.

(* D8 (round 5): a sub-job without a topology of its own was skipped by the recovery although
   its job is constrained, so the job's running pod was forgotten.  Leaves h1=[n1] h2=[n2]; hard
   job, sub-group policy without own topology; one pod Running on n2: before the repair nothing
   was recovered (the pending pod could then be bound under h1); now the job is known to sit in h2 *)
Theorem C14_d8_recovery_refuted :
  let '(hn, real) := trace_session 2 [(1%positive, [1]); (1%positive, [1])] in
  let pods := [(1, 2%positive, 2); (0, 1%positive, 1)] in
  snd (recover_all_gen false hn real 1 pods) = Some None /\
  snd (recover_all_gen true hn real 1 pods) = Some (Some 2%positive).
Proof. vm_compute. split; reflexivity. Qed.
Print Assumptions C14_d8_recovery_refuted.

(* D10 (round 5): the recorder replayed the sub-job decision of a candidate that an earlier
   round had only tried: sub-job 1 ended above its tier-1 limit (h4) instead of h3.  Leaves h1 h2 h3
   under the tier-2 HyperNode h4; round 1 tries h2, h3, h1 for sub-job 1 and commits h3; round 2
   tries h3, h1, h2 for sub-job 2 and commits h2; the stale record "sub-job 1 -> h2" of round 1
   was replayed: LCA(h3, h2) = h4 although its pods never left h3 *)
Theorem C14_d10_stale_decision_refuted :
  let '(hn, _) := trace_session 2 [(1%positive, [1; 1; 1]); (1%positive, [2]); (1%positive, [1])] in
  let rounds : list round :=
    [ ([(2%positive, [(1, 2%positive)]); (3%positive, [(1, 3%positive)]); (1%positive, [(1, 1%positive)])], 3%positive);
      ([(3%positive, [(2, 3%positive)]); (1%positive, [(2, 1%positive)]); (2%positive, [(2, 2%positive)])], 2%positive) ] in
  zget 1 (run_rounds false hn rounds) = Some (Some 4%positive) /\
  zget 1 (run_rounds true hn rounds) = Some (Some 3%positive) /\
  zget 2 (run_rounds true hn rounds) = Some (Some 2%positive).
Proof. vm_compute. repeat split; reflexivity. Qed.
Print Assumptions C14_d10_stale_decision_refuted.

(* D5 (round 5): on the state after "h1 claims h2; h2 created; h2 deleted; h4 created", with an
   entry for a second claimer h3 of h2 put into the map by hand (s3), addChild accepted h3 as
   parent of h2; now it is refused *)
Theorem C14_d5_second_claimer_refuted :
  let s := snd (run (mkEnv [] []) [EUpd (mkObj 1 2 [MHyper 2]); EUpd (mkObj 2 1 []); EDel 2;
                                   EUpd (mkObj 4 1 [])])%positive in
  let s3 := set_hn s (aset 3%positive (mkInfo 2 [MHyper 2%positive] None [] false) (s_hn s)) in
  snd (add_child_prefix s3 3 2) = false /\ add_child s3 3 2 = (s3, true).
Proof.
  vm_compute. split; reflexivity.
Qed.
Print Assumptions C14_d5_second_claimer_refuted.

Theorem C14_d2a_label_leaf_stale_refuted :
  let e := mkEnv [1%positive] [(1%positive, [1%positive])] in
  let evs := [EUpd (mkObj 1 1 [MSel true 1]); ENodeDel 1]%positive in
  real_get (snd (run_round4 e evs)) 1 = [1%positive] /\ real_get (snd (run e evs)) 1 = [].
Proof.
  vm_compute. split; reflexivity.
Qed.
Print Assumptions C14_d2a_label_leaf_stale_refuted.

(* --- bad membership => not ready, where it holds --- *)
(* (the invariant "Ready implies that the private set failedRebuilds is empty", proved for all
   histories in Audit.v ready_implies_no_failed_rebuild, relates two internal fields and is not
   counted as a property theorem) *)

(* a second claim of an EXISTING member is refused: on the view of any forest P, an object with a
   NEW name whose members before c are exact-match, present and unclaimed, and which then lists a
   HyperNode c that already has a parent p, makes UpdateHyperNode fail and the view not ready *)
Theorem C14_second_claim_not_ready : forall e s P nm t ms1 c rest p,
  Rep s P ->
  find_obj P nm = None ->
  Forall (fun m => match m with
                   | MNode _ => True | MSel _ _ => False
                   | MHyper c' => c' <> nm /\ find_obj P c' <> None /\ spec_parent P c' = None
                   end) ms1 ->
  c <> nm -> find_obj P c <> None -> spec_parent P c = Some p -> p <> nm ->
  ~ In (MHyper c) ms1 ->
  exists s', upd e s (mkObj nm t (ms1 ++ MHyper c :: rest)) = (s', true) /\ s_ready s' = false.
Proof.
  intros e s P nm t ms1 c rest p HR Hfresh Hms1 Hcn Hcex Hcp Hpn Hnotin.
  destruct (Rep_new s P nm HR Hfresh) as [Hnm Hunc].
  destruct (upd_new e s nm t (ms1 ++ MHyper c :: rest) Hnm Hunc (rep_sorted _ _ HR)) as [s0 [H0 ->]].
  (* the members before c are adopted without error *)
  assert (Hms : Forall (MOk nm s) ms1) by (eapply Forall_impl; [|exact Hms1]; intros m; now apply Rep_MOk).
  destruct (loop_ok e nm t _ s 1 ms1 [] s0 Hms H0) as [s1 [Hloop H1]].
  rewrite fold_left_app, Hloop. cbn [fold_left].
  (* at c: it has an entry whose parent is p <> nm, so addChild fails and the loop keeps the error *)
  assert (Hc1 : exists ic, aget c (s_hn s1) = Some ic /\ i_parent ic = Some p).
  { rewrite (li_hn _ _ _ _ _ _ H1 c Hcn). cbn [app].
    assert (Ecl : claims ms1 c = false).
    { destruct (claims ms1 c) eqn:E; [|reflexivity]. apply claims_In in E. contradiction. }
    rewrite Ecl, (rep_hn _ _ HR). destruct (find_obj P c) as [oc|]; [|contradiction].
    eexists. split; [reflexivity|exact Hcp]. }
  destruct Hc1 as [ic [Hc1 Hp1]].
  unfold body at 2. cbv beta iota.
  rewrite (add_child_second_parent_errors s1 nm c ic p Hc1 Hp1 Hpn). cbv beta iota.
  rewrite body_error_sticks. eexists. split; reflexivity.
Qed.
Print Assumptions C14_second_claim_not_ready.

(* --- what the boolean view checker of the small-scope theorems and of law 101 means: for every
   object, its entry exists with the object's tier, the unique claimer as Parent, exactly the
   claimed members that exist as Children (every listed child is claimed and has an entry), and
   the leaf set computed from the objects; the tier sets are the objects grouped by tier; no
   leaf set belongs to a non-object --- *)
Theorem C14_view_matches_spec_sound : forall e objs v,
  view_matches_spec e objs v = true ->
  (forall o, In o objs -> exists i,
      aget (o_name o) (s_hn v) = Some i /\
      i_tier i = o_tier o /\
      i_parent i = spec_parent objs (o_name o) /\
      real_only objs (i_children i) = real_only objs (hchildren (o_members o)) /\
      (forall c, In c (i_children i) -> pmem c (hchildren (o_members o)) = true /\ aget c (s_hn v) <> None) /\
      real_get v (o_name o) = spec_real (S (length objs)) e objs (o_name o)) /\
  s_tier v = spec_tiers objs /\
  (forall k l, In (k, l) (s_real v) -> pmem k (obj_names objs) = true \/ l = []).
Proof.
  intros e objs v H. unfold view_matches_spec, view_matches_spec_gen in H.
  rewrite !andb_true_iff, !forallb_forall in H. destruct H as [[H1 H2] H3].
  split; [|split; [now apply tiers_eqb_eq|]].
  - intros o Hin. specialize (H1 o Hin).
    destruct (aget (o_name o) (s_hn v)) as [i|]; [|discriminate]. exists i. split; [reflexivity|].
    unfold children_ok in H1. rewrite !andb_true_iff, forallb_forall in H1.
    destruct H1 as [[[Ht Hp] [Hc1 Hc2]] Hr].
    split; [now apply Z.eqb_eq|]. split; [now apply opt_eqb_eq|].
    split; [now apply plist_eqb_eq|]. split; [|now apply plist_eqb_eq].
    intros c Hcin. specialize (Hc2 c Hcin). apply andb_true_iff in Hc2. destruct Hc2 as [A B].
    split; [exact A|]. now destruct (aget c (s_hn v)).
  - intros k l Hin. specialize (H3 (k, l) Hin). simpl in H3.
    apply orb_true_iff in H3. destruct H3 as [H3|H3]; [now left|right]. now destruct l.
Qed.
Print Assumptions C14_view_matches_spec_sound.

(* --- the VIEW clause (order-independence) is false on the code in two classes: known
   findings D2 (mixed selector / HyperNode members) and D7 (tier inversion) --- *)
(* D2b: a HyperNode that mixes a HyperNode member with a regex node member is not refreshed
   when a matching node is added: its leaf set stays empty, a fresh view lists the node *)
Theorem C14_view_order_independence_refuted_mixed_members :
  let e0 := mkEnv [] [(1%positive, [1%positive])] in
  let objs := [mkObj 2 1 []; mkObj 1 2 [MSel false 1; MHyper 2]]%positive in
  let incr := run e0 (map EUpd objs ++ [ENodeAdd 1%positive]) in
  real_get (snd incr) 1 = [] /\
  real_get (scratch (fst incr) objs) 1 = [1%positive] /\
  s_ready (snd incr) = true.
Proof. vm_compute. repeat split; reflexivity. Qed.
Print Assumptions C14_view_order_independence_refuted_mixed_members.

(* D7: h3 (tier 1) lists h1; h1 arrives with tier 1 (not below its claimer) and is then
   corrected to tier 0: h3 never adopts it, a fresh view has h3 as its parent *)
Theorem C14_view_order_independence_refuted_tier_inversion :
  let e0 := mkEnv [] [] in
  let evs := [EUpd (mkObj 3 1 [MHyper 1]); EDel 1; EUpd (mkObj 1 1 []); EUpd (mkObj 1 0 [])]%positive in
  let objs := [mkObj 1 0 []; mkObj 3 1 [MHyper 1]]%positive in
  forest_ok objs = true /\
  (exists i, aget 1%positive (s_hn (snd (run e0 evs))) = Some i /\ i_parent i = None) /\
  (exists i, aget 1%positive (s_hn (scratch e0 objs)) = Some i /\ i_parent i = Some 3%positive).
Proof. vm_compute. split; [reflexivity|split; eexists; split; reflexivity]. Qed.
Print Assumptions C14_view_order_independence_refuted_tier_inversion.

(* D14: a deletion that resolves a double claim was blocked for ever by that very double claim
   (the members of the HyperNode being deleted were released only after the rebuild of its
   ancestors, which failed on them); now they are released first *)
Theorem C14_d14_blocked_delete_refuted :
  let e := mkEnv [] [] in
  let evs := [EUpd (mkObj 2 1 [MHyper 4]); EUpd (mkObj 3 3 [MHyper 4; MHyper 2]); EDel 2; EDel 2]%positive in
  forest_ok [mkObj 3 3 [MHyper 4; MHyper 2]]%positive = true /\
  (s_ready (snd (run_round8 e evs)) = false /\ aget 2%positive (s_hn (snd (run_round8 e evs))) <> None) /\
  (s_ready (snd (run e evs)) = true /\
   exists i, aget 3%positive (s_hn (snd (run e evs))) = Some i /\ i_children i = [4%positive]).
Proof.
  vm_compute. repeat split; try discriminate; try reflexivity. eexists. split; reflexivity.
Qed.
Print Assumptions C14_d14_blocked_delete_refuted.

(* D15: the object of a HyperNode listed by two HyperNodes arrives last; only one claimer's
   chain was rebuilt and the double claim could end reported as repaired *)
Theorem C14_d15_arrival_under_two_claimers_refuted :
  let e := mkEnv [] [] in
  let evs := [EUpd (mkObj 3 2 [MHyper 1]); EDel 1; EUpd (mkObj 2 1 [MHyper 1]); EUpd (mkObj 1 0 [])]%positive in
  bad_membership [mkObj 1 0 []; mkObj 2 1 [MHyper 1]; mkObj 3 2 [MHyper 1]]%positive = true /\
  s_ready (snd (run_round9 e evs)) = true /\ s_ready (snd (run e evs)) = false.
Proof.
  vm_compute. repeat split; reflexivity.
Qed.
Print Assumptions C14_d15_arrival_under_two_claimers_refuted.

(* --- still refuted at full strength on the repaired code (known finding D7): a cycle between
   two HyperNodes of the same tier stays unreported --- *)
Theorem C14_bad_membership_not_ready_refuted : exists evs,
  let objs := [mkObj 1 1 [MHyper 2]; mkObj 2 1 [MHyper 1]]%positive in
  bad_membership objs = true /\ s_ready (snd (run (mkEnv [] []) evs)) = true.
Proof.
  exists [EUpd (mkObj 1 1 [MHyper 2]); EDel 2; EUpd (mkObj 2 1 [MHyper 1])]%positive.
  vm_compute. split; reflexivity.
Qed.
Print Assumptions C14_bad_membership_not_ready_refuted.

(* non-vacuity *)
Example C14_leaf_first_nonvacuous :
  leaf_first [mkObj 1 1 [MNode 1; MNode 2]; mkObj 2 1 [MNode 3]; mkObj 5 1 [];
              mkObj 3 2 [MHyper 1; MNode 4; MHyper 2]; mkObj 4 3 [MHyper 3]; mkObj 6 2 [MHyper 5]]%positive.
Proof. exact leaf_first_example. Qed.

(* non-vacuity of the composed placement theorems, of the second-claim theorem and of the
   recovery theorems, on the six-object forest of C14_leaf_first_nonvacuous *)
Example C14_compose_nonvacuous :
  let P := [mkObj 1 1 [MNode 1; MNode 2]; mkObj 2 1 [MNode 3]; mkObj 5 1 [];
            mkObj 3 2 [MHyper 1; MNode 4; MHyper 2]; mkObj 4 3 [MHyper 3]; mkObj 6 2 [MHyper 5]]%positive in
  let s := scratch (mkEnv [] []) P in
  find_obj P top_name = None /\
  gradient (add_top s) 3%positive 1 None = GOk [(1%positive, 1); (2%positive, 1)] /\
  gradient (add_top s) top_name 2 (Some 1%positive) = GOk [(3%positive, 2); (1%positive, 1); (2%positive, 1)] /\
  real_get s 3 = [1; 2; 3; 4]%positive.
Proof. vm_compute. repeat split; reflexivity. Qed.

Example C14_second_claim_nonvacuous :
  let P := [mkObj 1 1 [MNode 1]; mkObj 5 1 []; mkObj 6 2 [MHyper 5]]%positive in
  let s := scratch (mkEnv [] []) P in
  find_obj P 7%positive = None /\ spec_parent P 5%positive = Some 6%positive /\ spec_parent P 1%positive = None /\
  snd (upd (mkEnv [] []) s (mkObj 7 3 [MNode 9; MHyper 1; MHyper 5])%positive) = true /\
  s_ready (fst (upd (mkEnv [] []) s (mkObj 7 3 [MNode 9; MHyper 1; MHyper 5])%positive)) = false.
Proof. vm_compute. repeat split; reflexivity. Qed.

Example C14_recover_nonvacuous :
  let '(hn, real) := trace_session 3 [(1%positive, [1; 1]); (1%positive, [1])] in
  recover_sub hn real [1; 2]%positive = Some 1%positive /\
  recover_sub hn real [1; 3]%positive = Some 3%positive /\
  recover_job hn [Some 1%positive; Some 2%positive] = Some (Some 3%positive).
Proof. vm_compute. repeat split; reflexivity. Qed.

Example C14_gradient_nonvacuous :
  let s := snd (run (mkEnv [] []) [EUpd (mkObj 1 1 [MNode 1]); EUpd (mkObj 2 1 [MNode 2]);
                                   EUpd (mkObj 3 2 [MHyper 1; MHyper 2]); EUpd (mkObj 4 2 [])])%positive in
  gradient (add_top s) top_name 1 (Some 1%positive) = GOk [(1%positive, 1)] /\
  get_lca (add_top s) (Some 1%positive) (Some 2%positive) = Some (Some 3%positive).
Proof. vm_compute. split; reflexivity. Qed.
