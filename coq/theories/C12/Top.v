(* C12: theorems about the model's own top-level functions ([attrs], [proportion],
   [total_guarantee], [capacity_des]) on well-formed session inputs: the hypotheses of the
   loop theorems are discharged here, and realCapability is related to the guarantees of ALL
   queues of the session.  Also here: the capacity plugin's clamp, the loop with a different
   visiting order in every round ([loopR]), the float64 counter-example data and the example session. *)
From Coq Require Import QArith Qminmax ZArith List Bool Lia Lqa Permutation Morphisms.
From V Require Import C12.Model C12.Lemmas C12.Termination.
Import ListNotations.
Open Scope Q_scope.

(* a well-formed queue spec: positive weight, non-negative guarantee / capability / task requests *)
Definition spec_ok (s : qspec) : Prop :=
  (0 < s_w s)%Z /\ vnonneg (s_gua s) /\ (forall c, s_cap s = Some c -> vnonneg c)
  /\ Forall (fun t => vnonneg (t_req t)) (s_tasks s).

Lemma val0_base_some v i : val0 (cnth (base_some v) i) == val0 (cnth v i).
Proof.
  unfold base_some. rewrite cnth_tab. destruct (Nat.ltb i _) eqn:E.
  - destruct (is_base i); reflexivity.
  - apply Nat.ltb_ge in E. rewrite (cnth_overflow v) by lia. reflexivity.
Qed.

Lemma vnonneg_base_some v : vnonneg v -> vnonneg (base_some v).
Proof. intros H i. rewrite val0_base_some. apply H. Qed.

Lemma vnonneg_vsum vs : Forall vnonneg vs -> vnonneg (vsum vs).
Proof.
  intros H i. rewrite val0_vsum. apply qsumf_nonneg. intros v Hin.
  rewrite Forall_forall in H. apply H. exact Hin.
Qed.

Lemma vnonneg_vinc a b : vnonneg a -> vnonneg b -> vnonneg (vinc a b).
Proof. intros Ha Hb i. rewrite cnth_vinc, cinc_val by auto. qcases; lra. Qed.

Lemma vnonneg_vadd a b : vnonneg a -> vnonneg b -> vnonneg (vadd a b).
Proof. intros Ha Hb i. rewrite cnth_vadd, val0_cadd. specialize (Ha i). specialize (Hb i). lra. Qed.

Lemma cap_norm_nonneg c i : vnonneg c -> 0 <= val0 (cnth (cap_norm c) i).
Proof.
  intros Hc. rewrite cnth_cap_norm. specialize (Hc i).
  destruct (is_base i); [destruct (Qle_bool (val0 (cnth c i)) 0); [cbn; lra|]|]; exact Hc.
Qed.

Lemma vnonneg_real_cap total tg g cap :
  vnonneg total -> vnonneg tg -> vnonneg g -> (forall c, cap = Some c -> vnonneg c) ->
  vnonneg (real_cap total tg g cap).
Proof.
  intros Ht Htg Hg Hc i. rewrite realcap_def. cbv zeta.
  assert (H0 : 0 <= val0 (cadd (cexc i (cnth total i) (cnth tg i)) (cnth g i))).
  { rewrite val0_cadd, val0_cexc, cinc_val by auto. specialize (Hg i). qcases; lra. }
  destruct cap as [c|]; [|exact H0].
  apply cmin_inf_nonneg; [exact H0|]. apply cap_norm_nonneg. apply Hc. reflexivity.
Qed.

Lemma vnonneg_total_guarantee ss : Forall spec_ok ss -> vnonneg (total_guarantee ss).
Proof.
  intro H. unfold total_guarantee. apply vnonneg_vsum. apply Forall_forall. intros v Hin.
  apply in_map_iff in Hin. destruct Hin as (s & <- & Hs). apply vnonneg_base_some.
  rewrite Forall_forall in H. destruct (H s Hs) as (_ & Hg & _). exact Hg.
Qed.

Lemma vnonneg_sum_tasks p ts : Forall (fun t => vnonneg (t_req t)) ts -> vnonneg (sum_tasks p ts).
Proof.
  intro H. unfold sum_tasks. apply vnonneg_vsum. apply Forall_forall. intros v Hin.
  apply in_map_iff in Hin. destruct Hin as (t & <- & Ht). apply filter_In in Ht.
  rewrite Forall_forall in H. apply (H t (proj1 Ht)).
Qed.

Definition init_ok (q : qattr) : Prop :=
  wf_static q /\ q_des q = vzero /\ q_meet q = false /\ (0 < q_w q)%Z.

(* the attributes the model builds from a well-formed session satisfy every hypothesis of
   the loop theorems *)
Lemma attr_of_ok total tg s :
  vnonneg total -> vnonneg tg -> spec_ok s -> init_ok (attr_of total tg s).
Proof.
  intros Ht Htg (Hw & Hg & Hc & Hts). unfold init_ok, attr_of. cbn [q_des q_meet q_w].
  split; [|auto]. intro i. cbn [q_rcap q_req q_gua].
  assert (Hg' := vnonneg_base_some _ Hg).
  assert (Hrc : vnonneg (real_cap total tg (base_some (s_gua s)) (option_map base_some (s_cap s)))).
  { apply vnonneg_real_cap; auto. intros c E. destruct (s_cap s) as [c0|]; [|discriminate].
    inversion E; subst. apply vnonneg_base_some. apply Hc. reflexivity. }
  split; [|split].
  - intros c E. specialize (Hrc i). rewrite E in Hrc. exact Hrc.
  - apply vnonneg_sum_tasks. exact Hts.
  - apply Hg'.
Qed.

Theorem attrs_wf total ss :
  vnonneg total -> Forall spec_ok ss -> Forall init_ok (attrs total ss).
Proof.
  intros Ht Hss. unfold attrs. apply Forall_forall. intros q Hin.
  apply in_map_iff in Hin. destruct Hin as (s & <- & Hs). apply filter_In in Hs.
  apply attr_of_ok; auto.
  - apply vnonneg_total_guarantee. exact Hss.
  - rewrite Forall_forall in Hss. apply (Hss s (proj1 Hs)).
Qed.

(* realCapability of every queue reserves the guarantees of ALL other queues of the
   session (with or without jobs): with S = sum of all guarantees in dimension i,
     realCapability_i <= max(0, total_i - S) + guarantee_i
                      <= max(guarantee_i, total_i - (S - guarantee_i))  *)
Lemma val0_total_guarantee ss i :
  val0 (cnth (total_guarantee ss) i) == qsumf (fun s => val0 (cnth (s_gua s) i)) ss.
Proof.
  unfold total_guarantee. rewrite val0_vsum, qsumf_map. apply qsumf_ext. intros s _.
  apply val0_base_some.
Qed.

Theorem realcap_reserves_others total ss s i :
  vnonneg total -> Forall spec_ok ss -> In s ss ->
  let q := attr_of total (total_guarantee ss) s in
  let S := qsumf (fun s' => val0 (cnth (s_gua s') i)) ss in
  let g := val0 (cnth (s_gua s) i) in
  val0 (cnth (q_rcap q) i) <= qmax 0 (val0 (cnth total i) - S) + g
  /\ val0 (cnth (q_rcap q) i) <= qmax g (val0 (cnth total i) - (S - g)).
Proof.
  intros Ht Hss Hin q S g.
  assert (Htg := vnonneg_total_guarantee ss Hss).
  assert (Hs : spec_ok s) by (rewrite Forall_forall in Hss; auto).
  destruct Hs as (_ & Hg & _).
  assert (H1 : val0 (cnth (q_rcap q) i) <= qmax 0 (val0 (cnth total i) - S) + g).
  { unfold q, attr_of. cbn [q_rcap]. rewrite realcap_def. cbv zeta.
    set (rc := cadd (cexc i (cnth total i) (cnth (total_guarantee ss) i)) (cnth (base_some (s_gua s)) i)).
    assert (E : val0 rc == qmax 0 (val0 (cnth total i) - S) + g).
    { unfold rc. rewrite val0_cadd, val0_cexc, cinc_val, val0_base_some, val0_total_guarantee by auto. reflexivity. }
    assert (R0 : 0 <= val0 rc).
    { rewrite E. specialize (Hg i). fold g in Hg. qcases; lra. }
    destruct (option_map base_some (s_cap s)); [|lra].
    pose proof (cmin_inf_le rc (cnth (cap_norm v) i)). lra. }
  split; [exact H1|]. revert H1. qcases; lra.
Qed.

(* "deserved <= capability": the literal clause is FALSE when a queue's guarantee exceeds its
   capability, since helpers.Max with the guarantee comes last; this spec is the witness of
   C12_deserved_le_capability_refuted (Props/C12.v).  (The admission webhook validate_queue.go
   enforces guarantee <= deserved <= capability, so such a Queue object exists only when the
   webhook is bypassed.) *)
Definition badcap_spec : qspec :=
  mkS 1 (Some [Some 5; Some 5; None]) [Some 10; Some 10; None] [] true
      [mkT 0 [Some 100; Some 100; Some 1]].

(* Under the webhook's guard (guarantee <= realCapability wherever that is bounded) the clause holds:
   deserved <= realCapability, every dimension, any fuel *)
Definition gua_le_rcap (q : qattr) : Prop :=
  forall i c, cnth (q_rcap q) i = Some c -> val0 (cnth (q_gua q) i) <= c.

Definition capped_ok (q : qattr) : Prop :=
  upper_ok q /\ gua_le_rcap q.

Lemma capped_ok_upd rem W q : capped_ok q -> capped_ok (upd rem W q).
Proof.
  intros (H1 & H2). split; [apply upper_ok_upd; exact H1|].
  destruct (upd_static rem W q) as (_ & E1 & _ & E3 & _). unfold gua_le_rcap. rewrite E1, E3. exact H2.
Qed.

Theorem deserved_le_realcap_guarded fuel D rem qs k :
  Forall capped_ok qs ->
  Forall (fun q => forall i c, cnth (q_rcap q) i = Some c -> val0 (cnth (q_des q) i) <= c)
         (out_qs (loop fuel D rem qs k)).
Proof.
  intro H.
  assert (HC : Forall capped_ok (out_qs (loop fuel D rem qs k))).
  { apply (loop_inv (fun qs _ => Forall capped_ok qs) D); [|exact H].
    intros rem0 qs0 H0 _. apply round_forall; [|exact H0]. intro q. apply capped_ok_upd. }
  eapply Forall_impl; [|exact HC]. intros q ((_ & Hu) & Hg) i c E.
  destruct (Hu i) as (Hc & _). specialize (Hc c E). specialize (Hg i c E).
  revert Hc. qcases; lra.
Qed.

(* and realCapability itself never exceeds the capability *)
Lemma realcap_le_capability total tg g c i y :
  vnonneg total -> vnonneg tg -> vnonneg g -> vnonneg c ->
  cnth (cap_norm c) i = Some y ->
  val0 (cnth (real_cap total tg g (Some c)) i) <= y.
Proof.
  intros Ht Htg Hg Hc E. rewrite realcap_def. cbv zeta. rewrite E.
  apply cmin_inf_le_cap. pose proof (cap_norm_nonneg c i Hc) as Hy. rewrite E in Hy. exact Hy.
Qed.

(* the guard, on the spec: the guarantee does not exceed the (normalised) capability *)
Definition gua_le_cap (s : qspec) : Prop :=
  forall c i y, s_cap s = Some c -> cnth (cap_norm (base_some c)) i = Some y ->
                val0 (cnth (s_gua s) i) <= y.

Lemma attr_of_capped total tg s :
  vnonneg total -> vnonneg tg -> spec_ok s -> gua_le_cap s ->
  capped_ok (attr_of total tg s).
Proof.
  intros Ht Htg Hs Hgc. pose proof (attr_of_ok total tg s Ht Htg Hs) as (Hwf & Hd & _).
  split; [apply upper_ok_init; assumption|].
  destruct Hs as (_ & Hg & _).
  intros i c E. unfold attr_of in *. cbn [q_rcap q_gua] in *. rewrite val0_base_some.
  rewrite realcap_def in E. cbv zeta in E.
  set (rc := cadd (cexc i (cnth total i) (cnth tg i)) (cnth (base_some (s_gua s)) i)) in E.
  assert (R : val0 (cnth (s_gua s) i) <= val0 rc).
  { unfold rc. rewrite val0_cadd, val0_base_some, val0_cexc.
    rewrite cinc_val by auto. qcases; lra. }
  destruct (s_cap s) as [c0|] eqn:Ec; cbn [option_map] in E.
  - unfold cmin_inf in E. destruct rc as [x|]; [|discriminate]. cbn [val0] in R.
    destruct (cnth (cap_norm (base_some c0)) i) as [y|] eqn:Ey.
    + inversion E; subst. specialize (Hgc c0 i y Ec Ey). qcases; lra.
    + inversion E; subst. exact R.
  - rewrite E in R. exact R.
Qed.

(* clause 2 at full strength, on deserved, no "missing = no obligation" *)
(* realCapability has an entry in every dimension the cluster has (fix 019e7c9: UnreservedPart
   keeps the dimension at zero; before it a scalar whose total was used up by guarantees
   disappeared and the queue was unbounded there) *)
Lemma rcap_present total tg g cap i t :
  cnth total i = Some t -> exists c, cnth (real_cap total tg g cap) i = Some c.
Proof.
  intro Et. rewrite realcap_def. cbv zeta. rewrite Et.
  assert (E : exists x, cexc i (Some t) (cnth tg i) = Some x).
  { unfold cexc. destruct (cinc i (Some t) (cnth tg i)); eauto. }
  destruct E as (x & ->).
  assert (E2 : exists z, cadd (Some x) (cnth g i) = Some z) by (destruct (cnth g i); simpl; eauto).
  destruct E2 as (z & ->).
  destruct cap as [c|]; [|eauto]. unfold cmin_inf. destruct (cnth (cap_norm c) i); eauto.
Qed.

(* what realCapability allows a queue in a dimension the cluster has: no more than its own
   guarantee or what the guarantees of the OTHER queues leave of the total, and no more than a
   capability that is not below the guarantee *)
Lemma realcap_clause2 total ss s i t :
  vnonneg total -> Forall spec_ok ss -> In s ss -> cnth total i = Some t ->
  let g := val0 (cnth (s_gua s) i) in
  let S := qsumf (fun s' => val0 (cnth (s_gua s') i)) ss in
  exists c0, cnth (q_rcap (attr_of total (total_guarantee ss) s)) i = Some c0 /\ 0 <= c0
    /\ qmax g c0 <= qmax g (t - (S - g))
    /\ (forall c y, s_cap s = Some c -> cnth (cap_norm (base_some c)) i = Some y -> g <= y ->
                    qmax g c0 <= y).
Proof.
  intros Ht Hss Hin Et g S.
  assert (Hok : spec_ok s) by (rewrite Forall_forall in Hss; auto).
  destruct Hok as (_ & Hg & Hcap & _).
  assert (Htg := vnonneg_total_guarantee ss Hss).
  destruct (rcap_present total (total_guarantee ss) (base_some (s_gua s))
                         (option_map base_some (s_cap s)) i t Et) as (c0 & Ec0).
  exists c0. split; [exact Ec0|].
  assert (Hrc0 : 0 <= c0).
  { assert (N : vnonneg (real_cap total (total_guarantee ss) (base_some (s_gua s))
                                  (option_map base_some (s_cap s)))).
    { apply vnonneg_real_cap; auto using vnonneg_base_some. intros c E.
      destruct (s_cap s) as [c1|]; [|discriminate]. inversion E; subst.
      apply vnonneg_base_some. apply Hcap. reflexivity. }
    specialize (N i). rewrite Ec0 in N. exact N. }
  destruct (realcap_reserves_others total ss s i Ht Hss Hin) as (R1 & _).
  cbv zeta in R1. unfold attr_of in R1. cbn [q_rcap] in R1. rewrite Ec0, Et in R1. cbn [val0] in R1.
  fold g in R1. fold S in R1.
  assert (G0 : 0 <= g) by apply Hg.
  split; [exact Hrc0|]. split.
  - revert R1. qcases; intros; lra.
  - intros c y Ecap Ey Hgy.
    pose proof (realcap_le_capability total (total_guarantee ss) (base_some (s_gua s)) (base_some c) i y
                  Ht Htg (vnonneg_base_some _ Hg) (vnonneg_base_some _ (Hcap c Ecap)) Ey) as Hle.
    rewrite Ecap in Ec0. cbn [option_map] in Ec0. rewrite Ec0 in Hle. cbn [val0] in Hle.
    qcases; lra.
Qed.

(* a queue record of the loop that still carries the static data of spec s *)
Definition linked (total : vec) (ss : list qspec) (q : qattr) : Prop :=
  exists s, In s ss /\ q_rcap q = q_rcap (attr_of total (total_guarantee ss) s)
            /\ q_gua q = base_some (s_gua s) /\ upper_ok q.

Lemma linked_upd total ss rem W q : linked total ss q -> linked total ss (upd rem W q).
Proof.
  intros (s & Hin & E1 & E2 & Hu). exists s.
  destruct (upd_static rem W q) as (_ & F1 & _ & F3 & _). rewrite F1, F3.
  split; [exact Hin|]. split; [exact E1|]. split; [exact E2|]. apply upper_ok_upd. exact Hu.
Qed.

Lemma linked_attrs total ss :
  vnonneg total -> Forall spec_ok ss -> Forall (linked total ss) (attrs total ss).
Proof.
  intros Ht Hss. unfold attrs. apply Forall_forall. intros q Hin. apply in_map_iff in Hin.
  destruct Hin as (s & <- & Hs). apply filter_In in Hs. destruct Hs as (Hs & _).
  exists s. split; [exact Hs|]. split; [reflexivity|]. split; [reflexivity|].
  assert (Hok : spec_ok s) by (rewrite Forall_forall in Hss; auto).
  destruct (attr_of_ok total (total_guarantee ss) s Ht (vnonneg_total_guarantee ss Hss) Hok) as (H1 & H2 & _).
  apply upper_ok_init; assumption.
Qed.

(* the capacity plugin's clamp (flat queues) *)
(* deserved = max(min(Spec.Deserved, realCapability), guarantee): capacity.go 1150-1155 *)
Lemma ccap_ge_gua j d rc g : val0 g <= val0 (cmax j (cmin_inf d rc) g).
Proof. rewrite val0_cmax. destruct (is_base j); qcases; lra. Qed.

Lemma ccap_le j d c g : 0 <= c -> val0 (cmax j (cmin_inf d (Some c)) g) <= qmax (val0 g) c.
Proof.
  intro Hc. rewrite val0_cmax. pose proof (cmin_inf_le_cap d c Hc).
  destruct (is_base j); qcases; lra.
Qed.

Theorem capacity_des_bounds total tg s i :
  let rc := fst (capacity_des total tg s) in
  let d := snd (capacity_des total tg s) in
  val0 (cnth (base_some (s_gua s)) i) <= val0 (cnth d i)
  /\ (forall c, cnth rc i = Some c -> 0 <= c ->
                val0 (cnth d i) <= qmax (val0 (cnth (base_some (s_gua s)) i)) c)
  /\ rc = q_rcap (attr_of total tg s).
Proof.
  unfold capacity_des. cbn [fst snd]. split; [|split].
  - rewrite cnth_vmax, cnth_vmin_inf. apply ccap_ge_gua.
  - intros c E Hc. rewrite cnth_vmax, cnth_vmin_inf, E. apply ccap_le. exact Hc.
  - reflexivity.
Qed.

(* with the guard guarantee <= realCapability: deserved <= realCapability *)
Corollary capacity_des_le_realcap total tg s i c :
  cnth (fst (capacity_des total tg s)) i = Some c -> 0 <= c ->
  val0 (cnth (base_some (s_gua s)) i) <= c ->
  val0 (cnth (snd (capacity_des total tg s)) i) <= c.
Proof.
  intros E Hc Hg. destruct (capacity_des_bounds total tg s i) as (_ & H & _).
  specialize (H c E Hc). revert H. qcases; lra.
Qed.

(* a different iteration order in every round *)
(* Go ranges over the queueOpts map twice per round, in an order of its own each time.
   [loopR sh] re-orders the list with [sh k] before round k. *)
Fixpoint loopR (sh : nat -> list qattr -> list qattr) (fuel D : nat) (rem : vec)
         (qs : list qattr) (k : nat) : outcome :=
  match fuel with
  | O => OutOfFuel qs rem
  | S f =>
    let qs0 := sh k qs in
    if Z.eqb (total_weight qs0) 0 then Done qs0 rem k
    else let '(qs', rem') := round D rem qs0 in
         if vempty rem' || vdeq rem' rem then Done qs' rem' (S k)
         else loopR sh f D rem' qs' (S k)
  end.

(* the result is the same whatever order each round visits the queues in *)
Lemma loop_any_order_per_round sh :
  (forall n l, Permutation l (sh n l)) ->
  forall fuel D rem qs qs' k, Permutation qs qs' ->
    Permutation (out_qs (loop fuel D rem qs k)) (out_qs (loopR sh fuel D rem qs' k))
    /\ out_rem (loop fuel D rem qs k) = out_rem (loopR sh fuel D rem qs' k)
    /\ is_out_of_fuel (loop fuel D rem qs k) = is_out_of_fuel (loopR sh fuel D rem qs' k).
Proof.
  intros Hsh fuel. induction fuel as [|f IH]; intros D rem qs qs' k HP; cbn [loop loopR].
  - simpl. auto.
  - assert (HP' : Permutation qs (sh k qs')) by (eapply Permutation_trans; [exact HP | apply Hsh]).
    rewrite <- (total_weight_perm _ _ HP').
    destruct (Z.eqb (total_weight qs) 0); [simpl; auto|].
    destruct (round_order_independent D rem qs (sh k qs') HP') as [H1 H2].
    destruct (round D rem qs) as [a b], (round D rem (sh k qs')) as [a' b']. simpl in H1, H2. subst b'.
    destruct (vempty b || vdeq b rem); [simpl; auto | apply IH; exact H1].
Qed.

(* float64 is not the exact model *)
From Coq Require Import SpecFloat.

(* binary64 addition (Coq's executable IEEE 754 specification SpecFloat, precision 53,
   emax 1024 -- pure Gallina, no primitive floats) is not associative: (0.1 + 0.2) + 0.3 and
   0.1 + (0.2 + 0.3) differ in the last bit.  The accumulation increasedDeserved.Add(...) in map
   order can therefore differ between two runs; the order-independence theorems above are about
   exact rationals only.  The three numbers below are the witness of
   C12_float_sum_order_dependent_refuted (Props/C12.v). *)
Definition f64add := SFadd 53 1024.
Definition f01 : spec_float := S754_finite false 7205759403792794 (-56).   (* 0x1.999999999999ap-4 *)
Definition f02 : spec_float := S754_finite false 7205759403792794 (-55).   (* 0x1.999999999999ap-3 *)
Definition f03 : spec_float := S754_finite false 5404319552844595 (-54).   
(* a session where guarantee, capability and demand interact; the C12_example_session_* Examples
   of Props/C12.v are about it *)
Definition ex_total : vec := [Some 10000; Some 4096; Some 110; Some 8000].
Definition ex_specs : list qspec :=
  [ mkS 3 (Some [Some 6000; None; None; Some 2000]) [Some 1000; Some 512; None; None] [] true
        [mkT 0 [Some 7000; Some 1000; Some 1; Some 3000]; mkT 1 [Some 500; Some 256; Some 1]];
    mkS 1 None [Some 2000; None; None; None] [] true
        [mkT 0 [Some 9000; Some 4000; Some 1; Some 1000]];
    mkS 5 None [Some 500; Some 1024; None; None] [] false [] ].
