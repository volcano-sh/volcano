(* C12 proofs about Model.v: cell and vector operations by position and by value, invariants of
   the loop, the per-queue bounds, order independence of a round, the sum bound; at the end the
   data of the non-termination and weight witnesses. *)
From Coq Require Import QArith Qminmax ZArith List Bool Lia Lqa Permutation.
From V Require Import C12.Model.
Import ListNotations.
Open Scope Q_scope.

Lemma qmin_cases a b : (a <= b /\ qmin a b = a) \/ (b < a /\ qmin a b = b).
Proof.
  unfold qmin. destruct (Qle_bool a b) eqn:E.
  - left. split; [apply Qle_bool_iff; exact E | reflexivity].
  - right. split; [|reflexivity]. apply Qnot_le_lt. intro H. apply Qle_bool_iff in H. congruence.
Qed.

Lemma qmax_cases a b : (a <= b /\ qmax a b = b) \/ (b < a /\ qmax a b = a).
Proof.
  unfold qmax. destruct (Qle_bool a b) eqn:E.
  - left. split; [apply Qle_bool_iff; exact E | reflexivity].
  - right. split; [|reflexivity]. apply Qnot_le_lt. intro H. apply Qle_bool_iff in H. congruence.
Qed.

Lemma qlt_bool_iff a b : qlt_bool a b = true <-> a < b.
Proof.
  unfold qlt_bool. rewrite negb_true_iff. split; intro H.
  - apply Qnot_le_lt. intro L. apply Qle_bool_iff in L. congruence.
  - destruct (Qle_bool b a) eqn:E; [|reflexivity]. apply Qle_bool_iff in E. exfalso; lra.
Qed.

Lemma qlt_bool_false a b : qlt_bool a b = false <-> b <= a.
Proof.
  unfold qlt_bool. rewrite negb_false_iff. apply Qle_bool_iff.
Qed.

Lemma qle_bool_false a b : Qle_bool a b = false -> b < a.
Proof. intro E. apply Qnot_le_lt. intro H. apply Qle_bool_iff in H. congruence. Qed.

(* case analysis on every qmin / qmax / Qle_bool of the goal, innermost first *)
Ltac noq t :=
  lazymatch t with
  | context [qmin _ _] => fail
  | context [qmax _ _] => fail
  | _ => idtac
  end.
Ltac qcases :=
  repeat match goal with
  | |- context [qmin ?a ?b] => noq a; noq b;
        let H := fresh in destruct (qmin_cases a b) as [[? H]|[? H]]; rewrite H in *; clear H
  | |- context [qmax ?a ?b] => noq a; noq b;
        let H := fresh in destruct (qmax_cases a b) as [[? H]|[? H]]; rewrite H in *; clear H
  | |- context [Qle_bool ?a ?b] => noq a; noq b;
        let E := fresh in destruct (Qle_bool a b) eqn:E;
        [apply Qle_bool_iff in E | apply qle_bool_false in E]
  end.

Lemma qmin_mono a a' b b' : a <= a' -> b <= b' -> qmin a b <= qmin a' b'.
Proof. intros. qcases; lra. Qed.
Lemma qmax_mono a a' b b' : a <= a' -> b <= b' -> qmax a b <= qmax a' b'.
Proof. intros. qcases; lra. Qed.

Lemma val0_cnorm c : val0 (cnorm c) == val0 c.
Proof. destruct c; simpl; [apply Qred_correct | reflexivity]. Qed.

Lemma cnth_tab n f i : cnth (tab n f) i = if Nat.ltb i n then f i else None.
Proof.
  unfold cnth, tab. destruct (Nat.ltb i n) eqn:E.
  - apply Nat.ltb_lt in E.
    rewrite nth_indep with (d' := f 0%nat) by (rewrite map_length, seq_length; exact E).
    rewrite map_nth. rewrite seq_nth by exact E. reflexivity.
  - apply Nat.ltb_ge in E. apply nth_overflow. rewrite map_length, seq_length. exact E.
Qed.

Lemma cnth_overflow (v : vec) i : (length v <= i)%nat -> cnth v i = None.
Proof. intro H. apply nth_overflow. exact H. Qed.

Lemma cnth_zipw f l r i :
  (forall j, f j None None = None) -> cnth (zipw f l r) i = f i (cnth l i) (cnth r i).
Proof.
  intro Hf. unfold zipw. rewrite cnth_tab. destruct (Nat.ltb i _) eqn:E; [reflexivity|].
  apply Nat.ltb_ge in E.
  rewrite (cnth_overflow l), (cnth_overflow r) by lia. symmetry. apply Hf.
Qed.

Lemma cmax_none j : cmax j None None = None.
Proof. unfold cmax. destruct (is_base j); reflexivity. Qed.
Lemma cinc_none j : cinc j None None = None.
Proof. unfold cinc. destruct (is_base j); reflexivity. Qed.
Lemma cdec_none j : cdec j None None = None.
Proof. unfold cdec. destruct (is_base j); reflexivity. Qed.

Lemma cnth_vadd l r i : cnth (vadd l r) i = cadd (cnth l i) (cnth r i).
Proof. apply cnth_zipw. reflexivity. Qed.
Lemma cnth_vmin_inf l r i : cnth (vmin_inf l r) i = cmin_inf (cnth l i) (cnth r i).
Proof. apply cnth_zipw. reflexivity. Qed.
Lemma cnth_vmin_zero l r i : cnth (vmin_zero l r) i = cmin_zero (cnth l i) (cnth r i).
Proof. apply cnth_zipw. reflexivity. Qed.
Lemma cnth_vmax l r i : cnth (vmax l r) i = cmax i (cnth l i) (cnth r i).
Proof. apply cnth_zipw. apply cmax_none. Qed.
Lemma cexc_none j : cexc j None None = None.
Proof. unfold cexc. rewrite cinc_none. reflexivity. Qed.
Lemma cnth_vexc l r i : cnth (vexc l r) i = cexc i (cnth l i) (cnth r i).
Proof. apply cnth_zipw. apply cexc_none. Qed.
Lemma val0_cexc j l r : val0 (cexc j l r) == val0 (cinc j l r).
Proof. unfold cexc. destruct (cinc j l r); [reflexivity|]. destruct l; reflexivity. Qed.
Lemma cnth_vinc l r i : cnth (vinc l r) i = cinc i (cnth l i) (cnth r i).
Proof. apply cnth_zipw. apply cinc_none. Qed.
Lemma cnth_vdec l r i : cnth (vdec l r) i = cdec i (cnth l i) (cnth r i).
Proof. apply cnth_zipw. apply cdec_none. Qed.
Lemma cnth_vmul k v i : cnth (vmul k v) i = cmul k (cnth v i).
Proof. unfold cnth, vmul. change None with (cmul k None) at 1. apply map_nth. Qed.
Lemma cnth_vnorm v i : cnth (vnorm v) i = cnorm (cnth v i).
Proof. unfold cnth, vnorm. change None with (cnorm None) at 1. apply map_nth. Qed.
Lemma cnth_vfix D v i : cnth (vfix D v) i = if Nat.ltb i D then cnth v i else None.
Proof. apply cnth_tab. Qed.

(* one dimension of the per-queue update *)
Definition cnew (j : nat) (sh d cap req g : cell) : cell :=
  cnorm (cmax j (cmin_zero (cmin_inf (cadd d sh) cap) req) g).

Lemma cnth_new_des rem W q i :
  cnth (new_des rem W q) i =
  cnew i (cmul (ratio (q_w q) W) (cnth rem i)) (cnth (q_des q) i)
       (cnth (q_rcap q) i) (cnth (q_req q) i) (cnth (q_gua q) i).
Proof.
  unfold new_des, cnew.
  rewrite cnth_vnorm, cnth_vmax, cnth_vmin_zero, cnth_vmin_inf, cnth_vadd, cnth_vmul. reflexivity.
Qed.

(* values of the cell operations
   A missing cell reads as 0.  Every operation has bounds that hold for all operands; on
   non-negative operands it is the arithmetic operation it is named after. *)
Lemma val0_cadd a b : val0 (cadd a b) == val0 a + val0 b.
Proof. destruct a, b; simpl; lra. Qed.

Lemma val0_cmul k c : val0 (cmul k c) == k * val0 c.
Proof. destruct c; simpl; lra. Qed.

Lemma cmin_inf_le a b : val0 (cmin_inf a b) <= val0 a.
Proof. destruct a, b; cbn [cmin_inf val0]; qcases; lra. Qed.

Lemma cmin_inf_le_cap a y : 0 <= y -> val0 (cmin_inf a (Some y)) <= y.
Proof. intro. destruct a; cbn [cmin_inf val0]; qcases; lra. Qed.

Lemma val0_cmin_inf a b :
  0 <= val0 b ->
  val0 (cmin_inf a b) == match b with Some y => qmin (val0 a) y | None => val0 a end.
Proof. intro. destruct a, b; cbn [cmin_inf val0] in *; qcases; lra. Qed.

Lemma cmin_inf_nonneg a b : 0 <= val0 a -> 0 <= val0 b -> 0 <= val0 (cmin_inf a b).
Proof. intros. rewrite val0_cmin_inf by assumption. destruct b; cbn [val0] in *; qcases; lra. Qed.

Lemma cmin_zero_le a b m : 0 <= m -> val0 a <= m -> val0 (cmin_zero a b) <= m.
Proof. intros. destruct a, b; cbn [cmin_zero val0] in *; qcases; lra. Qed.

Lemma cmin_zero_le_r a b : 0 <= val0 b -> val0 (cmin_zero a b) <= val0 b.
Proof. intro. destruct a, b; cbn [cmin_zero val0] in *; qcases; lra. Qed.

Lemma val0_cmin_zero a b :
  0 <= val0 a -> 0 <= val0 b -> val0 (cmin_zero a b) == qmin (val0 a) (val0 b).
Proof. intros. destruct a, b; cbn [cmin_zero val0] in *; qcases; lra. Qed.

(* helpers.Max drops negative scalars, which then read as 0 *)
Lemma val0_cmax j a b :
  val0 (cmax j a b) ==
  if is_base j then qmax (val0 a) (val0 b) else qmax 0 (qmax (val0 a) (val0 b)).
Proof.
  unfold cmax, keep_nonneg. destruct (is_base j), a, b; cbn [val0];
    qcases; cbn [val0]; qcases; lra.
Qed.

Lemma val0_cmax_nonneg j a b : 0 <= val0 a -> val0 (cmax j a b) == qmax (val0 a) (val0 b).
Proof. intro. rewrite val0_cmax. destruct (is_base j); qcases; lra. Qed.

(* guarantee <= new deserved, unconditionally *)
Lemma cnew_ge_gua j sh d cap req g : val0 g <= val0 (cnew j sh d cap req g).
Proof. unfold cnew. rewrite val0_cnorm, val0_cmax. destruct (is_base j); qcases; lra. Qed.

(* new deserved <= max(guarantee, realCapability) *)
Lemma cnew_le_cap j sh d req g c :
  0 <= c -> val0 (cnew j sh d (Some c) req g) <= qmax (val0 g) c.
Proof.
  intro Hc. unfold cnew. rewrite val0_cnorm, val0_cmax.
  assert (val0 (cmin_zero (cmin_inf (cadd d sh) (Some c)) req) <= c)
    by (apply cmin_zero_le; [exact Hc | apply cmin_inf_le_cap; exact Hc]).
  destruct (is_base j); qcases; lra.
Qed.

(* new deserved <= max(guarantee, request) *)
Lemma cnew_le_req j sh d cap req g :
  0 <= val0 req -> val0 (cnew j sh d cap req g) <= qmax (val0 g) (val0 req).
Proof.
  intro Hr. unfold cnew. rewrite val0_cnorm, val0_cmax.
  pose proof (cmin_zero_le_r (cmin_inf (cadd d sh) cap) req Hr).
  destruct (is_base j); qcases; lra.
Qed.

Lemma cnew_nonneg j sh d cap req g : 0 <= val0 g -> 0 <= val0 (cnew j sh d cap req g).
Proof. intro H. eapply Qle_trans; [exact H | apply cnew_ge_gua]. Qed.

(* growth bound of one update: new <= max(old, guarantee) + share *)
Lemma cnew_growth j sh d cap req g :
  0 <= val0 sh -> 0 <= val0 d ->
  val0 (cnew j sh d cap req g) <= qmax (val0 d) (val0 g) + val0 sh.
Proof.
  intros Hs Hd. unfold cnew. rewrite val0_cnorm, val0_cmax.
  assert (val0 (cmin_zero (cmin_inf (cadd d sh) cap) req) <= val0 d + val0 sh).
  { apply cmin_zero_le; [lra|]. rewrite <- val0_cadd. apply cmin_inf_le. }
  destruct (is_base j); qcases; lra.
Qed.

Lemma upd_static rem W q :
  q_w (upd rem W q) = q_w q /\ q_rcap (upd rem W q) = q_rcap q /\ q_req (upd rem W q) = q_req q
  /\ q_gua (upd rem W q) = q_gua q /\ q_alloc (upd rem W q) = q_alloc q.
Proof. unfold upd. destruct (q_meet q); simpl; auto. Qed.

Lemma upd_des rem W q :
  q_des (upd rem W q) = if q_meet q then q_des q else new_des rem W q.
Proof. unfold upd. destruct (q_meet q); reflexivity. Qed.

(* an invariant of the rounds holds for the result of the loop, whatever the fuel *)
Lemma loop_inv (I : list qattr -> vec -> Prop) D :
  (forall rem qs, I qs rem -> total_weight qs <> 0%Z ->
                  I (fst (round D rem qs)) (snd (round D rem qs))) ->
  forall fuel rem qs k, I qs rem ->
    I (out_qs (loop fuel D rem qs k)) (out_rem (loop fuel D rem qs k)).
Proof.
  intros Hstep fuel. induction fuel as [|f IH]; intros rem qs k HI; cbn [loop]; [exact HI|].
  destruct (Z.eqb (total_weight qs) 0) eqn:EW; [exact HI|].
  apply Z.eqb_neq in EW. specialize (Hstep rem qs HI EW).
  destruct (round D rem qs) as [qs' rem'] eqn:ER. simpl in Hstep.
  destruct (vempty rem' || vdeq rem' rem); [exact Hstep | apply IH; exact Hstep].
Qed.

Lemma round_fst D rem qs : fst (round D rem qs) = map (upd rem (total_weight qs)) qs.
Proof. reflexivity. Qed.

(* per-queue predicate preserved by the update of every non-met queue *)
Lemma round_forall (P : qattr -> Prop) D rem qs :
  (forall q, P q -> P (upd rem (total_weight qs) q)) ->
  Forall P qs -> Forall P (fst (round D rem qs)).
Proof.
  intros Hp HF. unfold round. simpl. apply Forall_forall. intros q' Hin.
  apply in_map_iff in Hin. destruct Hin as (q & <- & Hq). apply Hp.
  rewrite Forall_forall in HF. auto.
Qed.

(* well-formed static data: realCapability, request and guarantee are not negative *)
Definition wf_static (q : qattr) : Prop :=
  forall i, (forall c, cnth (q_rcap q) i = Some c -> 0 <= c) /\ 0 <= val0 (cnth (q_req q) i)
            /\ 0 <= val0 (cnth (q_gua q) i).

Definition upper_ok (q : qattr) : Prop :=
  wf_static q /\
  forall i, (forall c, cnth (q_rcap q) i = Some c ->
                       val0 (cnth (q_des q) i) <= qmax (val0 (cnth (q_gua q) i)) c)
            /\ val0 (cnth (q_des q) i) <= qmax (val0 (cnth (q_gua q) i)) (val0 (cnth (q_req q) i)).

Lemma upper_ok_upd rem W q : upper_ok q -> upper_ok (upd rem W q).
Proof.
  intros [Hwf Hb]. destruct (upd_static rem W q) as (_ & E1 & E2 & E3 & _).
  split.
  - intro i. unfold wf_static in *. rewrite E1, E2, E3. apply Hwf.
  - intro i. rewrite E1, E2, E3, upd_des. destruct (q_meet q); [apply Hb|].
    rewrite cnth_new_des. destruct (Hwf i) as (Hc & Hr & _). split.
    + intros c Ec. rewrite Ec. apply cnew_le_cap. eauto.
    + apply cnew_le_req. exact Hr.
Qed.

Lemma cnth_vzero i : val0 (cnth vzero i) == 0.
Proof. unfold cnth, vzero. destruct i as [|[|[|i]]]; simpl; reflexivity. Qed.

(* the initial attributes (deserved = EmptyResource) satisfy the upper bounds *)
Lemma upper_ok_init q : wf_static q -> q_des q = vzero -> upper_ok q.
Proof.
  intros Hwf Hd. split; [exact Hwf|]. intro i. rewrite Hd.
  destruct (Hwf i) as (Hc & Hr & Hg). split.
  - intros c Ec. specialize (Hc c Ec). rewrite cnth_vzero. qcases; lra.
  - rewrite cnth_vzero. qcases; lra.
Qed.

(* guarantee <= deserved in every dimension; holds once a queue has been updated (lower_ok_upd) *)
Definition lower_ok (q : qattr) : Prop :=
  forall i, val0 (cnth (q_gua q) i) <= val0 (cnth (q_des q) i).

Lemma lower_ok_upd rem W q : (q_meet q = true -> lower_ok q) -> lower_ok (upd rem W q).
Proof.
  intros H i. destruct (upd_static rem W q) as (_ & _ & _ & E3 & _).
  rewrite E3, upd_des. destruct (q_meet q); [apply H; reflexivity|].
  rewrite cnth_new_des. apply cnew_ge_gua.
Qed.

Lemma upd_meet_lower rem W q :
  (q_meet q = true -> lower_ok q) ->
  (q_meet (upd rem W q) = true -> lower_ok (upd rem W q)).
Proof. intros H _. apply lower_ok_upd. exact H. Qed.

Lemma total_weight_nonneg qs : Forall (fun q => (0 < q_w q)%Z) qs -> (0 <= total_weight qs)%Z.
Proof.
  induction 1 as [|q qs Hq _ IH]; simpl; [lia|]. destruct (q_meet q); lia.
Qed.

Lemma vall2_spec f l r :
  (forall j, f j None None = true) ->
  (vall2 f l r = true <-> forall i, f i (cnth l i) (cnth r i) = true).
Proof.
  intro Hf. unfold vall2. rewrite forallb_forall. split.
  - intros H i. destruct (Nat.ltb i (Nat.max (length l) (length r))) eqn:E.
    + apply H. apply in_seq. apply Nat.ltb_lt in E. lia.
    + apply Nat.ltb_ge in E. rewrite (cnth_overflow l), (cnth_overflow r) by lia. apply Hf.
  - intros H i _. apply H.
Qed.

(* Resource.LessEqual(rr, Zero): in every dimension present on the left, left - right < 0.1
   (a dimension missing on the right = 0), i.e. Go's  l < r || |l-r| < minResource *)
Lemma vle_eps_iff des alloc :
  vle_eps des alloc = true <->
  forall i, match cnth des i with None => True | Some d => d - val0 (cnth alloc i) < 1 # 10 end.
Proof.
  unfold vle_eps. rewrite vall2_spec by reflexivity.
  split; intros H i; specialize (H i); unfold cle_eps in *; destruct (cnth des i); auto;
    apply qlt_bool_iff; exact H.
Qed.

(* overused <-> deserved.LessEqual(allocated) *)
Theorem overused_iff q :
  overused q = true <->
  forall i, match cnth (q_des q) i with
            | None => True
            | Some d => d - val0 (cnth (q_alloc q) i) < 1 # 10
            end.
Proof. apply vle_eps_iff. Qed.

(* per dimension, realCapability = min(capability, (total (-) totalGuarantee) + guarantee);
   a capability dimension that is missing -- or cpu/memory <= 0 -- does not bound *)
Theorem realcap_def total tg g cap i :
  cnth (real_cap total tg g cap) i =
  let rc := cadd (cexc i (cnth total i) (cnth tg i)) (cnth g i) in
  match cap with
  | None => rc
  | Some c => cmin_inf rc (cnth (cap_norm c) i)
  end.
Proof.
  unfold real_cap. destruct cap; cbn zeta.
  - rewrite cnth_vmin_inf, cnth_vadd, cnth_vexc. reflexivity.
  - rewrite cnth_vadd, cnth_vexc. reflexivity.
Qed.

Lemma cnth_cap_norm c i :
  cnth (cap_norm c) i =
  if is_base i then (if Qle_bool (val0 (cnth c i)) 0 then None else cnth c i) else cnth c i.
Proof.
  unfold cap_norm. rewrite cnth_tab. destruct (Nat.ltb i (length c)) eqn:E; [reflexivity|].
  apply Nat.ltb_ge in E. rewrite (cnth_overflow c) by exact E.
  destruct (is_base i); reflexivity.
Qed.

Definition ceq (a b : cell) : Prop :=
  match a, b with
  | None, None => True
  | Some x, Some y => x == y
  | _, _ => False
  end.

Lemma ceq_refl a : ceq a a.
Proof. destruct a; simpl; [reflexivity | exact I]. Qed.
Lemma ceq_sym a b : ceq a b -> ceq b a.
Proof. destruct a, b; simpl; auto. intro H; symmetry; exact H. Qed.
Lemma ceq_trans a b c : ceq a b -> ceq b c -> ceq a c.
Proof. destruct a, b, c; simpl; auto; try tauto. intros H1 H2. rewrite H1. exact H2. Qed.

Lemma cadd_ceq a a' b b' : ceq a a' -> ceq b b' -> ceq (cadd a b) (cadd a' b').
Proof. destruct a, a', b, b'; simpl; try tauto. intros H1 H2. rewrite H1, H2. reflexivity. Qed.
Lemma cadd_comm a b : ceq (cadd a b) (cadd b a).
Proof. destruct a, b; simpl; try reflexivity; try exact I. apply Qplus_comm. Qed.
Lemma cadd_assoc a b c : ceq (cadd a (cadd b c)) (cadd (cadd a b) c).
Proof. destruct a, b, c; simpl; try reflexivity; try exact I. apply Qplus_assoc. Qed.

Definition csum (z : cell) (cs : list cell) : cell := fold_right cadd z cs.

Lemma csum_perm z cs cs' : Permutation cs cs' -> ceq (csum z cs) (csum z cs').
Proof.
  induction 1; simpl.
  - apply ceq_refl.
  - apply cadd_ceq; [apply ceq_refl | assumption].
  - eapply ceq_trans; [apply cadd_assoc|]. eapply ceq_trans; [|apply ceq_sym, cadd_assoc].
    apply cadd_ceq; [apply cadd_comm | apply ceq_refl].
  - eapply ceq_trans; eassumption.
Qed.

Lemma cnth_vsum vs i : cnth (vsum vs) i = csum (cnth vzero i) (map (fun v => cnth v i) vs).
Proof.
  induction vs as [|v vs IH]; simpl; [reflexivity|]. rewrite cnth_vadd, IH. reflexivity.
Qed.

Lemma bool_ext (a b : bool) : (a = true <-> b = true) -> a = b.
Proof. destruct a, b; intuition congruence. Qed.

Lemma qlt_bool_comp x x' y y' : x == x' -> y == y' -> qlt_bool x y = qlt_bool x' y'.
Proof. intros H1 H2. apply bool_ext. rewrite !qlt_bool_iff, H1, H2. reflexivity. Qed.
Lemma qeq_bool_comp x x' y y' : x == x' -> y == y' -> Qeq_bool x y = Qeq_bool x' y'.
Proof. intros H1 H2. apply bool_ext. rewrite !Qeq_bool_iff, H1, H2. reflexivity. Qed.

Lemma val0_ceq a b : ceq a b -> val0 a == val0 b.
Proof. destruct a, b; simpl; try tauto. reflexivity. Qed.

Lemma cinc_ceq j l l' r r' : ceq l l' -> ceq r r' -> ceq (cinc j l r) (cinc j l' r').
Proof.
  intros H1 H2. pose proof (val0_ceq _ _ H1) as V1. pose proof (val0_ceq _ _ H2) as V2.
  unfold cinc.
  rewrite (qlt_bool_comp _ _ _ _ V2 V1).
  rewrite (qeq_bool_comp (val0 l) (val0 l') (-1) (-1) V1 (Qeq_refl _)).
  rewrite (qeq_bool_comp (val0 r) (val0 r') (-1) (-1) V2 (Qeq_refl _)).
  destruct l, l', r, r'; simpl in H1, H2; try tauto;
    destruct (is_base j); cbn [val0] in *;
    repeat match goal with |- context [if ?b then _ else _] => destruct b end;
    simpl; try exact I; try reflexivity; try (rewrite V1, V2; reflexivity); try assumption;
    try (rewrite V1; reflexivity); try (rewrite V2; reflexivity).
Qed.

Lemma cnorm_ceq a b : ceq a b -> cnorm a = cnorm b.
Proof.
  destruct a, b; simpl; try tauto. intro H. f_equal. apply Qred_complete. exact H.
Qed.

Lemma total_weight_perm qs qs' : Permutation qs qs' -> total_weight qs = total_weight qs'.
Proof.
  induction 1; simpl; try congruence.
  - rewrite IHPermutation. reflexivity.
  - destruct (q_meet x), (q_meet y); lia.
Qed.

(* one round does not depend on the order in which the queues are visited *)
Theorem round_order_independent D rem qs qs' :
  Permutation qs qs' ->
  Permutation (fst (round D rem qs)) (fst (round D rem qs'))
  /\ snd (round D rem qs) = snd (round D rem qs').
Proof.
  intro HP. unfold round. cbn [fst snd]. rewrite <- (total_weight_perm _ _ HP).
  split; [apply Permutation_map; exact HP|].
  unfold vfix, tab. apply map_ext. intro j.
  rewrite !cnth_vnorm, !cnth_vinc, !cnth_vadd, !cnth_vsum, !map_map.
  apply cnorm_ceq. apply cinc_ceq.
  - apply cadd_ceq; [apply ceq_refl|]. apply csum_perm. apply Permutation_map. exact HP.
  - apply csum_perm. apply Permutation_map. exact HP.
Qed.

Definition qsumf {A} (f : A -> Q) (l : list A) : Q := fold_right (fun a s => f a + s) 0 l.

Lemma qsumf_le {A} (f g : A -> Q) l :
  (forall a, In a l -> f a <= g a) -> qsumf f l <= qsumf g l.
Proof.
  induction l as [|a l IH]; intros H; simpl; [lra|].
  assert (f a <= g a) by (apply H; left; reflexivity).
  assert (qsumf f l <= qsumf g l) by (apply IH; intros; apply H; right; assumption). lra.
Qed.
Lemma qsumf_plus {A} (f g : A -> Q) l : qsumf (fun a => f a + g a) l == qsumf f l + qsumf g l.
Proof. induction l as [|a l IH]; simpl; [lra | rewrite IH; lra]. Qed.
Lemma qsumf_scale {A} (f : A -> Q) c l : qsumf (fun a => f a * c) l == qsumf f l * c.
Proof. induction l as [|a l IH]; simpl; [lra | rewrite IH; lra]. Qed.
Lemma qsumf_map {A B} (h : A -> B) (f : B -> Q) l : qsumf f (map h l) = qsumf (fun a => f (h a)) l.
Proof. induction l as [|a l IH]; simpl; [reflexivity | rewrite IH; reflexivity]. Qed.

Lemma qsumf_ext {A} (f g : A -> Q) l : (forall a, In a l -> f a == g a) -> qsumf f l == qsumf g l.
Proof.
  induction l as [|a l IH]; intro H; simpl; [reflexivity|].
  rewrite (H a) by (left; reflexivity). rewrite IH; [reflexivity|]. intros; apply H; right; assumption.
Qed.
Lemma qsumf_nonneg {A} (f : A -> Q) l : (forall a, In a l -> 0 <= f a) -> 0 <= qsumf f l.
Proof.
  induction l as [|a l IH]; intro H; simpl; [lra|].
  assert (0 <= f a) by (apply H; left; reflexivity).
  assert (0 <= qsumf f l) by (apply IH; intros; apply H; right; assumption). lra.
Qed.

Lemma val0_csum z cs : val0 (csum z cs) == val0 z + qsumf val0 cs.
Proof. induction cs as [|c cs IH]; simpl; [lra | rewrite val0_cadd, IH; lra]. Qed.

Lemma val0_vsum vs i : val0 (cnth (vsum vs) i) == qsumf (fun v => val0 (cnth v i)) vs.
Proof. rewrite cnth_vsum, val0_csum, cnth_vzero, qsumf_map. lra. Qed.

Lemma cnth_nil i : cnth [] i = None.
Proof. destruct i; reflexivity. Qed.

Lemma qeq_bool_m1 x : 0 <= x -> Qeq_bool x (-1) = false.
Proof.
  intro H. destruct (Qeq_bool x (-1)) eqn:E; [|reflexivity]. apply Qeq_bool_iff in E. lra.
Qed.

(* Diff on non-negative operands *)
Lemma cinc_val j l r : 0 <= val0 l -> 0 <= val0 r -> val0 (cinc j l r) == qmax 0 (val0 l - val0 r).
Proof.
  intros Hl Hr. unfold cinc. rewrite (qeq_bool_m1 _ Hl), (qeq_bool_m1 _ Hr).
  destruct (qlt_bool (val0 r) (val0 l)) eqn:E;
    [apply qlt_bool_iff in E | apply qlt_bool_false in E];
    destruct (is_base j), l, r; cbn [val0] in *; qcases; lra.
Qed.

Lemma cdec_val j l r : 0 <= val0 l -> 0 <= val0 r -> val0 (cdec j l r) == qmax 0 (val0 r - val0 l).
Proof.
  intros Hl Hr. unfold cdec. rewrite (qeq_bool_m1 _ Hl), (qeq_bool_m1 _ Hr).
  destruct (qlt_bool (val0 r) (val0 l)) eqn:E;
    [apply qlt_bool_iff in E | apply qlt_bool_false in E];
    destruct (is_base j), l, r; cbn [val0] in *; qcases; lra.
Qed.

Lemma ratio_sum W qs :
  qsumf (fun q => if q_meet q then 0 else ratio (q_w q) W) qs
  == inject_Z (total_weight qs) * / inject_Z W.
Proof.
  induction qs as [|q qs IH]; simpl; [unfold inject_Z; lra|]. rewrite IH.
  destruct (q_meet q); [lra|]. unfold ratio, Qdiv. rewrite inject_Z_plus. lra.
Qed.

Section SumBound.
  Variable i : nat.

  Definition dv (q : qattr) : Q := val0 (cnth (q_des q) i).
  Definition gv (q : qattr) : Q := val0 (cnth (q_gua q) i).
  Definition phi (q : qattr) : Q := qmax (dv q) (gv q).

  Definition qpos (q : qattr) : Prop := 0 <= dv q /\ 0 <= gv q /\ (0 < q_w q)%Z.

  Definition sum_inv (C : Q) (qs : list qattr) (rem : vec) : Prop :=
    0 <= val0 (cnth rem i) /\ Forall qpos qs /\ val0 (cnth rem i) + qsumf phi qs <= C.

  Lemma ratio_nonneg w W : (0 < w)%Z -> (0 < W)%Z -> 0 <= ratio w W.
  Proof.
    intros Hw HW. unfold ratio. apply Qle_shift_div_l.
    - change 0 with (inject_Z 0). rewrite <- Zlt_Qlt. exact HW.
    - rewrite Qmult_0_l. change 0 with (inject_Z 0). rewrite <- Zle_Qle. lia.
  Qed.

  Lemma gv_upd rem W q : gv (upd rem W q) = gv q.
  Proof. unfold gv. destruct (upd_static rem W q) as (_ & _ & _ & -> & _). reflexivity. Qed.

  Lemma dv_upd_nonneg rem W q : 0 <= dv q -> 0 <= gv q -> 0 <= dv (upd rem W q).
  Proof.
    intros Hd Hg. unfold dv. rewrite upd_des. destruct (q_meet q); [exact Hd|].
    rewrite cnth_new_des. apply cnew_nonneg. exact Hg.
  Qed.

  (* what one queue adds to increasedDeserved / decreasedDeserved, by value *)
  Lemma q_diff_val rem W q :
    0 <= dv q -> 0 <= gv q ->
    val0 (cnth (q_inc rem W q) i) == qmax 0 (dv (upd rem W q) - dv q) /\
    val0 (cnth (q_dec rem W q) i) == qmax 0 (dv q - dv (upd rem W q)).
  Proof.
    intros Hd Hg. pose proof (dv_upd_nonneg rem W q Hd Hg) as Hd'. revert Hd'.
    unfold q_inc, q_dec, dv. rewrite upd_des. destruct (q_meet q); intro Hd'.
    - rewrite cnth_nil. cbn [val0]. split; qcases; lra.
    - rewrite cnth_vinc, cnth_vdec. split; [apply cinc_val | apply cdec_val]; assumption.
  Qed.

  (* the remaining amount after a round, by value: remaining + decreased - increased, cut at 0 *)
  Lemma round_rem_val D rem qs :
    0 <= val0 (cnth rem i) -> Forall (fun q => 0 <= dv q /\ 0 <= gv q) qs ->
    let W := total_weight qs in
    let dec := qsumf (fun q => qmax 0 (dv q - dv (upd rem W q))) qs in
    let inc := qsumf (fun q => qmax 0 (dv (upd rem W q) - dv q)) qs in
    0 <= dec /\ 0 <= inc /\
    val0 (cnth (snd (round D rem qs)) i) ==
    if Nat.ltb i D then qmax 0 (val0 (cnth rem i) + dec - inc) else 0.
  Proof.
    intros Hr Hq W dec inc. rewrite Forall_forall in Hq.
    assert (D0 : 0 <= dec) by (apply qsumf_nonneg; intros; qcases; lra).
    assert (I0 : 0 <= inc) by (apply qsumf_nonneg; intros; qcases; lra).
    split; [exact D0|]. split; [exact I0|].
    unfold round. fold W. cbn [snd]. rewrite cnth_vfix. destruct (Nat.ltb i D); [|reflexivity].
    assert (EI : val0 (cnth (vsum (map (q_inc rem W) qs)) i) == inc).
    { rewrite val0_vsum, qsumf_map. apply qsumf_ext. intros q Hin. apply q_diff_val; apply (Hq q Hin). }
    assert (ED : val0 (cnth (vsum (map (q_dec rem W) qs)) i) == dec).
    { rewrite val0_vsum, qsumf_map. apply qsumf_ext. intros q Hin. apply q_diff_val; apply (Hq q Hin). }
    rewrite cnth_vnorm, val0_cnorm, cnth_vinc, cnth_vadd.
    set (l := cadd (cnth rem i) (cnth (vsum (map (q_dec rem W) qs)) i)).
    assert (El : val0 l == val0 (cnth rem i) + dec) by (unfold l; rewrite val0_cadd, ED; reflexivity).
    rewrite cinc_val by lra. qcases; lra.
  Qed.

  Lemma qpos_upd rem W q : qpos q -> qpos (upd rem W q).
  Proof.
    intros (Hd & Hg & Hw). destruct (upd_static rem W q) as (E0 & _).
    unfold qpos. rewrite gv_upd, E0. auto using dv_upd_nonneg.
  Qed.

  (* per queue: phi' + dec <= phi + inc   and   phi' <= phi + k * r *)
  Lemma per_queue rem W q :
    (0 < W)%Z -> 0 <= val0 (cnth rem i) -> qpos q ->
    phi (upd rem W q) + qmax 0 (dv q - dv (upd rem W q)) <= phi q + qmax 0 (dv (upd rem W q) - dv q)
    /\ phi (upd rem W q) <= phi q + (if q_meet q then 0 else ratio (q_w q) W) * val0 (cnth rem i).
  Proof.
    intros HW Hr (Hd & Hg & Hw). unfold phi. rewrite gv_upd. revert Hd Hg.
    unfold dv, gv. rewrite upd_des. destruct (q_meet q); intros Hd Hg; [split; qcases; lra|].
    rewrite cnth_new_des.
    set (sh := cmul (ratio (q_w q) W) (cnth rem i)).
    assert (Hsh : val0 sh == ratio (q_w q) W * val0 (cnth rem i)) by apply val0_cmul.
    assert (Hsh0 : 0 <= val0 sh).
    { rewrite Hsh. apply Qmult_le_0_compat; [apply ratio_nonneg|]; assumption. }
    pose proof (cnew_ge_gua i sh (cnth (q_des q) i) (cnth (q_rcap q) i) (cnth (q_req q) i) (cnth (q_gua q) i)).
    pose proof (cnew_growth i sh (cnth (q_des q) i) (cnth (q_rcap q) i) (cnth (q_req q) i)
                            (cnth (q_gua q) i) Hsh0 Hd).
    rewrite <- Hsh. split; qcases; lra.
  Qed.

  Lemma round_sum_inv D C rem qs :
    sum_inv C qs rem -> total_weight qs <> 0%Z ->
    sum_inv C (fst (round D rem qs)) (snd (round D rem qs)).
  Proof.
    intros (Hr & Hq & HC) HW0.
    assert (HW : (0 < total_weight qs)%Z).
    { assert (0 <= total_weight qs)%Z; [|lia]. apply total_weight_nonneg.
      eapply Forall_impl; [|exact Hq]. intros q (_ & _ & H). exact H. }
    destruct (round_rem_val D rem qs Hr) as (D0 & I0 & RV).
    { eapply Forall_impl; [|exact Hq]. intros q (H1 & H2 & _). auto. }
    rewrite Forall_forall in Hq.
    set (W := total_weight qs) in *.
    set (dec := qsumf (fun q => qmax 0 (dv q - dv (upd rem W q))) qs) in *.
    set (inc := qsumf (fun q => qmax 0 (dv (upd rem W q) - dv q)) qs) in *.
    (* the per-queue facts, summed *)
    assert (SA : qsumf phi (map (upd rem W) qs) + dec <= qsumf phi qs + inc).
    { unfold dec, inc. rewrite qsumf_map, <- !qsumf_plus. apply qsumf_le.
      intros q Hin. apply (per_queue rem W q HW Hr (Hq q Hin)). }
    assert (SB : qsumf phi (map (upd rem W) qs) <= qsumf phi qs + val0 (cnth rem i)).
    { rewrite qsumf_map.
      assert (H : qsumf (fun q => phi (upd rem W q)) qs <=
                  qsumf (fun q => phi q + (if q_meet q then 0 else ratio (q_w q) W) * val0 (cnth rem i)) qs)
        by (apply qsumf_le; intros q Hin; apply (per_queue rem W q HW Hr (Hq q Hin))).
      rewrite qsumf_plus, qsumf_scale, ratio_sum in H. fold W in H.
      rewrite Qmult_inv_r in H; [lra|]. intro E. unfold Qeq, inject_Z in E. simpl in E. lia. }
    rewrite round_fst. fold W. split; [|split].
    - rewrite RV. destruct (Nat.ltb i D); qcases; lra.
    - apply Forall_forall. intros q' Hin. apply in_map_iff in Hin. destruct Hin as (q & <- & Hin).
      apply qpos_upd. auto.
    - rewrite RV. destruct (Nat.ltb i D); qcases; lra.
  Qed.
End SumBound.

(* the deserved shares of all queues together never exceed the cluster total plus
   the guarantees, in every dimension, after any number of rounds *)
Theorem deserved_sum_bound fuel D total qs k i :
  Forall (fun q => q_des q = vzero /\ 0 <= val0 (cnth (q_gua q) i) /\ (0 < q_w q)%Z) qs ->
  0 <= val0 (cnth total i) ->
  qsumf (dv i) (out_qs (loop fuel D (vfix D total) qs k))
  <= val0 (cnth total i) + qsumf (gv i) qs.
Proof.
  intros Hq Ht.
  set (C := val0 (cnth total i) + qsumf (gv i) qs).
  assert (H0 : sum_inv i C qs (vfix D total)).
  { assert (Hr : 0 <= val0 (cnth (vfix D total) i) <= val0 (cnth total i)).
    { rewrite cnth_vfix. destruct (Nat.ltb i D); simpl; lra. }
    split; [apply Hr|]. split.
    - eapply Forall_impl; [|exact Hq]. intros q (Hd & Hg & Hw). unfold qpos, dv, gv.
      pose proof (cnth_vzero i) as Z0.
      split; [rewrite Hd; lra | split; [exact Hg | exact Hw]].
    - assert (qsumf (phi i) qs <= qsumf (gv i) qs).
      { apply qsumf_le. intros q Hin. rewrite Forall_forall in Hq. destruct (Hq q Hin) as (Hd & Hg & _).
        pose proof (cnth_vzero i) as Z0.
        unfold phi, dv, gv. rewrite Hd. qcases; lra. }
      unfold C. lra. }
  pose proof (loop_inv (sum_inv i C) D (fun rem qs => round_sum_inv i D C rem qs) fuel _ _ k H0)
    as (Hr & _ & HC).
  assert (qsumf (dv i) (out_qs (loop fuel D (vfix D total) qs k))
          <= qsumf (phi i) (out_qs (loop fuel D (vfix D total) qs k))).
  { apply qsumf_le. intros q _. unfold phi. qcases; lra. }
  lra.
Qed.

Lemma ratio_mono w1 w2 W : (w1 <= w2)%Z -> (0 < W)%Z -> ratio w1 W <= ratio w2 W.
Proof.
  intros Hw HW. unfold ratio, Qdiv. apply Qmult_le_compat_r.
  - rewrite <- Zle_Qle. exact Hw.
  - apply Qlt_le_weak, Qinv_lt_0_compat. change 0 with (inject_Z 0). rewrite <- Zlt_Qlt. exact HW.
Qed.

(* What is true: the loop continues only when the remaining vector changed and is not
   empty (by definition of the exit test), and any fuel gives a result satisfying all the
   bounds above.  What is false in exact arithmetic: termination.  Two queues, each capped
   in the dimension the other one is hungry for, halve the remaining cpu and memory
   every round for ever, while an unrequested third resource keeps [vempty] false.
   Proved for every fuel (wit_never_exits in Termination.v, C12_exact_nontermination in
   Props/C12.v); the Go loop leaves through float absorption
   (deserved + share == deserved once share < ulp/2), a runtime fact outside the model. *)
Definition wit_q (c m : Q) : qattr :=
  mkQ 1 [Some c; Some m; None; Some 8] [Some 1000; Some 1000] vzero vzero vzero false.
Definition wit_qs : list qattr := [wit_q 10 1000; wit_q 1000 10].
Definition wit_rem : vec := [Some 100; Some 100; None; Some 8].

Definition is_out_of_fuel (o : outcome) : bool :=
  match o with OutOfFuel _ _ => true | Done _ _ _ => false end.

(* the strict "larger weight never gets less" fails by the 0.1 with which a queue is
   declared satisfied: the heavier twin stops at request - 0.05, the lighter one goes on
   to the full request (witness of C12_weight_monotone_strict_refuted in Props/C12.v) *)
Definition twin (w : Z) : qattr :=
  mkQ w [Some 1000; Some 1000] [Some 10; Some 0] vzero vzero vzero false.
(* a third queue whose cpu share is wasted (capped at 0), so that something remains *)
Definition waster : qattr :=
  mkQ 2 [Some 0; Some 1000] [Some 10; Some 0] vzero vzero vzero false.
Definition twin_rem : vec := [Some (199 # 8); Some 0].

