(* C12: what is true and what is false about termination of the fair-share loop in
   exact arithmetic, with the exit tests exactly as coded (IsEmpty with the 0.1
   threshold per dimension, DeepEqual(remaining, old), total weight 0).  Also here: the value of
   one update on non-negative data ([cnew_val], with the [Proper] instances it needs), the
   pointwise form of order independence ([loopF]), and the progress measure that does hold. *)
From Coq Require Import QArith Qminmax ZArith List Bool Lia Lqa Permutation Morphisms.
From V Require Import C12.Model C12.Lemmas.
Import ListNotations.
Open Scope Q_scope.

Global Instance qmax_proper : Proper (Qeq ==> Qeq ==> Qeq) qmax.
Proof.
  intros a a' Ha b b' Hb.
  destruct (qmax_cases a b) as [[? ->]|[? ->]], (qmax_cases a' b') as [[? ->]|[? ->]]; lra.
Qed.
Global Instance qmin_proper : Proper (Qeq ==> Qeq ==> Qeq) qmin.
Proof.
  intros a a' Ha b b' Hb.
  destruct (qmin_cases a b) as [[? ->]|[? ->]], (qmin_cases a' b') as [[? ->]|[? ->]]; lra.
Qed.

(* value-level semantics of one update on non-negative data *)
Lemma cnew_val j sh d cap req g :
  0 <= val0 d -> 0 <= val0 sh -> 0 <= val0 cap -> 0 <= val0 req ->
  val0 (cnew j sh d cap req g) ==
  qmax (qmin (match cap with
              | Some c => qmin (val0 d + val0 sh) c
              | None => val0 d + val0 sh
              end) (val0 req)) (val0 g).
Proof.
  intros Hd Hs Hc Hr. unfold cnew.
  assert (H1 : 0 <= val0 (cmin_inf (cadd d sh) cap))
    by (apply cmin_inf_nonneg; [rewrite val0_cadd; lra | exact Hc]).
  assert (H2 : 0 <= val0 (cmin_zero (cmin_inf (cadd d sh) cap) req))
    by (rewrite val0_cmin_zero by assumption; qcases; lra).
  rewrite val0_cnorm, val0_cmax_nonneg, val0_cmin_zero, val0_cmin_inf by assumption.
  destruct cap; rewrite val0_cadd; reflexivity.
Qed.

(* ... hence monotone in the share and in the old value *)
Lemma cnew_mono j s1 s2 d1 d2 cap req g :
  0 <= val0 s1 <= val0 s2 -> 0 <= val0 d1 <= val0 d2 -> 0 <= val0 cap -> 0 <= val0 req ->
  val0 (cnew j s1 d1 cap req g) <= val0 (cnew j s2 d2 cap req g).
Proof.
  intros Hs Hd Hc Hr. rewrite !cnew_val by lra.
  apply qmax_mono; [|lra]. apply qmin_mono; [|lra]. destruct cap; [apply qmin_mono|]; lra.
Qed.

(* when an exit test is false *)
Lemma length_tab n f : length (tab n f) = n.
Proof. unfold tab. rewrite map_length, seq_length. reflexivity. Qed.

Lemma vempty_false v i :
  (i < length v)%nat -> i <> 2%nat -> eps <= val0 (cnth v i) -> vempty v = false.
Proof.
  intros Hi H2 Hv. destruct (vempty v) eqn:E; [exfalso | reflexivity].
  unfold vempty in E. rewrite forallb_forall in E.
  assert (Hin : In i (seq 0 (length v))) by (apply in_seq; lia).
  specialize (E i Hin). unfold cempty, eps in *.
  destruct (is_base i).
  - apply qlt_bool_iff in E. lra.
  - destruct (Nat.eqb i 2) eqn:E2; [apply Nat.eqb_eq in E2; contradiction|].
    destruct (cnth v i); cbn [val0] in *; [apply qlt_bool_iff in E; lra | lra].
Qed.

Lemma vdeq_false a b i : ~ val0 (cnth a i) == val0 (cnth b i) -> vdeq a b = false.
Proof.
  intro H. destruct (vdeq a b) eqn:E; [exfalso | reflexivity].
  unfold vdeq in E. rewrite vall2_spec in E by reflexivity. specialize (E i).
  apply H. unfold cdeq in E. destruct (cnth a i), (cnth b i); try discriminate; cbn [val0].
  - apply Qeq_bool_iff. exact E.
  - reflexivity.
Qed.

Lemma vle_eps_false l r i :
  eps <= val0 (cnth l i) - val0 (cnth r i) -> 0 <= val0 (cnth r i) -> vle_eps l r = false.
Proof.
  intros H Hr. destruct (vle_eps l r) eqn:E; [exfalso | reflexivity].
  unfold vle_eps in E. rewrite vall2_spec in E by reflexivity. specialize (E i).
  unfold cle_eps, eps in *. destruct (cnth l i); cbn [val0] in *.
  - apply qlt_bool_iff in E. lra.
  - lra.
Qed.

(* non-termination of the exact loop on the cross-capped witness *)
(* static part of a witness queue: weight 1, unmet, capped at c cpu / m memory / 8 of a third
   resource that nobody requests, requesting 1000/1000, no guarantee *)
Definition wstat (q : qattr) (c m : Q) : Prop :=
  q_w q = 1%Z /\ q_meet q = false /\ q_rcap q = [Some c; Some m; None; Some 8]
  /\ q_req q = [Some 1000; Some 1000] /\ q_gua q = vzero.

Definition vnonneg (v : vec) : Prop := forall i, 0 <= val0 (cnth v i).

(* for concrete vectors, by evaluation *)
Lemma ex_nonneg (v : vec) :
  forallb (fun c => Qle_bool 0 (val0 c)) v = true -> vnonneg v.
Proof.
  intros H i. unfold cnth. destruct (nth_in_or_default i v None) as [Hin | ->]; [|simpl; lra].
  rewrite forallb_forall in H. apply Qle_bool_iff. apply H. exact Hin.
Qed.

(* new deserved of a witness queue, by value *)
Lemma wit_new_val q c m rem i :
  wstat q c m -> 0 <= c -> 0 <= m -> vnonneg rem -> vnonneg (q_des q) ->
  val0 (cnth (new_des rem 2 q) i) ==
  qmax (qmin (match cnth [Some c; Some m; None; Some 8] i with
              | Some k => qmin (val0 (cnth (q_des q) i) + (1 # 2) * val0 (cnth rem i)) k
              | None => val0 (cnth (q_des q) i) + (1 # 2) * val0 (cnth rem i)
              end) (val0 (cnth [Some 1000; Some 1000] i))) (val0 (cnth vzero i)).
Proof.
  intros (Hw & _ & Hc & Hr & Hg) Hc0 Hm0 Hrem Hdes.
  assert (Hsh : val0 (cmul (ratio 1 2) (cnth rem i)) == (1 # 2) * val0 (cnth rem i))
    by (rewrite val0_cmul; reflexivity).
  rewrite cnth_new_des, Hw, Hc, Hr, Hg, cnew_val.
  - destruct (cnth [Some c; Some m; None; Some 8] i); rewrite Hsh; reflexivity.
  - apply Hdes.
  - rewrite Hsh. specialize (Hrem i). lra.
  - destruct i as [|[|[|[|[|i]]]]]; cbn; lra.
  - destruct i as [|[|[|i]]]; cbn; lra.
Qed.

Lemma wstat_gua q c m i : wstat q c m -> val0 (cnth (q_gua q) i) == 0.
Proof. intros (_ & _ & _ & _ & ->). apply cnth_vzero. Qed.

Lemma wit_new_nonneg q c m rem : wstat q c m -> vnonneg (new_des rem 2 q).
Proof.
  intros H i. rewrite cnth_new_des. apply cnew_nonneg. rewrite (wstat_gua q c m i H). lra.
Qed.

Record WJ (A B : qattr) (rem : vec) : Prop := {
  wj_A : wstat A 10 1000; wj_B : wstat B 1000 10;
  wj_r : vnonneg rem; wj_a : vnonneg (q_des A); wj_b : vnonneg (q_des B);
  wj_x : 0 < val0 (cnth rem 0); wj_y : 0 < val0 (cnth rem 1); wj_g : val0 (cnth rem 3) == 8;
  wj_a0 : val0 (cnth (q_des A) 0) == 10;
  wj_a1 : val0 (cnth (q_des A) 1) == 90 - val0 (cnth rem 1);
  wj_a3 : val0 (cnth (q_des A) 3) == 0;
  wj_b0 : val0 (cnth (q_des B) 0) == 90 - val0 (cnth rem 0);
  wj_b1 : val0 (cnth (q_des B) 1) == 10;
  wj_b3 : val0 (cnth (q_des B) 3) == 0 }.

Lemma wit_tw A B c1 m1 c2 m2 : wstat A c1 m1 -> wstat B c2 m2 -> total_weight [A; B] = 2%Z.
Proof.
  intros (W1 & M1 & _) (W2 & M2 & _). simpl. rewrite M1, M2, W1, W2. reflexivity.
Qed.

Lemma wstat_upd q c m rem W :
  wstat q c m -> new_meet q (new_des rem W q) = false -> wstat (upd rem W q) c m.
Proof.
  intros (Hw & Hm & Hc & Hr & Hg) Hn.
  destruct (upd_static rem W q) as (E0 & E1 & E2 & E3 & _).
  unfold wstat. rewrite E0, E1, E2, E3. repeat split; auto.
  unfold upd. rewrite Hm. simpl. exact Hn.
Qed.

Lemma WJ_step A B rem :
  WJ A B rem ->
  let A' := upd rem 2 A in
  let B' := upd rem 2 B in
  let rem' := snd (round 4 rem [A; B]) in
  fst (round 4 rem [A; B]) = [A'; B'] /\ WJ A' B' rem'
  /\ vempty rem' = false /\ vdeq rem' rem = false.
Proof.
  intros J A' B' rem'. destruct J as [JA JB Jr Ja Jb Jx Jy Jg Ja0 Ja1 Ja3 Jb0 Jb1 Jb3].
  pose proof (wit_tw _ _ _ _ _ _ JA JB) as HW.
  pose proof (Ja 1%nat) as P1. pose proof (Jb 0%nat) as P2.
  set (x := val0 (cnth rem 0)) in *. set (y := val0 (cnth rem 1)) in *.
  (* new deserved values *)
  assert (VA0 : val0 (cnth (new_des rem 2 A) 0) == 10).
  { rewrite (wit_new_val A 10 1000) by (assumption || lra). cbn [cnth nth vzero val0]. fold x y. rewrite Ja0. qcases; lra. }
  assert (VA1 : val0 (cnth (new_des rem 2 A) 1) == 90 - (1 # 2) * y).
  { rewrite (wit_new_val A 10 1000) by (assumption || lra). cbn [cnth nth vzero val0]. fold x y. rewrite Ja1. qcases; lra. }
  assert (VA3 : val0 (cnth (new_des rem 2 A) 3) == 0).
  { rewrite (wit_new_val A 10 1000) by (assumption || lra). cbn [cnth nth vzero val0]. fold x y. rewrite Ja3, Jg. qcases; lra. }
  assert (VB0 : val0 (cnth (new_des rem 2 B) 0) == 90 - (1 # 2) * x).
  { rewrite (wit_new_val B 1000 10) by (assumption || lra). cbn [cnth nth vzero val0]. fold x y. rewrite Jb0. qcases; lra. }
  assert (VB1 : val0 (cnth (new_des rem 2 B) 1) == 10).
  { rewrite (wit_new_val B 1000 10) by (assumption || lra). cbn [cnth nth vzero val0]. fold x y. rewrite Jb1. qcases; lra. }
  assert (VB3 : val0 (cnth (new_des rem 2 B) 3) == 0).
  { rewrite (wit_new_val B 1000 10) by (assumption || lra). cbn [cnth nth vzero val0]. fold x y. rewrite Jb3, Jg. qcases; lra. }
  pose proof JA as (_ & MA & _ & RA & _). pose proof JB as (_ & MB & _ & RB & _).
  assert (NNA : vnonneg (new_des rem 2 A)) by (eapply wit_new_nonneg; exact JA).
  assert (NNB : vnonneg (new_des rem 2 B)) by (eapply wit_new_nonneg; exact JB).
  assert (DA : q_des (upd rem 2 A) = new_des rem 2 A) by (rewrite upd_des, MA; reflexivity).
  assert (DB : q_des (upd rem 2 B) = new_des rem 2 B) by (rewrite upd_des, MB; reflexivity).
  (* remaining *)
  assert (RV : forall i, val0 (cnth rem' i) ==
     if Nat.ltb i 4 then
       qmax 0 (val0 (cnth rem i)
               + (qmax 0 (val0 (cnth (q_des A) i) - val0 (cnth (new_des rem 2 A) i))
                  + (qmax 0 (val0 (cnth (q_des B) i) - val0 (cnth (new_des rem 2 B) i)) + 0))
               - (qmax 0 (val0 (cnth (new_des rem 2 A) i) - val0 (cnth (q_des A) i))
                  + (qmax 0 (val0 (cnth (new_des rem 2 B) i) - val0 (cnth (q_des B) i)) + 0)))
     else 0).
  { intro i. destruct (round_rem_val i 4 rem [A; B] (Jr i)) as (_ & _ & H).
    - repeat constructor; unfold gv; rewrite ?(wstat_gua _ _ _ _ JA), ?(wstat_gua _ _ _ _ JB);
        try lra; [apply Ja | apply Jb].
    - rewrite HW in H. unfold dv in H. cbn [qsumf fold_right] in H. rewrite DA, DB in H. exact H. }
  assert (R0 : val0 (cnth rem' 0) == (1 # 2) * x).
  { rewrite (RV 0%nat). change (Nat.ltb 0 4) with true. cbv iota. fold x.
    rewrite VA0, VB0, Ja0, Jb0. qcases; lra. }
  assert (R1 : val0 (cnth rem' 1) == (1 # 2) * y).
  { rewrite (RV 1%nat). change (Nat.ltb 1 4) with true. cbv iota. fold y.
    rewrite VA1, VB1, Ja1, Jb1. qcases; lra. }
  assert (R3 : val0 (cnth rem' 3) == 8).
  { rewrite (RV 3%nat). change (Nat.ltb 3 4) with true. cbv iota.
    rewrite VA3, VB3, Ja3, Jb3, Jg. qcases; lra. }
  assert (RN : vnonneg rem').
  { intro i. rewrite (RV i). destruct (Nat.ltb i 4); [|lra]. set (v := _ - _). qcases; lra. }
  (* neither queue becomes satisfied *)
  assert (MA' : new_meet A (new_des rem 2 A) = false).
  { unfold new_meet. apply orb_false_iff. split.
    - apply (vle_eps_false _ _ 0%nat); [|apply NNA]. rewrite RA.
      change (cnth [Some 1000; Some 1000] 0) with (Some 1000). cbn [val0]. rewrite VA0. unfold eps. lra.
    - apply (vdeq_false _ _ 1%nat). rewrite VA1, Ja1. lra. }
  assert (MB' : new_meet B (new_des rem 2 B) = false).
  { unfold new_meet. apply orb_false_iff. split.
    - apply (vle_eps_false _ _ 1%nat); [|apply NNB]. rewrite RB.
      change (cnth [Some 1000; Some 1000] 1) with (Some 1000). cbn [val0]. rewrite VB1. unfold eps. lra.
    - apply (vdeq_false _ _ 0%nat). rewrite VB0, Jb0. lra. }
  split; [|split; [|split]].
  - rewrite round_fst, HW. reflexivity.
  - (* the new state: four fields move, the others are the facts above *)
    unfold A', B'. constructor; rewrite ?DA, ?DB; auto using wstat_upd;
      rewrite ?VA1, ?VB0, ?R0, ?R1; lra.
  - apply (vempty_false _ 3%nat).
    + unfold rem', round. cbn [snd]. unfold vfix. rewrite length_tab. lia.
    + discriminate.
    + rewrite R3. unfold eps. lra.
  - apply (vdeq_false _ _ 0%nat). rewrite R0. fold x. lra.
Qed.

Lemma wit_never_exits fuel : forall A B rem k,
  WJ A B rem -> is_out_of_fuel (loop fuel 4 rem [A; B] k) = true.
Proof.
  induction fuel as [|f IH]; intros A B rem k J; cbn [loop]; [reflexivity|].
  pose proof (wit_tw _ _ _ _ _ _ (wj_A _ _ _ J) (wj_B _ _ _ J)) as HW. rewrite HW.
  change (Z.eqb 2 0) with false. cbv iota.
  destruct (WJ_step A B rem J) as (E1 & J' & He & Hd).
  destruct (round 4 rem [A; B]) as [qs' rem'] eqn:ER. cbn [fst snd] in *. subst qs'.
  rewrite He, Hd. cbn [orb]. apply IH. exact J'.
Qed.

(* the state after the first round of the witness *)
Definition wA1 : qattr := Eval vm_compute in upd wit_rem 2 (wit_q 10 1000).
Definition wB1 : qattr := Eval vm_compute in upd wit_rem 2 (wit_q 1000 10).
Definition wrem1 : vec := Eval vm_compute in snd (round 4 wit_rem wit_qs).

Lemma wit_round1 : round 4 wit_rem wit_qs = ([wA1; wB1], wrem1).
Proof. vm_compute. reflexivity. Qed.

Lemma WJ_round1 : WJ wA1 wB1 wrem1.
Proof.
  constructor; try (repeat split; reflexivity); try (apply ex_nonneg; reflexivity); cbn; lra.
Qed.

(* order independence, pointwise *)
(* The final record of every queue is a function of that queue alone (and of the multiset of
   all queues): [loopF] is built from one reference order, and the loop run over ANY
   permutation of the list returns exactly [map loopF] of that permutation.  So the map
   queue -> deserved does not depend on the iteration order, for every input and fuel. *)
Fixpoint loopF (fuel D : nat) (rem : vec) (qs : list qattr) : qattr -> qattr :=
  match fuel with
  | O => fun q => q
  | S f =>
    if Z.eqb (total_weight qs) 0 then fun q => q
    else
      let W := total_weight qs in
      let r := round D rem qs in
      if vempty (snd r) || vdeq (snd r) rem then upd rem W
      else fun q => loopF f D (snd r) (fst r) (upd rem W q)
  end.

Theorem loop_pointwise fuel D : forall rem qs qs' k,
  Permutation qs qs' ->
  out_qs (loop fuel D rem qs' k) = map (loopF fuel D rem qs) qs'.
Proof.
  induction fuel as [|f IH]; intros rem qs qs' k HP; cbn [loop loopF].
  - simpl. symmetry. apply map_id.
  - rewrite <- (total_weight_perm _ _ HP).
    destruct (Z.eqb (total_weight qs) 0) eqn:EW; [simpl; symmetry; apply map_id|].
    destruct (round_order_independent D rem qs qs' HP) as [H1 H2].
    pose proof (round_fst D rem qs') as F'. rewrite <- (total_weight_perm _ _ HP) in F'.
    destruct (round D rem qs') as [a' b'] eqn:Eb. cbn [fst snd] in *.
    rewrite <- H2.
    destruct (vempty (snd (round D rem qs)) || vdeq (snd (round D rem qs)) rem).
    + simpl. exact F'.
    + rewrite (IH _ (fst (round D rem qs)) a' (S k) H1). rewrite F', map_map. reflexivity.
Qed.

Corollary deserved_map_order_independent fuel D rem qs qs1 qs2 k :
  Permutation qs qs1 -> Permutation qs qs2 ->
  forall q, In q qs ->
    (* the same queue ends with the same record in both orders *)
    In (loopF fuel D rem qs q) (out_qs (loop fuel D rem qs1 k)) /\
    In (loopF fuel D rem qs q) (out_qs (loop fuel D rem qs2 k)).
Proof.
  intros P1 P2 q Hq.
  rewrite (loop_pointwise fuel D rem qs qs1 k P1), (loop_pointwise fuel D rem qs qs2 k P2).
  split; apply in_map; [apply (Permutation_in _ P1) | apply (Permutation_in _ P2)]; exact Hq.
Qed.

(* the progress measure that IS true: deserved only grows, remaining only shrinks *)
Definition capreq (cap req : cell) : Q :=
  match cap with Some c => qmin c (val0 req) | None => val0 req end.
(* a deserved value never exceeds max(guarantee, min(realCapability, request)) *)
Definition satM (d cap req g : cell) : Prop := val0 d <= qmax (val0 g) (capreq cap req).

Lemma cnew_satM j sh d cap req g :
  0 <= val0 cap -> 0 <= val0 req -> satM (cnew j sh d cap req g) cap req g.
Proof.
  intros Hc Hr. unfold satM, capreq, cnew. rewrite val0_cnorm, val0_cmax.
  pose proof (cmin_zero_le_r (cmin_inf (cadd d sh) cap) req Hr).
  destruct cap as [c|]; cbn [val0] in Hc.
  - assert (val0 (cmin_zero (cmin_inf (cadd d sh) (Some c)) req) <= c)
      by (apply cmin_zero_le; [exact Hc | apply cmin_inf_le_cap; exact Hc]).
    destruct (is_base j); qcases; lra.
  - destruct (is_base j); qcases; lra.
Qed.

(* a value within its bound only grows: below the guarantee it is lifted to it, otherwise it is
   below capability and request, and the share added to it is not negative *)
Lemma cnew_ge_old j sh d cap req g :
  satM d cap req g -> 0 <= val0 sh -> 0 <= val0 d -> 0 <= val0 cap -> 0 <= val0 req ->
  val0 d <= val0 (cnew j sh d cap req g).
Proof.
  unfold satM. intros HM Hs Hd Hc Hr.
  destruct (qmax_cases (val0 g) (capreq cap req)) as [[_ E]|[_ E]]; rewrite E in HM; clear E.
  - rewrite cnew_val by assumption. unfold capreq in HM.
    destruct cap; cbn [val0] in Hc; revert HM; qcases; intros; lra.
  - eapply Qle_trans; [exact HM | apply cnew_ge_gua].
Qed.

Definition Mq (q : qattr) : Prop :=
  forall i, satM (cnth (q_des q) i) (cnth (q_rcap q) i) (cnth (q_req q) i) (cnth (q_gua q) i)
            /\ 0 <= val0 (cnth (q_des q) i).

Lemma wf_cap q i : wf_static q -> 0 <= val0 (cnth (q_rcap q) i).
Proof. intro H. destruct (H i) as (Hc & _). destruct (cnth (q_rcap q) i); [apply Hc; reflexivity | cbn; lra]. Qed.

Lemma share_nonneg w W rem i : (0 < w)%Z -> (0 < W)%Z -> 0 <= val0 (cnth rem i) ->
  0 <= val0 (cmul (ratio w W) (cnth rem i)).
Proof.
  intros Hw HW Hr. rewrite val0_cmul. apply Qmult_le_0_compat; [apply ratio_nonneg; assumption | exact Hr].
Qed.

Lemma Mq_upd rem W q :
  (0 < q_w q)%Z -> (0 < W)%Z -> vnonneg rem -> wf_static q -> Mq q ->
  Mq (upd rem W q) /\ wf_static (upd rem W q)
  /\ forall i, val0 (cnth (q_des q) i) <= val0 (cnth (q_des (upd rem W q)) i).
Proof.
  intros Hw HW Hr Hwf HM.
  destruct (upd_static rem W q) as (E0 & E1 & E2 & E3 & _).
  split; [|split].
  - intro i. rewrite E1, E2, E3, upd_des. destruct (q_meet q); [apply HM|].
    rewrite cnth_new_des. destruct (Hwf i) as (_ & Hq & Hg). split.
    + apply cnew_satM; [apply wf_cap; exact Hwf | exact Hq].
    + apply cnew_nonneg. exact Hg.
  - intro i. unfold wf_static in *. rewrite E1, E2, E3. apply Hwf.
  - intro i. rewrite upd_des. destruct (q_meet q); [lra|].
    rewrite cnth_new_des. destruct (HM i) as (HS & Hd). destruct (Hwf i) as (_ & Hq & _).
    apply cnew_ge_old; auto.
    + apply share_nonneg; auto.
    + apply wf_cap; exact Hwf.
Qed.

Lemma qsumf_zero {A} (f : A -> Q) l : (forall a, In a l -> f a == 0) -> qsumf f l == 0.
Proof.
  induction l as [|a l IH]; intros H; simpl; [reflexivity|].
  rewrite (H a) by (left; reflexivity). rewrite IH; [lra|]. intros; apply H; right; assumption.
Qed.

(* one round: every deserved value grows or stays, every remaining value shrinks or stays *)
Theorem round_monotone D rem qs :
  Forall (fun q => (0 < q_w q)%Z /\ wf_static q /\ Mq q) qs -> total_weight qs <> 0%Z -> vnonneg rem ->
  Forall (fun q => (0 < q_w q)%Z /\ wf_static q /\ Mq q) (fst (round D rem qs))
  /\ vnonneg (snd (round D rem qs))
  /\ (forall q i, In q qs ->
        val0 (cnth (q_des q) i) <= val0 (cnth (q_des (upd rem (total_weight qs) q)) i))
  /\ (forall i, val0 (cnth (snd (round D rem qs)) i) <= val0 (cnth rem i)).
Proof.
  intros Hq HW0 Hr.
  assert (HW : (0 < total_weight qs)%Z).
  { assert (0 <= total_weight qs)%Z; [|lia]. apply total_weight_nonneg.
    eapply Forall_impl; [|exact Hq]. intros q (H & _). exact H. }
  set (W := total_weight qs) in *.
  assert (HU : forall q, In q qs -> Mq (upd rem W q) /\ wf_static (upd rem W q)
             /\ forall i, val0 (cnth (q_des q) i) <= val0 (cnth (q_des (upd rem W q)) i)).
  { intros q Hin. rewrite Forall_forall in Hq. destruct (Hq q Hin) as (Hw & Hwf & HM).
    apply Mq_upd; assumption. }
  assert (RV : forall i, 0 <= val0 (cnth (snd (round D rem qs)) i) <= val0 (cnth rem i)).
  { intro i. destruct (round_rem_val i D rem qs (Hr i)) as (_ & I0 & ->).
    - eapply Forall_impl; [|exact Hq]. intros q (_ & Hwf & HM). split; [apply HM | apply Hwf].
    - (* nothing is handed back: every decrease is 0 *)
      fold W in I0 |- *.
      assert (ED : qsumf (fun q => qmax 0 (dv i q - dv i (upd rem W q))) qs == 0).
      { apply qsumf_zero. intros q Hin. destruct (HU q Hin) as (_ & _ & Hge). specialize (Hge i).
        unfold dv. qcases; lra. }
      set (dec := qsumf _ qs) in ED |- *. set (inc := qsumf _ qs) in I0 |- *.
      specialize (Hr i). destruct (Nat.ltb i D); qcases; lra. }
  split; [|split; [|split]].
  - rewrite round_fst. fold W. apply Forall_forall. intros q' Hin.
    apply in_map_iff in Hin. destruct Hin as (q & <- & Hin).
    destruct (HU q Hin) as (H1 & H2 & _). rewrite Forall_forall in Hq. destruct (Hq q Hin) as (Hw & _).
    destruct (upd_static rem W q) as (E0 & _). rewrite E0. auto.
  - intro i. apply RV.
  - intros q i Hin. apply (HU q Hin).
  - intro i. apply RV.
Qed.
