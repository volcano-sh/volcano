(* C12: what the boolean laws MEAN, as Prop-level readings written without the modelled loop:
   an equivalence for 101, 102, 107, 109 and 112, soundness only for 103, 104, 105, 108 and 111;
   and laws 101 and 103 accept the model's own results. *)
From Coq Require Import QArith ZArith List Bool Lia Lqa.
From V Require Import C12.Model C12.Lemmas C12.Laws.
Import ListNotations.
Open Scope Q_scope.

Lemma alldims_spec D p : alldims D p = true <-> forall j, (j < D)%nat -> p j = true.
Proof.
  unfold alldims. rewrite forallb_forall. split; intros H j Hj.
  - apply H. apply in_seq. lia.
  - apply in_seq in Hj. apply H. lia.
Qed.

(* 101: the three per-queue bounds, slack 0.1 *)
Definition bounds_prop (D : nat) (o : obs) : Prop :=
  forall j, (j < D)%nat ->
    let g := val0 (cnth (o_gua o) j) in
    let d := val0 (cnth (o_des o) j) in
    g <= d + slack
    /\ match cnth (o_rcap o) j with
       | Some c => d <= qmax g c + slack
       | None => d <= g + slack      (* no realCapability entry: nothing beyond the guarantee *)
       end
    /\ d <= qmax g (val0 (cnth (o_req o) j)) + slack.

Lemma law_bounds_q_iff D o : law_bounds_q D o = true <-> bounds_prop D o.
Proof.
  unfold law_bounds_q, law_bounds_q_gen, bounds_prop. rewrite alldims_spec.
  split; intros H j Hj; specialize (H j Hj); cbv zeta in *.
  - apply andb_true_iff in H. destruct H as [H H3]. apply andb_true_iff in H. destruct H as [H1 H2].
    split; [apply Qle_bool_iff; exact H1|]. split; [|apply Qle_bool_iff; exact H3].
    destruct (cnth (o_rcap o) j); cbn [negb orb] in H2; apply Qle_bool_iff; exact H2.
  - destruct H as (H1 & H2 & H3). apply andb_true_iff. split; [apply andb_true_iff; split|].
    + apply Qle_bool_iff. exact H1.
    + destruct (cnth (o_rcap o) j) as [c|]; cbn [negb orb]; apply Qle_bool_iff; exact H2.
    + apply Qle_bool_iff. exact H3.
Qed.

Lemma law_bounds_iff D os :
  weights_pos os = true -> (law_bounds D os = true <-> Forall (bounds_prop D) os).
Proof.
  intro W. unfold law_bounds. rewrite W. cbn [negb orb]. rewrite forallb_forall, Forall_forall.
  split; intros H o Ho; apply law_bounds_q_iff; apply H; exact Ho.
Qed.

(* 102: sum of deserved <= total + sum of guarantees, slack 0.1 *)
Lemma law_sum_iff D total os :
  weights_pos os = true ->
  (law_sum D total os = true <->
   forall j, (j < D)%nat ->
     qsum (map (fun o => val0 (cnth (o_des o) j)) os)
     <= val0 (cnth total j) + qsum (map (fun o => val0 (cnth (o_gua o) j)) os) + slack).
Proof.
  intro W. unfold law_sum. rewrite W. cbn [negb orb]. rewrite alldims_spec.
  split; intros H j Hj; specialize (H j Hj); apply Qle_bool_iff; exact H.
Qed.

(* 105: realCapability reserves the other queues' guarantees *)
Lemma law_reserve_sound D total tg os :
  law_reserve false D total tg os = true ->
  Forall (fun o => forall j, (j < D)%nat ->
            (forall t, cnth total j = Some t -> cnth (o_rcap o) j <> None)
            /\ forall c, cnth (o_rcap o) j = Some c ->
            c <= qmax 0 (val0 (cnth total j) - val0 (cnth tg j)) + val0 (cnth (o_gua o) j) + slack) os.
Proof.
  unfold law_reserve. rewrite forallb_forall, Forall_forall.
  intros H o Ho. specialize (H o Ho). rewrite alldims_spec in H.
  intros j Hj. specialize (H j Hj). split.
  { intros t Et N. rewrite N, Et in H. discriminate. }
  intros c E. rewrite E in H.
  destruct (cnth total j) as [t|]; cbn [val0]; apply Qle_bool_iff in H.
  - exact H.
  - assert (0 <= qmax 0 (0 - val0 (cnth tg j))) by (qcases; lra). lra.
Qed.

(* 103: overused <-> deserved - allocated < 0.1 in every dimension present in deserved *)
Definition overused_prop (o : obs) : Prop :=
  forall i, match cnth (o_des o) i with
            | None => True
            | Some d => d - val0 (cnth (o_alloc o) i) < 1 # 10
            end.

Lemma law_overused_q_sound D o :
  law_overused_q D o = true -> near_boundary D o = false ->
  (o_over o = true <-> overused_prop o).
Proof.
  unfold law_overused_q. intros H N. rewrite N in H. cbn [orb] in H.
  apply eqb_prop in H. rewrite H. apply vle_eps_iff.
Qed.

(* 104: larger weight, equal demand: not less, up to 0.1 + slack *)
Lemma law_weight_sound D os :
  law_weight D os = true -> weights_pos os = true ->
  forall a b, In a os -> In b os -> same_demand a b = true -> (o_w a <= o_w b)%Z ->
  forall j, (j < D)%nat ->
    val0 (cnth (o_des a) j) <= val0 (cnth (o_des b) j) + eps + slack.
Proof.
  unfold law_weight. intros H W. rewrite W in H. cbn [negb orb] in H.
  rewrite forallb_forall in H. intros a b Ha Hb Hs Hw j Hj.
  specialize (H a Ha). rewrite forallb_forall in H. specialize (H b Hb).
  rewrite Hs in H. apply Z.leb_le in Hw. rewrite Hw in H. cbn [andb] in H.
  rewrite alldims_spec in H. apply Qle_bool_iff. apply H. exact Hj.
Qed.

(* 107: the measured number of rounds is within the analytic bound *)
Lemma law_rounds_iff D big r ws :
  law_rounds D big r ws = true <->
  (exists w, In w ws /\ (w <= 0)%Z) \/ (r <= rounds_bound D big ws)%Z.
Proof.
  unfold law_rounds. rewrite orb_true_iff, Z.leb_le, negb_true_iff.
  split; intros [H|H]; auto; left.
  - destruct (forallb (Z.ltb 0) ws) eqn:E; [discriminate|].
    assert (X : ~ (forall w, In w ws -> (0 <? w)%Z = true)) by (rewrite <- forallb_forall; congruence).
    clear E H. induction ws as [|w ws IH]; [exfalso; apply X; intros w []|].
    destruct (Z.ltb 0 w) eqn:Ew.
    + destruct IH as (w' & Hin & Hw').
      * intro Hall. apply X. intros w0 [<-|Hin]; [exact Ew | apply Hall; exact Hin].
      * exists w'. split; [right; exact Hin | exact Hw'].
    + exists w. split; [left; reflexivity | apply Z.ltb_ge in Ew; exact Ew].
  - destruct H as (w & Hin & Hw). destruct (forallb (Z.ltb 0) ws) eqn:E; [|reflexivity].
    rewrite forallb_forall in E. specialize (E w Hin). apply Z.ltb_lt in E. lia.
Qed.

(* the laws accept the model's own results *)
Definition obs_of (q : qattr) : obs :=
  mkO (q_w q) (q_gua q) (q_rcap q) (q_req q) (q_alloc q) (q_des q) (overused q).

Lemma law_bounds_q_accepts_model D q :
  upper_ok q -> lower_ok q ->
  (forall j, cnth (q_rcap q) j = None -> val0 (cnth (q_des q) j) <= val0 (cnth (q_gua q) j)) ->
  law_bounds_q D (obs_of q) = true.
Proof.
  intros (_ & Hu) Hl Hn. apply law_bounds_q_iff. intros j _. cbv zeta. unfold obs_of. cbn [o_gua o_des o_rcap o_req].
  destruct (Hu j) as (H1 & H2). specialize (Hl j). unfold slack.
  split; [lra|]. split; [|lra].
  destruct (cnth (q_rcap q) j) as [c|] eqn:E; [specialize (H1 c eq_refl); lra | specialize (Hn j E); lra].
Qed.

Lemma law_overused_q_accepts_model D q : law_overused_q D (obs_of q) = true.
Proof.
  unfold law_overused_q, obs_of. cbn. unfold overused. rewrite eqb_reflx. apply orb_true_r.
Qed.

(* 108 / 109 / 111 / 112 *)
Lemma law_runs_identical_iff D ab :
  law_runs_identical D ab = true <->
  Forall (fun p : obs * obs => forall j, (j < D)%nat ->
            close (val0 (cnth (o_des (fst p)) j)) (val0 (cnth (o_des (snd p)) j)) = true) ab.
Proof.
  unfold law_runs_identical. rewrite forallb_forall, Forall_forall.
  split; intros H p Hp; specialize (H p Hp); destruct p as [a b]; cbn [fst snd] in *;
    apply alldims_spec; exact H.
Qed.

Lemma law_runs_agree_sound D ab :
  law_runs_agree D ab = true ->
  Forall (fun p : obs * obs => forall j, (j < D)%nat ->
            qabs (val0 (cnth (o_des (fst p)) j) - val0 (cnth (o_des (snd p)) j)) <= eps + slack) ab.
Proof.
  unfold law_runs_agree. rewrite forallb_forall, Forall_forall.
  intros H p Hp. specialize (H p Hp). destruct p as [a b]. cbn [fst snd].
  apply andb_true_iff in H. destruct H as [H _]. rewrite alldims_spec in H.
  intros j Hj. apply Qle_bool_iff. apply H. exact Hj.
Qed.

Lemma law_capability_sound D total qs :
  law_capability D total qs = true ->
  Forall (fun q : vec * vec * vec => let '(cap, g, d) := q in
            forall j t y, (j < D)%nat -> cnth total j = Some t -> cnth cap j = Some y ->
                          val0 (cnth g j) <= y -> val0 (cnth d j) <= y + slack) qs.
Proof.
  unfold law_capability. rewrite forallb_forall, Forall_forall.
  intros H q Hq. specialize (H q Hq). destruct q as [[cap g] d]. rewrite alldims_spec in H.
  intros j t y Hj Et Ey Hg. specialize (H j Hj). rewrite Et, Ey in H.
  apply Qle_bool_iff in Hg. rewrite Hg in H. apply Qle_bool_iff. exact H.
Qed.

Lemma law_order_excused_iff D r ab :
  law_order_excused D r ab = true <->
  law_runs_identical D ab = true \/ (r = false /\ max_dev_ok D ab = true).
Proof.
  unfold law_order_excused. rewrite orb_true_iff, andb_true_iff, negb_true_iff. tauto.
Qed.
