(* C12: executable checkers evaluated on what the Go plugin computed (its own
   floats, scaled by 10^6 and read back as rationals).  None of them calls the
   modelled loop.  [slack] = 0.1 is the documented absolute tolerance
   (api.minResource). *)
From Coq Require Import QArith ZArith List Bool.
From V Require Import C12.Model.
Import ListNotations.
Open Scope Q_scope.

Definition slack : Q := 1 # 10.

(* one queue as observed on the implementation *)
Record obs := mkO {
  o_w : Z;
  o_gua : vec; o_rcap : vec; o_req : vec; o_alloc : vec; o_des : vec;
  o_over : bool
}.

Definition alldims (D : nat) (p : nat -> bool) : bool := forallb p (seq 0 D).

(* the theorems assume positive weights; with a weight <= 0 in play nothing is claimed *)
Definition weights_pos (os : list obs) : bool := forallb (fun o => Z.ltb 0 (o_w o)) os.

(* guarantee <= deserved <= max(guarantee, realCapability), deserved <= max(guarantee, request) *)
(* [strict]: a dimension without a realCapability entry is one the cluster does not have (after
   fix 019e7c9 realCapability keeps every dimension of the cluster) - nothing can be handed out
   there beyond the guarantee.  The capacity plugin's deserved is configuration, so for it
   ([strict] = false) a missing entry is not judged here (law 111 judges it against the capability). *)
Definition law_bounds_q_gen (strict : bool) (D : nat) (o : obs) : bool :=
  alldims D (fun j =>
    let g := val0 (cnth (o_gua o) j) in
    let d := val0 (cnth (o_des o) j) in
    Qle_bool g (d + slack)
    && match cnth (o_rcap o) j with
       | None => negb strict || Qle_bool d (g + slack)
       | Some c => Qle_bool d (qmax g c + slack)
       end
    && Qle_bool d (qmax g (val0 (cnth (o_req o) j)) + slack)).
Definition law_bounds_q := law_bounds_q_gen true.
Definition law_bounds (D : nat) (os : list obs) : bool := negb (weights_pos os) || forallb (law_bounds_q D) os.
Definition law_bounds_lenient (D : nat) (os : list obs) : bool :=
  negb (weights_pos os) || forallb (law_bounds_q_gen false D) os.

Definition qsum (l : list Q) : Q := fold_right Qplus 0 l.

(* sum of deserved <= total + sum of guarantees, per dimension *)
Definition law_sum (D : nat) (total : vec) (os : list obs) : bool :=
  negb (weights_pos os) ||
  alldims D (fun j =>
    Qle_bool (qsum (map (fun o => val0 (cnth (o_des o) j)) os))
             (val0 (cnth total j) + qsum (map (fun o => val0 (cnth (o_gua o) j)) os) + slack)).

(* overused <-> deserved <= allocated (tolerance 0.1, missing dimension = 0) in every
   dimension of deserved; a value within 1e-4 of the tolerance boundary is not judged
   (the observation is rounded to 1e-6) *)
Definition near_boundary (D : nat) (o : obs) : bool :=
  negb (alldims D (fun j =>
    match cnth (o_des o) j with
    | None => true
    | Some x => Qle_bool (1 # 10000) (qabs (x - val0 (cnth (o_alloc o) j) - eps))
    end)).
Definition law_overused_q (D : nat) (o : obs) : bool :=
  near_boundary D o || Bool.eqb (o_over o) (vle_eps (o_des o) (o_alloc o)).
Definition law_overused (D : nat) (os : list obs) : bool := forallb (law_overused_q D) os.

(* equal request, realCapability and guarantee: the larger weight does not get less
   (up to the 0.1 with which a queue is declared satisfied) *)
Definition same_demand (a b : obs) : bool :=
  vdeq (o_gua a) (o_gua b) && vdeq (o_rcap a) (o_rcap b) && vdeq (o_req a) (o_req b).
Definition law_weight (D : nat) (os : list obs) : bool :=
  negb (weights_pos os) ||
  forallb (fun a => forallb (fun b =>
    if same_demand a b && Z.leb (o_w a) (o_w b)
    then alldims D (fun j => Qle_bool (val0 (cnth (o_des a) j)) (val0 (cnth (o_des b) j) + eps + slack))
    else true) os) os.

(* realCapability reserves the guarantees of all OTHER queues:
     realCapability_q <= max(0, total - totalGuarantee) + guarantee_q
                       = max(guarantee_q, total - sum_{q' <> q} guarantee_q')
   [tg] is recomputed by the harness from the Queue objects (every queue, whatever its state
   and whether or not it has jobs), not read from the plugin.  [unbounded = true]: a missing
   cell of [total] means "no bound" (hierarchical capacity: the parent inherits MaxFloat64). *)
Definition law_reserve (unbounded : bool) (D : nat) (total tg : vec) (os : list obs) : bool :=
  forallb (fun o => alldims D (fun j =>
    match cnth (o_rcap o) j with
    | None =>
      (* realCapability must have an entry in every dimension the cluster (or, in the hierarchy,
         the parent) has: a missing entry is read as "unbounded" by MinDimensionResource *)
      match cnth total j with Some _ => false | None => true end
    | Some c =>
      match cnth total j with
      | None => if unbounded then true
                else Qle_bool c (val0 (cnth (o_gua o) j) + slack)
      | Some t => Qle_bool c (qmax 0 (t - val0 (cnth tg j)) + val0 (cnth (o_gua o) j) + slack)
      end
    end)) os.

(* The real (float) loop finishes within K rounds.  Termination is NOT a theorem of the exact
   model (Props/C12.v: C12_exact_nontermination); the float loop leaves because a share below
   half an ulp of deserved no longer changes it.  K comes from that analysis: while m queues
   are unmet the heaviest of them holds >= 1/m of the weight, so the remaining amount of a
   dimension it absorbs shrinks by (1 - 1/m) per round and is absorbed after at most
   m * ln(range) rounds, range = 2^53 * largest amount * total weight (times 2^10 as margin); plus one
   round per queue leaving and per (queue, dimension) saturating. *)
Definition rounds_bound (D big : Z) (ws : list Z) : Z :=
  let n := Z.of_nat (length ws) in
  let W := fold_right Z.add 0%Z ws in
  let bits := (63 + Z.log2_up (Z.max big 2) + Z.log2_up (Z.max W 2))%Z in
  (n * (D + 2) + (n * (n + 1) / 2) * (bits * 7 / 10 + 1) + 2)%Z.
Definition law_rounds (D big rounds : Z) (ws : list Z) : bool :=
  negb (forallb (Z.ltb 0) ws) || Z.leb rounds (rounds_bound D big ws).

(* 108: two sessions opened over the same objects differ only in Go's map iteration order.
   In exact arithmetic the results are identical (C12_loop_pointwise); in float64 the
   accumulation order of increased/decreased differs, and a last-bit difference can flip a
   0.1-tolerance decision, so the shares may differ by up to that tolerance.  The law: every
   deserved value of the two runs agrees within 0.1 + slack, and the overused answers agree
   unless one of them is at the tolerance boundary. *)
Definition law_runs_agree (D : nat) (ab : list (obs * obs)) : bool :=
  forallb (fun p : obs * obs =>
    let (a, b) := p in
    alldims D (fun j => Qle_bool (qabs (val0 (cnth (o_des a) j) - val0 (cnth (o_des b) j))) (eps + slack))
    && (near_boundary D a || near_boundary D b || Bool.eqb (o_over a) (o_over b))) ab.

(* tolerant comparison of a model value with an observed one *)
Definition close (x y : Q) : bool :=
  Qle_bool (qabs (x - y)) ((2 # 1000000) + (1 # 1000000000) * qabs x).
Definition cclose (a b : cell) : bool :=
  match a, b with
  | None, None => true
  | Some x, Some y => close x y
  | _, _ => false
  end.
Definition vclose (D : nat) (a b : vec) : bool := alldims D (fun j => cclose (cnth a j) (cnth b j)).

(* 109: the literal clause "the result does not depend on iteration order" on the float
   implementation: two map orders give the same deserved values (within the 1e-6 resolution of
   the observation).  It was false on the real plugin (float64 sums accumulated in map order)
   until /repo fix 7b69dc3 made the loop visit the queues in sorted order; it is evaluated
   without sig or excuse.  Law 108 is the version with the 0.1 tolerance. *)
Definition law_runs_identical (D : nat) (ab : list (obs * obs)) : bool :=
  forallb (fun p : obs * obs =>
    let (a, b) := p in
    alldims D (fun j => close (val0 (cnth (o_des a) j)) (val0 (cnth (o_des b) j)))) ab.


(* 111: the property's own bound: in every dimension the cluster has, where the queue's capability
   is bounded (normalised: cpu/memory <= 0 and missing entries are unbounded) and not below its
   guarantee (the admission webhook's guard), deserved <= capability.  [caps] come from the Queue
   objects, not from the plugin. *)
Definition law_capability (D : nat) (total : vec) (qs : list (vec * vec * vec)) : bool :=
  forallb (fun q : vec * vec * vec =>
    let '(cap, g, d) := q in
    alldims D (fun j =>
      match cnth total j, cnth cap j with
      | Some _, Some y =>
          if Qle_bool (val0 (cnth g j)) y then Qle_bool (val0 (cnth d j)) (y + slack) else true
      | _, _ => true
      end)) qs.

(* 112 (no longer emitted since fix 7b69dc3; law 109 is now required outright): the former excuse
   of the finding C12/map-order-dependent-deserved, and nothing more: two
   map orders may give different deserved values only when the exact model classifies the case as
   not robust (some comparison of the loop within 1e-6 of its boundary, a cancellation after an
   inexact division, more than 30 rounds - there a last-bit difference can flip a decision) and
   the difference stays within the 0.1 satisfaction tolerance.  Any other difference is a
   violation of order independence that the finding does not explain. *)
Definition max_dev_ok (D : nat) (ab : list (obs * obs)) : bool :=
  forallb (fun p : obs * obs =>
    let (a, b) := p in
    alldims D (fun j => Qle_bool (qabs (val0 (cnth (o_des a) j) - val0 (cnth (o_des b) j))) eps)) ab.
Definition law_order_excused (D : nat) (robust_case : bool) (ab : list (obs * obs)) : bool :=
  law_runs_identical D ab || (negb robust_case && max_dev_ok D ab).
