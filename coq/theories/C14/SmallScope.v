(* C14 — incremental view = tree of the final objects = from-scratch view, for
   EVERY history (any length) of HyperNode add / update / delete events over a
   fixed small universe of objects whose intermediate object sets are all
   consistent forests.  Proved by computing the finite set of reachable
   (objects, view) configurations, checking that it is closed under every
   guarded event and that every member is good, and lifting by induction on
   the history.  The bound (the universe) is part of the statement. *)
From Coq Require Import ZArith List Bool FMapPositive.
From V Require Import C14.Model C14.Laws.
Import ListNotations.
Open Scope Z_scope.

Record cfg := mkCfg { c_objs : list hobj; c_st : st }.

Fixpoint set_obj (o : hobj) (objs : list hobj) : list hobj :=
  match objs with
  | [] => [o]
  | x :: r => match Pos.compare (o_name o) (o_name x) with
              | Lt => o :: objs | Eq => o :: r | Gt => x :: set_obj o r end
  end.
Definition del_obj (n : positive) (objs : list hobj) : list hobj :=
  filter (fun x => negb (Pos.eqb n (o_name x))) objs.

Definition cfg_eq_dec : forall a b : cfg, {a = b} + {a <> b}.
Proof. repeat decide equality. Defined.
Definition inb (c : cfg) (l : list cfg) : bool := existsb (fun x => if cfg_eq_dec c x then true else false) l.

Lemma inb_In c l : inb c l = true -> In c l.
Proof.
  unfold inb. rewrite existsb_exists. intros [x [Hin Hx]].
  destruct (cfg_eq_dec c x); [now subst|discriminate].
Qed.

(* Sets of configurations: buckets under a hash of the object list and of the
   names the view has entries for (the rest of the view is all but determined
   by these, so buckets are mostly singletons).  The hash only
   routes a lookup to its bucket; membership is decided by [inb] there, so
   nothing below depends on what [ckey] computes.  It appends bits and never
   multiplies: coqchk evaluates it with the kernel's lazy machine. *)
Fixpoint papp (p q : positive) : positive :=
  match q with xH => p | xO q => xO (papp p q) | xI q => xI (papp p q) end.
Definition mkey (m : member) : positive :=
  match m with MNode n => n~0~0 | MSel _ s => s~1 | MHyper h => h~1~0 end%positive.
Definition ckey (c : cfg) : positive :=
  fold_left (fun a x => papp a (fst x)) (s_hn (c_st c))
    (fold_left (fun a o => fold_left (fun a m => papp a (mkey m)) (o_members o)
                                     (papp (papp a (o_name o)~1) (Z.to_pos (o_tier o))))
               (c_objs c) 1%positive).

Definition cset := PositiveMap.t (list cfg).
Definition bucket (c : cfg) (S : cset) : list cfg :=
  match PositiveMap.find (ckey c) S with Some l => l | None => [] end.
Definition cmem (c : cfg) (S : cset) : bool := inb c (bucket c S).
Definition cadd (c : cfg) (S : cset) : cset := PositiveMap.add (ckey c) (c :: bucket c S) S.
Definition cset_of (V : list cfg) : cset := fold_right cadd (PositiveMap.empty _) V.

Lemma cmem_In c V : cmem c (cset_of V) = true -> In c V.
Proof.
  induction V as [|x V IH]; cbn [cset_of fold_right]; unfold cmem, bucket.
  - now rewrite PositiveMap.gempty.
  - unfold cadd. destruct (Pos.eq_dec (ckey c) (ckey x)) as [E|E].
    + rewrite E, PositiveMap.gss. cbn [inb existsb].
      destruct (cfg_eq_dec c x) as [->|_]; [now left|].
      intros H. right. apply IH. unfold cmem, bucket. now rewrite E.
    + rewrite PositiveMap.gso by exact E. intros H. right. now apply IH.
Qed.

Section Scope.
  Variable e : env.                 (* fixed lister content; exact-match members only *)
  Variable alphabet : list event.   (* the events of the universe *)

  Definition cstep (c : cfg) (ev : event) : cfg :=
    mkCfg (match ev with
           | EUpd o => set_obj o (c_objs c) | EDel n => del_obj n (c_objs c) | _ => c_objs c end)
          (snd (step (e, c_st c) ev)).

  (* the event keeps the object set a consistent forest *)
  Definition guard (c : cfg) (ev : event) : bool := forest_ok (c_objs (cstep c ev)).

  Definition good (c : cfg) : bool :=
    view_matches_spec e (c_objs c) (c_st c) && s_ready (c_st c) && negb (s_fuel (c_st c)) &&
    views_agree (c_objs c) (c_st c) (scratch e (c_objs c)).

  (* worklist search; [seen] holds what [acc] lists *)
  Fixpoint explore (fuel : nat) (frontier : list cfg) (seen : cset) (acc : list cfg) : list cfg :=
    match fuel, frontier with
    | S f, c :: rest =>
        let '(fr, sn, ac) :=
          fold_left (fun '(fr, sn, ac) ev =>
                       let d := cstep c ev in
                       if guard c ev && negb (cmem d sn) then (d :: fr, cadd d sn, d :: ac) else (fr, sn, ac))
                    alphabet (rest, seen, acc) in
        explore f fr sn ac
    | _, _ => acc
    end.

  Definition closed (V : list cfg) : bool :=
    let S := cset_of V in
    forallb (fun c => good c && forallb (fun ev => negb (guard c ev) || cmem (cstep c ev) S) alphabet) V.

  Fixpoint guards_along (c : cfg) (h : list event) : Prop :=
    match h with
    | [] => True
    | ev :: r => In ev alphabet /\ guard c ev = true /\ guards_along (cstep c ev) r
    end.

  Lemma closed_sound V : closed V = true -> forall h c, In c V -> guards_along c h ->
    good (fold_left cstep h c) = true.
  Proof.
    intros HV. unfold closed in HV. rewrite forallb_forall in HV.
    induction h as [|ev r IH]; intros c Hc Hg; simpl.
    - specialize (HV c Hc). apply andb_true_iff in HV. tauto.
    - destruct Hg as [Hin [Hgd Hr]].
      apply IH; [|exact Hr].
      specialize (HV c Hc). apply andb_true_iff in HV. destruct HV as [_ HV].
      rewrite forallb_forall in HV. specialize (HV ev Hin). rewrite Hgd in HV. simpl in HV.
      now apply cmem_In.
  Qed.
  Definition event_eq_dec : forall a b : event, {a = b} + {a <> b}.
  Proof. repeat decide equality. Defined.
  Fixpoint guards_b (c : cfg) (h : list event) : bool :=
    match h with
    | [] => true
    | ev :: r => existsb (fun x => if event_eq_dec ev x then true else false) alphabet &&
                 guard c ev && guards_b (cstep c ev) r
    end.
  Lemma guards_b_sound : forall h c, guards_b c h = true -> guards_along c h.
  Proof.
    induction h as [|ev r IH]; intros c H; simpl in *; [exact I|].
    apply andb_true_iff in H. destruct H as [H H3]. apply andb_true_iff in H. destruct H as [H1 H2].
    split; [|split; auto].
    apply existsb_exists in H1. destruct H1 as [x [Hin Hx]].
    destruct (event_eq_dec ev x); [now subst|discriminate].
  Qed.
End Scope.

(* ---------- the universe ---------- *)
(* nodes n1 n2 (both in the lister); HyperNodes h1 h2 (tier 1), h3 (tier 2), h4 (tier 3) *)
Definition u_env : env := mkEnv [1%positive; 2%positive] [].
Definition u_objs : list hobj :=
  [ mkObj 1 1 []; mkObj 1 1 [MNode 1]; mkObj 1 1 [MNode 1; MNode 2];
    mkObj 2 1 []; mkObj 2 1 [MNode 2];
    mkObj 3 2 []; mkObj 3 2 [MHyper 1]; mkObj 3 2 [MHyper 2]; mkObj 3 2 [MHyper 1; MHyper 2];
    mkObj 3 2 [MNode 1; MHyper 2];
    mkObj 4 3 []; mkObj 4 3 [MHyper 3]; mkObj 4 3 [MHyper 1]; mkObj 4 3 [MHyper 3; MHyper 2];
    mkObj 4 3 [MHyper 2; MNode 2] ]%positive.
Definition u_alphabet : list event :=
  map EUpd u_objs ++ [EDel 1; EDel 2; EDel 3; EDel 4]%positive.

Definition u_init : cfg := mkCfg [] init_st.
Definition reach (e : env) (alphabet : list event) : list cfg :=
  explore e alphabet 4000 [u_init] (cset_of [u_init]) [u_init].
Definition u_reach : list cfg := Eval vm_compute in reach u_env u_alphabet.

Lemma good_elim e c : good e c = true ->
  view_matches_spec e (c_objs c) (c_st c) = true /\
  s_ready (c_st c) = true /\ s_fuel (c_st c) = false /\
  views_agree (c_objs c) (c_st c) (scratch e (c_objs c)) = true.
Proof.
  unfold good. intros G.
  apply andb_true_iff in G. destruct G as [G G4].
  apply andb_true_iff in G. destruct G as [G G3].
  apply andb_true_iff in G. destruct G as [G1 G2].
  apply negb_true_iff in G3. auto.
Qed.

Lemma small_scope_generic e alphabet init V :
  closed e alphabet V && inb init V = true ->
  forall h, guards_along e alphabet init h -> good e (fold_left (cstep e) h init) = true.
Proof.
  intros HC h Hg. apply andb_true_iff in HC. destruct HC as [HC Hi].
  exact (closed_sound e alphabet V HC h init (inb_In _ _ Hi) Hg).
Qed.

Lemma u_reach_closed : closed u_env u_alphabet u_reach && inb u_init u_reach = true.
Proof. vm_compute. reflexivity. Qed.

Example small_scope_nonvacuous :
  guards_along u_env u_alphabet u_init
    [EUpd (mkObj 4 3 [MHyper 3]); EUpd (mkObj 3 2 [MHyper 1; MHyper 2]); EUpd (mkObj 1 1 [MNode 1]);
     EUpd (mkObj 2 1 [MNode 2]); EUpd (mkObj 3 2 [MHyper 1]); EUpd (mkObj 4 3 [MHyper 3; MHyper 2]);
     EDel 1; EUpd (mkObj 1 1 [MNode 1; MNode 2])]%positive.
Proof. apply guards_b_sound. vm_compute. reflexivity. Qed.
