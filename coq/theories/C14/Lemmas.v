(* C14 — proofs about the model of C14/Model.v. *)
From Coq Require Import ZArith List Bool.
From V Require Import C14.Model.
Import ListNotations.
Open Scope Z_scope.

(* ================= placement: tier bound of the gradient ================= *)

(* x is reachable from r through Children entries that have an info *)
Inductive reach (hn : list (positive * info)) : positive -> positive -> Prop :=
| reach_refl r : reach hn r r
| reach_step r y i c : reach hn r y -> aget y hn = Some i -> In c (i_children i) -> reach hn r c.

Lemma bfs_inv hn limit r : forall fuel queue enq acc l,
  (forall q, In q queue -> reach hn r q) ->
  (forall x t, In (x, t) acc -> t <= limit /\ tier_of hn x = Some t /\ reach hn r x) ->
  bfs hn limit fuel queue enq acc = GOk l ->
  forall x t, In (x, t) l -> t <= limit /\ tier_of hn x = Some t /\ reach hn r x.
Proof.
  induction fuel as [|f IH]; intros queue enq acc l Hq Hacc H; simpl in H; [discriminate|].
  destruct queue as [|cur q].
  - inversion H; subst. intros x t Hin. apply in_rev in Hin. auto.
  - destruct (aget cur hn) as [i|] eqn:Hc; [|discriminate].
    eapply IH; [| |exact H].
    + intros y Hy. apply in_app_or in Hy. destruct Hy as [Hy|Hy].
      * apply Hq. now right.
      * apply filter_In in Hy. destruct Hy as [Hy _].
        eapply reach_step; [apply Hq; now left|exact Hc|exact Hy].
    + intros x t Hin. destruct (Z.leb (i_tier i) limit) eqn:Hle.
      * destruct Hin as [Heq|Hin]; [|auto].
        inversion Heq; subst. split; [apply Z.leb_le; exact Hle|].
        split; [unfold tier_of; now rewrite Hc|apply Hq; now left].
      * auto.
Qed.

(* every HyperNode the gradient returns has tier <= limit and lies in the
   subtree (Children closure) of the search root *)
Theorem gradient_tier_bound : forall hn start limit alloc l,
  gradient hn start limit alloc = GOk l ->
  exists r, search_root hn start limit alloc = ROk r /\
    forall x t, In (x, t) l -> t <= limit /\ tier_of hn x = Some t /\ reach hn r x.
Proof.
  intros hn start limit alloc l H. unfold gradient in H.
  destruct (aget start hn); [|discriminate].
  destruct (search_root hn start limit alloc) as [| |r] eqn:Hr; try discriminate.
  exists r. split; [reflexivity|].
  eapply bfs_inv; [| |exact H].
  - intros q [<-|[]]. constructor.
  - intros x t [].
Qed.

Lemma highest_allowed_loop_spec hn limit : forall ancs best r,
  highest_allowed_loop hn limit ancs best = Some (Some r) ->
  (best = Some r) \/ (In r ancs /\ exists t, tier_of hn r = Some t /\ t <= limit).
Proof.
  induction ancs as [|a rest IH]; intros best r H; simpl in H.
  - left. now inversion H.
  - destruct (tier_of hn a) as [t|] eqn:Ht; [|discriminate].
    destruct (Z.ltb limit t) eqn:Hlt.
    + left. now inversion H.
    + apply IH in H. destruct H as [H|[Hin Hex]].
      * inversion H; subst. right. split; [now left|]. exists t. split; [exact Ht|].
        apply Z.ltb_ge in Hlt. exact Hlt.
      * right. split; [now right|exact Hex].
Qed.

(* with a prior allocation a, the search root is the start HyperNode or the
   highest allowed ancestor hha of a (an ancestor of a with tier <= limit), and
   the two are related by the LCA test of getSearchRoot *)
Theorem search_root_with_allocation : forall hn start limit a r,
  search_root hn start limit (Some a) = ROk r ->
  exists ancs hha t,
    get_ancestors hn a = Some ancs /\ In hha ancs /\ tier_of hn hha = Some t /\ t <= limit /\
    ((r = start /\ get_lca hn (Some start) (Some hha) = Some (Some hha)) \/
     (r = hha /\ get_lca hn (Some start) (Some hha) = Some (Some start))).
Proof.
  intros hn start limit a r H. unfold search_root in H.
  destruct (get_ancestors hn a) as [ancs|] eqn:Ha; [|discriminate].
  destruct (highest_allowed_loop hn limit ancs None) as [[hha|]|] eqn:Hh; try discriminate.
  apply highest_allowed_loop_spec in Hh. destruct Hh as [Hh|[Hin [t [Ht Hle]]]]; [discriminate|].
  destruct (get_lca hn (Some start) (Some hha)) as [l|] eqn:Hl; [|discriminate].
  exists ancs, hha, t. repeat split; auto.
  destruct l as [x|].
  - destruct (Pos.eqb x hha) eqn:E1.
    + apply Pos.eqb_eq in E1. subst x. inversion H; subst. left. auto.
    + destruct (Pos.eqb x start) eqn:E2; [|discriminate].
      apply Pos.eqb_eq in E2. subst x.
      destruct (aget hha hn); [|discriminate]. inversion H; subst. right. auto.
  - discriminate.
Qed.

(* ================= GetAncestors / GetLCAHyperNode on forests ================= *)
Lemma pmem_In x l : pmem x l = true <-> In x l.
Proof.
  induction l as [|y r IH]; simpl; [split; [discriminate|tauto]|].
  rewrite orb_true_iff, IH, Pos.eqb_eq. split; intros [H|H]; auto.
Qed.

(* the first match splits the list *)
Lemma find_first {A} (f : A -> bool) l x : find f l = Some x ->
  exists pre post, l = pre ++ x :: post /\ f x = true /\ forall y, In y pre -> f y = false.
Proof.
  induction l as [|a l IH]; simpl; [discriminate|]. destruct (f a) eqn:E.
  - intros [= <-]. exists [], l. split; [reflexivity|]. split; [exact E|intros y []].
  - intros H. destruct (IH H) as (pre & post & -> & Hx & Hpre). exists (a :: pre), post.
    split; [reflexivity|]. split; [exact Hx|]. intros y [<-|Hy]; auto.
Qed.

Section Par.
  Variable par : positive -> option positive.

  Fixpoint iter_par (n : nat) (x : positive) : option positive :=
    match n with
    | O => Some x
    | S k => match par x with Some p => iter_par k p | None => None end
    end.
  (* y is x or an ancestor of x *)
  Definition anc (x y : positive) : Prop := exists n, iter_par n x = Some y.

  Lemma anc_refl x : anc x x. Proof. now exists O. Qed.
  Lemma anc_par x p y : par x = Some p -> anc p y -> anc x y.
  Proof. intros Hp [n Hn]. exists (S n). simpl. now rewrite Hp. Qed.
  Lemma anc_trans x y z : anc x y -> anc y z -> anc x z.
  Proof.
    intros [n Hn]. revert x Hn. induction n as [|n IH]; intros x Hn Hyz; simpl in Hn.
    - now inversion Hn; subst.
    - destruct (par x) as [p|] eqn:Hp; [|discriminate]. eapply anc_par; eauto.
  Qed.

  (* l goes up from x: its head is the parent of x, each further element the parent of the one before *)
  Fixpoint path (x : positive) (l : list positive) : Prop :=
    match l with [] => True | y :: r => par x = Some y /\ path y r end.

  Lemma path_anc : forall l x y, path x l -> In y l -> anc x y.
  Proof.
    induction l as [|z r IH]; intros x y Hp Hy; [destruct Hy|]. destruct Hp as [Hz Hr].
    apply (anc_par x z y Hz). destruct Hy as [<-|Hy]; [apply anc_refl|now apply IH].
  Qed.

  Lemma path_app : forall l1 x y l2, path x (l1 ++ y :: l2) -> path y l2.
  Proof. induction l1 as [|z r IH]; intros x y l2 [_ Hr]; [exact Hr|exact (IH _ _ _ Hr)]. Qed.

  (* the walk appends to acc a path going up from cur *)
  Lemma anc_loop_path : forall fuel acc cur l,
    anc_loop par fuel acc cur = Some l -> exists ext, l = acc ++ ext /\ path cur ext.
  Proof.
    induction fuel as [|f IH]; intros acc cur l H; simpl in H; [discriminate|].
    destruct (par cur) as [p|] eqn:Hp.
    - destruct (pmem p acc).
      + inversion H; subst. exists []. now rewrite app_nil_r.
      + apply IH in H. destruct H as [ext [-> Hext]]. exists (p :: ext).
        rewrite <- app_assoc. split; [reflexivity|]. split; assumption.
    - inversion H; subst. exists []. now rewrite app_nil_r.
  Qed.

  Lemma ancestors_path fuel x l :
    ancestors_gen par fuel x = Some l -> exists ext, l = x :: ext /\ path x ext.
  Proof. exact (anc_loop_path fuel [x] x l). Qed.

  Theorem ancestors_sound : forall fuel x l y,
    ancestors_gen par fuel x = Some l -> In y l -> anc x y.
  Proof.
    intros fuel x l y H Hin. apply ancestors_path in H. destruct H as [ext [-> Hp]].
    destruct Hin as [<-|Hin]; [apply anc_refl|exact (path_anc ext x y Hp Hin)].
  Qed.

  (* each element's later elements are its ancestors *)
  Lemma ancestors_ordered : forall fuel x l pre y post,
    ancestors_gen par fuel x = Some l -> l = pre ++ y :: post -> forall z, In z post -> anc y z.
  Proof.
    intros fuel x l pre y post H E z Hz. apply ancestors_path in H. destruct H as [ext [-> Hp]].
    apply (path_anc post); [|exact Hz].
    destruct pre as [|q pre]; simpl in E; inversion E; subst; [exact Hp|exact (path_app _ _ _ _ Hp)].
  Qed.

  (* completeness: the walk stops only at a root or at a repetition *)
  Lemma anc_loop_complete : forall fuel acc cur l,
    anc_loop par fuel acc cur = Some l -> In cur acc ->
    (forall y, In y acc -> forall p, par y = Some p -> In p acc \/ y = cur) ->
    forall y, In y l -> forall p, par y = Some p -> In p l.
  Proof.
    induction fuel as [|f IH]; intros acc cur l H Hcur Hclosed; simpl in H; [discriminate|].
    destruct (par cur) as [p|] eqn:Hp.
    - destruct (pmem p acc) eqn:Hm.
      + inversion H; subst. intros y Hy q Hq. destruct (Hclosed y Hy q Hq) as [?| ->]; auto.
        rewrite Hp in Hq. inversion Hq; subst. now apply pmem_In.
      + eapply IH; [exact H|apply in_or_app; right; now left|].
        intros y Hy q Hq. apply in_app_or in Hy. destruct Hy as [Hy|[<-|[]]]; [|now right].
        left. apply in_or_app. destruct (Hclosed y Hy q Hq) as [?| ->]; [now left|].
        rewrite Hp in Hq. inversion Hq; subst. right. now left.
    - inversion H; subst. intros y Hy q Hq. destruct (Hclosed y Hy q Hq) as [?| ->]; auto.
      rewrite Hp in Hq. discriminate.
  Qed.

  Theorem ancestors_complete : forall fuel x l y,
    ancestors_gen par fuel x = Some l -> anc x y -> In y l.
  Proof.
    intros fuel x l y H [n Hn].
    assert (Hx : In x l) by (destruct (ancestors_path _ _ _ H) as [ext [-> _]]; now left).
    assert (Hcl : forall z, In z l -> forall p, par z = Some p -> In p l).
    { eapply anc_loop_complete; [exact H|now left|].
      intros z [<-|[]] p _. now right. }
    clear H. revert x Hx Hn. induction n as [|n IH]; intros x Hx Hn; simpl in Hn.
    - now inversion Hn; subst.
    - destruct (par x) as [p|] eqn:Hp; [|discriminate]. eapply IH; [|exact Hn]. eauto.
  Qed.

  (* GetLCAHyperNode: the answer is a common ancestor-or-self, every common one
     is an ancestor-or-self of the answer, and the answer is "" iff there is none *)
  Theorem lca_correct : forall fuel a b r,
    lca_gen par fuel (Some a) (Some b) = Some r ->
    match r with
    | Some x => anc a x /\ anc b x /\ forall c, anc a c -> anc b c -> anc x c
    | None => forall c, anc a c -> anc b c -> False
    end.
  Proof.
    intros fuel a b r H. unfold lca_gen in H.
    destruct (ancestors_gen par fuel a) as [la|] eqn:Ha; [|discriminate].
    destruct (ancestors_gen par fuel b) as [lb|] eqn:Hb; [|discriminate].
    inversion H; subst; clear H. unfold lca_lists.
    assert (Hcommon : forall c, anc a c -> anc b c -> pmem c la = true /\ In c lb).
    { intros c Hac Hbc. split; [apply pmem_In|]; eapply ancestors_complete; eauto. }
    destruct (find (fun x => pmem x la) lb) as [x|] eqn:Hf.
    - (* x is the first element of lb that is in la: a common ancestor is x or comes later in lb *)
      apply find_first in Hf. destruct Hf as (pre & post & E & Hm & Hpre). apply pmem_In in Hm.
      split; [eapply ancestors_sound; eauto|].
      split; [eapply ancestors_sound; [exact Hb|rewrite E; apply in_elt]|].
      intros c Hac Hbc. destruct (Hcommon c Hac Hbc) as [Hca Hcb].
      rewrite E in Hcb. apply in_app_or in Hcb. destruct Hcb as [Hc|[<-|Hc]].
      + rewrite (Hpre c Hc) in Hca. discriminate.
      + apply anc_refl.
      + eapply ancestors_ordered; eauto.
    - intros c Hac Hbc. destruct (Hcommon c Hac Hbc) as [Hca Hcb].
      eapply find_none in Hf; [|exact Hcb]. simpl in Hf. congruence.
  Qed.
End Par.

(* the two error sources of BuildHyperNodeCache: a name already on the ancestor chain
   (cycle) and a member that already has another parent (double claim) *)
Lemma build_cycle_errors : forall f e s nm processed chain ancset,
  pmem nm chain = true -> build (S f) e s nm processed chain ancset = (s, processed, true).
Proof. intros. simpl. now rewrite H. Qed.

Lemma add_child_second_parent_errors : forall s parent c i p,
  aget c (s_hn s) = Some i -> i_parent i = Some p -> p <> parent ->
  add_child s parent c = (s, true).
Proof.
  intros s parent c i p Hc Hp Hne. unfold add_child. rewrite Hc. unfold add_child_prefix. rewrite Hc. rewrite Hc, Hp.
  destruct (Pos.eqb p parent) eqn:E; [apply Pos.eqb_eq in E; contradiction|reflexivity].
Qed.

Lemma In_snoc {A} (x y : A) l : In x (l ++ [y]) <-> In x l \/ y = x.
Proof. rewrite in_app_iff. simpl. tauto. Qed.

(* a fold keeps what every step keeps *)
Lemma fold_left_inv {A B} (P : A -> Prop) (f : A -> B -> A) :
  (forall a x, P a -> P (f a x)) -> forall l a, P a -> P (fold_left f l a).
Proof. intros H. induction l as [|x l IH]; intros a Ha; simpl; auto. Qed.
