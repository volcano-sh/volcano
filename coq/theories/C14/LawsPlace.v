(* C14 — the laws on the binds of a real allocate action: placement, recorded AllocatedHyperNode
   (two readings), no bind on a view that is not ready, no bind under an unknown tier name
   (kept apart from Laws.v so that the small-scope proofs do not depend on them). *)
From Coq Require Import ZArith List Bool.
From V Require Import C14.Model.
Import ListNotations.
Open Scope Z_scope.

(* placements of a hard-mode job / sub-job after a real allocate action.
   [nodes] = nodes of its allocated + bound + already running pods.  They all lie in
   the leaf set of ONE HyperNode of tier <= limit ([law_placement]; its argument [recorded]
   is not looked at: what is asked of the record is [law_recorded]). *)
Definition covers (real : list (positive * list positive)) (h : positive) (nodes : list positive) : bool :=
  match aget h real with
  | Some l => forallb (fun n => pmem n l) nodes
  | None => match nodes with [] => true | _ => false end
  end.
Definition law_placement (hn : list (positive * info)) (real : list (positive * list positive))
           (limit : Z) (recorded : option positive) (nodes : list positive) : bool :=
  match nodes with
  | [] => true
  | _ => existsb (fun ki => Z.leb (i_tier (snd ki)) limit && covers real (fst ki) nodes) hn
  end.

(* the recorded AllocatedHyperNode covers every placement and respects the limit *)
Definition law_recorded (hn : list (positive * info)) (real : list (positive * list positive))
           (limit : Z) (recorded : option positive) (nodes : list positive) : bool :=
  match nodes, recorded with
  | [], _ | _, None => true
  | _, Some r => covers real r nodes &&
                 match aget r hn with Some i => Z.leb (i_tier i) limit | None => false end
  end.

(* the property text's reading — the recorded AllocatedHyperNode is the LOWEST HyperNode
   that holds every placement (no HyperNode of a lower tier does).  The code records the LCA of
   the chosen DOMAINS instead (finding D11), so this law is expected to fail when a domain
   wider than the placements was chosen. *)
Definition law_recorded_lowest (hn : list (positive * info)) (real : list (positive * list positive))
           (recorded : option positive) (nodes : list positive) : bool :=
  match nodes, recorded with
  | [], _ | _, None => true
  | _, Some r =>
      match aget r hn with
      | None => false
      | Some ir => forallb (fun ki => negb (covers real (fst ki) nodes) || Z.leb (i_tier ir) (i_tier (snd ki))) hn
      end
  end.

(* a view that is not ready is not scheduled on: no pod of a job that has any hard topology
   constraint (job level or sub-group level) is bound in such a session *)
Definition law_not_ready_no_bind (not_ready : bool) (new_binds : Z) : bool :=
  implb not_ready (Z.eqb new_binds 0).

(* a hard limit the scheduler cannot interpret (tier name that no HyperNode carries) must
   not be dropped silently: no pod of such a job / sub-group is bound (finding D13) *)
Definition law_unknown_name_no_bind (unknown : bool) (binds : Z) : bool :=
  implb unknown (Z.eqb binds 0).

(* ---------- what the placement laws mean ---------- *)
Lemma covers_sound real h nodes : covers real h nodes = true ->
  nodes = [] \/ exists l, aget h real = Some l /\ forall n, In n nodes -> In n l.
Proof.
  unfold covers. destruct (aget h real) as [l|].
  - intros H. right. exists l. split; [reflexivity|]. intros n Hn.
    rewrite forallb_forall in H. specialize (H n Hn).
    clear -H. induction l as [|y r IH]; simpl in H; [discriminate|].
    apply orb_true_iff in H. destruct H as [H|H]; [apply Pos.eqb_eq in H; now left|right; auto].
  - destruct nodes; [now left|discriminate].
Qed.

