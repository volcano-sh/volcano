(* C14 — the view half and the placement half composed: on the view built from a forest
   (leaf-first arrival), every HyperNode that hyperNodeGradientFn offers to a hard-mode job has
   tier <= limit and its leaf set is contained in the leaf set of the search root; with a prior
   allocation a, in the leaf set of ONE HyperNode H of tier <= limit that also contains the leaf
   set of a — unless H is the cluster top, of which nothing more is claimed. *)
From Coq Require Import ZArith List Bool.
From V Require Import C14.Model C14.Laws C14.Lemmas C14.Scratch.
Import ListNotations.
Open Scope Z_scope.

Lemma hchildren_In ms c : In c (hchildren ms) <-> In (MHyper c) ms.
Proof.
  unfold hchildren.
  assert (G : forall ms acc, In c (fold_left (fun acc m => match m with MHyper h => pins h acc | _ => acc end) ms acc)
                             <-> In c acc \/ In (MHyper c) ms).
  { induction ms0 as [|m r IH]; intros acc; simpl; [intuition|].
    rewrite IH. destruct m as [n|l sl|h]; try (intuition; discriminate).
    rewrite pins_In. split.
    - intros [[->|H]|H]; auto.
    - intros [H|[H|H]]; auto. inversion H; auto. }
  rewrite G. simpl. intuition.
Qed.

Lemma aget_map {A B} (g : positive * A -> positive * B) k l :
  (forall ka, fst (g ka) = fst ka) ->
  aget k (map g l) = match aget k l with Some a => Some (snd (g (k, a))) | None => None end.
Proof.
  intros Hg. induction l as [|[k' a'] r IH]; simpl; [reflexivity|].
  specialize (Hg (k', a')). destruct (g (k', a')) as [k2 b] eqn:E. simpl in Hg. subst k2.
  destruct (Pos.eqb k k') eqn:Ek; [|exact IH]. apply Pos.eqb_eq in Ek. subst k'. now rewrite E.
Qed.

(* entries of the session map: those of the view, roots re-parented to the cluster top *)
Lemma add_top_entry s k : k <> top_name ->
  aget k (add_top s) =
  match aget k (s_hn s) with
  | Some i => Some (match i_parent i with None => with_parent (Some top_name) i | Some _ => i end)
  | None => None
  end.
Proof.
  intros Hk. unfold add_top. rewrite aget_aset_ne by exact Hk.
  rewrite aget_map by (intros [k' i']; simpl; destruct (i_parent i'); reflexivity).
  destruct (aget k (s_hn s)) as [i|]; [|reflexivity]. simpl. destruct (i_parent i); reflexivity.
Qed.

Section OnForest.
  Variable e : env.
  Variable P : list hobj.
  Hypothesis HP : leaf_first P.
  Hypothesis Htop : find_obj P top_name = None.

  Let s := scratch e P.
  Let hn := add_top s.

  Lemma rep : Rep s P.
  Proof. exact (scratch_leaf_first e P HP). Qed.

  (* children in the session map = claimed members, for every HyperNode but the top *)
  Lemma session_children k i : k <> top_name -> aget k hn = Some i ->
    exists o, find_obj P k = Some o /\ i_children i = hchildren (o_members o) /\ i_tier i = o_tier o.
  Proof.
    intros Hk Hi. unfold hn in Hi. rewrite add_top_entry in Hi by exact Hk.
    rewrite (rep_hn _ _ rep) in Hi. destruct (find_obj P k) as [o|]; [|discriminate].
    exists o. split; [reflexivity|].
    destruct (spec_parent P k); inversion Hi; subst; simpl; auto.
  Qed.

  (* Children-reachability inside the session map implies leaf-set containment *)
  Lemma reach_contains r x : reach hn r x -> r <> top_name ->
    x <> top_name /\ forall n, leaf_below P x n -> leaf_below P r n.
  Proof.
    intros H Hr. induction H as [r|r y i c Hry IH Hy Hc].
    - split; [exact Hr|auto].
    - destruct (IH Hr) as [Hyt Hsub].
      destruct (session_children y i Hyt Hy) as [o [Ho [Hch _]]].
      rewrite Hch in Hc. apply hchildren_In in Hc.
      assert (Hcex : find_obj P c <> None).
      { apply find_obj_some in Ho. destruct Ho as [Hin _].
        apply (rep_closed _ _ rep o c Hin). now apply claims_In. }
      split; [intro; subst c; contradiction|].
      intros n Hn. apply Hsub. eapply lb_child; eauto.
  Qed.

  (* placement without a prior allocation: every offered HyperNode has tier <= limit and its
     nodes are nodes of the HyperNode the search started from *)
  Theorem gradient_on_forest_no_allocation : forall start limit l x t,
    start <> top_name ->
    gradient hn start limit None = GOk l -> In (x, t) l ->
    t <= limit /\ tier_of hn x = Some t /\
    forall n, In n (real_get s x) -> In n (real_get s start).
  Proof.
    intros start limit l x t Hst Hg Hin.
    destruct (gradient_tier_bound hn start limit None l Hg) as [r [Hr Hall]].
    simpl in Hr. inversion Hr; subst r.
    destruct (Hall x t Hin) as (H1 & H2 & H3). split; [exact H1|]. split; [exact H2|].
    destruct (reach_contains start x H3 Hst) as [_ Hsub].
    intros n Hn. apply (rep_real _ _ rep). apply Hsub. now apply (rep_real _ _ rep).
  Qed.

  (* ---------- the Parent walk of the session map ---------- *)
  Lemma session_entries ki : In ki hn ->
    ki = (top_name, match aget top_name hn with Some i => i | None => snd ki end) \/
    exists o, find_obj P (fst ki) = Some o /\ i_members (snd ki) = o_members o.
  Proof.
    intros Hin. unfold hn, add_top in Hin. apply In_aset in Hin. destruct Hin as [->|Hin].
    - left. unfold hn, add_top. now rewrite aget_aset_eq.
    - right. apply in_map_iff in Hin. destruct Hin as [[k0 i0] [Heq Hin0]].
      destruct (Rep_In s P k0 i0 rep Hin0) as [o [Eo ->]]. exists o. simpl in Heq.
      destruct (spec_parent P k0); inversion Heq; subst; simpl; auto.
  Qed.

  Lemma nobody_claims k : find_obj P k = None -> get_parent hn k = None.
  Proof.
    intros Hk. unfold get_parent. rewrite find_all_false; [reflexivity|].
    intros ki Hin. destruct (session_entries ki Hin) as [Ht|[o [Ho Hm]]].
    - rewrite Ht. simpl. unfold hn, add_top. rewrite aget_aset_eq. simpl. apply andb_false_r.
    - rewrite Hm. destruct (claims (o_members o) k) eqn:Ec; [|apply andb_false_r].
      exfalso. apply find_obj_some in Ho. destruct Ho as [Hin' _].
      exact (rep_closed _ _ rep o k Hin' Ec Hk).
  Qed.

  Lemma top_is_root : parent_of hn top_name = None.
  Proof.
    unfold parent_of. unfold hn at 1, add_top. rewrite aget_aset_eq. simpl. now apply nobody_claims.
  Qed.

  Lemma parent_cases k p : parent_of hn k = Some p ->
    exists o, find_obj P k = Some o /\ k <> top_name /\
              (spec_parent P k = Some p \/ (spec_parent P k = None /\ p = top_name)).
  Proof.
    intros H. destruct (Pos.eq_dec k top_name) as [->|Hk]; [rewrite top_is_root in H; discriminate|].
    unfold parent_of in H. unfold hn at 1 in H. rewrite add_top_entry in H by exact Hk.
    rewrite (rep_hn _ _ rep) in H. destruct (find_obj P k) as [o|] eqn:Eo.
    - exists o. split; [reflexivity|]. split; [exact Hk|].
      destruct (spec_parent P k) as [q|]; simpl in H; inversion H; subst; auto.
    - rewrite (nobody_claims k Eo) in H. discriminate.
  Qed.

  Lemma iter_top n h : iter_par (parent_of hn) n top_name = Some h -> h = top_name.
  Proof. destruct n; simpl; [now inversion 1|]. rewrite top_is_root. discriminate. Qed.

  (* an ancestor (Parent walk) other than the cluster top holds every node of its descendants *)
  Lemma anc_contains : forall n k h, iter_par (parent_of hn) n k = Some h ->
    h = top_name \/ forall x, leaf_below P k x -> leaf_below P h x.
  Proof.
    induction n as [|n IH]; intros k h H; simpl in H.
    - inversion H; subst. now right.
    - destruct (parent_of hn k) as [p|] eqn:Ep; [|discriminate].
      destruct (parent_cases k p Ep) as [o [Ho [Hk [Hsp|[Hsp ->]]]]].
      + destruct (IH p h H) as [->|Hsub]; [now left|right].
        intros x Hx. apply Hsub.
        apply (lf_parent P HP) in Hsp. destruct Hsp as [op [Hin [Hn Hc]]].
        assert (Hop : find_obj P p = Some op) by (apply (lf_find P HP); auto).
        apply (lb_child P p op k x Hop); [apply (proj1 (claims_In _ _)); exact Hc|exact Hx].
      + left. now apply (iter_top n).
  Qed.

  (* placement with a prior allocation a: every offered HyperNode x has tier <= limit, and
     there is ONE HyperNode H of tier <= limit whose leaf set holds the nodes of x and the
     nodes of a, or H is the cluster top (no leaf set is recorded for it, nothing more is claimed) *)
  Theorem gradient_on_forest_with_allocation : forall start limit a l x t,
    gradient hn start limit (Some a) = GOk l -> In (x, t) l ->
    t <= limit /\
    exists H tH, tier_of hn H = Some tH /\ tH <= limit /\
      (H = top_name \/
       ((forall n, In n (real_get s x) -> In n (real_get s H)) /\
        (forall n, In n (real_get s a) -> In n (real_get s H)))).
  Proof.
    intros start limit a l x t Hg Hin.
    destruct (gradient_tier_bound hn start limit (Some a) l Hg) as [r [Hr Hall]].
    destruct (Hall x t Hin) as (H1 & _ & H3). split; [exact H1|].
    destruct (search_root_with_allocation hn start limit a r Hr)
      as [ancs [hha [tH [Ha [Hin' [Ht [Hle Hcase]]]]]]].
    exists hha, tH. split; [exact Ht|]. split; [exact Hle|].
    assert (Haa : anc (parent_of hn) a hha).
    { unfold get_ancestors in Ha. eapply ancestors_sound; eauto. }
    destruct Haa as [n Hn]. destruct (anc_contains n a hha Hn) as [->|Hsuba]; [now left|].
    destruct (Pos.eq_dec hha top_name) as [->|Hht]; [now left|]. right.
    assert (Hx : forall z, leaf_below P x z -> leaf_below P hha z).
    { destruct Hcase as [[-> Hl]|[-> Hl]].
      - (* the root is the start HyperNode, which lies under hha *)
        pose proof (lca_correct (parent_of hn) (anc_fuel hn) start hha (Some hha) Hl) as (A1 & _ & _).
        destruct A1 as [m Hm]. destruct (anc_contains m start hha Hm) as [->|Hsub]; [contradiction|].
        destruct (Pos.eq_dec start top_name) as [->|Hst].
        + apply iter_top in Hm. contradiction.
        + destruct (reach_contains start x H3 Hst) as [_ Hs]. auto.
      - destruct (reach_contains hha x H3 Hht) as [_ Hs]. exact Hs. }
    split; intros z Hz; apply (rep_real _ _ rep); [apply Hx|apply Hsuba]; now apply (rep_real _ _ rep).
  Qed.
End OnForest.
