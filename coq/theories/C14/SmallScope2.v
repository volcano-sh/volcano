(* C14 — a second universe for the small-scope theorem of SmallScope.v: a
   four-tier chain h1 < h2 < h3 < h4 plus a second leaf h5 that can hang under
   h2, h3 or h4 (re-parenting across tiers, dangling members, deletes). *)
From Coq Require Import ZArith List Bool.
From V Require Import C14.Model C14.Laws C14.SmallScope.
Import ListNotations.
Open Scope Z_scope.

Definition v_env : env := mkEnv [1%positive; 2%positive] [].
Definition v_objs : list hobj :=
  [ mkObj 1 1 []; mkObj 1 1 [MNode 1];
    mkObj 5 1 [MNode 2];
    mkObj 2 2 []; mkObj 2 2 [MHyper 1]; mkObj 2 2 [MHyper 1; MHyper 5];
    mkObj 3 3 []; mkObj 3 3 [MHyper 2]; mkObj 3 3 [MHyper 2; MHyper 5];
    mkObj 4 4 []; mkObj 4 4 [MHyper 3]; mkObj 4 4 [MHyper 3; MHyper 5] ]%positive.
Definition v_alphabet : list event :=
  map EUpd v_objs ++ [EDel 1; EDel 2; EDel 3; EDel 4; EDel 5]%positive.
Definition v_reach : list cfg := Eval vm_compute in reach v_env v_alphabet.

Lemma v_reach_closed : closed v_env v_alphabet v_reach && inb u_init v_reach = true.
Proof. vm_compute. reflexivity. Qed.
