(* C14 — unbounded theorem: building the view from scratch, for EVERY consistent forest
   with exact-match members whose objects arrive leaf-first (every HyperNode member of an
   object has arrived before it and is not yet claimed), yields the tree derived from the
   objects: parent / children / tier of every HyperNode, realNodes(h) = the node members
   at or below h, tier sets, Ready.  Induction over the arrival order; no bound on the
   number of HyperNodes, tiers or members.  Before it the lookups of the sorted-list maps and
   the update of a new name as the member loop of BuildHyperNodeCache; after it the lemmas by
   which two leaf-first orders of the same objects give the same view. *)
From Coq Require Import ZArith List Bool Sorted Permutation.
From V Require Import C14.Model C14.Laws C14.Lemmas.
Import ListNotations.
Open Scope Z_scope.

(* ---------- lookups in the sorted-list maps (hold for arbitrary lists) ---------- *)
Lemma aget_aset {A} k k' (v : A) l : aget k (aset k' v l) = if Pos.eqb k k' then Some v else aget k l.
Proof.
  induction l as [|[k2 a2] r IH]; simpl; [reflexivity|].
  destruct (Pos.compare_spec k' k2) as [<-|Hlt|Hgt]; simpl.
  - now destruct (Pos.eqb k k').
  - reflexivity.
  - rewrite IH. destruct (Pos.eqb_spec k k2) as [->|_]; [|reflexivity].
    destruct (Pos.eqb_spec k2 k') as [->|_]; [|reflexivity]. now apply Pos.lt_irrefl in Hgt.
Qed.

Lemma aget_aset_eq {A} k (v : A) l : aget k (aset k v l) = Some v.
Proof. now rewrite aget_aset, Pos.eqb_refl. Qed.

Lemma aget_aset_ne {A} k k' (v : A) l : k <> k' -> aget k (aset k' v l) = aget k l.
Proof. intros H. apply Pos.eqb_neq in H. now rewrite aget_aset, H. Qed.

Lemma aget_adel {A} k k' (l : list (positive * A)) :
  aget k (adel k' l) = if Pos.eqb k' k then None else aget k l.
Proof.
  unfold adel. induction l as [|[k2 a2] r IH]; simpl; [now destruct (Pos.eqb k' k)|].
  destruct (Pos.eqb k' k2) eqn:E2; simpl.
  - apply Pos.eqb_eq in E2. subst k2. rewrite IH.
    destruct (Pos.eqb k' k) eqn:E; [reflexivity|].
    rewrite Pos.eqb_sym in E. now rewrite E.
  - rewrite IH. destruct (Pos.eqb k k2) eqn:E3; [|reflexivity].
    apply Pos.eqb_eq in E3. subst k2. now rewrite E2.
Qed.

Lemma pins_In x y l : In x (pins y l) <-> x = y \/ In x l.
Proof.
  induction l as [|z r IH]; simpl; [intuition|].
  destruct (Pos.compare y z) eqn:E; simpl.
  - apply Pos.compare_eq in E. subst. intuition.
  - intuition.
  - rewrite IH. intuition.
Qed.

Lemma In_aset {A} k (v : A) l x : In x (aset k v l) -> x = (k, v) \/ In x l.
Proof.
  induction l as [|[k' a'] r IH]; simpl; [intuition|].
  destruct (Pos.compare k k'); simpl; intuition.
Qed.

Lemma punion_In x a b : In x (punion a b) <-> In x a \/ In x b.
Proof.
  unfold punion. revert a. induction b as [|y r IH]; intros a; simpl; [intuition|].
  rewrite IH, pins_In. intuition.
Qed.

(* keys strictly ascending: every entry is the one its key looks up *)
Definition ksorted {A} (l : list (positive * A)) : Prop :=
  StronglySorted (fun a b => Pos.lt (fst a) (fst b)) l.

Lemma aset_sorted {A} k (v : A) l : ksorted l -> ksorted (aset k v l).
Proof.
  unfold ksorted. induction l as [|[k' a'] r IH]; intros Hs; simpl.
  - constructor; constructor.
  - inversion Hs as [|x y Hr Hall]; subst.
    destruct (Pos.compare k k') eqn:E.
    + apply Pos.compare_eq in E. subst k'. constructor; assumption.
    + apply Pos.compare_lt_iff in E. constructor; [exact Hs|]. constructor; [exact E|].
      eapply Forall_impl; [|exact Hall]. intros b Hb. simpl in *. now apply (Pos.lt_trans _ k').
    + apply Pos.compare_gt_iff in E. constructor; [now apply IH|].
      rewrite Forall_forall. intros x Hx. apply In_aset in Hx. destruct Hx as [->|Hx]; [exact E|].
      rewrite Forall_forall in Hall. now apply Hall.
Qed.

Lemma sorted_In_aget {A} k (v : A) l : ksorted l -> In (k, v) l -> aget k l = Some v.
Proof.
  unfold ksorted. induction l as [|[k' a'] r IH]; intros Hs Hin; [destruct Hin|].
  inversion Hs as [|x y Hr Hall]; subst. simpl. destruct Hin as [Heq|Hin].
  - inversion Heq; subst. now rewrite Pos.eqb_refl.
  - rewrite Forall_forall in Hall. specialize (Hall _ Hin). simpl in Hall.
    assert (Hne : Pos.eqb k k' = false) by (apply Pos.eqb_neq; intro; subst; now apply Pos.lt_irrefl in Hall).
    rewrite Hne. now apply IH.
Qed.

(* ---------- state accessors under the elementary updates ---------- *)
Lemma hn_upd_info s k f k' :
  aget k' (s_hn (upd_info s k f)) =
  if Pos.eqb k' k then match aget k (s_hn s) with Some i => Some (f i) | None => None end
  else aget k' (s_hn s).
Proof.
  unfold upd_info. destruct (aget k (s_hn s)) as [i|] eqn:E; [apply aget_aset|].
  destruct (Pos.eqb_spec k' k) as [->|_]; [exact E|reflexivity].
Qed.

Lemma upd_info_sorted s k f : ksorted (s_hn s) -> ksorted (s_hn (upd_info s k f)).
Proof.
  intros H. unfold upd_info. destruct (aget k (s_hn s)); [|exact H].
  unfold set_hn. simpl. now apply aset_sorted.
Qed.

Lemma upd_info_other s k f :
  s_real (upd_info s k f) = s_real s /\ s_tier (upd_info s k f) = s_tier s /\
  s_ready (upd_info s k f) = s_ready s /\ s_failed (upd_info s k f) = s_failed s /\
  s_fuel (upd_info s k f) = s_fuel s.
Proof. unfold upd_info. destruct (aget k (s_hn s)); unfold set_hn; simpl; auto. Qed.

Lemma real_union_spec s k l :
  s_hn (real_union s k l) = s_hn s /\ s_tier (real_union s k l) = s_tier s /\
  s_ready (real_union s k l) = s_ready s /\ s_failed (real_union s k l) = s_failed s /\
  s_fuel (real_union s k l) = s_fuel s /\
  (forall k', k' <> k -> aget k' (s_real (real_union s k l)) = aget k' (s_real s)) /\
  (forall n, In n (real_get (real_union s k l) k) <-> In n (real_get s k) \/ In n l).
Proof.
  unfold real_union, set_real. simpl.
  do 5 (split; [reflexivity|]). split.
  - intros k' Hne. now apply aget_aset_ne.
  - intros n. unfold real_get at 1. simpl. rewrite aget_aset_eq. apply punion_In.
Qed.

(* a member that is not on the ancestor chain is skipped by BuildHyperNodeCache *)
Lemma build_skip f e s c processed chain ancset :
  pmem c chain = false -> pmem c processed = false -> pmem c ancset = false ->
  build (S f) e s c processed chain ancset = (s, processed, false).
Proof. intros H1 H2 H3. simpl. now rewrite H1, H2, H3. Qed.

(* ---------- addChild on a member that exists and is free (or already ours) ---------- *)
Lemma add_child_ok s nm c ic :
  c <> nm -> aget c (s_hn s) = Some ic -> (i_parent ic = None \/ i_parent ic = Some nm) ->
  exists s', add_child s nm c = (s', false) /\
    (forall k, aget k (s_hn s') =
       if Pos.eqb k nm then match aget nm (s_hn s) with
                            | Some i => Some (with_children (pins c (i_children i)) i) | None => None end
       else if Pos.eqb k c then Some (with_parent (Some nm) ic) else aget k (s_hn s)) /\
    s_real s' = s_real s /\ s_tier s' = s_tier s /\ s_ready s' = s_ready s /\
    s_failed s' = s_failed s /\ s_fuel s' = s_fuel s /\
    (ksorted (s_hn s) -> ksorted (s_hn s')).
Proof.
  intros Hne Hc Hp. unfold add_child. rewrite Hc. unfold add_child_prefix. rewrite Hc. rewrite Hc.
  assert (Hcn : Pos.eqb c nm = false) by now apply Pos.eqb_neq.
  assert (Hnc : Pos.eqb nm c = false) by (rewrite Pos.eqb_sym; exact Hcn).
  destruct Hp as [Hp|Hp]; rewrite Hp.
  - eexists. split; [reflexivity|]. split.
    + intros k. rewrite hn_upd_info. destruct (Pos.eqb k nm) eqn:E.
      * rewrite hn_upd_info, Hnc. reflexivity.
      * rewrite hn_upd_info. destruct (Pos.eqb k c); [now rewrite Hc|reflexivity].
    + pose proof (upd_info_other (upd_info s c (with_parent (Some nm))) nm
                    (fun i => with_children (pins c (i_children i)) i)) as H1.
      pose proof (upd_info_other s c (with_parent (Some nm))) as H2.
      destruct H1 as (a1 & a2 & a3 & a4 & a5). destruct H2 as (b1 & b2 & b3 & b4 & b5).
      repeat split; try congruence.
      intros Hs. now apply upd_info_sorted, upd_info_sorted.
  - rewrite Pos.eqb_refl. eexists. split; [reflexivity|]. split.
    + intros k. rewrite hn_upd_info. destruct (Pos.eqb k nm) eqn:E; [reflexivity|].
      destruct (Pos.eqb k c) eqn:E2; [|reflexivity].
      apply Pos.eqb_eq in E2. subst k. rewrite Hc. f_equal.
      destruct ic; simpl in *; subst; reflexivity.
    + pose proof (upd_info_other s nm (fun i => with_children (pins c (i_children i)) i)) as H1.
      destruct H1 as (a1 & a2 & a3 & a4 & a5). repeat split; try assumption.
      intros Hs. now apply upd_info_sorted.
Qed.

(* ---------- the member loop of BuildHyperNodeCache ---------- *)
Definition body (e : env) (nm : positive) (f : nat) (chain' ancset : list positive) : bres -> member -> bres :=
  fun (acc : bres) m =>
    let '(s1, pr1, e1) := acc in
    if (e1 : bool) then acc else
    match m with
    | MNode n => (real_union s1 nm [n], pr1, false)
    | MSel _ sel => (real_union s1 nm (resolve e sel), pr1, false)
    | MHyper c =>
        let '(s2, e2) := add_child s1 nm c in
        if (e2 : bool) then (s2, pr1, true) else
        let '(s3, pr3, e3) := build f e s2 c pr1 chain' ancset in
        if (e3 : bool) then (s3, pr3, true)
        else (real_union s3 nm (real_get s3 c), pr3, false)
    end.

Lemma build_S f e s nm pr ch an :
  build (S f) e s nm pr ch an =
  if pmem nm ch then (s, pr, true) else if pmem nm pr then (s, pr, false)
  else if negb (pmem nm an) then (s, pr, false)
  else match aget nm (s_hn s) with
       | None => (s, pr, false)
       | Some i =>
           if i_deleting i then (s, pr, false) else
           let '(s', pr', err) := fold_left (body e nm f (nm :: ch) an) (i_members i) (s, pr, false) in
           if (err : bool) then (s', pr', true) else (s', pins nm pr', false)
       end.
Proof. reflexivity. Qed.

Lemma hchildren_snoc ms m :
  hchildren (ms ++ [m]) = match m with MHyper h => pins h (hchildren ms) | _ => hchildren ms end.
Proof. unfold hchildren. rewrite fold_left_app. reflexivity. Qed.

Lemma claims_snoc ms m k :
  claims (ms ++ [m]) k = claims ms k || match m with MHyper h => Pos.eqb h k | _ => false end.
Proof. unfold claims. rewrite existsb_app. simpl. now rewrite orb_false_r. Qed.

(* a member the new object nm can adopt, seen from the state s before the update:
   exact-match, and a HyperNode member has an entry without parent *)
Definition MOk (nm : positive) (s : st) (m : member) : Prop :=
  match m with
  | MNode _ => True
  | MSel _ _ => False
  | MHyper c => c <> nm /\ exists ic, aget c (s_hn s) = Some ic /\ i_parent ic = None
  end.

(* n is a node member among ms, or a leaf (in s) of a HyperNode member among ms *)
Definition leaf_of (s : st) (ms : list member) (n : positive) : Prop :=
  In (MNode n) ms \/ exists c, In (MHyper c) ms /\ In n (real_get s c).

Lemma leaf_of_snoc s ms m n :
  leaf_of s (ms ++ [m]) n <->
  leaf_of s ms n \/ match m with MNode n' => n' = n | MHyper c => In n (real_get s c) | MSel _ _ => False end.
Proof.
  unfold leaf_of. split.
  - intros [H|[c [H1 H2]]].
    + apply in_app_or in H. destruct H as [H|[->|[]]]; [left; now left|right; reflexivity].
    + apply in_app_or in H1. destruct H1 as [H1|[->|[]]]; [left; right; eauto|right; exact H2].
  - intros [[H|[c [H1 H2]]]|H].
    + left. apply in_or_app. now left.
    + right. exists c. split; [apply in_or_app; now left|exact H2].
    + destruct m as [n'| |c]; [subst; left|destruct H|right; exists c; split; [|exact H]];
        apply in_or_app; right; now left.
Qed.

(* s1 is s with the new object (nm, t, ms) entered and its members ms1 adopted *)
Record LInv (nm : positive) (t : Z) (ms ms1 : list member) (s s1 : st) : Prop := {
  li_nm : aget nm (s_hn s1) = Some (mkInfo t ms None (hchildren ms1) false);
  li_hn : forall k, k <> nm -> aget k (s_hn s1) =
            if claims ms1 k then match aget k (s_hn s) with
                                 | Some i => Some (with_parent (Some nm) i) | None => None end
            else aget k (s_hn s);
  li_real : forall k, k <> nm -> aget k (s_real s1) = aget k (s_real s);
  li_rnm : forall n, In n (real_get s1 nm) <-> leaf_of s ms1 n;
  li_tier : s_tier s1 = zset t (pins nm (match zget t (s_tier s) with Some l => l | None => [] end)) (s_tier s);
  li_failed : s_failed s1 = s_failed s;
  li_fuel : s_fuel s1 = s_fuel s;
  li_sorted : ksorted (s_hn s1) }.

Lemma member_step e nm t ms s f ms1 s1 m :
  MOk nm s m -> LInv nm t ms ms1 s s1 ->
  exists s2, body e nm (S f) [nm] [nm] (s1, [], false) m = (s2, [], false) /\
             LInv nm t ms (ms1 ++ [m]) s s2.
Proof.
  intros Hm [Inm Ihn Ireal Irnm It Ifl Ifu Iso].
  destruct m as [n| |c]; simpl in Hm; [|contradiction|].
  - exists (real_union s1 nm [n]). split; [reflexivity|].
    pose proof (real_union_spec s1 nm [n]) as (R1 & R2 & R3 & R4 & R5 & R6 & R7).
    constructor; try congruence; try (rewrite R1; exact Iso).
    + rewrite R1, hchildren_snoc. exact Inm.
    + intros k Hk. rewrite R1, claims_snoc, orb_false_r. now apply Ihn.
    + intros k Hk. rewrite R6 by exact Hk. now apply Ireal.
    + intros x. rewrite R7, Irnm, leaf_of_snoc. simpl. tauto.
  - destruct Hm as [Hcn [ic0 [Hc0 Hp0]]].
    (* c is free, or already adopted by nm through an earlier occurrence in ms1 *)
    assert (Hc1 : exists ic1, aget c (s_hn s1) = Some ic1 /\
              (i_parent ic1 = None \/ i_parent ic1 = Some nm) /\
              with_parent (Some nm) ic1 = with_parent (Some nm) ic0).
    { rewrite (Ihn c Hcn), Hc0. destruct (claims ms1 c).
      - eexists. split; [reflexivity|]. split; [right; reflexivity|reflexivity].
      - exists ic0. split; [reflexivity|]. split; [left; exact Hp0|reflexivity]. }
    destruct Hc1 as [ic1 [Hc1 [Hp1 Hw]]].
    destruct (add_child_ok s1 nm c ic1 Hcn Hc1 Hp1) as [s2 [Ha [A1 [A2 [A3 [A4 [A5 [A6 A7]]]]]]]].
    assert (Hnc : Pos.eqb c nm = false) by now apply Pos.eqb_neq.
    exists (real_union s2 nm (real_get s2 c)). split.
    { unfold body. cbv beta iota. rewrite Ha. cbv beta iota.
      rewrite build_skip by (simpl; now rewrite ?Hnc). reflexivity. }
    pose proof (real_union_spec s2 nm (real_get s2 c)) as (R1 & R2 & R3 & R4 & R5 & R6 & R7).
    constructor; try congruence; try (rewrite R1; now apply A7).
    + rewrite R1, A1, Pos.eqb_refl, Inm, hchildren_snoc. reflexivity.
    + intros k Hk. rewrite R1, A1.
      assert (Ek : Pos.eqb k nm = false) by now apply Pos.eqb_neq.
      rewrite Ek, claims_snoc.
      destruct (Pos.eqb k c) eqn:Ekc.
      * apply Pos.eqb_eq in Ekc. subst k. rewrite Pos.eqb_refl, orb_true_r, Hc0. now rewrite Hw.
      * rewrite Pos.eqb_sym in Ekc. rewrite Ekc, orb_false_r. now apply Ihn.
    + intros k Hk. rewrite R6 by exact Hk. rewrite A2. now apply Ireal.
    + intros x.
      assert (Rc : real_get s2 c = real_get s c).
      { unfold real_get. rewrite A2, (Ireal c Hcn). reflexivity. }
      assert (Rn : real_get s2 nm = real_get s1 nm) by (unfold real_get; now rewrite A2).
      rewrite R7, Rc, Rn, Irnm, leaf_of_snoc. reflexivity.
Qed.

Lemma loop_ok e nm t ms s f : forall rest ms1 s1,
  Forall (MOk nm s) rest -> LInv nm t ms ms1 s s1 ->
  exists s', fold_left (body e nm (S f) [nm] [nm]) rest (s1, [], false) = (s', [], false) /\
             LInv nm t ms (ms1 ++ rest) s s'.
Proof.
  induction rest as [|m rest IH]; intros ms1 s1 Hok Hinv.
  - exists s1. rewrite app_nil_r. split; [reflexivity|exact Hinv].
  - inversion Hok as [|m' r' Hm Hrest]; subst.
    destruct (member_step e nm t ms s f ms1 s1 m Hm Hinv) as [s2 [E H2]].
    cbn [fold_left]. rewrite E.
    replace (ms1 ++ m :: rest) with ((ms1 ++ [m]) ++ rest) by (rewrite <- app_assoc; reflexivity).
    now apply IH.
Qed.

(* ---------- UpdateHyperNode for an object with a new name that nobody claims ---------- *)
Lemma find_all_false {A} (f : A -> bool) l : (forall x, In x l -> f x = false) -> find f l = None.
Proof.
  induction l as [|x r IH]; intros H; simpl; [reflexivity|].
  rewrite (H x) by now left. apply IH. intros y Hy. apply H. now right.
Qed.

Lemma filter_all_false {A} (f : A -> bool) l : (forall x, In x l -> f x = false) -> filter f l = [].
Proof.
  induction l as [|x r IH]; intros H; simpl; [reflexivity|].
  rewrite (H x) by now left. apply IH. intros y Hy. apply H. now right.
Qed.

(* nobody in hn claims nm with a higher tier *)
Definition unclaimed (hn : list (positive * info)) (nm : positive) : Prop :=
  forall ki, In ki hn -> Z.ltb (match aget nm hn with Some i => i_tier i | None => -1 end) (i_tier (snd ki))
                         && claims (i_members (snd ki)) nm = false.

Lemma get_ancestors_root hn nm i :
  aget nm hn = Some i -> i_parent i = None -> unclaimed hn nm -> get_ancestors hn nm = Some [nm].
Proof.
  intros Hi Hp Hu. unfold get_ancestors, ancestors_gen, anc_fuel. simpl.
  assert (Hpar : parent_of hn nm = None).
  { unfold parent_of. rewrite Hi, Hp. unfold get_parent.
    rewrite find_all_false; [reflexivity|]. intros ki Hin. apply Hu. exact Hin. }
  now rewrite Hpar.
Qed.

Lemma build_unfold f e s nm i processed chain ancset :
  pmem nm chain = false -> pmem nm processed = false -> pmem nm ancset = true ->
  aget nm (s_hn s) = Some i -> i_deleting i = false ->
  build (S f) e s nm processed chain ancset =
  let '(s', pr', err) := fold_left (body e nm f (nm :: chain) ancset) (i_members i) (s, processed, false) in
  if (err : bool) then (s', pr', true) else (s', pins nm pr', false).
Proof. intros H1 H2 H3 H4 H5. rewrite build_S, H1, H2, H3, H4, H5. reflexivity. Qed.

(* the update enters the object, rebuilds the cache of nm alone (it is its only ancestor),
   and the outcome is that of the member loop *)
Lemma upd_new e s nm t ms :
  aget nm (s_hn s) = None ->
  (forall ki, In ki (s_hn s) -> claims (i_members (snd ki)) nm = false) ->
  ksorted (s_hn s) ->
  exists s0, LInv nm t ms [] s s0 /\
    upd e s (mkObj nm t ms) =
    let '(s', _, err) := fold_left (body e nm 2 [nm] [nm]) ms (s0, [], false) in
    if (err : bool) then (mark_failed 5 s' nm, true) else (refresh_ready 5 e (unfail 5 s' nm), false).
Proof.
  intros Hfresh Hunc Hso.
  unfold upd, upd_gen. cbn [o_name o_tier o_members].
  unfold known. rewrite Hfresh.
  cbn [fx1 fx2 Nat.ltb Nat.leb andb negb orb].
  unfold update_parent, stored_children. cbn [o_name o_members]. rewrite Hfresh.
  cbn [pdiff filter fold_left].
  unfold update_tier_set. cbn [o_name o_tier]. rewrite Hfresh.
  set (tiers' := zset t (pins nm (match zget t (s_tier s) with Some l => l | None => [] end)) (s_tier s)).
  change (s_hn (set_tier s tiers')) with (s_hn s). rewrite Hfresh.
  set (s3 := set_hn (set_tier s tiers') (aset nm (mkInfo t ms None [] false) (s_hn s))).
  assert (H3nm : aget nm (s_hn s3) = Some (mkInfo t ms None [] false)) by apply aget_aset_eq.
  assert (H3u : unclaimed (s_hn s3) nm).
  { intros ki Hin. rewrite H3nm. cbn [i_tier].
    apply In_aset in Hin. destruct Hin as [->|Hin].
    - cbn [snd i_tier]. now rewrite Z.ltb_irrefl.
    - rewrite (Hunc ki Hin). apply andb_false_r. }
  assert (H3l : listed_by (s_hn s3) nm = []).
  { unfold listed_by. rewrite filter_all_false; [reflexivity|].
    intros ki Hin. apply In_aset in Hin. destruct Hin as [->|Hin].
    - cbn [fst]. now rewrite Pos.eqb_refl.
    - pose proof (Hunc ki Hin) as Hc. unfold claims in Hc. rewrite Hc. apply andb_false_r. }
  change (rebuild_cache_gen 5 e s3 nm) with (rebuild_cache e s3 nm).
  unfold rebuild_cache, doubly_listed. rewrite H3l. cbn [length Nat.ltb Nat.leb].
  rewrite andb_false_r. unfold rebuild_cache_prefix.
  rewrite (get_ancestors_root _ _ _ H3nm eq_refl H3u).
  cbn [fold_left length].
  set (s0 := clear_derived s3 nm).
  assert (H0hn : forall k, aget k (s_hn s0) =
            if Pos.eqb k nm then Some (mkInfo t ms None [] false) else aget k (s_hn s)).
  { intros k. unfold s0, clear_derived. rewrite hn_upd_info.
    change (s_hn (set_real s3 (adel nm (s_real s3)))) with (s_hn s3). rewrite H3nm.
    destruct (Pos.eqb k nm) eqn:E; [reflexivity|]. apply Pos.eqb_neq in E. now apply aget_aset_ne. }
  assert (H0 : s_real s0 = adel nm (s_real s) /\ s_tier s0 = tiers' /\ s_ready s0 = s_ready s /\
               s_failed s0 = s_failed s /\ s_fuel s0 = s_fuel s) by apply upd_info_other.
  destruct H0 as (O1 & O2 & _ & O4 & O5).
  assert (H0nm : aget nm (s_hn s0) = Some (mkInfo t ms None [] false)) by now rewrite H0hn, Pos.eqb_refl.
  rewrite H0nm.
  rewrite (build_unfold _ e s0 nm _ [] [] [nm]) by
    (try reflexivity; try exact H0nm; simpl; now rewrite Pos.eqb_refl).
  cbn [i_members].
  exists s0. split.
  - constructor; try assumption.
    + intros k Hk. rewrite (H0hn k). apply Pos.eqb_neq in Hk. now rewrite Hk.
    + intros k Hk. rewrite O1, aget_adel.
      assert (E : Pos.eqb nm k = false) by (apply Pos.eqb_neq; congruence). now rewrite E.
    + intros n. unfold real_get. rewrite O1, aget_adel, Pos.eqb_refl.
      split; [intros []|intros [[]|[c [[] _]]]].
    + unfold s0, clear_derived. apply upd_info_sorted. now apply aset_sorted.
  - destruct (fold_left (body e nm 2 [nm] [nm]) ms (s0, [], false)) as [[s' pr] [|]]; reflexivity.
Qed.

(* all members fine: the object is adopted and the view is ready *)
Lemma upd_fresh e s nm t ms :
  aget nm (s_hn s) = None ->
  (forall ki, In ki (s_hn s) -> claims (i_members (snd ki)) nm = false) ->
  s_failed s = [] ->
  Forall (MOk nm s) ms ->
  ksorted (s_hn s) ->
  exists s', upd e s (mkObj nm t ms) = (s', false) /\ LInv nm t ms ms s s' /\ s_ready s' = true.
Proof.
  intros Hfresh Hunc Hfailed Hms Hso.
  destruct (upd_new e s nm t ms Hfresh Hunc Hso) as [s0 [H0 ->]].
  destruct (loop_ok e nm t ms s 1 ms [] s0 Hms H0) as [s1 [-> [Inm Ihn Ireal Irnm It Ifl Ifu Iso]]].
  cbv beta iota.
  unfold unfail, refresh_ready. cbn [fx1 Nat.ltb Nat.leb]. unfold set_failed at 1 2. cbn [s_failed].
  rewrite Ifl, Hfailed. cbn [pdel filter fold_left].
  eexists. split; [reflexivity|]. split; [|reflexivity].
  constructor; try assumption. symmetry. exact Hfailed.
Qed.

(* ================= the tree derived from the objects, and the induction ================= *)
Lemma zget_zset {A} k k' (v : A) l : zget k (zset k' v l) = if Z.eqb k k' then Some v else zget k l.
Proof.
  induction l as [|[k2 a2] r IH]; simpl; [reflexivity|].
  destruct (Z.compare_spec k' k2) as [<-|Hlt|Hgt]; simpl.
  - now destruct (Z.eqb k k').
  - reflexivity.
  - rewrite IH. destruct (Z.eqb_spec k k2) as [->|_]; [|reflexivity].
    destruct (Z.eqb_spec k2 k') as [->|_]; [|reflexivity]. now apply Z.lt_irrefl in Hgt.
Qed.

Lemma ex_In_snoc {A} (Q : A -> Prop) l x :
  (exists o, In o (l ++ [x]) /\ Q o) <-> (exists o, In o l /\ Q o) \/ Q x.
Proof.
  setoid_rewrite In_snoc. split.
  - intros [o [[H| ->] HQ]]; eauto.
  - intros [[o [H HQ]]|HQ]; eauto.
Qed.

Lemma claims_In ms k : claims ms k = true <-> In (MHyper k) ms.
Proof.
  unfold claims. rewrite existsb_exists. split.
  - intros [m [Hin Hm]]. destruct m; try discriminate. apply Pos.eqb_eq in Hm. now subst.
  - intros Hin. exists (MHyper k). split; [exact Hin|apply Pos.eqb_refl].
Qed.

Lemma find_obj_snoc P o k :
  find_obj (P ++ [o]) k = match find_obj P k with
                          | Some x => Some x
                          | None => if Pos.eqb (o_name o) k then Some o else None end.
Proof.
  unfold find_obj. induction P as [|x r IH]; simpl; [reflexivity|].
  destruct (Pos.eqb (o_name x) k); [reflexivity|exact IH].
Qed.

Lemma spec_parent_snoc P o c :
  spec_parent (P ++ [o]) c = match spec_parent P c with
                             | Some p => Some p
                             | None => if claims (o_members o) c then Some (o_name o) else None end.
Proof.
  unfold spec_parent. induction P as [|x r IH]; simpl; [now destruct (claims (o_members o) c)|].
  destruct (claims (o_members x) c); [reflexivity|exact IH].
Qed.

Lemma find_obj_some P k o : find_obj P k = Some o -> In o P /\ o_name o = k.
Proof.
  unfold find_obj. intros H. apply find_some in H. destruct H as [H1 H2].
  apply Pos.eqb_eq in H2. auto.
Qed.

Lemma spec_parent_some P c p : spec_parent P c = Some p ->
  exists o, In o P /\ claims (o_members o) c = true.
Proof.
  unfold spec_parent. destruct (find _ P) as [o|] eqn:E; [|discriminate].
  intros _. apply find_some in E. exists o. exact E.
Qed.

(* n is a node member of k or of a HyperNode below k *)
Inductive leaf_below (P : list hobj) : positive -> positive -> Prop :=
| lb_node k o n : find_obj P k = Some o -> In (MNode n) (o_members o) -> leaf_below P k n
| lb_child k o c n : find_obj P k = Some o -> In (MHyper c) (o_members o) ->
                     leaf_below P c n -> leaf_below P k n.

(* o arrives after all its members: they exist, are free, and are exact-match *)
Definition arrives (P : list hobj) (o : hobj) : Prop :=
  find_obj P (o_name o) = None /\
  Forall (fun m => match m with
                   | MNode _ => True
                   | MSel _ _ => False
                   | MHyper c => c <> o_name o /\ find_obj P c <> None /\ spec_parent P c = None
                   end) (o_members o).

Inductive leaf_first : list hobj -> Prop :=
| lf_nil : leaf_first []
| lf_snoc P o : leaf_first P -> arrives P o -> leaf_first (P ++ [o]).

(* the view [s] is the tree derived from the objects [P] *)
Record Rep (s : st) (P : list hobj) : Prop := {
  rep_hn : forall k, aget k (s_hn s) =
             match find_obj P k with
             | Some o => Some (mkInfo (o_tier o) (o_members o) (spec_parent P k) (hchildren (o_members o)) false)
             | None => None end;
  rep_real : forall k n, In n (real_get s k) <-> leaf_below P k n;
  rep_tier : forall t k, In k (match zget t (s_tier s) with Some l => l | None => [] end) <->
                         exists o, In o P /\ o_name o = k /\ o_tier o = t;
  rep_ready : s_ready s = true;
  rep_failed : s_failed s = [];
  rep_fuel : s_fuel s = false;
  rep_sorted : ksorted (s_hn s);
  rep_closed : forall o c, In o P -> claims (o_members o) c = true -> find_obj P c <> None }.

Lemma Rep_init : Rep init_st [].
Proof.
  constructor; simpl; auto.
  - intros k n. split; [intros []|intros H; inversion H; discriminate].
  - intros t k. split; [intros []|intros [o [[] _]]].
  - constructor.
Qed.

(* leaf_below reads the objects through find_obj only *)
Lemma leaf_below_ext P Q : (forall k o, find_obj P k = Some o -> find_obj Q k = Some o) ->
  forall k n, leaf_below P k n -> leaf_below Q k n.
Proof.
  intros Hf k n H. induction H as [k o n H1 H2|k o c n H1 H2 H3 IH].
  - eapply lb_node; [|exact H2]. now apply Hf.
  - eapply lb_child; [|exact H2|exact IH]. now apply Hf.
Qed.

Lemma lb_mono P o k n : leaf_below P k n -> leaf_below (P ++ [o]) k n.
Proof. apply leaf_below_ext. intros k' o' H. now rewrite find_obj_snoc, H. Qed.

Lemma lb_back P o k n :
  find_obj P (o_name o) = None ->
  (forall o' c, In o' P -> claims (o_members o') c = true -> find_obj P c <> None) ->
  leaf_below (P ++ [o]) k n -> k <> o_name o -> leaf_below P k n.
Proof.
  intros Hf Hcl H. induction H as [k ok n H1 H2|k ok c n H1 H2 H3 IH]; intros Hk.
  - rewrite find_obj_snoc in H1. destruct (find_obj P k) as [x|] eqn:E.
    + inversion H1; subst. eapply lb_node; eauto.
    + destruct (Pos.eqb (o_name o) k) eqn:E2; [|discriminate]. apply Pos.eqb_eq in E2. congruence.
  - rewrite find_obj_snoc in H1. destruct (find_obj P k) as [x|] eqn:E.
    + inversion H1; subst. eapply lb_child; [exact E|exact H2|]. apply IH.
      intro Hc. subst c. apply find_obj_some in E. destruct E as [Ein _].
      apply (Hcl ok (o_name o) Ein); [now apply claims_In|exact Hf].
    + destruct (Pos.eqb (o_name o) k) eqn:E2; [|discriminate]. apply Pos.eqb_eq in E2. congruence.
Qed.

(* what Rep says of an entry, of a name without an object, and of a member that may be adopted *)
Lemma Rep_In s P k i : Rep s P -> In (k, i) (s_hn s) ->
  exists o, find_obj P k = Some o /\
            i = mkInfo (o_tier o) (o_members o) (spec_parent P k) (hchildren (o_members o)) false.
Proof.
  intros R Hin. apply (sorted_In_aget k i _ (rep_sorted _ _ R)) in Hin.
  rewrite (rep_hn _ _ R) in Hin. destruct (find_obj P k) as [o|]; [|discriminate].
  exists o. now inversion Hin.
Qed.

Lemma Rep_new s P nm : Rep s P -> find_obj P nm = None ->
  aget nm (s_hn s) = None /\ forall ki, In ki (s_hn s) -> claims (i_members (snd ki)) nm = false.
Proof.
  intros R Hfresh. split; [now rewrite (rep_hn _ _ R), Hfresh|].
  intros [k i] Hin. destruct (Rep_In s P k i R Hin) as [o [E ->]]. cbn [snd i_members].
  destruct (claims (o_members o) nm) eqn:Ec; [|reflexivity].
  exfalso. apply find_obj_some in E. destruct E as [Ein _]. exact (rep_closed _ _ R o nm Ein Ec Hfresh).
Qed.

Lemma Rep_MOk s P nm m : Rep s P ->
  match m with
  | MNode _ => True
  | MSel _ _ => False
  | MHyper c => c <> nm /\ find_obj P c <> None /\ spec_parent P c = None
  end -> MOk nm s m.
Proof.
  intros R Hm. destruct m as [n| |c]; simpl in *; auto.
  destruct Hm as [Hc [Hex Hsp]]. split; [exact Hc|].
  rewrite (rep_hn _ _ R). destruct (find_obj P c) as [oc|]; [|contradiction].
  eexists. split; [reflexivity|exact Hsp].
Qed.

(* one arrival preserves the representation *)
Lemma Rep_step e s P o : Rep s P -> arrives P o ->
  exists s', upd e s o = (s', false) /\ Rep s' (P ++ [o]).
Proof.
  intros R [Hfresh Hmem]. destruct (Rep_new s P _ R Hfresh) as [Hnm Hunc].
  destruct o as [nm t ms]. cbn [o_name o_members] in *.
  assert (Hms : Forall (MOk nm s) ms) by (eapply Forall_impl; [|exact Hmem]; intros m; now apply Rep_MOk).
  destruct R as [Rhn Rreal Rtier Rready Rfailed Rfuel Rsorted Rclosed].
  destruct (upd_fresh e s nm t ms Hnm Hunc Rfailed Hms Rsorted)
    as [s' [Hupd [[U1 U2 U3 U4 U5 U7 U8 U0] U6]]].
  exists s'. split; [exact Hupd|].
  assert (Hmh : forall c, In (MHyper c) ms -> c <> nm /\ find_obj P c <> None /\ spec_parent P c = None).
  { intros c Hc. rewrite Forall_forall in Hmem. exact (Hmem _ Hc). }
  assert (Hnew : find_obj (P ++ [mkObj nm t ms]) nm = Some (mkObj nm t ms)).
  { rewrite find_obj_snoc, Hfresh. cbn [o_name]. now rewrite Pos.eqb_refl. }
  assert (Hself : claims ms nm = false).
  { destruct (claims ms nm) eqn:Ec; [|reflexivity]. apply claims_In, Hmh in Ec. tauto. }
  assert (Hspnm : spec_parent P nm = None).
  { destruct (spec_parent P nm) as [p|] eqn:E; [|reflexivity].
    apply spec_parent_some in E. destruct E as [o' [Hin Hc]]. exfalso. exact (Rclosed o' nm Hin Hc Hfresh). }
  constructor.
  - (* entries *)
    intros k. rewrite find_obj_snoc, spec_parent_snoc. cbn [o_name o_members].
    destruct (Pos.eq_dec k nm) as [->|Hk].
    + rewrite U1, Hfresh, Pos.eqb_refl, Hspnm, Hself. reflexivity.
    + rewrite (U2 k Hk), Rhn.
      assert (E : Pos.eqb nm k = false) by (apply Pos.eqb_neq; congruence).
      destruct (find_obj P k) as [ok|] eqn:Ek.
      * destruct (claims ms k) eqn:Ec.
        -- apply claims_In, Hmh in Ec. destruct Ec as (_ & _ & ->). reflexivity.
        -- destruct (spec_parent P k); reflexivity.
      * rewrite E. now destruct (claims ms k).
  - (* leaf sets *)
    intros k n. destruct (Pos.eq_dec k nm) as [->|Hk].
    + rewrite U4. split.
      * intros [H|[c [H1 H2]]].
        -- exact (lb_node _ nm _ n Hnew H).
        -- apply (lb_child _ nm _ c n Hnew H1). apply lb_mono. now apply Rreal.
      * intros H. inversion H as [k' ok n' H1 H2|k' ok c n' H1 H2 H3]; subst;
          rewrite Hnew in H1; inversion H1; subst; cbn [o_members] in *.
        -- now left.
        -- right. exists c. split; [exact H2|]. apply Rreal.
           eapply (lb_back P (mkObj nm t ms)); eauto. exact (proj1 (Hmh c H2)).
    + assert (Er : real_get s' k = real_get s k) by (unfold real_get; now rewrite (U3 k Hk)).
      rewrite Er, Rreal. split.
      * apply lb_mono.
      * intros H. eapply (lb_back P (mkObj nm t ms)); eauto.
  - (* tier sets *)
    intros t' k. rewrite U5, zget_zset, ex_In_snoc, <- Rtier. cbn [o_name o_tier].
    destruct (Z.eqb_spec t' t) as [->|Ht].
    + rewrite pins_In. split; [intros [->|H]; auto|intros [H|[-> _]]; auto].
    + split; [auto|intros [H|[_ E]]; [exact H|congruence]].
  - exact U6.
  - now rewrite U7.
  - now rewrite U8.
  - exact U0.
  - intros o' c Hin Hc. rewrite find_obj_snoc. apply in_app_or in Hin. destruct Hin as [Hin|[<-|[]]].
    + pose proof (Rclosed o' c Hin Hc) as H. destruct (find_obj P c); [discriminate|contradiction].
    + cbn [o_members] in Hc. apply claims_In, Hmh in Hc. destruct Hc as (_ & Hex & _).
      destruct (find_obj P c); [discriminate|contradiction].
Qed.

Lemma run_adds e P : forall s, exists s', fold_left step (map EUpd P) (e, s) = (e, s').
Proof.
  induction P as [|o r IH]; intros s; simpl; [now exists s|]. apply IH.
Qed.

Theorem scratch_leaf_first : forall e P, leaf_first P -> Rep (scratch e P) P.
Proof.
  intros e P H. induction H as [|P o HP IH Ha].
  - exact Rep_init.
  - unfold scratch, run in *. rewrite map_app, fold_left_app.
    destruct (run_adds e P init_st) as [s Hs]. rewrite Hs in *. cbn [snd] in IH.
    destruct (Rep_step e s P o IH Ha) as [s' [Hu Hr]].
    cbn [map fold_left]. unfold step, step_gen. change (upd_gen 5 e s o) with (upd e s o).
    rewrite Hu. exact Hr.
Qed.

(* ================= order-independence among leaf-first arrival orders ================= *)
Lemma lf_find P : leaf_first P -> forall k o, find_obj P k = Some o <-> (In o P /\ o_name o = k).
Proof.
  intros H. induction H as [|P o HP IH [Hfresh _]]; intros k x.
  - split; [discriminate|intros [[] _]].
  - rewrite find_obj_snoc. split.
    + destruct (find_obj P k) as [y|] eqn:E.
      * intros Hx. inversion Hx; subst. apply IH in E. destruct E. split; [apply in_or_app; now left|assumption].
      * destruct (Pos.eqb (o_name o) k) eqn:E2; [|discriminate]. intros Hx. inversion Hx; subst.
        apply Pos.eqb_eq in E2. split; [apply in_or_app; right; now left|exact E2].
    + intros [Hin Hn]. apply in_app_or in Hin. destruct Hin as [Hin|[<-|[]]].
      * assert (E : find_obj P k = Some x) by (apply IH; auto). now rewrite E.
      * subst k. rewrite Hfresh, Pos.eqb_refl. reflexivity.
Qed.

Lemma lf_parent P : leaf_first P -> forall c p,
  spec_parent P c = Some p <-> exists o, In o P /\ o_name o = p /\ claims (o_members o) c = true.
Proof.
  intros H. induction H as [|P o HP IH [Hfresh Hmem]]; intros c p.
  - split; [discriminate|intros [o [[] _]]].
  - rewrite spec_parent_snoc, ex_In_snoc, <- IH.
    destruct (spec_parent P c) as [q|] eqn:E.
    + (* a member of the new object was unclaimed *)
      split; [now left|intros [H|[_ Hc]]; [exact H|]].
      apply claims_In in Hc. rewrite Forall_forall in Hmem. specialize (Hmem _ Hc). simpl in Hmem.
      destruct Hmem as (_ & _ & Hsp). congruence.
    + destruct (claims (o_members o) c); split.
      * intros [= <-]. right. auto.
      * intros [H|[<- _]]; [discriminate|reflexivity].
      * discriminate.
      * intros [H|[_ H]]; discriminate.
Qed.

Lemma option_ext {A} (a b : option A) : (forall x, a = Some x <-> b = Some x) -> a = b.
Proof.
  intros H. destruct a as [x|]; [symmetry; now apply H|]. destruct b as [y|]; [now apply H|reflexivity].
Qed.

Section Perm.
  Variables P Q : list hobj.
  Hypothesis HP : leaf_first P.
  Hypothesis HQ : leaf_first Q.
  Hypothesis Hperm : Permutation P Q.

  Lemma perm_find k : find_obj P k = find_obj Q k.
  Proof.
    apply option_ext. intros o. rewrite (lf_find P HP), (lf_find Q HQ).
    split; intros [Hin Hn]; (split; [|exact Hn]).
    - exact (Permutation_in _ Hperm Hin).
    - exact (Permutation_in _ (Permutation_sym Hperm) Hin).
  Qed.

  Lemma perm_parent c : spec_parent P c = spec_parent Q c.
  Proof.
    apply option_ext. intros p. rewrite (lf_parent P HP), (lf_parent Q HQ).
    split; intros [o [Hin H]]; exists o; (split; [|exact H]).
    - exact (Permutation_in _ Hperm Hin).
    - exact (Permutation_in _ (Permutation_sym Hperm) Hin).
  Qed.
End Perm.

(* non-vacuity: a three-tier forest and a second tree sharing nothing with it, in one leaf-first order *)
Example leaf_first_example :
  leaf_first [mkObj 1 1 [MNode 1; MNode 2]; mkObj 2 1 [MNode 3]; mkObj 5 1 [];
              mkObj 3 2 [MHyper 1; MNode 4; MHyper 2]; mkObj 4 3 [MHyper 3]; mkObj 6 2 [MHyper 5]]%positive.
Proof.
  repeat match goal with
  | |- leaf_first [] => constructor
  | |- leaf_first ?l =>
      let l' := eval cbv in (removelast l) in
      let x := eval cbv in (last l (mkObj 1 0 [])) in
      change l with (l' ++ [x]); constructor
  end.
  all: split; [reflexivity|repeat constructor; try discriminate].
Qed.
