(* C14 — Ready and errors: a failing update / delete leaves Ready = false; after any history a
   view that reports Ready has no failed rebuild outstanding.  Also what the recorded AllocatedHyperNode
   is (the LCA of the chosen domains), and what a true boolean comparison of Laws.v means. *)
From Coq Require Import ZArith List Bool.
From V Require Import C14.Model C14.Laws C14.Lemmas C14.Scratch.
Import ListNotations.
Open Scope Z_scope.

(* The code records LCA(previous allocation, HyperNode chosen by the gradient).  By
   GetLCAHyperNode correctness this is the LOWEST common ancestor-or-self of the previous
   allocation and the chosen domain — it holds every node of the chosen domain and of the
   previous allocation, but it is in general ABOVE the LCA of the nodes actually bound
   (Props/C14.v C14_recorded_is_lca_of_placements_refuted). *)
Theorem recorded_is_lca_of_domains : forall hn p c r,
  new_allocated hn (Some p) c = Some r ->
  match r with
  | Some x => anc (parent_of hn) p x /\ anc (parent_of hn) c x /\
              forall y, anc (parent_of hn) p y -> anc (parent_of hn) c y -> anc (parent_of hn) x y
  | None => forall y, anc (parent_of hn) p y -> anc (parent_of hn) c y -> False
  end.
Proof. intros hn p c r H. exact (lca_correct (parent_of hn) (anc_fuel hn) p c r H). Qed.

(* ================= errors are reported ================= *)
(* the error flag of an outcome is set only on a view that is not ready *)
Definition err_not_ready (a : st * bool) : Prop := snd a = true -> s_ready (fst a) = false.

Lemma rebuild_all_err fx e s l : err_not_ready (rebuild_all fx e s l).
Proof.
  unfold rebuild_all. apply (fold_left_inv err_not_ready); [|discriminate].
  intros [s0 [|]] k Ha; [exact Ha|].
  destruct (rebuild_cache_gen fx e s0 k) as [s1 [|]]; [intros _; reflexivity|discriminate].
Qed.

Lemma freed_loop_err fx e nm l a : err_not_ready a ->
  err_not_ready (fold_left (fun (acc : st * bool) fr => let '(s0, e0) := acc in
                   if (e0 : bool) then acc else rebuild_all fx e s0 (claimers (s_hn s0) fr nm)) l a).
Proof. apply (fold_left_inv err_not_ready). intros [s0 [|]] fr Ha; [exact Ha|apply rebuild_all_err]. Qed.

(* ================= Ready implies that no failed rebuild is outstanding ================= *)
(* rebuildCache never touches the failed set *)
Lemma upd_info_failed s k f : s_failed (upd_info s k f) = s_failed s.
Proof. apply upd_info_other. Qed.

Lemma add_child_failed s p c : s_failed (fst (add_child s p c)) = s_failed s.
Proof.
  assert (H : s_failed (fst (add_child_prefix s p c)) = s_failed s).
  { unfold add_child_prefix.
    set (s1 := match aget c (s_hn s) with Some _ => s | None => _ end).
    assert (H1 : s_failed s1 = s_failed s) by (unfold s1; destruct (aget c (s_hn s)); reflexivity).
    destruct (i_parent _) as [p'|]; [destruct (Pos.eqb p' p)|]; cbn [fst]; rewrite ?upd_info_failed; exact H1. }
  unfold add_child. destruct (aget c (s_hn s)); [exact H|].
  destruct (other_claimers (s_hn s) c p); [exact H|reflexivity].
Qed.

Lemma real_union_failed s k l : s_failed (real_union s k l) = s_failed s.
Proof. reflexivity. Qed.

Lemma build_failed : forall f e s nm pr ch an,
  s_failed (fst (fst (build f e s nm pr ch an))) = s_failed s.
Proof.
  induction f as [|f IH]; intros e s nm pr ch an; [reflexivity|]. rewrite build_S.
  destruct (pmem nm ch); [reflexivity|]. destruct (pmem nm pr); [reflexivity|].
  destruct (negb (pmem nm an)); [reflexivity|].
  destruct (aget nm (s_hn s)) as [i|]; [|reflexivity].
  destruct (i_deleting i); [reflexivity|].
  transitivity (s_failed (fst (fst (fold_left (body e nm f (nm :: ch) an) (i_members i) (s, pr, false))))).
  { destruct (fold_left _ _ _) as [[s' pr'] [|]]; reflexivity. }
  apply (fold_left_inv (fun a => s_failed (fst (fst a)) = s_failed s)); [|reflexivity].
  intros [[s1 pr1] [|]] m Ha; [exact Ha|]. cbn [fst] in Ha. rewrite <- Ha.
  destruct m as [n|lb sel|c]; try reflexivity. unfold body.
  pose proof (add_child_failed s1 nm c) as Hc. destruct (add_child s1 nm c) as [s2 [|]]; [exact Hc|].
  pose proof (IH e s2 c pr1 (nm :: ch) an) as Hb.
  destruct (build f e s2 c pr1 (nm :: ch) an) as [[s3 pr3] [|]]; simpl in *; congruence.
Qed.

Lemma clear_derived_failed s a : s_failed (clear_derived s a) = s_failed s.
Proof. unfold clear_derived. now rewrite upd_info_failed. Qed.

Lemma rebuild_cache_prefix_failed e s nm :
  s_failed (fst (rebuild_cache_prefix e s nm)) = s_failed s.
Proof.
  unfold rebuild_cache_prefix. destruct (get_ancestors (s_hn s) nm) as [ancs|]; [|reflexivity].
  match goal with |- context [fold_left ?F ancs ?a] =>
    transitivity (s_failed (fst (fst (fold_left F ancs a)))); [destruct (fold_left F ancs a) as [[? ?] ?]; reflexivity|]
  end.
  apply (fold_left_inv (fun a => s_failed (fst (fst a)) = s_failed s)).
  - intros [[s0 pr] [|]] a Ha; [exact Ha|]. destruct (aget a (s_hn s0)); [|exact Ha].
    rewrite build_failed. exact Ha.
  - apply (fold_left_inv (fun s0 => s_failed s0 = s_failed s)); [|reflexivity].
    intros s0 a Ha. now rewrite clear_derived_failed.
Qed.

Lemma rebuild_cache_failed e s nm :
  s_failed (fst (rebuild_cache_gen 5 e s nm)) = s_failed s.
Proof.
  change (rebuild_cache_gen 5 e s nm) with (rebuild_cache e s nm). unfold rebuild_cache.
  destruct (doubly_listed s nm); [reflexivity|apply rebuild_cache_prefix_failed].
Qed.

(* the invariant: a ready view has no rebuild outstanding *)
Definition ready_ok (s : st) : Prop := s_ready s = true -> s_failed s = [].

Lemma ready_ok_same s s' : s_ready s' = s_ready s /\ s_failed s' = s_failed s -> ready_ok s -> ready_ok s'.
Proof. intros [R F] H. unfold ready_ok. now rewrite R, F. Qed.

(* one round of refreshReady's loop *)
Definition refresh_step (e : env) (acc : st * bool) (k : positive) : st * bool :=
  let '(s0, e0) := acc in
  if (e0 : bool) then acc else
  match aget k (s_hn s0) with
  | None => (unfail 5 s0 k, false)
  | Some _ => let '(s1, e1) := rebuild_cache_gen 5 e s0 k in
              if (e1 : bool) then (set_ready s1 false, true) else (unfail 5 s1 k, false)
  end.

(* a round without error takes its name out of the failed set; the loop goes through the
   failed set itself, so that nothing is left unless it stops, and it stops with Ready = false *)
Lemma refresh_step_ok e s0 k s1 :
  refresh_step e (s0, false) k = (s1, false) -> s_failed s1 = pdel k (s_failed s0).
Proof.
  unfold refresh_step. destruct (aget k (s_hn s0)); [|now intros [= <-]].
  pose proof (rebuild_cache_failed e s0 k) as Hf.
  destruct (rebuild_cache_gen 5 e s0 k) as [s2 [|]]; intros [= <-]. cbn in *. now rewrite Hf.
Qed.

Lemma refresh_loop_failed e : forall l s0,
  snd (fold_left (refresh_step e) l (s0, false)) = false ->
  forall x, In x (s_failed (fst (fold_left (refresh_step e) l (s0, false)))) -> In x (s_failed s0) /\ ~ In x l.
Proof.
  induction l as [|k l IH]; intros s0 Hs x Hx; cbn [fold_left] in *; [auto|].
  destruct (refresh_step e (s0, false) k) as [s1 [|]] eqn:E.
  - rewrite (fold_left_inv (fun a => snd a = true) (refresh_step e)) in Hs; [discriminate| |reflexivity].
    now intros [a [|]].
  - destruct (IH s1 Hs x Hx) as [H1 H2]. rewrite (refresh_step_ok e s0 k s1 E) in H1.
    apply filter_In in H1. destruct H1 as [H1 Hk]. split; [exact H1|].
    intros [->|Hin]; [now rewrite Pos.eqb_refl in Hk|contradiction].
Qed.

Lemma pdel_notin k l : pmem k (pdel k l) = false.
Proof.
  destruct (pmem k (pdel k l)) eqn:E; [|reflexivity]. apply pmem_In, filter_In in E.
  destruct E as [_ E]. now rewrite Pos.eqb_refl in E.
Qed.

Lemma refresh_ready_ok e s : ready_ok (refresh_ready 5 e s).
Proof.
  change (refresh_ready 5 e s) with
    (let '(s', stop) := fold_left (refresh_step e) (s_failed s) (s, false) in
     if (stop : bool) then s' else set_ready s' true).
  assert (G1 : err_not_ready (fold_left (refresh_step e) (s_failed s) (s, false))).
  { apply (fold_left_inv err_not_ready); [|discriminate]. intros [s0 [|]] k Ha; [exact Ha|].
    unfold refresh_step. destruct (aget k (s_hn s0)); [|discriminate].
    destruct (rebuild_cache_gen 5 e s0 k) as [s1 [|]]; [intros _; reflexivity|discriminate]. }
  pose proof (refresh_loop_failed e (s_failed s) s) as G2.
  destruct (fold_left (refresh_step e) (s_failed s) (s, false)) as [s' [|]]; intros Hr.
  - specialize (G1 eq_refl). cbn [fst] in *. congruence.
  - change (s_failed s' = []). cbn [fst snd] in G2. destruct (s_failed s') as [|x r]; [reflexivity|].
    destruct (G2 eq_refl x (or_introl eq_refl)) as [H1 H2]. contradiction.
Qed.

Lemma fold_release_other fx nm : forall l s,
  s_ready (fold_left (release_child fx nm) l s) = s_ready s /\
  s_failed (fold_left (release_child fx nm) l s) = s_failed s.
Proof.
  intros l s. apply (fold_left_inv (fun s' => s_ready s' = s_ready s /\ s_failed s' = s_failed s)); [|auto].
  intros a c [Ha1 Ha2]. rewrite <- Ha1, <- Ha2. unfold release_child, reset_parent.
  destruct (upd_info_other a c (with_parent None)) as (_ & _ & R & F & _).
  destruct (Nat.ltb 1 fx); [|auto].
  destruct (aget c (s_hn a)) as [i|]; [|auto]. destruct (i_parent i) as [p|]; [|auto].
  destruct (Pos.eqb p nm); auto.
Qed.

Lemma update_tier_set_other s o :
  s_ready (update_tier_set s o) = s_ready s /\ s_failed (update_tier_set s o) = s_failed s /\
  s_hn (update_tier_set s o) = s_hn s.
Proof.
  unfold update_tier_set, remove_from_tier, set_tier.
  destruct (aget (o_name o) (s_hn s)) as [i|]; [|simpl; auto].
  destruct (Z.eqb (i_tier i) (o_tier o)); [simpl; auto|].
  destruct (zget (i_tier i) (s_tier s)); simpl; auto.
Qed.

(* UpdateHyperNode: an error is reported as not ready, and the invariant is kept *)
Lemma upd_outcome e s o : err_not_ready (upd e s o) /\ (ready_ok s -> ready_ok (fst (upd e s o))).
Proof.
  unfold upd, upd_gen. cbv zeta.
  match goal with |- context [if ?c then (s, false) else _] => destruct c end; [split; [discriminate|auto]|].
  match goal with |- context [let '(_, _) := ?c in _] => destruct c as [s1 freed] eqn:Eup end.
  match goal with |- context [if ?c then _ else _] => destruct c eqn:Erb end.
  - (* a rebuild: an error leaves Ready = false, success ends in refreshReady *)
    match goal with |- context [let '(_, _) := ?c in _] => destruct c as [s4 [|]] end.
    { split; [intros _; reflexivity|intros _ Hr; discriminate Hr]. }
    pose proof (freed_loop_err 5 e (o_name o) freed (unfail 5 s4 (o_name o), false)) as G.
    match goal with |- context [let '(_, _) := ?c in _] => destruct c as [s5 [|]] end.
    + specialize (G ltac:(discriminate) eq_refl). cbn [fst] in G.
      split; [intros _; exact G|]. intros _ Hr. cbn [fst] in Hr. rewrite G in Hr. discriminate.
    + split; [discriminate|]. intros _. apply refresh_ready_ok.
  - (* no rebuild: every step keeps Ready and the failed set *)
    split; [discriminate|]. intros Hs. cbn [fst].
    assert (Hs1 : ready_ok s1).
    { destruct (_ : bool) in Eup; inversion Eup; subst; [|exact Hs].
      apply (ready_ok_same s); [apply fold_release_other|exact Hs]. }
    match goal with |- ready_ok (match aget ?k (s_hn ?s2) with _ => _ end) => assert (Hs2 : ready_ok s2) end.
    { match goal with |- ready_ok (if ?c then _ else _) => destruct c end; [|exact Hs1].
      apply (ready_ok_same s1); [|exact Hs1].
      destruct (update_tier_set_other s1 o) as (a & b & _). auto. }
    match goal with |- ready_ok (match ?x with _ => _ end) => destruct x end; [|exact Hs2].
    eapply ready_ok_same; [|exact Hs2]. split; apply upd_info_other.
Qed.

Theorem upd_ready_ok : forall e s o, ready_ok s -> ready_ok (fst (upd e s o)).
Proof. intros e s o. apply upd_outcome. Qed.

Theorem del_ready_ok : forall e s nm, ready_ok (fst (del e s nm)).
Proof.
  intros e s nm. unfold del, del_gen. cbv zeta.
  match goal with |- context [let '(_, _) := ?c in _] => destruct c as [s2 [|]] end; cbn [fst].
  - intros Hr. discriminate Hr.
  - apply refresh_ready_ok.
Qed.

Lemma trigger_ready_ok : forall e s n, ready_ok s -> ready_ok (fst (trigger e s n)).
Proof.
  intros e s n Hs. unfold trigger, trigger_gen. apply (fold_left_inv (fun a => ready_ok (fst a))); [|exact Hs].
  intros [s0 [|]] ki Ha; [exact Ha|]. cbn [fst] in *.
  destruct (aget (fst ki) (s_hn s0)) as [i|]; [|exact Ha].
  destruct (_ || _); [|exact Ha]. now apply upd_ready_ok.
Qed.

(* after ANY history of HyperNode and node events (no hypothesis on the objects), a view that
   reports Ready has no failed rebuild outstanding — every rebuild that failed on a cycle or a
   double claim has since succeeded (or its HyperNode is gone).
   Contrapositive: as long as some rebuild has failed and has not been repaired, Ready = false. *)
Theorem ready_implies_no_failed_rebuild : forall evs e,
  let s := snd (run e evs) in s_ready s = true -> s_failed s = [].
Proof.
  intros evs e. unfold run. apply (fold_left_inv (fun es => ready_ok (snd es))); [|intros _; reflexivity].
  intros [e0 s0] ev H0. unfold step, step_gen. destruct ev as [o|nm|n|n]; cbn [snd] in *.
  - now apply upd_ready_ok.
  - apply del_ready_ok.
  - now apply trigger_ready_ok.
  - now apply trigger_ready_ok.
Qed.

(* once the error flag is set the member loop keeps state and flag *)
Lemma body_error_sticks e nm f ch an : forall ms s pr,
  fold_left (body e nm f ch an) ms (s, pr, true) = (s, pr, true).
Proof. induction ms as [|m ms IH]; intros s pr; simpl; [reflexivity|apply IH]. Qed.

(* ================= a true comparison of Laws.v is an equality ================= *)
Lemma list_eqb_eq {A} (eqb : A -> A -> bool) :
  (forall x y, eqb x y = true -> x = y) -> forall a b, list_eqb eqb a b = true -> a = b.
Proof.
  intros H. induction a as [|x r IH]; intros [|y s] E; simpl in E; try discriminate; [reflexivity|].
  apply andb_true_iff in E. destruct E as [E1 E2]. f_equal; [now apply H|now apply IH].
Qed.
Lemma plist_eqb_eq a b : plist_eqb a b = true -> a = b.
Proof. apply list_eqb_eq. intros x y. apply Pos.eqb_eq. Qed.
Lemma opt_eqb_eq a b : opt_eqb a b = true -> a = b.
Proof. destruct a, b; simpl; try discriminate; [|reflexivity]. intros H. apply Pos.eqb_eq in H. now subst. Qed.
Lemma tiers_eqb_eq a b : tiers_eqb a b = true -> a = b.
Proof.
  apply list_eqb_eq. intros [t1 l1] [t2 l2] E. simpl in E. apply andb_true_iff in E. destruct E as [E1 E2].
  apply Z.eqb_eq in E1. apply plist_eqb_eq in E2. now subst.
Qed.
