(* C14 — model of Session.recoverAllocatedHyperNode (framework/session.go:364-448) on the
   clusters of the allocate-trace stream, and its specification.
   At session open the in-memory AllocatedHyperNode of a hard-topology job is rebuilt from
   the nodes of its tasks in an allocated status (Bound, Binding, Running, Allocated):
   per sub-job with a topology of its own, the lowest-tier HyperNode whose leaf set holds
   all those nodes; for the job, the LCA of its sub-jobs' HyperNodes.  The code before the repair
   of finding D8 skipped sub-jobs without a topology of their own ([recover_all_gen false]).
   Also the Recorder sketch behind the D10 witness and adjustNetworkTopologySpec (limits by NAME). *)
From Coq Require Import ZArith List Bool Lia.
From V Require Import C14.Model C14.Lemmas.
Import ListNotations.
Open Scope Z_scope.

(* ---------- the cluster of a trace: leaves (tier 1), groups (tier 2), optional root (tier 3) ---------- *)
Fixpoint leaf_objs (i : positive) (next : positive) (leaves : list (positive * list Z))
  : list hobj * list (positive * positive) :=           (* objects, (leaf, group) pairs *)
  match leaves with
  | [] => ([], [])
  | (g, caps) :: r =>
      let nodes := map (fun k => Pos.of_nat (Pos.to_nat next + k)) (seq 0 (length caps)) in
      let '(os, gs) := leaf_objs (Pos.succ i) (Pos.of_nat (Pos.to_nat next + length caps)) r in
      (mkObj i 1 (map MNode nodes) :: os, (i, g) :: gs)
  end.

Definition max_group (gs : list (positive * positive)) : positive :=
  fold_left (fun m ig => Pos.max m (snd ig)) gs 1%positive.

Definition trace_objs (depth : Z) (leaves : list (positive * list Z)) : list hobj :=
  let '(los, gs) := leaf_objs 1 1 leaves in
  let L := Pos.of_nat (length leaves) in
  let G := max_group gs in
  let groups := map Pos.of_nat (seq 1 (Pos.to_nat G)) in
  let mids := flat_map (fun g =>
                 match map fst (filter (fun ig => Pos.eqb (snd ig) g) gs) with
                 | [] => []
                 | ls => [mkObj (L + g) 2 (map MHyper ls)]
                 end) groups in
  let root := if Z.leb 3 depth then [mkObj (L + G + 1) 3 (map (fun o => MHyper (o_name o)) mids)] else [] in
  los ++ mids ++ root.

(* the session's HyperNode map and leaf sets (cluster top included) *)
Definition trace_session (depth : Z) (leaves : list (positive * list Z))
  : list (positive * info) * list (positive * list positive) :=
  let s := scratch (mkEnv [] []) (trace_objs depth leaves) in
  let all := fold_left (fun acc kl => punion acc (snd kl)) (s_real s) [] in
  (add_top s, aset top_name all (s_real s)).

Definition covers_all (real : list (positive * list positive)) (h : positive) (nodes : list positive) : bool :=
  match aget h real with Some l => forallb (fun n => pmem n l) nodes | None => false end.

Definition lower (best : option (positive * info)) (ki : positive * info) : option (positive * info) :=
  match best with
  | None => Some ki
  | Some b => if Z.ltb (i_tier (snd ki)) (i_tier (snd b)) then Some ki else best
  end.

(* getLowestTierHyperNode over the HyperNodes that hold every node *)
Definition recover_sub (hn : list (positive * info)) (real : list (positive * list positive))
           (nodes : list positive) : option positive :=
  match nodes with
  | [] => None
  | _ => match fold_left (fun best ki => if covers_all real (fst ki) nodes then lower best ki else best) hn None with
         | Some b => Some (fst b)
         | None => None
         end
  end.

(* LCA over the sub-jobs' HyperNodes; the Go loop stops once the LCA is "" *)
Definition lca_fold (lca2 : option positive -> option positive -> option (option positive))
           (subs : list (option positive)) : option (option positive * bool) :=
  fold_left (fun acc s =>
    match acc with
    | None => None
    | Some (l, stop) =>
        if (stop : bool) then acc else
        match s with
        | None => acc
        | Some h => match lca2 l (Some h) with
                    | None => None
                    | Some r => Some (r, match r with None => true | Some _ => false end)
                    end
        end
    end) subs (Some (None, false)).

Definition recover_job (hn : list (positive * info)) (subs : list (option positive)) : option (option positive) :=
  match lca_fold (get_lca hn) subs with Some (l, _) => Some l | None => None end.

(* a pod of the trace: status code (0 pending, 1 Running, 2 Bound, 3 Binding, 4 Allocated,
   5 Releasing), node (where it sits / nominated node), role (sub-group label value) *)
Definition placed_status (c : Z) : bool := (1 <=? c) && (c <=? 4).

Definition roles_of (policy : Z) (pods : list (Z * positive * Z)) : list Z :=
  if Z.eqb policy 0 then [0]
  else fold_left (fun acc p => let r := snd p in
                    if existsb (Z.eqb r) acc then acc else acc ++ [r]) pods [].

Fixpoint zinsert (x : Z) (l : list Z) : list Z :=
  match l with [] => [x] | y :: r => if Z.leb x y then x :: l else y :: zinsert x r end.
Definition zsort (l : list Z) : list Z := fold_left (fun acc x => zinsert x acc) l [].

Definition nodes_of (policy role : Z) (pods : list (Z * positive * Z)) : list positive :=
  pset_of (map (fun p => snd (fst p))
               (filter (fun p => placed_status (fst (fst p)) &&
                                 (Z.eqb policy 0 || Z.eqb (snd p) role)) pods)).

(* recovered AllocatedHyperNode of every sub-job (by ascending role) and of the job.
   [fixed = false] is the code before the repair of finding D8: a sub-job created by a
   sub-group policy without a topology of its own (policy 1) was skipped although the job
   itself is constrained, so nothing was recovered for the job either. *)
Definition recover_all_gen (fixed : bool) (hn : list (positive * info)) (real : list (positive * list positive))
           (policy : Z) (pods : list (Z * positive * Z))
  : list (Z * option positive) * option (option positive) :=
  let subs := map (fun r => (r, if Z.eqb policy 1 && negb fixed then None
                                else recover_sub hn real (nodes_of policy r pods)))
                  (zsort (roles_of policy pods)) in
  (subs, recover_job hn (map snd subs)).
Definition recover_all := recover_all_gen true.

(* A scheduler that did not restart still remembers the job's AllocatedHyperNode (cache.go keeps
   it across sessions).  Session open (session.go:319-359, 376, 433):
   removeInvalidAllocatedHyperNode forgets it when that HyperNode has no entry or the job has no
   task in an allocated status; recoverAllocatedHyperNode then recovers the sub-jobs (none of
   them is remembered in the traces) and recomputes the job's HyperNode as the LCA of the
   sub-jobs' whenever it is empty OR some sub-job was just recovered — so a remembered value
   only survives when nothing is recovered for any sub-job. *)
Definition recover_with_memory (hn : list (positive * info)) (real : list (positive * list positive))
           (policy : Z) (pods : list (Z * positive * Z)) (remembered : option positive)
  : list (Z * option positive) * option (option positive) :=
  let '(subs, lca) := recover_all hn real policy pods in
  let placed := existsb (fun p => placed_status (fst (fst p))) pods in
  let kept := match remembered with
              | Some r => match aget r hn with Some _ => if placed then Some r else None | None => None end
              | None => None end in
  let updated := existsb (fun rs => match snd rs with Some _ => true | None => false end) subs in
  (subs, match kept with
         | Some r => if updated then lca else Some (Some r)
         | None => lca
         end).

(* ---------- allocate.Recorder (recorder.go): decisions of the job-level candidates ---------- *)
(* While a job-level candidate HyperNode is tried, the HyperNode chosen for each sub-job is
   recorded under that candidate; after the commit the records of the selected candidate are
   applied: AllocatedHyperNode(sub) := LCA(AllocatedHyperNode(sub), recorded).
   [reset = true] (repair of finding D10): a round starts from an empty record.  Before the
   repair the records of earlier rounds stayed and were replayed when a later round selected
   a candidate that an earlier round had only tried. *)
Definition rec_state := list (positive * list (Z * positive)).
Definition save_decision (r : rec_state) (cand : positive) (sub : Z) (h : positive) : rec_state :=
  let cur := match aget cand r with Some l => l | None => [] end in
  aset cand (zset sub h cur) r.

Definition apply_decisions (hn : list (positive * info)) (allocs : list (Z * option positive))
           (ds : list (Z * positive)) : list (Z * option positive) :=
  fold_left (fun acc d =>
    let cur := match zget (fst d) acc with Some o => o | None => None end in
    match get_lca hn cur (Some (snd d)) with
    | Some l => zset (fst d) l acc
    | None => acc
    end) ds allocs.

(* one allocation round of a job: the candidates tried (with the sub-job decisions made in
   each) and the candidate finally selected *)
Definition round := (list (positive * list (Z * positive)) * positive)%type.

Definition run_round (reset : bool) (hn : list (positive * info))
           (st : rec_state * list (Z * option positive)) (rd : round) : rec_state * list (Z * option positive) :=
  let '(r0, allocs) := st in
  let r1 := if reset then [] else r0 in
  let r2 := fold_left (fun r try => fold_left (fun r' d => save_decision r' (fst try) (fst d) (snd d)) (snd try) r)
                      (fst rd) r1 in
  (r2, apply_decisions hn allocs (match aget (snd rd) r2 with Some l => l | None => [] end)).

Definition run_rounds (reset : bool) (hn : list (positive * info)) (rds : list round) : list (Z * option positive) :=
  snd (fold_left (run_round reset hn) rds ([], [])).

(* ---------- adjustNetworkTopologySpec (session.go): tier limits given by NAME ---------- *)
(* A limit is a number or a tier name; "tier<n>" is name n.  The name table of the session
   (HyperNodeTierNameMap) maps the tier names carried by the HyperNodes to their tiers: in the
   trace clusters every HyperNode of tier t carries the name "tier<t>".  A name that no
   HyperNode carries cannot be translated: the failure is logged and the spec stays without a
   numeric limit (IsHardTopologyMode = false).  The job's spec is translated first, then the
   spec of each of its sub-jobs — each on its own.
   [skip = true] is the seeded mutant C14-r5-2: after a job-level failure the sub-jobs are not
   looked at (witness: Props/C14.v C14_adjust_skip_refuted). *)
Inductive tier_ref := TNum (t : Z) | TName (n : Z).

Definition name_table (s : st) : list Z := map fst (s_tier s).

Definition translate (table : list Z) (r : tier_ref) : option Z :=
  match r with
  | TNum t => Some t
  | TName n => if existsb (Z.eqb n) table then Some n else None
  end.

Definition untranslated (r : tier_ref) : option Z :=
  match r with TNum t => Some t | TName _ => None end.

Definition adjust (skip : bool) (table : list Z) (job : option tier_ref) (subs : list (Z * option tier_ref))
  : option Z * list (Z * option Z) :=
  let job_failed := match job with
                    | Some r => match translate table r with None => true | Some _ => false end
                    | None => false end in
  (match job with Some r => translate table r | None => None end,
   map (fun rs => (fst rs, match snd rs with
                           | None => None
                           | Some r => if skip && job_failed then untranslated r else translate table r
                           end)) subs).

(* the limit specs of a trace: job level (absent when only the sub-group policy carries the
   topology) and per sub-job (its own policy limit; a sub-job of a policy without topology has
   none; the default sub-job of a job without policy carries the job's spec) *)
Definition mk_ref (mode limit : Z) : tier_ref :=
  if Z.eqb mode 0 then TNum limit else if Z.eqb mode 1 then TName limit else TName 0.

Definition trace_limits (policy limit sub_limit job_mode sub_mode : Z) (roles : list Z)
  : option tier_ref * list (Z * option tier_ref) :=
  let jr := if Z.eqb policy 3 then None else Some (mk_ref job_mode limit) in
  (jr, map (fun r => (r, if Z.leb 2 policy then Some (mk_ref sub_mode sub_limit)
                         else if Z.eqb policy 0 then jr else None)) roles).

(* every sub-job's limit is what its own spec says, independently of the job's *)
Theorem adjust_sub_independent : forall table job job' subs,
  snd (adjust false table job subs) = snd (adjust false table job' subs).
Proof. reflexivity. Qed.

Lemma lower_spec best ki : exists b, lower best ki = Some b /\ (b = ki \/ best = Some b) /\
  i_tier (snd b) <= i_tier (snd ki) /\ match best with Some b0 => i_tier (snd b) <= i_tier (snd b0) | None => True end.
Proof.
  unfold lower. destruct best as [b0|]; [|exists ki; repeat split; auto; lia].
  destruct (Z.ltb (i_tier (snd ki)) (i_tier (snd b0))) eqn:El.
  - apply Z.ltb_lt in El. exists ki. repeat split; auto; lia.
  - apply Z.ltb_ge in El. exists b0. repeat split; auto; lia.
Qed.

(* getLowestTierHyperNode started with the candidate best: the result holds every node, is lowest
   among best and the HyperNodes of hn that do, and is one of them *)
Lemma recover_fold_spec real nodes : forall hn best,
  (match best with
   | Some b => covers_all real (fst b) nodes = true
   | None => True end) ->
  match fold_left (fun best ki => if covers_all real (fst ki) nodes then lower best ki else best) hn best with
  | Some r => covers_all real (fst r) nodes = true /\
              (forall ki, In ki hn -> covers_all real (fst ki) nodes = true -> i_tier (snd r) <= i_tier (snd ki)) /\
              (match best with Some b => i_tier (snd r) <= i_tier (snd b) | None => True end) /\
              (In r hn \/ best = Some r)
  | None => best = None /\ forall ki, In ki hn -> covers_all real (fst ki) nodes = false
  end.
Proof.
  induction hn as [|ki r IH]; intros best Hb; simpl.
  - destruct best as [b|]; [|split; [reflexivity|intros ki []]].
    split; [exact Hb|]. split; [intros ki []|]. split; [lia|now right].
  - destruct (covers_all real (fst ki) nodes) eqn:Ec.
    + destruct (lower_spec best ki) as (b & -> & Hor & Hki & Hbest).
      assert (Hcb : covers_all real (fst b) nodes = true) by (destruct Hor as [->| ->]; assumption).
      specialize (IH (Some b) Hcb).
      destruct (fold_left _ r (Some b)) as [x|]; [|destruct IH; discriminate].
      destruct IH as (I1 & I2 & I3 & I4). split; [exact I1|].
      split. { intros k [<-|Hin] Hc; [lia|now apply I2]. }
      split. { destruct best; [lia|exact I]. }
      destruct I4 as [I4|[= <-]]; [left; now right|].
      destruct Hor as [->|Hor]; [left; now left|now right].
    + specialize (IH best Hb).
      destruct (fold_left _ r best) as [x|].
      * destruct IH as (I1 & I2 & I3 & I4). split; [exact I1|].
        split. { intros k [<-|Hin] Hc; [congruence|now apply I2]. }
        split; [exact I3|]. destruct I4; [left; now right|now right].
      * destruct IH as [I1 I2]. split; [exact I1|]. intros k [<-|Hin]; [exact Ec|now apply I2].
Qed.

(* the recovered HyperNode of the job is the lowest common ancestor-or-self of the
   HyperNodes recovered for its sub-jobs (GetLCAHyperNode correctness, lca_correct) *)
Section JobLevel.
  Variable par : positive -> option positive.
  Variable fuel : nat.

  (* l is the lowest common ancestor-or-self of the HyperNodes in done ("" when there is none) *)
  Definition inv (done : list (option positive)) (l : option positive) : Prop :=
    match l with
    | None => forall h, ~ In (Some h) done
    | Some x => (forall h, In (Some h) done -> anc par h x) /\
                (forall c, (forall h, In (Some h) done -> anc par h c) -> anc par x c)
    end.

  Lemma inv_skip done l : inv done l -> inv (done ++ [None]) l.
  Proof.
    destruct l as [x|]; simpl.
    - intros [I1 I2]. split.
      + intros h [Hin|[=]]%In_snoc. now apply I1.
      + intros c Hc. apply I2. intros h Hin. apply Hc, In_snoc. now left.
    - intros Hinv h [Hin|[=]]%In_snoc. exact (Hinv h Hin).
  Qed.

  Lemma inv_lca done l h y : inv done l -> lca_gen par fuel l (Some h) = Some (Some y) -> inv (done ++ [Some h]) (Some y).
  Proof.
    intros Hinv El. destruct l as [x|]; simpl in *.
    - pose proof (lca_correct par fuel x h (Some y) El) as (A1 & A2 & A3).
      destruct Hinv as [I1 I2]. split.
      + intros h' [Hin|[= <-]]%In_snoc; [|exact A2]. eapply anc_trans; [apply I1; exact Hin|exact A1].
      + intros c Hc. apply A3.
        * apply I2. intros h' Hin. apply Hc, In_snoc. now left.
        * apply Hc, In_snoc. now right.
    - inversion El; subst. split.
      + intros h' [Hin|[= <-]]%In_snoc; [destruct (Hinv h' Hin)|apply anc_refl].
      + intros c Hc. apply Hc, In_snoc. now right.
  Qed.

  (* the loop keeps the invariant; once the fuel ran out or the LCA became "" it keeps that outcome *)
  Lemma lca_fold_inv : forall rest done l r stop,
    inv done l ->
    fold_left (fun acc s =>
      match acc with
      | None => None
      | Some (l, stop) =>
          if (stop : bool) then acc else
          match s with
          | None => acc
          | Some h => match lca_gen par fuel l (Some h) with
                      | None => None
                      | Some r => Some (r, match r with None => true | Some _ => false end)
                      end
          end
      end) rest (Some (l, false)) = Some (Some r, stop) ->
    inv (done ++ rest) (Some r).
  Proof.
    induction rest as [|s rest IH]; intros done l r stop Hinv H; simpl in H.
    - inversion H; subst. rewrite app_nil_r. exact Hinv.
    - replace (done ++ s :: rest) with ((done ++ [s]) ++ rest) by (rewrite <- app_assoc; reflexivity).
      destruct s as [h|]; [|eapply IH; [apply inv_skip; exact Hinv|exact H]].
      destruct (lca_gen par fuel l (Some h)) as [[y|]|] eqn:El.
      + eapply IH; [eapply inv_lca; eassumption|exact H].
      + rewrite (fold_left_inv (fun a => a = Some (@None positive, true))) in H;
          [discriminate|now intros a x ->|reflexivity].
      + rewrite (fold_left_inv (fun a => a = None)) in H; [discriminate|now intros a x ->|reflexivity].
  Qed.
End JobLevel.
