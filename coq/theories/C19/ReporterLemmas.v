(* C19 — proofs about the value ON THE NODE OBJECT: the reporter, Cleanup and
   every history of the whole pipeline. *)
From Coq Require Import ZArith List Bool Lia.
From V Require Import C19.Model C19.Laws C19.Lemmas C19.Reporter C19.ReporterLaws.
Import ListNotations.
Open Scope Z_scope.

Lemma write_ext_cur n ev : cur_of (write_ext n ev) = ev.
Proof.
  unfold write_ext. destruct ((fst (cur_of n) =? fst ev) && (snd (cur_of n) =? snd ev)) eqn:E.
  - apply andb_true_iff in E as [E1 E2]. apply Z.eqb_eq in E1, E2.
    destruct (cur_of n), ev; simpl in *; congruence.
  - destruct ev; reflexivity.
Qed.

Lemma write_ext_fields n ev :
  (write_ext n ev = n /\ cur_of n = ev) \/
  (n_xcpu (write_ext n ev) = Some (fst ev) /\ n_xmem (write_ext n ev) = Some (snd ev)).
Proof.
  unfold write_ext. destruct ((fst (cur_of n) =? fst ev) && (snd (cur_of n) =? snd ev)) eqn:E.
  - left. split; auto. apply andb_true_iff in E as [E1 E2]. apply Z.eqb_eq in E1, E2.
    destruct (cur_of n), ev; simpl in *; congruence.
  - right. split; reflexivity.
Qed.

Lemma write_ext_other n ev :
  n_label (write_ext n ev) = n_label n /\ n_acpu (write_ext n ev) = n_acpu n /\
  n_amem (write_ext n ev) = n_amem n /\ n_annot (write_ext n ev) = n_annot n.
Proof. unfold write_ext. destruct (_ && _); simpl; auto. Qed.

Lemma exceeds_false_close c e :
  0 <= c <= max_amount -> 0 <= e <= max_amount -> exceeds c e = false -> close1 c e = true.
Proof.
  intros Hc He. unfold exceeds, close1.
  assert (Hs : sub64 e c = e - c).
  { unfold sub64. apply wrap64_small. unfold in64, two63, max_amount in *. lia. }
  rewrite Hs.
  assert (Hd : (if e - c <? 0 then wrap64 (- (e - c)) else e - c) = Z.abs (e - c)).
  { destruct (e - c <? 0) eqn:E.
    - apply Z.ltb_lt in E. rewrite wrap64_small by (unfold in64, two63, max_amount in *; lia). lia.
    - apply Z.ltb_ge in E. lia. }
  rewrite Hd. destruct (c =? 0) eqn:C0.
  - apply Z.eqb_eq in C0. subst c. intros H. apply negb_false_iff in H. apply Z.eqb_eq in H. apply Z.eqb_eq. lia.
  - apply Z.eqb_neq in C0. destruct (c <? 0) eqn:Cn. { apply Z.ltb_lt in Cn. lia. }
    intros H. apply Z.ltb_ge in H. apply andb_true_iff. split; [apply Z.ltb_lt|apply Z.leb_le]; lia.
Qed.

Lemma close1_bound c e : 0 <= c -> close1 c e = true -> 9 * c <= 10 * e /\ 10 * e <= 11 * c.
Proof.
  unfold close1. intros Hc. destruct (c =? 0) eqn:C0.
  - apply Z.eqb_eq in C0. intros H. apply Z.eqb_eq in H. lia.
  - intros H. apply andb_true_iff in H as [H1 H2]. apply Z.ltb_lt in H1. apply Z.leb_le in H2. lia.
Qed.

Lemma close1_zero_event c : 0 <= c -> close1 c 0 = true -> c = 0.
Proof. intros Hc H. apply close1_bound in H; auto. lia. Qed.

Lemma rhandle_spec r n ev :
  label_on (n_label n) = true ->
  let '(r', n', err) := rhandle r n ev 0 in
  err = 0 /\ r_times r' = r_times r + 1 /\
  (n' = write_ext n ev \/
   (n' = n /\ (r_times r + 1) mod re_sync_period <> 0 /\ should_update (cur_of n) ev = false)).
Proof.
  intros L. unfold rhandle. change (0 =? 2) with false. rewrite L.
  change (0 =? 3) with false. change (0 =? 4) with false. cbn [negb orb]. cbv iota.
  destruct ((r_times r + 1) mod re_sync_period =? 0) eqn:F; cbn [orb]; cbv iota.
  - repeat split; auto.
  - destruct (should_update (cur_of n) ev) eqn:S; cbv iota.
    + repeat split; auto.
    + apply Z.eqb_neq in F. repeat split; auto.
Qed.

Lemma rhandle_node r n ev fail :
  let '(_, n', _) := rhandle r n ev fail in n' = n \/ n' = write_ext n ev.
Proof.
  unfold rhandle. destruct (fail =? 2); auto. destruct (negb (label_on (n_label n))); auto.
  destruct (_ || should_update _ _); auto. destruct ((fail =? 3) || (fail =? 4)); auto.
Qed.

Lemma cleanup_node_spec n fail :
  let '(n', err) := cleanup_node n fail in
  (err = true -> n' = n) /\
  (err = false -> cur_of n' = (0, 0) /\ label_on (n_label n') = false) /\
  (n' = n \/ (n_xcpu n' = None /\ n_xmem n' = None)) /\
  n_acpu n' = n_acpu n /\ n_amem n' = n_amem n /\ n_annot n' = n_annot n.
Proof.
  unfold cleanup_node. destruct (fail =? 1). { repeat split; auto; discriminate. }
  destruct (negb (reset_label (n_label n) =? n_label n) || negb (oz (n_xcpu n) =? 0) || negb (oz (n_xmem n) =? 0)) eqn:Ch; simpl negb; cbv iota.
  - destruct (fail =? 2). { repeat split; auto; discriminate. }
    repeat split; auto; try discriminate.
    unfold reset_label, label_on. simpl. destruct (n_label n =? 0) eqn:E; reflexivity.
  - apply orb_false_iff in Ch as [Ch C3]. apply orb_false_iff in Ch as [C1 C2].
    apply negb_false_iff in C1, C2, C3. apply Z.eqb_eq in C1, C2, C3.
    repeat split; auto; try discriminate.
    + unfold cur_of. now rewrite C2, C3.
    + unfold reset_label, label_on in *. destruct (n_label n =? 0) eqn:E.
      * apply Z.eqb_eq in E. rewrite E. reflexivity.
      * rewrite <- C1. reflexivity.
Qed.

Lemma set_label_true_spec n fail :
  let '(n', err) := set_label_true n fail in
  n_xcpu n' = n_xcpu n /\ n_xmem n' = n_xmem n /\ n_acpu n' = n_acpu n /\ n_amem n' = n_amem n /\
  n_annot n' = n_annot n /\ (err = false -> n_label n' = 1) /\ (err = true -> n' = n).
Proof.
  unfold set_label_true. destruct (fail =? 1). { repeat split; auto; discriminate. }
  destruct (n_label n =? 1) eqn:E. { apply Z.eqb_eq in E. repeat split; auto; discriminate. }
  destruct (fail =? 2); repeat split; auto; discriminate.
Qed.

Lemma rrefresh_node r n enable node_enable fail :
  let '(_, n', _) := rrefresh r n enable node_enable fail in
  ((n_xcpu n' = n_xcpu n /\ n_xmem n' = n_xmem n) \/ (n_xcpu n' = None /\ n_xmem n' = None)) /\
  n_acpu n' = n_acpu n /\ n_amem n' = n_amem n /\ n_annot n' = n_annot n.
Proof.
  unfold rrefresh.
  destruct (negb enable).
  - pose proof (cleanup_node_spec n fail) as H. destruct (cleanup_node n fail) as [n' err].
    destruct H as (_ & _ & [->|H] & A); auto.
  - destruct (r_enabled r && negb node_enable).
    + pose proof (cleanup_node_spec n fail) as H. destruct (cleanup_node n fail) as [n' err].
      destruct H as (_ & _ & [->|H] & A); auto.
    + pose proof (set_label_true_spec n fail) as H. destruct (set_label_true n fail) as [n' err].
      destruct H as (A & B & C & D & E & _). destruct err; auto.
Qed.

Definition ext_same (a b : node) : Prop := n_xcpu a = n_xcpu b /\ n_xmem a = n_xmem b.

(* a report handled without injected failure on an over-subscription node:
   the node now carries the event, or it was left alone because this was no
   forced re-sync and the event is within 10% of what the node shows *)
Lemma pstep_report_node pods s :
  o_handled (snd (pstep pods s (PReport 0))) = true -> label_on (n_label (ps_n s)) = true ->
  let s' := fst (pstep pods s (PReport 0)) in
  exists ev, o_ev (snd (pstep pods s (PReport 0))) = Some ev /\
    snd (cstep (ps_ratio s) pods (ps_c s) (OReport false (n_label (ps_n s)) (n_annot (ps_n s)) (n_acpu (ps_n s)) (n_amem (ps_n s)))) = ReportOut (Some ev) /\
    r_times (ps_r s') = r_times (ps_r s) + 1 /\
    (ps_n s' = write_ext (ps_n s) ev \/
     (ps_n s' = ps_n s /\ (r_times (ps_r s) + 1) mod re_sync_period <> 0 /\
      should_update (cur_of (ps_n s)) ev = false)).
Proof.
  intros H L. cbn [pstep] in *. change (0 =? 1) with false in *.
  destruct (snd (cstep (ps_ratio s) pods (ps_c s) (OReport false (n_label (ps_n s)) (n_annot (ps_n s)) (n_acpu (ps_n s)) (n_amem (ps_n s)))))
    as [f q|[ev|]|e] eqn:C; simpl in H; try discriminate.
  destruct (r_active (ps_r s)); simpl in H; try discriminate.
  pose proof (rhandle_spec (ps_r s) (ps_n s) ev L) as R.
  destruct (rhandle (ps_r s) (ps_n s) ev 0) as [[r' n'] err]. simpl.
  destruct R as (_ & T & R). exists ev. auto.
Qed.

(* the event of a report step is what the calculator's preProcess returns, handled or not *)
Lemma pstep_report_ev pods s fail :
  o_ev (snd (pstep pods s (PReport fail))) =
  match snd (cstep (ps_ratio s) pods (ps_c s)
               (OReport (fail =? 1) (n_label (ps_n s)) (n_annot (ps_n s)) (n_acpu (ps_n s)) (n_amem (ps_n s)))) with
  | ReportOut o => o
  | _ => None
  end.
Proof.
  cbn [pstep]. destruct (snd (cstep _ _ _ _)) as [f q|[ev|]|e]; try reflexivity.
  destruct (r_active (ps_r s)); [|reflexivity]. now destruct (rhandle _ _ _ _) as [[r' n'] err].
Qed.

Section Pipeline.
  Variables (pods : list (list pod)) (Rmax Ac Am : Z).
  Hypothesis HR : 0 <= Rmax <= 100.
  Hypothesis HAc : 0 <= Ac <= max_alloc.
  Hypothesis HAm : 0 <= Am <= max_alloc.
  Hypothesis Hpods : forall policy psel, 0 <= guaranteed_cpu_request policy (pods_at pods psel) <= max_amount.

  Definition NBc := Ac * Rmax / 100.
  Definition NBm := Am * Rmax / 100.

  Definition optz_in (b : Z) (o : option Z) : Prop :=
    match o with None => True | Some v => 0 <= v <= b end.
  Definition node_bounded (n : node) : Prop := optz_in NBc (n_xcpu n) /\ optz_in NBm (n_xmem n).

  Definition pinv (s : pstate) : Prop :=
    0 <= ps_ratio s <= Rmax /\ cinv (ps_ratio s) Ac Am (ps_c s) /\
    0 <= n_acpu (ps_n s) <= Ac /\ 0 <= n_amem (ps_n s) <= Am /\ node_bounded (ps_n s).

  Definition pop_ok (o : pop) : Prop :=
    match o with
    | PSample _ _ _ ucpu umem _ => 0 <= ucpu <= max_amount /\ 0 <= umem <= max_amount
    | PSetAlloc c m => 0 <= c <= Ac /\ 0 <= m <= Am
    | PRestart r => 0 <= r <= Rmax
    | _ => True
    end.

  Lemma B_mono ratio : 0 <= ratio <= Rmax -> Bc ratio Ac <= NBc /\ Bm ratio Am <= NBm.
  Proof. intros H. unfold Bc, Bm, NBc, NBm. split; apply Z.div_le_mono; nia. Qed.

  Lemma NB_le : 0 <= NBc <= Ac /\ 0 <= NBm <= Am.
  Proof.
    unfold NBc, NBm. repeat split.
    - apply Z.div_pos; nia.
    - apply Z.div_le_upper_bound; nia.
    - apply Z.div_pos; nia.
    - apply Z.div_le_upper_bound; nia.
  Qed.

  Lemma node_bounded_write n ev :
    0 <= fst ev <= NBc -> 0 <= snd ev <= NBm -> node_bounded n -> node_bounded (write_ext n ev).
  Proof.
    intros H1 H2 Hn. destruct (write_ext_fields n ev) as [[-> _]|[E1 E2]]; auto.
    unfold node_bounded. rewrite E1, E2. simpl. auto.
  Qed.

  Lemma node_bounded_cur n : node_bounded n ->
    0 <= fst (cur_of n) <= NBc /\ 0 <= snd (cur_of n) <= NBm.
  Proof.
    intros [H1 H2]. pose proof NB_le. unfold cur_of, oz. cbn [fst snd].
    destruct (n_xcpu n), (n_xmem n); simpl in *; lia.
  Qed.

  (* a step that keeps ratio and allocatable keeps the invariant as soon as the
     calculator state and the amounts on the node stay within their bounds *)
  Lemma pinv_keep s c' r' n' : pinv s -> cinv (ps_ratio s) Ac Am c' ->
    n_acpu n' = n_acpu (ps_n s) -> n_amem n' = n_amem (ps_n s) -> node_bounded n' ->
    pinv (mkP (ps_ratio s) c' r' n').
  Proof.
    intros (Hr & _ & Ha & Hm & _) Hc E1 E2 Hn. unfold pinv; cbn [ps_ratio ps_c ps_n]. rewrite E1, E2. auto.
  Qed.

  Lemma pstep_inv s o : pinv s -> pop_ok o -> pinv (fst (pstep pods s o)).
  Proof.
    intros Hs Ho. pose proof Hs as (Hr & Hc & Ha & Hm & Hn).
    assert (Hr' : 0 <= ps_ratio s <= 100) by lia.
    pose proof (cstep_inv (ps_ratio s) pods Ac Am Hr' HAc HAm Hpods (ps_c s)) as Hcalc.
    destruct o as [ne pe po uc um psl|fail|k ty|en nen fail|l|c m|a|r]; cbn [pstep].
    - destruct (Hcalc (OSample ne (n_label (ps_n s)) (n_acpu (ps_n s)) (n_amem (ps_n s)) pe po uc um psl) Hc) as [I _];
        [destruct Ho; simpl; repeat split; lia|].
      destruct (cstep _ _ _ _) as [c' out]. now apply pinv_keep.
    - destruct (Hcalc (OReport (fail =? 1) (n_label (ps_n s)) (n_annot (ps_n s)) (n_acpu (ps_n s)) (n_amem (ps_n s)))
                  Hc (conj Ha Hm)) as (_ & O & _).
      destruct (snd (cstep _ _ _ _)) as [f q|[ev|]|e]; cbn [fst]; try exact Hs.
      destruct (r_active (ps_r s)); cbn [fst]; [|exact Hs].
      pose proof (rhandle_node (ps_r s) (ps_n s) ev fail) as R.
      destruct (rhandle (ps_r s) (ps_n s) ev fail) as [[r' n'] err]. cbn [fst].
      simpl in O. destruct (B_mono (ps_ratio s) Hr) as [M1 M2].
      destruct (write_ext_other (ps_n s) ev) as (_ & E1 & E2 & _).
      destruct R as [->| ->]; apply pinv_keep; auto. apply node_bounded_write; auto; lia.
    - destruct (Hcalc (ORefresh k ty) Hc I) as [I' _].
      destruct (cstep _ _ _ _) as [c' out]. now apply pinv_keep.
    - pose proof (rrefresh_node (ps_r s) (ps_n s) en nen fail) as R.
      destruct (rrefresh (ps_r s) (ps_n s) en nen fail) as [[r' n'] err]. cbn [fst].
      destruct R as (X & E1 & E2 & _). apply pinv_keep; auto.
      unfold node_bounded in *. destruct X as [[-> ->]|[-> ->]]; simpl; auto.
    - now apply pinv_keep.
    - cbn [fst]. destruct Ho. unfold pinv; cbn [ps_ratio ps_c ps_n with_alloc n_acpu n_amem]. auto.
    - now apply pinv_keep.
    - cbn [fst]. simpl in Ho. unfold pinv; cbn [ps_ratio ps_c ps_n]. pose proof (cinv_init r Ac Am). auto.
  Qed.

  (* after ANY prefix of ANY history the amounts on the node are absent or within
     [0, Rmax% of the largest allocatable] *)
  Lemma prun_inv : forall ops s, pinv s -> Forall pop_ok ops ->
    pinv (fst (prun pods s ops)) /\
    Forall (fun on : pout * node => node_bounded (snd on)) (snd (prun pods s ops)).
  Proof.
    induction ops as [|o ops IH]; intros s Hs Hops; cbn [prun]. { simpl. auto. }
    inversion Hops as [|? ? Ho Hops']; subst.
    pose proof (pstep_inv s o Hs Ho) as H1.
    destruct (pstep pods s o) as [s1 out]. cbn [fst] in H1.
    destruct (IH s1 H1 Hops') as [I2 O2].
    destruct (prun pods s1 ops) as [s2 outs]. cbn [fst snd] in *.
    split; auto. constructor; auto. destruct H1 as (_ & _ & _ & _ & H1). exact H1.
  Qed.

  Lemma pinv_init ratio n :
    0 <= ratio <= Rmax -> 0 <= n_acpu n <= Ac -> 0 <= n_amem n <= Am -> node_bounded n ->
    pinv (pinit ratio n).
  Proof.
    intros. unfold pinit, pinv. cbn [ps_ratio ps_c ps_n].
    split; [lia|]. split; [apply cinv_init|]. split; [lia|]. split; [lia|]. assumption.
  Qed.

  (* a handled report: event within bounds, node amounts non-negative, so the
     threshold lemma applies: the node shows the event exactly or at most 10/9 of it *)
  Lemma pstep_report_close s :
    pinv s -> o_handled (snd (pstep pods s (PReport 0))) = true -> label_on (n_label (ps_n s)) = true ->
    let s' := fst (pstep pods s (PReport 0)) in
    exists ev, o_ev (snd (pstep pods s (PReport 0))) = Some ev /\
      0 <= fst ev <= NBc /\ 0 <= snd ev <= NBm /\
      (cur_of (ps_n s') = ev \/
       (ps_n s' = ps_n s /\ (r_times (ps_r s) + 1) mod re_sync_period <> 0 /\
        close1 (fst (cur_of (ps_n s))) (fst ev) = true /\ close1 (snd (cur_of (ps_n s))) (snd ev) = true /\
        9 * fst (cur_of (ps_n s')) <= 10 * fst ev /\ 9 * snd (cur_of (ps_n s')) <= 10 * snd ev)).
  Proof.
    intros (Hr & Hc & Ha & Hm & Hn) H L.
    assert (Hr' : 0 <= ps_ratio s <= 100) by lia.
    destruct (pstep_report_node pods s H L) as (ev & E & C & _ & D). exists ev. split; auto.
    pose proof (cstep_inv (ps_ratio s) pods Ac Am Hr' HAc HAm Hpods (ps_c s)
                  (OReport false (n_label (ps_n s)) (n_annot (ps_n s)) (n_acpu (ps_n s)) (n_amem (ps_n s))) Hc (conj Ha Hm)) as (_ & O & SO).
    rewrite C in O. simpl in O. destruct (B_mono (ps_ratio s) Hr) as [M1 M2].
    destruct NB_le as (N1 & N2).
    split; [lia|]. split; [lia|].
    destruct D as [D|(D & F & S)].
    - left. rewrite D. apply write_ext_cur.
    - right. rewrite D. split; auto. split; auto.
      apply orb_false_iff in S as [S1 S2].
      destruct (node_bounded_cur _ Hn) as [R1 R2].
      assert (K1 : close1 (fst (cur_of (ps_n s))) (fst ev) = true).
      { apply exceeds_false_close; auto; unfold max_amount, max_alloc in *; lia. }
      assert (K2 : close1 (snd (cur_of (ps_n s))) (snd ev) = true).
      { apply exceeds_false_close; auto; unfold max_amount, max_alloc in *; lia. }
      repeat split; auto.
      + apply close1_bound in K1; lia.
      + apply close1_bound in K2; lia.
  Qed.

  (* AFTER FIX 21d1eba: every emitted event is within ratio% of the allocatable the
     node has AT THAT MOMENT (not only of the largest allocatable of the history) *)
  Lemma pstep_event_current_allocatable s fail ev :
    pinv s -> o_ev (snd (pstep pods s (PReport fail))) = Some ev ->
    0 <= fst ev <= n_acpu (ps_n s) * ps_ratio s / 100 /\ 0 <= snd ev <= n_amem (ps_n s) * ps_ratio s / 100.
  Proof.
    intros (Hr & Hc & Ha & Hm & _) H.
    assert (Hr' : 0 <= ps_ratio s <= 100) by lia.
    pose proof (cstep_inv (ps_ratio s) pods Ac Am Hr' HAc HAm Hpods (ps_c s)
                  (OReport (fail =? 1) (n_label (ps_n s)) (n_annot (ps_n s)) (n_acpu (ps_n s)) (n_amem (ps_n s)))
                  Hc (conj Ha Hm)) as (_ & _ & SO).
    rewrite pstep_report_ev in H.
    destruct (snd (cstep (ps_ratio s) pods (ps_c s) _)) as [f q|[e|]|e]; try discriminate.
    injection H as ->. exact SO.
  Qed.

End Pipeline.

(* how long a stale amount can stay: unboundedly while the handler is inactive *)
Definition quiet_op (o : pop) : Prop :=
  match o with PSample _ _ _ _ _ _ | PReport _ | PTypes _ _ | PSetAlloc _ _ | PSetAnnot _ => True | _ => False end.

Lemma pstep_quiet_inactive pods s o : quiet_op o -> r_active (ps_r s) = false ->
  ext_same (ps_n (fst (pstep pods s o))) (ps_n s) /\ r_active (ps_r (fst (pstep pods s o))) = false.
Proof.
  intros Q A. destruct o; simpl in Q; try contradiction; cbn [pstep].
  - destruct (cstep _ _ _ _) as [c' out]. repeat split; auto.
  - destruct (snd (cstep _ _ _ _)) as [f q|[ev|]|e]; try solve [repeat split; auto]. rewrite A. repeat split; auto.
  - destruct (cstep _ _ _ _) as [c' out]. repeat split; auto.
  - repeat split; auto.
  - repeat split; auto.
Qed.

(* input of C19_node_strict_refuted (Props/C19.v): the update threshold keeps 600 on the node
   after a restart with a smaller ratio computes 570 *)
Definition stale_history : list pop :=
  [PTypes 3 [1; 2]; PReporterCfg true true 0;
   PSample false false 1 0 0 0; PReport 0;            (* node: 600 m *)
   PRestart 57; PTypes 3 [1; 2]; PReporterCfg true true 0;
   PSample false false 1 0 0 0; PReport 0].

Lemma optz_eqb_eq a b : optz_eqb a b = true -> a = b.
Proof. destruct a, b; simpl; intros H; try discriminate; auto. apply Z.eqb_eq in H. congruence. Qed.

