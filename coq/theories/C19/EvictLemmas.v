(* C19 — proofs about the eviction part of the model: who can reach the
   eviction client, in which order, and how many evictions can succeed.
   [eligible], [succeeded], [remove_succ], [flat_passes] and the boolean checks
   ([no_skip], [descending], ...) are defined in C19/Laws.v. *)
From Coq Require Import ZArith List Bool Lia Permutation Sorted.
From V Require Import C19.Model C19.Laws.
Import ListNotations.
Open Scope Z_scope.

Definition ge_req (res : Z) (a b : pod) : Prop := req res b <= req res a.

Lemma insert_perm res x l : Permutation (insert_desc res x l) (x :: l).
Proof.
  induction l as [|y r IH]; simpl; auto.
  destruct (req res y <? req res x); auto.
  eapply perm_trans; [apply perm_skip, IH|apply perm_swap].
Qed.

Lemma sort_perm_gen res l : forall acc,
  Permutation (fold_left (fun acc x => insert_desc res x acc) l acc) (l ++ acc).
Proof.
  induction l as [|x l IH]; intros acc; simpl; auto.
  eapply perm_trans; [apply IH|].
  eapply perm_trans; [apply Permutation_app_head, insert_perm|].
  symmetry. apply Permutation_middle.
Qed.

Lemma sort_perm res l : Permutation (sort_desc res l) l.
Proof. unfold sort_desc. rewrite <- (app_nil_r l) at 2. apply sort_perm_gen. Qed.

Lemma insert_sorted res x l :
  StronglySorted (ge_req res) l -> StronglySorted (ge_req res) (insert_desc res x l).
Proof.
  induction 1 as [|y r Hr IH Hy]; simpl.
  - constructor; constructor.
  - destruct (req res y <? req res x) eqn:E.
    + apply Z.ltb_lt in E. constructor. constructor; auto.
      constructor. unfold ge_req; lia.
      eapply Forall_impl; [|exact Hy]. unfold ge_req. intros; lia.
    + apply Z.ltb_ge in E. constructor; auto.
      rewrite Forall_forall. intros z Hz.
      apply (Permutation_in _ (insert_perm res x r)) in Hz. destruct Hz as [<-|Hz].
      * unfold ge_req; lia.
      * rewrite Forall_forall in Hy. auto.
Qed.

Lemma sort_sorted_gen res l : forall acc,
  StronglySorted (ge_req res) acc ->
  StronglySorted (ge_req res) (fold_left (fun acc x => insert_desc res x acc) l acc).
Proof. induction l; intros acc H; simpl; auto. apply IHl, insert_sorted, H. Qed.

Lemma sort_sorted res l : StronglySorted (ge_req res) (sort_desc res l).
Proof. apply sort_sorted_gen. constructor. Qed.

Lemma victims_perm res pods : Permutation (victims res pods) (filter preemptable pods).
Proof. apply sort_perm. Qed.

Lemma victims_in res pods p : In p (victims res pods) <-> In p pods /\ preemptable p = true.
Proof.
  rewrite <- filter_In. split; apply Permutation_in; [|symmetry]; apply victims_perm.
Qed.

Lemma victims_sorted res pods : StronglySorted (ge_req res) (victims res pods).
Proof. apply sort_sorted. Qed.

Lemma ssorted_app_l {A} (R : A -> A -> Prop) l1 l2 : StronglySorted R (l1 ++ l2) -> StronglySorted R l1.
Proof.
  induction l1 as [|x l1 IH]; simpl; intros H. constructor.
  inversion H; subst. constructor; auto. rewrite Forall_forall in *. intros y Hy. apply H3. apply in_or_app. auto.
Qed.

Lemma ssorted_filter {A} (R : A -> A -> Prop) (f : A -> bool) l : StronglySorted R l -> StronglySorted R (filter f l).
Proof.
  induction 1 as [|x l S IH Hx]; simpl. constructor.
  destruct (f x); auto. constructor; auto.
  rewrite Forall_forall in *. intros y Hy. apply filter_In in Hy. apply Hx. tauto.
Qed.

Lemma perm_filter {A} (f : A -> bool) l1 l2 : Permutation l1 l2 -> Permutation (filter f l1) (filter f l2).
Proof.
  induction 1; simpl; auto.
  - destruct (f x); auto.
  - destruct (f x), (f y); auto. apply perm_swap.
  - eapply perm_trans; eauto.
Qed.

Lemma filter_all_true {A} (f : A -> bool) l : (forall x, f x = true) -> filter f l = l.
Proof. intros H. induction l; simpl; auto. now rewrite H, IHl. Qed.

Lemma filter_len_le {A} (f : A -> bool) l : (length (filter f l) <= length l)%nat.
Proof. induction l; simpl; auto. destruct (f a); simpl; lia. Qed.

Lemma filter_len_lt {A} (f : A -> bool) l x : In x l -> f x = false -> (length (filter f l) < length l)%nat.
Proof.
  induction l as [|y l IH]; simpl; intros H E; [destruct H|].
  destruct H as [->|H]; [rewrite E; pose proof (filter_len_le f l); lia|].
  specialize (IH H E). destruct (f y); simpl; lia.
Qed.

Lemma nodup_id_eq pods p q :
  NoDup (map p_id pods) -> In p pods -> In q pods -> p_id p = p_id q -> p = q.
Proof.
  induction pods as [|x r IH]; simpl; intros ND Hp Hq E. tauto.
  inversion ND as [|? ? Hx ND']; subst.
  destruct Hp as [<-|Hp], Hq as [<-|Hq]; auto.
  - exfalso. apply Hx. rewrite E. now apply in_map.
  - exfalso. apply Hx. rewrite <- E. now apply in_map.
Qed.

Lemma filter_nodup_ids (f : pod -> bool) pods : NoDup (map p_id pods) -> NoDup (map p_id (filter f pods)).
Proof.
  induction pods as [|x r IH]; simpl; intros ND; auto.
  inversion ND as [|? ? Hx ND']; subst.
  destruct (f x); simpl; auto. constructor; auto.
  intros H. apply Hx. apply in_map_iff in H. destruct H as (y & E & Hy).
  apply filter_In in Hy. rewrite <- E. apply in_map. tauto.
Qed.

Lemma pod_eq_dec (a b : pod) : {a = b} + {a <> b}.
Proof. decide equality; try apply Z.eq_dec; try apply bool_dec. decide equality; apply Z.eq_dec. Qed.

Definition noncritical (p : pod) : bool := negb (critical p).

(* the loop characterised once: the non-critical pods of the list are handed to the
   client in order; every call fails except possibly the last ([o] holds the pod
   evicted, if any), and a loop without success goes through all of them *)
Lemma try_evict_spec : forall l fl, exists fails o rest,
  filter noncritical l = fails ++ o ++ rest /\
  a_calls (try_evict l fl) = map (fun p => (p_id p, false)) fails ++ map (fun p => (p_id p, true)) o /\
  a_evicted (try_evict l fl) = option_map p_id (hd_error o) /\
  (length o <= 1)%nat /\ (o = [] -> rest = []).
Proof.
  induction l as [|p r IH]; intros fl; simpl.
  - exists [], [], []. repeat split; auto.
  - unfold noncritical at 1. destruct (critical p); simpl; [apply IH|].
    destruct (next_flag fl) as [fail fl']. destruct (negb (p_stuck p) && negb fail); simpl.
    + exists [], [p], (filter noncritical r). repeat split; auto. discriminate.
    + destruct (IH fl') as (fails & o & rest & E & C & Ev & L & N).
      exists (p :: fails), o, rest. simpl. rewrite E, C. repeat split; auto.
Qed.

Lemma tried_count : forall l fl, (a_tried (try_evict l fl) <= length l)%nat.
Proof.
  induction l as [|p r IH]; intros fl; simpl. lia.
  destruct (critical p); simpl. specialize (IH fl); lia.
  destruct (next_flag fl) as [fail fl'].
  destruct (negb (p_stuck p) && negb fail); simpl. lia. specialize (IH fl'). lia.
Qed.

(* at most one call succeeds and nothing is tried after it *)
Definition one_success (cs : list (Z * bool)) : Prop :=
  (length (filter (fun c => snd c) cs) <= 1)%nat /\
  (forall pre c post, cs = pre ++ c :: post -> snd c = true -> post = []).

Lemma one_success_nil : one_success [].
Proof. split; [simpl; lia|]. intros pre c post E. destruct pre; discriminate. Qed.

Lemma one_success_shape (fails last : list (Z * bool)) :
  Forall (fun c => snd c = false) fails -> (length last <= 1)%nat -> one_success (fails ++ last).
Proof.
  intros F L. split.
  - rewrite filter_app, app_length.
    assert (H : filter (fun c : Z * bool => snd c) fails = []).
    { induction F as [|c l Hc F IH]; simpl; auto. now rewrite Hc. }
    rewrite H. pose proof (filter_len_le (fun c : Z * bool => snd c) last). simpl. lia.
  - intros pre c post E Hc. revert pre E. induction F as [|f fails Hf F IH]; intros pre E.
    + destruct last as [|x [|y last]]; simpl in L; try lia; destruct pre as [|z pre]; try discriminate.
      * now injection E as _ <-.
      * injection E as _ E. destruct pre; discriminate.
    + destruct pre as [|x pre]; simpl in E.
      * injection E as <- _. congruence.
      * injection E as _ E. eauto.
Qed.

Lemma succeeded_calls (fails o : list pod) :
  succeeded (map (fun p => (p_id p, false)) fails ++ map (fun p => (p_id p, true)) o) = map p_id o.
Proof.
  unfold succeeded. rewrite filter_app, map_app.
  replace (filter _ (map (fun p => (p_id p, false)) fails)) with (@nil (Z * bool)) by (induction fails; auto).
  simpl. induction o as [|q o IH]; simpl; congruence.
Qed.

(* only offline, non-critical pods of the population are behind the calls *)
Definition only_eligible (pods : list pod) (cs : list (Z * bool)) : Prop :=
  forall c, In c cs -> exists p, In p pods /\ p_id p = fst c /\ preemptable p = true /\ critical p = false.

Lemma filter_eligible l : filter eligible l = filter noncritical (filter preemptable l).
Proof.
  induction l as [|x l IH]; simpl; auto. unfold eligible, noncritical in *.
  destruct (preemptable x); simpl; [destruct (critical x); simpl|]; rewrite IH; auto.
Qed.

(* the strong form of "largest request first" for one list of calls made on the
   population pods: the pods behind the calls are, in order, a PREFIX of the
   eligible pods of that population sorted by descending request; the whole
   list when no call succeeded.  So the first call targets a maximal-request
   eligible pod and every next call a maximal one among those not yet tried. *)
Definition calls_strong (res : Z) (pods : list pod) (cs : list (Z * bool)) : Prop :=
  exists tried rest,
    map p_id tried = map fst cs /\
    StronglySorted (ge_req res) (tried ++ rest) /\
    Permutation (tried ++ rest) (filter eligible pods) /\
    (Forall (fun c => snd c = false) cs -> rest = []).

Lemma try_evict_strong res pods fl :
  calls_strong res pods (a_calls (try_evict (victims res pods) fl)).
Proof.
  destruct (try_evict_spec (victims res pods) fl) as (fails & o & rest & E & C & _ & _ & N).
  exists (fails ++ o), rest. rewrite <- app_assoc, <- E, C. split; [|split; [|split]].
  - rewrite !map_app, !map_map. reflexivity.
  - apply ssorted_filter, victims_sorted.
  - rewrite filter_eligible. apply perm_filter, victims_perm.
  - intros F. apply N. apply Forall_app in F as [_ F]. destruct o; [reflexivity|]. now inversion F.
Qed.

(* the weaker form: the pods behind the calls, in call order, have descending requests;
   and [one_success] of the calls, written out *)
Definition pass_sorted (res : Z) (pods0 : list pod) (calls : list (Z * bool)) : Prop :=
  (exists tried, map p_id tried = map fst calls /\ StronglySorted (ge_req res) tried /\ incl tried pods0) /\
  (length (filter (fun c => snd c) calls) <= 1)%nat /\
  (forall pre c post, calls = pre ++ c :: post -> snd c = true -> post = []).

Lemma calls_strong_sorted res pods cs : calls_strong res pods cs ->
  exists tried, map p_id tried = map fst cs /\ StronglySorted (ge_req res) tried /\ incl tried pods.
Proof.
  intros (tried & rest & I & S & P & _). exists tried. split; [exact I|]. split; [exact (ssorted_app_l _ _ _ S)|].
  intros p Hp. assert (H : In p (filter eligible pods)) by (apply (Permutation_in _ P), in_or_app; now left).
  now apply filter_In in H.
Qed.

Lemma calls_strong_eligible res pods cs : calls_strong res pods cs -> only_eligible pods cs.
Proof.
  intros (tried & rest & I & _ & P & _) c Hc.
  assert (H : In (fst c) (map p_id tried)) by (rewrite I; now apply in_map).
  apply in_map_iff in H. destruct H as (p & Eid & Hp). exists p.
  assert (H : In p (filter eligible pods)) by (apply (Permutation_in _ P), in_or_app; now left).
  apply filter_In in H. destruct H as [H He]. unfold eligible in He.
  apply andb_true_iff in He. destruct He as [He1 He2]. apply negb_true_iff in He2. auto.
Qed.

Lemma pass_sorted_incl res pods pods0 cs : incl pods pods0 -> pass_sorted res pods cs -> pass_sorted res pods0 cs.
Proof.
  intros I ((tried & A & B & C) & D). split; auto. exists tried. split; auto. split; auto. eapply incl_tran; eauto.
Qed.

(* what one step — an attempt, or nothing at all — on the population pods guarantees:
   pods' is what is left, cs what reached the client *)
Definition evict_step_ok (res : Z) (pods pods' : list pod) (cs : list (Z * bool)) : Prop :=
  only_eligible pods cs /\ pass_sorted res pods cs /\ incl pods' pods /\
  (NoDup (map p_id pods) ->
   NoDup (map p_id pods') /\
   forall p, In p pods -> ~ In p pods' -> preemptable p = true /\ critical p = false /\ In (p_id p, true) cs).

Lemma nothing_ok res pods : evict_step_ok res pods pods [].
Proof.
  split; [intros c []|]. split; [|split; [apply incl_refl | intros ND; split; [exact ND | tauto]]].
  split; [|apply one_success_nil]. exists []. split; [reflexivity|]. split; [constructor | intros x []].
Qed.

Lemma attempt_ok res pods fl :
  let a := try_evict (victims res pods) fl in evict_step_ok res pods (after_attempt pods a) (a_calls a).
Proof.
  intros a. pose proof (try_evict_strong res pods fl) as Hstrong. fold a in Hstrong.
  pose proof (calls_strong_eligible _ _ _ Hstrong) as Hel.
  destruct (try_evict_spec (victims res pods) fl) as (fails & o & rest & _ & C & Ev & L & _). fold a in C, Ev.
  unfold after_attempt. rewrite Ev. split; [exact Hel|]. split; [|split].
  - split; [now apply calls_strong_sorted|]. rewrite C.
    apply one_success_shape; [|now rewrite map_length].
    apply Forall_forall. intros c Hc. apply in_map_iff in Hc. now destruct Hc as (p & <- & _).
  - destruct o as [|q o']; simpl; [apply incl_refl|]. intros p Hp. unfold remove_pod in Hp. now apply filter_In in Hp.
  - intros ND. destruct o as [|q [|]]; simpl in L |- *; try lia; [split; [exact ND | tauto]|].
    split; [now apply filter_nodup_ids|]. intros p Hp Hn.
    (* the pod that is gone carries the id of the successful call, and that call's pod is eligible *)
    assert (Eid : p_id p = p_id q).
    { destruct (p_id p =? p_id q) eqn:E'; [now apply Z.eqb_eq in E'|].
      exfalso. apply Hn. unfold remove_pod. apply filter_In. split; auto. now rewrite E'. }
    assert (Hc : In (p_id q, true) (a_calls a)) by (rewrite C; apply in_or_app; right; now left).
    destruct (Hel _ Hc) as (p' & Hp' & Eid' & Pp & Cp). cbn [fst] in Eid'.
    rewrite (nodup_id_eq pods p p' ND Hp Hp') by congruence. rewrite Eid'. auto.
Qed.

(* the population after an attempt, recomputed from the calls alone *)
Lemma attempt_after res pods fl :
  let a := try_evict (victims res pods) fl in after_attempt pods a = remove_succ (a_calls a) pods.
Proof.
  intros a. destruct (try_evict_spec (victims res pods) fl) as (fails & o & rest & _ & C & Ev & L & _). fold a in C, Ev.
  unfold after_attempt, remove_succ. rewrite Ev, C, succeeded_calls.
  destruct o as [|q [|]]; simpl in L |- *; try lia.
  - symmetry. now apply filter_all_true.
  - apply filter_ext. intros p. now rewrite orb_false_r.
Qed.

(* online and critical pods survive every step *)
Lemma evict_step_stays res pods pods' cs p :
  evict_step_ok res pods pods' cs -> NoDup (map p_id pods) -> In p pods ->
  preemptable p = false \/ critical p = true -> In p pods'.
Proof.
  intros (_ & _ & _ & H) ND Hp Hon. destruct (in_dec pod_eq_dec p pods') as [Hi|Hn]; [exact Hi|].
  destruct (proj2 (H ND) p Hp Hn) as (A & B & _). destruct Hon; congruence.
Qed.

(* the same step seen from a larger population *)
Lemma evict_step_incl res pods0 pods pods' cs : incl pods pods0 -> evict_step_ok res pods pods' cs ->
  only_eligible pods0 cs /\ pass_sorted res pods0 cs /\ incl pods' pods0.
Proof.
  intros I (A & B & C & _). split; [|split; [now apply (pass_sorted_incl _ pods) | now apply (incl_tran C)]].
  intros c Hc. destruct (A c Hc) as (p & Hp & H). exists p. auto.
Qed.

Definition processed (e : pevent) : bool :=
  ((e_res e =? 1) || (e_res e =? 2)) && negb (e_node_err e) && negb (e_pods_err e).

Lemma handle_processed pods fl e : processed e = true ->
  handle (pods, fl) e =
    let a := try_evict (victims (e_res e) pods) fl in
    ((after_attempt pods a, a_flags a), mkH 0 (a_tried a) (a_calls a)).
Proof.
  unfold processed, handle. intros H.
  apply andb_true_iff in H as [H H3]. apply andb_true_iff in H as [H1 H2].
  apply negb_true_iff in H2, H3. rewrite H1, H2, H3. simpl.
  destruct (e_res e =? 0) eqn:E0; auto.
  apply Z.eqb_eq in E0. rewrite E0 in H1. discriminate.
Qed.

Lemma handle_not_processed pods fl e : processed e = false ->
  fst (handle (pods, fl) e) = (pods, fl) /\ h_calls (snd (handle (pods, fl) e)) = [].
Proof.
  unfold processed, handle. intros H.
  destruct (e_res e =? 0); auto. destruct (e_node_err e); auto.
  destruct ((e_res e =? 1) || (e_res e =? 2)); auto. simpl in *.
  destruct (e_pods_err e); auto. discriminate.
Qed.

(* manager.Handle is one attempt on the event's resource, or nothing *)
Lemma handle_ok pods fl e :
  evict_step_ok (e_res e) pods (fst (fst (handle (pods, fl) e))) (h_calls (snd (handle (pods, fl) e))).
Proof.
  destruct (processed e) eqn:P.
  - rewrite (handle_processed _ _ _ P). apply attempt_ok.
  - destruct (handle_not_processed pods fl e P) as [-> ->]. apply nothing_ok.
Qed.

(* sequences of pressure events: the i-th output is the handler's answer on the
   state reached after the first i events *)
Lemma hrun_app : forall l1 l2 s,
  hrun s (l1 ++ l2) =
  let '(s1, o1) := hrun s l1 in let '(s2, o2) := hrun s1 l2 in (s2, o1 ++ o2).
Proof.
  induction l1 as [|e l1 IH]; intros l2 s; cbn [hrun app].
  - destruct (hrun s l2). reflexivity.
  - destruct (handle s e) as [s1 o]. rewrite IH.
    destruct (hrun s1 l1) as [s2 o1]. destruct (hrun s2 l2) as [s3 o2]. reflexivity.
Qed.

Lemma hrun_length : forall l s, length (snd (hrun s l)) = length l.
Proof.
  induction l as [|e l IH]; intros s; cbn [hrun]; auto.
  destruct (handle s e) as [s1 o]. specialize (IH s1). destruct (hrun s1 l). simpl in *. now rewrite IH.
Qed.


(* one pass of EvictPods is one attempt, or nothing when the extend resource is not in use *)
Lemma evict_pass_ok res pods fl :
  let '(s', cs, k) := evict_pass res (pods, fl) in
  evict_step_ok res pods (fst s') cs /\ (length (fst s') <= length pods)%nat /\
  (k = true -> (length (fst s') < length pods)%nat).
Proof.
  unfold evict_pass. destruct (use_extend res pods); cbn [fst]; [|split; [apply nothing_ok | split; [lia | discriminate]]].
  split; [apply attempt_ok|].
  destruct (try_evict_spec (victims res pods) fl) as (fails & o & rest & E & _ & Ev & _). unfold after_attempt. rewrite Ev.
  destruct o as [|q o']; simpl; [split; [lia | discriminate]|].
  assert (Hq : In q pods).
  { assert (H : In q (filter noncritical (victims res pods))) by (rewrite E; apply in_or_app; right; now left).
    apply filter_In in H. destruct H as [H _]. now apply victims_in in H. }
  assert (H : (length (remove_pod (p_id q) pods) < length pods)%nat)
    by (apply (filter_len_lt _ pods q Hq); now rewrite Z.eqb_refl).
  split; [lia | intros _; exact H].
Qed.

Definition cl_ok (pods0 : list pod) (passes : list (list (Z * bool) * list (Z * bool))) (s : estate) : Prop :=
  only_eligible pods0 (flat_passes passes) /\
  incl (fst s) pods0 /\
  (forall p, In p pods0 -> preemptable p = false \/ critical p = true -> In p (fst s)) /\
  (* largest request first within every pass: cpu passes by cpu request, memory passes by memory request *)
  Forall (fun p => pass_sorted 1 pods0 (fst p) /\ pass_sorted 2 pods0 (snd p)) passes.

Lemma flat_passes_app a b : flat_passes (a ++ b) = flat_passes a ++ flat_passes b.
Proof. unfold flat_passes. apply flat_map_app. Qed.

(* the loop of EvictPods always ends within the fuel (each further round has
   evicted a pod), only offline non-critical pods reach the client and every other pod stays *)
Lemma evict_loop_ok : forall fuel round ne pods0 pods fl acc,
  (length pods < fuel)%nat -> NoDup (map p_id pods) -> cl_ok pods0 acc (pods, fl) ->
  exists err rounds calls s, evict_loop fuel round ne (pods, fl) acc = ClDone err rounds calls s /\ cl_ok pods0 calls s.
Proof.
  induction fuel as [|k IH]; intros round ne pods0 pods fl acc Hlen ND Hok. lia.
  cbn [evict_loop]. destruct (ne =? Z.of_nat round). { do 4 eexists. split; eauto. }
  pose proof (evict_pass_ok 1 pods fl) as F1.
  destruct (evict_pass 1 (pods, fl)) as [[[pods1 fl1] c1] k1]. cbn [fst] in F1. destruct F1 as (S1 & L1 & K1).
  pose proof (evict_pass_ok 2 pods1 fl1) as F2.
  destruct (evict_pass 2 (pods1, fl1)) as [[[pods2 fl2] c2] k2]. cbn [fst] in F2. destruct F2 as (S2 & L2 & K2).
  destruct Hok as (O1 & O2 & O3 & O4). cbn [fst] in *.
  destruct (proj2 (proj2 (proj2 S1)) ND) as [ND1 _]. destruct (proj2 (proj2 (proj2 S2)) ND1) as [ND2 _].
  destruct (evict_step_incl _ pods0 _ _ _ O2 S1) as (A1 & A2 & A3).
  destruct (evict_step_incl _ pods0 _ _ _ A3 S2) as (B1 & B2 & B3).
  assert (Hok' : cl_ok pods0 (acc ++ [(c1, c2)]) (pods2, fl2)).
  { split; [|split; [exact B3|split]]; cbn [fst].
    - intros c Hc. rewrite flat_passes_app in Hc. unfold flat_passes at 2 in Hc. simpl in Hc. rewrite app_nil_r in Hc.
      apply in_app_or in Hc. destruct Hc as [Hc|Hc]; [auto|]. apply in_app_or in Hc. destruct Hc; auto.
    - intros p Hp Hon. apply (evict_step_stays _ _ _ _ p S2 ND1); [|exact Hon].
      apply (evict_step_stays _ _ _ _ p S1 ND); auto.
    - apply Forall_app. split; auto. }
  destruct (k1 || k2) eqn:K; [|do 4 eexists; split; eauto].
  apply IH; auto.
  apply orb_true_iff in K. destruct K as [->| ->]; [specialize (K1 eq_refl)|specialize (K2 eq_refl)]; lia.
Qed.

(* one Cleanup pass: nothing is called when the extend resource is not in use,
   otherwise the strong form on the population that pass listed *)
Definition pass_strong (res : Z) (pods : list pod) (cs : list (Z * bool)) : Prop :=
  if use_extend res pods then calls_strong res pods cs else cs = [].

Lemma evict_pass_strong res pods fl :
  let '(s', cs, _) := evict_pass res (pods, fl) in
  pass_strong res pods cs /\ fst s' = remove_succ cs pods.
Proof.
  unfold evict_pass, pass_strong. destruct (use_extend res pods); cbn [fst].
  - split; [apply try_evict_strong | apply attempt_after].
  - split; [reflexivity|]. symmetry. now apply filter_all_true.
Qed.

(* all passes of a Cleanup, each judged on the population IT listed *)
Fixpoint passes_strong (pods : list pod) (passes : list (list (Z * bool) * list (Z * bool))) : Prop :=
  match passes with
  | [] => True
  | (c1, c2) :: r =>
      pass_strong 1 pods c1 /\ pass_strong 2 (remove_succ c1 pods) c2 /\
      passes_strong (remove_succ c2 (remove_succ c1 pods)) r
  end.

Fixpoint pods_after (pods : list pod) (passes : list (list (Z * bool) * list (Z * bool))) : list pod :=
  match passes with
  | [] => pods
  | (c1, c2) :: r => pods_after (remove_succ c2 (remove_succ c1 pods)) r
  end.

Lemma passes_strong_snoc : forall passes pods c1 c2,
  passes_strong pods passes ->
  pass_strong 1 (pods_after pods passes) c1 ->
  pass_strong 2 (remove_succ c1 (pods_after pods passes)) c2 ->
  passes_strong pods (passes ++ [(c1, c2)]) /\
  pods_after pods (passes ++ [(c1, c2)]) = remove_succ c2 (remove_succ c1 (pods_after pods passes)).
Proof.
  induction passes as [|[a b] r IH]; intros pods c1 c2 H H1 H2; simpl in *.
  - repeat split; auto.
  - destruct H as (A & B & C). destruct (IH _ c1 c2 C H1 H2) as [I1 I2]. repeat split; auto.
Qed.

Lemma evict_loop_strong : forall fuel round ne pods0 pods fl acc,
  passes_strong pods0 acc -> pods = pods_after pods0 acc ->
  match evict_loop fuel round ne (pods, fl) acc with
  | ClDone _ _ passes s => passes_strong pods0 passes /\ fst s = pods_after pods0 passes
  | ClFuel => True
  end.
Proof.
  induction fuel as [|k IH]; intros round ne pods0 pods fl acc HS HP; cbn [evict_loop]; auto.
  destruct (ne =? Z.of_nat round). { split; auto. }
  pose proof (evict_pass_strong 1 pods fl) as F1.
  destruct (evict_pass 1 (pods, fl)) as [[[pods1 fl1] c1] k1]. cbn [fst] in F1. destruct F1 as [S1 E1].
  pose proof (evict_pass_strong 2 pods1 fl1) as F2.
  destruct (evict_pass 2 (pods1, fl1)) as [[[pods2 fl2] c2] k2]. cbn [fst] in F2. destruct F2 as [S2 E2].
  subst pods pods1.
  destruct (passes_strong_snoc acc pods0 c1 c2 HS S1 S2) as [N1 N2].
  destruct (k1 || k2).
  - apply IH; auto. congruence.
  - split; auto. cbn [fst]. congruence.
Qed.


(* Prop-level meaning of the boolean checks of the laws *)
Lemma call_eligible_sound pods c : call_eligible pods c = true ->
  exists p, In p pods /\ p_id p = fst c /\ preemptable p = true /\ critical p = false.
Proof.
  unfold call_eligible, find_pod. destruct (find _ pods) as [p|] eqn:F; [|discriminate].
  intros E. apply find_some in F as [Hp Hid]. apply Z.eqb_eq in Hid.
  unfold eligible in E. apply andb_true_iff in E as [E1 E2]. apply negb_true_iff in E2.
  exists p. auto.
Qed.


Lemma descending_sound l : descending l = true -> StronglySorted (fun a b => b <= a) l.
Proof.
  intros H. apply Sorted_StronglySorted. { intros x y z; lia. }
  induction l as [|x l IH]; [constructor|].
  destruct l as [|y l']. { constructor; constructor. }
  simpl in H. apply andb_true_iff in H as [H1 H2]. apply Z.leb_le in H1.
  constructor; [apply IH; exact H2|constructor; exact H1].
Qed.

Lemma success_only_last_sound cs : success_only_last cs = true ->
  forall pre c post, cs = pre ++ c :: post -> snd c = true -> post = [].
Proof.
  induction cs as [|x cs IH]; intros H pre c post E Hc. { destruct pre; discriminate. }
  destruct cs as [|y cs'].
  - destruct pre as [|? pre]; simpl in E. now injection E as _ <-.
    injection E as _ E. destruct pre; discriminate.
  - simpl in H. apply andb_true_iff in H as [H1 H2]. apply negb_true_iff in H1.
    destruct pre as [|? pre]; simpl in E.
    + injection E as <- _. congruence.
    + injection E as _ E. eapply IH; eauto.
Qed.


Lemma no_skip_sound res pods calls p :
  no_skip res pods calls = true -> In p pods -> eligible p = true -> ~ In (p_id p) (map fst calls) ->
  succeeded calls <> [] /\ exists lastc, rev calls = lastc :: tl (rev calls) /\ req res p <= call_req res pods lastc.
Proof.
  unfold no_skip. intros H Hp He Hn. rewrite forallb_forall in H. specialize (H p Hp).
  rewrite He in H. simpl in H.
  assert (Z : zmem (p_id p) (map fst calls) = false).
  { unfold zmem. apply not_true_is_false. intros T. apply existsb_exists in T as (x & Hx & Ex).
    apply Z.eqb_eq in Ex. subst x. auto. }
  rewrite Z in H. simpl in H.
  destruct (succeeded calls) as [|s ss]; [discriminate|]. destruct (rev calls) as [|lastc r]; [discriminate|].
  apply Z.leb_le in H. split; [discriminate|]. exists lastc. simpl. auto.
Qed.

