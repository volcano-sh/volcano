(* C19 — proofs about the model of the over-subscription calculator: one sample, the queue,
   the report, the cap, every history.  [max_alloc], [max_amount], [wsum], [lmax], [lmin], [zin]
   and the law_* checks are defined in C19/Laws.v. *)
From Coq Require Import ZArith List Bool Lia.
From V Require Import C19.Model C19.Laws.
Import ListNotations.
Open Scope Z_scope.

Definition in64 (x : Z) : Prop := - two63 <= x < two63.

Lemma wrap64_small x : in64 x -> wrap64 x = x.
Proof.
  unfold in64, wrap64, two63, two64. intros H.
  rewrite Z.mod_small; lia.
Qed.

Ltac consts := unfold in64, two63, two64, max_alloc, max_amount in *.


(* extend.go 143-147 for one resource type, inside the stated range: the
   sample is the ratio% share (rounded down) of what is left unused, never
   negative, never above ratio% of allocatable, zero when usage exceeds total *)
Lemma sample_bounds ratio alloc greq usage :
  0 <= ratio <= 100 -> 0 <= alloc <= max_alloc -> 0 <= greq <= max_amount -> 0 <= usage <= max_amount ->
  let total := alloc - greq in
  let s := calc_sample (sub64 alloc greq) usage ratio in
  0 <= s /\ s <= alloc * ratio / 100 /\ alloc * ratio / 100 <= alloc /\
  (usage <= total -> s = (total - usage) * ratio / 100 /\ s <= total - usage) /\
  (total < usage -> s = 0).
Proof.
  intros Hr Ha Hg Hu total s.
  assert (Hsub : sub64 alloc greq = total).
  { unfold sub64. apply wrap64_small. consts. subst total. lia. }
  assert (Hdiv : alloc * ratio / 100 <= alloc).
  { apply Z.div_le_upper_bound; nia. }
  assert (H0 : 0 <= alloc * ratio / 100) by (apply Z.div_pos; nia).
  subst s. unfold calc_sample. rewrite Hsub.
  destruct (total >=? usage) eqn:E.
  - assert (usage <= total) by lia.
    assert (Hd : 0 <= total - usage <= alloc) by (subst total; lia).
    unfold sub64. rewrite (wrap64_small (total - usage)) by (consts; lia).
    unfold mul64. rewrite wrap64_small by (consts; nia).
    unfold quot64. rewrite Z.quot_div_nonneg by nia.
    assert (0 <= (total - usage) * ratio / 100) by (apply Z.div_pos; nia).
    assert ((total - usage) * ratio / 100 <= alloc * ratio / 100) by (apply Z.div_le_mono; nia).
    assert ((total - usage) * ratio / 100 <= total - usage) by (apply Z.div_le_upper_bound; nia).
    repeat split; try lia.
  - assert (total < usage) by lia.
    repeat split; try lia.
Qed.

(* the request of guaranteed pods is within range for every sane pod list *)
Lemma guaranteed_fold_bounds pods acc :
  Forall (fun p => 0 <= p_cpu p <= max_alloc) pods -> 0 <= acc ->
  acc <= fold_left (fun acc p => if guaranteed_online p then acc + p_cpu p else acc) pods acc
      <= acc + Z.of_nat (length pods) * max_alloc.
Proof.
  intros H; revert acc; induction H as [|p l Hp Hl IH]; intros acc Hacc.
  - simpl. lia.
  - cbn [fold_left length]. rewrite Nat2Z.inj_succ.
    destruct (guaranteed_online p).
    + specialize (IH (acc + p_cpu p) ltac:(lia)). unfold max_alloc in *. lia.
    + specialize (IH acc Hacc). unfold max_alloc in *. lia.
Qed.

Lemma guaranteed_request_range policy pods :
  Forall (fun p => 0 <= p_cpu p <= max_alloc) pods -> (length pods <= 256)%nat ->
  0 <= guaranteed_cpu_request policy pods <= max_amount.
Proof.
  intros H L. unfold guaranteed_cpu_request.
  destruct (include_guaranteed policy). { consts; lia. }
  pose proof (guaranteed_fold_bounds pods 0 H ltac:(lia)). consts. lia.
Qed.

(* both components of the sample that CalOverSubscriptionResources enqueues *)
Lemma sample_pair_bounds ratio acpu amem greq ucpu umem :
  0 <= ratio <= 100 -> 0 <= acpu <= max_alloc -> 0 <= amem <= max_alloc ->
  0 <= greq <= max_amount -> 0 <= ucpu <= max_amount -> 0 <= umem <= max_amount ->
  let r := sample_pair ratio acpu amem greq ucpu umem in
  0 <= fst r <= acpu * ratio / 100 /\ 0 <= snd r <= amem * ratio / 100 /\
  (acpu - greq < ucpu -> fst r = 0) /\ (amem < umem -> snd r = 0) /\
  (ucpu <= acpu - greq -> fst r = (acpu - greq - ucpu) * ratio / 100) /\
  (umem <= amem -> snd r = (amem - umem) * ratio / 100).
Proof.
  intros Hr Hac Ham Hg Huc Hum r. subst r. unfold sample_pair. cbn [fst snd].
  pose proof (sample_bounds ratio acpu greq ucpu Hr Hac Hg Huc) as Hc.
  pose proof (sample_bounds ratio amem 0 umem Hr Ham ltac:(consts; lia) Hum) as Hm.
  cbv zeta in Hc, Hm.
  assert (E0 : sub64 amem 0 = amem).
  { unfold sub64. rewrite Z.sub_0_r. apply wrap64_small. consts. lia. }
  rewrite E0 in Hm. rewrite Z.sub_0_r in Hm.
  destruct Hc as (c1 & c2 & c3 & c4 & c5). destruct Hm as (m1 & m2 & m3 & m4 & m5).
  repeat split; try lia.
Qed.

Lemma enqueue_length q r : (length q <= 10)%nat -> (1 <= length (enqueue q r) <= 10)%nat.
Proof.
  intros H. unfold enqueue, queue_size.
  destruct (Nat.ltb 10 (length (q ++ [r]))) eqn:E.
  - apply Nat.ltb_lt in E. rewrite app_length in E. simpl in E.
    destruct q as [|x q']; simpl in *. lia.
    rewrite app_length. simpl. lia.
  - apply Nat.ltb_ge in E. rewrite app_length in *. simpl in *. lia.
Qed.

Lemma enqueue_forall (P : Z * Z -> Prop) q r : Forall P q -> P r -> Forall P (enqueue q r).
Proof.
  intros Hq Hr. unfold enqueue.
  assert (H : Forall P (q ++ [r])) by (apply Forall_app; split; auto).
  destruct (Nat.ltb queue_size (length (q ++ [r]))); auto.
  destruct (q ++ [r]); simpl; auto. inversion H; auto.
Qed.

Definition wstep_pure (s : wstate) (u : Z * Z) : wstate :=
  let '(ac, am, tw, w) := s in (ac + fst u * w, am + snd u * w, tw + w, w * 2).

(* the pure fold is the mathematical weighted sum of Laws.wsum *)
Lemma wfold_pure_wsum : forall q ac am tw w,
  fold_left wstep_pure q (ac, am, tw, w) =
  (ac + fst (wsum w (map fst q)), am + fst (wsum w (map snd q)), tw + snd (wsum w (map fst q)),
   w * 2 ^ Z.of_nat (length q)).
Proof.
  induction q as [|u q IH]; intros ac am tw w.
  - simpl. f_equal; try f_equal; try f_equal; lia.
  - cbn [fold_left]. unfold wstep_pure at 2. rewrite IH.
    cbn [map wsum length].
    replace (w * 2) with (2 * w) by lia.
    destruct (wsum (2 * w) (map fst q)) as [s1 t1] eqn:W1.
    destruct (wsum (2 * w) (map snd q)) as [s2 t2] eqn:W2.
    cbn [fst snd]. rewrite Nat2Z.inj_succ, Z.pow_succ_r by lia.
    f_equal; [f_equal; [f_equal|]|]; ring.
Qed.

(* n samples weigh w * (2^n - 1) in total, whatever they are *)
Lemma wsum_weight l : forall w, snd (wsum w l) = w * (2 ^ Z.of_nat (length l) - 1).
Proof.
  induction l as [|x l IH]; intros w; cbn [wsum length]; [simpl; lia|].
  specialize (IH (2 * w)). destruct (wsum (2 * w) l) as [s t]. cbn [snd] in *.
  rewrite IH, Nat2Z.inj_succ, Z.pow_succ_r by lia. ring.
Qed.

(* the weighted sum of samples within [lo, hi] lies within [lo, hi] times the total weight *)
Lemma wsum_bounds lo hi l : Forall (fun x => lo <= x <= hi) l ->
  forall w, 0 <= w -> lo * snd (wsum w l) <= fst (wsum w l) <= hi * snd (wsum w l).
Proof.
  induction 1 as [|x l Hx _ IH]; intros w Hw; cbn [wsum]; [simpl; lia|].
  specialize (IH (2 * w) ltac:(lia)). destruct (wsum (2 * w) l) as [s t]. cbn [fst snd] in *. nia.
Qed.

Lemma wsum_nonneg l : Forall (fun x => 0 <= x) l -> forall w, 0 <= w -> 0 <= fst (wsum w l) /\ 0 <= snd (wsum w l).
Proof.
  induction 1 as [|x l Hx _ IH]; intros w Hw; cbn [wsum]; [simpl; lia|].
  specialize (IH (2 * w) ltac:(lia)). destruct (wsum (2 * w) l) as [s t]. cbn [fst snd] in *. nia.
Qed.

(* sums of non-negative terms only grow, so a fold whose final values fit int64 never wraps on the way *)
Lemma wfold_no_wrap : forall q ac am tw w,
  Forall (fun u => 0 <= fst u /\ 0 <= snd u) q -> 0 <= ac -> 0 <= am -> 0 <= tw -> 0 <= w ->
  (let '(ac', am', tw', w') := fold_left wstep_pure q (ac, am, tw, w) in
   ac' < two63 /\ am' < two63 /\ tw' < two63 /\ w' < two63) ->
  fold_left wstep q (ac, am, tw, w) = fold_left wstep_pure q (ac, am, tw, w).
Proof.
  induction q as [|[c m] q IH]; intros ac am tw w HF Hac Ham Htw Hw Hfin; [reflexivity|].
  inversion HF as [|? ? [Hc Hm] HF']; subst. cbn [fst snd] in Hc, Hm. cbn [fold_left] in *.
  assert (Hstep : wstep (ac, am, tw, w) (c, m) = wstep_pure (ac, am, tw, w) (c, m)).
  { unfold wstep_pure in Hfin. cbn [fst snd] in Hfin. rewrite wfold_pure_wsum in Hfin.
    destruct (wsum_nonneg (map fst q)) with (w := w * 2) as [N1 N3]; [|lia|].
    { apply Forall_map. eapply Forall_impl; [|exact HF']. tauto. }
    destruct (wsum_nonneg (map snd q)) with (w := w * 2) as [N2 _]; [|lia|].
    { apply Forall_map. eapply Forall_impl; [|exact HF']. tauto. }
    assert (P : 1 <= 2 ^ Z.of_nat (length q)) by (pose proof (Z.pow_pos_nonneg 2 (Z.of_nat (length q))); lia).
    destruct Hfin as (F1 & F2 & F3 & F4).
    assert (Hcw : 0 <= c * w) by nia. assert (Hmw : 0 <= m * w) by nia.
    assert (Hw2 : w * 2 <= w * 2 * 2 ^ Z.of_nat (length q)) by nia.
    unfold wstep, wstep_pure, add64, mul64. cbn [fst snd].
    rewrite (wrap64_small (c * w)), (wrap64_small (m * w)), (wrap64_small (ac + c * w)), (wrap64_small (am + m * w)),
      (wrap64_small (tw + w)), (wrap64_small (w * 2)) by (unfold in64, two63 in *; lia). reflexivity. }
  rewrite Hstep. change (wstep_pure (ac, am, tw, w) (c, m)) with (ac + c * w, am + m * w, tw + w, w * 2) in *.
  apply IH; auto; nia.
Qed.

(* main lemma about the report: for every history of 1..10 samples, each
   within [lo, hi] (0 <= lo, hi <= 2^53), the reported amount is the weighted
   mean with doubling weights rounded down, and lies within [lo, hi] *)
Lemma report_bounds q lo1 hi1 lo2 hi2 :
  (1 <= length q <= 10)%nat -> 0 <= lo1 -> hi1 <= max_alloc -> 0 <= lo2 -> hi2 <= max_alloc ->
  Forall (fun u => lo1 <= fst u <= hi1 /\ lo2 <= snd u <= hi2) q ->
  exists c m, compute_report q = Some (c, m) /\
    lo1 <= c <= hi1 /\ lo2 <= m <= hi2 /\
    c = fst (wsum 1 (map fst q)) / snd (wsum 1 (map fst q)) /\
    m = fst (wsum 1 (map snd q)) / snd (wsum 1 (map snd q)) /\
    snd (wsum 1 (map fst q)) = 2 ^ Z.of_nat (length q) - 1.
Proof.
  intros Hlen Hlo1 Hhi1 Hlo2 Hhi2 HF.
  (* the total weight: 2^n - 1, between 1 and 1023 *)
  assert (W1 : snd (wsum 1 (map fst q)) = 2 ^ Z.of_nat (length q) - 1) by (rewrite wsum_weight, map_length; lia).
  assert (W2 : snd (wsum 1 (map snd q)) = 2 ^ Z.of_nat (length q) - 1) by (rewrite wsum_weight, map_length; lia).
  assert (P : 2 <= 2 ^ Z.of_nat (length q) <= 1024).
  { split; [change 2 with (2 ^ 1) at 1 | change 1024 with (2 ^ 10)]; apply Z.pow_le_mono_r; lia. }
  (* the weighted sums: within [lo, hi] times the total weight *)
  assert (B1 : lo1 * snd (wsum 1 (map fst q)) <= fst (wsum 1 (map fst q)) <= hi1 * snd (wsum 1 (map fst q))).
  { apply wsum_bounds; [|lia]. apply Forall_map. eapply Forall_impl; [|exact HF]. tauto. }
  assert (B2 : lo2 * snd (wsum 1 (map snd q)) <= fst (wsum 1 (map snd q)) <= hi2 * snd (wsum 1 (map snd q))).
  { apply wsum_bounds; [|lia]. apply Forall_map. eapply Forall_impl; [|exact HF]. tauto. }
  rewrite W1 in B1. rewrite W2 in B2 |- *. rewrite W1.
  set (s1 := fst (wsum 1 (map fst q))) in *. set (s2 := fst (wsum 1 (map snd q))) in *.
  set (t := 2 ^ Z.of_nat (length q) - 1) in *.
  (* no wrap: sums at most 2^53 * 1023 *)
  assert (E : fold_left wstep q (0, 0, 0, 1) = (s1, s2, t, 2 ^ Z.of_nat (length q))).
  { assert (Hhi1' : 0 <= hi1) by (destruct q as [|u q']; [simpl in Hlen; lia | inversion HF; lia]).
    assert (Hhi2' : 0 <= hi2) by (destruct q as [|u q']; [simpl in Hlen; lia | inversion HF; lia]).
    rewrite wfold_no_wrap; try lia.
    - now rewrite wfold_pure_wsum, W1, !Z.add_0_l, Z.mul_1_l.
    - eapply Forall_impl; [|exact HF]. cbv beta. lia.
    - rewrite wfold_pure_wsum, W1. fold s1 s2 t. unfold two63, max_alloc in *. nia. }
  exists (s1 / t), (s2 / t). split.
  { unfold compute_report. destruct q as [|u q']; [simpl in Hlen; lia|].
    rewrite E. unfold quot64. rewrite !Z.quot_div_nonneg by nia. reflexivity. }
  repeat split; try reflexivity; try (apply Z.div_le_lower_bound; nia); apply Z.div_le_upper_bound; nia.
Qed.

Lemma lmax_nonneg l : 0 <= lmax l.
Proof. induction l; simpl; lia. Qed.
Lemma lmax_ge l x : In x l -> x <= lmax l.
Proof. induction l; simpl; intros H; [tauto|]. destruct H; [subst|apply IHl in H]; lia. Qed.
Lemma fold_min_le y l x : x = y \/ In x l -> fold_right Z.min y l <= x.
Proof.
  induction l as [|z l IH]; simpl; [intros [->|[]]; lia|].
  intros [H|[->|H]]; [specialize (IH (or_introl H)) | | specialize (IH (or_intror H))]; lia.
Qed.
Lemma lmin_le l x : In x l -> lmin l <= x.
Proof. destruct l as [|y l]; simpl; [tauto|]. intros [<-|H]; apply fold_min_le; auto. Qed.
Lemma lmin_nonneg l : Forall (fun x => 0 <= x) l -> 0 <= lmin l.
Proof.
  destruct l as [|y l]; simpl; intros H; [lia|]. inversion H; subst.
  revert y H H2. induction l; intros; simpl. lia. inversion H3; subst.
  assert (0 <= fold_right Z.min y l) by (apply IHl; auto). lia.
Qed.
Lemma lmax_le_bound l b : 0 <= b -> Forall (fun x => x <= b) l -> lmax l <= b.
Proof. intros Hb H; induction H; simpl; lia. Qed.

(* the report is at most the largest and at least the smallest recent sample *)
Lemma report_between_min_max q :
  (1 <= length q <= 10)%nat ->
  Forall (fun u => 0 <= fst u <= max_alloc /\ 0 <= snd u <= max_alloc) q ->
  exists c m, compute_report q = Some (c, m) /\
    lmin (map fst q) <= c <= lmax (map fst q) /\ lmin (map snd q) <= m <= lmax (map snd q) /\
    0 <= c /\ 0 <= m.
Proof.
  intros Hlen HF.
  assert (N1 : 0 <= lmin (map fst q)).
  { apply lmin_nonneg. apply Forall_map. eapply Forall_impl; [|exact HF]. simpl; tauto. }
  assert (N2 : 0 <= lmin (map snd q)).
  { apply lmin_nonneg. apply Forall_map. eapply Forall_impl; [|exact HF]. simpl; tauto. }
  destruct (report_bounds q (lmin (map fst q)) (lmax (map fst q)) (lmin (map snd q)) (lmax (map snd q)))
    as (c & m & E & B1 & B2 & _); auto.
  - apply lmax_le_bound. unfold max_alloc; lia. apply Forall_map. eapply Forall_impl; [|exact HF]. simpl; tauto.
  - apply lmax_le_bound. unfold max_alloc; lia. apply Forall_map. eapply Forall_impl; [|exact HF]. simpl; tauto.
  - apply Forall_forall. intros u Hu. split; split.
    + apply lmin_le. now apply in_map.
    + apply lmax_ge. now apply in_map.
    + apply lmin_le. now apply in_map.
    + apply lmax_ge. now apply in_map.
  - exists c, m. repeat split; auto; lia.
Qed.

(* what one preProcess emits: zero for every switched-off type *)
Lemma report_step_masked ratio pods s node_err label annot acpu amem s' ev :
  cstep ratio pods s (OReport node_err label annot acpu amem) = (s', ReportOut (Some ev)) ->
  (has_type 1 (effective_types (c_types s) annot) = false -> fst ev = 0) /\
  (has_type 2 (effective_types (c_types s) annot) = false -> snd ev = 0).
Proof.
  unfold cstep. destruct (node_err || negb (label_on label)); [discriminate|].
  destruct (compute_report (c_queue s)) as [r|]; [|discriminate].
  intros H. injection H as _ H. subst ev. unfold mask_event. split; intros T; now rewrite T.
Qed.

Lemma cap_event_bounds ratio acpu amem r :
  0 <= ratio <= 100 -> 0 <= acpu <= max_alloc -> 0 <= amem <= max_alloc -> 0 <= fst r -> 0 <= snd r ->
  let e := cap_event ratio acpu amem r in
  0 <= fst e <= fst r /\ 0 <= snd e <= snd r /\
  (0 < ratio -> fst e <= acpu * ratio / 100 /\ snd e <= amem * ratio / 100) /\
  (fst r <= acpu * ratio / 100 -> fst e = fst r) /\ (snd r <= amem * ratio / 100 -> snd e = snd r).
Proof.
  intros Hr Ha Hm H1 H2 e. subst e. unfold cap_event.
  destruct (ratio <=? 0) eqn:R.
  - apply Z.leb_le in R. repeat split; auto; lia.
  - apply Z.leb_gt in R.
    assert (L1 : quot64 (mul64 acpu ratio) 100 = acpu * ratio / 100).
    { unfold mul64. rewrite wrap64_small by (consts; nia). unfold quot64. apply Z.quot_div_nonneg; nia. }
    assert (L2 : quot64 (mul64 amem ratio) 100 = amem * ratio / 100).
    { unfold mul64. rewrite wrap64_small by (consts; nia). unfold quot64. apply Z.quot_div_nonneg; nia. }
    rewrite L1, L2. cbn [fst snd].
    assert (0 <= acpu * ratio / 100) by (apply Z.div_pos; nia).
    assert (0 <= amem * ratio / 100) by (apply Z.div_pos; nia).
    unfold cap1.
    destruct (acpu * ratio / 100 <? fst r) eqn:C1; destruct (amem * ratio / 100 <? snd r) eqn:C2;
      try apply Z.ltb_lt in C1; try apply Z.ltb_ge in C1; try apply Z.ltb_lt in C2; try apply Z.ltb_ge in C2;
      repeat split; intros; lia.
Qed.

Section History.
  (* pods: the pod populations of the history (a sampling step names the active one) *)
  Variables (ratio : Z) (pods : list (list pod)) (Ac Am : Z).
  Hypothesis Hratio : 0 <= ratio <= 100.
  Hypothesis HAc : 0 <= Ac <= max_alloc.
  Hypothesis HAm : 0 <= Am <= max_alloc.
  Hypothesis Hpods : forall policy psel, 0 <= guaranteed_cpu_request policy (pods_at pods psel) <= max_amount.

  Definition op_ok (o : cop) : Prop :=
    match o with
    | OSample _ _ acpu amem _ _ ucpu umem _ =>
        0 <= acpu <= Ac /\ 0 <= amem <= Am /\ 0 <= ucpu <= max_amount /\ 0 <= umem <= max_amount
    | OReport _ _ _ acpu amem => 0 <= acpu <= Ac /\ 0 <= amem <= Am
    | _ => True
    end.

  (* what a report step emits, against the allocatable the node has AT THAT STEP *)
  Definition step_ok (o : cop) (out : cout) : Prop :=
    match o, out with
    | OReport _ _ _ acpu amem, ReportOut (Some ev) =>
        0 <= fst ev <= acpu * ratio / 100 /\ 0 <= snd ev <= amem * ratio / 100
    | _, _ => True
    end.

  Definition Bc := Ac * ratio / 100.
  Definition Bm := Am * ratio / 100.

  Definition cinv (s : cstate) : Prop :=
    (length (c_queue s) <= 10)%nat /\
    Forall (fun u => 0 <= fst u <= Bc /\ 0 <= snd u <= Bm) (c_queue s).

  Lemma B_bounds : 0 <= Bc <= max_alloc /\ 0 <= Bm <= max_alloc.
  Proof.
    unfold Bc, Bm. repeat split.
    - apply Z.div_pos; nia.
    - assert (Ac * ratio / 100 <= Ac) by (apply Z.div_le_upper_bound; nia). lia.
    - apply Z.div_pos; nia.
    - assert (Am * ratio / 100 <= Am) by (apply Z.div_le_upper_bound; nia). lia.
  Qed.

  Lemma cinv_init : cinv cinit.
  Proof. split; simpl; [lia|constructor]. Qed.

  Definition out_ok (o : cout) : Prop :=
    match o with
    | ReportOut (Some ev) => 0 <= fst ev <= Bc /\ 0 <= snd ev <= Bm
    | _ => True
    end.

  (* the event of a report step: the weighted mean of the queue, which stays within the
     samples' range; the cap brings it under ratio% of the allocatable of this step;
     masking only replaces by zero *)
  Lemma report_event_bounds s types ac am r :
    cinv s -> 0 <= ac <= Ac -> 0 <= am <= Am -> compute_report (c_queue s) = Some r ->
    let ev := mask_event types (cap_event ratio ac am r) in
    0 <= fst ev <= ac * ratio / 100 /\ 0 <= snd ev <= am * ratio / 100 /\
    fst ev <= Bc /\ snd ev <= Bm /\
    fst ev <= lmax (map fst (c_queue s)) /\ snd ev <= lmax (map snd (c_queue s)).
  Proof.
    intros [Hl HF] Oc Om E ev. pose proof B_bounds as [HBc HBm].
    assert (Hlen : (1 <= length (c_queue s) <= 10)%nat).
    { split; auto. destruct (c_queue s); [discriminate|simpl; lia]. }
    destruct (report_bounds (c_queue s) 0 Bc 0 Bm Hlen) as (c & m & E' & R1 & R2 & _); auto; try lia.
    destruct (report_between_min_max (c_queue s) Hlen) as (c' & m' & E'' & B1 & B2 & _).
    { eapply Forall_impl; [|exact HF]. cbv beta. lia. }
    rewrite E in E', E''. injection E' as ->. injection E'' as <- <-.
    pose proof (cap_event_bounds ratio ac am (c, m) Hratio ltac:(lia) ltac:(lia) ltac:(cbn; lia) ltac:(cbn; lia))
      as (C1 & C2 & C3 & _). cbn [fst snd] in C1, C2.
    assert (D1 : 0 <= ac * ratio / 100) by (apply Z.div_pos; nia).
    assert (D2 : 0 <= am * ratio / 100) by (apply Z.div_pos; nia).
    assert (K : fst (cap_event ratio ac am (c, m)) <= ac * ratio / 100 /\ snd (cap_event ratio ac am (c, m)) <= am * ratio / 100).
    { destruct (Z.eq_dec ratio 0) as [E0|NZ]; [|apply C3; lia].
      (* ratio 0: no cap is applied, but then every sample, hence the mean, is 0 *)
      assert (Bc = 0) by (unfold Bc; rewrite E0, Z.mul_0_r; reflexivity).
      assert (Bm = 0) by (unfold Bm; rewrite E0, Z.mul_0_r; reflexivity).
      rewrite E0 at 2 4. rewrite !Z.mul_0_r. change (0 / 100) with 0. lia. }
    pose proof (lmax_nonneg (map fst (c_queue s))). pose proof (lmax_nonneg (map snd (c_queue s))).
    subst ev. unfold mask_event. destruct (has_type 1 types), (has_type 2 types); cbn [fst snd]; lia.
  Qed.

  Lemma cstep_inv s o : cinv s -> op_ok o ->
    cinv (fst (cstep ratio pods s o)) /\ out_ok (snd (cstep ratio pods s o)) /\ step_ok o (snd (cstep ratio pods s o)).
  Proof.
    intros Hs Hop. pose proof Hs as [Hl HF].
    destruct o as [ne lb ac am pe po uc um ps | ne lb an ac am | k ty]; unfold cstep.
    - (* a sample lies within [0, ratio% of the allocatable at that step] and enters the queue *)
      destruct (ne || negb (label_on lb) || pe); cbn [fst snd]; [now split|].
      destruct Hop as (O1 & O2 & O3 & O4).
      pose proof (sample_pair_bounds ratio ac am (guaranteed_cpu_request po (pods_at pods ps)) uc um Hratio
                    ltac:(lia) ltac:(lia) (Hpods po ps) O3 O4) as (S1 & S2 & _).
      assert (ac * ratio / 100 <= Bc) by (unfold Bc; apply Z.div_le_mono; nia).
      assert (am * ratio / 100 <= Bm) by (unfold Bm; apply Z.div_le_mono; nia).
      split; [|now split]. split; cbn [c_queue]; [now apply enqueue_length | apply enqueue_forall; [exact HF | lia]].
    - destruct (ne || negb (label_on lb)); cbn [fst snd]; [now split|].
      destruct (compute_report (c_queue s)) as [r|] eqn:E; cbn [fst snd]; [|now split].
      destruct Hop as [Oc Om].
      destruct (report_event_bounds s (effective_types (c_types s) an) ac am r Hs Oc Om E) as (A1 & A2 & A3 & A4 & _).
      split; [exact Hs|]. cbn [out_ok step_ok]. split; [lia | exact (conj A1 A2)].
    - destruct ((k =? 0) || (k =? 1) || (k =? 2)); cbn [fst snd]; (split; [exact Hs | now split]).
  Qed.

  (* every report of every history stays within [0, ratio% of the largest allocatable],
     and within [0, ratio% of the allocatable the node has at that report step] *)
  Lemma crun_inv : forall ops s, cinv s -> Forall op_ok ops ->
    Forall out_ok (snd (crun ratio pods s ops)) /\ Forall2 step_ok ops (snd (crun ratio pods s ops)).
  Proof.
    induction ops as [|o ops IH]; intros s Hs Hops; [split; constructor|].
    inversion Hops as [|o' ops' Ho Hops']; subst.
    cbn [crun]. pose proof (cstep_inv s o Hs Ho) as (I1 & O1 & S1).
    destruct (cstep ratio pods s o) as [s1 out]. cbn [fst snd] in *.
    destruct (IH s1 I1 Hops') as [O2 S2].
    destruct (crun ratio pods s1 ops) as [s2 outs]. cbn [fst snd] in *.
    split; constructor; auto.
  Qed.
End History.

Lemma zin_iff lo hi x : zin lo hi x = true <-> lo <= x <= hi.
Proof. unfold zin. rewrite andb_true_iff, !Z.leb_le. tauto. Qed.

Lemma floor_unique x got : got * 100 <= x -> x < (got + 1) * 100 -> got = x / 100.
Proof. intros H1 H2. apply (Z.div_unique x 100 got (x - got * 100)); lia. Qed.

Lemma law_sample1_complete alloc total usage ratio got :
  0 <= ratio -> 0 <= alloc -> total <= alloc -> 0 <= usage ->
  0 <= got -> got <= alloc * ratio / 100 -> alloc * ratio / 100 <= alloc ->
  (usage <= total -> got = (total - usage) * ratio / 100) -> (total < usage -> got = 0) ->
  law_sample1 alloc total usage ratio got = true.
Proof.
  intros Hr Ha Ht Hu H0 H1 H2 H3 H4. unfold law_sample1.
  assert (got * 100 <= alloc * ratio).
  { pose proof (Z.mul_div_le (alloc * ratio) 100 ltac:(lia)). lia. }
  apply andb_true_iff; split; [apply andb_true_iff; split; [apply andb_true_iff; split|]|];
    try (apply Z.leb_le; lia).
  destruct (usage <=? total) eqn:E.
  - apply Z.leb_le in E. specialize (H3 E).
    pose proof (Z.mul_div_le ((total - usage) * ratio) 100 ltac:(lia)).
    pose proof (Z.mul_succ_div_gt ((total - usage) * ratio) 100 ltac:(lia)).
    apply andb_true_iff; split; [apply Z.leb_le|apply Z.ltb_lt]; subst got; lia.
  - apply Z.leb_gt in E. apply Z.eqb_eq. auto.
Qed.

