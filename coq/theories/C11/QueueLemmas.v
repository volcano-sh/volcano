(* C11 — the shipped queue comparators of QueueModel.v: validity of the flat ones and of hdrf at
   one depth, and the queues on which the hierarchical ones fail (the theorems about those
   witnesses are in Props/C11.v). *)
From Coq Require Import ZArith List Bool Lia.
From V Require Import C11.Model C11.Lemmas C11.QueueModel.
Import ListNotations.
Open Scope Z_scope.

Ltac bcases :=
  repeat match goal with
         | |- context [qn_flag ?a] => destruct (qn_flag a)
         end.

(* share, then "has a deserved value" first *)
Lemma cmp_share_deserved_valid : valid_on everywhere cmp_share_deserved.
Proof.
  apply (valid_ext everywhere
           (then_cmp (fun l r => zcmp (qn_share l) (qn_share r))
                     (fun l r => if Bool.eqb (qn_flag l) (qn_flag r) then 0 else if qn_flag l then -1 else 1))).
  - intros a b _ _. unfold cmp_share_deserved, then_cmp, zcmp.
    destruct (qn_share a =? qn_share b); [reflexivity|]. destruct (qn_share a <? qn_share b); reflexivity.
  - apply valid_then; [apply valid_on_proj; exact zcmp_valid|].
    split; [intros a b _ _ | intros a b d _ _ _]; bcases; simpl; lia.
Qed.

(* capacity flat / proportion: (priority desc, share, has-deserved) *)
Theorem cmp_capacity_flat_valid : valid_on everywhere cmp_capacity_flat.
Proof.
  apply (valid_prio_then rq_prio (fun l r => cmp_share_deserved (own_node l) (own_node r))).
  apply valid_on_proj. exact cmp_share_deserved_valid.
Qed.

(* hdrf: a strict weak order on every set of queues of ONE hierarchy depth *)
Lemma hdrf_walk_valid : forall n,
  valid_on (fun p : list qnode => length p = n) hdrf_walk.
Proof.
  induction n as [|n [IA IB]].
  - split.
    + intros [|? ?] [|? ?] Ha Hb; simpl in *; try discriminate; lia.
    + intros [|? ?] [|? ?] [|? ?] Ha Hb Hd; simpl in *; try discriminate; lia.
  - split.
    + intros [|a p] [|b q] Ha Hb; simpl in *; try discriminate.
      injection Ha as Ha. injection Hb as Hb. pose proof (IA p q Ha Hb).
      destruct (qn_flag a), (qn_flag b); simpl; try lia; zcases; lia.
    + intros [|a p] [|b q] [|d r] Ha Hb Hd; simpl in *; try discriminate.
      injection Ha as Ha. injection Hb as Hb. injection Hd as Hd.
      pose proof (IB p q r Ha Hb Hd).
      destruct (qn_flag a), (qn_flag b), (qn_flag d); simpl; try lia; zcases; lia.
Qed.

Definition one_slot {T} (c : T -> T -> Z) : layout (T -> T -> Z) := [[mkSlot true true c]].

(* capacity hierarchical: root 0 with children A = 1 and B = 2 of equal share;
   x, y leaves under A with different shares, z a leaf under B.  x ~ z ~ y but
   x < y: the "<= 0" of the comparator is not transitive, and with the session
   tie-break (creation time) QueueOrderFn is CYCLIC: x < y < z < x
   (C11_cmp_capacity_hier_refuted in Props/C11.v) *)
Definition cap_x := mkRQueue (mkItem 0 3 1 None) 0 true [0; 1] [mkQNode 5 true; mkQNode 5 true; mkQNode 0 true].
Definition cap_y := mkRQueue (mkItem 1 1 2 None) 0 true [0; 1] [mkQNode 5 true; mkQNode 5 true; mkQNode 9 true].
Definition cap_z := mkRQueue (mkItem 2 2 3 None) 0 true [0; 2] [mkQNode 5 true; mkQNode 5 true; mkQNode 4 true].

(* hdrf with leaves of unequal depth (root/sci next to root/eng/dev and
   root/eng/prod, the layout of the plugin's own unit test): sci ~ dev and
   sci ~ prod (eng and sci tie, the walk stops at the shorter depth) but dev < prod
   (C11_cmp_hdrf_refuted) *)
Definition hd_dev := mkRQueue (mkItem 0 3 1 None) 0 true [] [mkQNode 5 false; mkQNode 5 false; mkQNode 1 false].
Definition hd_prod := mkRQueue (mkItem 1 1 2 None) 0 true [] [mkQNode 5 false; mkQNode 5 false; mkQNode 7 false].
Definition hd_sci := mkRQueue (mkItem 2 2 3 None) 0 true [] [mkQNode 5 false; mkQNode 5 false].

(* capacity hierarchical IS valid where the hierarchy plays no role: among queues with one
   ancestor chain that are all leaves or all inner queues
   (C11_cmp_capacity_hier_valid_siblings); the two facts about the level of siblings it needs: *)
Lemma queue_level_from_same : forall a i lvl,
  queue_level_from i lvl a a = match a with [] => lvl | _ => i + Z.of_nat (length a) - 1 end.
Proof.
  induction a as [|x a IH]; intros; simpl; auto.
  rewrite Z.eqb_refl, IH. destruct a; simpl length; lia.
Qed.

Lemma rep_node_siblings : forall q, rep_node q (queue_level (rq_anc q) (rq_anc q)) = own_node q.
Proof.
  intros q. unfold rep_node, queue_level. rewrite queue_level_from_same.
  destruct (rq_anc q) as [|x a] eqn:E; simpl length.
  - reflexivity.
  - destruct (Z.ltb_spec (0 + Z.of_nat (S (length a)) - 1 + 1) (Z.of_nat (S (length a)))); auto; lia.
Qed.

Theorem real_queue_cmp_flat_valid : forall pk, pk = 5 \/ pk = 6 -> valid_on everywhere (real_queue_cmp pk).
Proof. intros pk [->| ->]; exact cmp_capacity_flat_valid. Qed.

(* the generic VictimQueueOrderFn used for the real plugins is the one of Model.v *)
Lemma victim_order_gen_item : forall vts qts l r,
  victim_queue_order_fn vts qts l r = victim_order_gen vts qts by_time_uid l r.
Proof. reflexivity. Qed.

(* the same subtree tie seen through the VICTIM order (capacity registers its
   VictimQueueOrderFn in the same block): with the preemptor w in a third
   subtree the victim comparator ties on x, y, z (all at level 0 from w), the
   reversed - cyclic - queue order decides, and the victim order of three
   DIFFERENT queues is a 3-cycle; BuildVictimsPriorityQueue orders victims of
   different queues by exactly this function (C11_victim_order_capacity_hier_refuted) *)
Definition cap_w := mkRQueue (mkItem 3 0 4 None) 0 true [0; 3] [mkQNode 5 true; mkQNode 5 true; mkQNode 2 true].

