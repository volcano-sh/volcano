(* C11 — proofs about the container/heap model: for EVERY less function the
   operations never fail and preserve the multiset; for a strict weak order
   they keep the heap shape, and Pop returns an element no remaining element
   precedes.  Unbounded: all lists, all histories. *)
From Coq Require Import ZArith Arith List Bool Lia ZifyNat Permutation.
From V Require Import C11.HeapModel.
Import ListNotations.

(* positions: c is a child of i; the only place where the division is looked into *)
Definition child (i c : nat) : Prop := c = 2 * i + 1 \/ c = 2 * i + 2.

Lemma parent_child : forall c, 0 < c -> child ((c - 1) / 2) c.
Proof. unfold child. intros. zify. Z.to_euclidean_division_equations. lia. Qed.

Lemma child_parent : forall i c, child i c -> (c - 1) / 2 = i.
Proof. unfold child. intros. zify. Z.to_euclidean_division_equations. lia. Qed.

Lemma parent_lt : forall j, (j - 1) / 2 <> j -> (j - 1) / 2 < j /\ child ((j - 1) / 2) j.
Proof.
  intros [|j] E; [exfalso; apply E; reflexivity|].
  pose proof (parent_child (S j)). unfold child in *. lia.
Qed.

Section HeapLemmas.
  Context {A : Type}.
  Variable less : A -> A -> bool.
  Variable d : A.                      (* default of [nth]: every position read is in range *)

  Lemma length_upd : forall (l : list A) i x, length (upd l i x) = length l.
  Proof. induction l; destruct i; simpl; auto. Qed.

  Lemma nth_upd : forall (l : list A) i x k,
    i < length l -> nth k (upd l i x) d = if k =? i then x else nth k l d.
  Proof.
    induction l as [|a l IH]; intros i x k Hi; simpl in Hi; [lia|].
    destruct i, k; simpl; auto. apply IH. lia.
  Qed.

  Lemma nth_error_get : forall (l : list A) i x,
    nth_error l i = Some x -> i < length l /\ nth i l d = x.
  Proof.
    intros l i x H. split.
    - apply nth_error_Some. congruence.
    - apply nth_error_nth. exact H.
  Qed.

  Lemma get_nth_error : forall (l : list A) i, i < length l -> nth_error l i = Some (nth i l d).
  Proof. intros. apply nth_error_nth'. auto. Qed.

  Lemma upd_app : forall (l1 l2 : list A) a y, upd (l1 ++ a :: l2) (length l1) y = l1 ++ y :: l2.
  Proof. induction l1; simpl; intros; congruence. Qed.

  Lemma nth_firstn_lt : forall (l : list A) n k, k < n -> nth k (firstn n l) d = nth k l d.
  Proof.
    induction l as [|a l IH]; intros n k H; destruct n, k; simpl; auto; try lia. apply IH. lia.
  Qed.

  Lemma length_swap : forall (l : list A) i j xi xj, length (swap_with l i j xi xj) = length l.
  Proof. intros. unfold swap_with. rewrite !length_upd. reflexivity. Qed.

  Lemma nth_swap : forall (l : list A) i j xi xj k,
    i < length l -> j < length l ->
    nth k (swap_with l i j xi xj) d = if k =? j then xi else if k =? i then xj else nth k l d.
  Proof.
    intros. unfold swap_with. rewrite nth_upd by (rewrite length_upd; auto).
    destruct (k =? j); auto. apply nth_upd; auto.
  Qed.

  Lemma swap_perm : forall (l : list A) i j xi xj,
    i < j -> nth_error l i = Some xi -> nth_error l j = Some xj ->
    Permutation (swap_with l i j xi xj) l.
  Proof.
    intros l i j xi xj Hij Hi Hj.
    destruct (nth_error_split l j Hj) as [l1 [l3 [-> Hl1]]].
    rewrite nth_error_app1 in Hi by lia.
    destruct (nth_error_split l1 i Hi) as [l0 [l2 [-> Hl0]]].
    unfold swap_with. rewrite <- app_assoc. simpl.
    rewrite <- Hl0 at 1. rewrite upd_app.
    replace (l0 ++ xj :: l2 ++ xj :: l3) with ((l0 ++ xj :: l2) ++ xj :: l3)
      by (rewrite <- app_assoc; reflexivity).
    replace j with (length (l0 ++ xj :: l2))
      by (rewrite <- Hl1, !app_length; simpl; reflexivity).
    rewrite upd_app. rewrite <- app_assoc. simpl.
    apply Permutation_app_head.
    transitivity (xj :: xi :: l2 ++ l3).
    - constructor. symmetry. apply Permutation_middle.
    - transitivity (xi :: xj :: l2 ++ l3); [constructor|].
      constructor. apply Permutation_middle.
  Qed.

  Lemma swap_same : forall (l : list A) i x, nth_error l i = Some x -> swap_with l i i x x = l.
  Proof.
    intros l i x H. destruct (nth_error_split l i H) as [l1 [l2 [-> <-]]].
    unfold swap_with. rewrite !upd_app. reflexivity.
  Qed.

  (* the operations never fail and permute *)
  Lemma up_perm : forall fuel (l : list A) j,
    j < length l -> j < fuel ->
    exists l', up less fuel l j = Some l' /\ Permutation l' l.
  Proof.
    induction fuel as [|f IH]; intros l j Hj Hf; [lia|]. cbn [up].
    destruct (Nat.eqb_spec ((j - 1) / 2) j) as [E|E]; [exists l; auto|].
    destruct (parent_lt j E) as [Hi _].
    rewrite (get_nth_error l j) by lia. rewrite (get_nth_error l ((j - 1) / 2)) by lia.
    destruct (less (nth j l d) (nth ((j - 1) / 2) l d)); [|exists l; auto].
    destruct (IH (swap_with l ((j - 1) / 2) j (nth ((j - 1) / 2) l d) (nth j l d)) ((j - 1) / 2))
      as [l' [E' P']]; [rewrite length_swap; lia | lia |].
    exists l'. split; auto. rewrite P'. apply swap_perm; auto; apply get_nth_error; lia.
  Qed.

  Theorem push_perm : forall (l : list A) x,
    exists l', push less l x = Some l' /\ Permutation l' (l ++ [x]).
  Proof.
    intros. unfold push. apply up_perm; rewrite ?app_length; simpl; lia.
  Qed.

  (* the child that [down] compares with position i: the smaller of the two, the left one on a tie *)
  Lemma pick_spec : forall (l : list A) i n, 2 * i + 1 < n -> n <= length l ->
    let j1 := 2 * i + 1 in
    exists j,
      (if S j1 <? n
       then match nth_error l (S j1) with
            | Some x2 => Some (if less x2 (nth j1 l d) then (S j1, x2) else (j1, nth j1 l d))
            | None => None
            end
       else Some (j1, nth j1 l d)) = Some (j, nth j l d) /\ child i j /\ j < n /\
      forall c, child i c -> c < n ->
                c = j \/ less (nth j l d) (nth c l d) = true \/ less (nth c l d) (nth j l d) = false.
  Proof.
    intros l i n E Hn j1. unfold child. destruct (Nat.ltb_spec (S j1) n).
    - rewrite (get_nth_error l (S j1)) by lia.
      destruct (less (nth (S j1) l d) (nth j1 l d)) eqn:E2; [exists (S j1) | exists j1];
        (split; [reflexivity|]); (split; [lia|]); (split; [lia|]); intros c Hc Hl;
        (assert (c = j1 \/ c = S j1) as [->| ->] by lia); auto.
    - exists j1. split; [reflexivity|]. split; [lia|]. split; [lia|]. intros c Hc Hl. left. lia.
  Qed.

  Lemma down_perm : forall fuel (l : list A) i n,
    n <= length l -> n - i < fuel ->
    exists l', down less fuel l i n = Some l' /\ Permutation l' l /\
               forall k, n <= k -> nth k l' d = nth k l d.
  Proof.
    induction fuel as [|f IH]; intros l i n Hn Hf; [lia|]. cbn [down].
    destruct (Nat.leb_spec n (2 * i + 1)) as [E|E]; [exists l; auto|].
    rewrite (get_nth_error l (2 * i + 1)) by lia. rewrite (get_nth_error l i) by lia.
    destruct (pick_spec l i n E Hn) as [j [-> [Hj [Hjn _]]]]. unfold child in Hj.
    set (xj := nth j l d). set (xi := nth i l d). assert (Hxj : nth_error l j = Some xj) by (apply get_nth_error; lia).
    destruct (less xj xi); [|exists l; auto].
    destruct (IH (swap_with l i j xi xj) j n) as [l' [E' [P' K']]];
      [rewrite length_swap; lia | lia |].
    exists l'. split; auto. split.
    - rewrite P'. apply swap_perm; auto; try lia. apply get_nth_error; lia.
    - intros k Hk. rewrite K' by auto. rewrite nth_swap by lia.
      destruct (Nat.eqb_spec k j); [lia|]. destruct (Nat.eqb_spec k i); [lia|]. reflexivity.
  Qed.

  (* Pop on a non-empty queue: the sift it runs, what it returns, what it leaves *)
  Lemma pop_spec : forall (l : list A), l <> [] ->
    exists l2,
      down less (S (length l)) (swap_with l 0 (length l - 1) (nth 0 l d) (nth (length l - 1) l d))
           0 (length l - 1) = Some l2 /\
      pop less l = PopOk (nth 0 l d) (firstn (length l - 1) l2) /\
      length l2 = length l /\ Permutation (nth 0 l d :: firstn (length l - 1) l2) l.
  Proof.
    intros l Hne. unfold pop. destruct l as [|x0 r] eqn:El; [congruence|]. rewrite <- El. clear Hne.
    assert (Hlen : length l = S (length r)) by (subst; reflexivity).
    replace (nth 0 l d) with x0 by (subst l; reflexivity).
    set (n := length l - 1).
    assert (Hn : nth_error l n = Some (nth n l d)) by (apply get_nth_error; lia).
    rewrite Hn.
    assert (H0 : nth_error l 0 = Some x0) by (subst; reflexivity).
    set (l1 := swap_with l 0 n x0 (nth n l d)).
    assert (P1 : Permutation l1 l).
    { destruct (Nat.eq_dec n 0) as [E0|E0].
      - unfold l1. rewrite E0 in *. rewrite H0 in Hn. inversion Hn as [Hx]. rewrite <- Hx.
        rewrite swap_same; auto.
      - apply swap_perm; auto. lia. }
    assert (L1 : length l1 = length l) by apply length_swap.
    destruct (down_perm (S (length l)) l1 0 n) as [l2 [E2 [P2 K2]]]; [lia | lia |].
    exists l2. rewrite E2.
    assert (L2 : length l2 = length l) by (rewrite (Permutation_length P2); auto).
    rewrite (get_nth_error l2 n) by lia.
    assert (Hx : nth n l2 d = x0).
    { rewrite K2 by lia. unfold l1. rewrite nth_swap by lia. rewrite Nat.eqb_refl. reflexivity. }
    rewrite Hx. split; [reflexivity|]. split; [reflexivity|]. split; [exact L2|].
    rewrite <- P1, <- P2.
    rewrite <- (firstn_skipn n l2) at 2.
    assert (Hs : skipn n l2 = [x0]).
    { assert (Ls : length (skipn n l2) = 1) by (rewrite skipn_length; lia).
      destruct (skipn n l2) as [|y [|z s]] eqn:Es; simpl in Ls; try lia.
      f_equal. rewrite <- Hx.
      rewrite <- (firstn_skipn n l2) at 1. rewrite app_nth2 by (rewrite firstn_length; lia).
      rewrite firstn_length, Es. replace (n - Nat.min n (length l2)) with 0 by lia. reflexivity. }
    rewrite Hs. apply Permutation_cons_append.
  Qed.

  Theorem pop_perm : forall (l : list A),
    match pop less l with
    | PopEmpty => l = []
    | PopErr => False
    | PopOk x rest => Permutation (x :: rest) l /\ x = nth 0 l d
    end.
  Proof.
    intros [|x0 r]; [reflexivity|].
    destruct (pop_spec (x0 :: r)) as (l2 & _ & -> & _ & P); [discriminate|]. split; [exact P | reflexivity].
  Qed.

  (* histories: nothing is lost or invented, for every less *)
  Definition pushed (ops : list (op (A:=A))) : list A :=
    flat_map (fun o => match o with OpPush x => [x] | OpPop => [] end) ops.
  Definition popped (outs : list (option A)) : list A :=
    flat_map (fun o => match o with Some x => [x] | None => [] end) outs.

  Lemma fold_step_none : forall ops outs,
    fold_left (step less) ops (None, outs) = (None, outs).
  Proof. induction ops; simpl; auto. Qed.

  Lemma run_multiset_gen : forall ops l0 outs0 l outs,
    fold_left (step less) ops (Some l0, outs0) = (Some l, outs) ->
    Permutation (popped outs ++ l) (popped outs0 ++ l0 ++ pushed ops).
  Proof.
    induction ops as [|o ops IH]; intros l0 outs0 l outs H; simpl in H.
    - inversion H; subst. simpl. rewrite app_nil_r. reflexivity.
    - destruct o as [x|].
      + destruct (push_perm l0 x) as [l1 [E1 P1]]. rewrite E1 in H.
        rewrite (IH _ _ _ _ H). apply Permutation_app_head. simpl.
        rewrite P1, <- app_assoc. reflexivity.
      + pose proof (pop_perm l0) as PP. destruct (pop less l0) as [| |x rest].
        * subst l0. rewrite (IH _ _ _ _ H). unfold popped. rewrite flat_map_app. simpl.
          rewrite app_nil_r. reflexivity.
        * destruct PP.
        * destruct PP as [P _]. rewrite (IH _ _ _ _ H). unfold popped. rewrite flat_map_app. simpl.
          rewrite <- app_assoc. apply Permutation_app_head. simpl.
          rewrite <- P. reflexivity.
  Qed.

  (* pushed = popped + what is still queued, after every history *)
  Theorem run_multiset : forall ops l outs,
    run less ops = (Some l, outs) -> Permutation (popped outs ++ l) (pushed ops).
  Proof. intros ops l outs H. apply run_multiset_gen in H. exact H. Qed.

  (* heap shape under a strict weak order on the DISTINCT elements of a set
     The less function only has to be asymmetric and negatively transitive on
     pairs / triples of DIFFERENT elements of [dom]: nothing is asked of
     less x x (the victims queue answers true there), nothing outside [dom]. *)
  Variable dom : A -> Prop.
  Hypothesis eq_dec : forall a b : A, {a = b} + {a <> b}.
  Hypothesis less_asym : forall a b, dom a -> dom b -> a <> b -> less a b = true -> less b a = false.
  Hypothesis less_negtrans : forall a b c, dom a -> dom b -> dom c -> a <> b -> b <> c -> a <> c ->
    less a c = true -> less a b = true \/ less b c = true.

  (* "a does not come after b": the same element, or b does not precede a *)
  Definition le (a b : A) : Prop := dom a /\ dom b /\ (a = b \/ less b a = false).

  Lemma le_refl : forall a, dom a -> le a a.
  Proof. intros a H. split; [|split]; auto. Qed.

  Lemma le_trans : forall a b c, le a b -> le b c -> le a c.
  Proof.
    intros a b c [Da [Db H1]] [_ [Dc H2]]. split; [|split]; auto.
    destruct (eq_dec a c) as [|Nac]; [left; auto|]. right.
    destruct H1 as [E1|H1]; [subst b; destruct H2 as [E2|H2]; [congruence | exact H2]|].
    destruct H2 as [E2|H2]; [subst c; exact H1|].
    destruct (less c a) eqn:E; auto.
    destruct (eq_dec c b) as [Ecb|Ncb]; [subst; congruence|].
    destruct (eq_dec b a) as [Eba|Nba]; [subst; congruence|].
    destruct (less_negtrans c b a Dc Db Da Ncb Nba (fun e => Nac (eq_sym e)) E) as [H|H]; congruence.
  Qed.

  Lemma less_le : forall a b, dom a -> dom b -> less a b = true -> le a b.
  Proof.
    intros a b Da Db H. split; [|split]; auto.
    destruct (eq_dec a b); [left; auto | right; apply less_asym; auto].
  Qed.

  Lemma nless_le : forall a b, dom a -> dom b -> less b a = false -> le a b.
  Proof. intros. split; [|split]; auto. Qed.

  Definition alld (l : list A) : Prop := forall k, k < length l -> dom (nth k l d).

  Lemma alld_Forall : forall l, Forall dom l <-> alld l.
  Proof.
    intros l. unfold alld. rewrite Forall_forall. split.
    - intros H k Hk. apply H. apply nth_In. auto.
    - intros H x Hx. destruct (In_nth _ _ d Hx) as [k [Hk <-]]. auto.
  Qed.

  Lemma alld_swap : forall l i j, alld l -> i < length l -> j < length l ->
    alld (swap_with l i j (nth i l d) (nth j l d)).
  Proof.
    intros l i j H Hi Hj k Hk. rewrite length_swap in Hk. rewrite nth_swap by auto.
    destruct (k =? j); [auto|]. destruct (k =? i); auto.
  Qed.

  (* parent <= child everywhere *)
  Definition heap_ok (l : list A) : Prop :=
    forall k, 0 < k < length l -> le (nth ((k - 1) / 2) l d) (nth k l d).

  (* the heap property over parent/child pairs, on the first n positions *)
  Definition heap_n (l : list A) (n : nat) : Prop :=
    forall i c, child i c -> c < n -> le (nth i l d) (nth c l d).

  Lemma heap_ok_child : forall l, heap_ok l <-> heap_n l (length l).
  Proof.
    intros l. split.
    - intros H i c Hc Hl. rewrite <- (child_parent i c Hc). apply H. unfold child in Hc. lia.
    - intros H k Hk. apply H; [apply parent_child|]; lia.
  Qed.

  Lemma root_min : forall l, alld l -> heap_ok l -> forall k, k < length l -> le (nth 0 l d) (nth k l d).
  Proof.
    intros l Hd H k. induction k as [k IH] using lt_wf_ind. intros Hk.
    destruct (Nat.eq_dec k 0) as [->|]; [apply le_refl; apply Hd; auto|].
    destruct (parent_child k) as [E|E]; [lia | |];
      (apply le_trans with (nth ((k - 1) / 2) l d); [apply IH; lia | apply H; lia]).
  Qed.

  (* heap everywhere except possibly between j and its parent; the parent of j is already below
     the children of j *)
  Definition up_inv (l : list A) (j : nat) : Prop :=
    (forall i c, child i c -> c < length l -> c <> j -> le (nth i l d) (nth c l d)) /\
    (forall g c, child g j -> child j c -> c < length l -> le (nth g l d) (nth c l d)).

  Lemma up_heap : forall fuel (l : list A) j l',
    alld l -> j < length l -> up less fuel l j = Some l' -> up_inv l j -> heap_n l' (length l').
  Proof.
    induction fuel as [|f IH]; intros l j l' Hd Hj Hup [Ha Hb]; [discriminate|]. cbn [up] in Hup.
    destruct (Nat.eqb_spec ((j - 1) / 2) j) as [E|E].
    - (* j = 0 is nobody's child *)
      inversion Hup; subst. intros i c Hc Hl. apply Ha; auto.
      destruct j; [|pose proof (parent_child (S j))]; unfold child in *; lia.
    - destruct (parent_lt j E) as [Hi Hij]. set (i := (j - 1) / 2) in *.
      rewrite (get_nth_error l j) in Hup by lia. rewrite (get_nth_error l i) in Hup by lia.
      destruct (less (nth j l d) (nth i l d)) eqn:El.
      + eapply IH; [| | exact Hup |]; [apply alld_swap; auto; lia | rewrite length_swap; lia|].
        assert (Hji : le (nth j l d) (nth i l d)) by (apply less_le; auto; apply Hd; lia).
        split.
        * intros p c Hc Hl Hci. rewrite length_swap in Hl. rewrite !nth_swap by lia.
          destruct (Nat.eqb_spec c j) as [->|Hcj].
          -- assert (p = i) as -> by (unfold child in *; lia).
             destruct (Nat.eqb_spec i j); [lia|]. rewrite Nat.eqb_refl. exact Hji.
          -- destruct (Nat.eqb_spec c i); [lia|].
             destruct (Nat.eqb_spec p j) as [->|Hpj]; [apply (Hb i c); auto|].
             destruct (Nat.eqb_spec p i) as [->|Hpi]; [|apply Ha; auto].
             apply le_trans with (nth i l d); auto.
        * intros g c Hg Hc Hl. rewrite length_swap in Hl. rewrite !nth_swap by lia.
          destruct (Nat.eqb_spec g j); [unfold child in *; lia|].
          destruct (Nat.eqb_spec g i); [unfold child in *; lia|].
          assert (Hgi : le (nth g l d) (nth i l d)) by (apply Ha; auto; lia).
          destruct (Nat.eqb_spec c j) as [->|Hcj]; [exact Hgi|].
          destruct (Nat.eqb_spec c i); [unfold child in *; lia|].
          apply le_trans with (nth i l d); auto.
      + inversion Hup; subst. intros p c Hc Hl.
        destruct (Nat.eq_dec c j) as [->|]; [|apply Ha; auto].
        assert (p = i) as -> by (unfold child in *; lia).
        apply nless_le; [apply Hd; lia | apply Hd; lia | exact El].
  Qed.

  Lemma alld_app1 : forall l x, alld l -> dom x -> alld (l ++ [x]).
  Proof.
    intros l x H Hx. apply alld_Forall. apply Forall_app. split; [apply alld_Forall; auto | constructor; auto].
  Qed.

  Theorem push_heap : forall (l : list A) x l',
    alld l -> dom x -> heap_ok l -> push less l x = Some l' -> heap_ok l' /\ alld l'.
  Proof.
    intros l x l' Hd Hx H Hp. split.
    - unfold push in Hp. apply heap_ok_child. apply heap_ok_child in H.
      eapply up_heap; [apply alld_app1; eauto | | exact Hp |]; [rewrite app_length; simpl; lia|].
      split.
      + intros i c Hc Hl Hcj. rewrite app_length in Hl. simpl in Hl.
        rewrite !app_nth1 by (unfold child in Hc; lia). apply H; auto. lia.
      + intros g c _ Hc Hl. rewrite app_length in Hl. simpl in Hl. unfold child in Hc. lia.
    - destruct (push_perm l x) as [l2 [E2 P2]]. rewrite Hp in E2. inversion E2; subst l2.
      apply alld_Forall. eapply Permutation_Forall; [symmetry; exact P2|].
      apply alld_Forall. apply alld_app1; auto.
  Qed.

  (* heap on the first n positions, except possibly between i and its children; the parent of i
     is already below the children of i *)
  Definition down_inv (l : list A) (i n : nat) : Prop :=
    (forall p c, child p c -> c < n -> p <> i -> le (nth p l d) (nth c l d)) /\
    (forall g c, child g i -> child i c -> c < n -> le (nth g l d) (nth c l d)).

  Lemma down_heap : forall fuel (l : list A) i n l',
    alld l -> n <= length l -> down less fuel l i n = Some l' -> down_inv l i n -> heap_n l' n.
  Proof.
    induction fuel as [|f IH]; intros l i n l' Hdm Hn Hd [Ha Hb]; [discriminate|]. cbn [down] in Hd.
    destruct (Nat.leb_spec n (2 * i + 1)) as [E|E].
    - inversion Hd; subst. intros p c Hc Hl. apply Ha; auto. unfold child in Hc. lia.
    - set (j1 := 2 * i + 1) in *.
      rewrite (get_nth_error l j1) in Hd by lia. rewrite (get_nth_error l i) in Hd by lia.
      set (x1 := nth j1 l d) in *. set (xi := nth i l d) in *.
      assert (Di : dom xi) by (apply Hdm; lia).
      destruct (pick_spec l i n E Hn) as [j [Ep [Hij [Hjn Hpick]]]]. fold j1 x1 in Ep. rewrite Ep in Hd.
      assert (Hlt : i < j) by (unfold child in Hij; lia).
      assert (Dj : dom (nth j l d)) by (apply Hdm; lia).
      assert (Hmin : forall c, child i c -> c < n -> le (nth j l d) (nth c l d)).
      { intros c Hc Hl. assert (Dc : dom (nth c l d)) by (apply Hdm; lia).
        destruct (Hpick c Hc Hl) as [->|[H|H]]; [apply le_refl | apply less_le | apply nless_le]; auto. }
      destruct (less (nth j l d) xi) eqn:El.
      + eapply IH; [| | exact Hd |]; [apply alld_swap; auto; lia | rewrite length_swap; lia|].
        assert (Hji : le (nth j l d) xi) by (apply less_le; auto).
        split.
        * intros p c Hc Hl Hpj. rewrite !nth_swap by lia.
          destruct (Nat.eqb_spec c j) as [->|Hcj].
          -- assert (p = i) as -> by (unfold child in *; lia).
             destruct (Nat.eqb_spec i j); [lia|]. rewrite Nat.eqb_refl. exact Hji.
          -- destruct (Nat.eqb_spec p j); [lia|].
             destruct (Nat.eqb_spec c i) as [->|Hci].
             ++ destruct (Nat.eqb_spec p i); [unfold child in Hc; lia|]. apply (Hb p j); auto.
             ++ destruct (Nat.eqb_spec p i) as [->|Hpi]; [apply Hmin | apply Ha]; auto.
        * intros g c Hg Hc Hl. assert (g = i) as -> by (unfold child in *; lia).
          rewrite !nth_swap by lia.
          destruct (Nat.eqb_spec i j); [lia|]. rewrite Nat.eqb_refl.
          destruct (Nat.eqb_spec c j); [unfold child in Hc; lia|].
          destruct (Nat.eqb_spec c i); [unfold child in Hc; lia|].
          apply Ha; auto.
      + injection Hd as <-. intros p c Hc Hl.
        destruct (Nat.eq_dec p i) as [->|Hpi]; [|apply Ha; auto].
        apply le_trans with (nth j l d); [apply nless_le; auto | apply Hmin; auto].
  Qed.

  (* on a heap of [dom] elements, Pop returns an element that
     no OTHER element of the queue precedes, and leaves a heap *)
  Theorem pop_min_heap : forall (l : list A) x rest,
    alld l -> heap_ok l -> pop less l = PopOk x rest ->
    heap_ok rest /\ alld rest /\ (forall y, In y l -> y = x \/ less y x = false) /\
    Permutation (x :: rest) l.
  Proof.
    intros l x rest Hdm H Hp. pose proof (pop_perm l) as PP. rewrite Hp in PP.
    destruct PP as [P Hx]. split; [|split; [|split; auto]].
    - destruct (pop_spec l) as (l2 & E2 & Ep & L2 & _); [intros ->; discriminate|].
      rewrite Hp in Ep. injection Ep as _ ->.
      set (n := length l - 1) in *. set (l1 := swap_with l 0 n (nth 0 l d) (nth n l d)) in *.
      assert (L0 : 0 < length l) by (destruct l; [discriminate | simpl; lia]).
      assert (L1 : length l1 = length l) by apply length_swap.
      assert (D1 : alld l1) by (apply alld_swap; auto; lia).
      assert (Hh : heap_n l2 n).
      { eapply down_heap; [exact D1 | | exact E2 |]; [lia|]. apply heap_ok_child in H. split.
        - intros p c Hc Hl Hp0. unfold l1. rewrite !nth_swap by lia.
          assert (p < c) by (unfold child in Hc; lia).
          destruct (Nat.eqb_spec p n); [lia|]. destruct (Nat.eqb_spec p 0); [lia|].
          destruct (Nat.eqb_spec c n); [lia|]. destruct (Nat.eqb_spec c 0); [lia|].
          apply H; auto. lia.
        - intros g c Hg. unfold child in Hg. lia. }
      apply heap_ok_child. intros p c Hc Hl. rewrite firstn_length in Hl.
      assert (p < c) by (unfold child in Hc; lia).
      rewrite !nth_firstn_lt by lia. apply Hh; auto. lia.
    - apply alld_Forall. apply alld_Forall in Hdm.
      assert (F : Forall dom (x :: rest)) by (eapply Permutation_Forall; [symmetry; exact P | exact Hdm]).
      inversion F; auto.
    - intros y Hy. destruct (In_nth _ _ d Hy) as [k [Hk <-]].
      rewrite Hx. destruct (root_min l Hdm H k Hk) as [_ [_ [E|E]]]; auto.
  Qed.

  Definition good (st : option (list A) * list (option A)) : Prop :=
    exists l, fst st = Some l /\ heap_ok l /\ alld l.

  Definition op_dom (o : op (A:=A)) : Prop := match o with OpPush x => dom x | OpPop => True end.

  Lemma step_good : forall st o, good st -> op_dom o -> good (step less st o).
  Proof.
    intros [[l|] outs] o [l0 [E [H Hd]]] Ho; simpl in E; inversion E; subst l0.
    destruct o as [x|]; simpl.
    - destruct (push_perm l x) as [l1 [E1 _]]. rewrite E1. exists l1. split; auto.
      eapply push_heap; eauto.
    - pose proof (pop_perm l) as PP. destruct (pop less l) as [| |x rest] eqn:Ep.
      + exists l. auto.
      + destruct PP.
      + exists rest. split; auto. destruct (pop_min_heap l x rest Hd H Ep) as [A1 [A2 _]]. auto.
  Qed.

  Lemma heap_ok_nil : heap_ok [].
  Proof. intros k Hk. simpl in Hk. lia. Qed.

  Lemma pushed_dom : forall ops, Forall dom (pushed ops) <-> Forall op_dom ops.
  Proof.
    induction ops as [|[x|] ops IH]; simpl.
    - split; constructor.
    - split; intros H; inversion H; subst; constructor; auto; apply IH; auto.
    - rewrite IH. split; intros H; [constructor; simpl; auto | inversion H; auto].
  Qed.

  (* no history that pushes [dom] elements ever fails, and the backing slice is always a heap *)
  Theorem run_good : forall ops, Forall dom (pushed ops) -> good (run less ops).
  Proof.
    intros ops Hp. apply pushed_dom in Hp. unfold run.
    assert (G : forall ops st, Forall op_dom ops -> good st -> good (fold_left (step less) ops st)).
    { induction ops0 as [|o ops0 IH]; intros st Ho H; simpl; auto.
      inversion Ho; subst. apply IH; auto. apply step_good; auto. }
    apply G; auto. exists []. split; auto. split; [apply heap_ok_nil|]. intros k Hk. simpl in Hk. lia.
  Qed.

  (* after ANY history of pushes (of [dom] elements) and pops, Pop returns
     an element that no OTHER queued element precedes, and removes exactly it *)
  Theorem heap_pop_minimal : forall ops l outs x rest,
    Forall dom (pushed ops) ->
    run less ops = (Some l, outs) -> pop less l = PopOk x rest ->
    (forall y, In y l -> y = x \/ less y x = false) /\ Permutation (x :: rest) l.
  Proof.
    intros ops l outs x rest Hd Hr Hp. destruct (run_good ops Hd) as [l0 [E [H Hl]]].
    rewrite Hr in E. simpl in E. inversion E; subst l0.
    destruct (pop_min_heap l x rest Hl H Hp) as [_ [_ [Hm P]]]. auto.
  Qed.

  (* push everything, pop until empty: the pop order is sorted *)
  (* every element is followed only by elements that do not precede it *)
  Definition sorted_by (out : list A) : Prop :=
    ForallOrdPairs (fun x y => y = x \/ less y x = false) out.

  Lemma drain_ok : forall fuel l, length l <= fuel -> alld l -> heap_ok l ->
    exists out, drain less fuel l = Some out /\ Permutation out l /\ sorted_by out.
  Proof.
    induction fuel as [|f IH]; intros l Hl Hd H.
    - destruct l; simpl in Hl; [|lia]. exists []. repeat split; auto. constructor.
    - simpl. pose proof (pop_perm l) as PP. destruct (pop less l) as [| |x rest] eqn:Ep.
      + subst l. exists []. repeat split; auto. constructor.
      + destruct PP.
      + destruct (pop_min_heap l x rest Hd H Ep) as [H1 [H2 [Hm P]]].
        assert (Lr : length rest <= f).
        { apply Permutation_length in P. simpl in P. lia. }
        destruct (IH rest Lr H2 H1) as [out [Eo [Po So]]]. rewrite Eo.
        exists (x :: out). split; auto. split.
        * rewrite <- P. constructor. exact Po.
        * constructor; auto. apply Forall_forall. intros y Hy. apply Hm.
          eapply Permutation_in; [exact P|]. right. eapply Permutation_in; [exact Po | exact Hy].
  Qed.

  Lemma push_all_ok : forall xs l0, alld l0 -> heap_ok l0 -> Forall dom xs ->
    exists l, fold_left (fun st x => match st with Some l => push less l x | None => None end) xs (Some l0) = Some l /\
              Permutation l (l0 ++ xs) /\ heap_ok l /\ alld l.
  Proof.
    induction xs as [|x xs IH]; intros l0 Hd H Hx; simpl.
    - exists l0. rewrite app_nil_r. auto.
    - inversion Hx; subst. destruct (push_perm l0 x) as [l1 [E1 P1]]. rewrite E1.
      destruct (push_heap l0 x l1 Hd H2 H E1) as [A1 A2].
      destruct (IH l1 A2 A1 H3) as [l [E [P [B1 B2]]]]. exists l. split; auto. split; auto.
      rewrite P, P1, <- app_assoc. reflexivity.
  Qed.

  (* BuildVictimsPriorityQueue-style use - push a list of [dom] elements,
     pop until empty: never fails, returns a permutation in which no later
     element precedes an earlier one *)
  Theorem heap_sort_sorted : forall xs, Forall dom xs ->
    exists out, heap_sort less xs = Some out /\ Permutation out xs /\ sorted_by out.
  Proof.
    intros xs Hx. unfold heap_sort, push_all.
    destruct (push_all_ok xs [] (fun k Hk => ltac:(simpl in Hk; lia)) heap_ok_nil Hx) as [l [E [P [H Hd]]]].
    rewrite E. destruct (drain_ok (length l) l (le_n _) Hd H) as [out [Eo [Po So]]].
    exists out. split; auto. split; auto. rewrite Po, P. reflexivity.
  Qed.
End HeapLemmas.

(* non-vacuity: integer "<" meets the hypotheses on every set and a concrete history runs *)
Example heap_nonvacuous :
  (forall a b : Z, True -> True -> a <> b -> Z.ltb a b = true -> Z.ltb b a = false) /\
  (forall a b c : Z, True -> True -> True -> a <> b -> b <> c -> a <> c ->
                     Z.ltb a c = true -> Z.ltb a b = true \/ Z.ltb b c = true) /\
  run Z.ltb [OpPush 5%Z; OpPush 3%Z; OpPush 4%Z; OpPop; OpPush 1%Z; OpPop; OpPop; OpPop; OpPop] =
  (Some [], [Some 3%Z; Some 1%Z; Some 4%Z; Some 5%Z; None]) /\
  heap_sort Z.ltb [5%Z; 3%Z; 4%Z; 3%Z; 1%Z] = Some [1%Z; 3%Z; 3%Z; 4%Z; 5%Z].
Proof.
  split; [|split; [|split]].
  - intros a b _ _ _ H. apply Z.ltb_lt in H. apply Z.ltb_ge. lia.
  - intros a b c _ _ _ _ _ _ H. apply Z.ltb_lt in H. destruct (Z.ltb_spec a b); auto. right. apply Z.ltb_lt. lia.
  - vm_compute. reflexivity.
  - vm_compute. reflexivity.
Qed.
