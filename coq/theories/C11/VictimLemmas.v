(* C11 — BuildVictimsPriorityQueue's less function is a strict weak order, for
   every pattern of found / orphaned victims (job absent from ssn.Jobs) and
   for a present or missing preemptor job: on victims with distinct UIDs it
   coincides with the lexicographic order of four keys - orphan first; the
   victim-queue order of the job's queue; the REVERSED job order; the REVERSED
   task order - each of which is a valid comparator. *)
From Coq Require Import ZArith List Bool Lia.
From Coq Require Import Permutation.
From V Require Import C11.Model C11.Spec C11.Lemmas C11.HeapModel C11.HeapLemmas.
Import ListNotations.
Open Scope Z_scope.

Definition cmp_opt {K} (c : K -> K -> Z) (a b : option K) : Z :=
  match a, b with
  | None, None => 0
  | None, Some _ => -1
  | Some _, None => 1
  | Some x, Some y => c x y
  end.

Lemma cmp_opt_valid : forall {K} (c : K -> K -> Z),
  valid_on everywhere c -> valid_on everywhere (cmp_opt c).
Proof.
  intros K c [A B]. split.
  - intros [x|] [y|] _ _; simpl; try lia. apply A; exact I.
  - intros [x|] [y|] [z|] _ _ _; simpl; try lia. apply B; exact I.
Qed.

Lemma valid_refl0 : forall {K} (c : K -> K -> Z), valid_on everywhere c -> forall x, c x x = 0.
Proof. intros K c [A _] x. pose proof (A x x I I). lia. Qed.

Lemma cmp_opt_refl : forall {K} (c : K -> K -> Z), valid_on everywhere c -> forall x, cmp_opt c x x = 0.
Proof. intros K c H [x|]; simpl; auto. apply valid_refl0; auto. Qed.

Definition cneg {K} (c : K -> K -> Z) (a b : K) : Z := - c a b.
Lemma cneg_valid : forall {K} (c : K -> K -> Z), valid_on everywhere c -> valid_on everywhere (cneg c).
Proof.
  intros K c [A B]. unfold cneg. split.
  - intros a b _ _. pose proof (A a b I I). pose proof (A b a I I). lia.
  - intros a b d _ _ _.
    pose proof (A a b I I). pose proof (A b a I I). pose proof (A b d I I). pose proof (A d b I I).
    pose proof (A a d I I). pose proof (A d a I I). pose proof (B d b a I I I). lia.
Qed.

Lemma valid_weaken : forall {T} (dom : T -> Prop) (c : T -> T -> Z),
  valid_on everywhere c -> valid_on dom c.
Proof. intros T dom c [A B]. split; intros; [apply A | eapply B]; unfold everywhere; eauto. Qed.

(* reversed (creation time, uid) as a 3-way comparator *)
Definition tb3 (a b : item) : Z :=
  if by_time_uid b a then -1 else if by_time_uid a b then 1 else 0.
Lemma tb3_valid : valid_on everywhere tb3.
Proof. exact (swo_valid _ _ (swo_flip _ _ by_time_uid_swo)). Qed.

Lemma lex_zero_last : forall {T} (cs : list (T -> T -> Z)) c a b,
  lex (cs ++ [c]) a b = 0 -> c a b = 0.
Proof.
  intros T cs c a b. rewrite lex_app. simpl.
  destruct (Z.eqb_spec (lex cs a b) 0); [|congruence].
  destruct (Z.eqb_spec (c a b) 0); auto.
Qed.

(* reduce the nested "first non-zero" of a slot list whose earlier answers are 0 *)
Ltac tail3 c :=
  destruct (Z.eqb_spec c 0) as [?E0|?E0]; simpl;
  [reflexivity | repeat (rewrite (proj2 (Z.eqb_neq c 0)) by assumption; simpl); reflexivity].

Section VictimOrder.
  Variable task_ts job_ts queue_ts vq_ts : layout (item -> item -> Z).
  Variable jobs : Z -> option vjob.
  Variable queues : Z -> option item.
  Variable pj : Z.
  Hypothesis Ht : all_valid everywhere task_ts.
  Hypothesis Hj : all_valid everywhere job_ts.
  Hypothesis Hq : all_valid everywhere queue_ts.
  Hypothesis Hv : all_valid everywhere (force_en_all vq_ts).
  Hypothesis Hqinj : forall q1 q2 a b, q1 <> q2 -> queues q1 = Some a -> queues q2 = Some b ->
                                       i_uid a <> i_uid b.

  (* the victim-queue order of two queues as one 3-way comparator *)
  Definition cq : item -> item -> Z :=
    lex (actives (force_en_all vq_ts) ++ [cneg (cmp_tiers queue_ts); tb3]).

  Lemma cq_valid : valid_on everywhere cq.
  Proof.
    unfold cq. apply valid_lex. apply Forall_app. split.
    - apply Forall_forall. intros c Hc. apply in_actives in Hc.
      destruct Hc as [t [p [? [? [? <-]]]]]. eapply Hv; eauto.
    - constructor; [|constructor; [exact tb3_valid | constructor]].
      apply cneg_valid. apply valid_cmp_tiers. exact Hq.
  Qed.

  Lemma vq_as_cq : forall a b, i_uid a <> i_uid b ->
    victim_queue_order_fn vq_ts queue_ts a b = (cq a b <? 0).
  Proof.
    intros a b Hu. unfold victim_queue_order_fn, queue_order_fn, order_fn, cq.
    rewrite lex_app, cmp_tiers_first_distinguishing.
    destruct (Z.eqb_spec (lex (actives (force_en_all vq_ts)) a b) 0) as [E|E]; [|reflexivity].
    simpl. unfold cneg, tb3. pose proof (by_time_uid_total a b Hu) as Hf.
    destruct (Z.eqb_spec (cmp_tiers queue_ts a b) 0) as [E2|E2].
    - rewrite E2. simpl. rewrite Hf. destruct (by_time_uid b a); simpl; reflexivity.
    - destruct (Z.eqb_spec (- cmp_tiers queue_ts a b) 0); lia.
  Qed.

  Lemma cq_nonzero : forall a b, i_uid a <> i_uid b -> cq a b <> 0.
  Proof.
    intros a b Hu E. unfold cq in E.
    replace (actives (force_en_all vq_ts) ++ [cneg (cmp_tiers queue_ts); tb3])
      with ((actives (force_en_all vq_ts) ++ [cneg (cmp_tiers queue_ts)]) ++ [tb3]) in E
      by (rewrite <- app_assoc; reflexivity).
    apply lex_zero_last in E. unfold tb3 in E. pose proof (by_time_uid_total a b Hu) as Hf.
    destruct (by_time_uid b a); [discriminate|]. rewrite Hf in E. simpl in E. discriminate.
  Qed.

  (* the four keys of a victim *)
  Definition jk (t : vtask) : option vjob := jobs (vt_job t).
  Definition dummy_queue : item := mkItem 0 0 0 None.
  Definition qk (t : vtask) : option item :=
    match jk t with
    | None => None
    | Some j => match jobs pj with
                | Some _ => queues (vj_queue j)
                | None => Some dummy_queue          (* no preemptor job: queues are not consulted *)
                end
    end.
  Definition c_orphan (l r : vtask) : Z := cmp_opt (fun _ _ : vjob => 0) (jk l) (jk r).
  Definition c_queue (l r : vtask) : Z := cmp_opt cq (qk l) (qk r).
  Definition c_job (l r : vtask) : Z :=
    cmp_opt (fun a b : vjob => cneg (cmp_tiers job_ts) (vj_item a) (vj_item b)) (jk l) (jk r).
  Definition rev_task (l r : vtask) : bool := task_order_fn task_ts (vt_item r) (vt_item l).
  Definition victim_layout : layout (vtask -> vtask -> Z) :=
    [[mkSlot true true c_orphan; mkSlot true true c_queue; mkSlot true true c_job]].

  Lemma cj_valid : valid_on everywhere (fun a b : vjob => cneg (cmp_tiers job_ts) (vj_item a) (vj_item b)).
  Proof.
    apply (valid_on_proj vj_item (cneg (cmp_tiers job_ts)) everywhere).
    apply cneg_valid. apply valid_cmp_tiers. exact Hj.
  Qed.

  Lemma victim_layout_valid : forall dom, all_valid dom victim_layout.
  Proof.
    intros dom t p Hin Hp _. destruct Hin as [<-|[]].
    destruct Hp as [<-|[<-|[<-|[]]]]; simpl; apply valid_weaken.
    - apply (valid_on_proj jk (cmp_opt (fun _ _ : vjob => 0)) everywhere).
      apply cmp_opt_valid. apply cmp_zero_valid.
    - apply (valid_on_proj qk (cmp_opt cq) everywhere). apply cmp_opt_valid. exact cq_valid.
    - apply (valid_on_proj jk _ everywhere). apply cmp_opt_valid. exact cj_valid.
  Qed.

  (* on two victims with different UIDs the less function IS the
     lexicographic order of the four keys *)
  Theorem victim_less_as_order : forall l r b,
    i_uid (vt_item l) <> i_uid (vt_item r) ->
    victim_less task_ts job_ts queue_ts vq_ts jobs queues pj l r = Some b ->
    b = order_fn victim_layout rev_task l r.
  Proof.
    intros l r b Hu. unfold victim_less, order_fn, victim_layout. simpl.
    unfold c_orphan, c_queue, c_job, qk, jk, rev_task.
    assert (TF : negb (task_order_fn task_ts (vt_item l) (vt_item r)) =
                 task_order_fn task_ts (vt_item r) (vt_item l)).
    { rewrite (task_flip task_ts Ht _ _ Hu), negb_involutive. reflexivity. }
    assert (JT : forall lj rj,
      job_then_task task_ts job_ts lj rj l r =
      (let c := cneg (cmp_tiers job_ts) (vj_item lj) (vj_item rj) in
       if c =? 0 then task_order_fn task_ts (vt_item r) (vt_item l) else c <? 0)).
    { intros lj rj. unfold job_then_task, cneg. rewrite TF.
      destruct (Z.eqb_spec (cmp_tiers job_ts (vj_item lj) (vj_item rj)) 0),
               (Z.eqb_spec (- cmp_tiers job_ts (vj_item lj) (vj_item rj)) 0); auto; lia. }
    destruct (Z.eqb_spec (vt_job l) (vt_job r)) as [Ej|Ej].
    - (* one job id *)
      intros H. inversion H. rewrite Ej.
      rewrite (cmp_opt_refl (fun _ _ : vjob => 0) cmp_zero_valid). simpl.
      rewrite (cmp_opt_refl cq cq_valid). simpl. rewrite (cmp_opt_refl _ cj_valid). simpl. exact TF.
    - destruct (jobs (vt_job l)) as [lj|] eqn:El, (jobs (vt_job r)) as [rj|] eqn:Er; simpl.
      + destruct (jobs pj) eqn:Ep.
        * destruct (Z.eqb_spec (vj_queue lj) (vj_queue rj)) as [Eq|Eq].
          -- intros H. injection H as <-. rewrite Eq. rewrite (cmp_opt_refl cq cq_valid). simpl.
             rewrite JT. cbv zeta. set (c := cneg (cmp_tiers job_ts) (vj_item lj) (vj_item rj)). tail3 c.
          -- destruct (queues (vj_queue lj)) as [lq|] eqn:Ql, (queues (vj_queue rj)) as [rq|] eqn:Qr;
               try discriminate.
             intros H. injection H as <-. simpl.
             assert (Hqu : i_uid lq <> i_uid rq) by (eapply Hqinj; eauto).
             rewrite (vq_as_cq lq rq Hqu). pose proof (cq_nonzero lq rq Hqu) as Hnz.
             set (c := cq lq rq) in *.
             repeat (rewrite (proj2 (Z.eqb_neq c 0)) by assumption; simpl). reflexivity.
        * intros H. injection H as <-. simpl. rewrite (valid_refl0 cq cq_valid). simpl.
          rewrite JT. cbv zeta. set (c := cneg (cmp_tiers job_ts) (vj_item lj) (vj_item rj)). tail3 c.
      + intros H. injection H as <-. reflexivity.
      + intros H. injection H as <-. reflexivity.
      + intros H. injection H as <-. exact TF.
  Qed.

  (* hence a strict weak order on every set of victims whose pod names
     are of one kind (the task tie-break needs it) *)
  Theorem victim_order_strict_weak : forall k,
    swo_on (fun t => idx_kind k (vt_item t)) (order_fn victim_layout rev_task).
  Proof.
    intros k. apply lex_order_strict_weak.
    - apply victim_layout_valid.
    - (* the reversed task order is a strict weak order *)
      assert (S : swo_on (idx_kind k) (task_order_fn task_ts)).
      { apply lex_order_strict_weak; [|apply compare_task_swo].
        intros t p H1 H2 H3. apply valid_weaken. eapply Ht; eauto. }
      destruct (swo_flip _ _ S) as [As Nt]. unfold rev_task. split; intros; [apply As | apply Nt]; auto.
  Qed.

  (* the victims queue pops in the victim order *)
  Definition vless (l r : vtask) : bool :=
    match victim_less task_ts job_ts queue_ts vq_ts jobs queues pj l r with
    | Some b => b
    | None => false
    end.

  Variable U : list vtask.                 (* the victims handed to BuildVictimsPriorityQueue *)
  Variable k : bool.
  Hypothesis U_uids : NoDup (map (fun t => i_uid (vt_item t)) U).
  Hypothesis U_kind : forall t, In t U -> idx_kind k (vt_item t).
  Hypothesis U_defined : forall l r, In l U -> In r U ->
    victim_less task_ts job_ts queue_ts vq_ts jobs queues pj l r <> None.

  Lemma U_distinct : forall a b, In a U -> In b U -> a <> b -> i_uid (vt_item a) <> i_uid (vt_item b).
  Proof.
    clear U_kind U_defined. induction U as [|x xs IH]; intros a b Ha Hb Hab E; [destruct Ha|].
    simpl in U_uids. inversion U_uids as [|? ? Hn Hnd]; subst.
    destruct Ha as [<-|Ha], Hb as [<-|Hb].
    - congruence.
    - apply Hn. rewrite E. apply in_map_iff. exists b. auto.
    - apply Hn. rewrite <- E. apply in_map_iff. exists a. auto.
    - apply (IH Hnd a b); auto.
  Qed.

  Lemma vless_eq : forall a b, In a U -> In b U -> a <> b ->
    vless a b = order_fn victim_layout rev_task a b.
  Proof.
    intros a b Ha Hb Hab. unfold vless.
    destruct (victim_less task_ts job_ts queue_ts vq_ts jobs queues pj a b) as [x|] eqn:E.
    - apply (victim_less_as_order a b x); [apply U_distinct; auto | exact E].
    - exfalso. exact (U_defined a b Ha Hb E).
  Qed.

  Lemma vtask_eq_dec : forall a b : vtask, {a = b} + {a <> b}.
  Proof.
    decide equality; try apply Z.eq_dec.
    decide equality; try apply Z.eq_dec. decide equality. apply Z.eq_dec.
  Qed.

  (* pushing the victims and popping until empty never fails and yields a
     permutation in which no later victim precedes an earlier one *)
  Theorem victims_queue_pops_in_order :
    exists out, heap_sort vless U = Some out /\ Permutation out U /\ sorted_by vless out.
  Proof.
    destruct (victim_order_strict_weak k) as [As Nt].
    apply (heap_sort_sorted vless (mkVTask (mkItem 0 0 0 None) 0) (fun t => In t U) vtask_eq_dec).
    - intros a b Ha Hb Hab H. rewrite vless_eq in H by auto. rewrite vless_eq by auto.
      apply As; auto.
    - intros a b c Ha Hb Hc N1 N2 N3 H. rewrite vless_eq in H by auto.
      rewrite !vless_eq by auto. apply Nt; auto.
    - apply Forall_forall. auto.
  Qed.
End VictimOrder.

(* non-vacuity: a concrete victims queue meeting the hypotheses - two found jobs
   in two queues, two victims orphaned from two DIFFERENT missing jobs, one
   enabled registered comparator per order *)
Definition ex_vjobs (k : Z) : option vjob :=
  if k =? 0 then Some (mkVJob (mkItem 0 1 10 None) 0)
  else if k =? 1 then Some (mkVJob (mkItem 1 2 11 None) 1) else None.
Definition ex_vqueues (k : Z) : option item :=
  if k =? 0 then Some (mkItem 0 1 20 None) else if k =? 1 then Some (mkItem 1 2 21 None) else None.
Definition ex_victims : list vtask :=
  [mkVTask (mkItem 0 1 1 (Some 0)) 0; mkVTask (mkItem 1 2 2 (Some 1)) 1;
   mkVTask (mkItem 2 3 3 (Some 2)) 7; mkVTask (mkItem 3 4 4 (Some 0)) 8; mkVTask (mkItem 4 0 5 (Some 1)) 0].
Definition ex_vless := vless ex_layout ex_layout ex_layout [] ex_vjobs ex_vqueues 0.

Example victims_queue_nonvacuous :
  all_valid everywhere ex_layout /\
  NoDup (map (fun t => i_uid (vt_item t)) ex_victims) /\
  (forall t, In t ex_victims -> idx_kind true (vt_item t)) /\
  forallb (fun l => forallb (fun r =>
     match victim_less ex_layout ex_layout ex_layout [] ex_vjobs ex_vqueues 0 l r with
     | Some _ => true | None => false end) ex_victims) ex_victims = true /\
  (* orphans (uids 4, 3: two different missing jobs) first, then queue 1's victim, then queue 0's *)
  option_map (map (fun t => i_uid (vt_item t))) (heap_sort ex_vless ex_victims) = Some [4; 3; 2; 1; 5] /\
  (* the diagonal of the less function is TRUE *)
  forallb (fun t => ex_vless t t) ex_victims = true.
Proof.
  split; [exact ex_layout_valid|]. split.
  - simpl. repeat constructor; simpl; intuition discriminate.
  - split; [|vm_compute; auto].
    intros t Ht. simpl in Ht. unfold idx_kind.
    repeat (destruct Ht as [<-|Ht]; [simpl; discriminate|]). destruct Ht.
Qed.
