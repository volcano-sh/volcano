(* C11 — proofs about the tier dispatch model: the walks of Model.v equal the flat specifications
   of Spec.v (victims, gates, votes); the theory of valid 3-way comparators and strict weak
   orders behind the session order functions; the comparators of the shipped plugins; the
   totality of BuildVictimsPriorityQueue's less function; non-vacuity examples. *)
From Coq Require Import ZArith List Bool Lia.
From V Require Import C11.Model C11.Spec.
Import ListNotations.
Open Scope Z_scope.

Ltac zcases :=
  repeat match goal with
         | |- context [Z.ltb ?a ?b] => destruct (Z.ltb_spec a b)
         | |- context [Z.eqb ?a ?b] => destruct (Z.eqb_spec a b)
         end.

Lemma in_inter : forall x vs cs, In x (inter vs cs) <-> In x vs /\ In x cs.
Proof.
  intros x vs cs. unfold inter. rewrite in_flat_map. split.
  - intros [v [Hv H]]. rewrite in_flat_map in H. destruct H as [c [Hc H]].
    destruct (Z.eqb_spec v c) as [->|].
    + destruct H as [<-|[]]. auto.
    + destruct H.
  - intros [H1 H2]. exists x. split; auto. apply in_flat_map. exists x. split; auto.
    rewrite Z.eqb_refl. left; auto.
Qed.

Lemma inter_nil_r : forall vs, inter vs [] = [].
Proof. induction vs; simpl; auto. Qed.

Lemma fold_inter_nil : forall cs, fold_left inter cs [] = [].
Proof. induction cs; simpl; auto. Qed.

Lemma in_fold_inter : forall x cs c,
  In x (fold_left inter cs c) <-> In x c /\ forall c', In c' cs -> In x c'.
Proof.
  intros x cs. induction cs as [|d cs IH]; intros c; simpl.
  - split; [intros H; split; [auto | intros ? []] | intros [H _]; auto].
  - rewrite IH, in_inter. split.
    + intros [[H1 H2] H3]. split; auto. intros c' [<-|H]; auto.
    + intros [H1 H2]. split; [split|]; auto.
Qed.

Lemma voters_cons : forall p r,
  voters (p :: r) = if voting p then v_cands (s_ans p) :: voters r else voters r.
Proof. intros. unfold voters. simpl. destruct (voting p); reflexivity. Qed.

Lemma tier_fixed_true : forall ps vs,
  tier_fixed true vs ps = fold_left inter (voters ps) vs.
Proof.
  induction ps as [|p r IH]; intros vs; [reflexivity|].
  rewrite voters_cons. unfold voting. simpl.
  destruct (active p); simpl; [|apply IH].
  destruct (v_flag (s_ans p) =? 0); simpl; [apply IH|].
  destruct (v_cands (s_ans p)) as [|c0 c] eqn:E.
  - simpl. rewrite inter_nil_r, fold_inter_nil. reflexivity.
  - rewrite IH. reflexivity.
Qed.

Lemma tier_fixed_false : forall ps, tier_fixed false [] ps = agreement ps.
Proof.
  induction ps as [|p r IH]; [reflexivity|].
  unfold agreement. rewrite voters_cons. unfold voting. simpl.
  destruct (active p); simpl; [|apply IH].
  destruct (v_flag (s_ans p) =? 0); simpl; [apply IH|].
  destruct (v_cands (s_ans p)) as [|c0 c] eqn:E.
  - rewrite fold_inter_nil. reflexivity.
  - apply tier_fixed_true.
Qed.

(* the fixed loop returns the agreement of the first tier whose
   agreement is non-empty, [] if there is none — for every layout *)
Theorem tier_victims_spec : forall ts, victims_fixed ts = victims_spec ts.
Proof.
  unfold victims_spec. induction ts as [|t r IH]; [reflexivity|].
  simpl. rewrite tier_fixed_false. destruct (agreement t); auto.
Qed.

Lemma first_nonempty_decomp : forall l x xs,
  first_nonempty l = x :: xs ->
  exists pre post, l = pre ++ (x :: xs) :: post /\ Forall (fun y => y = []) pre.
Proof.
  induction l as [|a l IH]; intros x xs H; simpl in H; [discriminate|].
  destruct a as [|a0 a'].
  - destruct (IH _ _ H) as [pre [post [-> Hp]]].
    exists ([] :: pre), post. split; auto.
  - inversion H; subst. exists [], l. split; auto.
Qed.

Lemma map_eq_app_cons : forall {A B} (f : A -> B) l pre y post,
  map f l = pre ++ y :: post ->
  exists lp t lq, l = lp ++ t :: lq /\ map f lp = pre /\ f t = y /\ map f lq = post.
Proof.
  intros A B f l. induction l as [|a l IH]; intros pre y post H.
  - destruct pre; discriminate.
  - destruct pre as [|b pre]; simpl in H; inversion H; subst.
    + exists [], a, l. auto.
    + destruct (IH _ _ _ H2) as [lp [t [lq [-> [E1 [E2 E3]]]]]].
      exists (a :: lp), t, lq. simpl. rewrite E1. auto.
Qed.

Lemma in_voters : forall c t, In c (voters t) <-> exists p, In p t /\ voting p = true /\ v_cands (s_ans p) = c.
Proof.
  intros. unfold voters. rewrite in_map_iff. split.
  - intros [p [E H]]. apply filter_In in H. destruct H. exists p; auto.
  - intros [p [H1 [H2 E]]]. exists p. split; auto. apply filter_In; auto.
Qed.

Lemma in_agreement : forall x t,
  In x (agreement t) <->
  (exists p, In p t /\ voting p = true) /\
  forall p, In p t -> voting p = true -> In x (v_cands (s_ans p)).
Proof.
  intros x t. unfold agreement. destruct (voters t) as [|c cs] eqn:E.
  - split; [intros []|]. intros [[p [H1 H2]] _].
    assert (In (v_cands (s_ans p)) (voters t)) by (apply in_voters; eauto).
    rewrite E in H. destruct H.
  - rewrite in_fold_inter. split.
    + intros [H1 H2]. split.
      * assert (In c (voters t)) by (rewrite E; left; auto).
        apply in_voters in H. destruct H as [p [? [? ?]]]. eauto.
      * intros p Hp Hv. assert (In (v_cands (s_ans p)) (voters t)) by (apply in_voters; eauto).
        rewrite E in H. destruct H as [<-|H]; auto.
    + intros [_ H]. split.
      * assert (In c (voters t)) by (rewrite E; left; auto).
        apply in_voters in H0. destruct H0 as [p [? [? <-]]]. auto.
      * intros c' Hc. assert (In c' (voters t)) by (rewrite E; right; auto).
        apply in_voters in H0. destruct H0 as [p [? [? <-]]]. auto.
Qed.

(* every returned victim was put forward by EVERY voting plugin of the deciding
   tier, and the deciding tier is the first one with a non-empty agreement *)
Theorem victims_respect_deciding_tier : forall ts x,
  In x (victims_fixed ts) ->
  exists pre t post,
    ts = pre ++ t :: post /\
    Forall (fun t' => agreement t' = []) pre /\
    victims_fixed ts = agreement t /\
    (exists p, In p t /\ voting p = true) /\
    forall p, In p t -> voting p = true -> In x (v_cands (s_ans p)).
Proof.
  intros ts x Hx. rewrite tier_victims_spec in *. unfold victims_spec in *.
  destruct (first_nonempty (map agreement ts)) as [|y ys] eqn:E; [destruct Hx|].
  destruct (first_nonempty_decomp _ _ _ E) as [pre [post [Hm Hp]]].
  destruct (map_eq_app_cons _ _ _ _ _ Hm) as [lp [t [lq [-> [E1 [E2 E3]]]]]].
  exists lp, t, lq. split; auto. split.
  - subst pre. rewrite Forall_map in Hp. exact Hp.
  - split; [auto|]. rewrite <- E2 in Hx. apply in_agreement in Hx. exact Hx.
Qed.

(* the layout on which the loop as it was before the fix misses the specification
   (C11_victims_prefix_refuted in Props/C11.v): three voters {1},{2},{3} in one tier; it
   returned [3], a task rejected by two voters *)
Definition f1_witness : layout vote :=
  [[mkSlot true true (mkVote 1 [1]); mkSlot true true (mkVote 1 [2]); mkSlot true true (mkVote 1 [3])]].

(* on the same witness the fixed loop answers [] *)
Example victims_fixed_on_witness : victims_fixed f1_witness = [].
Proof. reflexivity. Qed.

(* with at most two voters per tier the old loop was right (why the unit tests
   never saw it) *)
Lemma tier_prefix_two : forall a b,
  tier_prefix [] [a; b] = agreement [a; b].
Proof.
  intros a b. rewrite <- tier_fixed_false. simpl.
  destruct (active a), (active b); simpl; auto;
  destruct (v_flag (s_ans a) =? 0), (v_flag (s_ans b) =? 0); simpl; auto;
  destruct (v_cands (s_ans a)), (v_cands (s_ans b)); simpl; auto.
Qed.

Lemma actives_cons : forall {A} (t : list (slot A)) r,
  actives (t :: r) = map s_ans (filter active t) ++ actives r.
Proof. intros. unfold actives. simpl. rewrite filter_app, map_app. reflexivity. Qed.

Definition idb (b : bool) : bool := b.

Lemma all_tier_spec : forall ps, all_tier ps = forallb idb (map s_ans (filter active ps)).
Proof.
  induction ps as [|p r IH]; [reflexivity|]. simpl.
  destruct (active p); simpl; auto. unfold idb at 1. destruct (s_ans p); simpl; auto.
Qed.

Theorem gate_conjunction : forall ts, all_tiers ts = forallb idb (actives ts).
Proof.
  induction ts as [|t r IH]; [reflexivity|].
  rewrite actives_cons, forallb_app. simpl. rewrite all_tier_spec, IH.
  destruct (forallb idb (map s_ans (filter active t))); reflexivity.
Qed.

Lemma in_actives : forall {A} (ts : layout A) a,
  In a (actives ts) <-> exists t p, In t ts /\ In p t /\ active p = true /\ s_ans p = a.
Proof.
  intros. unfold actives. rewrite in_map_iff. split.
  - intros [p [E H]]. apply filter_In in H. destruct H as [H Ha].
    apply in_concat in H. destruct H as [t [? ?]]. exists t, p. repeat split; auto.
  - intros [t [p [H1 [H2 [H3 H4]]]]]. exists p. split; auto. apply filter_In. split; auto.
    apply in_concat. eauto.
Qed.

Lemma any_tier_spec : forall ps, any_tier ps = existsb idb (map s_ans (filter active ps)).
Proof.
  induction ps as [|p r IH]; [reflexivity|]. simpl.
  destruct (active p); simpl; auto. unfold idb at 1. destruct (s_ans p); simpl; auto.
Qed.

Theorem gate_disjunction : forall ts, any_tiers ts = existsb idb (actives ts).
Proof.
  induction ts as [|t r IH]; [reflexivity|].
  rewrite actives_cons, existsb_app. simpl. rewrite any_tier_spec, IH.
  destruct (existsb idb (map s_ans (filter active t))); reflexivity.
Qed.

(* JobStarving *)
Lemma starving_tier_spec : forall ps hf,
  starving_tier hf ps =
  if forallb idb (map s_ans (filter active ps)) then Some (hf || existsb active ps) else None.
Proof.
  induction ps as [|p r IH]; intros hf; simpl.
  - rewrite orb_false_r. reflexivity.
  - destruct (active p); simpl.
    + unfold idb at 1. destruct (s_ans p); simpl; auto. rewrite IH. simpl.
      rewrite orb_true_r. reflexivity.
    + apply IH.
Qed.

Lemma no_active_all : forall ps,
  existsb active ps = false -> forallb idb (map s_ans (filter active ps)) = true.
Proof.
  induction ps as [|p r IH]; simpl; auto. destruct (active p); simpl; [discriminate|auto].
Qed.

Theorem job_starving_spec : forall ts,
  job_starving ts =
  match find (existsb active) ts with
  | None => false
  | Some t => forallb idb (map s_ans (filter active t))
  end.
Proof.
  induction ts as [|t r IH]; [reflexivity|]. simpl.
  rewrite starving_tier_spec. simpl.
  destruct (existsb active t) eqn:E.
  - destruct (forallb idb (map s_ans (filter active t))); reflexivity.
  - rewrite (no_active_all _ E). apply IH.
Qed.

(* JobValid / PredicateFn: first failure in tier order *)
Lemma hd_error_app : forall {A} (a b : list A),
  hd_error (a ++ b) = match hd_error a with Some x => Some x | None => hd_error b end.
Proof. intros. destruct a; reflexivity. Qed.

Lemma valid_tier_spec : forall ps,
  valid_tier ps = hd_error (somes (map (fun p => first_fail_tier_step (s_ans p)) (filter s_reg ps))).
Proof.
  induction ps as [|p r IH]; [reflexivity|]. simpl.
  destruct (s_reg p); simpl; auto.
  destruct (first_fail_tier_step (s_ans p)); simpl; auto.
Qed.

Theorem job_valid_spec : forall ts, job_valid ts = hd_error (fails ts).
Proof.
  induction ts as [|t r IH]; [reflexivity|].
  unfold fails, somes in *. simpl. rewrite filter_app, map_app, flat_map_app, hd_error_app.
  rewrite valid_tier_spec, IH. unfold somes. reflexivity.
Qed.

Lemma pred_tier_spec : forall ps, pred_tier ps = hd_error (somes (map s_ans (filter active ps))).
Proof.
  induction ps as [|p r IH]; [reflexivity|]. simpl.
  destruct (active p); simpl; auto. destruct (s_ans p); simpl; auto.
Qed.

Theorem predicate_spec : forall ts, predicate ts = hd_error (somes (actives ts)).
Proof.
  induction ts as [|t r IH]; [reflexivity|].
  rewrite actives_cons. unfold somes in *. rewrite flat_map_app, hd_error_app. simpl.
  rewrite pred_tier_spec, IH. unfold somes. reflexivity.
Qed.

Definition permits (p : slot Z) : bool := active p && (0 <? s_ans p).

(* one tier: a reject anywhere wins, otherwise the answer is whether a permit was seen *)
Lemma vote_tier_spec : forall ps hf,
  vote_tier hf ps =
  if existsb (fun p => active p && (s_ans p <? 0)) ps then None else Some (hf || existsb permits ps).
Proof.
  induction ps as [|p r IH]; intros hf; simpl.
  - rewrite orb_false_r. reflexivity.
  - unfold permits at 1. destruct (active p); simpl; [|apply IH].
    destruct (s_ans p <? 0); simpl; [reflexivity|]. rewrite IH.
    destruct (existsb _ r); [reflexivity|].
    destruct (0 <? s_ans p), hf; simpl; reflexivity.
Qed.

(* the answer is "no" exactly when some tier contains a reject and no
   tier before it contains a permit *)
Theorem vote_first_permit_unless_reject : forall ts,
  vote_tiers ts = false <->
  exists pre t post,
    ts = pre ++ t :: post /\
    (forall t' p, In t' pre -> In p t' -> active p = true -> s_ans p <= 0) /\
    (exists p, In p t /\ active p = true /\ s_ans p < 0).
Proof.
  assert (Rej : forall t, existsb (fun p : slot Z => active p && (s_ans p <? 0)) t = true <->
                          exists p, In p t /\ active p = true /\ s_ans p < 0).
  { intro t. rewrite existsb_exists. split; intros [p [Hp H]]; exists p.
    - apply andb_prop in H. rewrite Z.ltb_lt in H. tauto.
    - split; [exact Hp|]. apply andb_true_intro. rewrite Z.ltb_lt. exact H. }
  assert (Per : forall t, existsb permits t = false ->
                          forall p, In p t -> active p = true -> s_ans p <= 0).
  { intros t E p Hp Ha. destruct (Z.ltb_spec 0 (s_ans p)); [|assumption].
    assert (existsb permits t = true); [|congruence].
    apply existsb_exists. exists p. split; [exact Hp|]. unfold permits. rewrite Ha. apply Z.ltb_lt. assumption. }
  induction ts as [|t r IH]; simpl.
  - split; [discriminate|]. intros [pre [t [post [H _]]]]. destruct pre; discriminate.
  - rewrite vote_tier_spec. destruct (existsb _ t) eqn:Er; simpl.
    + (* a reject in the first tier *)
      split; auto. intros _. exists [], t, r. split; auto. split; [intros ? ? []|]. apply Rej. exact Er.
    + destruct (existsb permits t) eqn:Ep.
      * (* a permit and no reject in the first tier *)
        split; [discriminate|]. intros [pre [t' [post [H [Hp Hr]]]]].
        destruct pre as [|t0 pre]; simpl in H; inversion H; subst.
        -- apply Rej in Hr. congruence.
        -- apply existsb_exists in Ep. destruct Ep as [q [Hq Hperm]].
           apply andb_prop in Hperm. destruct Hperm as [Ha Hpos]. apply Z.ltb_lt in Hpos.
           specialize (Hp t0 q (or_introl eq_refl) Hq Ha). lia.
      * (* neither: next tier *)
        rewrite IH. split.
        -- intros [pre [t' [post [-> [Hp Hr]]]]]. exists (t :: pre), t', post. split; auto. split; auto.
           intros t0 q [<-|Hin]; [apply Per; exact Ep | eauto].
        -- intros [pre [t' [post [H [Hp Hr]]]]].
           destruct pre as [|t0 pre]; simpl in H; inversion H; subst.
           ++ apply Rej in Hr. congruence.
           ++ exists pre, t', post. split; auto. split; auto. intros. eapply Hp; eauto. right; auto.
Qed.

Section OrderLemmas.
  Context {T : Type}.
  Variable dom : T -> Prop.      (* the set of items being ordered *)

  (* a 3-way comparator is valid on the set when it is antisymmetric and its
     "<= 0" is transitive (a total preorder read through the sign) *)
  Definition valid_on (c : T -> T -> Z) : Prop :=
    (forall a b, dom a -> dom b -> (c a b < 0 <-> 0 < c b a)) /\
    (forall a b d, dom a -> dom b -> dom d -> c a b <= 0 -> c b d <= 0 -> c a d <= 0).

  Lemma cmp_tier_spec : forall (ps : list (slot (T -> T -> Z))) l r,
    cmp_tier ps l r = lex (map s_ans (filter active ps)) l r.
  Proof.
    induction ps as [|p rest IH]; intros; [reflexivity|]. simpl.
    destruct (active p); simpl; auto. destruct (s_ans p l r =? 0); auto.
  Qed.

  Lemma lex_app : forall (a b : list (T -> T -> Z)) l r,
    lex (a ++ b) l r = if lex a l r =? 0 then lex b l r else lex a l r.
  Proof.
    induction a as [|c a IH]; intros; [reflexivity|]. simpl.
    destruct (c l r =? 0) eqn:E; auto. rewrite E. reflexivity.
  Qed.

  (* the tier walk is the first non-zero answer of the enabled registered
     comparators in tier order *)
  Theorem cmp_tiers_first_distinguishing : forall (ts : layout (T -> T -> Z)) l r,
    cmp_tiers ts l r = lex (actives ts) l r.
  Proof.
    induction ts as [|t rest IH]; intros; [reflexivity|].
    rewrite actives_cons, lex_app. simpl. rewrite cmp_tier_spec, IH. reflexivity.
  Qed.

  Lemma valid_ext : forall c c' : T -> T -> Z,
    (forall a b, dom a -> dom b -> c' a b = c a b) -> valid_on c -> valid_on c'.
  Proof. intros c c' E [A B]. split; intros; rewrite !E in *; eauto. Qed.

  Lemma valid_sym0 : forall c a b, valid_on c -> dom a -> dom b -> c a b = 0 -> c b a = 0.
  Proof. intros c a b [A _] Ha Hb E. pose proof (A a b Ha Hb). pose proof (A b a Hb Ha). lia. Qed.

  (* a chain a <= b <= d that ends in a tie consists of ties *)
  Lemma valid_tie : forall c a b d, valid_on c -> dom a -> dom b -> dom d ->
    c a b <= 0 -> c b d <= 0 -> c a d = 0 -> c a b = 0 /\ c b d = 0.
  Proof.
    intros c a b d Hc Ha Hb Hd H1 H2 E. pose proof (valid_sym0 c a d Hc Ha Hd E) as E'.
    destruct Hc as [A B].
    pose proof (B b d a Hb Hd Ha H2). pose proof (B d a b Hd Ha Hb).
    pose proof (A a b Ha Hb). pose proof (A b d Hb Hd). lia.
  Qed.

  (* c decides, c' breaks its ties: one step of [lex] *)
  Definition then_cmp (c c' : T -> T -> Z) (a b : T) : Z := if c a b =? 0 then c' a b else c a b.

  Lemma valid_then : forall c c', valid_on c -> valid_on c' -> valid_on (then_cmp c c').
  Proof.
    intros c c' Hc Hc'. unfold then_cmp. split.
    - intros a b Ha Hb. destruct Hc as [A _], Hc' as [A' _].
      pose proof (A a b Ha Hb). pose proof (A b a Hb Ha). pose proof (A' a b Ha Hb).
      destruct (Z.eqb_spec (c a b) 0), (Z.eqb_spec (c b a) 0); lia.
    - intros a b d Ha Hb Hd H1 H2.
      assert (L1 : c a b <= 0) by (destruct (Z.eqb_spec (c a b) 0); lia).
      assert (L2 : c b d <= 0) by (destruct (Z.eqb_spec (c b d) 0); lia).
      pose proof (proj2 Hc a b d Ha Hb Hd L1 L2) as L.
      destruct (Z.eqb_spec (c a d) 0) as [E|E]; [|lia].
      destruct (valid_tie c a b d Hc Ha Hb Hd L1 L2 E) as [E1 E2].
      rewrite E1, E2 in *. simpl in *. exact (proj2 Hc' a b d Ha Hb Hd H1 H2).
  Qed.

  Lemma valid_lex : forall (cs : list (T -> T -> Z)), Forall valid_on cs -> valid_on (lex cs).
  Proof.
    induction 1 as [|c cs Hc _ IH]; [split; simpl; intros; lia|].
    exact (valid_then c (lex cs) Hc IH).
  Qed.

  Definition all_valid (ts : layout (T -> T -> Z)) : Prop :=
    forall t p, In t ts -> In p t -> active p = true -> valid_on (s_ans p).

  Lemma valid_cmp_tiers : forall ts, all_valid ts -> valid_on (cmp_tiers ts).
  Proof.
    intros ts H. apply (valid_ext (lex (actives ts))).
    - intros. apply cmp_tiers_first_distinguishing.
    - apply valid_lex. apply Forall_forall. intros c Hc. apply in_actives in Hc.
      destruct Hc as [t [p [? [? [? <-]]]]]. eauto.
  Qed.

  (* the built-in tie-break is a strict weak order on the set *)
  Definition swo_on (lt : T -> T -> bool) : Prop :=
    (forall a b, dom a -> dom b -> lt a b = true -> lt b a = false) /\
    (forall a b d, dom a -> dom b -> dom d -> lt a d = true -> lt a b = true \/ lt b d = true).

  Lemma swo_trans : forall lt, swo_on lt -> forall a b d, dom a -> dom b -> dom d ->
    lt a b = true -> lt b d = true -> lt a d = true.
  Proof.
    intros lt [As Nt] a b d Ha Hb Hd H1 H2.
    destruct (Nt a d b Ha Hd Hb H1) as [H|H]; auto.
    rewrite (As b d Hb Hd H2) in H. discriminate.
  Qed.

  Lemma swo_flip : forall lt, swo_on lt -> swo_on (fun a b => lt b a).
  Proof.
    intros lt [As Nt]. split; [auto|]. intros a b d Ha Hb Hd H.
    destruct (Nt d b a Hd Hb Ha H); auto.
  Qed.

  (* a strict weak order read as a 3-way comparator, and back through the sign *)
  Definition cmp_of (lt : T -> T -> bool) (a b : T) : Z :=
    if lt a b then -1 else if lt b a then 1 else 0.

  Lemma swo_valid : forall lt, swo_on lt -> valid_on (cmp_of lt).
  Proof.
    intros lt [As Nt]. unfold cmp_of. split.
    - intros a b Ha Hb. pose proof (As a b Ha Hb). destruct (lt a b), (lt b a); intuition (discriminate || lia).
    - intros a b d Ha Hb Hd H1 H2.
      destruct (lt d a) eqn:E; [|destruct (lt a d); lia].
      (* a <= b, i.e. not b < a, and b <= d, i.e. not d < b, leave no room for d < a *)
      destruct (Nt d b a Hd Hb Ha E) as [E'|E']; rewrite E' in *.
      + pose proof (As d b Hd Hb E'). destruct (lt b d); [discriminate | lia].
      + pose proof (As b a Hb Ha E'). destruct (lt a b); [discriminate | lia].
  Qed.

  Lemma valid_swo : forall c, valid_on c -> swo_on (fun a b => c a b <? 0).
  Proof.
    intros c [A B]. split.
    - intros a b Ha Hb H. apply Z.ltb_lt in H. apply Z.ltb_ge. pose proof (A a b Ha Hb). lia.
    - intros a b d Ha Hb Hd H. apply Z.ltb_lt in H. rewrite !Z.ltb_lt.
      pose proof (B d b a Hd Hb Ha). pose proof (A a b Ha Hb). pose proof (A b d Hb Hd).
      pose proof (A a d Ha Hd). lia.
  Qed.

  Lemma order_fn_sign : forall (ts : layout (T -> T -> Z)) tb a b,
    order_fn ts tb a b = (then_cmp (cmp_tiers ts) (cmp_of tb) a b <? 0).
  Proof.
    intros. unfold order_fn, then_cmp, cmp_of.
    destruct (cmp_tiers ts a b =? 0); [destruct (tb a b), (tb b a)|]; reflexivity.
  Qed.

  (* two answers of opposite sign, ties broken by opposite booleans, give opposite verdicts *)
  Lemma sign_flip : forall (m n : Z) (x y : bool),
    (m < 0 <-> 0 < n) -> (n < 0 <-> 0 < m) -> x = negb y ->
    (if m =? 0 then x else m <? 0) = negb (if n =? 0 then y else n <? 0) /\
    (if m =? 0 then x else 0 <? m) = negb (if n =? 0 then y else 0 <? n).
  Proof.
    intros m n x y H1 H2 ->.
    destruct (Z.eqb_spec m 0), (Z.eqb_spec n 0); [auto | lia ..].
  Qed.

  Section WithLayout.
    Variable ts : layout (T -> T -> Z).
    Variable tb : T -> T -> bool.
    Hypothesis Hts : all_valid ts.
    Hypothesis Htb : swo_on tb.

    (* the session order function is a strict weak order on the set
       (asymmetric + negatively transitive; irreflexivity and transitivity
       follow) *)
    Theorem lex_order_strict_weak : swo_on (order_fn ts tb).
    Proof.
      destruct (valid_swo _ (valid_then _ _ (valid_cmp_tiers ts Hts) (swo_valid tb Htb))) as [As Nt].
      split; intros; rewrite !order_fn_sign in *; eauto.
    Qed.

    (* ... decided by the first distinguishing plugin, else by the tie-break *)
    Theorem order_fn_decided : forall l r,
      order_fn ts tb l r =
      (let j := lex (actives ts) l r in if j =? 0 then tb l r else j <? 0).
    Proof. intros. unfold order_fn. rewrite cmp_tiers_first_distinguishing. reflexivity. Qed.

    (* where the tie-break separates two items, so does the session order,
       and exactly one direction holds *)
    Theorem order_fn_flip : forall a b, dom a -> dom b ->
      tb a b = negb (tb b a) -> order_fn ts tb a b = negb (order_fn ts tb b a).
    Proof.
      destruct (valid_cmp_tiers ts Hts) as [Cas _].
      intros a b Ha Hb Hf. apply sign_flip; auto.
    Qed.
  End WithLayout.
End OrderLemmas.

(* the built-in tie-breaks *)

Lemma by_time_uid_swo : swo_on (fun _ => True) by_time_uid.
Proof.
  unfold by_time_uid. split.
  - intros a b _ _.
    destruct (Z.eqb_spec (i_ctime a) (i_ctime b)), (Z.eqb_spec (i_ctime b) (i_ctime a)); lia.
  - intros a b d _ _ _.
    destruct (Z.eqb_spec (i_ctime a) (i_ctime d)), (Z.eqb_spec (i_ctime a) (i_ctime b)),
             (Z.eqb_spec (i_ctime b) (i_ctime d)); lia.
Qed.

(* total: two items are left unordered only if creation time AND uid coincide *)
Lemma by_time_uid_total : forall a b,
  i_uid a <> i_uid b -> by_time_uid a b = negb (by_time_uid b a).
Proof.
  intros a b Hu. unfold by_time_uid. zcases; simpl; auto; lia.
Qed.

(* helpers.CompareTask: a strict weak order on any set of tasks whose pod
   names all carry a numeric index, and on any set where none does *)
Definition idx_kind (k : bool) (it : item) : Prop :=
  (if k then i_pidx it <> None else i_pidx it = None).

Lemma compare_task_swo : forall k, swo_on (idx_kind k) compare_task.
Proof.
  intros k. destruct by_time_uid_swo as [As Nt]. unfold idx_kind, compare_task. destruct k; split.
  - intros a b Ha Hb. destruct (i_pidx a) as [x|], (i_pidx b) as [y|]; try congruence.
    rewrite (Z.eqb_sym y x). destruct (Z.eqb_spec x y); [apply As; exact I|].
    destruct (Z.ltb_spec y x), (Z.ltb_spec x y); auto; lia.
  - intros a b d Ha Hb Hd.
    destruct (i_pidx a) as [x|], (i_pidx b) as [y|], (i_pidx d) as [z|]; try congruence.
    destruct (Z.eqb_spec x z), (Z.eqb_spec x y), (Z.eqb_spec y z); try lia; try (apply Nt; exact I);
      destruct (Z.ltb_spec z x), (Z.ltb_spec y x), (Z.ltb_spec z y); auto; lia.
  - intros a b Ha Hb. rewrite ?Ha, ?Hb. apply As; exact I.
  - intros a b d Ha Hb Hd. rewrite ?Ha, ?Hb, ?Hd. apply Nt; exact I.
Qed.

Lemma compare_task_total : forall a b,
  i_uid a <> i_uid b -> compare_task a b = negb (compare_task b a).
Proof.
  intros a b Hu. unfold compare_task.
  destruct (i_pidx a) as [x|], (i_pidx b) as [y|]; try (apply by_time_uid_total; auto).
  rewrite (Z.eqb_sym y x). destruct (Z.eqb_spec x y); [apply by_time_uid_total; auto|].
  destruct (Z.ltb_spec y x), (Z.ltb_spec x y); simpl; auto; lia.
Qed.

(* a pair of tasks of which exactly one carries a numeric pod index.  On sets containing such
   pairs compare_task is not a strict weak order, and no relation is that orders indexed tasks
   by index and mixed pairs by (creation time, UID), as the upstream unit test TestCompareTask
   (cases 3-6) expects: C11_compare_task_mixed_refuted, C11_compare_task_no_swo_extension *)
Definition mixed_pair (l r : item) : Prop :=
  (i_pidx l = None /\ i_pidx r <> None) \/ (i_pidx l <> None /\ i_pidx r = None).

(* comparators of the shipped plugins are valid everywhere *)
Definition everywhere {T} (_ : T) : Prop := True.

(* a comparator that reads its arguments through a projection inherits validity *)
Lemma valid_on_proj : forall {T U} (f : T -> U) (c : U -> U -> Z) (dom : T -> Prop),
  valid_on everywhere c -> valid_on dom (fun l r => c (f l) (f r)).
Proof. intros T U f c dom [A B]. split; intros; [apply A | eapply B]; unfold everywhere; eauto. Qed.

(* "higher priority first (difference of the two numbers), then c": the queue comparators of
   proportion and capacity *)
Lemma valid_prio_then : forall {T} (f : T -> Z) (c : T -> T -> Z),
  valid_on everywhere c ->
  valid_on everywhere (fun l r => if negb (f l =? f r) then f r - f l else c l r).
Proof.
  intros T f c Hc. apply (valid_ext everywhere (then_cmp (fun l r => f r - f l) c)).
  - intros a b _ _. unfold then_cmp.
    destruct (Z.eqb_spec (f a) (f b)), (Z.eqb_spec (f b - f a) 0); simpl; auto; lia.
  - apply valid_then; [split; intros; lia | exact Hc].
Qed.

Lemma cmp_priority_valid : valid_on everywhere cmp_priority.
Proof. unfold cmp_priority. split; [intros a b _ _ | intros a b d _ _ _]; zcases; simpl; lia. Qed.

(* three-way comparison of two integers, smaller first *)
Definition zcmp (s t : Z) : Z := if s =? t then 0 else if s <? t then -1 else 1.

Lemma zcmp_valid : valid_on everywhere zcmp.
Proof. unfold zcmp. split; [intros a b _ _ | intros a b d _ _ _]; zcases; lia. Qed.

Lemma cmp_share_valid : valid_on everywhere cmp_share.
Proof. exact (valid_on_proj k_share zcmp everywhere zcmp_valid). Qed.

Lemma cmp_gang_valid : valid_on everywhere cmp_gang.
Proof.
  unfold cmp_gang. split; [intros a b _ _ | intros a b d _ _ _].
  - destruct (k_ready a), (k_ready b); simpl; lia.
  - destruct (k_ready a), (k_ready b), (k_ready d); simpl; lia.
Qed.

Lemma cmp_sla_valid : valid_on everywhere cmp_sla.
Proof.
  unfold cmp_sla. split; [intros a b _ _ | intros a b d _ _ _].
  - destruct (k_deadline a), (k_deadline b); zcases; simpl; lia.
  - destruct (k_deadline a), (k_deadline b), (k_deadline d); zcases; simpl; lia.
Qed.

Lemma cmp_proportion_valid : valid_on everywhere cmp_proportion.
Proof. exact (valid_prio_then k_prio cmp_share cmp_share_valid). Qed.

Lemma cmp_zero_valid : forall {T}, valid_on (@everywhere T) (fun _ _ => 0).
Proof. intros. split; intros; lia. Qed.

Theorem plugin_comparators_valid : forall kind, valid_on everywhere (real_cmp kind).
Proof.
  intros kind.
  destruct (Z.eq_dec kind 1) as [->|]; [exact cmp_priority_valid|].
  destruct (Z.eq_dec kind 2) as [->|]; [exact cmp_gang_valid|].
  destruct (Z.eq_dec kind 3) as [->|]; [exact cmp_share_valid|].
  destruct (Z.eq_dec kind 4) as [->|]; [exact cmp_sla_valid|].
  destruct (Z.eq_dec kind 5) as [->|]; [exact cmp_proportion_valid|].
  assert (E : real_cmp kind = fun _ _ => 0).
  { unfold real_cmp. destruct kind as [|p|p]; auto.
    do 3 (try destruct p as [p|p|]); try reflexivity; congruence. }
  rewrite E. apply cmp_zero_valid.
Qed.

(* BuildVictimsPriorityQueue: on two distinct victims exactly one direction
   of the less function holds *)
Section VictimLessLemmas.
  Variable task_ts job_ts queue_ts vq_ts : layout (item -> item -> Z).
  Variable jobs : Z -> option vjob.
  Variable queues : Z -> option item.
  Variable pj : Z.
  Hypothesis Ht : all_valid everywhere task_ts.
  Hypothesis Hj : all_valid everywhere job_ts.
  Hypothesis Hq : all_valid everywhere queue_ts.
  Hypothesis Hv : all_valid everywhere (force_en_all vq_ts).
  (* different queue ids name queues with different UIDs *)
  Hypothesis Hqinj : forall q1 q2 a b, q1 <> q2 -> queues q1 = Some a -> queues q2 = Some b ->
                                       i_uid a <> i_uid b.

  Lemma task_flip : forall l r, i_uid l <> i_uid r ->
    task_order_fn task_ts l r = negb (task_order_fn task_ts r l).
  Proof.
    intros. unfold task_order_fn. apply (order_fn_flip everywhere); unfold everywhere; auto.
    apply compare_task_total; auto.
  Qed.

  Theorem victim_queue_order_total : forall l r b,
    i_uid (vt_item l) <> i_uid (vt_item r) ->
    victim_less task_ts job_ts queue_ts vq_ts jobs queues pj l r = Some b ->
    victim_less task_ts job_ts queue_ts vq_ts jobs queues pj r l = Some (negb b).
  Proof.
    intros l r b Hu. unfold victim_less.
    rewrite (Z.eqb_sym (vt_job r) (vt_job l)).
    pose proof (task_flip _ _ Hu) as TF.
    assert (JT : forall lj rj, job_then_task task_ts job_ts rj lj r l =
                               negb (job_then_task task_ts job_ts lj rj l r)).
    { intros lj rj. unfold job_then_task.
      destruct (valid_cmp_tiers everywhere job_ts Hj) as [Cas _].
      apply sign_flip; [apply Cas; exact I .. |]. rewrite TF, !negb_involutive. reflexivity. }
    destruct (vt_job l =? vt_job r).
    - intros H. inversion H. rewrite TF, negb_involutive. reflexivity.
    - destruct (jobs (vt_job l)) as [lj|] eqn:El, (jobs (vt_job r)) as [rj|] eqn:Er.
      + destruct (jobs pj).
        * rewrite (Z.eqb_sym (vj_queue rj) (vj_queue lj)).
          destruct (Z.eqb_spec (vj_queue lj) (vj_queue rj)).
          -- intros H. inversion H. rewrite JT. reflexivity.
          -- destruct (queues (vj_queue lj)) as [lq|] eqn:Ql, (queues (vj_queue rj)) as [rq|] eqn:Qr;
               try discriminate.
             intros H. inversion H. f_equal. unfold victim_queue_order_fn.
             destruct (valid_cmp_tiers everywhere _ Hv) as [Cas _].
             assert (Hqu : i_uid lq <> i_uid rq) by (eapply Hqinj; eauto).
             apply sign_flip; [apply Cas; exact I .. |]. unfold queue_order_fn.
             rewrite (order_fn_flip everywhere queue_ts by_time_uid Hq lq rq I I
                        (by_time_uid_total _ _ Hqu)), !negb_involutive. reflexivity.
        * intros H. inversion H. rewrite JT. reflexivity.
      + intros H. inversion H. reflexivity.
      + intros H. inversion H. reflexivity.
      + intros H. inversion H. rewrite TF, negb_involutive. reflexivity.
  Qed.
End VictimLessLemmas.

(* Non-vacuity: concrete layouts meeting the hypotheses of the main theorems *)

Definition ex_items : list item :=
  [mkItem 0 5 3 (Some 2); mkItem 1 5 1 (Some 0); mkItem 2 4 2 (Some 1)].
Definition ex_cmp_ctime (l r : item) : Z := i_ctime l - i_ctime r.
Definition ex_layout : layout (item -> item -> Z) :=
  [[mkSlot true false ex_cmp_ctime; mkSlot false true (fun _ _ => 7)]; [mkSlot true true ex_cmp_ctime]].

Lemma ex_layout_valid : all_valid everywhere ex_layout.
Proof.
  intros t p Ht Hp Ha. simpl in Ht.
  destruct Ht as [<-|[<-|[]]]; simpl in Hp.
  - destruct Hp as [<-|[<-|[]]]; discriminate.
  - destruct Hp as [<-|[]]. unfold ex_cmp_ctime. split; simpl; intros; lia.
Qed.

Example order_nonvacuous :
  all_valid everywhere ex_layout /\
  map (fun l => map (fun r => job_order_fn ex_layout l r) ex_items) ex_items =
  [[false; false; false]; [true; false; false]; [true; true; false]].
Proof. split; [exact ex_layout_valid | reflexivity]. Qed.

Example victims_nonvacuous :
  let ts := [[mkSlot true true (mkVote 1 [1; 2]); mkSlot true true (mkVote 1 [3])];
             [mkSlot true false (mkVote 1 [9]); mkSlot true true (mkVote 0 [8]);
              mkSlot true true (mkVote 1 [2; 3; 4]); mkSlot true true (mkVote (-1) [4; 2])]] in
  victims_fixed ts = [2; 4] /\ In 2 (victims_fixed ts).
Proof. vm_compute. auto. Qed.

Example votes_nonvacuous :
  vote_tiers [[mkSlot true true 0; mkSlot false true (-1)]; [mkSlot true true 1]; [mkSlot true true (-1)]] = true /\
  vote_tiers [[mkSlot true true 0]; [mkSlot true true 1; mkSlot true true (-1)]] = false.
Proof. split; reflexivity. Qed.
