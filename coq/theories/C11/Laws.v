(* C11 — executable forms of the property, evaluated on what the
   IMPLEMENTATION returned.  They are written against the flat specifications
   of Spec.v (membership, first tier, first distinguishing comparator) and
   against the order axioms themselves, not against the loops of Model.v. *)
From Coq Require Import ZArith List Bool.
From V Require Import C11.Model C11.Spec C11.HeapModel C11.Lemmas.
Import ListNotations.
Open Scope Z_scope.

Definition mem (x : Z) (l : list Z) : bool := existsb (Z.eqb x) l.
Definition is_nil {A} (l : list A) : bool := match l with [] => true | _ => false end.

(* x is put forward by every voting plugin of the tier *)
Definition common (t : list (slot vote)) (x : uid) : bool := forallb (mem x) (voters t).
(* the tier has at least one voter and its voters share a candidate *)
Definition has_agreement (t : list (slot vote)) : bool :=
  match voters t with
  | [] => false
  | c :: _ => existsb (common t) c
  end.
(* got = what Reclaimable/Preemptable/UnifiedEvictable returned: nothing when
   no tier agrees; otherwise exactly the common candidates of the FIRST
   agreeing tier (soundness: every returned victim is common; completeness:
   every common candidate is returned) *)
Definition law_victims (ts : layout vote) (got : list uid) : bool :=
  match find has_agreement ts with
  | None => is_nil got
  | Some t =>
      negb (is_nil got) && forallb (common t) got &&
      forallb (fun x => mem x got) (filter (common t) (hd [] (voters t)))
  end.

Lemma mem_in : forall x l, mem x l = true <-> In x l.
Proof.
  intros. unfold mem. rewrite existsb_exists. split.
  - intros [y [Hy E]]. apply Z.eqb_eq in E. subst. exact Hy.
  - intros H. exists x. split; auto. apply Z.eqb_refl.
Qed.

Lemma common_iff : forall t x, common t x = true <-> forall c, In c (voters t) -> In x c.
Proof.
  intros. unfold common. rewrite forallb_forall. split; intros H c Hc; apply mem_in; auto.
Qed.

Lemma has_agreement_iff : forall t, has_agreement t = true <-> agreement t <> [].
Proof.
  intros t. unfold has_agreement, agreement. destruct (voters t) as [|c cs] eqn:E.
  - split; [discriminate | congruence].
  - rewrite existsb_exists. split.
    + intros [x [Hx Hc]] Hn. rewrite common_iff, E in Hc.
      assert (In x (fold_left inter cs c)).
      { apply in_fold_inter. split; auto. intros c' Hc'. apply Hc. right; auto. }
      rewrite Hn in H. destruct H.
    + intros Hn. destruct (fold_left inter cs c) as [|x xs] eqn:Ef; [congruence|].
      assert (Hx : In x (fold_left inter cs c)) by (rewrite Ef; left; auto).
      apply in_fold_inter in Hx. destruct Hx as [H1 H2]. exists x. split; auto.
      apply common_iff. rewrite E. intros c' [<-|Hc']; auto.
Qed.

Definition law_all (ts : layout bool) (got : bool) : bool :=
  Bool.eqb got (forallb idb (actives ts)).
Definition law_any (ts : layout bool) (got : bool) : bool :=
  Bool.eqb got (existsb idb (actives ts)).
Definition law_starving (ts : layout bool) (got : bool) : bool :=
  Bool.eqb got (match find (existsb active) ts with
                | None => false
                | Some t => forallb idb (map s_ans (filter active t))
                end).
Definition oz_eqb (a b : option Z) : bool :=
  match a, b with
  | None, None => true
  | Some x, Some y => x =? y
  | _, _ => false
  end.
Definition law_valid (ts : layout (option (bool * Z))) (got : option Z) : bool :=
  oz_eqb got (hd_error (fails ts)).
Definition law_pred (ts : layout (option Z)) (got : option Z) : bool :=
  oz_eqb got (hd_error (somes (actives ts))).

Lemma law_all_model : forall ts, law_all ts (all_tiers ts) = true.
Proof. intros. unfold law_all. rewrite gate_conjunction. apply eqb_reflx. Qed.
Lemma law_any_model : forall ts, law_any ts (any_tiers ts) = true.
Proof. intros. unfold law_any. rewrite gate_disjunction. apply eqb_reflx. Qed.
Lemma law_starving_model : forall ts, law_starving ts (job_starving ts) = true.
Proof. intros. unfold law_starving. rewrite job_starving_spec. apply eqb_reflx. Qed.

Definition rejects (p : slot Z) : bool := active p && (s_ans p <? 0).
(* false iff some tier holds a reject and no earlier tier holds a permit *)
Fixpoint vote_spec (ts : layout Z) : bool :=
  match ts with
  | [] => true
  | t :: r => if existsb rejects t then false
              else if existsb permits t then true else vote_spec r
  end.
Definition law_vote (ts : layout Z) (got : bool) : bool := Bool.eqb got (vote_spec ts).

(* the flat vote specification IS the loop, so the law means the vote clause *)
Lemma vote_spec_eq : forall ts, vote_spec ts = vote_tiers ts.
Proof.
  induction ts as [|t r IH]; [reflexivity|]. simpl. rewrite vote_tier_spec. fold rejects.
  destruct (existsb rejects t); [reflexivity|]. simpl.
  destruct (existsb permits t); [reflexivity | exact IH].
Qed.

Lemma law_vote_model : forall ts, law_vote ts (vote_tiers ts) = true.
Proof. intros. unfold law_vote. rewrite vote_spec_eq. apply eqb_reflx. Qed.

Lemma oz_eqb_refl : forall a, oz_eqb a a = true.
Proof. destruct a; simpl; auto. apply Z.eqb_refl. Qed.
Lemma oz_eqb_eq : forall a b, oz_eqb a b = true -> a = b.
Proof. destruct a, b; simpl; intros H; try discriminate; auto. apply Z.eqb_eq in H. congruence. Qed.

Lemma law_valid_model : forall ts, law_valid ts (job_valid ts) = true.
Proof. intros. unfold law_valid. rewrite job_valid_spec. apply oz_eqb_refl. Qed.
Lemma law_valid_sound : forall ts got, law_valid ts got = true -> got = hd_error (fails ts).
Proof. intros ts got H. apply oz_eqb_eq. exact H. Qed.
Lemma law_pred_model : forall ts, law_pred ts (predicate ts) = true.
Proof. intros. unfold law_pred. rewrite predicate_spec. apply oz_eqb_refl. Qed.
Lemma law_pred_sound : forall ts got, law_pred ts got = true -> got = hd_error (somes (actives ts)).
Proof. intros ts got H. apply oz_eqb_eq. exact H. Qed.

Section OrderLaws.
  Variable items : list item.

  Definition all2 (f : item -> item -> bool) : bool :=
    forallb (fun a => forallb (fun b => f a b) items) items.
  Definition all3 (f : item -> item -> item -> bool) : bool :=
    forallb (fun a => forallb (fun b => forallb (fun d => f a b d) items) items) items.

  Definition cmp_valid_b (c : item -> item -> Z) : bool :=
    all2 (fun a b => Bool.eqb (c a b <? 0) (0 <? c b a)) &&
    all3 (fun a b d => implb ((c a b <=? 0) && (c b d <=? 0)) (c a d <=? 0)).
  Definition layout_valid_b (ts : layout (item -> item -> Z)) : bool :=
    forallb cmp_valid_b (actives ts).

  (* asymmetric and negatively transitive on the item set *)
  Definition swo_b (lt : item -> item -> bool) : bool :=
    all2 (fun a b => implb (lt a b) (negb (lt b a))) &&
    all3 (fun a b d => implb (lt a d) (lt a b || lt b d)).
  (* the two halves of swo_b, so that each can be a law of its own *)
  Definition asym_b (lt : item -> item -> bool) : bool :=
    all2 (fun a b => implb (lt a b) (negb (lt b a))).
  Definition negtrans_b (lt : item -> item -> bool) : bool :=
    all3 (fun a b d => implb (lt a d) (lt a b || lt b d)).
  Lemma swo_b_split : forall lt, swo_b lt = asym_b lt && negtrans_b lt.
  Proof. reflexivity. Qed.

  (* items with different UIDs are ordered one way or the other *)
  Definition total_b (lt : item -> item -> bool) : bool :=
    all2 (fun a b => (i_uid a =? i_uid b) || lt a b || lt b a).
  (* the answer is the sign of the first non-zero enabled registered
     comparator in tier order, else the tie-break *)
  Definition decided_b (ts : layout (item -> item -> Z)) (tb lt : item -> item -> bool) : bool :=
    all2 (fun a b => Bool.eqb (lt a b)
                       (let j := lex (actives ts) a b in if j =? 0 then tb a b else j <? 0)).

  (* all tasks of the set carry a numeric pod index, or none does *)
  Definition uniform_idx : bool :=
    forallb (fun a => match i_pidx a with Some _ => true | None => false end) items ||
    forallb (fun a => match i_pidx a with Some _ => false | None => true end) items.

  (* lt = the matrix the implementation returned for JobOrderFn / QueueOrderFn
     (tb = by_time_uid) or TaskOrderFn (tb = compare_task, guard = uniform_idx) *)
  Definition law_order (ts : layout (item -> item -> Z)) (tb : item -> item -> bool)
             (guard : bool) (lt : item -> item -> bool) : bool :=
    decided_b ts tb lt &&
    implb (layout_valid_b ts && guard) (swo_b lt && total_b lt).

  (* full strength for tasks: no guard on the pod indexes *)
  Definition law_task_order_full (ts : layout (item -> item -> Z)) (lt : item -> item -> bool) : bool :=
    implb (layout_valid_b ts) (swo_b lt && total_b lt).

  (* law_task_order_full split: what no finding can excuse (asymmetry, totality) and
     the negative-transitivity clause (the only one the CompareTask finding explains) *)
  Definition law_task_order_asym_total (ts : layout (item -> item -> Z)) (lt : item -> item -> bool) : bool :=
    implb (layout_valid_b ts) (asym_b lt && total_b lt).
  Definition law_task_order_negtrans (ts : layout (item -> item -> Z)) (lt : item -> item -> bool) : bool :=
    implb (layout_valid_b ts) (negtrans_b lt).
  Lemma law_task_order_full_split : forall ts lt,
    law_task_order_full ts lt = law_task_order_asym_total ts lt && law_task_order_negtrans ts lt.
  Proof.
    intros. unfold law_task_order_full, law_task_order_asym_total, law_task_order_negtrans.
    rewrite swo_b_split. destruct (layout_valid_b ts), (asym_b lt), (negtrans_b lt), (total_b lt); reflexivity.
  Qed.

  (* VictimQueueOrderFn on queues: first distinguishing victim comparator, else
     the reverse of the queue order; on distinct queues exactly one direction *)
  Definition law_victim_queue_order (vts qts : layout (item -> item -> Z))
             (lt : item -> item -> bool) : bool :=
    all2 (fun a b => Bool.eqb (lt a b)
                       (let j := lex (actives (force_en_all vts)) a b in
                        if j =? 0
                        then negb (let k := lex (actives qts) a b in
                                   if k =? 0 then by_time_uid a b else k <? 0)
                        else j <? 0)) &&
    implb (layout_valid_b (force_en_all vts) && layout_valid_b qts)
          (all2 (fun a b => (i_uid a =? i_uid b) || Bool.eqb (lt a b) (negb (lt b a)))).

  Lemma swo_b_spec : forall lt,
    swo_b lt = true -> swo_on (fun x => In x items) lt.
  Proof.
    intros lt H. unfold swo_b, all2, all3 in H. apply andb_prop in H. destruct H as [H1 H2].
    split.
    - intros a b Ha Hb Hl. rewrite forallb_forall in H1. specialize (H1 a Ha).
      rewrite forallb_forall in H1. specialize (H1 b Hb). rewrite Hl in H1. simpl in H1.
      destruct (lt b a); auto; discriminate.
    - intros a b d Ha Hb Hd Hl. rewrite forallb_forall in H2. specialize (H2 a Ha).
      rewrite forallb_forall in H2. specialize (H2 b Hb).
      rewrite forallb_forall in H2. specialize (H2 d Hd). rewrite Hl in H2. simpl in H2.
      apply orb_prop in H2. exact H2.
  Qed.
End OrderLaws.

Section HeapLaws.
  Variable less : Z -> Z -> bool.

  Fixpoint count (x : Z) (l : list Z) : nat :=
    match l with [] => O | y :: r => ((if (x =? y)%Z then 1 else 0) + count x r)%nat end.
  Definition same_multiset (a b : list Z) : bool :=
    (length a =? length b)%nat && forallb (fun x => (count x a =? count x b)%nat) a.

  (* the heap shape every state of the backing slice must have *)
  Definition heap_shape (l : list Z) : bool :=
    forallb (fun i => match nth_error l i, nth_error l ((i - 1) / 2) with
                      | Some c, Some p => negb (less c p)
                      | _, _ => false
                      end) (seq 1 (length l - 1)).

  (* one observed transition of the queue: before, the operation, what Pop
     returned (None = nil), after *)
  Definition law_heap_step (strict : bool) (before : list Z) (o : op (A:=Z)) (ret : option Z) (after : list Z) : bool :=
    match o with
    | OpPush x =>
        same_multiset after (before ++ [x]) && implb (strict && heap_shape before) (heap_shape after)
    | OpPop =>
        match before, ret with
        | [], None => is_nil after
        | _ :: _, Some x =>
            same_multiset (x :: after) before &&
            implb (strict && heap_shape before)
                  (heap_shape after && forallb (fun y => negb (less y x)) before)
        | _, _ => false
        end
    end.
End HeapLaws.

(* pop order of the victims queue: a permutation of the victims in which no
   later element precedes an earlier one under the less function *)
Definition law_sorted {A} (less : A -> A -> bool) (out : list A) : bool :=
  (fix go (l : list A) : bool :=
     match l with
     | [] => true
     | x :: r => forallb (fun y => negb (less y x)) r && go r
     end) out.

