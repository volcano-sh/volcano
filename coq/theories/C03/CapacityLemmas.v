(* C03, part B: theorems about the queue votes modelled in CapacityModel.v, quantified over all
   records, requests, hierarchies (no well-formedness assumed), and the witness tables (wit_qs,
   elastic_qs, ex_qs) of the refutations and examples.  The theorems nothing else uses are proved
   under their statements in Props/C03.v. *)
From stdpp Require Import gmap.
From Coq Require Import ZArith Lia.
From V Require Import Base.Res Base.ResLemmas Sched.LedgerInvP Sched.LedgerLemmasA Sched.QueueLemmasBase C03.CapacityModel.
Open Scope Z_scope.

Lemma amt_clone r d : amt (clone r) d = amt r d.
Proof. destruct r, d; reflexivity. Qed.

Lemma sc_clone r : sc (clone r) = sc r.
Proof. destruct r; reflexivity. Qed.

Lemma add_sc_none_l a x : sc (add a x) = None -> sc a = None.
Proof. unfold add. simpl. case_bool_decide; [tauto|discriminate]. Qed.

Lemma sub_sc_none a x : sc (sub a x) = None -> sc a = None.
Proof. unfold sub. simpl. destruct (sc a); [discriminate|reflexivity]. Qed.

Lemma forallb_chain {A} (f : A -> bool) (l : list A) (q : A) :
  forallb f (l ++ [q]) = true -> forall a, a = q \/ a ∈ l -> f a = true.
Proof.
  rewrite forallb_app. simpl. rewrite !andb_true_iff. intros [Hl [Hq _]] a [->|Ha]; [exact Hq|].
  rewrite forallb_forall in Hl. apply Hl. apply elem_of_list_In. exact Ha.
Qed.

Lemma total_req_amt reqs d :
  amt (total_req reqs) d = foldr (fun x acc => amt x d + acc) 0 reqs.
Proof.
  unfold total_req.
  assert (forall acc, amt (fold_left add reqs acc) d = amt acc d + foldr (fun x a => amt x d + a) 0 reqs) as H.
  { induction reqs as [|x l IH]; intros acc; simpl; [lia|]. rewrite IH, amt_add. lia. }
  rewrite H, amt_empty. lia.
Qed.

Lemma total_req_single req d : amt (total_req [req]) d = amt req d.
Proof. rewrite total_req_amt. simpl. lia. Qed.

(* ---------- capacity: AllocatableFn ---------- *)

(* one queue of the chain accepts: its record exists, has a realCapability, and
   allocated + reserved + request stays under it in every requested dimension *)
Lemma queue_fits_bound qs reserved req a :
  queue_fits qs reserved req a = true ->
  exists ra c, qs !! a = Some ra /\ qr_realcap ra = Some c /\
    forall d, requested req d -> amt (qr_alloc ra) d + amt (reserved a) d + amt req d <= amt c d.
Proof.
  unfold queue_fits, le_dim_opt, future_used.
  destruct (qs !! a) as [ra|]; [|discriminate]. destruct (qr_realcap ra) as [c|] eqn:Hrc; [|discriminate].
  intros H. exists ra, c. split; [reflexivity|]. split; [exact Hrc|].
  intros d Hd. pose proof (le_dim_add_bound _ _ _ H d Hd) as B.
  rewrite amt_add, amt_clone in B. exact B.
Qed.

Theorem capacity_allocatable_bound hier ready qs reserved q req :
  cap_allocatable hier ready qs reserved q req = true ->
  exists r, qs !! q = Some r /\ qr_open r = true /\ ready = true /\
    (hier = true -> qr_children r = 0%nat) /\
    forall a, a = q \/ a ∈ qr_ancestors r ->
      exists ra c, qs !! a = Some ra /\ qr_realcap ra = Some c /\
        forall d, requested req d ->
          amt (qr_alloc ra) d + amt (reserved a) d + amt req d <= amt c d.
Proof.
  unfold cap_allocatable. destruct (qs !! q) as [r|]; [|discriminate].
  rewrite !andb_true_iff. intros [[[Ho Hr] Hl] Hf]. exists r.
  split; [reflexivity|]. split; [exact Ho|]. split; [exact Hr|]. split.
  - intros ->. simpl in Hl. unfold is_leaf in Hl. apply bool_decide_eq_true in Hl. exact Hl.
  - intros a Ha. apply queue_fits_bound. exact (forallb_chain _ _ _ Hf a Ha).
Qed.
Print Assumptions capacity_allocatable_bound.

(* ---------- capacity: JobEnqueueableFn ---------- *)

(* exact in every requested dimension: the nil-map exception of Resource.sub cannot bite, since a
   sum without a scalar map means that minResources has none either and no scalar is requested *)
Lemma enq_total_bound ra m c :
  le_dim (enq_total ra m) c m = true ->
  forall d, requested m d ->
    amt m d + amt (qr_alloc ra) d + amt (qr_inqueue ra) d - amt (qr_elastic ra) d <= amt c d.
Proof.
  unfold enq_total. set (X := add (add (clone m) (qr_alloc ra)) (qr_inqueue ra)). intros Hle d Hd.
  assert (Hnil : sc X = None -> forall k, sget m k = 0).
  { intros E k. apply add_sc_none_l, add_sc_none_l in E. rewrite sc_clone in E. apply sget_nil, E. }
  assert (HX : amt (sub X (qr_elastic ra)) d = amt X d - amt (qr_elastic ra) d).
  { apply amt_sub_exact. destruct d as [| |k]; auto. do 2 right. intros E.
    destruct Hd as [_ Hq]. rewrite (Hnil E k) in Hq. lia. }
  pose proof (le_dim_bound _ _ _ Hle (fun E => Hnil (sub_sc_none _ _ E)) d Hd) as B.
  rewrite HX in B. unfold X in B. rewrite !amt_add, amt_clone in B. exact B.
Qed.

Lemma enq_fits_bound qs m a :
  enq_fits qs m a = true ->
  exists ra c, qs !! a = Some ra /\ qr_realcap ra = Some c /\
    forall d, requested m d ->
      amt m d + amt (qr_alloc ra) d + amt (qr_inqueue ra) d - amt (qr_elastic ra) d <= amt c d.
Proof.
  unfold enq_fits, le_dim_opt. destruct (qs !! a) as [ra|]; [|discriminate].
  destruct (qr_realcap ra) as [c|] eqn:Hrc; [|discriminate]. intros H. exists ra, c.
  split; [reflexivity|]. split; [exact Hrc|]. apply enq_total_bound. exact H.
Qed.

(* a Permit always means: ready, record, Open, leaf; with minResources and a realCapability on
   the queue, the admission bound holds for the queue and every ancestor, exactly in every
   dimension (enq_total_bound). *)
Theorem enqueue_vote_bound hier ready qs q minres :
  cap_enqueueable hier ready qs q minres = Permit ->
  exists r, qs !! q = Some r /\ ready = true /\ qr_open r = true /\
    (hier = true -> qr_children r = 0%nat) /\
    forall m, minres = Some m -> qr_realcap r <> None ->
      forall a, a = q \/ a ∈ qr_ancestors r ->
        exists ra c, qs !! a = Some ra /\ qr_realcap ra = Some c /\
          forall d, requested m d ->
            amt m d + amt (qr_alloc ra) d + amt (qr_inqueue ra) d - amt (qr_elastic ra) d <= amt c d.
Proof.
  unfold cap_enqueueable. destruct ready; simpl; [|discriminate].
  destruct (qs !! q) as [r|]; [|discriminate].
  destruct (hier && negb (is_leaf r)) eqn:Hl; [discriminate|].
  destruct (qr_open r) eqn:Ho; simpl; [|discriminate].
  intros H. exists r. split; [reflexivity|]. split; [reflexivity|]. split; [exact Ho|]. split.
  - intros ->. simpl in Hl. apply negb_false_iff in Hl. unfold is_leaf in Hl.
    apply bool_decide_eq_true in Hl. exact Hl.
  - intros m -> Hrc. destruct (qr_realcap r); [|congruence].
    destruct (forallb (enq_fits qs m) (chain r q)) eqn:Hf; [|discriminate].
    intros a Ha. apply enq_fits_bound. exact (forallb_chain _ _ _ Hf a Ha).
Qed.
Print Assumptions enqueue_vote_bound.

(* a queue the plugin holds no record for never gets a positive answer (Go: nil dereference) *)
Theorem no_record_no_vote eps hier ready qs reserved q :
  qs !! q = None ->
  (forall req, cap_allocatable hier ready qs reserved q req = false) /\
  (forall reqs, cap_preemptive eps ready qs q reqs = false) /\
  (forall minres, cap_enqueueable hier ready qs q minres = Reject) /\
  (forall reqs, prop_allocatable qs q reqs = false) /\
  (forall minres, prop_enqueueable qs q minres = Reject).
Proof.
  intros Hq. unfold cap_allocatable, cap_preemptive, cap_enqueueable, prop_allocatable, prop_enqueueable.
  rewrite Hq. repeat split; intros; try reflexivity. destruct ready; reflexivity.
Qed.
Print Assumptions no_record_no_vote.

(* ---------- proportion ---------- *)

Theorem proportion_preemptive_bound qs q reqs :
  prop_allocatable qs q reqs = true ->
  exists r, qs !! q = Some r /\ qr_open r = true /\
    forall d, requested (total_req reqs) d ->
      amt (qr_alloc r) d + amt (total_req reqs) d <= amt (qr_deserved r) d.
Proof.
  unfold prop_allocatable. destruct (qs !! q) as [r|]; [|discriminate].
  rewrite andb_true_iff. intros [Ho Hle]. exists r. split; [reflexivity|]. split; [exact Ho|].
  intros d Hd. pose proof (le_dim_add_bound _ _ _ Hle d Hd) as B. rewrite amt_clone in B. exact B.
Qed.
Print Assumptions proportion_preemptive_bound.

(* AllocatableFn = queueAllocatable on the one-element candidate list *)
Theorem proportion_allocatable_bound qs q req :
  prop_allocatable qs q [req] = true ->
  exists r, qs !! q = Some r /\ qr_open r = true /\
    forall d, requested req d -> amt (qr_alloc r) d + amt req d <= amt (qr_deserved r) d.
Proof.
  intros H. destruct (proportion_preemptive_bound _ _ _ H) as (r & Hq & Ho & B).
  exists r. split; [exact Hq|]. split; [exact Ho|]. intros d Hd.
  rewrite <- (total_req_single req d). apply B.
  apply requested_amt. rewrite total_req_single. apply requested_amt, Hd.
Qed.
Print Assumptions proportion_allocatable_bound.

(* proportion's OverusedFn: true exactly when deserved <= allocated up to the tolerance in every
   dimension of deserved (missing allocated scalar = 0) *)
Theorem prop_overused_spec eps qs q r :
  0 < eps -> qs !! q = Some r ->
  (prop_overused eps qs q = true <->
   cpu (qr_deserved r) < cpu (qr_alloc r) + eps /\ mem (qr_deserved r) < mem (qr_alloc r) + eps /\
   forall k v, scm (qr_deserved r) !! k = Some v -> v < sget (qr_alloc r) k + eps).
Proof.
  intros He Hq. unfold prop_overused. rewrite Hq. apply less_equal_zero_spec. exact He.
Qed.
Print Assumptions prop_overused_spec.

Lemma requestedb_spec req d : requestedb req d = true <-> requested req d.
Proof.
  destruct d; simpl; rewrite ?bool_decide_eq_true; try reflexivity.
  unfold ignored. rewrite andb_true_iff, negb_true_iff, bool_decide_eq_false, bool_decide_eq_true. reflexivity.
Qed.

Lemma requested_in_dims req d : requested req d -> d ∈ dims_of req.
Proof.
  unfold dims_of. destruct d; simpl; intros H.
  - apply elem_of_list_here.
  - apply elem_of_list_further, elem_of_list_here.
  - do 2 apply elem_of_list_further. destruct H as [_ H].
    destruct (scm req !! k) as [v|] eqn:E; [|rewrite (sget_none _ _ E) in H; lia].
    apply elem_of_list_fmap. exists k. split; [reflexivity|].
    apply elem_of_list_fmap. exists (k, v). split; [reflexivity|]. apply elem_of_map_to_list. exact E.
Qed.

Theorem bound_okb_spec req lhs rhs :
  bound_okb req lhs rhs = true <-> forall d, requested req d -> lhs d <= rhs d.
Proof.
  unfold bound_okb. rewrite forallb_forall. split.
  - intros H d Hd. specialize (H d). rewrite <- elem_of_list_In in H. specialize (H (requested_in_dims _ _ Hd)).
    apply orb_true_iff in H as [H|H].
    + apply negb_true_iff in H. apply requestedb_spec in Hd. congruence.
    + apply bool_decide_eq_true in H. exact H.
  - intros H d _. destruct (requestedb req d) eqn:E; simpl; [|reflexivity].
    apply bool_decide_eq_true. apply H. apply requestedb_spec. exact E.
Qed.
Print Assumptions bound_okb_spec.

(* PreemptiveFn consults the queue itself only.  Hierarchy root(1) > parent(2) > {A(3), B(4)}:
   the parent's realCapability is cpu 10, A holds 6, B holds 4 (parent: 10); B asks for 2 more with
   deserved 8 and its own realCapability 10: Preemptive says yes, Allocatable (which walks the
   ancestors) says no.  An action that places on Preemptive alone (reclaim before the fix
   bd1440f) lifts the parent above its capability. *)
Definition cpu_res (c : Z) : res := mkRes c 0 None.
Definition wit_qs : qmap :=
  list_to_map
    [(1%positive, mkQrec true (cpu_res 10) empty_res empty_res (cpu_res 0) (Some (cpu_res 1000)) [] 1);
     (2%positive, mkQrec true (cpu_res 10) empty_res empty_res (cpu_res 10) (Some (cpu_res 10)) [1%positive] 2);
     (3%positive, mkQrec true (cpu_res 6) empty_res empty_res (cpu_res 6) (Some (cpu_res 10)) [1%positive; 2%positive] 0);
     (4%positive, mkQrec true (cpu_res 4) empty_res empty_res (cpu_res 8) (Some (cpu_res 10)) [1%positive; 2%positive] 0)].

(* ---------- non-vacuity ---------- *)

(* three levels below the root; the grandparent's realCapability is the binding one:
   root(1) > gp(2, realCapability cpu 4, holds 3) > p(3, holds 1) > leaf(4, holds 1) *)
Definition ex_qs : qmap :=
  list_to_map
    [(1%positive, mkQrec true (cpu_res 3) empty_res empty_res empty_res (Some (cpu_res 1000)) [] 1);
     (2%positive, mkQrec true (cpu_res 3) empty_res empty_res empty_res (Some (cpu_res 4)) [1%positive] 2);
     (3%positive, mkQrec true (cpu_res 1) empty_res empty_res empty_res (Some (cpu_res 4)) [1%positive; 2%positive] 1);
     (4%positive, mkQrec true (cpu_res 1) empty_res empty_res empty_res (Some (cpu_res 4)) [1%positive; 2%positive; 3%positive] 0)].

Example ex_grandparent_binds :
  queue_fits ex_qs (fun _ => empty_res) (cpu_res 2) 4%positive = true /\
  queue_fits ex_qs (fun _ => empty_res) (cpu_res 2) 3%positive = true /\
  queue_fits ex_qs (fun _ => empty_res) (cpu_res 2) 2%positive = false /\
  cap_allocatable true true ex_qs (fun _ => empty_res) 4%positive (cpu_res 2) = false.
Proof. vm_compute. repeat split; reflexivity. Qed.
Print Assumptions ex_grandparent_binds.

Example ex_accepted :
  cap_allocatable true true ex_qs (fun _ => empty_res) 4%positive (cpu_res 1) = true /\
  cap_enqueueable true true ex_qs 4%positive (Some (cpu_res 1)) = Permit /\
  cap_enqueueable true true ex_qs 4%positive (Some (cpu_res 2)) = Reject /\
  cap_allocatable true true ex_qs (fun _ => empty_res) 3%positive (cpu_res 1) = false.
Proof. vm_compute. repeat split; reflexivity. Qed.
Print Assumptions ex_accepted.

(* the property text says "minResources fit under the capability together with what the queue has
   already allocated or admitted"; the plugins subtract the ELASTIC part of the allocation (what
   jobs hold beyond their own minResources; everything, for a job without minResources).  A queue
   of realCapability 4 whose 4 cpus are held by a job without minResources admits a PodGroup with
   minResources 4: reproduced on the real capacity and proportion plugins (docs/notes/C03.md). *)
Definition elastic_qs : qmap :=
  list_to_map [(1%positive, mkQrec true (cpu_res 4) empty_res (cpu_res 4) (cpu_res 4) (Some (cpu_res 4)) [] 0)].

