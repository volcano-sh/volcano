(* C03: the ancestor lists of the capacity plugin as Go slices over shared backing arrays.

   capacity.go updateAncestors (1483):
       attr(q).ancestors = append(attr(parent).ancestors, parent)
   and, before /repo 6f3139f, checkQueueAllocatableHierarchically (1681) and
   checkJobEnqueueableHierarchically (1727) built the list they walk with
       list := append(attr(q).ancestors, q)
   Go's append writes IN PLACE when len < cap and only otherwise allocates (capacity 1, 2, 4, 8,
   ... for these small slices).  Two children of the same parent then hold slices over the same
   array; a vote for one of them writes its own id just behind its slice -- exactly where a child
   of its sibling keeps that sibling's id.  The model keeps a heap of arrays and slices
   (array, len); it is executable, the pre-fix witness is computed (Props/C03.v), and the repaired list
   construction (copy to a fresh array) is proved to leave every stored slice as it was.

   Law 117 (regression stream of the harness): a vote changes neither the stored hierarchy nor
   the answer of a later identical vote. *)
From stdpp Require Import gmap.
From Coq Require Import ZArith List Lia.
Import ListNotations.
Open Scope Z_scope.

Record slice := mkSlice { sl_arr : positive; sl_len : nat }.
Record gheap := mkHeap { h_arrays : gmap positive (list positive); h_next : positive }.

Definition arr_of (h : gheap) (a : positive) : list positive := default [] (h_arrays h !! a).
(* the elements a slice shows *)
Definition view (h : gheap) (s : slice) : list positive := take (sl_len s) (arr_of h (sl_arr s)).

(* growslice for 8-byte elements and small sizes: 0 -> 1, otherwise doubled *)
Definition grow (c : nat) : nat := match c with O => 1%nat | _ => (2 * c)%nat end.

(* append(s, x) *)
Definition go_append (h : gheap) (s : slice) (x : positive) : gheap * slice :=
  let a := arr_of h (sl_arr s) in
  if (sl_len s <? length a)%nat then
    (* room behind the slice: write in place, the array is shared *)
    (mkHeap (<[sl_arr s := <[sl_len s := x]> a]> (h_arrays h)) (h_next h), mkSlice (sl_arr s) (S (sl_len s)))
  else
    let n := h_next h in
    let fresh := take (sl_len s) a ++ x :: repeat 1%positive (grow (length a) - S (sl_len s)) in
    (mkHeap (<[n := fresh]> (h_arrays h)) (Pos.succ n), mkSlice n (S (sl_len s))).

(* the repaired construction: append(append(make([]T, 0, len(s)+1), s...), x) *)
Definition fresh_append (h : gheap) (s : slice) (x : positive) : gheap * slice :=
  let n := h_next h in
  (mkHeap (<[n := view h s ++ [x]]> (h_arrays h)) (Pos.succ n), mkSlice n (S (sl_len s))).

(* the plugin's table: queue -> its stored ancestors slice *)
Record table := mkTable { t_heap : gheap; t_anc : gmap positive slice }.

Definition empty_slice : slice := mkSlice 1%positive 0.   (* array 1 is the empty array *)
Definition init_table : table := mkTable (mkHeap {[1%positive := []]} 2%positive) ∅.

Definition anc_of (t : table) (q : positive) : slice := default empty_slice (t_anc t !! q).
Definition ancestors (t : table) (q : positive) : list positive := view (t_heap t) (anc_of t q).

(* updateAncestors for a queue whose parent is already in the table; root has no parent *)
Definition add_queue (t : table) (q : positive) (parent : option positive) : table :=
  match parent with
  | None => mkTable (t_heap t) (<[q := empty_slice]> (t_anc t))
  | Some p =>
    let '(h', s') := go_append (t_heap t) (anc_of t p) p in
    mkTable h' (<[q := s']> (t_anc t))
  end.

(* what a vote does to the table, and the list it walks *)
Definition vote_prefix (t : table) (q : positive) : table * list positive :=
  let '(h', s') := go_append (t_heap t) (anc_of t q) q in (mkTable h' (t_anc t), view h' s').
Definition vote_fixed (t : table) (q : positive) : table * list positive :=
  let '(h', s') := fresh_append (t_heap t) (anc_of t q) q in (mkTable h' (t_anc t), view h' s').

(* ---------- the witness: root > q1 > q2 > q3 > q4 > q5 > { c1, c2 > g } ---------- *)
Definition qroot := 10%positive. Definition q1 := 11%positive. Definition q2 := 12%positive.
Definition q3 := 13%positive. Definition q4 := 14%positive. Definition q5 := 15%positive.
Definition c1 := 21%positive. Definition c2 := 22%positive. Definition g := 23%positive.

Definition witness_table : table :=
  fold_left (fun t qp => add_queue t (fst qp) (snd qp))
    [(qroot, None); (q1, Some qroot); (q2, Some q1); (q3, Some q2); (q4, Some q3); (q5, Some q4);
     (c1, Some q5); (c2, Some q5); (g, Some c2)] init_table.

Example witness_before : ancestors witness_table g = [qroot; q1; q2; q3; q4; q5; c2].
Proof. vm_compute. reflexivity. Qed.

(* the vote itself walks the right list in both versions *)
Example witness_vote_list :
  snd (vote_prefix witness_table c1) = [qroot; q1; q2; q3; q4; q5; c1] /\
  snd (vote_fixed witness_table c1) = [qroot; q1; q2; q3; q4; q5; c1].
Proof. split; vm_compute; reflexivity. Qed.

(* ---------- the repaired construction never touches a stored slice ---------- *)

(* every array id in use is below the allocation pointer *)
Definition heap_wf (h : gheap) : Prop := forall a, is_Some (h_arrays h !! a) -> (a < h_next h)%positive.

(* ---------- the construction itself (audit W3; repaired by /repo 675735a) ----------
   updateAncestors appended to the PARENT's slice: two children c1, c2 of a parent whose slice has
   spare capacity share one array, and a child of c1 and a child of c2 then both write the slot
   behind it -- whichever queue is registered last overwrites the parent recorded for the other. *)
Definition hq := 24%positive.

(* the repaired construction: the child's list is built on a fresh array *)
Definition add_queue_fixed (t : table) (q : positive) (parent : option positive) : table :=
  match parent with
  | None => mkTable (t_heap t) (<[q := empty_slice]> (t_anc t))
  | Some p =>
    let '(h', s') := fresh_append (t_heap t) (anc_of t p) p in
    mkTable h' (<[q := s']> (t_anc t))
  end.

Definition table_wf (t : table) : Prop :=
  heap_wf (t_heap t) /\ forall q s, t_anc t !! q = Some s -> is_Some (h_arrays (t_heap t) !! sl_arr s).

(* fresh_append shows the old view followed by x, leaves the view of every slice over an array in
   use as it was (the new array's id is the allocation pointer), and keeps the heap well-formed *)
Lemma fresh_append_view h s x : view (fst (fresh_append h s x)) (snd (fresh_append h s x)) = view h s ++ [x].
Proof.
  unfold view at 1, arr_of. simpl. rewrite lookup_insert. simpl.
  apply take_ge. unfold view. rewrite app_length, take_length. simpl. lia.
Qed.

Lemma fresh_append_other h s x s' :
  heap_wf h -> is_Some (h_arrays h !! sl_arr s') -> view (fst (fresh_append h s x)) s' = view h s'.
Proof.
  intros Hwf Hs. unfold view, arr_of. simpl. rewrite lookup_insert_ne; [reflexivity|].
  intros Heq. specialize (Hwf _ Hs). rewrite <- Heq in Hwf. lia.
Qed.

Lemma fresh_append_wf h s x : heap_wf h -> heap_wf (fst (fresh_append h s x)).
Proof.
  intros Hwf a [l Hl]. simpl in *. destruct (Pos.eq_dec a (h_next h)) as [->|Hne]; [lia|].
  rewrite lookup_insert_ne in Hl by congruence. specialize (Hwf a (ex_intro _ l Hl)). lia.
Qed.

(* ---------- law 117 ---------- *)
(* observed = [vote for g before; the disturbing vote; vote for g after; hierarchy unchanged;
               every stored ancestor list = the parent chain of the Queue objects] *)
Definition law_alias (toks : list Z) : option bool :=
  match toks with
  | [before; _; after; unchanged; chains] => Some ((before =? after) && (unchanged =? 1) && (chains =? 1))
  | _ => None
  end.
