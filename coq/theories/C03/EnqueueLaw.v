(* C03: executable laws of two further streams on the REAL actions.

   Law 119 (harness/cmd/c03/enqueue_stream.go): the JobEnqueueable vote and the enqueue action, judged
   against amounts RECOMPUTED here from the PodGroup objects and the pods -- not from the plugin's
   own allocated / inqueue / elastic records (a plugin that forgets to reserve for an admitted
   PodGroup whose pods do not exist yet agrees with itself).  Per job and dimension d
   (cpu, memory, gpu), what a job counts for in its queue is

       counted_j d = a + inq - elastic      a       = requests of its pods in an allocated status
                                            inq     = max (max (min_j d - a, 0) - gated_j d, 0) when minResources lists d and the
                                                      PodGroup is Inqueue (or Running with >= minMember pods allocated)
                                            elastic = max (a - min_j d, 0)   (min_j d = 0 when not listed / no minResources)

   i.e. exactly minResources for an admitted PodGroup, whether or not its pods exist.
     vote part:   JobEnqueueable = true for a Pending PodGroup with minResources M  =>  queue Open, leaf
                  (hierarchy), and for the queue and every ancestor a whose spec.capability limits d,
                  for every d with M d > 0:   M d + Σ_{j in the subtree of a} counted_j d <= capability_a d
     action part: a PodGroup with minResources that the real enqueue action moved Pending -> Inqueue
                  => queue Open, leaf, and the same sums over the FINAL phases are within capability.
     placement:   Allocatable(queue, a pending pod) = true  =>  queue Open, no child queue, and along the
                  chain candidate + requests of the subtree's allocated pods <= capability (place_within).

   Law 118 (preempt_stream.go): after the real preempt action, if the preemptor was pipelined its
   queue is Open and every queue of the chain holds (recomputed from pod specs) at most its capability. *)
From Coq Require Import ZArith List Bool Lia.
Import ListNotations.
Open Scope Z_scope.

Record equeue := mkEQ { eq_id : Z; eq_parent : Z; eq_open : bool; eq_cap : list (option Z) }.
Record ejob := mkEJ {
  ej_queue : Z; ej_before : Z; ej_after : Z;          (* phases: 1 Pending 2 Inqueue 3 Running *)
  ej_min : option (list (option Z));                  (* minResources: per dimension, None = not listed *)
  ej_member : Z; ej_anum : Z; ej_alloc : list Z;      (* minMember, #pods allocated, their requests *)
  ej_vote : Z;                                        (* JobEnqueueable: 0 false, 1 true, 2 not asked *)
  ej_gated : list Z;                                  (* requests of the job's scheduling-gated pods *)
  ej_avote : Z;                                       (* Allocatable(queue, a pending pod): 0 / 1 / 2 *)
  ej_cand : list Z }.                                 (* the request of that pending pod *)

Definition dims : list nat := [0%nat; 1%nat; 2%nat].

Definition min_at (j : ejob) (d : nat) : option Z :=
  match ej_min j with Some l => nth d l None | None => None end.

Definition counted (phase : Z) (j : ejob) (d : nat) : Z :=
  let a := nth d (ej_alloc j) 0 in
  let m0 := match min_at j d with Some v => v | None => 0 end in
  let reserves := (phase =? 2) || ((phase =? 3) && (ej_member j <=? ej_anum j)) in
  (* what an admitted PodGroup RESERVES is reduced by the requests of its scheduling-gated pods
     (JobInfo.DeductSchGatedResources, in OnSessionOpen and in JobEnqueuedFn); the VOTE for a
     PodGroup is on its full minResources *)
  let g := nth d (ej_gated j) 0 in
  let inq := match min_at j d with Some v => if reserves then Z.max (Z.max (v - a) 0 - g) 0 else 0 | None => 0 end in
  a + inq - Z.max (a - m0) 0.

Definition find_queue (qs : list equeue) (id : Z) : option equeue :=
  find (fun q => eq_id q =? id) qs.

(* q :: ancestors of q (parent 0 = none), bounded by the number of queues *)
Fixpoint chain_of (fuel : nat) (qs : list equeue) (id : Z) : list Z :=
  match fuel with
  | O => []
  | S f => match find_queue qs id with
           | Some q => id :: (if eq_parent q =? 0 then [] else chain_of f qs (eq_parent q))
           | None => []
           end
  end.

Definition chain (hier : bool) (qs : list equeue) (id : Z) : list Z :=
  if hier then chain_of (S (length qs)) qs id else [id].

Definition in_subtree (hier : bool) (qs : list equeue) (a q : Z) : bool :=
  existsb (fun x => x =? a) (chain hier qs q).

Definition subtree_sum (hier : bool) (qs : list equeue) (js : list ejob) (phase_of : ejob -> Z) (a : Z) (d : nat) : Z :=
  fold_left (fun acc j => if in_subtree hier qs a (ej_queue j) then acc + counted (phase_of j) j d else acc) js 0.

Definition is_leaf (qs : list equeue) (id : Z) : bool := negb (existsb (fun q => eq_parent q =? id) qs).

(* for every queue a of the chain and every dimension d that M asks for and a's capability limits *)
Definition within (hier : bool) (qs : list equeue) (q : Z) (j : ejob) (lhs : Z -> nat -> Z) : bool :=
  forallb (fun a =>
    match find_queue qs a with
    | None => false
    | Some qa =>
      forallb (fun d =>
        match min_at j d, nth d (eq_cap qa) None with
        | Some m, Some c => negb (0 <? m) || (lhs a d <=? c)
        | _, _ => true
        end) dims
    end) (chain hier qs q).

Definition open_leaf (hier : bool) (qs : list equeue) (q : Z) : bool :=
  match find_queue qs q with
  | Some x => eq_open x && (negb hier || is_leaf qs q)
  | None => false
  end.

(* requests, in dimension d, of the pods of a's subtree that are in an allocated status *)
Definition alloc_sum (hier : bool) (qs : list equeue) (js : list ejob) (a : Z) (d : nat) : Z :=
  fold_left (fun acc j => if in_subtree hier qs a (ej_queue j) then acc + nth d (ej_alloc j) 0 else acc) js 0.

(* the allocation bound for a positive placement vote: along the chain, in every dimension the
   candidate pod requests and the capability limits, candidate + alloc_sum <= capability (also when
   the candidate sits in the capacity plugin's gate-reserved cache, feature gate
   SchedulingGatesQueueAdmission) *)
Definition place_within (hier : bool) (qs : list equeue) (js : list ejob) (j : ejob) : bool :=
  forallb (fun a =>
    match find_queue qs a with
    | None => false
    | Some qa =>
      forallb (fun d =>
        match nth d (eq_cap qa) None with
        | Some c => negb (0 <? nth d (ej_cand j) 0) || (nth d (ej_cand j) 0 + alloc_sum hier qs js a d <=? c)
        | None => true
        end) dims
    end) (chain hier qs (ej_queue j)).

(* kind: 1 capacity flat, 2 capacity hierarchical, 3 proportion; + 10 = the gate-reserved family *)
Definition law_enqueue (kind : Z) (qs : list equeue) (js : list ejob) : bool :=
  let hier := (kind mod 10) =? 2 in
  forallb (fun j => negb (ej_avote j =? 1) || place_within hier qs js j) js &&
  (* placement vote: Allocatable = true only for an Open queue that has no child queue at all
     (leafness computed from the Queue objects' parents, whatever the children's state) *)
  forallb (fun j => negb (ej_avote j =? 1) || open_leaf hier qs (ej_queue j)) js &&
  forallb (fun j =>
    match ej_min j with
    | None => true
    | Some _ =>
      (* the vote *)
      (negb ((ej_vote j =? 1) && (ej_before j =? 1)) ||
       (open_leaf hier qs (ej_queue j) &&
        within hier qs (ej_queue j) j
          (fun a d => match min_at j d with Some m => m | None => 0 end + subtree_sum hier qs js ej_before a d))) &&
      (* the action *)
      (negb ((ej_before j =? 1) && (ej_after j =? 2)) ||
       (open_leaf hier qs (ej_queue j) &&
        within hier qs (ej_queue j) j (fun a d => subtree_sum hier qs js ej_after a d)))
    end) js.

(* ---- decoding (plain token lists; mask bit i = dimension i listed) ---- *)
Definition masked (mask : Z) (vals : list Z) : list (option Z) :=
  map (fun iv => if Z.testbit mask (Z.of_nat (fst iv)) then Some (snd iv) else None)
      (combine [0%nat; 1%nat; 2%nat] vals).

Fixpoint dec_queues (n : nat) (l : list Z) : option (list equeue * list Z) :=
  match n with
  | O => Some ([], l)
  | S k => match l with
           | id :: par :: op :: mask :: c0 :: c1 :: c2 :: r =>
             match dec_queues k r with
             | Some (qs, r') => Some (mkEQ id par (negb (op =? 0)) (masked mask [c0; c1; c2]) :: qs, r')
             | None => None end
           | _ => None end
  end.

Fixpoint dec_jobs (n : nat) (l : list Z) : option (list ejob * list Z) :=
  match n with
  | O => Some ([], l)
  | S k => match l with
           | _id :: q :: pb :: pa :: hasmin :: mask :: m0 :: m1 :: m2 :: mem :: an :: a0 :: a1 :: a2 :: vote ::
             g0 :: g1 :: g2 :: avote :: c0 :: c1 :: c2 :: r =>
             match dec_jobs k r with
             | Some (js, r') =>
               Some (mkEJ q pb pa (if hasmin =? 0 then None else Some (masked mask [m0; m1; m2])) mem an [a0; a1; a2] vote
                          [g0; g1; g2] avote [c0; c1; c2] :: js, r')
             | None => None end
           | _ => None end
  end.

Definition law_enqueue_toks (toks : list Z) : option bool :=
  match toks with
  | kind :: nq :: r =>
    if (nq <? 0) || (1000 <? nq) then None else
    match dec_queues (Z.to_nat nq) r with
    | Some (qs, nj :: r') =>
      if (nj <? 0) || (1000 <? nj) then None else
      match dec_jobs (Z.to_nat nj) r' with
      | Some (js, []) => Some (law_enqueue kind qs js)
      | _ => None end
    | _ => None end
  | _ => None
  end.

(* ---- law 118 ---- *)
Fixpoint pairs_under (l : list Z) : bool :=
  match l with
  | [] => true
  | h :: c :: r => ((c =? 0) || (h <=? c)) && pairs_under r
  | _ => false
  end.

Definition law_preempt (toks : list Z) : option bool :=
  match toks with
  | pipelined :: _ :: leaf_open :: n :: rest =>
    if Z.of_nat (length rest) =? 2 * n then
      Some ((pipelined <=? 0) || ((leaf_open =? 1) && pairs_under rest))
    else None
  | _ => None
  end.

Lemma counted_inqueue_gated (j : ejob) (d : nat) (m : Z) :
  min_at j d = Some m -> 0 <= nth d (ej_alloc j) 0 ->
  counted 2 j d = Z.min (nth d (ej_alloc j) 0) m + Z.max (Z.max (m - nth d (ej_alloc j) 0) 0 - nth d (ej_gated j) 0) 0.
Proof. intros Hm Ha. unfold counted. rewrite Hm. simpl. lia. Qed.

(* an admitted PodGroup none of whose pods is allocated reserves its minResources minus what its
   scheduling-gated pods request *)
Lemma counted_inqueue_gated_unplaced (j : ejob) (d : nat) (m : Z) :
  min_at j d = Some m -> nth d (ej_alloc j) 0 = 0 -> 0 <= m ->
  counted 2 j d = Z.max (m - nth d (ej_gated j) 0) 0.
Proof. intros Hm Ha Hm0. rewrite (counted_inqueue_gated j d m Hm) by lia. rewrite Ha. lia. Qed.

Lemma place_within_spec hier qs js j :
  place_within hier qs js j = true ->
  forall a, In a (chain hier qs (ej_queue j)) ->
    exists qa, find_queue qs a = Some qa /\
      forall d c, In d dims -> nth d (eq_cap qa) None = Some c -> 0 < nth d (ej_cand j) 0 ->
        nth d (ej_cand j) 0 + alloc_sum hier qs js a d <= c.
Proof.
  unfold place_within. rewrite forallb_forall. intros H a Ha. specialize (H a Ha).
  destruct (find_queue qs a) as [qa|]; [|discriminate]. exists qa. split; [reflexivity|].
  rewrite forallb_forall in H. intros d c Hd Hc Hpos. specialize (H d Hd). rewrite Hc in H.
  apply orb_prop in H as [H|H]; [apply negb_true_iff, Z.ltb_ge in H; lia|apply Z.leb_le, H].
Qed.

(* the gated deduction is the code's reading, not the property's (C03_enqueue_gated_strict_reading_refuted):
   capability 4 cpu; an admitted PodGroup (minResources 3 cpu) whose three 1-cpu pods are all
   scheduling-gated reserves nothing; the real capacity and proportion plugins admit a Pending
   PodGroup with minResources 2 cpu (observed: vote 1, Pending -> Inqueue); law 119, which follows
   DeductSchGatedResources, accepts the observation although 2 + 3 > 4 *)
Definition gated_strict_qs : list equeue := [mkEQ 1 0 true [Some 4000; None; None]].
Definition gated_strict_js : list ejob :=
  [mkEJ 1 2 2 (Some [Some 3000; None; None]) 1 0 [0; 0; 0] 2 [3000; 3; 0] 2 [0; 0; 0];
   mkEJ 1 1 2 (Some [Some 2000; None; None]) 1 0 [0; 0; 0] 1 [0; 0; 0] 2 [0; 0; 0]].

