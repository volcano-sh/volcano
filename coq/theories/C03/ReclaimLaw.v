(* C03: executable law of the reclaim regression stream (harness/cmd/c03/reclaim_stream.go).
   The harness runs the real reclaim action on a hierarchical-queue cluster and reports
     [Preemptive before; Allocatable before; task pipelined; #evictions; n;
      (allocated, held, realCapability) * n]
   for the task's leaf queue and its ancestors (cpu, milli-units): [allocated] is the capacity
   plugin's own per-queue ledger after the action, [held] is recomputed by the harness from the
   session's task statuses (requests of the tasks of the queue's subtree that are Allocated,
   Pipelined, Binding, Bound or Running).  Law: the ledger equals the recomputed sum, and a
   placement leaves every queue of the chain within its realCapability -- the property's "the same
   bound holds for every ancestor queue".  (Before /repo bd1440f the real action violated it:
   capacity's PreemptiveFn looks at the leaf only and reclaim asked nothing else.) *)
From Coq Require Import ZArith List.
Import ListNotations.
Open Scope Z_scope.

Fixpoint triples_ok (placed : bool) (l : list Z) : bool :=
  match l with
  | [] => true
  | a :: h :: c :: r => (a =? h) && (negb placed || ((a <=? c) && (h <=? c))) && triples_ok placed r
  | _ => false
  end.

Definition law_reclaim (toks : list Z) : option bool :=
  match toks with
  | _ :: _ :: placed :: _ :: n :: rest =>
    if Z.of_nat (length rest) =? 3 * n then Some (triples_ok (negb (placed =? 0)) rest) else None
  | _ => None
  end.

