(* C03: the placement decision of the reclaim action (reclaim.go reclaimForTask 225-270, after
   /repo bd1440f), as a function of what it consults -- there is no reclaim ACTION skeleton in
   Sched/CycleModel.v (allocate and backfill only); this is the one decision that matters for C03.

     victims are evicted until the task fits the node (possibly NONE: the node may already have
     room although legal victims of other queues sit on it);   fits_node := InitResreq <= FutureIdle
     then, in BOTH cases,  ssn.Allocatable(queue, task)  on the ledger as it is after the evictions;
     only then nodeStmt.Pipeline.

   [qs_after] are the plugin's records after the tentative evictions (= the records before, when
   nothing was evicted).  C03_reclaim_placement_bound (Props/C03.v)
   does not mention whether a victim was evicted. *)
From stdpp Require Import gmap.
From Coq Require Import ZArith List.
From V Require Import Base.Res C03.CapacityModel.
Import ListNotations.
Open Scope Z_scope.

Definition reclaim_pipelines (hier ready : bool) (qs_after : qmap) (reserved : positive -> res)
    (q : positive) (req : res) (fits_node : bool) : bool :=
  fits_node && cap_allocatable hier ready qs_after reserved q req.

(* the seeded variant: the vote is only repeated when a victim was evicted ("ssn.Preemptive has
   just admitted the task against the same usage") *)
Definition reclaim_pipelines_skip (evicted : bool) (hier ready : bool) (qs_after : qmap)
    (reserved : positive -> res) (q : positive) (req : res) (fits_node : bool) : bool :=
  fits_node && (negb evicted || cap_allocatable hier ready qs_after reserved q req).

